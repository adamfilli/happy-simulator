(** C14 — B-tree: the tree invariant, put / get / delete / scan against a sorted
    association list ([alookup], [ainsert] of C14/LsmProofs.v; [remove], [range]
    here), and the refinement to the reference map. *)
From HS Require Import Base.Prelude C14.Model C14.LsmProofs C14.BtModel C14.BtProofs C14.BtRep C14.BtIns.
Local Open Scope Z_scope.

Definition remove (k : Z) (l : list (Z * Z)) : list (Z * Z) := filter (fun p => negb (fst p =? k)) l.
Definition range (lo hi : Z) (l : list (Z * Z)) : list (Z * Z) := filter (fun p => (lo <=? fst p) && (fst p <? hi)) l.

Lemma filter_none {A} (f : A -> bool) l : (forall x, In x l -> f x = false) -> filter f l = [].
Proof. induction l as [|x r IH]; intros H; cbn; [reflexivity|]. rewrite (H x (or_introl eq_refl)). apply IH. intros y Hy. apply H. right. exact Hy. Qed.

Lemma alookup_remove k l k' : alookup k' (remove k l) = if k' =? k then None else alookup k' l.
Proof.
  induction l as [|[x y] r IH]; cbn [remove filter alookup fst]; [destruct (k' =? k); reflexivity|].
  fold (remove k r). destruct (x =? k) eqn:E; cbn [negb alookup].
  - rewrite IH. destruct (k' =? k) eqn:E2; [reflexivity|]. replace (k' =? x) with false by lia. reflexivity.
  - rewrite IH. destruct (k' =? x) eqn:E2; [replace (k' =? k) with false by lia; reflexivity|reflexivity].
Qed.

Lemma remove_absent k l : alookup k l = None -> remove k l = l.
Proof.
  induction l as [|[x y] r IH]; cbn [remove filter alookup fst]; [reflexivity|]. fold (remove k r).
  rewrite (Z.eqb_sym x k). destruct (k =? x); [discriminate|]. intros H. cbn [negb]. f_equal. exact (IH H).
Qed.

Lemma remove_mid k A C B : between A B k -> remove k (A ++ C ++ B) = A ++ remove k C ++ B.
Proof.
  intros [HA HB]. unfold remove. rewrite !filter_app. fold (remove k A) (remove k C) (remove k B).
  rewrite (remove_absent k A), (remove_absent k B); [reflexivity| |]; apply alookup_none_keys; intros X.
  - specialize (HB k X). lia.
  - specialize (HA k X). lia.
Qed.

Lemma remove_at_0 {A} (y : A) l : remove_at 0 (y :: l) = l.
Proof. reflexivity. Qed.
Lemma remove_at_S {A} i (y : A) l : remove_at (S i) (y :: l) = y :: remove_at i l.
Proof. reflexivity. Qed.

(** The leaf step of _delete. *)
Lemma leaf_remove ks : forall lo hi vs k, keys_in lo hi ks -> length vs = length ks -> found ks k = true ->
  let idx := bisect_left ks k in
  combine (remove_at idx ks) (remove_at idx vs) = remove k (combine ks vs) /\ keys_in lo hi (remove_at idx ks) /\
  length (remove_at idx vs) = length (remove_at idx ks) /\ S (length (remove_at idx ks)) = length ks.
Proof.
  induction ks as [|x r IH]; intros lo hi vs k K E F; cbn zeta; [discriminate|].
  destruct vs as [|y vr]; [discriminate|]. injection E as E. destruct K as (A & B & C).
  cbn [bisect_left combine]. destruct (x <? k) eqn:E1.
  - rewrite found_cons_lt in F by lia. destruct (IH (Some (x + 1)) hi vr k C E F) as (I1 & I2 & I3 & I4).
    rewrite !remove_at_S. cbn [combine remove filter fst length keys_in]. fold (remove k (combine r vr)). replace (x =? k) with false by lia. cbn [negb].
    rewrite I1, I3, I4. auto.
  - rewrite found_cons_ge in F by lia.
    rewrite !remove_at_0. cbn [remove filter fst]. rewrite F. cbn [negb]. fold (remove k (combine r vr)).
    rewrite (remove_absent k (combine r vr)) by (apply (alookup_none_above hi x); [exact C|exact E|lia]).
    split; [reflexivity|]. split; [exact (keys_in_tail lo hi x r A C)|]. split; [exact E|reflexivity].
Qed.

Lemma lookup_ok : forall f t d id lo hi kvs fp k,
  rep (heap t) d id lo hi kvs fp -> lo_ok lo k -> hi_ok hi k -> (d <= f)%nat ->
  leaf_lookup (hget (find_leaf f t id k) (heap t)) k = alookup k kvs.
Proof.
  induction f as [|f IH]; intros t d id lo hi kvs fp k R L H Hf; [destruct R; inversion Hf|].
  cbn [find_leaf]. destruct (b_leaf (hget id (heap t))) eqn:Lf.
  - destruct (rep_leaf_inv R Lf) as (_ & -> & _ & E & K). apply (leaf_lookup_alookup lo hi); assumption.
  - destruct (node_step k R Lf L H) as (d' & lo' & hi' & A & C & B & fpC & [-> R' L' H' -> AB _ _]).
    rewrite (alookup_mid k A C B AB). exact (IH t d' _ lo' hi' C fpC k R' L' H' (le_S_n _ _ Hf)).
Qed.

(** [_delete] on leaf [lid]: the leaf without its entry for [k], one key less *)
Definition leaf_without (n : bnode) (k : Z) : bnode :=
  mkNode true (remove_at (bisect_left (b_keys n) k) (b_keys n)) (remove_at (bisect_left (b_keys n) k) (b_vals n)) (b_kids n).
Definition delete_at (t : btree) (lid k : Z) : btree :=
  mkBt (hset lid (leaf_without (hget lid (heap t)) k) (heap t)) (root t) (depth t) (total t - 1) (nxt t) (order t).

Lemma delete_ok : forall f t d id lo hi kvs fp k,
  rep (heap t) d id lo hi kvs fp -> lo_ok lo k -> hi_ok hi k -> (d <= f)%nat -> (forall x, In x fp -> x < nxt t) ->
  found (b_keys (hget (find_leaf f t id k) (heap t))) k = true ->
  changed (remove k) t (delete_at t (find_leaf f t id k) k) d id lo hi kvs fp.
Proof.
  induction f as [|f IH]; intros t d id lo hi kvs fp k R L H Hf Hx; [destruct R; inversion Hf|].
  cbn [find_leaf]. destruct (b_leaf (hget id (heap t))) eqn:Lf; intros F.
  - destruct (rep_leaf_inv R Lf) as (-> & -> & -> & E & K).
    destruct (leaf_remove _ lo hi _ k K E F) as (U1 & U2 & U3 & U4).
    exists [id]. rewrite <- U1. split; [|split].
    + apply (rep_leaf_at (kids := b_kids (hget id (heap t)))); [apply hget_hset_same|exact U3|exact U2].
    + eapply bt_ext_hset; [reflexivity|left|..]; reflexivity.
    + cbn [total delete_at]. rewrite !zlen_combine by assumption. unfold zlen. lia.
  - destruct (node_step k R Lf L H)
      as (d' & lo' & hi' & A & C & B & fpC & [-> R' L' H' E AB Sub Up]).
    apply (Up _ _ (remove_mid k A C B AB) Hx).
    exact (IH t d' _ lo' hi' C fpC k R' L' H' (le_S_n _ _ Hf) (fun x Q => Hx x (Sub x Q)) F).
Qed.

Section ScanKids.
  Variables (rec : Z -> list (Z * Z)) (keys : list Z) (lo hi : Z).
  Fixpoint scan_kids (i : nat) (cs : list Z) : list (Z * Z) :=
    match cs with
    | [] => []
    | c :: cr =>
        let skip_high := (Nat.ltb i (length keys)) && (nth i keys 0 <=? lo) in
        let brk_low := (Nat.ltb 0 i) && (nth (pred i) keys 0 >=? hi) in
        if skip_high then scan_kids (S i) cr
        else if brk_low then []
        else rec c ++ scan_kids (S i) cr
    end.
End ScanKids.

Lemma scan_node_unfold f t nid lo hi :
  scan_node (S f) t nid lo hi =
  let n := hget nid (heap t) in
  if b_leaf n then scan_leaf (b_keys n) (b_vals n) lo hi
  else scan_kids (fun c => scan_node f t c lo hi) (b_keys n) lo hi 0 (b_kids n).
Proof. reflexivity. Qed.

Lemma range_app lo hi a b : range lo hi (a ++ b) = range lo hi a ++ range lo hi b.
Proof. apply filter_app. Qed.

Lemma range_none_lt lo hi l : (forall y, In y (map fst l) -> y < lo) -> range lo hi l = [].
Proof. intros H. apply filter_none. intros [a b] Hin. cbn. specialize (H a (in_map fst _ _ Hin)). lia. Qed.
Lemma range_none_ge lo hi l : (forall y, In y (map fst l) -> hi <= y) -> range lo hi l = [].
Proof. intros H. apply filter_none. intros [a b] Hin. cbn. specialize (H a (in_map fst _ _ Hin)). lia. Qed.

Lemma scan_leaf_range ks : forall lb hb vs lo hi, keys_in lb hb ks -> length vs = length ks ->
  scan_leaf ks vs lo hi = range lo hi (combine ks vs).
Proof.
  induction ks as [|x r IH]; intros lb hb vs lo hi K E; [reflexivity|].
  destruct vs as [|y vr]; [cbn in E; lia|]. destruct K as (A & B & C). cbn [scan_leaf combine range filter fst].
  fold (range lo hi (combine r vr)).
  destruct (x >=? hi) eqn:E1.
  - replace ((lo <=? x) && (x <? hi)) with false by lia. symmetry. apply range_none_ge. intros z Hz.
    rewrite map_fst_combine in Hz by (cbn in E; lia). destruct (keys_in_all C z Hz) as [Q _]. cbn in Q. lia.
  - rewrite (IH (Some (x + 1)) hb vr lo hi C ltac:(cbn in E; lia)). destruct (x >=? lo) eqn:E2.
    + replace ((lo <=? x) && (x <? hi)) with true by lia. reflexivity.
    + replace ((lo <=? x) && (x <? hi)) with false by lia. reflexivity.
Qed.

Lemma skipn_head {A} (l : list A) : forall i x r d, skipn i l = x :: r -> nth i l d = x /\ (i < length l)%nat /\ skipn (S i) l = r.
Proof.
  induction l as [|y l IH]; intros i x r d E; destruct i; cbn in *; try discriminate.
  - inversion E. repeat split; auto. lia.
  - destruct (IH _ _ _ d E) as (Q1 & Q2 & Q3). repeat split; auto. lia.
Qed.

(** the children loop of _scan_node breaks at child [i] when the separator left
    of it is not below [hi]: no key from there on is *)
Lemma break_low lo hi lb allkeys i l : ((0 < i)%nat -> lb = Some (nth (pred i) allkeys 0)) ->
  (0 <? i)%nat && (nth (pred i) allkeys 0 >=? hi) = true -> (forall y, In y (map fst l) -> lo_ok lb y) ->
  range lo hi l = [].
Proof.
  intros Hlb Eb Hl. apply andb_true_iff in Eb as [Eb1 Eb2]. apply Nat.ltb_lt in Eb1. rewrite (Hlb Eb1) in Hl.
  apply range_none_ge. intros y Hy. apply Z.geb_le in Eb2. exact (Z.le_trans _ _ _ Eb2 (Hl y Hy)).
Qed.

Lemma scan_ok h :
  (forall d id lb hb kvs fp, rep h d id lb hb kvs fp ->
     forall f t lo hi, heap t = h -> (d <= f)%nat -> scan_node f t id lo hi = range lo hi kvs) /\
  (forall d cs ks lb hb kvs fp, reps h d cs ks lb hb kvs fp ->
     forall f t lo hi allkeys i, heap t = h -> (d <= f)%nat -> ks = skipn i allkeys ->
       ((0 < i)%nat -> lb = Some (nth (pred i) allkeys 0)) ->
       scan_kids (fun c => scan_node f t c lo hi) allkeys lo hi i cs = range lo hi kvs).
Proof.
  apply rep_reps_ind.
  - intros id lb hb L E K f t lo hi Ht Hf. destruct f as [|f]; [lia|]. rewrite scan_node_unfold. cbv zeta. rewrite Ht, L.
    apply (scan_leaf_range _ lb hb); assumption.
  - intros d id lb hb kvs fp L R IH N f t lo hi Ht Hf. destruct f as [|f]; [lia|]. rewrite scan_node_unfold. cbv zeta. rewrite Ht, L.
    apply IH; [exact Ht|lia|reflexivity|lia].
  - intros d c lb hb kvs fp R IH f t lo hi allkeys i Ht Hf Hk Hlb. cbn [scan_kids].
    assert (Hi : (length allkeys <= i)%nat).
    { destruct (Nat.le_gt_cases (length allkeys) i) as [Q|Q]; [exact Q|exfalso].
      assert (length (skipn i allkeys) = 0%nat) by (rewrite <- Hk; reflexivity). rewrite skipn_length in H. lia. }
    replace (i <? length allkeys)%nat with false by (symmetry; apply Nat.ltb_ge; exact Hi). cbn [andb].
    destruct ((0 <? i)%nat && (nth (pred i) allkeys 0 >=? hi)) eqn:Eb.
    + symmetry. apply (break_low lo hi lb allkeys i kvs Hlb Eb). intros y Hy. exact (proj1 (rep_key_bounds R Hy)).
    + rewrite app_nil_r. apply IH; assumption.
  - intros d c cs k0 ks lb hb kvs1 fp1 kvs2 fp2 R1 IH1 R2 IH2 A B D f t lo hi allkeys i Ht Hf Hk Hlb. cbn [scan_kids].
    destruct (skipn_head allkeys i k0 ks 0 (eq_sym Hk)) as (Hn & Hi & Hs).
    replace (i <? length allkeys)%nat with true by (symmetry; apply Nat.ltb_lt; exact Hi). cbn [andb]. rewrite Hn.
    assert (Tail : scan_kids (fun c0 => scan_node f t c0 lo hi) allkeys lo hi (S i) cs = range lo hi kvs2).
    { apply IH2; [exact Ht|exact Hf|symmetry; exact Hs|]. intros _. cbn [pred]. rewrite Hn. reflexivity. }
    destruct (k0 <=? lo) eqn:E1.
    + rewrite range_app, Tail, (range_none_lt lo hi kvs1); [reflexivity|]. intros y Hy.
      destruct (rep_key_bounds R1 Hy) as [_ Q]. apply Z.leb_le in E1. exact (Z.lt_le_trans _ _ _ Q E1).
    + destruct ((0 <? i)%nat && (nth (pred i) allkeys 0 >=? hi)) eqn:Eb.
      * symmetry. apply (break_low lo hi lb allkeys i _ Hlb Eb). intros y Hy.
        exact (proj1 (reps_key_bounds (reps_cons _ _ _ _ _ _ _ _ _ _ _ _ R1 R2 A B D) Hy)).
      * rewrite range_app, Tail. f_equal. apply IH1; assumption.
Qed.

Definition bt_inv (t : btree) (kvs : list (Z * Z)) : Prop :=
  exists d fp, rep (heap t) d (root t) None None kvs fp /\ depth t = Z.of_nat d /\
               (forall x, In x fp -> x < nxt t) /\ 2 <= order t /\ total t = zlen kvs.

Lemma bt_init_inv ord : 2 <= ord -> bt_inv (bt_init ord) [].
Proof.
  intros H. exists 1%nat, [0]. split; [|split; [reflexivity|split; [intros x [<-|[]]; cbn; lia|split; [exact H|reflexivity]]]].
  apply (rep_leaf_at (ks := []) (vs := []) (kids := [])); cbn; auto.
Qed.

Lemma bt_get_ok t kvs k : bt_inv t kvs -> bt_get_sync t k = alookup k kvs.
Proof.
  intros (d & fp & R & Hd & _). apply (lookup_ok _ t d _ None None kvs fp); [exact R|exact I|exact I|lia].
Qed.

Lemma bt_scan_ok t kvs lo hi : bt_inv t kvs -> bt_scan t lo hi = range lo hi kvs.
Proof.
  intros (d & fp & R & Hd & _). unfold bt_scan.
  apply (proj1 (scan_ok (heap t)) _ _ _ _ _ _ R); [reflexivity|lia].
Qed.

Lemma changed_inv op t t' kvs : bt_inv t kvs ->
  (forall d fp, rep (heap t) d (root t) None None kvs fp -> depth t = Z.of_nat d -> (forall x, In x fp -> x < nxt t) ->
                changed op t t' d (root t) None None kvs fp) ->
  bt_inv t' (op kvs).
Proof.
  intros (d & fp & R & Hd & Hf & Ho & Ht) Ch. destruct (Ch d fp R Hd Hf) as (fp' & J1 & J2 & J3).
  exists d, fp'. rewrite (ext_root J2), (ext_depth J2), (ext_order J2).
  split; [exact J1|]. split; [exact Hd|]. split; [exact (bt_ext_below J2 Hf)|]. split; [exact Ho|]. lia.
Qed.

Lemma insert_root_ok t kvs k v : bt_inv t kvs ->
  bt_inv (insert_non_full (S (Z.to_nat (depth t))) t (root t) k v) (ainsert k v kvs).
Proof.
  intros Inv. apply (changed_inv _ t _ kvs Inv). intros d fp R Hd Hf. destruct Inv as (_ & _ & _ & _ & _ & Ho & _).
  apply insert_ok; [exact R|exact I|exact I|lia|exact Hf|exact Ho].
Qed.

(** what _insert does to a full root: a new root above it, then _split_child *)
Definition grow_root (t : btree) : btree :=
  let nr := nxt t in
  let t0 := mkBt (hset nr (mkNode false [] [] [root t]) (heap t)) (root t) (depth t) (total t) (nxt t + 1) (order t) in
  let t0' := split_child t0 nr 0 in
  mkBt (heap t0') nr (depth t + 1) (total t0') (nxt t0') (order t).

Lemma grow_root_ok t kvs : bt_inv t kvs -> (1 <= length (b_keys (hget (root t) (heap t))))%nat -> bt_inv (grow_root t) kvs.
Proof.
  intros (d & fp & R & Hd & Hf & Ho & Ht) Hk. unfold grow_root. cbv zeta.
  set (nr := nxt t). set (t0 := mkBt (hset nr _ (heap t)) _ _ _ _ _).
  assert (Hnr : ~ In nr fp) by (intros X; specialize (Hf nr X); unfold nr in Hf; lia).
  assert (G0 : hget nr (heap t0) = mkNode false [] [] [root t]) by apply hget_hset_same.
  assert (R0 : rep (heap t0) (S d) nr None None kvs (nr :: fp)).
  { apply (rep_node_at G0); [|exact Hnr]. apply reps_one, (rep_frame (heap t)); [exact R|].
    intros x Hx. apply hget_hset_other. intros ->. exact (Hnr Hx). }
  assert (Hf0 : forall x, In x (nr :: fp) -> x < nxt t0).
  { intros x [<-|Hx]; cbn; [unfold nr; lia|specialize (Hf x Hx); lia]. }
  destruct (split_child_ok (idx := 0%nat) R0) as (fp1 & sep & S1 & S2 & S3 & _).
  { rewrite G0. reflexivity. }
  { rewrite G0. cbn. lia. }
  { rewrite G0. cbn [b_kids nth t0 heap]. rewrite hget_hset_other; [exact Hk|].
    intros E. apply Hnr. rewrite <- E. apply (rep_root_in R). }
  { exact Hf0. }
  set (t0' := split_child t0 nr 0) in *.
  exists (S d), fp1. cbn [heap root depth total nxt order].
  split; [exact S1|]. split; [rewrite Nat2Z.inj_succ, <- Hd; reflexivity|]. split; [exact (bt_ext_below S2 Hf0)|]. split; [exact Ho|]. rewrite S3. exact Ht.
Qed.

Lemma bt_insert_ok t kvs k v : bt_inv t kvs -> bt_inv (bt_insert t k v) (ainsert k v kvs).
Proof.
  intros I.
  change (bt_insert t k v) with
    (let t1 := if zlen (b_keys (hget (root t) (heap t))) >=? order t - 1 then grow_root t else t in
     insert_non_full (S (Z.to_nat (depth t1))) t1 (root t1) k v).
  cbv zeta. apply insert_root_ok. destruct (zlen (b_keys (hget (root t) (heap t))) >=? order t - 1) eqn:Efull; [|exact I].
  apply grow_root_ok; [exact I|]. destruct I as (_ & _ & _ & _ & _ & Ho & _). unfold zlen in Efull. lia.
Qed.

Lemma bt_delete_ok t kvs k : bt_inv t kvs ->
  bt_inv (fst (bt_delete t k)) (remove k kvs) /\ snd (bt_delete t k) = (if alookup k kvs then true else false).
Proof.
  intros Inv. assert (G : leaf_lookup (hget (find_leaf (S (Z.to_nat (depth t))) t (root t) k) (heap t)) k = alookup k kvs).
  { destruct Inv as (d & fp & R & Hd & _). apply (lookup_ok _ t d _ None None kvs fp); [exact R|exact I|exact I|lia]. }
  unfold bt_delete. revert G. unfold leaf_lookup.
  set (lid := find_leaf (S (Z.to_nat (depth t))) t (root t) k).
  fold (found (b_keys (hget lid (heap t))) k). destruct (found (b_keys (hget lid (heap t))) k) eqn:F; intros G; cbn [fst snd]; rewrite <- G.
  - split; [|reflexivity]. apply (changed_inv _ t (delete_at t lid k) kvs Inv). intros d fp R Hd Hf.
    apply delete_ok; [exact R|exact I|exact I|lia|exact Hf|exact F].
  - rewrite (remove_absent k kvs (eq_sym G)). split; [exact Inv|reflexivity].
Qed.

Definition bt_run (ord : Z) (ops : list bop) : btree := fold_left (fun t o => fst (b_apply t o)) ops (bt_init ord).

Definition kv_apply (kvs : list (Z * Z)) (o : bop) : list (Z * Z) :=
  match o with BPut k v => ainsert k v kvs | BDel k => remove k kvs | BGet _ | BScan _ _ => kvs end.

Lemma kv_apply_spec kvs m o :
  (forall k, alookup k kvs = m k) -> forall k, alookup k (kv_apply kvs o) = spec_apply m (conv_op o) k.
Proof.
  intros E k'. destruct o as [k v|k|k|lo hi]; cbn [kv_apply conv_op spec_apply]; auto.
  - rewrite alookup_ainsert, E. reflexivity.
  - rewrite alookup_remove, E. reflexivity.
Qed.

Lemma b_apply_inv t kvs o : bt_inv t kvs -> bt_inv (fst (b_apply t o)) (kv_apply kvs o).
Proof.
  intros I. destruct o as [k v|k|k|lo hi]; cbn [b_apply kv_apply fst]; auto.
  - apply bt_insert_ok, I.
  - destruct (bt_delete t k) as [t' b] eqn:E. pose proof (bt_delete_ok t kvs k I) as [A _]. rewrite E in A. exact A.
Qed.

Lemma bt_fold_inv ops : forall t kvs m, bt_inv t kvs -> (forall k, alookup k kvs = m k) ->
  exists kvs', bt_inv (fold_left (fun t o => fst (b_apply t o)) ops t) kvs' /\
               forall k, alookup k kvs' = fold_left spec_apply (map conv_op ops) m k.
Proof.
  induction ops as [|o r IH]; intros t kvs m I E; cbn [fold_left map]; [exists kvs; auto|].
  apply (IH _ (kv_apply kvs o)); [apply b_apply_inv, I|apply kv_apply_spec, E].
Qed.

Lemma bt_run_inv ord ops : 2 <= ord ->
  exists kvs, bt_inv (bt_run ord ops) kvs /\ forall k, alookup k kvs = spec_of (map conv_op ops) k.
Proof. intros Ho. apply (bt_fold_inv ops (bt_init ord) [] (fun _ => None)); [apply bt_init_inv, Ho|reflexivity]. Qed.

Lemma sorted_of_keys_in lo hi ks : keys_in lo hi ks -> strictly_increasing ks.
Proof.
  revert lo; induction ks as [|x r IH]; intros lo K; cbn; [exact I|]. destruct K as (A & B & C). split; [|apply (IH _ C)].
  intros y Hy. destruct (keys_in_all C y Hy) as [Q _]. cbn in Q. lia.
Qed.

Lemma bt_inv_sorted t kvs : bt_inv t kvs -> asorted kvs.
Proof. intros (d & fp & R & _). exact (proj2 (asorted_increasing kvs) (sorted_of_keys_in _ _ _ (rep_keys R))). Qed.

Example bt_refinement_nontrivial :
  let ops := [BPut 5 50; BPut 1 10; BPut 9 90; BPut 3 30; BPut 7 70; BDel 1; BPut 4 40; BPut 6 60] in
  depth (bt_run 3 ops) = 3 /\ bt_get_sync (bt_run 3 ops) 4 = Some 40 /\ bt_get_sync (bt_run 3 ops) 1 = None /\
  bt_scan (bt_run 3 ops) 4 8 = [(4, 40); (5, 50); (6, 60); (7, 70)].
Proof. vm_compute. repeat split. Qed.
