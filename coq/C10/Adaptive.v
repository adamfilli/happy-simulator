(** Adaptive (AIMD) policy, exact-rational instance: the rate stays in [min, max]; the
    bucket bound holds for the largest admissible rate; between feedback calls the
    policy IS a token bucket with capacity rate*window, so the time_until_available
    theorems transfer from C10/TokenBucket.v. *)
From HS Require Import Base.Prelude C10.Model C10.QFacts C10.TokenBucket.
From Coq Require Import QArith Lqa.
Local Open Scope Q_scope.

Definition tbp_of (p : adp Qops) (s : ads Qops) : tbp Qops := Build_tbp Qops (ad_rate s * ad_win p) (ad_rate s).
Definition tbs_of (s : ads Qops) : tbs Qops := Build_tbs Qops (ad_tokens s) (ad_last s).

Section AD.
  Variable p : adp Qops.
  Implicit Types s : ads Qops.
  Notation refill := (ad_refill Qops p).
  Notation acquire := (ad_acquire Qops p).
  Notation tua := (ad_tua Qops p).
  Notation step := (ad_step Qops p).

  Lemma sim_refill s now :
    tbs_of (refill s now) = tb_refill Qops (tbp_of p s) (tbs_of s) now /\ ad_rate (refill s now) = ad_rate s.
  Proof.
    unfold ad_refill, tb_refill, tbs_of, tbp_of. cbn [tb_last tb_tokens tb_cap tb_rate].
    destruct (ad_last s) eqn:EL; [destruct (nle Qops _ _)|]; cbn; rewrite ?EL; auto.
  Qed.

  Lemma sim_acquire s now :
    tb_acquire Qops (tbp_of p s) (tbs_of s) now = (tbs_of (fst (acquire s now)), snd (acquire s now)) /\
    ad_rate (fst (acquire s now)) = ad_rate s.
  Proof.
    unfold ad_acquire, tb_acquire. destruct (sim_refill s now) as [E R]. rewrite <- E.
    unfold tbs_of at 1 2 3. cbn [tb_tokens tb_last].
    destruct (nle Qops (n1 Qops) (ad_tokens (refill s now))); cbn; auto.
  Qed.

  Lemma sim_tua s now :
    tb_tua Qops (tbp_of p s) (tbs_of s) now = (tbs_of (fst (tua s now)), snd (tua s now)) /\
    ad_rate (fst (tua s now)) = ad_rate s.
  Proof.
    unfold ad_tua, tb_tua. destruct (sim_refill s now) as [E R]. rewrite <- E.
    unfold tbs_of at 1 2 3. cbn [tb_tokens tb_last tb_rate tbp_of].
    destruct (nle Qops (n1 Qops) (ad_tokens (refill s now))); cbn [fst snd]; rewrite ?R; auto.
  Qed.

  Lemma sim_step s o :
    tb_step Qops (tbp_of p s) (tbs_of s) o = (tbs_of (fst (step s (ACall o))), snd (step s (ACall o))) /\
    ad_rate (fst (step s (ACall o))) = ad_rate s.
  Proof.
    destruct o as [t|t]; cbn [tb_step ad_step].
    - destruct (sim_acquire s t) as [E R]. rewrite E. destruct (acquire s t); cbn; auto.
    - destruct (sim_tua s t) as [E R]. rewrite E. destruct (tua s t); cbn; auto.
  Qed.

  Lemma tbp_of_rate s s' : ad_rate s' = ad_rate s -> tbp_of p s' = tbp_of p s.
  Proof. intros E. unfold tbp_of. rewrite E. reflexivity. Qed.

  Lemma sim_run ops : forall s,
    snd (run_count agranted step s (map ACall ops)) =
    snd (run_count granted (tb_step Qops (tbp_of p s)) (tbs_of s) ops).
  Proof.
    induction ops as [|o r IH]; intros s; [reflexivity|]. cbn [map].
    destruct (sim_step s o) as [E R]. rewrite !run_count_snd, E. cbn [fst snd agranted].
    rewrite IH, (tbp_of_rate _ _ R). reflexivity.
  Qed.

  Theorem ad_tua_zero_acquires s now s1 : 0 < ad_rate s -> tua s now = (s1, 0%Z) ->
    snd (acquire s now) = true /\ snd (acquire s1 now) = true.
  Proof.
    intros HR H. destruct (sim_tua s now) as [E R]. rewrite H in E, R. cbn [fst snd] in E, R.
    destruct (tb_tua_zero_acquires (tbp_of p s) HR _ _ _ E) as [A B].
    destruct (sim_acquire s now) as [E1 _]. rewrite E1 in A. cbn [snd] in A. split; [exact A|].
    destruct (sim_acquire s1 now) as [E2 _]. rewrite (tbp_of_rate _ _ R) in E2. rewrite E2 in B. exact B.
  Qed.

  Theorem ad_tua_positive_blocks s now s1 w ops :
    0 < ad_rate s -> 0 <= ad_win p -> tb_ready (tbs_of s) now -> tua s now = (s1, w) -> (0 < w)%Z ->
    nondecr now ops -> (last_time now ops < now + w)%Z ->
    snd (run_count agranted step s1 (map ACall ops)) = 0%Z.
  Proof.
    intros HR HW Hr H Hw Hnd HD. destruct (sim_tua s now) as [E R]. rewrite H in E, R. cbn [fst snd] in E, R.
    rewrite sim_run, (tbp_of_rate _ _ R).
    apply (tb_tua_positive_blocks (tbp_of p s) HR ltac:(cbn; apply Qmult_le_0_compat; lra) _ now _ w ops Hr E Hw Hnd HD).
  Qed.

  Theorem ad_tua_progress s now : 0 < ad_rate s -> 1 <= ad_rate s * ad_win p -> tb_ready (tbs_of s) now ->
    let '(s1, w1) := tua s now in
    let '(s2, w2) := tua s1 (now + w1) in
    let '(s3, w3) := tua s2 (now + w1 + w2) in
    w3 = 0%Z /\ (0 <= w1)%Z /\ (0 <= w2)%Z.
  Proof.
    intros HR HC Hr.
    pose proof (tb_tua_progress (tbp_of p s) HR ltac:(cbn; lra) HC (tbs_of s) now Hr) as P.
    destruct (sim_tua s now) as [E1 R1]. rewrite E1 in P. destruct (tua s now) as [s1 w1]. cbn [fst snd] in *.
    destruct (sim_tua s1 (now + w1)) as [E2 R2]. rewrite (tbp_of_rate _ _ R1) in E2. rewrite E2 in P.
    destruct (tua s1 (now + w1)) as [s2 w2]. cbn [fst snd] in *.
    destruct (sim_tua s2 (now + w1 + w2)) as [E3 R3]. rewrite (tbp_of_rate s s2) in E3 by congruence. rewrite E3 in P.
    destruct (tua s2 (now + w1 + w2)) as [s3 w3]. exact P.
  Qed.

  Hypothesis min_pos : 0 < ad_min p.
  Hypothesis min_le_max : ad_min p <= ad_max p.
  Hypothesis inc_nonneg : 0 <= ad_inc p.
  Hypothesis dec_range : 0 < ad_dec p /\ ad_dec p <= 1.
  Hypothesis win_nonneg : 0 <= ad_win p.

  Definition rate_ok s : Prop := ad_min p <= ad_rate s /\ ad_rate s <= ad_max p.

  Lemma step_rate s o : rate_ok s -> rate_ok (fst (step s o)).
  Proof using min_pos min_le_max inc_nonneg dec_range.
    intros [A B]. destruct o as [o|t|t].
    - destruct (sim_step s o) as [_ R]. unfold rate_ok. rewrite R. auto.
    - cbn [ad_step fst]. unfold rate_ok, ad_success. cbn [ad_rate]. qsimp.
      destruct (nmin_q (ad_max p) (ad_rate s + ad_inc p)) as [[C ->]|[C ->]]; split; lra.
    - cbn [ad_step fst]. unfold rate_ok, ad_failure. cbn [ad_rate]. qsimp.
      assert (ad_rate s * ad_dec p <= ad_rate s).
      { destruct dec_range. assert (ad_rate s * ad_dec p <= ad_rate s * 1) by (apply Qmult_le_l; lra). lra. }
      destruct (nmax_q (ad_min p) (ad_rate s * ad_dec p)) as [[C ->]|[C ->]]; split; lra.
  Qed.

  (** Bucket bound for the largest admissible rate R: granted in any stretch <= R*window + R*(last - first). *)
  Notation R := (ad_max p).
  Notation B := (ad_max p * ad_win p).

  Definition ad_wf s (lo : Z) : Prop := rate_ok s /\ tb_wf B (tbs_of s) lo.

  Lemma ad_wf_weaken s lo lo' : ad_wf s lo -> (lo <= lo')%Z -> ad_wf s lo'.
  Proof. intros [A W] H. split; [exact A|exact (tb_wf_mono B _ lo lo' W H)]. Qed.

  (** [step_bound] below for feedback: only the rate moves, nothing is admitted. *)
  Lemma feedback_bound s s1 lo t : ad_wf s lo -> (lo <= t)%Z -> rate_ok s1 -> tbs_of s1 = tbs_of s ->
    ad_wf s1 t /\ 0 + ad_tokens s1 <= B /\
    (forall l, ad_last s = Some l -> 0 + ad_tokens s1 <= ad_tokens s + R * qsecs (t - l)) /\
    (ad_last s1 = Some t \/ (0 == 0 /\ ad_tokens s1 == ad_tokens s /\ ad_last s1 = ad_last s)).
  Proof.
    intros [[K1 K2] W] Hlo RK1 E. pose proof W as (T0 & TB & TL). inversion E as [[ET EL]].
    cbn [tbs_of tb_tokens tb_last] in T0, TB, TL. rewrite ET, EL.
    split; [split; [exact RK1|rewrite E; exact (tb_wf_mono B _ lo t W Hlo)]|]. split; [lra|].
    split; [|right; repeat split; reflexivity]. intros l El. rewrite El in TL.
    pose proof (rate_secs_nonneg R (t - l) ltac:(lra) ltac:(lia)). lra.
  Qed.

  (** A call is a step of the token bucket of the current rate (at most R, capacity at most B). *)
  Lemma step_bound s lo o : ad_wf s lo -> (lo <= atime_of o)%Z ->
    let s1 := fst (step s o) in let a := inject_Z (agranted o (snd (step s o))) in
    ad_wf s1 (atime_of o) /\ a + ad_tokens s1 <= B /\
    (forall l, ad_last s = Some l -> a + ad_tokens s1 <= ad_tokens s + R * qsecs (atime_of o - l)) /\
    (ad_last s1 = Some (atime_of o) \/ (a == 0 /\ ad_tokens s1 == ad_tokens s /\ ad_last s1 = ad_last s)).
  Proof.
    intros Hwf Hlo. pose proof (step_rate s o (proj1 Hwf)) as RK1.
    destruct o as [o|t|t]; [|exact (feedback_bound s _ lo t Hwf Hlo RK1 eq_refl)..].
    destruct Hwf as [[K1 K2] W]. pose proof W as (_ & _ & TL). cbn [atime_of agranted tbs_of tb_last] in *.
    destruct (sim_step s o) as [E _].
    assert (CB : tb_cap (tbp_of p s) <= B) by (apply Qmult_le_compat_r; assumption).
    pose proof (tb_step_bound (tbp_of p s) ltac:(cbn; lra) ltac:(cbn; apply Qmult_le_0_compat; lra) B (tbs_of s) lo o CB W Hlo) as SB.
    rewrite E in SB. cbn [fst snd tbs_of tb_tokens tb_last tbp_of tb_rate] in SB.
    destruct SB as (W1 & S1 & S2 & S3). split; [split; assumption|]. split; [exact S1|]. split; [|exact S3].
    intros l El. specialize (S2 l El). rewrite El in TL.
    pose proof (Qmult_le_compat_r _ _ (qsecs (time_of o - l)) K2 (qsecs_nonneg (time_of o - l) ltac:(lia))). lra.
  Qed.

  Fixpoint anondecr (l : Z) (ops : list aop) : Prop :=
    match ops with [] => True | o :: r => (l <= atime_of o)%Z /\ anondecr (atime_of o) r end.
  Fixpoint alast_time (l : Z) (ops : list aop) : Z :=
    match ops with [] => l | o :: r => alast_time (atime_of o) r end.
  Definition asorted (ops : list aop) : Prop :=
    match ops with [] => True | o :: r => anondecr (atime_of o) r end.

  Notation count := (run_count agranted step).

  Theorem ad_never_over_admits s0 pre mid :
    rate_ok s0 -> ad_tokens s0 == ad_rate s0 * ad_win p -> ad_last s0 = None -> asorted (pre ++ mid) ->
    let s1 := fst (count s0 pre) in
    inject_Z (snd (count s1 mid)) <=
      B + R * qsecs (match mid with [] => 0 | o :: r => alast_time (atime_of o) r - atime_of o end).
  Proof.
    intros RK HT HL Hs. pose proof RK as [K1 K2].
    apply (bucket_stretch atime_of agranted step (@ad_tokens Qops) (@ad_last Qops) ad_wf R B).
    - lra.
    - intros s lo W. exact (proj2 W).
    - exact ad_wf_weaken.
    - exact step_bound.
    - intros lo. split; [exact RK|]. unfold tb_wf. cbn [tbs_of tb_tokens tb_last]. rewrite HL, HT.
      split; [apply Qmult_le_0_compat; lra|]. split; [apply Qmult_le_compat_r; assumption|exact I].
    - exact Hs.
  Qed.
End AD.

(** The hypotheses are satisfiable and the statements non-vacuous: min 1, max 4, step 1, factor 1/2,
    window 1 s, start rate 2 (2 tokens): two grants, a denial, feedback moves the rate within [1, 4]. *)
Example ad_example :
  let p := Build_adp Qops 1 4 1 (1 # 2) 1 in
  let s0 := Build_ads Qops 2 2 None in
  (0 < ad_min p /\ ad_min p <= ad_max p /\ 0 <= ad_inc p /\ (0 < ad_dec p /\ ad_dec p <= 1) /\ 0 <= ad_win p) /\
  rate_ok p s0 /\ ad_tokens s0 == ad_rate s0 * ad_win p /\
  snd (run_count agranted (ad_step Qops p) s0 [ACall (Acq 0); ACall (Acq 0); ACall (Acq 0); RecS 0; RecF 0; ACall (Acq 1000000000)]) = 3%Z /\
  snd (ad_tua Qops p (Build_ads Qops 2 0 (Some 0%Z)) 0) = 500000000%Z.
Proof. vm_compute. repeat split; congruence. Qed.
