(** C12 — facts about the whole Paxos cluster (message soup): invariants of
    [sys_step] that hold after EVERY schedule (any delivery order, any loss,
    any retry timing, any client proposals, any cluster size). *)
From HS Require Import Base.Prelude Base.Lists C12.Model C12.PaxosNode.
Local Open Scope Z_scope.

Lemma sys_run_app n w a b : sys_run n w (a ++ b) = sys_run n (sys_run n w a) b.
Proof. unfold sys_run. apply fold_left_app. Qed.

Lemma sys_run_inv n (P : sys -> Prop) :
  P sys_init -> (forall w a, P w -> P (sys_step n w a)) -> forall sch, P (sys_run n sys_init sch).
Proof.
  intros H0 HS sch. apply (fold_left_inv (sys_step n) P); [auto|exact H0].
Qed.

Definition msgs_of (i : Z) (outs : list pout) : list (Z * pout) :=
  map (fun o => (i, o)) (filter (fun o => negb (is_retry o)) outs).

Lemma In_msgs_of i outs src m : In (src, m) (msgs_of i outs) <-> src = i /\ In m outs /\ is_retry m = false.
Proof.
  unfold msgs_of. rewrite in_map_iff. split.
  - intros [o [E Ho]]. inversion E; subst. apply filter_In in Ho as [Ho R]. apply negb_true_iff in R. auto.
  - intros [-> [Ho R]]. exists m. split; [reflexivity|]. apply filter_In. rewrite R. auto.
Qed.

Lemma upd_node_same f i s : upd_node f i s i = s.
Proof. unfold upd_node. rewrite Z.eqb_refl. reflexivity. Qed.

Lemma upd_node_other f i s j : j <> i -> upd_node f i s j = f j.
Proof. unfold upd_node. intros N. destruct (j =? i) eqn:E; [lia|reflexivity]. Qed.

(** Where the input [inp] of a handler call at node [i] comes from, and what is
    left of the network and the timers, and known of the proposals, when the
    handler runs. *)
Inductive origin (n : Z) (w : sys) (i : Z) : pin -> list (Z * pout) -> list (Z * Z) -> list Z -> Prop :=
| or_client v : 0 <= i < n -> origin n w i (IPropose v) (net w) (timers w) (v :: proposed w)
| or_timer k b : nth_error (timers w) k = Some (i, b) ->
    origin n w i (IRetry b) (net w) (remove_nth k (timers w)) (proposed w)
| or_msg k src m : nth_error (net w) k = Some (src, m) -> dst_of m = i ->
    origin n w i (to_input src m) (remove_nth k (net w)) (timers w) (proposed w).

Inductive sys_stepped (n : Z) (w : sys) : sys -> Prop :=
| ss_same : sys_stepped n w w
| ss_drop k : sys_stepped n w (mkS (nodes w) (remove_nth k (net w)) (timers w) (sent w) (proposed w) (votes w))
| ss_handle i inp net' tm' pr' s' outs :
    origin n w i inp net' tm' pr' -> step (cfg_of n i) (nodes w i) inp = (s', outs) ->
    sys_stepped n w
      (mkS (upd_node (nodes w) i s') (net' ++ msgs_of i outs)
           (tm' ++ flat_map (fun o => match o with ORetry b => [(i, b)] | _ => [] end) outs)
           (sent w ++ msgs_of i outs) pr'
           (votes w ++ match acc_b s' with Some b => [(i, b, acc_v s')] | None => [] end)).

Lemma sys_handle_stepped n w i inp net' tm' pr' :
  origin n w i inp net' tm' pr' -> sys_stepped n w (sys_handle n w i inp net' tm' pr').
Proof.
  intros O. unfold sys_handle. destruct (step (cfg_of n i) (nodes w i) inp) as [s' outs] eqn:ST.
  exact (ss_handle n w i inp net' tm' pr' s' outs O ST).
Qed.

Lemma sys_step_inv n w a : sys_stepped n w (sys_step n w a).
Proof.
  destruct a as [k|k|k|i v]; cbn.
  - destruct (nth_error (net w) k) as [[src m]|] eqn:E; [|constructor].
    apply sys_handle_stepped. exact (or_msg n w _ k src m E eq_refl).
  - constructor.
  - destruct (nth_error (timers w) k) as [[i b]|] eqn:E; [|constructor].
    apply sys_handle_stepped. exact (or_timer n w i k b E).
  - destruct ((0 <=? i) && (i <? n)) eqn:R; [|constructor].
    apply sys_handle_stepped. constructor. lia.
Qed.

(** [w'] is [w] after node [i] has handled [inp]; [net0] is the network the
    outputs are added to. *)
Record handles (n : Z) (w : sys) (i : Z) (inp : pin) (net0 : list (Z * pout))
               (s' : pstate) (outs : list pout) (w' : sys) : Prop := {
  h_step : step (cfg_of n i) (nodes w i) inp = (s', outs);
  h_nodes : forall j, nodes w' j = if j =? i then s' else nodes w j;
  h_net : net w' = net0 ++ msgs_of i outs;
  h_sent : sent w' = sent w ++ msgs_of i outs;
  h_votes : votes w' = votes w ++ match acc_b s' with Some b => [(i, b, acc_v s')] | None => [] end;
}.
Arguments h_step {n w i inp net0 s' outs w'} _.
Arguments h_nodes {n w i inp net0 s' outs w'} _ _.
Arguments h_net {n w i inp net0 s' outs w'} _.
Arguments h_sent {n w i inp net0 s' outs w'} _.
Arguments h_votes {n w i inp net0 s' outs w'} _.

Lemma handles_intro {n w i inp} net0 tm' pr' {s' outs} :
  step (cfg_of n i) (nodes w i) inp = (s', outs) ->
  handles n w i inp net0 s' outs
    (mkS (upd_node (nodes w) i s') (net0 ++ msgs_of i outs)
         (tm' ++ flat_map (fun o => match o with ORetry b => [(i, b)] | _ => [] end) outs)
         (sent w ++ msgs_of i outs) pr'
         (votes w ++ match acc_b s' with Some b => [(i, b, acc_v s')] | None => [] end)).
Proof. intros ST. split; [exact ST|reflexivity..]. Qed.

Section Handles.
  Context {n w i inp net0 s' outs w'} (H : handles n w i inp net0 s' outs w').

  Lemma h_node_same : nodes w' i = s'.
  Proof. rewrite (h_nodes H), Z.eqb_refl. reflexivity. Qed.

  Lemma h_node_ind (P : Z -> pstate -> Prop) :
    P i s' -> (forall j, j <> i -> P j (nodes w j)) -> forall j, P j (nodes w' j).
  Proof.
    intros Pi Po j. rewrite (h_nodes H). destruct (j =? i) eqn:X; [|apply Po; lia]. assert (j = i) by lia; subst j. exact Pi.
  Qed.

  Lemma h_frame {A} (f : pstate -> A) j : (j = i -> f s' = f (nodes w i)) -> f (nodes w' j) = f (nodes w j).
  Proof. revert j. apply (h_node_ind (fun j s => (j = i -> f s' = f (nodes w i)) -> f s = f (nodes w j))); auto. Qed.

  Lemma h_node_other j : j <> i -> nodes w' j = nodes w j.
  Proof. intros N. apply (h_frame (fun s => s)). intros E. contradiction. Qed.

  Lemma h_sent_In x : In x (sent w') <-> In x (sent w) \/ In x (msgs_of i outs).
  Proof. rewrite (h_sent H). apply in_app_iff. Qed.

  Lemma h_voted x : In x (votes w) -> In x (votes w').
  Proof. intros I. rewrite (h_votes H). apply in_or_app. left. exact I. Qed.
End Handles.

Section Origin.
  Context {n : Z} {w : sys} {i : Z} {inp : pin} {net' : list (Z * pout)} {tm' : list (Z * Z)} {pr' : list Z}.
  Hypothesis O : origin n w i inp net' tm' pr'.

  Lemma origin_net x : In x net' -> In x (net w).
  Proof. destruct O; auto. apply remove_nth_incl. Qed.

  Lemma origin_timers x : In x tm' -> In x (timers w).
  Proof. destruct O; auto. apply remove_nth_incl. Qed.

  Lemma origin_proposed v : In v pr' <-> In v (proposed w) \/ inp = IPropose v.
  Proof.
    destruct O as [v0 R|k b E|k src m E D]; cbn.
    - split; [intros [->|H]; auto|intros [H|H]; [auto|inversion H; auto]].
    - split; [auto|intros [H|H]; [auto|discriminate]].
    - split; [auto|intros [H|H]; [auto|destruct m; discriminate]].
  Qed.

  (** the message behind an input, with its position in the network (the
      inputs that take part in no message chain are left out) *)
  Lemma origin_nth :
    match inp with
    | IPrepare src k b => exists kk, nth_error (net w) kk = Some (src, OPrepare i k b) /\ net' = remove_nth kk (net w)
    | IPromise k f ab av => exists kk src b, nth_error (net w) kk = Some (src, OPromise i k b f ab av) /\ net' = remove_nth kk (net w)
    | IAccept src k b v => exists kk, nth_error (net w) kk = Some (src, OAccept i k b v) /\ net' = remove_nth kk (net w)
    | IAccepted k => exists kk src b f, nth_error (net w) kk = Some (src, OAccepted i k b f) /\ net' = remove_nth kk (net w)
    | IDecided v => exists kk src, nth_error (net w) kk = Some (src, ODecided i v) /\ net' = remove_nth kk (net w)
    | _ => True
    end.
  Proof. destruct O as [v R|k b E|k src m E D]; [exact I..|]. destruct m; cbn in *; subst; repeat eexists; eauto. Qed.
End Origin.

Lemma net_sent_handle {n w i inp net0 tm' pr' s' outs w'} :
  origin n w i inp net0 tm' pr' -> handles n w i inp net0 s' outs w' ->
  (forall x, In x (net w) -> In x (sent w)) -> forall x, In x (net w') -> In x (sent w').
Proof.
  intros O H T x. rewrite (h_net H), (h_sent H), !in_app_iff.
  intros [I|I]; [left; exact (T x (origin_net O x I))|right; exact I].
Qed.

Section Validity.
  Variable P : Z -> Prop.

  Definition okv (ov : option Z) : Prop := exists v, ov = Some v /\ P v.

  Definition resp_ok (r : resp) : Prop := let '(_, ab, av) := r in ab <> None -> okv av.

  Record nvalid (s : pstate) : Prop := {
    nv_acc : acc_b s <> None -> okv (acc_v s);
    nv_pvals : forall k ov, In (k, ov) (pvals s) -> okv ov;
    nv_p1 : forall k rs r, In (k, rs) (p1 s) -> In r rs -> resp_ok r;
    nv_dec : decided s = true -> okv (dec_v s);
  }.

  Definition in_ok (i : pin) : Prop :=
    match i with
    | IPropose v => P v
    | IPromise _ _ ab av => ab <> None -> okv av
    | IAccept _ _ _ v => okv v
    | IDecided v => okv v
    | _ => True
    end.

  Definition out_ok (o : pout) : Prop :=
    match o with
    | OPromise _ _ _ _ ab av => ab <> None -> okv av
    | OAccept _ _ _ v => okv v
    | ODecided _ v => okv v
    | _ => True
    end.

  Lemma nvalid_init : nvalid pinit.
  Proof. split; cbn; try congruence; intros; contradiction. Qed.

  Lemma choose_ok rs v : Forall resp_ok rs -> okv v -> okv (choose rs None v).
  Proof.
    intros F V. destruct (choose_top rs v) as [[_ ->]|[f [h [H _]]]]; [exact V|].
    apply (proj1 (Forall_forall _ _) F _ H). discriminate.
  Qed.

  Lemma pvals_ok_aset (l : list (Z * option Z)) k0 v :
    (forall k ov, In (k, ov) l -> okv ov) -> okv v -> forall k ov, In (k, ov) (aset k0 v l) -> okv ov.
  Proof. intros B V k ov H. apply In_aset in H as [H|H]; [inversion H; subst; exact V|eauto]. Qed.

  Lemma p1_ok_aset (l : list (Z * list resp)) k0 rs0 :
    (forall k rs r, In (k, rs) l -> In r rs -> resp_ok r) -> (forall r, In r rs0 -> resp_ok r) ->
    forall k rs r, In (k, rs) (aset k0 rs0 l) -> In r rs -> resp_ok r.
  Proof. intros C R k rs r H Hr. apply In_aset in H as [H|H]; [inversion H; subst; auto|eauto]. Qed.

  Lemma nvalid_decided_if dec s bn v : nvalid s -> okv v -> nvalid (decided_if dec s bn v).
  Proof. intros [A B C D] V. split; cbn; auto. destruct dec; auto. Qed.

  Lemma phase2_valid c s bn rs r v :
    nvalid s -> afind bn (p1 s) = Some rs -> resp_ok r -> amem bn (pvals s) = true ->
    v = choose (rs ++ [r]) None (oget bn (pvals s)) ->
    okv v /\ nvalid (phase2_acc c (set_p1 s (aset bn (rs ++ [r]) (p1 s))) bn v).
  Proof.
    intros [A B C D] F R M Ev.
    assert (RS : forall r0, In r0 (rs ++ [r]) -> resp_ok r0).
    { intros r0 H. apply in_app_or in H as [H|[<-|[]]]; [|exact R]. apply afind_In in F. eauto. }
    assert (V : okv v).
    { subst v. apply choose_ok; [apply Forall_forall, RS|].
      apply amem_afind in M as [x Fx]. rewrite (oget_afind _ _ _ Fx). apply afind_In in Fx. eauto. }
    split; [exact V|]. split; cbn.
    - destruct (may_promise _ (bn, me c)); auto.
    - apply pvals_ok_aset; auto.
    - apply p1_ok_aset; auto.
    - exact D.
  Qed.

  Lemma step_valid {c s i s' outs} : nvalid s -> in_ok i -> step c s i = (s', outs) -> nvalid s' /\ Forall out_ok outs.
  Proof.
    intros NV IO ST. pose proof NV as [A B C D].
    apply step_graph_eq in ST. destruct ST as [i Hi|v Hd|i n fs pv fid Hd Ho Hn|src bn bnode Hp Hm|src bn bnode v Hp Hm
      |i src bn bnode p Hr Hp Hq Hl|bn from ab av rs F Hg|bn from ab av rs v s2 dec F Hq M Ev E2 Ed
      |bn hn|bn dec Ed|v Hd]; cbn in IO.
    - split; [exact NV|constructor].
    - split; [split; cbn; auto|constructor].
    - split; [|apply Forall_map_all; intros; exact I].
      assert (PV : forall k ov, In (k, ov) pv -> okv ov).
      { destruct Ho as [v|orig v F].
        - apply pvals_ok_aset; [exact B|]. exists v. auto.
        - intros k ov H. apply In_adel in H. revert k ov H. apply pvals_ok_aset; [exact B|].
          apply afind_In in F. eauto. }
      split; cbn; auto. apply p1_ok_aset; [exact C|]. intros r Hr.
      destruct (may_promise s (n, me c)); [destruct Hr as [<-|[]]; exact A|contradiction].
    - split; [split; cbn; auto|repeat constructor; exact A].
    - split; [split; cbn; auto|repeat constructor].
    - split; [exact NV|repeat constructor].
    - split; [|constructor]. split; cbn; auto. apply p1_ok_aset; [exact C|].
      intros r Hr. apply in_app_or in Hr as [Hr|[<-|[]]]; [|exact IO]. apply afind_In in F. eauto.
    - destruct (phase2_valid c s bn rs (from, ab, av) v NV F IO M Ev) as [V N2]. subst s2.
      split; [apply nvalid_decided_if; assumption|]. apply Forall_app.
      split; [|destruct dec; [|constructor]]; apply Forall_map_all; intros; exact V.
    - split; [split; cbn; auto|]. destruct (amem bn (pvals s)); repeat constructor.
    - (* when it decides, the ballot has a proposed value *)
      destruct dec; [|split; [split; cbn; auto|constructor]].
      symmetry in Ed. apply andb_prop in Ed as [M _].
      assert (V : okv (oget bn (pvals s))).
      { apply amem_afind in M as [x Fx]. rewrite (oget_afind _ _ _ Fx). apply afind_In in Fx. eauto. }
      split; [|apply Forall_map_all; intros; exact V]. apply nvalid_decided_if; [split; cbn; auto|exact V].
    - split; [split; cbn; auto|constructor].
  Qed.
End Validity.

Lemma okv_mono (P Q : Z -> Prop) ov : (forall v, P v -> Q v) -> okv P ov -> okv Q ov.
Proof. intros H [v [E p]]. exists v; auto. Qed.

Lemma nvalid_mono (P Q : Z -> Prop) s : (forall v, P v -> Q v) -> nvalid P s -> nvalid Q s.
Proof.
  intros H [A B C D]. split; intros; eauto using okv_mono.
  specialize (C _ _ _ H0 H1). destruct r as [[f ab] av]. cbn in *. intros X; eauto using okv_mono.
Qed.

Lemma out_ok_mono (P Q : Z -> Prop) o : (forall v, P v -> Q v) -> out_ok P o -> out_ok Q o.
Proof. intros H. destruct o; cbn; auto; intros; eauto using okv_mono. Qed.

Definition msg_ok (P : Z -> Prop) (x : Z * pout) : Prop := out_ok P (snd x).

Record vinv (w : sys) : Prop := {
  vi_nodes : forall i, nvalid (fun v => In v (proposed w)) (nodes w i);
  vi_sent : forall x, In x (sent w) -> msg_ok (fun v => In v (proposed w)) x;
  vi_net : forall x, In x (net w) -> In x (sent w);
}.

Lemma vinv_init : vinv sys_init.
Proof. split; cbn; try contradiction. intros i. apply nvalid_init. Qed.

Lemma vinv_step n w a : vinv w -> vinv (sys_step n w a).
Proof.
  intros [N S T]. destruct (sys_step_inv n w a) as [|k|i inp net' tm' pr' s' outs O ST].
  - split; auto.
  - split; auto. cbn. intros x H. apply T. exact (remove_nth_incl _ _ _ H).
  - set (P := fun v => In v (proposed w)). set (Q := fun v => In v pr').
    assert (PQ : forall v, P v -> Q v) by (intros v H; apply (origin_proposed O); auto).
    (* a message in flight was sent, so it carries proposed values *)
    assert (MQ : forall src m, In (src, m) (net w) -> out_ok Q m).
    { intros src m H. apply T, S in H. exact (out_ok_mono P Q m PQ H). }
    assert (IO : in_ok Q inp).
    { destruct O as [v R|k b E|k src m E D]; [left; reflexivity|exact I|].
      apply nth_error_In, MQ in E. destruct m; cbn in *; auto. }
    destruct (step_valid Q (nvalid_mono P Q _ PQ (N i)) IO ST) as [NV OV].
    split; cbn [nodes sent net proposed].
    + intros j. unfold upd_node. destruct (j =? i); [exact NV|]. exact (nvalid_mono P Q _ PQ (N j)).
    + intros [src m] H. apply in_app_or in H as [H|H].
      * exact (out_ok_mono P Q m PQ (S _ H)).
      * apply In_msgs_of in H as [_ [H _]]. exact (proj1 (Forall_forall _ _) OV m H).
    + exact (net_sent_handle O (handles_intro net' tm' pr' ST) T).
Qed.

Lemma report_Some w i x : report w i = Some x <-> decided (nodes w i) = true /\ x = dec_v (nodes w i).
Proof.
  unfold report. destruct (decided (nodes w i)); split; try discriminate.
  - intros E. inversion E. auto.
  - intros [_ ->]. reflexivity.
  - intros [E _]. discriminate.
Qed.

(** VALIDITY: whatever the schedule, a node that reports a decision reports a
    value some client proposed (in particular never Python's None). *)
Theorem validity n sch i ov :
  report (sys_run n sys_init sch) i = Some ov ->
  exists v, ov = Some v /\ In v (proposed (sys_run n sys_init sch)).
Proof.
  intros R. apply report_Some in R as [D ->].
  exact (nv_dec _ _ (vi_nodes _ (sys_run_inv n vinv vinv_init (vinv_step n) sch) i) D).
Qed.

(** [_phase1_responses] only grows: keys are never removed, lists only extended. *)
Definition p1_le (s s' : pstate) : Prop :=
  forall k rs, afind k (p1 s) = Some rs -> exists ext, afind k (p1 s') = Some (rs ++ ext).

Lemma p1_le_same s s' : p1 s' = p1 s -> p1_le s s'.
Proof. intros E k rs H. exists []. rewrite app_nil_r, E. auto. Qed.

Lemma p1_le_aset s s' k0 rs0 :
  p1 s' = aset k0 rs0 (p1 s) -> (forall rs, afind k0 (p1 s) = Some rs -> exists ext, rs0 = rs ++ ext) -> p1_le s s'.
Proof.
  intros E X k rs H. rewrite E, afind_aset. destruct (k =? k0) eqn:Ek.
  - assert (k = k0) by lia. subst. destruct (X rs H) as [ext ->]. eauto.
  - exists []. rewrite app_nil_r. exact H.
Qed.

Lemma step_p1_le {c s i s' outs} : ninv c s -> step c s i = (s', outs) -> p1_le s s'.
Proof.
  intros [A B C] ST.
  apply step_graph_eq in ST. destruct ST as [| |i n fs pv fid Hd Ho Hn| | | |bn from ab av rs F Hg|bn from ab av rs v s2 dec F Hq M Ev E2 Ed
      | | |]; subst; try (apply p1_le_same; reflexivity).
  - (* a fresh key: above [cur s], hence above every key *)
    eapply p1_le_aset; [reflexivity|]. intros rs F. apply afind_amem, C in F. lia.
  - eapply p1_le_aset; [reflexivity|]. intros rs0 F0. rewrite F in F0. inversion F0. eauto.
  - eapply p1_le_aset; [reflexivity|]. intros rs0 F0. rewrite F in F0. inversion F0. eauto.
Qed.

Lemma ninv_handle {n w i inp net0 s' outs w'} : handles n w i inp net0 s' outs w' ->
  (forall j, ninv (cfg_of n j) (nodes w j)) -> forall j, ninv (cfg_of n j) (nodes w' j).
Proof.
  intros H N. apply (h_node_ind H (fun j s => ninv (cfg_of n j) s)); [|intros j _; apply N].
  pose proof (step_ninv (cfg_of n i) (nodes w i) inp (N i)) as N'. rewrite (h_step H) in N'. exact N'.
Qed.

(** Phase 2 of a ballot starts exactly when its list of phase-1 responses
    reaches the quorum size, so it starts at most once; every Accept message
    ever sent for one ballot carries the same value. *)
Record uinv (n : Z) (w : sys) : Prop := {
  ui_ninv : forall i, ninv (cfg_of n i) (nodes w i);
  ui_src : forall src d k b x, In (src, OAccept d k b x) (sent w) ->
    src = b /\ exists rs, afind k (p1 (nodes w b)) = Some rs /\ quorum (cfg_of n b) <= Z.of_nat (length rs);
  ui_one : forall s1 d1 s2 d2 k b x1 x2,
    In (s1, OAccept d1 k b x1) (sent w) -> In (s2, OAccept d2 k b x2) (sent w) -> x1 = x2;
}.

Lemma uinv_init n : uinv n sys_init.
Proof. split; cbn; try contradiction. intros i; apply ninv_init. Qed.

Lemma uinv_step n w a : uinv n w -> uinv n (sys_step n w a).
Proof.
  intros [N S U]. destruct (sys_step_inv n w a) as [|k|i inp net' tm' pr' s' outs O ST]; [split; auto..|].
  pose proof (step_p1_le (N i) ST) as PL.
  assert (NEW : forall src d k b x, In (src, OAccept d k b x) (msgs_of i outs) ->
            src = i /\ b = i /\ exists from ab av rs, inp = IPromise k from ab av /\
              afind k (p1 (nodes w i)) = Some rs /\ Z.of_nat (length rs) + 1 = quorum (cfg_of n i) /\
              x = choose (rs ++ [(from, ab, av)]) None (oget k (pvals (nodes w i))) /\
              afind k (p1 s') = Some (rs ++ [(from, ab, av)])).
  { intros src d k b x H. apply In_msgs_of in H as [-> [H _]].
    destruct (step_emits ST H) as [_ [-> [from [ab [av [rs [Ei [F [Q [_ [Ex [E1 _]]]]]]]]]]]].
    split; [reflexivity|]. split; [reflexivity|]. exists from, ab, av, rs. rewrite E1, afind_aset_same. auto. }
  split; cbn [nodes sent].
  - exact (ninv_handle (handles_intro net' tm' pr' ST) N).
  - intros src d k b x H. apply in_app_or in H as [H|H].
    + destruct (S _ _ _ _ _ H) as [-> [rs [F L]]]. split; [reflexivity|].
      unfold upd_node. destruct (b =? i) eqn:Eb; [|eauto].
      assert (b = i) by lia. subst. destruct (PL _ _ F) as [ext Fx]. exists (rs ++ ext). split; [exact Fx|].
      rewrite app_length. lia.
    + apply NEW in H as [-> [-> [from [ab [av [rs [_ [_ [L [_ F']]]]]]]]]]. split; [reflexivity|].
      eexists. rewrite upd_node_same. split; [exact F'|]. rewrite app_length. cbn [length]. lia.
  - intros s1 d1 s2 d2 k b x1 x2 A1 A2.
    apply in_app_or in A1 as [A1|A1]; apply in_app_or in A2 as [A2|A2].
    + eauto.
    + apply NEW in A2 as [-> [-> [from [ab [av [rs [_ [F [L _]]]]]]]]].
      destruct (S _ _ _ _ _ A1) as [_ [rs' [F' L']]]. rewrite F in F'. inversion F'; subst. lia.
    + apply NEW in A1 as [-> [-> [from [ab [av [rs [_ [F [L _]]]]]]]]].
      destruct (S _ _ _ _ _ A2) as [_ [rs' [F' L']]]. rewrite F in F'. inversion F'; subst. lia.
    + (* both sent now: both are the one phase 2 this call starts *)
      apply NEW in A1 as [_ [_ [f1 [ab1 [av1 [rs1 [E1 [F1 [_ [X1 _]]]]]]]]]].
      apply NEW in A2 as [_ [_ [f2 [ab2 [av2 [rs2 [E2 [F2 [_ [X2 _]]]]]]]]]].
      rewrite E1 in E2. inversion E2; subst. rewrite F1 in F2. inversion F2; subst. reflexivity.
Qed.

(** The hypotheses are satisfiable: a 3-node schedule in which node 0 decides
    the proposed value, its future resolves with it, and Accept messages exist. *)
Definition demo_sch : list action :=
  [AClient 0 7; ADeliver 0; ADeliver 1; ADeliver 1; ADeliver 2; ADeliver 0; ADeliver 0; ADeliver 0; ADeliver 0].

(** the demo run is evaluated here, once; [demo_decides] and [demo_chosen]
    (PaxosAgree) are read off *)
Lemma demo_run :
  let w := sys_run 3 sys_init demo_sch in
  (report w 0 = Some (Some 7) /\ report w 1 = Some (Some 7) /\
   resolved (nodes w 0) = [(0, Some 7)] /\ In (0, OAccept 1 1 0 (Some 7)) (sent w)) /\
  In (0, (1, 0), Some 7) (votes w) /\ In (1, (1, 0), Some 7) (votes w).
Proof. vm_compute. intuition. Qed.

Example demo_decides :
  report (sys_run 3 sys_init demo_sch) 0 = Some (Some 7) /\
  report (sys_run 3 sys_init demo_sch) 1 = Some (Some 7) /\
  resolved (nodes (sys_run 3 sys_init demo_sch) 0) = [(0, Some 7)] /\
  In (0, OAccept 1 1 0 (Some 7)) (sent (sys_run 3 sys_init demo_sch)).
Proof. exact (proj1 demo_run). Qed.
