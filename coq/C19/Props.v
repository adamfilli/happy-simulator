(** Property C19 — the theorems the check counts as obligations. *)
From HS Require Import Base.Prelude Base.Lists C19.Model C19.Lists C19.MQ C19.MQOrder C19.TopicModel C19.Topic C19.StreamModel C19.Assign C19.Stream C19.OutboxModel C19.Outbox C19.DlqModel C19.Dlq.
From Coq Require Import Sorting.Sorted.
Local Open Scope Z_scope.

(** MessageQueue, every operation sequence: each published message occurs
    exactly once across pending / in flight / acknowledged / dead-letter queue /
    pushed out of a full dead-letter queue / rejected for good without a DLQ /
    taken out of the DLQ by reprocess_all (the loss of c19_mq_never_lost_refuted);
    ids never published occur nowhere. *)
Theorem c19_mq_accounting : forall cfg ops id,
  let s := run cfg ops in
  cnt id (q_pending s) + cnt id (q_inflight s) + cnt id (g_acked s) + cnt id (q_dead s)
    + cnt id (g_dlqlost s) + cnt id (g_dropped s) + cnt id (g_reproc s) = published s id.
Proof. intros cfg ops id. cbn zeta. destruct (acc_run cfg ops id) as (H1 & H2 & _). lia. Qed.
Print Assumptions c19_mq_accounting.

(** "Never lost" over every operation of the package, DLQ reprocessing
    included: REFUTED on the faithful model (known finding
    C19-dlq-reprocess-ignored); PARTIAL: it holds for all publish / poll / ack /
    reject / timeout / subscribe sequences. *)
Theorem c19_mq_never_lost_refuted : ~ never_lost_statement.
Proof.
  intros H.
  specialize (H {| c_max := 3; c_cap := None; c_delay := 5; c_dlq := true; c_dlqcap := None |}
                [Subscribe 0; Publish; PollBegin 1; DeliverEnd 1 5; Reject 0 false; DlqReprocessAll] 0).
  vm_compute in H. specialize (H eq_refl). discriminate.
Qed.
Print Assumptions c19_mq_never_lost_refuted.

Theorem c19_mq_never_lost_partial : forall cfg ops id,
  Forall (fun o => o <> DlqReprocessAll) ops ->
  let s := run cfg ops in
  cnt id (q_pending s) + cnt id (q_inflight s) + cnt id (g_acked s) + cnt id (q_dead s)
    + cnt id (g_dlqlost s) + cnt id (g_dropped s) = published s id.
Proof.
  intros cfg ops id F. pose proof (c19_mq_accounting cfg ops id) as A. cbn zeta in *.
  unfold run in *. rewrite (reproc_run_from cfg ops mq_init F) in A. cbn [g_reproc mq_init cnt] in A. lia.
Qed.
Print Assumptions c19_mq_never_lost_partial.

Theorem c19_mq_stored_split : forall cfg ops id,
  let s := run cfg ops in
  cnt id (q_msgs s) = cnt id (q_pending s) + cnt id (q_inflight s) /\ cnt id (q_msgs s) <= published s id.
Proof.
  intros cfg ops id. cbn zeta. destruct (acc_run cfg ops id) as (H1 & H2 & _). set (s := run cfg ops) in *.
  pose proof (cnt_nonneg id (g_acked s)). pose proof (cnt_nonneg id (q_dead s)).
  pose proof (cnt_nonneg id (g_dlqlost s)). pose proof (cnt_nonneg id (g_dropped s)).
  pose proof (cnt_nonneg id (g_reproc s)). lia.
Qed.
Print Assumptions c19_mq_stored_split.

Theorem c19_mq_no_delivery_after_ack : forall cfg ops1 mid ops2,
  0 <= mid < q_next (run cfg ops1) ->
  forall x, In x (outputs cfg (run cfg (ops1 ++ [Ack mid])) ops2) -> ~ is_delivery_of mid x.
Proof. intros cfg ops1 mid ops2 [_ H]. rewrite run_snoc. apply no_delivery_after_ack, H. Qed.
Print Assumptions c19_mq_no_delivery_after_ack.

Theorem c19_mq_no_delivery_once_gone : forall cfg ops1 mid ops2,
  let s := run cfg ops1 in
  0 <= mid < q_next s -> ~ In mid (q_msgs s) ->
  forall x, In x (outputs cfg s ops2) -> ~ is_delivery_of mid x.
Proof. intros cfg ops1 mid ops2. cbn zeta. intros [_ H] N. apply gone_outputs. split; assumption. Qed.
Print Assumptions c19_mq_no_delivery_once_gone.

Theorem c19_mq_redelivery_limit : forall cfg ops mid rq now,
  let s := run cfg ops in
  In mid (q_msgs s) -> c_max cfg <= m_count (q_obj s mid) ->
  (let s' := fst (step cfg s (Reject mid rq)) in
   ~ In mid (q_msgs s') /\ ~ In mid (q_pending s') /\ ~ In mid (q_inflight s') /\
   (c_dlq cfg = true -> exists d, q_dead s' = d ++ [mid]) /\ (c_dlq cfg = false -> In mid (g_dropped s')))
  /\
  (In mid (q_inflight s) -> ~ In mid (q_resched s) ->
   step cfg s (Sched mid now) = (fst (step cfg s (Reject mid false)), [ONone])).
Proof.
  intros cfg ops mid rq now. cbn zeta. intros HI HC. split.
  - apply (reject_limit cfg _ mid rq (acc_run cfg ops mid) HI HC).
  - intros HF HR. cbn [step fst]. apply mem_In in HF. rewrite HF. cbn [negb].
    destruct (mem mid (q_resched (run cfg ops))) eqn:E; [apply mem_In in E; contradiction|].
    rewrite (proj2 (Z.leb_le (c_max cfg) _) HC). reflexivity.
Qed.
Print Assumptions c19_mq_redelivery_limit.

Theorem c19_mq_poll_delivers_head : forall cfg ops h m r,
  let s := run cfg ops in
  q_pending s = m :: r -> q_cons s <> [] ->
  let c := nth_mod (q_cons s) (q_cidx s) in
  let s' := fst (step cfg s (PollBegin h)) in
  snd (step cfg s (PollBegin h)) = [OSuspend] /\ In c (q_cons s) /\
  lookup h (q_susp s') = Some (m, c) /\ In m (q_inflight s') /\
  m_count (q_obj s' m) = m_count (q_obj s m) + 1.
Proof.
  intros cfg ops h m r. cbn zeta. intros EP HC. cbn [step]. rewrite EP.
  destruct (q_cons (run cfg ops)) eqn:EC; [contradiction|]. rewrite <- EC in *.
  (* the head of the pending deque is a stored message: the ledger has no stale ids *)
  assert (HI : In m (q_msgs (run cfg ops))).
  { apply (acc_pending_stored _ m (acc_run cfg ops m)). rewrite EP. left. reflexivity. }
  destruct (deliver_begin_ok (run cfg ops) h m HI HC) as (A & B & C & D & _ & F). auto.
Qed.
Print Assumptions c19_mq_poll_delivers_head.

Theorem c19_mq_timeout_requests_redelivery : forall cfg s mid now,
  In mid (q_inflight s) -> ~ In mid (q_resched s) -> m_count (q_obj s mid) < c_max cfg ->
  let s' := fst (step cfg s (Sched mid now)) in
  snd (step cfg s (Sched mid now)) = [ORedelivery mid (now + c_delay cfg)] /\
  q_pending s' = mid :: q_pending s /\ ~ In mid (q_inflight s') /\ q_msgs s' = q_msgs s.
Proof.
  intros cfg s mid now. cbn zeta. intros HF HR HC. cbn [step]. apply mem_In in HF. rewrite HF. cbn [negb].
  destruct (mem mid (q_resched s)) eqn:E; [apply mem_In in E; contradiction|].
  rewrite (proj2 (Z.leb_gt (c_max cfg) _) HC).
  cbn [fst snd q_pending q_inflight q_msgs set_core]. repeat split. apply not_In_remall.
Qed.
Print Assumptions c19_mq_timeout_requests_redelivery.

Theorem c19_mq_redelivery_starts : forall cfg s h mid,
  In mid (q_msgs s) -> q_cons s <> [] ->
  let c := nth_mod (q_cons s) (q_cidx s) in
  let s' := fst (step cfg s (RedeliverBegin h mid)) in
  snd (step cfg s (RedeliverBegin h mid)) = [OSuspend] /\ In c (q_cons s) /\
  lookup h (q_susp s') = Some (mid, c) /\ In mid (q_inflight s') /\ ~ In mid (q_resched s').
Proof.
  intros cfg s h mid. cbn zeta. intros HI HC. cbn [step].
  destruct (deliver_begin_ok (set_core s (q_obj s) (q_msgs s) (q_pending s) (q_inflight s) (remall mid (q_resched s)))
              h mid HI HC) as (A & B & C & D & E & _).
  rewrite E. repeat split; auto. apply not_In_remall.
Qed.
Print Assumptions c19_mq_redelivery_starts.

Theorem c19_mq_delivery_reaches_consumer : forall cfg s h mid c ops now,
  lookup h (q_susp s) = Some (mid, c) ->
  Forall (fun o => handle_of o <> Some h) ops ->
  let s' := fst (run_from cfg s ops) in
  snd (step cfg s' (DeliverEnd h now)) =
    if mem mid (q_msgs s') then [ODelivery c mid (m_count (q_obj s' mid)) now] else [ONone].
Proof.
  intros cfg s h mid c ops now. cbn zeta. intros L F. cbn [step]. rewrite (lookup_run_from cfg ops s h F), L.
  destruct (mem mid _); reflexivity.
Qed.
Print Assumptions c19_mq_delivery_reaches_consumer.

(** First deliveries follow publish order (ids are publish indices), for every
    operation sequence in which rejects and redelivery events concern only
    messages that were delivered before ([wf_ops]; satisfiable:
    MQOrder.mq_order_example; necessary: MQOrder.mq_order_needs_wf). *)
Theorem c19_mq_first_deliveries_in_publish_order : forall cfg ops,
  wf_ops cfg mq_init ops -> StronglySorted Z.lt (g_first (run cfg ops)).
Proof.
  intros cfg ops W. pose proof (oinv_run_from cfg ops mq_init oinv_init W) as I.
  exact (proj1 (proj1 (ss_app _ _ _) (o_sorted _ I))).
Qed.
Print Assumptions c19_mq_first_deliveries_in_publish_order.

(** Topic: publish() snapshots exactly the subscribers active at publish time,
    without duplicates. *)
Theorem c19_topic_publish_snapshot : forall mx ops h mid,
  let s := trun mx ops in
  let act := actives (t_subs s) in
  NoDup act /\
  (forall c, In c act <-> exists x, In x (t_subs s) /\ ts_id x = c /\ ts_active x = true) /\
  (act <> [] -> snd (tstep mx s (TPublishBegin h mid)) = [TSuspend] /\
                lookup h (t_frames (fst (tstep mx s (TPublishBegin h mid)))) = Some (mid, act, 0)) /\
  (act = [] -> snd (tstep mx s (TPublishBegin h mid)) = []).
Proof.
  intros mx ops h mid. cbn zeta. split; [|split; [|split]].
  - apply trun_actives_nodup.
  - intros c. apply actives_spec.
  - intros NE. cbn [tstep]. destruct (actives (t_subs (trun mx ops))) eqn:E; [contradiction|].
    cbn. rewrite Z.eqb_refl. split; reflexivity.
  - intros E. cbn [tstep]. rewrite E. reflexivity.
Qed.
Print Assumptions c19_topic_publish_snapshot.

(** Topic: whatever else happens meanwhile, a running publish ends with exactly
    one delivery per subscriber of its snapshot, stamped with the clock at that
    moment (not the publish-time clock). *)
Theorem c19_topic_exactly_once : forall mx s h mid act i ops now,
  lookup h (t_frames s) = Some (mid, act, i) ->
  Forall (fun o => thandle o <> Some h) ops ->
  let s' := fst (trun_from mx s ops) in
  let r := tstep mx s' (TPublishResume h now) in
  (i + 1 <? zlen act = true -> snd r = [TSuspend] /\ lookup h (t_frames (fst r)) = Some (mid, act, i + 1)) /\
  (i + 1 <? zlen act = false -> snd r = map (fun c => TDelivery c mid now) act /\ lookup h (t_frames (fst r)) = None).
Proof.
  intros mx s h mid act i ops now. cbn zeta. intros L F. cbn [tstep]. rewrite (tlookup_run_from mx ops s h F), L.
  split; intros E; rewrite E; cbn; [rewrite Z.eqb_refl; auto|]. split; [reflexivity|apply lookup_remkey_same].
Qed.
Print Assumptions c19_topic_exactly_once.

Theorem c19_topic_publish_sync : forall mx ops mid now,
  let s := trun mx ops in
  snd (tstep mx s (TPublishSync mid now)) = map (fun c => TDelivery c mid now) (actives (t_subs s)) /\
  NoDup (actives (t_subs s)).
Proof. intros mx ops mid now. cbn zeta. split; [reflexivity|apply trun_actives_nodup]. Qed.
Print Assumptions c19_topic_publish_sync.

(** Event log: offsets within a partition are gap-free and increasing
    (no / size / time retention; clock readings non-decreasing, satisfiable:
    Stream.mono_example). *)
Theorem c19_log_offsets_gap_free : forall cfg n ops t0 i p,
  (0 < n)%nat -> mono_from t0 ops ->
  nth_error (l_parts (fst (srun cfg n ops))) i = Some p ->
  map r_off (p_recs p) = zseq (p_hw p - zlen (p_recs p)) (length (p_recs p)) /\ 0 <= p_hw p - zlen (p_recs p).
Proof.
  intros cfg n ops t0 i p _ M E. destruct (srun_linv cfg n ops t0 M) as [t' L].
  apply nth_error_In in E. destruct (proj1 (Forall_forall _ _) L p E) as [A B _ _]. split; assumption.
Qed.
Print Assumptions c19_log_offsets_gap_free.

(** Event log: a key always maps to the same partition (any digest function). *)
Theorem c19_log_key_partition_stable : forall cfg n ops i p r,
  (0 < n)%nat ->
  nth_error (l_parts (fst (srun cfg n ops))) i = Some p -> In r (p_recs p) ->
  r_part r = Z.of_nat i /\ r_part r = s_digest cfg (r_key r) mod Z.of_nat n.
Proof.
  intros cfg n ops i p r _ E Hr. destruct (srun_kinv cfg n ops i p r E Hr) as [A B]. split; [exact A|].
  rewrite B. unfold shard_of, zlen. rewrite srun_length. reflexivity.
Qed.
Print Assumptions c19_log_key_partition_stable.

Theorem c19_log_same_key_same_partition : forall cfg n ops i1 p1 r1 i2 p2 r2,
  (0 < n)%nat ->
  nth_error (l_parts (fst (srun cfg n ops))) i1 = Some p1 -> In r1 (p_recs p1) ->
  nth_error (l_parts (fst (srun cfg n ops))) i2 = Some p2 -> In r2 (p_recs p2) ->
  r_key r1 = r_key r2 -> i1 = i2.
Proof.
  intros cfg n ops i1 p1 r1 i2 p2 r2 _ E1 H1 E2 H2 EK.
  destruct (srun_kinv cfg n ops i1 p1 r1 E1 H1) as [A1 B1]. destruct (srun_kinv cfg n ops i2 p2 r2 E2 H2) as [A2 B2].
  rewrite EK in B1. apply Nat2Z.inj. congruence.
Qed.
Print Assumptions c19_log_same_key_same_partition.

(** Consumer group: after every rebalance each partition belongs to exactly one
    member (Range, RoundRobin, Sticky; all join/leave orders and histories). *)
Theorem c19_group_rebalance_one_owner : forall cfg n ops o,
  o = GLeaveEnd \/ (exists c, o = GJoinEnd c) ->
  let g' := snd (fst (sstep cfg (srun cfg n ops) o)) in
  g_cons g' <> [] -> owners_ok (Z.of_nat n) g'.
Proof.
  intros cfg n ops o HO. pose proof (srun_length cfg n ops) as P. pose proof (srun_gwf cfg n ops) as G.
  destruct (srun cfg n ops) as [s g]. cbn [fst snd] in *.
  assert (R : g_cons g <> [] -> owners_ok (Z.of_nat n) (rebalance (s_strat cfg) (zlen (l_parts s)) g)).
  { unfold zlen. rewrite P. apply rebalance_one_owner; [lia|exact G]. }
  destruct HO as [->|[c ->]]; exact R.
Qed.
Print Assumptions c19_group_rebalance_one_owner.

(** Committed offsets never move backwards: REFUTED on the faithful model
    (known finding C19-commit-moves-backwards), with the partial statement that
    does hold. *)
Theorem c19_group_committed_monotone_refuted : ~ committed_monotone_statement.
Proof.
  (* Commit stores whatever offset it is given *)
  intros H.
  specialize (H {| s_digest := fun k => k; s_ret := RNone; s_strat := SRange |} 1%nat
                [GJoinBegin 0; GJoinEnd 0; GCommit 0 [(0, 5)]] (GCommit 0 [(0, 2)]) 0 0).
  vm_compute in H. apply H. reflexivity.
Qed.
Print Assumptions c19_group_committed_monotone_refuted.

Theorem c19_group_committed_monotone_partial : forall cfg st o c pid,
  (forall offs, o = GCommit c offs -> forall v, In (pid, v) offs -> coff (snd st) c pid <= v) ->
  coff (snd st) c pid <= coff (snd (fst (sstep cfg st o))) c pid.
Proof. exact group_committed_monotone_partial. Qed.
Print Assumptions c19_group_committed_monotone_partial.

(** Outbox relay: written entries are never lost (marked relayed implies the
    relay event was returned to the engine, or a suspended poll still holds it),
    for all interleavings of writes, primes and overlapping poll cycles in which
    every poll generator has its own handle (satisfiable: Outbox.outbox_wf_example). *)
Theorem c19_outbox_no_loss : forall cfg ops,
  owf_ops cfg outbox_init ops -> noloss (orun cfg ops).
Proof. intros cfg ops W. apply oi_noloss, obinv_run_from; [exact obinv_init|exact W]. Qed.
Print Assumptions c19_outbox_no_loss.

(** Outbox relay: a suspended poll returns one relay event per processed entry,
    stamped with the clock at the moment it returns. *)
Theorem c19_outbox_poll_completes : forall cfg s h rest d ops now,
  lookup h (ob_frames s) = Some (rest, d) ->
  Forall (fun o => ohandle o <> Some h) ops ->
  let s' := fst (orun_from cfg s ops) in
  let r := ostep cfg s' (OPollResume h now) in
  match rest with
  | [] => (forall id, In id d -> In (ORelay id now) (snd r)) /\
          (forall id t, In (ORelay id t) (snd r) -> In id d /\ t = now) /\
          lookup h (ob_frames (fst r)) = None
  | id :: rest' => snd r = [OYield] /\ lookup h (ob_frames (fst r)) = Some (rest', d ++ [id]) /\
                   flag (fst r) id = Nat.ltb (Z.to_nat (id - 1)) (length (ob_flags s'))
  end.
Proof.
  intros cfg s h rest d ops now. cbn zeta. intros L F. cbn [ostep]. rewrite (olookup_run_from cfg ops s h F), L.
  destruct rest as [|id rest'].
  - split; [intros id HI; apply In_finish_relay; auto|]. split; [intros id t; apply In_finish_relay|].
    apply lookup_remkey_same.
  - cbn [fst snd set_frames ob_frames lookup]. rewrite Z.eqb_refl. split; [reflexivity|]. split; [reflexivity|].
    apply flag_mark_same.
Qed.
Print Assumptions c19_outbox_poll_completes.

(** DeadLetterQueue driven directly (capacity and retention period; C19/DlqModel.v).
    What a dead-lettered message can be lost to: one [add_message] removes exactly a prefix of
    messages that have outlived the retention period, and then AT MOST ONE more — the oldest
    survivor, and only if the survivors already fill the capacity (the sweep stopped at a message
    still within its retention period).  So a message within its retention period is never dropped
    while the DLQ has room.  Every DLQ state, capacity, retention period, instant. *)
Theorem c19_dlq_add_loses_only_expired_or_when_full : forall d now m,
  exists j,
    Forall (fun mt => match d_ret d with Some r => now - snd mt > r | None => False end) (firstn j (d_msgs d))
    /\ ((dl_full (d_cap d) (skipn j (d_msgs d)) = false /\ d_msgs (dl_add d now m) = skipn j (d_msgs d) ++ [(m, now)])
        \/ (skipn j (d_msgs d) = [] /\ d_msgs (dl_add d now m) = [(m, now)])
        \/ (dl_full (d_cap d) (skipn j (d_msgs d)) = true /\ d_msgs (dl_add d now m) = skipn (S j) (d_msgs d) ++ [(m, now)]))
    /\ match skipn j (d_msgs d), d_ret d with (_, t) :: _, Some r => now - t <= r | _, _ => True end.
Proof.
  intros d now m. destruct (swept_spec (d_ret d) now (d_msgs d)) as (j & E1 & E2 & E3). exists j.
  split; [exact E2|]. split; [|exact E3].
  unfold dl_add. cbn [d_msgs]. fold (swept (d_ret d) now (d_msgs d)). rewrite E1.
  (* what is left after the sweep is empty, fits, or loses its head *)
  destruct (skipn j (d_msgs d)) as [|x l1] eqn:Es.
  - right; left. split; [reflexivity|]. rewrite Bool.andb_false_r. reflexivity.
  - rewrite Bool.andb_true_r. destruct (dl_full (d_cap d) (x :: l1)) eqn:Ef; [right; right|left]; (split; [reflexivity|]).
    + cbn [tl]. rewrite skipn_S_tl, Es. reflexivity.
    + reflexivity.
Qed.
Print Assumptions c19_dlq_add_loses_only_expired_or_when_full.

(** A DLQ with capacity c >= 1 never holds more than c messages (every sequence of add / pop / clear). *)
Theorem c19_dlq_capacity : forall ops c ret, 1 <= c ->
  dl_zlen (d_msgs (dl_run (MkDlq (Some c) ret [] 0 0) ops)) <= c.
Proof. intros ops c ret Hc. apply dl_run_cap; [exact Hc|reflexivity|]. cbn [d_msgs]. change (dl_zlen []) with 0. lia. Qed.
Print Assumptions c19_dlq_capacity.

(** Every dead-lettered message stays accounted for: received = held + discarded (expired, pushed
    out or cleared) + taken out by pop, after every sequence of operations. *)
Theorem c19_dlq_accounting : forall ops d,
  d_recv d = dl_zlen (d_msgs d) + d_disc d ->
  let d' := dl_run d ops in d_recv d' = dl_zlen (d_msgs d') + d_disc d' + dl_taken d ops.
Proof. intros ops d H. pose proof (dl_run_ledger ops d) as L. cbn zeta in *. lia. Qed.
Print Assumptions c19_dlq_accounting.
