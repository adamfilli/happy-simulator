(** C16 — MultiTierCache: both tiers keep the CachedStore invariant under every
    interleaving; the read-after-write clause is refuted by a stale install. *)
From HS Require Import Base.Prelude C16.Model C16.Lists C16.Policies C16.Store C16.ModelMT.
Local Open Scope Z_scope.

Lemma msettle_st {P1 P2} id pend (x : mst P1 P2 * mres * list (list Z)) :
  mstt (fst (fst (msettle id pend x))) = fst (fst x).
Proof. destruct x as [[s r] lft]. destruct r; reflexivity. Qed.

Lemma tier_inv_ok P H cc k t : cinv P H cc t -> cinv P H cc (tier_inv k t).
Proof. intros Ht. unfold tier_inv. destruct (amem k (cache t)); [apply cache_remove_inv|]; exact Ht. Qed.

Section MT.
Variables P1 P2 : policy.
Variable H1 : policy_ok P1.
Variable H2 : policy_ok P2.
Variable c : mcfg.
Hypothesis Hcap1 : 1 <= cap (c1 c).
Hypothesis Hcap2 : 1 <= cap (c2 c).

(** [cinv] does not read a tier's [back] field, which is overwritten before every tier call. *)
Definition minv (s : mst P1 P2) : Prop := cinv P1 H1 (c1 c) (l1 s) /\ cinv P2 H2 (c2 c) (l2 s).

Lemma mstart_inv now dr s o : minv s -> minv (fst (fst (mstart P1 P2 c now dr s o))).
Proof.
  intros [Ha Hb]. destruct o as [k|k v|k|k| |k]; cbn [mstart].
  - pose proof (start_inv P1 H1 (c1 c) Hcap1 now dr (l1 s) (OGet k) Ha) as Hs1.
    pose proof (start_inv P2 H2 (c2 c) Hcap2 now dr (l2 s) (OGet k) Hb) as Hs2. cbn [start] in Hs1, Hs2.
    destruct (aget k (cache (l1 s))); [split; assumption|].
    destruct (aget k (cache (l2 s))); split; assumption.
  - split; assumption.
  - split; apply tier_inv_ok; assumption.
  - split; apply tier_inv_ok; assumption.
  - rewrite !let_triple. split; apply start_inv; assumption.
  - rewrite let_triple. split; [exact Ha|]. apply start_inv; assumption.
Qed.

Lemma mresume_inv now dr s k : minv s -> minv (fst (fst (mresume P1 P2 c now dr s k))).
Proof.
  intros [Ha Hb]. destruct k as [tier key v|key|key v|kc|key|kc]; cbn [mresume].
  - destruct (negb (tier =? 0) && should_promote c s key); [|split; assumption].
    rewrite let_pair. split; [|exact Hb]. cbn [fst mupd l1]. apply cache_put_inv; assumption.
  - destruct (aget key (mback s)) as [v|]; [|split; assumption].
    rewrite let_pair. split; [|exact Hb]. cbn [fst mupd l1]. apply cache_put_inv; assumption.
  - rewrite let_triple. split; [apply start_inv; [exact Hcap1|]|]; apply tier_inv_ok; assumption.
  - rewrite let_triple. split; [apply resume_inv; assumption|exact Hb].
  - split; assumption.
  - rewrite let_triple. split; [exact Ha|apply resume_inv; assumption].
Qed.

Lemma mstep_inv y i : minv (mstt y) -> minv (mstt (fst (fst (mstep P1 P2 c y i)))).
Proof.
  intros Hy. unfold mstep. destruct (mi_act i) as [id o|id].
  - rewrite msettle_st. apply mstart_inv, Hy.
  - destruct (mpfind id (mpending y)) as [k|]; [|exact Hy]. rewrite msettle_st. apply mresume_inv, Hy.
Qed.

Lemma mrun_inv ins : forall y, minv (mstt y) -> minv (mstt (mrun P1 P2 c y ins)).
Proof. induction ins as [|i ins IH]; intros y Hy; cbn [mrun]; [exact Hy|]. apply IH, mstep_inv, Hy. Qed.

End MT.

Definition tier_facts {P} (cp : Z) (t : cst P) : Prop :=
  zlen (cache t) <= cp /\ NoDup (akeys (cache t)) /\
  (forall x, In x (p_keys P (pol t)) <-> In x (akeys (cache t))) /\
  (forall x, In x (dirty t) -> In x (akeys (cache t))).

Lemma cinv_tier_facts P H cc (t : cst P) : cinv P H cc t -> tier_facts (cap cc) t.
Proof. intros (_ & Hn & Hk & _ & Hs & _ & Hl). exact (conj Hl (conj Hn (conj Hk Hs))). Qed.

Definition mk_m (now : Z) (a : mact) : minput := {| mi_now := now; mi_draws := []; mi_act := a |}.

(** "A read issued after a completed write returns that write's value":
    delete(k) completes, no later write, then get(k) must return None. *)
Definition mt_read_after_delete_statement : Prop :=
  forall k1 k2 c b0 pre idg k r, 1 <= cap (c1 c) -> 1 <= cap (c2 c) ->
    let P1 := pol_of k1 in let P2 := pol_of k2 in
    (* [pre] ends with every operation completed, among them a delete of k and no later write of k *)
    let y := mrun P1 P2 c (msinit P1 P2 b0) pre in
    mpending y = [] -> aget k (mback (mstt y)) = None ->
    let y1 := fst (fst (mstep P1 P2 c y (mk_m 1000 (MStart idg (MGet k))))) in
    snd (fst (mstep P1 P2 c y1 (mk_m 1001 (MResume idg)))) = ORet r -> r = None.

Definition mt_cfg : mcfg :=
  {| c1 := {| cap := 2; wt := true; lat_c := 1; lat_r := 6; lat_w := 12; lat_d := 7 |};
     c2 := {| cap := 2; wt := true; lat_c := 2; lat_r := 6; lat_w := 12; lat_d := 7 |};
     promote := PNever |}.

(** Witness: get(k) misses and waits for the backing read; delete(k)
    invalidates the tiers and waits for the backing delete; the read returns
    the old value and installs it in tier 1; the delete completes; every later
    get(k) hits the deleted value. *)
Theorem mt_stale_install_refuted : ~ mt_read_after_delete_statement.
Proof.
  intros Hs.
  specialize (Hs KLru KLru mt_cfg [(0, 10)]
                 [mk_m 8 (MStart 0 (MGet 0)); mk_m 12 (MStart 1 (MDel 0)); mk_m 14 (MResume 0); mk_m 19 (MResume 1)]
                 2 0 (Some 10) ltac:(cbn; lia) ltac:(cbn; lia)).
  cbn zeta in Hs.
  specialize (Hs ltac:(vm_compute; reflexivity) ltac:(vm_compute; reflexivity) ltac:(vm_compute; reflexivity)).
  discriminate.
Qed.
