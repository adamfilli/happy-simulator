(** C12 — the network does not duplicate messages, hence the phase-1 response
    list of a ballot never holds two responses of the same sender.  With that
    [ainv] holds after every schedule, and chosen values are unique. *)
From HS Require Import Base.Prelude C12.Model C12.PaxosNode C12.PaxosSys C12.PaxosAgree.
Local Open Scope Z_scope.

Definition cnt {A} (P : A -> bool) (l : list A) : nat := length (filter P l).

Lemma cnt_app {A} (P : A -> bool) l1 l2 : cnt P (l1 ++ l2) = (cnt P l1 + cnt P l2)%nat.
Proof. unfold cnt. rewrite filter_app, app_length. auto. Qed.

Lemma cnt_remove_nth {A} (P : A -> bool) k : forall l x, nth_error l k = Some x ->
  (cnt P (remove_nth k l) + (if P x then 1 else 0) = cnt P l)%nat.
Proof.
  induction k; intros [|y r] x H; cbn in H; try discriminate.
  - inversion H; subst. unfold cnt. cbn. destruct (P x); cbn; lia.
  - specialize (IHk r x H). unfold cnt in *. cbn. destruct (P y); cbn; lia.
Qed.

Lemma cnt_remove_nth_le {A} (P : A -> bool) k l : (cnt P (remove_nth k l) <= cnt P l)%nat.
Proof.
  revert l; induction k; intros [|y r]; cbn; auto. unfold cnt; cbn. destruct (P y); cbn; lia.
  specialize (IHk r). unfold cnt in *. cbn. destruct (P y); cbn; lia.
Qed.

Lemma cnt_zero {A} (P : A -> bool) l : (forall x, In x l -> P x = false) -> cnt P l = 0%nat.
Proof. unfold cnt. induction l; cbn; auto. intros H. rewrite (H a) by auto. apply IHl. auto. Qed.

Lemma cnt_pos_In {A} (P : A -> bool) l : (0 < cnt P l)%nat -> exists x, In x l /\ P x = true.
Proof.
  unfold cnt. induction l; cbn; [lia|]. destruct (P a) eqn:E; [eauto|]. intros H. destruct (IHl H) as [x [I Q]]. eauto.
Qed.

Lemma cnt_one {A} (P : A -> bool) x : cnt P [x] = if P x then 1%nat else 0%nat.
Proof. unfold cnt. cbn. destruct (P x); reflexivity. Qed.

Lemma cnt_map {A B} (P : B -> bool) (g : A -> B) l : cnt P (map g l) = cnt (fun x => P (g x)) l.
Proof. unfold cnt. induction l; cbn; auto. destruct (P (g a)); cbn; rewrite IHl; auto. Qed.

Lemma cnt_ext {A} (P Q : A -> bool) l : (forall x, P x = Q x) -> cnt P l = cnt Q l.
Proof. intros H. unfold cnt. rewrite (filter_ext _ _ H). reflexivity. Qed.

Lemma count_occ_cons_eqb (x a : Z) l :
  count_occ Z.eq_dec (x :: l) a = ((if Z.eqb x a then 1 else 0) + count_occ Z.eq_dec l a)%nat.
Proof. cbn. destruct (Z.eq_dec x a), (x =? a) eqn:E; lia. Qed.

Lemma cnt_eqb_count_occ (ps : list Z) a : cnt (fun d => d =? a) ps = count_occ Z.eq_dec ps a.
Proof.
  induction ps as [|x l IH]; [reflexivity|]. rewrite count_occ_cons_eqb, <- IH. unfold cnt. cbn. destruct (x =? a); reflexivity.
Qed.

(** A token travels along a chain: a stage-1 message [P1], the stage-2 message
    [P2] that answers it, and a count [c] kept by the receiver of the answer.
    No step of the system makes a second token. *)
Section Chain.
  Context {A : Type} (P1 P2 : A -> bool).

  Lemma chain_drop k net c :
    (cnt P1 net + cnt P2 net + c <= 1)%nat ->
    (cnt P1 (remove_nth k net) + cnt P2 (remove_nth k net) + c <= 1)%nat.
  Proof. pose proof (cnt_remove_nth_le P1 k net). pose proof (cnt_remove_nth_le P2 k net). lia. Qed.

  Lemma chain_quiet net net0 msgs c c' :
    (cnt P1 net + cnt P2 net + c <= 1)%nat -> (forall P : A -> bool, (cnt P net0 <= cnt P net)%nat) ->
    cnt P1 msgs = 0%nat -> cnt P2 msgs = 0%nat -> (c' <= c)%nat ->
    (cnt P1 (net0 ++ msgs) + cnt P2 (net0 ++ msgs) + c' <= 1)%nat.
  Proof. intros O L Z1 Z2 C. rewrite !cnt_app, Z1, Z2. pose proof (L P1). pose proof (L P2). lia. Qed.

  Lemma chain_pass net k x msgs c c' :
    (cnt P1 net + cnt P2 net + c <= 1)%nat -> nth_error net k = Some x ->
    cnt P1 msgs = 0%nat -> (cnt P2 msgs <= if P1 x then 1 else 0)%nat -> (c' <= c + if P2 x then 1 else 0)%nat ->
    (cnt P1 (remove_nth k net ++ msgs) + cnt P2 (remove_nth k net ++ msgs) + c' <= 1)%nat.
  Proof.
    intros O N Z1 L2 C. rewrite !cnt_app, Z1.
    pose proof (cnt_remove_nth P1 k net x N). pose proof (cnt_remove_nth P2 k net x N).
    destruct (P1 x), (P2 x); lia.
  Qed.

  Lemma chain_open net net0 msgs c' :
    (forall P : A -> bool, (cnt P net0 <= cnt P net)%nat) -> cnt P1 net = 0%nat -> cnt P2 net = 0%nat ->
    cnt P2 msgs = 0%nat -> (cnt P1 msgs + c' <= 1)%nat ->
    (cnt P1 (net0 ++ msgs) + cnt P2 (net0 ++ msgs) + c' <= 1)%nat.
  Proof. intros L Z1 Z2 Z3 C. rewrite !cnt_app, Z3. pose proof (L P1). pose proof (L P2). lia. Qed.
End Chain.

Lemma msgs_of_app i a b : msgs_of i (a ++ b) = msgs_of i a ++ msgs_of i b.
Proof. unfold msgs_of. rewrite filter_app, map_app. reflexivity. Qed.

Lemma msgs_of_map i (mk : Z -> pout) ps : (forall d, is_retry (mk d) = false) ->
  msgs_of i (map mk ps) = map (fun d => (i, mk d)) ps.
Proof. intros R. unfold msgs_of. induction ps; cbn; auto. rewrite R. cbn. f_equal; auto. Qed.

Lemma cnt_msgs_zero (P : Z * pout -> bool) i outs :
  (forall o, In o outs -> P (i, o) = false) -> cnt P (msgs_of i outs) = 0%nat.
Proof. intros H. apply cnt_zero. intros [src m] I. apply In_msgs_of in I as [-> [Io _]]. auto. Qed.

(** node i is not among the receivers of its own broadcast *)
Lemma others_count n i a : (count_occ Z.eq_dec (others n i) a + count_occ Z.eq_dec [i] a <= 1)%nat.
Proof.
  assert (ND : NoDup (i :: others n i)).
  { constructor; [intros I; apply others_In in I; lia|apply others_NoDup]. }
  rewrite (NoDup_count_occ Z.eq_dec) in ND. specialize (ND a). rewrite count_occ_cons_eqb in *. cbn [count_occ] in *. lia.
Qed.

(** [t]: whether the broadcast is of the ballot that [P] counts *)
Lemma cnt_bcast (P : Z * pout -> bool) (mk : Z -> pout) i ps a t :
  (forall d, is_retry (mk d) = false) -> (forall d, P (i, mk d) = (d =? a) && t) ->
  cnt P (msgs_of i (map mk ps)) = if t then count_occ Z.eq_dec ps a else 0%nat.
Proof.
  intros R E. rewrite msgs_of_map by exact R. rewrite cnt_map, (cnt_ext _ (fun d => (d =? a) && t)) by exact E.
  destruct t.
  - rewrite <- cnt_eqb_count_occ. apply cnt_ext. intros d. apply andb_true_r.
  - apply cnt_zero. intros d _. apply andb_false_r.
Qed.

Lemma origin_cnt {n w i inp net' tm' pr'} (P : Z * pout -> bool) :
  origin n w i inp net' tm' pr' -> (cnt P net' <= cnt P (net w))%nat.
Proof. intros [v R|k b E|k src m E D]; [apply Nat.le_refl..|apply cnt_remove_nth_le]. Qed.

(** The phase-1 chain: for ballot (k, p) and acceptor a there is at most one
    token among the Prepare to a in flight, a's Promise in flight, and a's
    response recorded at p. *)
Definition isprep (a k p : Z) (m : Z * pout) : bool :=
  match snd m with OPrepare d k' b => (d =? a) && (k' =? k) && (b =? p) | _ => false end.
Definition isprom (a k p : Z) (m : Z * pout) : bool :=
  match snd m with OPromise d k' b f _ _ => (d =? p) && (k' =? k) && (b =? p) && (f =? a) | _ => false end.
Definition froms (rs : list resp) : list Z := map (fun r : resp => fst (fst r)) rs.
Definition resp_cnt (a : Z) (s : pstate) (k : Z) : nat :=
  match afind k (p1 s) with Some rs => count_occ Z.eq_dec (froms rs) a | None => 0%nat end.

Definition tok (w : sys) (p k a : Z) : nat :=
  (cnt (isprep a k p) (net w) + cnt (isprom a k p) (net w) + resp_cnt a (nodes w p) k)%nat.

Lemma isprep_true a k p src m : isprep a k p (src, m) = true -> m = OPrepare a k p.
Proof. unfold isprep. cbn. destruct m; try discriminate. intros Q. f_equal; lia. Qed.

Lemma isprom_true a k p src m : isprom a k p (src, m) = true -> exists ab av, m = OPromise p k p a ab av.
Proof. unfold isprom. cbn. destruct m; try discriminate. intros Q. exists ab, av. f_equal; lia. Qed.

Lemma cnt_prepares n i kk a k p :
  cnt (isprep a k p) (msgs_of i (map (fun d => OPrepare d kk i) (others n i))) =
  if (kk =? k) && (i =? p) then count_occ Z.eq_dec (others n i) a else 0%nat.
Proof.
  apply cnt_bcast; [reflexivity|]. intros d. unfold isprep. cbn. symmetry. apply andb_assoc.
Qed.

(** the Promise that answers a Prepare is the same token *)
Lemma isprom_answers a k p i k' b ab av :
  isprom a k p (i, OPromise b k' b i ab av) = isprep a k p (b, OPrepare i k' b).
Proof. unfold isprom, isprep. cbn. destruct (b =? p), (k' =? k), (i =? a); reflexivity. Qed.

Lemma isprom_recorded a k p src f ab av : isprom a k p (src, OPromise p k p f ab av) = (f =? a).
Proof. unfold isprom. cbn. rewrite !Z.eqb_refl. reflexivity. Qed.

Lemma count_froms_app rs r a :
  count_occ Z.eq_dec (froms (rs ++ [r])) a = (count_occ Z.eq_dec (froms rs) a + (if Z.eqb (fst (fst r)) a then 1 else 0))%nat.
Proof.
  unfold froms. rewrite map_app, count_occ_app. cbn [map]. rewrite count_occ_cons_eqb. cbn. lia.
Qed.

Lemma amem_mono s s' k : p1_le s s' -> amem k (p1 s) = true -> amem k (p1 s') = true.
Proof. unfold amem. intros L H. destruct (afind k (p1 s)) eqn:F; [|discriminate]. destruct (L _ _ F) as [e E]. rewrite E. auto. Qed.

Definition not_prep (o : pout) : Prop :=
  match o with OPrepare _ _ _ | OPromise _ _ _ _ _ _ => False | _ => True end.

Lemma not_prep_cnt outs i a k p : Forall not_prep outs ->
  cnt (isprep a k p) (msgs_of i outs) = 0%nat /\ cnt (isprom a k p) (msgs_of i outs) = 0%nat.
Proof.
  intros NA. rewrite Forall_forall in NA.
  split; apply cnt_msgs_zero; intros o Ho; specialize (NA o Ho); destruct o; try reflexivity; destruct NA.
Qed.

(** The four things a handler call can do to phase-1 chains: nothing; open a
    fresh ballot; answer a Prepare; record a Promise. *)
Lemma step_prep_cases {c s i s' outs} : ninv c s -> step c s i = (s', outs) ->
  (Forall not_prep outs /\ p1 s' = p1 s)
  \/ (exists n rs0, afind n (p1 s) = None /\ outs = map (fun d => OPrepare d n (me c)) (peers c) /\
        afind n (p1 s') = Some rs0 /\ (rs0 = [] \/ exists ab av, rs0 = [(me c, ab, av)]) /\
        forall k, k <> n -> afind k (p1 s') = afind k (p1 s))
  \/ (exists src k b, i = IPrepare src k b /\ outs = [OPromise src k b (me c) (acc_b s) (acc_v s)] /\ p1 s' = p1 s)
  \/ (exists k f ab av rs, i = IPromise k f ab av /\ afind k (p1 s) = Some rs /\ Forall not_prep outs /\
        afind k (p1 s') = Some (rs ++ [(f, ab, av)]) /\ forall k', k' <> k -> afind k' (p1 s') = afind k' (p1 s)).
Proof.
  intros NI ST.
  assert (REC : forall k rs r s0, p1 s0 = aset k (rs ++ [r]) (p1 s) ->
            afind k (p1 s0) = Some (rs ++ [r]) /\ forall k', k' <> k -> afind k' (p1 s0) = afind k' (p1 s)).
  { intros k rs r s0 E. rewrite E. split; [apply afind_aset_same|intros k' N; apply afind_aset_other; exact N]. }
  apply step_graph_eq in ST. destruct ST
    as [ | | | | | |bn from ab av rs F _|bn from ab av rs v s2 dec F _ _ _ E2 _| |bn dec _| ];
    try (left; split; [solve [repeat constructor]|reflexivity]).
  - right; left. exists n. eexists.
    assert (NK : afind n (p1 s) = None).
    { destruct (afind n (p1 s)) eqn:F; [|reflexivity]. apply afind_amem, (ni_keys c s NI) in F. lia. }
    split; [exact NK|]. split; [reflexivity|]. cbn [p1 opened]. split; [apply afind_aset_same|].
    split; [destruct (may_promise s (n, me c)); [right; eauto|left; reflexivity]|].
    intros k N. apply afind_aset_other. exact N.
  - right; right; left. exists src, bn, bnode. repeat split; reflexivity.
  - right; right; right. exists bn, from, ab, av, rs. split; [reflexivity|]. split; [exact F|]. split; [constructor|].
    apply REC. reflexivity.
  - right; right; right. exists bn, from, ab, av, rs. split; [reflexivity|]. split; [exact F|].
    split; [apply Forall_app; split; [|destruct dec; [|constructor]]; apply Forall_map_all; intros; exact I|].
    apply REC. rewrite E2. reflexivity.
  - left. split; [destruct (amem bn (pvals s)); repeat constructor|reflexivity].
  - left. split; [destruct dec; [apply Forall_map_all; intros; exact I|constructor]|reflexivity].
Qed.

Record tinv (n : Z) (w : sys) : Prop := {
  t_ninv : forall i, ninv (cfg_of n i) (nodes w i);
  t_net : forall x, In x (net w) -> In x (sent w);
  t_prep : forall src d k bn, In (src, OPrepare d k bn) (sent w) -> src = bn /\ amem k (p1 (nodes w bn)) = true;
  t_prom : forall src d k bn f ab av, In (src, OPromise d k bn f ab av) (sent w) -> d = bn /\ amem k (p1 (nodes w bn)) = true;
  t_tok : forall p k a, (tok w p k a <= 1)%nat;
}.

Lemma tinv_init n : tinv n sys_init.
Proof. split; cbn; try (intros; contradiction). intros i; apply ninv_init. intros; unfold tok, resp_cnt; cbn; lia. Qed.

Lemma no_key_no_token n w p k a : tinv n w -> amem k (p1 (nodes w p)) = false ->
  cnt (isprep a k p) (net w) = 0%nat /\ cnt (isprom a k p) (net w) = 0%nat.
Proof.
  intros TI NK. split; apply cnt_zero; intros [sr mm] I; apply (t_net n w TI) in I.
  - destruct (isprep a k p (sr, mm)) eqn:Q; [|reflexivity]. apply isprep_true in Q as ->.
    destruct (t_prep n w TI _ _ _ _ I) as [_ M]. congruence.
  - destruct (isprom a k p (sr, mm)) eqn:Q; [|reflexivity]. apply isprom_true in Q as [ab [av ->]].
    destruct (t_prom n w TI _ _ _ _ _ _ _ I) as [_ M]. congruence.
Qed.

Section TinvHandle.
  Context {n w i inp net0 tm' pr' s' outs w'} (H : handles n w i inp net0 s' outs w')
          (O : origin n w i inp net0 tm' pr') (TI : tinv n w).

  Lemma amem_handle j k : amem k (p1 (nodes w j)) = true -> amem k (p1 (nodes w' j)) = true.
  Proof.
    revert j. apply (h_node_ind H (fun j s => amem k (p1 (nodes w j)) = true -> amem k (p1 s) = true)); [|auto]. intros M.
    exact (amem_mono _ _ k (step_p1_le (t_ninv n w TI i) (h_step H)) M).
  Qed.

  Lemma prep_handle src d k bn :
    In (src, OPrepare d k bn) (sent w') -> src = bn /\ amem k (p1 (nodes w' bn)) = true.
  Proof.
    intros I. apply (h_sent_In H) in I as [I|I].
    - destruct (t_prep n w TI _ _ _ _ I) as [E M]. split; [exact E|apply amem_handle; exact M].
    - apply In_msgs_of in I as [-> [Io _]].
      destruct (step_emits (h_step H) Io) as [_ [E [_ [_ (fs & pv & fid & _ & ES)]]]]. cbn in E. subst bn. split; [reflexivity|].
      rewrite (h_node_same H), ES. cbn. rewrite amem_aset, Z.eqb_refl. reflexivity.
  Qed.

  (** a Promise answers a delivered Prepare, whose ballot number is a key *)
  Lemma prom_handle src d k bn f ab av :
    In (src, OPromise d k bn f ab av) (sent w') -> d = bn /\ amem k (p1 (nodes w' bn)) = true.
  Proof.
    intros I. apply (h_sent_In H) in I as [I|I].
    - destruct (t_prom n w TI _ _ _ _ _ _ _ I) as [E M]. split; [exact E|apply amem_handle; exact M].
    - apply In_msgs_of in I as [_ [Io _]].
      destruct (step_emits (h_step H) Io) as [EI _].
      pose proof (origin_nth O) as IV. rewrite EI in IV. destruct IV as [k0 [HN _]].
      apply nth_error_In, (t_net n w TI) in HN. destruct (t_prep n w TI _ _ _ _ HN) as [-> M].
      split; [reflexivity|apply amem_handle; exact M].
  Qed.

  Lemma resp_frame p k a : (p = i -> afind k (p1 s') = afind k (p1 (nodes w i))) ->
    resp_cnt a (nodes w' p) k = resp_cnt a (nodes w p) k.
  Proof.
    intros E. apply (h_frame H (fun s => resp_cnt a s k)). intros X. unfold resp_cnt. rewrite (E X). reflexivity.
  Qed.

  Lemma tok_handle p k a : (tok w' p k a <= 1)%nat.
  Proof.
    pose proof (t_tok n w TI p k a) as TK. unfold tok in *. rewrite (h_net H).
    destruct (step_prep_cases (t_ninv n w TI i) (h_step H)) as [[NA PE]|[(n0 & rs0 & F0 & OE & F1 & R0 & OTH)
                           |[(src & k0 & b & EI & OE & PE)|(k0 & f & ab & av & rs & EI & F & NA & AT & OTH)]]].
    - destruct (not_prep_cnt outs i a k p NA) as [Z1 Z2].
      eapply chain_quiet; [exact TK|intros P; exact (origin_cnt P O)|exact Z1|exact Z2|].
      rewrite resp_frame; [apply Nat.le_refl|]. intros _. rewrite PE. reflexivity.
    - (* Prepares of the fresh ballot (n0, i), and possibly i's own response *)
      cbn [me peers cfg_of] in OE, R0.
      assert (Z2 : cnt (isprom a k p) (msgs_of i outs) = 0%nat).
      { apply cnt_msgs_zero. intros o Ho. rewrite OE in Ho. apply in_map_iff in Ho as [d [<- _]]. reflexivity. }
      destruct ((n0 =? k) && (i =? p)) eqn:KP.
      + assert (n0 = k /\ p = i) as [-> ->] by lia.
        destruct (no_key_no_token n w i k a TI) as [P0 P1]; [unfold amem; rewrite F0; reflexivity|].
        eapply chain_open; [intros P; exact (origin_cnt P O)|exact P0|exact P1|exact Z2|].
        rewrite OE, cnt_prepares, !Z.eqb_refl. cbn [andb]. unfold resp_cnt. rewrite (h_node_same H), F1.
        pose proof (others_count n i a) as OC. destruct R0 as [->|[ab [av ->]]]; [cbn; lia|exact OC].
      + eapply chain_quiet; [exact TK|intros P; exact (origin_cnt P O)|rewrite OE, cnt_prepares, KP; reflexivity|exact Z2|].
        rewrite resp_frame; [apply Nat.le_refl|]. intros ->. apply OTH. lia.
    - cbn [me cfg_of] in OE.
      pose proof (origin_nth O) as IV. rewrite EI in IV. destruct IV as [k1 [HN EN]].
      assert (MSG : In (src, OPrepare i k0 b) (sent w)) by (apply (t_net n w TI); eapply nth_error_In; eauto).
      destruct (t_prep n w TI _ _ _ _ MSG) as [-> _].
      rewrite EN, OE. eapply chain_pass; [exact TK|exact HN|reflexivity| |].
      + unfold msgs_of. cbn [filter map is_retry negb]. rewrite cnt_one, isprom_answers. apply Nat.le_refl.
      + rewrite resp_frame by (intros _; rewrite PE; reflexivity). apply Nat.le_add_r.
    - pose proof (origin_nth O) as IV. rewrite EI in IV. destruct IV as [k1 [sr [b0 [HN EN]]]].
      assert (MSG : In (sr, OPromise i k0 b0 f ab av) (sent w)) by (apply (t_net n w TI); eapply nth_error_In; eauto).
      destruct (t_prom n w TI _ _ _ _ _ _ _ MSG) as [<- _].
      destruct (not_prep_cnt outs i a k p NA) as [Z1 Z2].
      rewrite EN. eapply chain_pass; [exact TK|exact HN|exact Z1|rewrite Z2; apply Nat.le_0_l|].
      destruct (Z.eq_dec p i) as [->|NPp]; [destruct (Z.eq_dec k k0) as [->|NK]|].
      + unfold resp_cnt. rewrite (h_node_same H), AT, F, count_froms_app, isprom_recorded. cbn [fst]. apply Nat.le_refl.
      + rewrite resp_frame by (intros _; apply OTH; exact NK). apply Nat.le_add_r.
      + rewrite resp_frame by (intros X; contradiction). apply Nat.le_add_r.
  Qed.

  Lemma tinv_handle : tinv n w'.
  Proof.
    split.
    - exact (ninv_handle H (t_ninv n w TI)).
    - exact (net_sent_handle O H (t_net n w TI)).
    - exact prep_handle.
    - exact prom_handle.
    - exact tok_handle.
  Qed.
End TinvHandle.

Lemma tinv_step n w a : tinv n w -> tinv n (sys_step n w a).
Proof.
  intros TI. destruct (sys_step_inv n w a) as [|k0|i inp net' tm' pr' s' outs O ST].
  - exact TI.
  - destruct TI as [NI NT TP TM TK]. split; cbn [nodes net sent]; auto.
    + intros x I. apply remove_nth_incl in I. auto.
    + intros p k a0. apply chain_drop. exact (TK p k a0).
  - exact (tinv_handle (handles_intro net' tm' pr' ST) O TI).
Qed.

Lemma tinv_distinct n w : tinv n w -> distinct_responders w.
Proof.
  intros TI p k rs F. apply (NoDup_count_occ Z.eq_dec). intros a.
  pose proof (t_tok n w TI p k a) as TK. unfold tok, resp_cnt in TK. rewrite F in TK. unfold froms in TK. lia.
Qed.

(** [ainv] is inductive together with [tinv], which provides the distinct
    responders its step asks for. *)
Lemma tainv_step n : 2 <= n -> forall w a, tinv n w -> ainv n w ->
  tinv n (sys_step n w a) /\ ainv n (sys_step n w a).
Proof.
  intros N w a TI AI. pose proof (tinv_step n w a TI) as TI'. split; [exact TI'|].
  apply ainv_step; auto. exact (tinv_distinct n _ TI').
Qed.

Lemma ainv_always n : 2 <= n -> forall sch, ainv n (sys_run n sys_init sch).
Proof.
  intros N sch. refine (proj2 (sys_run_inv n (fun w => tinv n w /\ ainv n w) _ _ sch)).
  - split; [apply tinv_init|apply ainv_init].
  - intros w a [TI AI]. apply tainv_step; assumption.
Qed.

(** AGREEMENT ON CHOSEN VALUES, unconditional: every schedule of a cluster of
    at least two nodes — two values each accepted by a majority under some
    ballot are equal. *)
Theorem chosen_unique_always n : 2 <= n -> forall sch b v b' v',
  chosen n (sys_run n sys_init sch) b v -> chosen n (sys_run n sys_init sch) b' v' -> v = v'.
Proof. intros N sch b v b' v'. apply chosen_unique; auto. apply ainv_always; auto. Qed.
