(** C06 — proofs about ReduceCapacity (resource_faults.py) interleaved with
    Resource.try_acquire / Grant.release, over ALL operation sequences. *)
From HS Require Import Base.Prelude C06.Model C06.Registers.
Local Open Scope Z_scope.

(** Fault closures in the sequence use factors in [0,1] (fe_p in 0..4 quarter
    units); released grants have a positive amount (they come from try_acquire). *)
Definition factor_ok (o : cop) : Prop :=
  match o with CFault e => 0 <= fe_p e <= 4 | CRel a => 0 < a | CTry _ => True end.

Definition cap_inv (orig : Z) (s : cres) : Prop := 0 <= c_avail s <= c_cap s /\ c_cap s <= orig.

Lemma cap_step_inv orig s o : factor_ok o -> cap_inv orig s -> cap_inv orig (fst (cap_step orig s o)).
Proof.
  unfold cap_inv. intros Hf (Ha & Hc). destruct o as [e|a|a]; cbn in *.
  - destruct (fe_on e); cbn.
    + assert (0 <= orig * fe_p e / 4 <= orig).
      { split; [apply Z.div_pos; nia|apply Z.div_le_upper_bound; nia]. }
      destruct (c_avail s >? orig * fe_p e / 4) eqn:E; cbn; lia.
    + lia.
  - destruct (a <=? 0) eqn:E0; [cbn; lia|]. destruct (a >? c_cap s) eqn:E1; [cbn; lia|].
    destruct (c_avail s >=? a) eqn:E; cbn; lia.
  - destruct (c_avail s + a >? c_cap s) eqn:E; cbn; [lia|].
    lia.
Qed.

Lemma cap_final_inv orig ops : forall s,
  Forall factor_ok ops -> cap_inv orig s -> cap_inv orig (cap_final orig s ops).
Proof.
  unfold cap_final. induction ops as [|o r IH]; intros s Hf Hi; cbn; [exact Hi|].
  inversion Hf; subst. apply IH; [assumption|]. now apply cap_step_inv.
Qed.

(** The capacity value itself is a last-writer register (same shape as the
    crash flag): workload operations never change it. *)
Fixpoint last_fault (ops : list cop) : option fev :=
  match ops with
  | [] => None
  | o :: r => match last_fault r with
              | Some e => Some e
              | None => match o with CFault e => Some e | _ => None end
              end
  end.

Theorem capacity_is_last_writer orig : forall ops s,
  c_cap (cap_final orig s ops) =
  match last_fault ops with
  | Some e => if fe_on e then capv_write orig (fe_p e) else orig
  | None => c_cap s
  end.
Proof.
  intros ops s.
  apply (fold_last_writer (fun o => match o with CFault e => Some e | _ => None end)
           (fun s o => fst (cap_step orig s o)) c_cap
           (fun e => if fe_on e then capv_write orig (fe_p e) else orig) (fun _ _ => True)); [trivial| |exact I].
  clear. intros s o _ _. destruct o as [e|a|a]; cbn.
  - destruct (fe_on e); reflexivity.
  - destruct (a <=? 0); [reflexivity|]. destruct (a >? c_cap s); [reflexivity|].
    destruct (c_avail s >=? a); reflexivity.
  - destruct (c_avail s + a >? c_cap s); reflexivity.
Qed.

Definition conserved (s : cres) (h : Z) : Prop := c_avail s + h = c_cap s.

(** The full statement; false already with a single window. *)
Definition conservation_statement : Prop :=
  forall orig ops, 0 < orig -> Forall factor_ok ops ->
  let s0 := {| c_cap := orig; c_avail := orig |} in
  conserved (cap_final orig s0 ops) (held_after orig s0 0 ops).

Definition one_window_on : fev := ev_on 0 (W 0 2 (Some 4) 2 None).
Definition one_window_off : fev := ev_off 0 (W 0 2 (Some 4) 2 None) 4.
(** Capacity 10 (40 quarter units), 6 held, halve, restore. *)
Definition conservation_witness : list cop := [CTry 24; CFault one_window_on; CFault one_window_off].

(** During the window as well: with 2 of 10 held, halving leaves 5 available,
    so 7 can be in use against a capacity of 5. *)
Lemma reduced_capacity_exceeded :
  let s0 := {| c_cap := 40; c_avail := 40 |} in
  let ops := [CTry 8; CFault one_window_on; CTry 20] in
  c_cap (cap_final 40 s0 ops) = 20 /\ held_after 40 s0 0 ops = 28.
Proof. split; reflexivity. Qed.

(** PARTIAL: the accounting is exact along every sequence in which each
    activation happens while nothing is held and does not raise the capacity
    (no activation stacked on a stronger one). *)
Fixpoint acts_idle (orig : Z) (s : cres) (h : Z) (ops : list cop) : Prop :=
  match ops with
  | [] => True
  | o :: r =>
      match o with
      | CFault e => if fe_on e then h = 0 /\ orig * fe_p e / 4 <= c_cap s else True
      | _ => True
      end /\
      let '(s', res) := cap_step orig s o in
      acts_idle orig s'
        (match o with
         | CTry a => if res =? 1 then h + a else h
         | CRel a => if res =? 0 then h - a else h
         | CFault _ => h
         end) r
  end.

Theorem conservation_partial orig : forall ops s h,
  conserved s h -> acts_idle orig s h ops ->
  conserved (cap_final orig s ops) (held_after orig s h ops).
Proof.
  unfold cap_final, conserved. induction ops as [|o r IH]; intros s h Hc Hi; cbn; [exact Hc|].
  cbn in Hi. destruct Hi as (Ho & Hr).
  destruct (cap_step orig s o) as (s', res) eqn:E. cbn.
  apply IH; [|exact Hr]. clear IH Hr.
  destruct o as [e|a|a]; cbn in E.
  - destruct (fe_on e).
    + injection E as <- <-. cbn. destruct Ho as (-> & Hle).
      destruct (c_avail s >? orig * fe_p e / 4) eqn:G; lia.
    + injection E as <- <-. cbn. lia.
  - destruct (a <=? 0); [injection E as <- <-; exact Hc|].
    destruct (a >? c_cap s); [injection E as <- <-; exact Hc|].
    destruct (c_avail s >=? a); injection E as <- <-; cbn; lia.
  - destruct (c_avail s + a >? c_cap s); injection E as <- <-; cbn; lia.
Qed.

Example acts_idle_example :
  acts_idle 40 {| c_cap := 40; c_avail := 40 |} 0
    [CFault one_window_on; CTry 8; CRel 8; CFault one_window_off; CTry 24].
Proof. vm_compute. repeat split; discriminate. Qed.
