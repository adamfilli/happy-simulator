(** C19 — facts about the list, key-list and association-list functions of
    C19/Model.v that the proofs about the messaging machines share, and the two
    inductions behind every "holds after any run" lemma: a run is a fold
    ([run_from_fold]), a fold keeps an invariant ([fold_left_inv_rest]). *)
From HS Require Import Base.Prelude C19.Model.
From Coq Require Import Sorting.Sorted.
Local Open Scope Z_scope.

Lemma cnt_nonneg x l : 0 <= cnt x l.
Proof. induction l as [|y r IH]; cbn [cnt]; [lia|]. destruct (x =? y); lia. Qed.

Lemma cnt_app x a b : cnt x (a ++ b) = cnt x a + cnt x b.
Proof. induction a as [|y r IH]; cbn [cnt app]; [lia|]. rewrite IH. lia. Qed.

Lemma mem_In x l : mem x l = true <-> In x l.
Proof.
  induction l as [|y r IH]; cbn [mem In]; [split; [discriminate|tauto]|].
  destruct (Z.eqb_spec x y); [subst; tauto|]. rewrite IH. split; [tauto|]. intros [H|H]; [congruence|exact H].
Qed.

Lemma mem_cnt x l : mem x l = (0 <? cnt x l).
Proof.
  induction l as [|y r IH]; cbn [mem cnt]; [reflexivity|].
  pose proof (cnt_nonneg x r). destruct (x =? y); [lia|]. rewrite IH. reflexivity.
Qed.

Lemma cnt_In x l : 1 <= cnt x l <-> In x l.
Proof. rewrite <- mem_In, mem_cnt. lia. Qed.

Lemma mem_app x a b : mem x (a ++ b) = mem x a || mem x b.
Proof. induction a as [|y r IH]; cbn [mem app orb]; [reflexivity|]. destruct (x =? y); [reflexivity|exact IH]. Qed.

(** [rem1] removes one occurrence if there is one, [addkey] adds one if there
    is none: written with [Z.min] so that [lia] needs no case split on [mem]. *)
Lemma cnt_rem1 x y l : cnt x (rem1 y l) = cnt x l - (if x =? y then Z.min 1 (cnt y l) else 0).
Proof.
  induction l as [|z r IH]; cbn [rem1 cnt]; [destruct (x =? y); reflexivity|].
  pose proof (cnt_nonneg y r). destruct (Z.eqb_spec y z) as [<-|N].
  - destruct (Z.eqb_spec x y); lia.
  - cbn [cnt]. rewrite IH. destruct (x =? y); lia.
Qed.

Lemma cnt_addkey x y l : cnt x (addkey y l) = cnt x l + (if x =? y then 1 - Z.min 1 (cnt y l) else 0).
Proof.
  unfold addkey. rewrite mem_cnt. destruct (Z.ltb_spec 0 (cnt y l)).
  - destruct (x =? y); lia.
  - rewrite cnt_app. cbn [cnt]. pose proof (cnt_nonneg y l). destruct (x =? y); lia.
Qed.

Lemma cnt_filter x f l : cnt x (filter f l) = if f x then cnt x l else 0.
Proof.
  induction l as [|y r IH]; cbn [filter cnt]; [destruct (f x); reflexivity|].
  destruct (Z.eqb_spec x y) as [<-|N].
  - destruct (f x); cbn [cnt]; rewrite IH, ?Z.eqb_refl; reflexivity.
  - destruct (f y); cbn [cnt]; rewrite IH; [destruct (Z.eqb_spec x y); [contradiction|]|]; destruct (f x); reflexivity.
Qed.

Lemma cnt_filter_le x f l : cnt x (filter f l) <= cnt x l.
Proof. rewrite cnt_filter. pose proof (cnt_nonneg x l). destruct (f x); lia. Qed.

Lemma cnt_remall x y l : cnt x (remall y l) = if x =? y then 0 else cnt x l.
Proof. unfold remall. rewrite cnt_filter, (Z.eqb_sym y x). destruct (x =? y); reflexivity. Qed.

Lemma mem_remall x y l : mem x (remall y l) = negb (x =? y) && mem x l.
Proof. rewrite !mem_cnt, cnt_remall. destruct (x =? y); reflexivity. Qed.

Lemma rem1_absent x l : ~ In x l -> rem1 x l = l.
Proof.
  induction l as [|y r IH]; [reflexivity|]. cbn [rem1 In]. intros N.
  destruct (Z.eqb_spec x y); [exfalso; auto|]. rewrite IH; tauto.
Qed.

Lemma rem1_if_mem x l : (if mem x l then rem1 x l else l) = rem1 x l.
Proof.
  destruct (mem x l) eqn:E; [reflexivity|]. symmetry. apply rem1_absent.
  rewrite <- mem_In, E. discriminate.
Qed.

Lemma not_In_remall x l : ~ In x (remall x l).
Proof. rewrite <- cnt_In, cnt_remall, Z.eqb_refl. lia. Qed.

Lemma not_In_rem1 x l : cnt x l <= 1 -> ~ In x (rem1 x l).
Proof. intros H. rewrite <- cnt_In, cnt_rem1, Z.eqb_refl. pose proof (cnt_nonneg x l). lia. Qed.

Lemma In_rem1 x y l : In x (rem1 y l) -> In x l.
Proof. rewrite <- !cnt_In, cnt_rem1. pose proof (cnt_nonneg y l). destruct (x =? y); lia. Qed.

Lemma In_remall x y l : In x (remall y l) -> In x l.
Proof. intros H. apply filter_In in H. apply H. Qed.

Lemma In_addkey x y l : In x (addkey y l) <-> x = y \/ In x l.
Proof.
  rewrite <- !cnt_In, cnt_addkey. pose proof (cnt_nonneg y l). destruct (Z.eqb_spec x y) as [->|]; lia.
Qed.

Lemma NoDup_cnt l : NoDup l <-> forall x, cnt x l <= 1.
Proof.
  induction l as [|y r IH]; cbn [cnt].
  - split; [intros _ x; lia|constructor].
  - split.
    + intros N x. inversion N as [|? ? NI ND]; subst. pose proof (proj1 IH ND x).
      destruct (Z.eqb_spec x y); [subst|lia].
      pose proof (cnt_nonneg y r). destruct (Z.eq_dec (cnt y r) 0); [lia|].
      exfalso. apply NI, cnt_In. lia.
    + intros H. constructor.
      * intros HI. apply cnt_In in HI. specialize (H y). rewrite Z.eqb_refl in H. lia.
      * apply IH. intros x. specialize (H x). pose proof (cnt_nonneg x r). destruct (x =? y); lia.
Qed.

Lemma NoDup_addkey x l : NoDup l -> NoDup (addkey x l).
Proof.
  rewrite !NoDup_cnt. intros N y. rewrite cnt_addkey. specialize (N y). pose proof (cnt_nonneg y l).
  destruct (Z.eqb_spec y x); [subst|]; lia.
Qed.

Lemma filter_rem1_false f x l : f x = false -> filter f (rem1 x l) = filter f l.
Proof.
  intros Hf. induction l as [|y r IH]; [reflexivity|]. cbn [rem1 filter].
  destruct (Z.eqb_spec x y); [subst y; rewrite Hf; reflexivity|]. cbn [filter]. rewrite IH. reflexivity.
Qed.

Lemma filter_rem1_true f x l : f x = true -> filter f (rem1 x l) = rem1 x (filter f l).
Proof.
  intros Hf. induction l as [|y r IH]; [reflexivity|]. cbn [rem1 filter].
  destruct (Z.eqb_spec x y).
  - subst y. rewrite Hf. cbn [rem1]. rewrite Z.eqb_refl. reflexivity.
  - cbn [filter]. destruct (f y); cbn [rem1]; [destruct (Z.eqb_spec x y); [contradiction|]|]; rewrite IH; reflexivity.
Qed.

Lemma nth_mod_In l i : l <> [] -> In (nth_mod l i) l.
Proof.
  intros H. unfold nth_mod, zlen. apply nth_In.
  destruct l; [contradiction|]. cbn [length] in *.
  assert (0 <= i mod Z.of_nat (S (length l)) < Z.of_nat (S (length l))) by (apply Z.mod_pos_bound; lia).
  lia.
Qed.



Lemma upd_same {V} (f : Z -> V) k v : upd f k v k = v.
Proof. unfold upd. rewrite Z.eqb_refl. reflexivity. Qed.

Lemma upd_other {V} (f : Z -> V) k v k' : k' <> k -> upd f k v k' = f k'.
Proof. intros N. unfold upd. destruct (Z.eqb_spec k' k); [contradiction|reflexivity]. Qed.

Lemma lookup_remkey_other {V} h h' (m : list (Z * V)) : h <> h' -> lookup h (remkey h' m) = lookup h m.
Proof.
  intros N. induction m as [|[k v] r IH]; [reflexivity|]. cbn [remkey lookup].
  destruct (Z.eqb_spec h' k).
  - subst k. rewrite IH. destruct (Z.eqb_spec h h'); [contradiction|reflexivity].
  - cbn [lookup]. rewrite IH. reflexivity.
Qed.

Lemma lookup_remkey_same {V} h (m : list (Z * V)) : lookup h (remkey h m) = None.
Proof.
  induction m as [|[k v] r IH]; [reflexivity|]. cbn [remkey]. destruct (Z.eqb_spec h k); [exact IH|].
  cbn [lookup]. destruct (Z.eqb_spec h k); [contradiction|exact IH].
Qed.

Lemma lookup_cons_other {V} h h' (v : V) m : h <> h' -> lookup h ((h', v) :: m) = lookup h m.
Proof. intros N. cbn [lookup]. destruct (Z.eqb_spec h h'); [contradiction|reflexivity]. Qed.

Lemma lookup_app {V} k (a b : list (Z * V)) :
  lookup k (a ++ b) = match lookup k a with Some v => Some v | None => lookup k b end.
Proof. induction a as [|[k' v] r IH]; [reflexivity|]. cbn [app lookup]. destruct (k =? k'); [reflexivity|exact IH]. Qed.

Lemma remkey_notin {V} h (fr : list (Z * V)) : ~ In h (map fst fr) -> remkey h fr = fr.
Proof.
  induction fr as [|[k v] r IH]; cbn; [reflexivity|]. intros N.
  destruct (Z.eqb_spec h k); [exfalso; apply N; left; congruence|]. rewrite IH; [reflexivity|tauto].
Qed.

Lemma In_remkey {V} k h (fr : list (Z * V)) : In k (map fst (remkey h fr)) -> In k (map fst fr) /\ k <> h.
Proof.
  induction fr as [|[a v] r IH]; cbn; [tauto|]. destruct (Z.eqb_spec h a); cbn.
  - intros H. destruct (IH H). split; [right; assumption|assumption].
  - intros [E|H]; [split; [left; exact E|congruence]|]. destruct (IH H). split; [right; assumption|assumption].
Qed.

Lemma zlen_nonneg {A} (l : list A) : 0 <= zlen l.
Proof. unfold zlen. lia. Qed.

Lemma zlen_cons {A} (x : A) l : zlen (x :: l) = zlen l + 1.
Proof. unfold zlen. cbn [length]. lia. Qed.

Lemma zlen_app {A} (a b : list A) : zlen (a ++ b) = zlen a + zlen b.
Proof. unfold zlen. rewrite app_length. lia. Qed.

Lemma zlen_skipn {A} n (l : list A) : Z.of_nat n <= zlen l -> zlen (skipn n l) = zlen l - Z.of_nat n.
Proof. unfold zlen. intros H. rewrite skipn_length. lia. Qed.

Lemma zseq_app s a b : zseq s (a + b) = zseq s a ++ zseq (s + Z.of_nat a) b.
Proof.
  revert s; induction a as [|a IH]; intros s; cbn [zseq Nat.add app].
  - f_equal. lia.
  - rewrite IH. do 3 f_equal. lia.
Qed.

Lemma skipn_zseq k : forall s n, skipn k (zseq s n) = zseq (s + Z.of_nat (Nat.min k n)) (n - k).
Proof.
  induction k as [|k IH]; intros s n; cbn [skipn].
  - cbn. rewrite Z.add_0_r, Nat.sub_0_r. reflexivity.
  - destruct n as [|n]; cbn [zseq Nat.min Nat.sub]; [reflexivity|]. rewrite IH. f_equal. lia.
Qed.

Lemma cnt_zseq x : forall n s, cnt x (zseq s n) = if (s <=? x) && (x <? s + Z.of_nat n) then 1 else 0.
Proof.
  induction n as [|n IH]; intros s; cbn [zseq cnt].
  - replace ((s <=? x) && (x <? s + Z.of_nat 0)) with false by lia. reflexivity.
  - rewrite IH. destruct (Z.eqb_spec x s) as [->|N].
    + replace ((s + 1 <=? s) && _) with false by lia. replace ((s <=? s) && _) with true by lia. reflexivity.
    + replace ((s + 1 <=? x) && (x <? s + 1 + Z.of_nat n)) with ((s <=? x) && (x <? s + Z.of_nat (S n))) by lia.
      lia.
Qed.



Lemma ss_app_rem1 (R : Z -> Z -> Prop) x a b : StronglySorted R (a ++ b) -> StronglySorted R (a ++ rem1 x b).
Proof.
  induction a as [|y r IH]; cbn [app].
  - induction 1 as [|y r S IH F]; [constructor|]. cbn [rem1]. destruct (x =? y); [exact S|].
    constructor; [exact IH|]. rewrite Forall_forall in *. intros z Hz. apply F. eapply In_rem1. exact Hz.
  - intros S. inversion S as [|? ? S' F]; subst. constructor; [apply IH; exact S'|].
    rewrite Forall_forall in *. intros z Hz. apply F. rewrite in_app_iff in *.
    destruct Hz as [Hz|Hz]; [left; exact Hz|right; eapply In_rem1; exact Hz].
Qed.

Lemma ss_app_filter_rem1 (R : Z -> Z -> Prop) f x a l :
  StronglySorted R (a ++ filter f l) -> StronglySorted R (a ++ filter f (rem1 x l)).
Proof.
  intros S. destruct (f x) eqn:E.
  - rewrite filter_rem1_true by exact E. apply ss_app_rem1. exact S.
  - rewrite filter_rem1_false by exact E. exact S.
Qed.

(** Every machine of C19 runs a list of operations by the same recursion over
    its step function; the state it ends in is a fold. *)
Lemma run_from_fold {S O X} (step : S -> O -> S * X) (run_from : S -> list O -> S * list X) :
  (forall s, run_from s [] = (s, [])) ->
  (forall s o r, run_from s (o :: r) =
     let '(s1, x) := step s o in let '(s2, xs) := run_from s1 r in (s2, x :: xs)) ->
  forall ops s, fst (run_from s ops) = fold_left (fun s o => fst (step s o)) ops s.
Proof.
  intros Hnil Hcons. induction ops as [|o r IH]; intros s; [rewrite Hnil; reflexivity|].
  cbn [fold_left]. rewrite <- IH, Hcons. destruct (step s o) as [s1 x]. cbn [fst]. destruct (run_from s1 r). reflexivity.
Qed.

(** [J s ops] speaks of a state together with the operations still to come: an
    invariant of the state and the admissibility of the operations from it
    (nothing, a [Forall], a well-formedness predicate that follows the state, or
    a clock the two share). *)
Lemma fold_left_inv_rest {S O} (f : S -> O -> S) (J : S -> list O -> Prop) :
  (forall s o r, J s (o :: r) -> J (f s o) r) -> forall ops s, J s ops -> J (fold_left f ops s) [].
Proof. intros step. induction ops as [|o r IH]; intros s H; [exact H|]. apply IH, step, H. Qed.

Lemma fold_left_keeps {S O V} (f : S -> O -> S) (g : S -> V) (Q : O -> Prop) :
  (forall s o, Q o -> g (f s o) = g s) -> forall ops s, Forall Q ops -> g (fold_left f ops s) = g s.
Proof.
  intros step ops s HQ.
  refine (proj1 (fold_left_inv_rest f (fun s' r => g s' = g s /\ Forall Q r) _ ops s (conj eq_refl HQ))).
  intros s0 o r [E F]. inversion F; subst. split; [rewrite step by assumption; exact E|assumption].
Qed.

