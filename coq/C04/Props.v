(** Property C04 — observing, pausing or stepping a run does not change it.
    Statements for ALL scripts, control sessions (any sequence of pause / start /
    step(n) / resume / breakpoint insertion), end_time choices and fuel. *)
From HS Require Import Base.Prelude Engine.Engine Engine.Script Engine.EngineProofs Engine.ScriptProofs
  Engine.Control Engine.ControlProofs Engine.ControlScript Base.PyLib Gen.BreakpointGen C04.GenTie.
Local Open Scope Z_scope.

(** The general loop of [_run_loop] (the one taken when tracing is on or a control
    surface is attached, here with nobody pausing it) and the fast loop are the
    same function of the state. *)
Theorem c04_instrumented_loop_equals_fast_loop : forall fuel t (s : sst),
  run_slow invoke_script fuel (Some t) s = run_fast invoke_script fuel t s.
Proof.
  intros fuel t. unfold run_slow, run_fast. induction fuel as [|f IH]; intros s; cbn; [reflexivity|].
  rewrite step_slow_eq_fast. destruct (step_fast invoke_script t s); auto.
Qed.
Print Assumptions c04_instrumented_loop_equals_fast_loop.

(** Whatever the session, the state it reaches is a state of the uninterrupted
    run (same deliveries so far, same component state); a failed session failed
    exactly where the uninterrupted run raises. *)
Theorem c04_session_visits_only_run_states : forall fuel end_ns (s0 : sst) ks,
  sess_ok pay ustate invoke_script end_ns s0 (run_session invoke_script etype_of metric_of fuel end_ns s0 ks).
Proof. exact (session_ok pay ustate invoke_script etype_of metric_of). Qed.
Print Assumptions c04_session_visits_only_run_states.

(** A session that runs to completion ends in exactly the final state of the
    uninterrupted run. *)
Theorem c04_session_ends_like_uninterrupted_run : forall fuel end_ns (s0 : sst) ks,
  let x := run_session invoke_script etype_of metric_of fuel end_ns s0 ks in
  s_phase x = Done ->
  exists n, forall fuel', (n <= fuel')%nat -> run_slow invoke_script fuel' end_ns s0 = Stopped (s_st x).
Proof.
  intros fuel end_ns s0 ks x Hd. pose proof (c04_session_visits_only_run_states fuel end_ns s0 ks) as H. fold x in H.
  unfold sess_ok in H. rewrite Hd in H. destruct H as [H1 H2]. exact (path_stopped_run _ _ _ _ _ _ H1 H2).
Qed.
Print Assumptions c04_session_ends_like_uninterrupted_run.

(** step(n) with no pause requested and no breakpoint registered: the loop
    pauses after exactly n deliveries (skipped pops do not count); if the run
    ends first, after at most n. *)
Theorem c04_step_n_exact : forall fuel end_ns k (s : sst), 0 <= k ->
  match citerate invoke_script etype_of metric_of fuel end_ns (mkCtl false (Some k) []) s with
  | CPaused c' s' => processed s' = processed s + k
  | CStopped c' s' => exists j, 0 <= j <= k /\ processed s' = processed s + (k - j)
  | _ => True
  end.
Proof.
  intros fuel end_ns k s Hk.
  pose proof (step_n_bounded pay ustate invoke_script etype_of metric_of fuel end_ns k [] s Hk) as H.
  destruct (citerate _ _ _ fuel end_ns _ s); try exact H.
  destruct H as (j & _ & E & H0). rewrite (H0 eq_refl), Z.sub_0_r in E. exact E.
Qed.
Print Assumptions c04_step_n_exact.

(** An iteration that delivers the head event pauses right after it exactly
    if some registered breakpoint holds of the state then reached, and drops
    the one-shot breakpoints that hold. *)
Theorem c04_breakpoint_pauses_after_first_hit : forall end_ns c (s : sst) e h s',
  heap s = e :: h ->
  match end_ns with None => true | Some t => t >=? clock s end = true ->
  should_pause c = false ->
  (match end_ns with None => true | Some _ => false end) && negb (0 <? primary s) = false ->
  is_cancelled s e || (ev_time e <? clock s) = false ->
  pop_and_handle invoke_script s e h = Running s' ->
  let c' := mkCtl (pause_req c) (match steps c with Some k => Some (k - 1) | None => None end)
                  (filter (fun b => negb (should_break etype_of metric_of s' e b && bp_one b)) (bps c)) in
  cstep invoke_script etype_of metric_of end_ns c s =
    if existsb (should_break etype_of metric_of s' e) (bps c) then CPaused c' s' else CRunning c' s'.
Proof.
  intros end_ns c s e h s' Hh Hg Hp Ha Hs Hpop. unfold cstep. rewrite Hh, Hg, Hp, Ha, Hpop, Hs. reflexivity.
Qed.
Print Assumptions c04_breakpoint_pauses_after_first_hit.

(** All C01 guarantees survive any control session (stated for those that have not failed). *)
Theorem c04_session_keeps_engine_invariant : forall fuel start end_ns p pre ks,
  let x := run_session invoke_script etype_of metric_of fuel end_ns (script_init start p pre) ks in
  s_phase x <> Failed -> Inv pay ustate (s_st x).
Proof.
  intros fuel start end_ns p pre ks x _.
  apply (sess_ok_preserves pay ustate invoke_script (Inv pay ustate) end_ns (script_init start p pre));
    [exact (pop_and_handle_inv pay ustate invoke_script invoke_script_ok)|apply script_init_inv|apply session_ok].
Qed.
Print Assumptions c04_session_keeps_engine_invariant.

(** [should_break] of TimeBreakpoint / EventCountBreakpoint / EventTypeBreakpoint, regenerated from
    core/control/breakpoints.py on every run (Gen/BreakpointGen.v), evaluated on the context built after
    delivering [e] in state [s] (clock, events processed, that event), is the model's [should_break] — the
    predicate the pause / one-shot-removal theorems above are stated with — and [one_shot] is [bp_one];
    semantically: time reached, count reached, type equal.  Any payload / world types. *)
Theorem c04_code_breakpoints : forall (P U : Type) (etype : P -> Z) (metric : U -> Z -> option Z)
    (s : @st P U) (e : @ev P) t n ty one (c : BreakpointContext),
  (TimeBreakpoint_should_break (mkTimeBreakpoint t one) (ctx_of P U etype s e) = should_break etype metric s e (BTime t one)
   /\ EventCountBreakpoint_should_break (mkEventCountBreakpoint n one) (ctx_of P U etype s e) = should_break etype metric s e (BCount n one)
   /\ EventTypeBreakpoint_should_break (mkEventTypeBreakpoint ty one) (ctx_of P U etype s e) = should_break etype metric s e (BType ty one)
   /\ TimeBreakpoint_one_shot (mkTimeBreakpoint t one) = bp_one (BTime t one)
   /\ EventCountBreakpoint_one_shot (mkEventCountBreakpoint n one) = bp_one (BCount n one)
   /\ EventTypeBreakpoint_one_shot (mkEventTypeBreakpoint ty one) = bp_one (BType ty one))
  /\ ((TimeBreakpoint_should_break (mkTimeBreakpoint t one) c = true <-> t <= BreakpointContext_current_time c)
      /\ (EventCountBreakpoint_should_break (mkEventCountBreakpoint n one) c = true <-> n <= BreakpointContext_events_processed c)
      /\ (EventTypeBreakpoint_should_break (mkEventTypeBreakpoint ty one) c = true <-> Event_event_type (BreakpointContext_last_event c) = ty)).
Proof.
  intros P U etype metric s e t n ty one c.
  exact (conj (tie_breakpoints P U etype metric s e t n ty one) (breakpoints_spec c t n ty one)).
Qed.
Print Assumptions c04_code_breakpoints.
