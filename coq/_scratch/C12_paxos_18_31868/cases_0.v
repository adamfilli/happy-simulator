From HS Require Import Base.Prelude C12.Model.
Local Open Scope Z_scope.
Definition case_0 : Z * list rec_step := (3, [(RS 1 (IPropose 2) [(OPrepare 0 1 1); (OPrepare 2 1 1)] (mkO (SB 1 1) NB NZ 1 [(ZZ 1 0)] [(P1E 1 [(RSP 1 NB NZ)])] [(ZZ 1 0)] [(ZOZ 1 (SZ 2))] false NZ [])); (RS 2 (IPrepare 1 1 1) [(OPromise 1 1 1 2 NB NZ)] (mkO (SB 1 1) NB NZ 0 [] [] [] [] false NZ [])); (RS 1 (IPromise 1 2 NB NZ) [(OAccept 0 1 1 (SZ 2)); (OAccept 2 1 1 (SZ 2))] (mkO (SB 1 1) (SB 1 1) (SZ 2) 1 [(ZZ 1 0)] [(P1E 1 [(RSP 1 NB NZ); (RSP 2 NB NZ)])] [(ZZ 1 1)] [(ZOZ 1 (SZ 2))] false NZ [])); (RS 0 (IPrepare 1 1 1) [(OPromise 1 1 1 0 NB NZ)] (mkO (SB 1 1) NB NZ 0 [] [] [] [] false NZ [])); (RS 0 (IPropose 3) [(OPrepare 1 2 0); (OPrepare 2 2 0)] (mkO (SB 2 0) NB NZ 2 [(ZZ 2 0)] [(P1E 2 [(RSP 0 NB NZ)])] [(ZZ 2 0)] [(ZOZ 2 (SZ 3))] false NZ [])); (RS 2 (IPrepare 0 2 0) [(OPromise 0 2 0 2 NB NZ)] (mkO (SB 2 0) NB NZ 0 [] [] [] [] false NZ [])); (RS 0 (IPromise 2 2 NB NZ) [(OAccept 1 2 0 (SZ 3)); (OAccept 2 2 0 (SZ 3))] (mkO (SB 2 0) (SB 2 0) (SZ 3) 2 [(ZZ 2 0)] [(P1E 2 [(RSP 0 NB NZ); (RSP 2 NB NZ)])] [(ZZ 2 1)] [(ZOZ 2 (SZ 3))] false NZ [])); (RS 2 (IAccept 0 2 0 (SZ 3)) [(OAccepted 0 2 0 2)] (mkO (SB 2 0) (SB 2 0) (SZ 3) 0 [] [] [] [] false NZ [])); (RS 1 (IPrepare 0 2 0) [(OPromise 0 2 0 1 (SB 1 1) (SZ 2))] (mkO (SB 2 0) (SB 1 1) (SZ 2) 1 [(ZZ 1 0)] [(P1E 1 [(RSP 1 NB NZ); (RSP 2 NB NZ)])] [(ZZ 1 1)] [(ZOZ 1 (SZ 2))] false NZ [])); (RS 0 (IPromise 2 1 (SB 1 1) (SZ 2)) [] (mkO (SB 2 0) (SB 2 0) (SZ 3) 2 [(ZZ 2 0)] [(P1E 2 [(RSP 0 NB NZ); (RSP 2 NB NZ); (RSP 1 (SB 1 1) (SZ 2))])] [(ZZ 2 1)] [(ZOZ 2 (SZ 3))] false NZ [])); (RS 0 (IAccept 1 1 1 (SZ 2)) [(ONack 1 1 1 2 0)] (mkO (SB 2 0) (SB 2 0) (SZ 3) 2 [(ZZ 2 0)] [(P1E 2 [(RSP 0 NB NZ); (RSP 2 NB NZ); (RSP 1 (SB 1 1) (SZ 2))])] [(ZZ 2 1)] [(ZOZ 2 (SZ 3))] false NZ [])); (RS 1 (INack 1 2) [(ORetry 1)] (mkO (SB 2 0) (SB 1 1) (SZ 2) 2 [(ZZ 1 0)] [(P1E 1 [(RSP 1 NB NZ); (RSP 2 NB NZ)])] [(ZZ 1 1)] [(ZOZ 1 (SZ 2))] false NZ [])); (RS 1 (IAccept 0 2 0 (SZ 3)) [(OAccepted 0 2 0 1)] (mkO (SB 2 0) (SB 2 0) (SZ 3) 2 [(ZZ 1 0)] [(P1E 1 [(RSP 1 NB NZ); (RSP 2 NB NZ)])] [(ZZ 1 1)] [(ZOZ 1 (SZ 2))] false NZ [])); (RS 0 (IAccepted 2) [(ODecided 1 (SZ 3)); (ODecided 2 (SZ 3))] (mkO (SB 2 0) (SB 2 0) (SZ 3) 2 [(ZZ 2 0)] [(P1E 2 [(RSP 0 NB NZ); (RSP 2 NB NZ); (RSP 1 (SB 1 1) (SZ 2))])] [(ZZ 2 2)] [(ZOZ 2 (SZ 3))] true (SZ 3) [(ZOZ 0 (SZ 3))])); (RS 1 (IDecided (SZ 3)) [] (mkO (SB 2 0) (SB 2 0) (SZ 3) 2 [(ZZ 1 0)] [(P1E 1 [(RSP 1 NB NZ); (RSP 2 NB NZ)])] [(ZZ 1 1)] [(ZOZ 1 (SZ 2))] true (SZ 3) [])); (RS 2 (IDecided (SZ 3)) [] (mkO (SB 2 0) (SB 2 0) (SZ 3) 0 [] [] [] [] true (SZ 3) [])); (RS 0 (IAccepted 2) [] (mkO (SB 2 0) (SB 2 0) (SZ 3) 2 [(ZZ 2 0)] [(P1E 2 [(RSP 0 NB NZ); (RSP 2 NB NZ); (RSP 1 (SB 1 1) (SZ 2))])] [(ZZ 2 3)] [(ZOZ 2 (SZ 3))] true (SZ 3) [(ZOZ 0 (SZ 3))])); (RS 2 (IAccept 1 1 1 (SZ 2)) [(ONack 1 1 1 2 0)] (mkO (SB 2 0) (SB 2 0) (SZ 3) 0 [] [] [] [] true (SZ 3) [])); (RS 1 (IPromise 1 0 NB NZ) [] (mkO (SB 2 0) (SB 2 0) (SZ 3) 2 [(ZZ 1 0)] [(P1E 1 [(RSP 1 NB NZ); (RSP 2 NB NZ); (RSP 0 NB NZ)])] [(ZZ 1 1)] [(ZOZ 1 (SZ 2))] true (SZ 3) [])); (RS 1 (IRetry 1) [] (mkO (SB 2 0) (SB 2 0) (SZ 3) 2 [(ZZ 1 0)] [(P1E 1 [(RSP 1 NB NZ); (RSP 2 NB NZ); (RSP 0 NB NZ)])] [(ZZ 1 1)] [(ZOZ 1 (SZ 2))] true (SZ 3) [])); (RS 1 (INack 1 2) [(ORetry 1)] (mkO (SB 2 0) (SB 2 0) (SZ 3) 2 [(ZZ 1 0)] [(P1E 1 [(RSP 1 NB NZ); (RSP 2 NB NZ); (RSP 0 NB NZ)])] [(ZZ 1 1)] [(ZOZ 1 (SZ 2))] true (SZ 3) [])); (RS 1 (IRetry 1) [] (mkO (SB 2 0) (SB 2 0) (SZ 3) 2 [(ZZ 1 0)] [(P1E 1 [(RSP 1 NB NZ); (RSP 2 NB NZ); (RSP 0 NB NZ)])] [(ZZ 1 1)] [(ZOZ 1 (SZ 2))] true (SZ 3) []))]).
Definition case_1 : Z * list rec_step := (3, [(RS 1 (IPropose 1) [(OPrepare 0 1 1); (OPrepare 2 1 1)] (mkO (SB 1 1) NB NZ 1 [(ZZ 1 0)] [(P1E 1 [(RSP 1 NB NZ)])] [(ZZ 1 0)] [(ZOZ 1 (SZ 1))] false NZ [])); (RS 1 (IPropose 1) [(OPrepare 0 2 1); (OPrepare 2 2 1)] (mkO (SB 2 1) NB NZ 2 [(ZZ 1 0); (ZZ 2 1)] [(P1E 1 [(RSP 1 NB NZ)]); (P1E 2 [(RSP 1 NB NZ)])] [(ZZ 1 0); (ZZ 2 0)] [(ZOZ 1 (SZ 1)); (ZOZ 2 (SZ 1))] false NZ [])); (RS 2 (IPrepare 1 2 1) [(OPromise 1 2 1 2 NB NZ)] (mkO (SB 2 1) NB NZ 0 [] [] [] [] false NZ [])); (RS 1 (IPromise 2 2 NB NZ) [(OAccept 0 2 1 (SZ 1)); (OAccept 2 2 1 (SZ 1))] (mkO (SB 2 1) (SB 2 1) (SZ 1) 2 [(ZZ 1 0); (ZZ 2 1)] [(P1E 1 [(RSP 1 NB NZ)]); (P1E 2 [(RSP 1 NB NZ); (RSP 2 NB NZ)])] [(ZZ 1 0); (ZZ 2 1)] [(ZOZ 1 (SZ 1)); (ZOZ 2 (SZ 1))] false NZ [])); (RS 0 (IAccept 1 2 1 (SZ 1)) [(OAccepted 1 2 1 0)] (mkO (SB 2 1) (SB 2 1) (SZ 1) 0 [] [] [] [] false NZ [])); (RS 2 (IAccept 1 2 1 (SZ 1)) [(OAccepted 1 2 1 2)] (mkO (SB 2 1) (SB 2 1) (SZ 1) 0 [] [] [] [] false NZ [])); (RS 1 (IAccepted 2) [(ODecided 0 (SZ 1)); (ODecided 2 (SZ 1))] (mkO (SB 2 1) (SB 2 1) (SZ 1) 2 [(ZZ 1 0); (ZZ 2 1)] [(P1E 1 [(RSP 1 NB NZ)]); (P1E 2 [(RSP 1 NB NZ); (RSP 2 NB NZ)])] [(ZZ 1 0); (ZZ 2 2)] [(ZOZ 1 (SZ 1)); (ZOZ 2 (SZ 1))] true (SZ 1) [(ZOZ 1 (SZ 1))])); (RS 0 (IDecided (SZ 1)) [] (mkO (SB 2 1) (SB 2 1) (SZ 1) 0 [] [] [] [] true (SZ 1) [])); (RS 1 (IAccepted 2) [] (mkO (SB 2 1) (SB 2 1) (SZ 1) 2 [(ZZ 1 0); (ZZ 2 1)] [(P1E 1 [(RSP 1 NB NZ)]); (P1E 2 [(RSP 1 NB NZ); (RSP 2 NB NZ)])] [(ZZ 1 0); (ZZ 2 3)] [(ZOZ 1 (SZ 1)); (ZOZ 2 (SZ 1))] true (SZ 1) [(ZOZ 1 (SZ 1))])); (RS 0 (IPrepare 1 1 1) [(ONack 1 1 1 2 1)] (mkO (SB 2 1) (SB 2 1) (SZ 1) 0 [] [] [] [] true (SZ 1) [])); (RS 2 (IPrepare 1 1 1) [(ONack 1 1 1 2 1)] (mkO (SB 2 1) (SB 2 1) (SZ 1) 0 [] [] [] [] false NZ [])); (RS 1 (INack 1 2) [(ORetry 1)] (mkO (SB 2 1) (SB 2 1) (SZ 1) 2 [(ZZ 1 0); (ZZ 2 1)] [(P1E 1 [(RSP 1 NB NZ)]); (P1E 2 [(RSP 1 NB NZ); (RSP 2 NB NZ)])] [(ZZ 1 0); (ZZ 2 3)] [(ZOZ 1 (SZ 1)); (ZOZ 2 (SZ 1))] true (SZ 1) [(ZOZ 1 (SZ 1))])); (RS 1 (INack 1 2) [(ORetry 1)] (mkO (SB 2 1) (SB 2 1) (SZ 1) 2 [(ZZ 1 0); (ZZ 2 1)] [(P1E 1 [(RSP 1 NB NZ)]); (P1E 2 [(RSP 1 NB NZ); (RSP 2 NB NZ)])] [(ZZ 1 0); (ZZ 2 3)] [(ZOZ 1 (SZ 1)); (ZOZ 2 (SZ 1))] true (SZ 1) [(ZOZ 1 (SZ 1))])); (RS 0 (IPrepare 1 2 1) [(OPromise 1 2 1 0 (SB 2 1) (SZ 1))] (mkO (SB 2 1) (SB 2 1) (SZ 1) 0 [] [] [] [] true (SZ 1) [])); (RS 1 (IPromise 2 0 (SB 2 1) (SZ 1)) [] (mkO (SB 2 1) (SB 2 1) (SZ 1) 2 [(ZZ 1 0); (ZZ 2 1)] [(P1E 1 [(RSP 1 NB NZ)]); (P1E 2 [(RSP 1 NB NZ); (RSP 2 NB NZ); (RSP 0 (SB 2 1) (SZ 1))])] [(ZZ 1 0); (ZZ 2 3)] [(ZOZ 1 (SZ 1)); (ZOZ 2 (SZ 1))] true (SZ 1) [(ZOZ 1 (SZ 1))])); (RS 1 (IRetry 1) [] (mkO (SB 2 1) (SB 2 1) (SZ 1) 2 [(ZZ 1 0); (ZZ 2 1)] [(P1E 1 [(RSP 1 NB NZ)]); (P1E 2 [(RSP 1 NB NZ); (RSP 2 NB NZ); (RSP 0 (SB 2 1) (SZ 1))])] [(ZZ 1 0); (ZZ 2 3)] [(ZOZ 1 (SZ 1)); (ZOZ 2 (SZ 1))] true (SZ 1) [(ZOZ 1 (SZ 1))])); (RS 1 (IRetry 1) [] (mkO (SB 2 1) (SB 2 1) (SZ 1) 2 [(ZZ 1 0); (ZZ 2 1)] [(P1E 1 [(RSP 1 NB NZ)]); (P1E 2 [(RSP 1 NB NZ); (RSP 2 NB NZ); (RSP 0 (SB 2 1) (SZ 1))])] [(ZZ 1 0); (ZZ 2 3)] [(ZOZ 1 (SZ 1)); (ZOZ 2 (SZ 1))] true (SZ 1) [(ZOZ 1 (SZ 1))])); (RS 2 (IDecided (SZ 1)) [] (mkO (SB 2 1) (SB 2 1) (SZ 1) 0 [] [] [] [] true (SZ 1) []))]).
Definition case_2 : Z * list rec_step := (3, [(RS 2 (IPropose 2) [(OPrepare 0 1 2); (OPrepare 1 1 2)] (mkO (SB 1 2) NB NZ 1 [(ZZ 1 0)] [(P1E 1 [(RSP 2 NB NZ)])] [(ZZ 1 0)] [(ZOZ 1 (SZ 2))] false NZ [])); (RS 0 (IPrepare 2 1 2) [(OPromise 2 1 2 0 NB NZ)] (mkO (SB 1 2) NB NZ 0 [] [] [] [] false NZ [])); (RS 2 (IPromise 1 0 NB NZ) [(OAccept 0 1 2 (SZ 2)); (OAccept 1 1 2 (SZ 2))] (mkO (SB 1 2) (SB 1 2) (SZ 2) 1 [(ZZ 1 0)] [(P1E 1 [(RSP 2 NB NZ); (RSP 0 NB NZ)])] [(ZZ 1 1)] [(ZOZ 1 (SZ 2))] false NZ [])); (RS 0 (IAccept 2 1 2 (SZ 2)) [(OAccepted 2 1 2 0)] (mkO (SB 1 2) (SB 1 2) (SZ 2) 0 [] [] [] [] false NZ [])); (RS 2 (IAccepted 1) [(ODecided 0 (SZ 2)); (ODecided 1 (SZ 2))] (mkO (SB 1 2) (SB 1 2) (SZ 2) 1 [(ZZ 1 0)] [(P1E 1 [(RSP 2 NB NZ); (RSP 0 NB NZ)])] [(ZZ 1 2)] [(ZOZ 1 (SZ 2))] true (SZ 2) [(ZOZ 0 (SZ 2))])); (RS 0 (IDecided (SZ 2)) [] (mkO (SB 1 2) (SB 1 2) (SZ 2) 0 [] [] [] [] true (SZ 2) [])); (RS 1 (IDecided (SZ 2)) [] (mkO NB NB NZ 0 [] [] [] [] true (SZ 2) [])); (RS 1 (IPrepare 2 1 2) [(OPromise 2 1 2 1 NB NZ)] (mkO (SB 1 2) NB NZ 0 [] [] [] [] true (SZ 2) [])); (RS 2 (IPromise 1 1 NB NZ) [] (mkO (SB 1 2) (SB 1 2) (SZ 2) 1 [(ZZ 1 0)] [(P1E 1 [(RSP 2 NB NZ); (RSP 0 NB NZ); (RSP 1 NB NZ)])] [(ZZ 1 2)] [(ZOZ 1 (SZ 2))] true (SZ 2) [(ZOZ 0 (SZ 2))])); (RS 1 (IAccept 2 1 2 (SZ 2)) [(OAccepted 2 1 2 1)] (mkO (SB 1 2) (SB 1 2) (SZ 2) 0 [] [] [] [] true (SZ 2) [])); (RS 2 (IAccepted 1) [] (mkO (SB 1 2) (SB 1 2) (SZ 2) 1 [(ZZ 1 0)] [(P1E 1 [(RSP 2 NB NZ); (RSP 0 NB NZ); (RSP 1 NB NZ)])] [(ZZ 1 3)] [(ZOZ 1 (SZ 2))] true (SZ 2) [(ZOZ 0 (SZ 2))]))]).
Definition case_3 : Z * list rec_step := (4, [(RS 0 (IPropose 2) [(OPrepare 1 1 0); (OPrepare 2 1 0); (OPrepare 3 1 0)] (mkO (SB 1 0) NB NZ 1 [(ZZ 1 0)] [(P1E 1 [(RSP 0 NB NZ)])] [(ZZ 1 0)] [(ZOZ 1 (SZ 2))] false NZ [])); (RS 2 (IPropose 2) [(OPrepare 0 1 2); (OPrepare 1 1 2); (OPrepare 3 1 2)] (mkO (SB 1 2) NB NZ 1 [(ZZ 1 0)] [(P1E 1 [(RSP 2 NB NZ)])] [(ZZ 1 0)] [(ZOZ 1 (SZ 2))] false NZ [])); (RS 3 (IPrepare 2 1 2) [(OPromise 2 1 2 3 NB NZ)] (mkO (SB 1 2) NB NZ 0 [] [] [] [] false NZ [])); (RS 1 (IPrepare 0 1 0) [(OPromise 0 1 0 1 NB NZ)] (mkO (SB 1 0) NB NZ 0 [] [] [] [] false NZ [])); (RS 2 (IPrepare 0 1 0) [(ONack 0 1 0 1 2)] (mkO (SB 1 2) NB NZ 1 [(ZZ 1 0)] [(P1E 1 [(RSP 2 NB NZ)])] [(ZZ 1 0)] [(ZOZ 1 (SZ 2))] false NZ [])); (RS 0 (INack 1 1) [(ORetry 1)] (mkO (SB 1 0) NB NZ 1 [(ZZ 1 0)] [(P1E 1 [(RSP 0 NB NZ)])] [(ZZ 1 0)] [(ZOZ 1 (SZ 2))] false NZ [])); (RS 0 (IRetry 1) [(OPrepare 1 2 0); (OPrepare 2 2 0); (OPrepare 3 2 0)] (mkO (SB 2 0) NB NZ 2 [(ZZ 2 0)] [(P1E 1 [(RSP 0 NB NZ)]); (P1E 2 [(RSP 0 NB NZ)])] [(ZZ 1 0); (ZZ 2 0)] [(ZOZ 2 (SZ 2))] false NZ [])); (RS 3 (IPrepare 0 2 0) [(OPromise 0 2 0 3 NB NZ)] (mkO (SB 2 0) NB NZ 0 [] [] [] [] false NZ [])); (RS 1 (IPrepare 0 2 0) [(OPromise 0 2 0 1 NB NZ)] (mkO (SB 2 0) NB NZ 0 [] [] [] [] false NZ [])); (RS 0 (IPromise 2 3 NB NZ) [] (mkO (SB 2 0) NB NZ 2 [(ZZ 2 0)] [(P1E 1 [(RSP 0 NB NZ)]); (P1E 2 [(RSP 0 NB NZ); (RSP 3 NB NZ)])] [(ZZ 1 0); (ZZ 2 0)] [(ZOZ 2 (SZ 2))] false NZ [])); (RS 0 (IPromise 1 1 NB NZ) [] (mkO (SB 2 0) NB NZ 2 [(ZZ 2 0)] [(P1E 1 [(RSP 0 NB NZ); (RSP 1 NB NZ)]); (P1E 2 [(RSP 0 NB NZ); (RSP 3 NB NZ)])] [(ZZ 1 0); (ZZ 2 0)] [(ZOZ 2 (SZ 2))] false NZ [])); (RS 1 (IPropose 2) [(OPrepare 0 3 1); (OPrepare 2 3 1); (OPrepare 3 3 1)] (mkO (SB 3 1) NB NZ 3 [(ZZ 3 0)] [(P1E 3 [(RSP 1 NB NZ)])] [(ZZ 3 0)] [(ZOZ 3 (SZ 2))] false NZ [])); (RS 0 (IPrepare 1 3 1) [(OPromise 1 3 1 0 NB NZ)] (mkO (SB 3 1) NB NZ 2 [(ZZ 2 0)] [(P1E 1 [(RSP 0 NB NZ); (RSP 1 NB NZ)]); (P1E 2 [(RSP 0 NB NZ); (RSP 3 NB NZ)])] [(ZZ 1 0); (ZZ 2 0)] [(ZOZ 2 (SZ 2))] false NZ [])); (RS 2 (IPrepare 1 3 1) [(OPromise 1 3 1 2 NB NZ)] (mkO (SB 3 1) NB NZ 1 [(ZZ 1 0)] [(P1E 1 [(RSP 2 NB NZ)])] [(ZZ 1 0)] [(ZOZ 1 (SZ 2))] false NZ [])); (RS 1 (IPromise 3 2 NB NZ) [] (mkO (SB 3 1) NB NZ 3 [(ZZ 3 0)] [(P1E 3 [(RSP 1 NB NZ); (RSP 2 NB NZ)])] [(ZZ 3 0)] [(ZOZ 3 (SZ 2))] false NZ [])); (RS 1 (IPromise 3 0 NB NZ) [(OAccept 0 3 1 (SZ 2)); (OAccept 2 3 1 (SZ 2)); (OAccept 3 3 1 (SZ 2))] (mkO (SB 3 1) (SB 3 1) (SZ 2) 3 [(ZZ 3 0)] [(P1E 3 [(RSP 1 NB NZ); (RSP 2 NB NZ); (RSP 0 NB NZ)])] [(ZZ 3 1)] [(ZOZ 3 (SZ 2))] false NZ [])); (RS 3 (IAccept 1 3 1 (SZ 2)) [(OAccepted 1 3 1 3)] (mkO (SB 3 1) (SB 3 1) (SZ 2) 0 [] [] [] [] false NZ [])); (RS 2 (IAccept 1 3 1 (SZ 2)) [(OAccepted 1 3 1 2)] (mkO (SB 3 1) (SB 3 1) (SZ 2) 1 [(ZZ 1 0)] [(P1E 1 [(RSP 2 NB NZ)])] [(ZZ 1 0)] [(ZOZ 1 (SZ 2))] false NZ [])); (RS 0 (IAccept 1 3 1 (SZ 2)) [(OAccepted 1 3 1 0)] (mkO (SB 3 1) (SB 3 1) (SZ 2) 2 [(ZZ 2 0)] [(P1E 1 [(RSP 0 NB NZ); (RSP 1 NB NZ)]); (P1E 2 [(RSP 0 NB NZ); (RSP 3 NB NZ)])] [(ZZ 1 0); (ZZ 2 0)] [(ZOZ 2 (SZ 2))] false NZ [])); (RS 1 (IAccepted 3) [] (mkO (SB 3 1) (SB 3 1) (SZ 2) 3 [(ZZ 3 0)] [(P1E 3 [(RSP 1 NB NZ); (RSP 2 NB NZ); (RSP 0 NB NZ)])] [(ZZ 3 2)] [(ZOZ 3 (SZ 2))] false NZ [])); (RS 3 (IPrepare 0 1 0) [(ONack 0 1 0 3 1)] (mkO (SB 3 1) (SB 3 1) (SZ 2) 0 [] [] [] [] false NZ [])); (RS 1 (IPrepare 2 1 2) [(ONack 2 1 2 3 1)] (mkO (SB 3 1) (SB 3 1) (SZ 2) 3 [(ZZ 3 0)] [(P1E 3 [(RSP 1 NB NZ); (RSP 2 NB NZ); (RSP 0 NB NZ)])] [(ZZ 3 2)] [(ZOZ 3 (SZ 2))] false NZ [])); (RS 2 (IPromise 1 3 NB NZ) [] (mkO (SB 3 1) (SB 3 1) (SZ 2) 1 [(ZZ 1 0)] [(P1E 1 [(RSP 2 NB NZ); (RSP 3 NB NZ)])] [(ZZ 1 0)] [(ZOZ 1 (SZ 2))] false NZ [])); (RS 0 (INack 1 3) [] (mkO (SB 3 1) (SB 3 1) (SZ 2) 3 [(ZZ 2 0)] [(P1E 1 [(RSP 0 NB NZ); (RSP 1 NB NZ)]); (P1E 2 [(RSP 0 NB NZ); (RSP 3 NB NZ)])] [(ZZ 1 0); (ZZ 2 0)] [(ZOZ 2 (SZ 2))] false NZ [])); (RS 2 (INack 1 3) [(ORetry 1)] (mkO (SB 3 1) (SB 3 1) (SZ 2) 3 [(ZZ 1 0)] [(P1E 1 [(RSP 2 NB NZ); (RSP 3 NB NZ)])] [(ZZ 1 0)] [(ZOZ 1 (SZ 2))] false NZ [])); (RS 2 (IRetry 1) [(OPrepare 0 4 2); (OPrepare 1 4 2); (OPrepare 3 4 2)] (mkO (SB 4 2) (SB 3 1) (SZ 2) 4 [(ZZ 4 0)] [(P1E 1 [(RSP 2 NB NZ); (RSP 3 NB NZ)]); (P1E 4 [(RSP 2 (SB 3 1) (SZ 2))])] [(ZZ 1 0); (ZZ 4 0)] [(ZOZ 4 (SZ 2))] false NZ [])); (RS 3 (IPrepare 2 4 2) [(OPromise 2 4 2 3 (SB 3 1) (SZ 2))] (mkO (SB 4 2) (SB 3 1) (SZ 2) 0 [] [] [] [] false NZ [])); (RS 0 (IPrepare 2 4 2) [(OPromise 2 4 2 0 (SB 3 1) (SZ 2))] (mkO (SB 4 2) (SB 3 1) (SZ 2) 3 [(ZZ 2 0)] [(P1E 1 [(RSP 0 NB NZ); (RSP 1 NB NZ)]); (P1E 2 [(RSP 0 NB NZ); (RSP 3 NB NZ)])] [(ZZ 1 0); (ZZ 2 0)] [(ZOZ 2 (SZ 2))] false NZ [])); (RS 2 (IPromise 4 3 (SB 3 1) (SZ 2)) [] (mkO (SB 4 2) (SB 3 1) (SZ 2) 4 [(ZZ 4 0)] [(P1E 1 [(RSP 2 NB NZ); (RSP 3 NB NZ)]); (P1E 4 [(RSP 2 (SB 3 1) (SZ 2)); (RSP 3 (SB 3 1) (SZ 2))])] [(ZZ 1 0); (ZZ 4 0)] [(ZOZ 4 (SZ 2))] false NZ [])); (RS 1 (IAccepted 3) [(ODecided 0 (SZ 2)); (ODecided 2 (SZ 2)); (ODecided 3 (SZ 2))] (mkO (SB 3 1) (SB 3 1) (SZ 2) 3 [(ZZ 3 0)] [(P1E 3 [(RSP 1 NB NZ); (RSP 2 NB NZ); (RSP 0 NB NZ)])] [(ZZ 3 3)] [(ZOZ 3 (SZ 2))] true (SZ 2) [(ZOZ 0 (SZ 2))])); (RS 3 (IDecided (SZ 2)) [] (mkO (SB 4 2) (SB 3 1) (SZ 2) 0 [] [] [] [] true (SZ 2) [])); (RS 1 (IPrepare 2 4 2) [(OPromise 2 4 2 1 (SB 3 1) (SZ 2))] (mkO (SB 4 2) (SB 3 1) (SZ 2) 3 [(ZZ 3 0)] [(P1E 3 [(RSP 1 NB NZ); (RSP 2 NB NZ); (RSP 0 NB NZ)])] [(ZZ 3 3)] [(ZOZ 3 (SZ 2))] true (SZ 2) [(ZOZ 0 (SZ 2))])); (RS 2 (IDecided (SZ 2)) [] (mkO (SB 4 2) (SB 3 1) (SZ 2) 4 [(ZZ 4 0)] [(P1E 1 [(RSP 2 NB NZ); (RSP 3 NB NZ)]); (P1E 4 [(RSP 2 (SB 3 1) (SZ 2)); (RSP 3 (SB 3 1) (SZ 2))])] [(ZZ 1 0); (ZZ 4 0)] [(ZOZ 4 (SZ 2))] true (SZ 2) [])); (RS 2 (IPromise 4 1 (SB 3 1) (SZ 2)) [(OAccept 0 4 2 (SZ 2)); (OAccept 1 4 2 (SZ 2)); (OAccept 3 4 2 (SZ 2))] (mkO (SB 4 2) (SB 4 2) (SZ 2) 4 [(ZZ 4 0)] [(P1E 1 [(RSP 2 NB NZ); (RSP 3 NB NZ)]); (P1E 4 [(RSP 2 (SB 3 1) (SZ 2)); (RSP 3 (SB 3 1) (SZ 2)); (RSP 1 (SB 3 1) (SZ 2))])] [(ZZ 1 0); (ZZ 4 1)] [(ZOZ 4 (SZ 2))] true (SZ 2) [])); (RS 1 (IAccept 2 4 2 (SZ 2)) [(OAccepted 2 4 2 1)] (mkO (SB 4 2) (SB 4 2) (SZ 2) 3 [(ZZ 3 0)] [(P1E 3 [(RSP 1 NB NZ); (RSP 2 NB NZ); (RSP 0 NB NZ)])] [(ZZ 3 3)] [(ZOZ 3 (SZ 2))] true (SZ 2) [(ZOZ 0 (SZ 2))])); (RS 2 (IAccepted 4) [] (mkO (SB 4 2) (SB 4 2) (SZ 2) 4 [(ZZ 4 0)] [(P1E 1 [(RSP 2 NB NZ); (RSP 3 NB NZ)]); (P1E 4 [(RSP 2 (SB 3 1) (SZ 2)); (RSP 3 (SB 3 1) (SZ 2)); (RSP 1 (SB 3 1) (SZ 2))])] [(ZZ 1 0); (ZZ 4 2)] [(ZOZ 4 (SZ 2))] true (SZ 2) [])); (RS 0 (IAccept 2 4 2 (SZ 2)) [(OAccepted 2 4 2 0)] (mkO (SB 4 2) (SB 4 2) (SZ 2) 3 [(ZZ 2 0)] [(P1E 1 [(RSP 0 NB NZ); (RSP 1 NB NZ)]); (P1E 2 [(RSP 0 NB NZ); (RSP 3 NB NZ)])] [(ZZ 1 0); (ZZ 2 0)] [(ZOZ 2 (SZ 2))] false NZ [])); (RS 2 (IAccepted 4) [] (mkO (SB 4 2) (SB 4 2) (SZ 2) 4 [(ZZ 4 0)] [(P1E 1 [(RSP 2 NB NZ); (RSP 3 NB NZ)]); (P1E 4 [(RSP 2 (SB 3 1) (SZ 2)); (RSP 3 (SB 3 1) (SZ 2)); (RSP 1 (SB 3 1) (SZ 2))])] [(ZZ 1 0); (ZZ 4 3)] [(ZOZ 4 (SZ 2))] true (SZ 2) []))]).
Definition case_4 : Z * list rec_step := (3, [(RS 0 (IPropose 3) [(OPrepare 1 1 0); (OPrepare 2 1 0)] (mkO (SB 1 0) NB NZ 1 [(ZZ 1 0)] [(P1E 1 [(RSP 0 NB NZ)])] [(ZZ 1 0)] [(ZOZ 1 (SZ 3))] false NZ [])); (RS 2 (IPrepare 0 1 0) [(OPromise 0 1 0 2 NB NZ)] (mkO (SB 1 0) NB NZ 0 [] [] [] [] false NZ [])); (RS 0 (IPromise 1 2 NB NZ) [(OAccept 1 1 0 (SZ 3)); (OAccept 2 1 0 (SZ 3))] (mkO (SB 1 0) (SB 1 0) (SZ 3) 1 [(ZZ 1 0)] [(P1E 1 [(RSP 0 NB NZ); (RSP 2 NB NZ)])] [(ZZ 1 1)] [(ZOZ 1 (SZ 3))] false NZ [])); (RS 1 (IPropose 2) [(OPrepare 0 1 1); (OPrepare 2 1 1)] (mkO (SB 1 1) NB NZ 1 [(ZZ 1 0)] [(P1E 1 [(RSP 1 NB NZ)])] [(ZZ 1 0)] [(ZOZ 1 (SZ 2))] false NZ [])); (RS 2 (IPrepare 1 1 1) [(OPromise 1 1 1 2 NB NZ)] (mkO (SB 1 1) NB NZ 0 [] [] [] [] false NZ [])); (RS 1 (IPromise 1 2 NB NZ) [(OAccept 0 1 1 (SZ 2)); (OAccept 2 1 1 (SZ 2))] (mkO (SB 1 1) (SB 1 1) (SZ 2) 1 [(ZZ 1 0)] [(P1E 1 [(RSP 1 NB NZ); (RSP 2 NB NZ)])] [(ZZ 1 1)] [(ZOZ 1 (SZ 2))] false NZ [])); (RS 2 (IAccept 1 1 1 (SZ 2)) [(OAccepted 1 1 1 2)] (mkO (SB 1 1) (SB 1 1) (SZ 2) 0 [] [] [] [] false NZ [])); (RS 1 (IAccepted 1) [(ODecided 0 (SZ 2)); (ODecided 2 (SZ 2))] (mkO (SB 1 1) (SB 1 1) (SZ 2) 1 [(ZZ 1 0)] [(P1E 1 [(RSP 1 NB NZ); (RSP 2 NB NZ)])] [(ZZ 1 2)] [(ZOZ 1 (SZ 2))] true (SZ 2) [(ZOZ 0 (SZ 2))])); (RS 2 (IDecided (SZ 2)) [] (mkO (SB 1 1) (SB 1 1) (SZ 2) 0 [] [] [] [] true (SZ 2) [])); (RS 0 (IPropose 1) [(OPrepare 1 2 0); (OPrepare 2 2 0)] (mkO (SB 2 0) (SB 1 0) (SZ 3) 2 [(ZZ 1 0); (ZZ 2 1)] [(P1E 1 [(RSP 0 NB NZ); (RSP 2 NB NZ)]); (P1E 2 [(RSP 0 (SB 1 0) (SZ 3))])] [(ZZ 1 1); (ZZ 2 0)] [(ZOZ 1 (SZ 3)); (ZOZ 2 (SZ 1))] false NZ [])); (RS 1 (IPrepare 0 2 0) [(OPromise 0 2 0 1 (SB 1 1) (SZ 2))] (mkO (SB 2 0) (SB 1 1) (SZ 2) 1 [(ZZ 1 0)] [(P1E 1 [(RSP 1 NB NZ); (RSP 2 NB NZ)])] [(ZZ 1 2)] [(ZOZ 1 (SZ 2))] true (SZ 2) [(ZOZ 0 (SZ 2))])); (RS 2 (IPrepare 0 2 0) [(OPromise 0 2 0 2 (SB 1 1) (SZ 2))] (mkO (SB 2 0) (SB 1 1) (SZ 2) 0 [] [] [] [] true (SZ 2) [])); (RS 0 (IPromise 2 2 (SB 1 1) (SZ 2)) [(OAccept 1 2 0 (SZ 2)); (OAccept 2 2 0 (SZ 2))] (mkO (SB 2 0) (SB 2 0) (SZ 2) 2 [(ZZ 1 0); (ZZ 2 1)] [(P1E 1 [(RSP 0 NB NZ); (RSP 2 NB NZ)]); (P1E 2 [(RSP 0 (SB 1 0) (SZ 3)); (RSP 2 (SB 1 1) (SZ 2))])] [(ZZ 1 1); (ZZ 2 1)] [(ZOZ 1 (SZ 3)); (ZOZ 2 (SZ 2))] false NZ [])); (RS 0 (IPromise 2 1 (SB 1 1) (SZ 2)) [] (mkO (SB 2 0) (SB 2 0) (SZ 2) 2 [(ZZ 1 0); (ZZ 2 1)] [(P1E 1 [(RSP 0 NB NZ); (RSP 2 NB NZ)]); (P1E 2 [(RSP 0 (SB 1 0) (SZ 3)); (RSP 2 (SB 1 1) (SZ 2)); (RSP 1 (SB 1 1) (SZ 2))])] [(ZZ 1 1); (ZZ 2 1)] [(ZOZ 1 (SZ 3)); (ZOZ 2 (SZ 2))] false NZ [])); (RS 1 (IAccept 0 2 0 (SZ 2)) [(OAccepted 0 2 0 1)] (mkO (SB 2 0) (SB 2 0) (SZ 2) 1 [(ZZ 1 0)] [(P1E 1 [(RSP 1 NB NZ); (RSP 2 NB NZ)])] [(ZZ 1 2)] [(ZOZ 1 (SZ 2))] true (SZ 2) [(ZOZ 0 (SZ 2))])); (RS 2 (IAccept 0 2 0 (SZ 2)) [(OAccepted 0 2 0 2)] (mkO (SB 2 0) (SB 2 0) (SZ 2) 0 [] [] [] [] true (SZ 2) [])); (RS 0 (IAccepted 2) [(ODecided 1 (SZ 2)); (ODecided 2 (SZ 2))] (mkO (SB 2 0) (SB 2 0) (SZ 2) 2 [(ZZ 1 0); (ZZ 2 1)] [(P1E 1 [(RSP 0 NB NZ); (RSP 2 NB NZ)]); (P1E 2 [(RSP 0 (SB 1 0) (SZ 3)); (RSP 2 (SB 1 1) (SZ 2)); (RSP 1 (SB 1 1) (SZ 2))])] [(ZZ 1 1); (ZZ 2 2)] [(ZOZ 1 (SZ 3)); (ZOZ 2 (SZ 2))] true (SZ 2) [(ZOZ 1 (SZ 2))])); (RS 0 (IAccepted 2) [] (mkO (SB 2 0) (SB 2 0) (SZ 2) 2 [(ZZ 1 0); (ZZ 2 1)] [(P1E 1 [(RSP 0 NB NZ); (RSP 2 NB NZ)]); (P1E 2 [(RSP 0 (SB 1 0) (SZ 3)); (RSP 2 (SB 1 1) (SZ 2)); (RSP 1 (SB 1 1) (SZ 2))])] [(ZZ 1 1); (ZZ 2 3)] [(ZOZ 1 (SZ 3)); (ZOZ 2 (SZ 2))] true (SZ 2) [(ZOZ 1 (SZ 2))])); (RS 1 (IDecided (SZ 2)) [] (mkO (SB 2 0) (SB 2 0) (SZ 2) 1 [(ZZ 1 0)] [(P1E 1 [(RSP 1 NB NZ); (RSP 2 NB NZ)])] [(ZZ 1 2)] [(ZOZ 1 (SZ 2))] true (SZ 2) [(ZOZ 0 (SZ 2))])); (RS 2 (IDecided (SZ 2)) [] (mkO (SB 2 0) (SB 2 0) (SZ 2) 0 [] [] [] [] true (SZ 2) []))]).
Definition case_5 : Z * list rec_step := (3, [(RS 0 (IPropose 2) [(OPrepare 1 1 0); (OPrepare 2 1 0)] (mkO (SB 1 0) NB NZ 1 [(ZZ 1 0)] [(P1E 1 [(RSP 0 NB NZ)])] [(ZZ 1 0)] [(ZOZ 1 (SZ 2))] false NZ [])); (RS 1 (IPrepare 0 1 0) [(OPromise 0 1 0 1 NB NZ)] (mkO (SB 1 0) NB NZ 0 [] [] [] [] false NZ [])); (RS 0 (IPromise 1 1 NB NZ) [(OAccept 1 1 0 (SZ 2)); (OAccept 2 1 0 (SZ 2))] (mkO (SB 1 0) (SB 1 0) (SZ 2) 1 [(ZZ 1 0)] [(P1E 1 [(RSP 0 NB NZ); (RSP 1 NB NZ)])] [(ZZ 1 1)] [(ZOZ 1 (SZ 2))] false NZ [])); (RS 2 (IPropose 3) [(OPrepare 0 1 2); (OPrepare 1 1 2)] (mkO (SB 1 2) NB NZ 1 [(ZZ 1 0)] [(P1E 1 [(RSP 2 NB NZ)])] [(ZZ 1 0)] [(ZOZ 1 (SZ 3))] false NZ [])); (RS 1 (IPrepare 2 1 2) [(OPromise 2 1 2 1 NB NZ)] (mkO (SB 1 2) NB NZ 0 [] [] [] [] false NZ [])); (RS 2 (IPromise 1 1 NB NZ) [(OAccept 0 1 2 (SZ 3)); (OAccept 1 1 2 (SZ 3))] (mkO (SB 1 2) (SB 1 2) (SZ 3) 1 [(ZZ 1 0)] [(P1E 1 [(RSP 2 NB NZ); (RSP 1 NB NZ)])] [(ZZ 1 1)] [(ZOZ 1 (SZ 3))] false NZ [])); (RS 1 (IAccept 2 1 2 (SZ 3)) [(OAccepted 2 1 2 1)] (mkO (SB 1 2) (SB 1 2) (SZ 3) 0 [] [] [] [] false NZ [])); (RS 2 (IAccepted 1) [(ODecided 0 (SZ 3)); (ODecided 1 (SZ 3))] (mkO (SB 1 2) (SB 1 2) (SZ 3) 1 [(ZZ 1 0)] [(P1E 1 [(RSP 2 NB NZ); (RSP 1 NB NZ)])] [(ZZ 1 2)] [(ZOZ 1 (SZ 3))] true (SZ 3) [(ZOZ 0 (SZ 3))])); (RS 0 (IDecided (SZ 3)) [] (mkO (SB 1 0) (SB 1 0) (SZ 2) 1 [(ZZ 1 0)] [(P1E 1 [(RSP 0 NB NZ); (RSP 1 NB NZ)])] [(ZZ 1 1)] [(ZOZ 1 (SZ 2))] true (SZ 3) [])); (RS 1 (IDecided (SZ 3)) [] (mkO (SB 1 2) (SB 1 2) (SZ 3) 0 [] [] [] [] true (SZ 3) [])); (RS 1 (IPropose 1) [] (mkO (SB 1 2) (SB 1 2) (SZ 3) 0 [] [] [] [] true (SZ 3) [(ZOZ 0 (SZ 3))]))]).
Definition case_6 : Z * list rec_step := (5, [(RS 1 (IPropose 1) [(OPrepare 0 1 1); (OPrepare 2 1 1); (OPrepare 3 1 1); (OPrepare 4 1 1)] (mkO (SB 1 1) NB NZ 1 [(ZZ 1 0)] [(P1E 1 [(RSP 1 NB NZ)])] [(ZZ 1 0)] [(ZOZ 1 (SZ 1))] false NZ [])); (RS 0 (IPrepare 1 1 1) [(OPromise 1 1 1 0 NB NZ)] (mkO (SB 1 1) NB NZ 0 [] [] [] [] false NZ [])); (RS 3 (IPrepare 1 1 1) [(OPromise 1 1 1 3 NB NZ)] (mkO (SB 1 1) NB NZ 0 [] [] [] [] false NZ [])); (RS 4 (IPrepare 1 1 1) [(OPromise 1 1 1 4 NB NZ)] (mkO (SB 1 1) NB NZ 0 [] [] [] [] false NZ [])); (RS 3 (IPropose 2) [(OPrepare 0 2 3); (OPrepare 1 2 3); (OPrepare 2 2 3); (OPrepare 4 2 3)] (mkO (SB 2 3) NB NZ 2 [(ZZ 2 0)] [(P1E 2 [(RSP 3 NB NZ)])] [(ZZ 2 0)] [(ZOZ 2 (SZ 2))] false NZ [])); (RS 4 (IPrepare 3 2 3) [(OPromise 3 2 3 4 NB NZ)] (mkO (SB 2 3) NB NZ 0 [] [] [] [] false NZ [])); (RS 1 (IPrepare 3 2 3) [(OPromise 3 2 3 1 NB NZ)] (mkO (SB 2 3) NB NZ 1 [(ZZ 1 0)] [(P1E 1 [(RSP 1 NB NZ)])] [(ZZ 1 0)] [(ZOZ 1 (SZ 1))] false NZ [])); (RS 2 (IPrepare 3 2 3) [(OPromise 3 2 3 2 NB NZ)] (mkO (SB 2 3) NB NZ 0 [] [] [] [] false NZ [])); (RS 3 (IPromise 2 4 NB NZ) [] (mkO (SB 2 3) NB NZ 2 [(ZZ 2 0)] [(P1E 2 [(RSP 3 NB NZ); (RSP 4 NB NZ)])] [(ZZ 2 0)] [(ZOZ 2 (SZ 2))] false NZ [])); (RS 3 (IPromise 2 2 NB NZ) [(OAccept 0 2 3 (SZ 2)); (OAccept 1 2 3 (SZ 2)); (OAccept 2 2 3 (SZ 2)); (OAccept 4 2 3 (SZ 2))] (mkO (SB 2 3) (SB 2 3) (SZ 2) 2 [(ZZ 2 0)] [(P1E 2 [(RSP 3 NB NZ); (RSP 4 NB NZ); (RSP 2 NB NZ)])] [(ZZ 2 1)] [(ZOZ 2 (SZ 2))] false NZ [])); (RS 4 (IAccept 3 2 3 (SZ 2)) [(OAccepted 3 2 3 4)] (mkO (SB 2 3) (SB 2 3) (SZ 2) 0 [] [] [] [] false NZ [])); (RS 1 (IAccept 3 2 3 (SZ 2)) [(OAccepted 3 2 3 1)] (mkO (SB 2 3) (SB 2 3) (SZ 2) 1 [(ZZ 1 0)] [(P1E 1 [(RSP 1 NB NZ)])] [(ZZ 1 0)] [(ZOZ 1 (SZ 1))] false NZ [])); (RS 3 (IAccepted 2) [] (mkO (SB 2 3) (SB 2 3) (SZ 2) 2 [(ZZ 2 0)] [(P1E 2 [(RSP 3 NB NZ); (RSP 4 NB NZ); (RSP 2 NB NZ)])] [(ZZ 2 2)] [(ZOZ 2 (SZ 2))] false NZ [])); (RS 1 (IPromise 1 3 NB NZ) [] (mkO (SB 2 3) (SB 2 3) (SZ 2) 1 [(ZZ 1 0)] [(P1E 1 [(RSP 1 NB NZ); (RSP 3 NB NZ)])] [(ZZ 1 0)] [(ZOZ 1 (SZ 1))] false NZ [])); (RS 1 (IPromise 1 4 NB NZ) [(OAccept 0 1 1 (SZ 1)); (OAccept 2 1 1 (SZ 1)); (OAccept 3 1 1 (SZ 1)); (OAccept 4 1 1 (SZ 1))] (mkO (SB 2 3) (SB 2 3) (SZ 2) 1 [(ZZ 1 0)] [(P1E 1 [(RSP 1 NB NZ); (RSP 3 NB NZ); (RSP 4 NB NZ)])] [(ZZ 1 0)] [(ZOZ 1 (SZ 1))] false NZ [])); (RS 2 (IAccept 3 2 3 (SZ 2)) [(OAccepted 3 2 3 2)] (mkO (SB 2 3) (SB 2 3) (SZ 2) 0 [] [] [] [] false NZ [])); (RS 0 (IPrepare 3 2 3) [(OPromise 3 2 3 0 NB NZ)] (mkO (SB 2 3) NB NZ 0 [] [] [] [] false NZ [])); (RS 3 (IAccepted 2) [(ODecided 0 (SZ 2)); (ODecided 1 (SZ 2)); (ODecided 2 (SZ 2)); (ODecided 4 (SZ 2))] (mkO (SB 2 3) (SB 2 3) (SZ 2) 2 [(ZZ 2 0)] [(P1E 2 [(RSP 3 NB NZ); (RSP 4 NB NZ); (RSP 2 NB NZ)])] [(ZZ 2 3)] [(ZOZ 2 (SZ 2))] true (SZ 2) [(ZOZ 0 (SZ 2))])); (RS 3 (IAccepted 2) [] (mkO (SB 2 3) (SB 2 3) (SZ 2) 2 [(ZZ 2 0)] [(P1E 2 [(RSP 3 NB NZ); (RSP 4 NB NZ); (RSP 2 NB NZ)])] [(ZZ 2 4)] [(ZOZ 2 (SZ 2))] true (SZ 2) [(ZOZ 0 (SZ 2))])); (RS 0 (IAccept 1 1 1 (SZ 1)) [(ONack 1 1 1 2 3)] (mkO (SB 2 3) NB NZ 0 [] [] [] [] false NZ [])); (RS 1 (IDecided (SZ 2)) [] (mkO (SB 2 3) (SB 2 3) (SZ 2) 1 [(ZZ 1 0)] [(P1E 1 [(RSP 1 NB NZ); (RSP 3 NB NZ); (RSP 4 NB NZ)])] [(ZZ 1 0)] [(ZOZ 1 (SZ 1))] true (SZ 2) [])); (RS 0 (IAccept 3 2 3 (SZ 2)) [(OAccepted 3 2 3 0)] (mkO (SB 2 3) (SB 2 3) (SZ 2) 0 [] [] [] [] false NZ [])); (RS 1 (INack 1 2) [(ORetry 1)] (mkO (SB 2 3) (SB 2 3) (SZ 2) 2 [(ZZ 1 0)] [(P1E 1 [(RSP 1 NB NZ); (RSP 3 NB NZ); (RSP 4 NB NZ)])] [(ZZ 1 0)] [(ZOZ 1 (SZ 1))] true (SZ 2) [])); (RS 4 (IAccept 1 1 1 (SZ 1)) [(ONack 1 1 1 2 3)] (mkO (SB 2 3) (SB 2 3) (SZ 2) 0 [] [] [] [] false NZ [])); (RS 3 (IAccepted 2) [] (mkO (SB 2 3) (SB 2 3) (SZ 2) 2 [(ZZ 2 0)] [(P1E 2 [(RSP 3 NB NZ); (RSP 4 NB NZ); (RSP 2 NB NZ)])] [(ZZ 2 5)] [(ZOZ 2 (SZ 2))] true (SZ 2) [(ZOZ 0 (SZ 2))])); (RS 0 (IDecided (SZ 2)) [] (mkO (SB 2 3) (SB 2 3) (SZ 2) 0 [] [] [] [] true (SZ 2) [])); (RS 4 (IDecided (SZ 2)) [] (mkO (SB 2 3) (SB 2 3) (SZ 2) 0 [] [] [] [] true (SZ 2) [])); (RS 1 (INack 1 2) [(ORetry 1)] (mkO (SB 2 3) (SB 2 3) (SZ 2) 2 [(ZZ 1 0)] [(P1E 1 [(RSP 1 NB NZ); (RSP 3 NB NZ); (RSP 4 NB NZ)])] [(ZZ 1 0)] [(ZOZ 1 (SZ 1))] true (SZ 2) [])); (RS 4 (IPropose 3) [] (mkO (SB 2 3) (SB 2 3) (SZ 2) 0 [] [] [] [] true (SZ 2) [(ZOZ 0 (SZ 2))])); (RS 1 (IRetry 1) [] (mkO (SB 2 3) (SB 2 3) (SZ 2) 2 [(ZZ 1 0)] [(P1E 1 [(RSP 1 NB NZ); (RSP 3 NB NZ); (RSP 4 NB NZ)])] [(ZZ 1 0)] [(ZOZ 1 (SZ 1))] true (SZ 2) [])); (RS 1 (IRetry 1) [] (mkO (SB 2 3) (SB 2 3) (SZ 2) 2 [(ZZ 1 0)] [(P1E 1 [(RSP 1 NB NZ); (RSP 3 NB NZ); (RSP 4 NB NZ)])] [(ZZ 1 0)] [(ZOZ 1 (SZ 1))] true (SZ 2) []))]).
Definition case_7 : Z * list rec_step := (3, [(RS 0 (IPropose 1) [(OPrepare 1 1 0); (OPrepare 2 1 0)] (mkO (SB 1 0) NB NZ 1 [(ZZ 1 0)] [(P1E 1 [(RSP 0 NB NZ)])] [(ZZ 1 0)] [(ZOZ 1 (SZ 1))] false NZ [])); (RS 2 (IPrepare 0 1 0) [(OPromise 0 1 0 2 NB NZ)] (mkO (SB 1 0) NB NZ 0 [] [] [] [] false NZ [])); (RS 0 (IPromise 1 2 NB NZ) [(OAccept 1 1 0 (SZ 1)); (OAccept 2 1 0 (SZ 1))] (mkO (SB 1 0) (SB 1 0) (SZ 1) 1 [(ZZ 1 0)] [(P1E 1 [(RSP 0 NB NZ); (RSP 2 NB NZ)])] [(ZZ 1 1)] [(ZOZ 1 (SZ 1))] false NZ [])); (RS 1 (IPrepare 0 1 0) [(OPromise 0 1 0 1 NB NZ)] (mkO (SB 1 0) NB NZ 0 [] [] [] [] false NZ [])); (RS 2 (IAccept 0 1 0 (SZ 1)) [(OAccepted 0 1 0 2)] (mkO (SB 1 0) (SB 1 0) (SZ 1) 0 [] [] [] [] false NZ [])); (RS 1 (IAccept 0 1 0 (SZ 1)) [(OAccepted 0 1 0 1)] (mkO (SB 1 0) (SB 1 0) (SZ 1) 0 [] [] [] [] false NZ [])); (RS 0 (IPromise 1 1 NB NZ) [] (mkO (SB 1 0) (SB 1 0) (SZ 1) 1 [(ZZ 1 0)] [(P1E 1 [(RSP 0 NB NZ); (RSP 2 NB NZ); (RSP 1 NB NZ)])] [(ZZ 1 1)] [(ZOZ 1 (SZ 1))] false NZ [])); (RS 0 (IAccepted 1) [(ODecided 1 (SZ 1)); (ODecided 2 (SZ 1))] (mkO (SB 1 0) (SB 1 0) (SZ 1) 1 [(ZZ 1 0)] [(P1E 1 [(RSP 0 NB NZ); (RSP 2 NB NZ); (RSP 1 NB NZ)])] [(ZZ 1 2)] [(ZOZ 1 (SZ 1))] true (SZ 1) [(ZOZ 0 (SZ 1))])); (RS 0 (IAccepted 1) [] (mkO (SB 1 0) (SB 1 0) (SZ 1) 1 [(ZZ 1 0)] [(P1E 1 [(RSP 0 NB NZ); (RSP 2 NB NZ); (RSP 1 NB NZ)])] [(ZZ 1 3)] [(ZOZ 1 (SZ 1))] true (SZ 1) [(ZOZ 0 (SZ 1))])); (RS 1 (IDecided (SZ 1)) [] (mkO (SB 1 0) (SB 1 0) (SZ 1) 0 [] [] [] [] true (SZ 1) [])); (RS 2 (IDecided (SZ 1)) [] (mkO (SB 1 0) (SB 1 0) (SZ 1) 0 [] [] [] [] true (SZ 1) []))]).
Definition case_8 : Z * list rec_step := (5, [(RS 0 (IPropose 2) [(OPrepare 1 1 0); (OPrepare 2 1 0); (OPrepare 3 1 0); (OPrepare 4 1 0)] (mkO (SB 1 0) NB NZ 1 [(ZZ 1 0)] [(P1E 1 [(RSP 0 NB NZ)])] [(ZZ 1 0)] [(ZOZ 1 (SZ 2))] false NZ [])); (RS 1 (IPrepare 0 1 0) [(OPromise 0 1 0 1 NB NZ)] (mkO (SB 1 0) NB NZ 0 [] [] [] [] false NZ [])); (RS 2 (IPrepare 0 1 0) [(OPromise 0 1 0 2 NB NZ)] (mkO (SB 1 0) NB NZ 0 [] [] [] [] false NZ [])); (RS 4 (IPrepare 0 1 0) [(OPromise 0 1 0 4 NB NZ)] (mkO (SB 1 0) NB NZ 0 [] [] [] [] false NZ [])); (RS 3 (IPrepare 0 1 0) [(OPromise 0 1 0 3 NB NZ)] (mkO (SB 1 0) NB NZ 0 [] [] [] [] false NZ [])); (RS 0 (IPromise 1 2 NB NZ) [] (mkO (SB 1 0) NB NZ 1 [(ZZ 1 0)] [(P1E 1 [(RSP 0 NB NZ); (RSP 2 NB NZ)])] [(ZZ 1 0)] [(ZOZ 1 (SZ 2))] false NZ [])); (RS 0 (IPromise 1 3 NB NZ) [(OAccept 1 1 0 (SZ 2)); (OAccept 2 1 0 (SZ 2)); (OAccept 3 1 0 (SZ 2)); (OAccept 4 1 0 (SZ 2))] (mkO (SB 1 0) (SB 1 0) (SZ 2) 1 [(ZZ 1 0)] [(P1E 1 [(RSP 0 NB NZ); (RSP 2 NB NZ); (RSP 3 NB NZ)])] [(ZZ 1 1)] [(ZOZ 1 (SZ 2))] false NZ [])); (RS 0 (IPromise 1 1 NB NZ) [] (mkO (SB 1 0) (SB 1 0) (SZ 2) 1 [(ZZ 1 0)] [(P1E 1 [(RSP 0 NB NZ); (RSP 2 NB NZ); (RSP 3 NB NZ); (RSP 1 NB NZ)])] [(ZZ 1 1)] [(ZOZ 1 (SZ 2))] false NZ [])); (RS 0 (IPromise 1 4 NB NZ) [] (mkO (SB 1 0) (SB 1 0) (SZ 2) 1 [(ZZ 1 0)] [(P1E 1 [(RSP 0 NB NZ); (RSP 2 NB NZ); (RSP 3 NB NZ); (RSP 1 NB NZ); (RSP 4 NB NZ)])] [(ZZ 1 1)] [(ZOZ 1 (SZ 2))] false NZ [])); (RS 3 (IAccept 0 1 0 (SZ 2)) [(OAccepted 0 1 0 3)] (mkO (SB 1 0) (SB 1 0) (SZ 2) 0 [] [] [] [] false NZ [])); (RS 4 (IAccept 0 1 0 (SZ 2)) [(OAccepted 0 1 0 4)] (mkO (SB 1 0) (SB 1 0) (SZ 2) 0 [] [] [] [] false NZ [])); (RS 1 (IAccept 0 1 0 (SZ 2)) [(OAccepted 0 1 0 1)] (mkO (SB 1 0) (SB 1 0) (SZ 2) 0 [] [] [] [] false NZ [])); (RS 2 (IAccept 0 1 0 (SZ 2)) [(OAccepted 0 1 0 2)] (mkO (SB 1 0) (SB 1 0) (SZ 2) 0 [] [] [] [] false NZ [])); (RS 0 (IAccepted 1) [] (mkO (SB 1 0) (SB 1 0) (SZ 2) 1 [(ZZ 1 0)] [(P1E 1 [(RSP 0 NB NZ); (RSP 2 NB NZ); (RSP 3 NB NZ); (RSP 1 NB NZ); (RSP 4 NB NZ)])] [(ZZ 1 2)] [(ZOZ 1 (SZ 2))] false NZ [])); (RS 0 (IAccepted 1) [(ODecided 1 (SZ 2)); (ODecided 2 (SZ 2)); (ODecided 3 (SZ 2)); (ODecided 4 (SZ 2))] (mkO (SB 1 0) (SB 1 0) (SZ 2) 1 [(ZZ 1 0)] [(P1E 1 [(RSP 0 NB NZ); (RSP 2 NB NZ); (RSP 3 NB NZ); (RSP 1 NB NZ); (RSP 4 NB NZ)])] [(ZZ 1 3)] [(ZOZ 1 (SZ 2))] true (SZ 2) [(ZOZ 0 (SZ 2))])); (RS 0 (IAccepted 1) [] (mkO (SB 1 0) (SB 1 0) (SZ 2) 1 [(ZZ 1 0)] [(P1E 1 [(RSP 0 NB NZ); (RSP 2 NB NZ); (RSP 3 NB NZ); (RSP 1 NB NZ); (RSP 4 NB NZ)])] [(ZZ 1 4)] [(ZOZ 1 (SZ 2))] true (SZ 2) [(ZOZ 0 (SZ 2))])); (RS 4 (IDecided (SZ 2)) [] (mkO (SB 1 0) (SB 1 0) (SZ 2) 0 [] [] [] [] true (SZ 2) [])); (RS 0 (IAccepted 1) [] (mkO (SB 1 0) (SB 1 0) (SZ 2) 1 [(ZZ 1 0)] [(P1E 1 [(RSP 0 NB NZ); (RSP 2 NB NZ); (RSP 3 NB NZ); (RSP 1 NB NZ); (RSP 4 NB NZ)])] [(ZZ 1 5)] [(ZOZ 1 (SZ 2))] true (SZ 2) [(ZOZ 0 (SZ 2))])); (RS 2 (IDecided (SZ 2)) [] (mkO (SB 1 0) (SB 1 0) (SZ 2) 0 [] [] [] [] true (SZ 2) [])); (RS 1 (IDecided (SZ 2)) [] (mkO (SB 1 0) (SB 1 0) (SZ 2) 0 [] [] [] [] true (SZ 2) [])); (RS 3 (IDecided (SZ 2)) [] (mkO (SB 1 0) (SB 1 0) (SZ 2) 0 [] [] [] [] true (SZ 2) []))]).
Definition case_9 : Z * list rec_step := (3, [(RS 0 (IPropose 3) [(OPrepare 1 1 0); (OPrepare 2 1 0)] (mkO (SB 1 0) NB NZ 1 [(ZZ 1 0)] [(P1E 1 [(RSP 0 NB NZ)])] [(ZZ 1 0)] [(ZOZ 1 (SZ 3))] false NZ [])); (RS 2 (IPrepare 0 1 0) [(OPromise 0 1 0 2 NB NZ)] (mkO (SB 1 0) NB NZ 0 [] [] [] [] false NZ [])); (RS 1 (IPrepare 0 1 0) [(OPromise 0 1 0 1 NB NZ)] (mkO (SB 1 0) NB NZ 0 [] [] [] [] false NZ [])); (RS 0 (IPromise 1 2 NB NZ) [(OAccept 1 1 0 (SZ 3)); (OAccept 2 1 0 (SZ 3))] (mkO (SB 1 0) (SB 1 0) (SZ 3) 1 [(ZZ 1 0)] [(P1E 1 [(RSP 0 NB NZ); (RSP 2 NB NZ)])] [(ZZ 1 1)] [(ZOZ 1 (SZ 3))] false NZ [])); (RS 1 (IAccept 0 1 0 (SZ 3)) [(OAccepted 0 1 0 1)] (mkO (SB 1 0) (SB 1 0) (SZ 3) 0 [] [] [] [] false NZ [])); (RS 0 (IPromise 1 1 NB NZ) [] (mkO (SB 1 0) (SB 1 0) (SZ 3) 1 [(ZZ 1 0)] [(P1E 1 [(RSP 0 NB NZ); (RSP 2 NB NZ); (RSP 1 NB NZ)])] [(ZZ 1 1)] [(ZOZ 1 (SZ 3))] false NZ [])); (RS 2 (IAccept 0 1 0 (SZ 3)) [(OAccepted 0 1 0 2)] (mkO (SB 1 0) (SB 1 0) (SZ 3) 0 [] [] [] [] false NZ [])); (RS 0 (IAccepted 1) [(ODecided 1 (SZ 3)); (ODecided 2 (SZ 3))] (mkO (SB 1 0) (SB 1 0) (SZ 3) 1 [(ZZ 1 0)] [(P1E 1 [(RSP 0 NB NZ); (RSP 2 NB NZ); (RSP 1 NB NZ)])] [(ZZ 1 2)] [(ZOZ 1 (SZ 3))] true (SZ 3) [(ZOZ 0 (SZ 3))])); (RS 0 (IAccepted 1) [] (mkO (SB 1 0) (SB 1 0) (SZ 3) 1 [(ZZ 1 0)] [(P1E 1 [(RSP 0 NB NZ); (RSP 2 NB NZ); (RSP 1 NB NZ)])] [(ZZ 1 3)] [(ZOZ 1 (SZ 3))] true (SZ 3) [(ZOZ 0 (SZ 3))])); (RS 2 (IDecided (SZ 3)) [] (mkO (SB 1 0) (SB 1 0) (SZ 3) 0 [] [] [] [] true (SZ 3) [])); (RS 1 (IDecided (SZ 3)) [] (mkO (SB 1 0) (SB 1 0) (SZ 3) 0 [] [] [] [] true (SZ 3) [])); (RS 2 (IPropose 1) [] (mkO (SB 1 0) (SB 1 0) (SZ 3) 0 [] [] [] [] true (SZ 3) [(ZOZ 0 (SZ 3))]))]).
Definition case_10 : Z * list rec_step := (3, [(RS 1 (IPropose 1) [(OPrepare 0 1 1); (OPrepare 2 1 1)] (mkO (SB 1 1) NB NZ 1 [(ZZ 1 0)] [(P1E 1 [(RSP 1 NB NZ)])] [(ZZ 1 0)] [(ZOZ 1 (SZ 1))] false NZ [])); (RS 0 (IPrepare 1 1 1) [(OPromise 1 1 1 0 NB NZ)] (mkO (SB 1 1) NB NZ 0 [] [] [] [] false NZ [])); (RS 1 (IPromise 1 0 NB NZ) [(OAccept 0 1 1 (SZ 1)); (OAccept 2 1 1 (SZ 1))] (mkO (SB 1 1) (SB 1 1) (SZ 1) 1 [(ZZ 1 0)] [(P1E 1 [(RSP 1 NB NZ); (RSP 0 NB NZ)])] [(ZZ 1 1)] [(ZOZ 1 (SZ 1))] false NZ [])); (RS 2 (IPropose 3) [(OPrepare 0 1 2); (OPrepare 1 1 2)] (mkO (SB 1 2) NB NZ 1 [(ZZ 1 0)] [(P1E 1 [(RSP 2 NB NZ)])] [(ZZ 1 0)] [(ZOZ 1 (SZ 3))] false NZ [])); (RS 0 (IPrepare 2 1 2) [(OPromise 2 1 2 0 NB NZ)] (mkO (SB 1 2) NB NZ 0 [] [] [] [] false NZ [])); (RS 2 (IPromise 1 0 NB NZ) [(OAccept 0 1 2 (SZ 3)); (OAccept 1 1 2 (SZ 3))] (mkO (SB 1 2) (SB 1 2) (SZ 3) 1 [(ZZ 1 0)] [(P1E 1 [(RSP 2 NB NZ); (RSP 0 NB NZ)])] [(ZZ 1 1)] [(ZOZ 1 (SZ 3))] false NZ [])); (RS 1 (IAccept 2 1 2 (SZ 3)) [(OAccepted 2 1 2 1)] (mkO (SB 1 2) (SB 1 2) (SZ 3) 1 [(ZZ 1 0)] [(P1E 1 [(RSP 1 NB NZ); (RSP 0 NB NZ)])] [(ZZ 1 1)] [(ZOZ 1 (SZ 1))] false NZ [])); (RS 2 (IAccepted 1) [(ODecided 0 (SZ 3)); (ODecided 1 (SZ 3))] (mkO (SB 1 2) (SB 1 2) (SZ 3) 1 [(ZZ 1 0)] [(P1E 1 [(RSP 2 NB NZ); (RSP 0 NB NZ)])] [(ZZ 1 2)] [(ZOZ 1 (SZ 3))] true (SZ 3) [(ZOZ 0 (SZ 3))])); (RS 1 (IDecided (SZ 3)) [] (mkO (SB 1 2) (SB 1 2) (SZ 3) 1 [(ZZ 1 0)] [(P1E 1 [(RSP 1 NB NZ); (RSP 0 NB NZ)])] [(ZZ 1 1)] [(ZOZ 1 (SZ 1))] true (SZ 3) [])); (RS 0 (IPropose 2) [(OPrepare 1 2 0); (OPrepare 2 2 0)] (mkO (SB 2 0) NB NZ 2 [(ZZ 2 0)] [(P1E 2 [(RSP 0 NB NZ)])] [(ZZ 2 0)] [(ZOZ 2 (SZ 2))] false NZ [])); (RS 1 (IPrepare 0 2 0) [(OPromise 0 2 0 1 (SB 1 2) (SZ 3))] (mkO (SB 2 0) (SB 1 2) (SZ 3) 1 [(ZZ 1 0)] [(P1E 1 [(RSP 1 NB NZ); (RSP 0 NB NZ)])] [(ZZ 1 1)] [(ZOZ 1 (SZ 1))] true (SZ 3) [])); (RS 2 (IPrepare 0 2 0) [(OPromise 0 2 0 2 (SB 1 2) (SZ 3))] (mkO (SB 2 0) (SB 1 2) (SZ 3) 1 [(ZZ 1 0)] [(P1E 1 [(RSP 2 NB NZ); (RSP 0 NB NZ)])] [(ZZ 1 2)] [(ZOZ 1 (SZ 3))] true (SZ 3) [(ZOZ 0 (SZ 3))])); (RS 0 (IPromise 2 1 (SB 1 2) (SZ 3)) [(OAccept 1 2 0 (SZ 3)); (OAccept 2 2 0 (SZ 3))] (mkO (SB 2 0) (SB 2 0) (SZ 3) 2 [(ZZ 2 0)] [(P1E 2 [(RSP 0 NB NZ); (RSP 1 (SB 1 2) (SZ 3))])] [(ZZ 2 1)] [(ZOZ 2 (SZ 3))] false NZ [])); (RS 0 (IPromise 2 2 (SB 1 2) (SZ 3)) [] (mkO (SB 2 0) (SB 2 0) (SZ 3) 2 [(ZZ 2 0)] [(P1E 2 [(RSP 0 NB NZ); (RSP 1 (SB 1 2) (SZ 3)); (RSP 2 (SB 1 2) (SZ 3))])] [(ZZ 2 1)] [(ZOZ 2 (SZ 3))] false NZ [])); (RS 1 (IAccept 0 2 0 (SZ 3)) [(OAccepted 0 2 0 1)] (mkO (SB 2 0) (SB 2 0) (SZ 3) 1 [(ZZ 1 0)] [(P1E 1 [(RSP 1 NB NZ); (RSP 0 NB NZ)])] [(ZZ 1 1)] [(ZOZ 1 (SZ 1))] true (SZ 3) [])); (RS 2 (IAccept 0 2 0 (SZ 3)) [(OAccepted 0 2 0 2)] (mkO (SB 2 0) (SB 2 0) (SZ 3) 1 [(ZZ 1 0)] [(P1E 1 [(RSP 2 NB NZ); (RSP 0 NB NZ)])] [(ZZ 1 2)] [(ZOZ 1 (SZ 3))] true (SZ 3) [(ZOZ 0 (SZ 3))])); (RS 0 (IAccepted 2) [(ODecided 1 (SZ 3)); (ODecided 2 (SZ 3))] (mkO (SB 2 0) (SB 2 0) (SZ 3) 2 [(ZZ 2 0)] [(P1E 2 [(RSP 0 NB NZ); (RSP 1 (SB 1 2) (SZ 3)); (RSP 2 (SB 1 2) (SZ 3))])] [(ZZ 2 2)] [(ZOZ 2 (SZ 3))] true (SZ 3) [(ZOZ 0 (SZ 3))])); (RS 0 (IAccepted 2) [] (mkO (SB 2 0) (SB 2 0) (SZ 3) 2 [(ZZ 2 0)] [(P1E 2 [(RSP 0 NB NZ); (RSP 1 (SB 1 2) (SZ 3)); (RSP 2 (SB 1 2) (SZ 3))])] [(ZZ 2 3)] [(ZOZ 2 (SZ 3))] true (SZ 3) [(ZOZ 0 (SZ 3))])); (RS 1 (IDecided (SZ 3)) [] (mkO (SB 2 0) (SB 2 0) (SZ 3) 1 [(ZZ 1 0)] [(P1E 1 [(RSP 1 NB NZ); (RSP 0 NB NZ)])] [(ZZ 1 1)] [(ZOZ 1 (SZ 1))] true (SZ 3) [])); (RS 2 (IDecided (SZ 3)) [] (mkO (SB 2 0) (SB 2 0) (SZ 3) 1 [(ZZ 1 0)] [(P1E 1 [(RSP 2 NB NZ); (RSP 0 NB NZ)])] [(ZZ 1 2)] [(ZOZ 1 (SZ 3))] true (SZ 3) [(ZOZ 0 (SZ 3))]))]).
Definition case_11 : Z * list rec_step := (3, [(RS 0 (IPropose 1) [(OPrepare 1 1 0); (OPrepare 2 1 0)] (mkO (SB 1 0) NB NZ 1 [(ZZ 1 0)] [(P1E 1 [(RSP 0 NB NZ)])] [(ZZ 1 0)] [(ZOZ 1 (SZ 1))] false NZ [])); (RS 1 (IPrepare 0 1 0) [(OPromise 0 1 0 1 NB NZ)] (mkO (SB 1 0) NB NZ 0 [] [] [] [] false NZ [])); (RS 2 (IPrepare 0 1 0) [(OPromise 0 1 0 2 NB NZ)] (mkO (SB 1 0) NB NZ 0 [] [] [] [] false NZ [])); (RS 0 (IPromise 1 1 NB NZ) [(OAccept 1 1 0 (SZ 1)); (OAccept 2 1 0 (SZ 1))] (mkO (SB 1 0) (SB 1 0) (SZ 1) 1 [(ZZ 1 0)] [(P1E 1 [(RSP 0 NB NZ); (RSP 1 NB NZ)])] [(ZZ 1 1)] [(ZOZ 1 (SZ 1))] false NZ [])); (RS 0 (IPromise 1 2 NB NZ) [] (mkO (SB 1 0) (SB 1 0) (SZ 1) 1 [(ZZ 1 0)] [(P1E 1 [(RSP 0 NB NZ); (RSP 1 NB NZ); (RSP 2 NB NZ)])] [(ZZ 1 1)] [(ZOZ 1 (SZ 1))] false NZ [])); (RS 2 (IAccept 0 1 0 (SZ 1)) [(OAccepted 0 1 0 2)] (mkO (SB 1 0) (SB 1 0) (SZ 1) 0 [] [] [] [] false NZ [])); (RS 1 (IAccept 0 1 0 (SZ 1)) [(OAccepted 0 1 0 1)] (mkO (SB 1 0) (SB 1 0) (SZ 1) 0 [] [] [] [] false NZ [])); (RS 0 (IAccepted 1) [(ODecided 1 (SZ 1)); (ODecided 2 (SZ 1))] (mkO (SB 1 0) (SB 1 0) (SZ 1) 1 [(ZZ 1 0)] [(P1E 1 [(RSP 0 NB NZ); (RSP 1 NB NZ); (RSP 2 NB NZ)])] [(ZZ 1 2)] [(ZOZ 1 (SZ 1))] true (SZ 1) [(ZOZ 0 (SZ 1))])); (RS 0 (IAccepted 1) [] (mkO (SB 1 0) (SB 1 0) (SZ 1) 1 [(ZZ 1 0)] [(P1E 1 [(RSP 0 NB NZ); (RSP 1 NB NZ); (RSP 2 NB NZ)])] [(ZZ 1 3)] [(ZOZ 1 (SZ 1))] true (SZ 1) [(ZOZ 0 (SZ 1))])); (RS 1 (IDecided (SZ 1)) [] (mkO (SB 1 0) (SB 1 0) (SZ 1) 0 [] [] [] [] true (SZ 1) [])); (RS 2 (IDecided (SZ 1)) [] (mkO (SB 1 0) (SB 1 0) (SZ 1) 0 [] [] [] [] true (SZ 1) []))]).
Definition case_12 : Z * list rec_step := (3, [(RS 0 (IPropose 2) [(OPrepare 1 1 0); (OPrepare 2 1 0)] (mkO (SB 1 0) NB NZ 1 [(ZZ 1 0)] [(P1E 1 [(RSP 0 NB NZ)])] [(ZZ 1 0)] [(ZOZ 1 (SZ 2))] false NZ [])); (RS 1 (IPrepare 0 1 0) [(OPromise 0 1 0 1 NB NZ)] (mkO (SB 1 0) NB NZ 0 [] [] [] [] false NZ [])); (RS 0 (IPromise 1 1 NB NZ) [(OAccept 1 1 0 (SZ 2)); (OAccept 2 1 0 (SZ 2))] (mkO (SB 1 0) (SB 1 0) (SZ 2) 1 [(ZZ 1 0)] [(P1E 1 [(RSP 0 NB NZ); (RSP 1 NB NZ)])] [(ZZ 1 1)] [(ZOZ 1 (SZ 2))] false NZ [])); (RS 2 (IPropose 1) [(OPrepare 0 1 2); (OPrepare 1 1 2)] (mkO (SB 1 2) NB NZ 1 [(ZZ 1 0)] [(P1E 1 [(RSP 2 NB NZ)])] [(ZZ 1 0)] [(ZOZ 1 (SZ 1))] false NZ [])); (RS 1 (IPrepare 2 1 2) [(OPromise 2 1 2 1 NB NZ)] (mkO (SB 1 2) NB NZ 0 [] [] [] [] false NZ [])); (RS 2 (IPromise 1 1 NB NZ) [(OAccept 0 1 2 (SZ 1)); (OAccept 1 1 2 (SZ 1))] (mkO (SB 1 2) (SB 1 2) (SZ 1) 1 [(ZZ 1 0)] [(P1E 1 [(RSP 2 NB NZ); (RSP 1 NB NZ)])] [(ZZ 1 1)] [(ZOZ 1 (SZ 1))] false NZ [])); (RS 0 (IAccept 2 1 2 (SZ 1)) [(OAccepted 2 1 2 0)] (mkO (SB 1 2) (SB 1 2) (SZ 1) 1 [(ZZ 1 0)] [(P1E 1 [(RSP 0 NB NZ); (RSP 1 NB NZ)])] [(ZZ 1 1)] [(ZOZ 1 (SZ 2))] false NZ [])); (RS 1 (IAccept 2 1 2 (SZ 1)) [(OAccepted 2 1 2 1)] (mkO (SB 1 2) (SB 1 2) (SZ 1) 0 [] [] [] [] false NZ [])); (RS 2 (IAccepted 1) [(ODecided 0 (SZ 1)); (ODecided 1 (SZ 1))] (mkO (SB 1 2) (SB 1 2) (SZ 1) 1 [(ZZ 1 0)] [(P1E 1 [(RSP 2 NB NZ); (RSP 1 NB NZ)])] [(ZZ 1 2)] [(ZOZ 1 (SZ 1))] true (SZ 1) [(ZOZ 0 (SZ 1))])); (RS 2 (IAccepted 1) [] (mkO (SB 1 2) (SB 1 2) (SZ 1) 1 [(ZZ 1 0)] [(P1E 1 [(RSP 2 NB NZ); (RSP 1 NB NZ)])] [(ZZ 1 3)] [(ZOZ 1 (SZ 1))] true (SZ 1) [(ZOZ 0 (SZ 1))])); (RS 0 (IDecided (SZ 1)) [] (mkO (SB 1 2) (SB 1 2) (SZ 1) 1 [(ZZ 1 0)] [(P1E 1 [(RSP 0 NB NZ); (RSP 1 NB NZ)])] [(ZZ 1 1)] [(ZOZ 1 (SZ 2))] true (SZ 1) [])); (RS 1 (IDecided (SZ 1)) [] (mkO (SB 1 2) (SB 1 2) (SZ 1) 0 [] [] [] [] true (SZ 1) [])); (RS 0 (IPropose 3) [] (mkO (SB 1 2) (SB 1 2) (SZ 1) 1 [(ZZ 1 0)] [(P1E 1 [(RSP 0 NB NZ); (RSP 1 NB NZ)])] [(ZZ 1 1)] [(ZOZ 1 (SZ 2))] true (SZ 1) [(ZOZ 1 (SZ 1))]))]).
Definition case_13 : Z * list rec_step := (5, [(RS 1 (IPropose 1) [(OPrepare 0 1 1); (OPrepare 2 1 1); (OPrepare 3 1 1); (OPrepare 4 1 1)] (mkO (SB 1 1) NB NZ 1 [(ZZ 1 0)] [(P1E 1 [(RSP 1 NB NZ)])] [(ZZ 1 0)] [(ZOZ 1 (SZ 1))] false NZ [])); (RS 3 (IPropose 2) [(OPrepare 0 1 3); (OPrepare 1 1 3); (OPrepare 2 1 3); (OPrepare 4 1 3)] (mkO (SB 1 3) NB NZ 1 [(ZZ 1 0)] [(P1E 1 [(RSP 3 NB NZ)])] [(ZZ 1 0)] [(ZOZ 1 (SZ 2))] false NZ [])); (RS 0 (IPrepare 3 1 3) [(OPromise 3 1 3 0 NB NZ)] (mkO (SB 1 3) NB NZ 0 [] [] [] [] false NZ [])); (RS 2 (IPrepare 3 1 3) [(OPromise 3 1 3 2 NB NZ)] (mkO (SB 1 3) NB NZ 0 [] [] [] [] false NZ [])); (RS 1 (IPrepare 3 1 3) [(OPromise 3 1 3 1 NB NZ)] (mkO (SB 1 3) NB NZ 1 [(ZZ 1 0)] [(P1E 1 [(RSP 1 NB NZ)])] [(ZZ 1 0)] [(ZOZ 1 (SZ 1))] false NZ [])); (RS 3 (IPromise 1 1 NB NZ) [] (mkO (SB 1 3) NB NZ 1 [(ZZ 1 0)] [(P1E 1 [(RSP 3 NB NZ); (RSP 1 NB NZ)])] [(ZZ 1 0)] [(ZOZ 1 (SZ 2))] false NZ [])); (RS 0 (IPrepare 1 1 1) [(ONack 1 1 1 1 3)] (mkO (SB 1 3) NB NZ 0 [] [] [] [] false NZ [])); (RS 4 (IPrepare 1 1 1) [(OPromise 1 1 1 4 NB NZ)] (mkO (SB 1 1) NB NZ 0 [] [] [] [] false NZ [])); (RS 1 (IPromise 1 4 NB NZ) [] (mkO (SB 1 3) NB NZ 1 [(ZZ 1 0)] [(P1E 1 [(RSP 1 NB NZ); (RSP 4 NB NZ)])] [(ZZ 1 0)] [(ZOZ 1 (SZ 1))] false NZ [])); (RS 4 (IPrepare 3 1 3) [(OPromise 3 1 3 4 NB NZ)] (mkO (SB 1 3) NB NZ 0 [] [] [] [] false NZ [])); (RS 3 (IPromise 1 2 NB NZ) [(OAccept 0 1 3 (SZ 2)); (OAccept 1 1 3 (SZ 2)); (OAccept 2 1 3 (SZ 2)); (OAccept 4 1 3 (SZ 2))] (mkO (SB 1 3) (SB 1 3) (SZ 2) 1 [(ZZ 1 0)] [(P1E 1 [(RSP 3 NB NZ); (RSP 1 NB NZ); (RSP 2 NB NZ)])] [(ZZ 1 1)] [(ZOZ 1 (SZ 2))] false NZ [])); (RS 1 (IAccept 3 1 3 (SZ 2)) [(OAccepted 3 1 3 1)] (mkO (SB 1 3) (SB 1 3) (SZ 2) 1 [(ZZ 1 0)] [(P1E 1 [(RSP 1 NB NZ); (RSP 4 NB NZ)])] [(ZZ 1 0)] [(ZOZ 1 (SZ 1))] false NZ [])); (RS 3 (IPromise 1 4 NB NZ) [] (mkO (SB 1 3) (SB 1 3) (SZ 2) 1 [(ZZ 1 0)] [(P1E 1 [(RSP 3 NB NZ); (RSP 1 NB NZ); (RSP 2 NB NZ); (RSP 4 NB NZ)])] [(ZZ 1 1)] [(ZOZ 1 (SZ 2))] false NZ [])); (RS 0 (IAccept 3 1 3 (SZ 2)) [(OAccepted 3 1 3 0)] (mkO (SB 1 3) (SB 1 3) (SZ 2) 0 [] [] [] [] false NZ [])); (RS 2 (IAccept 3 1 3 (SZ 2)) [(OAccepted 3 1 3 2)] (mkO (SB 1 3) (SB 1 3) (SZ 2) 0 [] [] [] [] false NZ [])); (RS 1 (INack 1 1) [(ORetry 1)] (mkO (SB 1 3) (SB 1 3) (SZ 2) 1 [(ZZ 1 0)] [(P1E 1 [(RSP 1 NB NZ); (RSP 4 NB NZ)])] [(ZZ 1 0)] [(ZOZ 1 (SZ 1))] false NZ [])); (RS 1 (IRetry 1) [(OPrepare 0 2 1); (OPrepare 2 2 1); (OPrepare 3 2 1); (OPrepare 4 2 1)] (mkO (SB 2 1) (SB 1 3) (SZ 2) 2 [(ZZ 2 0)] [(P1E 1 [(RSP 1 NB NZ); (RSP 4 NB NZ)]); (P1E 2 [(RSP 1 (SB 1 3) (SZ 2))])] [(ZZ 1 0); (ZZ 2 0)] [(ZOZ 2 (SZ 1))] false NZ [])); (RS 0 (IPrepare 1 2 1) [(OPromise 1 2 1 0 (SB 1 3) (SZ 2))] (mkO (SB 2 1) (SB 1 3) (SZ 2) 0 [] [] [] [] false NZ [])); (RS 3 (IPrepare 1 2 1) [(OPromise 1 2 1 3 (SB 1 3) (SZ 2))] (mkO (SB 2 1) (SB 1 3) (SZ 2) 1 [(ZZ 1 0)] [(P1E 1 [(RSP 3 NB NZ); (RSP 1 NB NZ); (RSP 2 NB NZ); (RSP 4 NB NZ)])] [(ZZ 1 1)] [(ZOZ 1 (SZ 2))] false NZ [])); (RS 2 (IPrepare 1 2 1) [(OPromise 1 2 1 2 (SB 1 3) (SZ 2))] (mkO (SB 2 1) (SB 1 3) (SZ 2) 0 [] [] [] [] false NZ [])); (RS 1 (IPromise 2 2 (SB 1 3) (SZ 2)) [] (mkO (SB 2 1) (SB 1 3) (SZ 2) 2 [(ZZ 2 0)] [(P1E 1 [(RSP 1 NB NZ); (RSP 4 NB NZ)]); (P1E 2 [(RSP 1 (SB 1 3) (SZ 2)); (RSP 2 (SB 1 3) (SZ 2))])] [(ZZ 1 0); (ZZ 2 0)] [(ZOZ 2 (SZ 1))] false NZ [])); (RS 4 (IAccept 3 1 3 (SZ 2)) [(OAccepted 3 1 3 4)] (mkO (SB 1 3) (SB 1 3) (SZ 2) 0 [] [] [] [] false NZ [])); (RS 3 (IAccepted 1) [] (mkO (SB 2 1) (SB 1 3) (SZ 2) 1 [(ZZ 1 0)] [(P1E 1 [(RSP 3 NB NZ); (RSP 1 NB NZ); (RSP 2 NB NZ); (RSP 4 NB NZ)])] [(ZZ 1 2)] [(ZOZ 1 (SZ 2))] false NZ [])); (RS 4 (IPrepare 1 2 1) [(OPromise 1 2 1 4 (SB 1 3) (SZ 2))] (mkO (SB 2 1) (SB 1 3) (SZ 2) 0 [] [] [] [] false NZ [])); (RS 1 (IPromise 2 3 (SB 1 3) (SZ 2)) [(OAccept 0 2 1 (SZ 2)); (OAccept 2 2 1 (SZ 2)); (OAccept 3 2 1 (SZ 2)); (OAccept 4 2 1 (SZ 2))] (mkO (SB 2 1) (SB 2 1) (SZ 2) 2 [(ZZ 2 0)] [(P1E 1 [(RSP 1 NB NZ); (RSP 4 NB NZ)]); (P1E 2 [(RSP 1 (SB 1 3) (SZ 2)); (RSP 2 (SB 1 3) (SZ 2)); (RSP 3 (SB 1 3) (SZ 2))])] [(ZZ 1 0); (ZZ 2 1)] [(ZOZ 2 (SZ 2))] false NZ [])); (RS 1 (IPromise 2 4 (SB 1 3) (SZ 2)) [] (mkO (SB 2 1) (SB 2 1) (SZ 2) 2 [(ZZ 2 0)] [(P1E 1 [(RSP 1 NB NZ); (RSP 4 NB NZ)]); (P1E 2 [(RSP 1 (SB 1 3) (SZ 2)); (RSP 2 (SB 1 3) (SZ 2)); (RSP 3 (SB 1 3) (SZ 2)); (RSP 4 (SB 1 3) (SZ 2))])] [(ZZ 1 0); (ZZ 2 1)] [(ZOZ 2 (SZ 2))] false NZ [])); (RS 3 (IAccept 1 2 1 (SZ 2)) [(OAccepted 1 2 1 3)] (mkO (SB 2 1) (SB 2 1) (SZ 2) 1 [(ZZ 1 0)] [(P1E 1 [(RSP 3 NB NZ); (RSP 1 NB NZ); (RSP 2 NB NZ); (RSP 4 NB NZ)])] [(ZZ 1 2)] [(ZOZ 1 (SZ 2))] false NZ [])); (RS 0 (IAccept 1 2 1 (SZ 2)) [(OAccepted 1 2 1 0)] (mkO (SB 2 1) (SB 2 1) (SZ 2) 0 [] [] [] [] false NZ [])); (RS 2 (IAccept 1 2 1 (SZ 2)) [(OAccepted 1 2 1 2)] (mkO (SB 2 1) (SB 2 1) (SZ 2) 0 [] [] [] [] false NZ [])); (RS 4 (IAccept 1 2 1 (SZ 2)) [(OAccepted 1 2 1 4)] (mkO (SB 2 1) (SB 2 1) (SZ 2) 0 [] [] [] [] false NZ [])); (RS 3 (IAccepted 1) [(ODecided 0 (SZ 2)); (ODecided 1 (SZ 2)); (ODecided 2 (SZ 2)); (ODecided 4 (SZ 2))] (mkO (SB 2 1) (SB 2 1) (SZ 2) 1 [(ZZ 1 0)] [(P1E 1 [(RSP 3 NB NZ); (RSP 1 NB NZ); (RSP 2 NB NZ); (RSP 4 NB NZ)])] [(ZZ 1 3)] [(ZOZ 1 (SZ 2))] true (SZ 2) [(ZOZ 0 (SZ 2))])); (RS 0 (IDecided (SZ 2)) [] (mkO (SB 2 1) (SB 2 1) (SZ 2) 0 [] [] [] [] true (SZ 2) [])); (RS 2 (IDecided (SZ 2)) [] (mkO (SB 2 1) (SB 2 1) (SZ 2) 0 [] [] [] [] true (SZ 2) [])); (RS 1 (IDecided (SZ 2)) [] (mkO (SB 2 1) (SB 2 1) (SZ 2) 2 [(ZZ 2 0)] [(P1E 1 [(RSP 1 NB NZ); (RSP 4 NB NZ)]); (P1E 2 [(RSP 1 (SB 1 3) (SZ 2)); (RSP 2 (SB 1 3) (SZ 2)); (RSP 3 (SB 1 3) (SZ 2)); (RSP 4 (SB 1 3) (SZ 2))])] [(ZZ 1 0); (ZZ 2 1)] [(ZOZ 2 (SZ 2))] true (SZ 2) [])); (RS 1 (IAccepted 2) [] (mkO (SB 2 1) (SB 2 1) (SZ 2) 2 [(ZZ 2 0)] [(P1E 1 [(RSP 1 NB NZ); (RSP 4 NB NZ)]); (P1E 2 [(RSP 1 (SB 1 3) (SZ 2)); (RSP 2 (SB 1 3) (SZ 2)); (RSP 3 (SB 1 3) (SZ 2)); (RSP 4 (SB 1 3) (SZ 2))])] [(ZZ 1 0); (ZZ 2 2)] [(ZOZ 2 (SZ 2))] true (SZ 2) [])); (RS 1 (IAccepted 2) [] (mkO (SB 2 1) (SB 2 1) (SZ 2) 2 [(ZZ 2 0)] [(P1E 1 [(RSP 1 NB NZ); (RSP 4 NB NZ)]); (P1E 2 [(RSP 1 (SB 1 3) (SZ 2)); (RSP 2 (SB 1 3) (SZ 2)); (RSP 3 (SB 1 3) (SZ 2)); (RSP 4 (SB 1 3) (SZ 2))])] [(ZZ 1 0); (ZZ 2 3)] [(ZOZ 2 (SZ 2))] true (SZ 2) [])); (RS 2 (IPrepare 1 1 1) [(ONack 1 1 1 2 1)] (mkO (SB 2 1) (SB 2 1) (SZ 2) 0 [] [] [] [] true (SZ 2) [])); (RS 3 (IPrepare 1 1 1) [(ONack 1 1 1 2 1)] (mkO (SB 2 1) (SB 2 1) (SZ 2) 1 [(ZZ 1 0)] [(P1E 1 [(RSP 3 NB NZ); (RSP 1 NB NZ); (RSP 2 NB NZ); (RSP 4 NB NZ)])] [(ZZ 1 3)] [(ZOZ 1 (SZ 2))] true (SZ 2) [(ZOZ 0 (SZ 2))])); (RS 4 (IDecided (SZ 2)) [] (mkO (SB 2 1) (SB 2 1) (SZ 2) 0 [] [] [] [] true (SZ 2) [])); (RS 3 (IPromise 1 0 NB NZ) [] (mkO (SB 2 1) (SB 2 1) (SZ 2) 1 [(ZZ 1 0)] [(P1E 1 [(RSP 3 NB NZ); (RSP 1 NB NZ); (RSP 2 NB NZ); (RSP 4 NB NZ); (RSP 0 NB NZ)])] [(ZZ 1 3)] [(ZOZ 1 (SZ 2))] true (SZ 2) [(ZOZ 0 (SZ 2))])); (RS 1 (INack 1 2) [] (mkO (SB 2 1) (SB 2 1) (SZ 2) 2 [(ZZ 2 0)] [(P1E 1 [(RSP 1 NB NZ); (RSP 4 NB NZ)]); (P1E 2 [(RSP 1 (SB 1 3) (SZ 2)); (RSP 2 (SB 1 3) (SZ 2)); (RSP 3 (SB 1 3) (SZ 2)); (RSP 4 (SB 1 3) (SZ 2))])] [(ZZ 1 0); (ZZ 2 3)] [(ZOZ 2 (SZ 2))] true (SZ 2) [])); (RS 3 (IAccepted 1) [] (mkO (SB 2 1) (SB 2 1) (SZ 2) 1 [(ZZ 1 0)] [(P1E 1 [(RSP 3 NB NZ); (RSP 1 NB NZ); (RSP 2 NB NZ); (RSP 4 NB NZ); (RSP 0 NB NZ)])] [(ZZ 1 4)] [(ZOZ 1 (SZ 2))] true (SZ 2) [(ZOZ 0 (SZ 2))])); (RS 3 (IAccepted 1) [] (mkO (SB 2 1) (SB 2 1) (SZ 2) 1 [(ZZ 1 0)] [(P1E 1 [(RSP 3 NB NZ); (RSP 1 NB NZ); (RSP 2 NB NZ); (RSP 4 NB NZ); (RSP 0 NB NZ)])] [(ZZ 1 5)] [(ZOZ 1 (SZ 2))] true (SZ 2) [(ZOZ 0 (SZ 2))])); (RS 1 (IPromise 2 0 (SB 1 3) (SZ 2)) [] (mkO (SB 2 1) (SB 2 1) (SZ 2) 2 [(ZZ 2 0)] [(P1E 1 [(RSP 1 NB NZ); (RSP 4 NB NZ)]); (P1E 2 [(RSP 1 (SB 1 3) (SZ 2)); (RSP 2 (SB 1 3) (SZ 2)); (RSP 3 (SB 1 3) (SZ 2)); (RSP 4 (SB 1 3) (SZ 2)); (RSP 0 (SB 1 3) (SZ 2))])] [(ZZ 1 0); (ZZ 2 3)] [(ZOZ 2 (SZ 2))] true (SZ 2) [])); (RS 1 (IAccepted 2) [] (mkO (SB 2 1) (SB 2 1) (SZ 2) 2 [(ZZ 2 0)] [(P1E 1 [(RSP 1 NB NZ); (RSP 4 NB NZ)]); (P1E 2 [(RSP 1 (SB 1 3) (SZ 2)); (RSP 2 (SB 1 3) (SZ 2)); (RSP 3 (SB 1 3) (SZ 2)); (RSP 4 (SB 1 3) (SZ 2)); (RSP 0 (SB 1 3) (SZ 2))])] [(ZZ 1 0); (ZZ 2 4)] [(ZOZ 2 (SZ 2))] true (SZ 2) [])); (RS 1 (IAccepted 2) [] (mkO (SB 2 1) (SB 2 1) (SZ 2) 2 [(ZZ 2 0)] [(P1E 1 [(RSP 1 NB NZ); (RSP 4 NB NZ)]); (P1E 2 [(RSP 1 (SB 1 3) (SZ 2)); (RSP 2 (SB 1 3) (SZ 2)); (RSP 3 (SB 1 3) (SZ 2)); (RSP 4 (SB 1 3) (SZ 2)); (RSP 0 (SB 1 3) (SZ 2))])] [(ZZ 1 0); (ZZ 2 5)] [(ZOZ 2 (SZ 2))] true (SZ 2) [])); (RS 1 (INack 1 2) [] (mkO (SB 2 1) (SB 2 1) (SZ 2) 2 [(ZZ 2 0)] [(P1E 1 [(RSP 1 NB NZ); (RSP 4 NB NZ)]); (P1E 2 [(RSP 1 (SB 1 3) (SZ 2)); (RSP 2 (SB 1 3) (SZ 2)); (RSP 3 (SB 1 3) (SZ 2)); (RSP 4 (SB 1 3) (SZ 2)); (RSP 0 (SB 1 3) (SZ 2))])] [(ZZ 1 0); (ZZ 2 5)] [(ZOZ 2 (SZ 2))] true (SZ 2) []))]).
Definition case_14 : Z * list rec_step := (3, [(RS 1 (IPropose 2) [(OPrepare 0 1 1); (OPrepare 2 1 1)] (mkO (SB 1 1) NB NZ 1 [(ZZ 1 0)] [(P1E 1 [(RSP 1 NB NZ)])] [(ZZ 1 0)] [(ZOZ 1 (SZ 2))] false NZ [])); (RS 2 (IPropose 3) [(OPrepare 0 1 2); (OPrepare 1 1 2)] (mkO (SB 1 2) NB NZ 1 [(ZZ 1 0)] [(P1E 1 [(RSP 2 NB NZ)])] [(ZZ 1 0)] [(ZOZ 1 (SZ 3))] false NZ [])); (RS 1 (IPropose 2) [(OPrepare 0 2 1); (OPrepare 2 2 1)] (mkO (SB 2 1) NB NZ 2 [(ZZ 1 0); (ZZ 2 1)] [(P1E 1 [(RSP 1 NB NZ)]); (P1E 2 [(RSP 1 NB NZ)])] [(ZZ 1 0); (ZZ 2 0)] [(ZOZ 1 (SZ 2)); (ZOZ 2 (SZ 2))] false NZ [])); (RS 0 (IPrepare 1 1 1) [(OPromise 1 1 1 0 NB NZ)] (mkO (SB 1 1) NB NZ 0 [] [] [] [] false NZ [])); (RS 2 (IPrepare 1 1 1) [(ONack 1 1 1 1 2)] (mkO (SB 1 2) NB NZ 1 [(ZZ 1 0)] [(P1E 1 [(RSP 2 NB NZ)])] [(ZZ 1 0)] [(ZOZ 1 (SZ 3))] false NZ [])); (RS 2 (IPrepare 1 2 1) [(OPromise 1 2 1 2 NB NZ)] (mkO (SB 2 1) NB NZ 1 [(ZZ 1 0)] [(P1E 1 [(RSP 2 NB NZ)])] [(ZZ 1 0)] [(ZOZ 1 (SZ 3))] false NZ [])); (RS 1 (IPromise 1 0 NB NZ) [(OAccept 0 1 1 (SZ 2)); (OAccept 2 1 1 (SZ 2))] (mkO (SB 2 1) NB NZ 2 [(ZZ 1 0); (ZZ 2 1)] [(P1E 1 [(RSP 1 NB NZ); (RSP 0 NB NZ)]); (P1E 2 [(RSP 1 NB NZ)])] [(ZZ 1 0); (ZZ 2 0)] [(ZOZ 1 (SZ 2)); (ZOZ 2 (SZ 2))] false NZ [])); (RS 2 (IAccept 1 1 1 (SZ 2)) [(ONack 1 1 1 2 1)] (mkO (SB 2 1) NB NZ 1 [(ZZ 1 0)] [(P1E 1 [(RSP 2 NB NZ)])] [(ZZ 1 0)] [(ZOZ 1 (SZ 3))] false NZ [])); (RS 0 (IPrepare 2 1 2) [(OPromise 2 1 2 0 NB NZ)] (mkO (SB 1 2) NB NZ 0 [] [] [] [] false NZ [])); (RS 0 (IPrepare 1 2 1) [(OPromise 1 2 1 0 NB NZ)] (mkO (SB 2 1) NB NZ 0 [] [] [] [] false NZ [])); (RS 1 (INack 1 2) [(ORetry 1)] (mkO (SB 2 1) NB NZ 2 [(ZZ 1 0); (ZZ 2 1)] [(P1E 1 [(RSP 1 NB NZ); (RSP 0 NB NZ)]); (P1E 2 [(RSP 1 NB NZ)])] [(ZZ 1 0); (ZZ 2 0)] [(ZOZ 1 (SZ 2)); (ZOZ 2 (SZ 2))] false NZ [])); (RS 1 (INack 1 1) [(ORetry 1)] (mkO (SB 2 1) NB NZ 2 [(ZZ 1 0); (ZZ 2 1)] [(P1E 1 [(RSP 1 NB NZ); (RSP 0 NB NZ)]); (P1E 2 [(RSP 1 NB NZ)])] [(ZZ 1 0); (ZZ 2 0)] [(ZOZ 1 (SZ 2)); (ZOZ 2 (SZ 2))] false NZ [])); (RS 1 (IPrepare 2 1 2) [(ONack 2 1 2 2 1)] (mkO (SB 2 1) NB NZ 2 [(ZZ 1 0); (ZZ 2 1)] [(P1E 1 [(RSP 1 NB NZ); (RSP 0 NB NZ)]); (P1E 2 [(RSP 1 NB NZ)])] [(ZZ 1 0); (ZZ 2 0)] [(ZOZ 1 (SZ 2)); (ZOZ 2 (SZ 2))] false NZ [])); (RS 0 (IAccept 1 1 1 (SZ 2)) [(ONack 1 1 1 2 1)] (mkO (SB 2 1) NB NZ 0 [] [] [] [] false NZ [])); (RS 1 (INack 1 2) [(ORetry 1)] (mkO (SB 2 1) NB NZ 2 [(ZZ 1 0); (ZZ 2 1)] [(P1E 1 [(RSP 1 NB NZ); (RSP 0 NB NZ)]); (P1E 2 [(RSP 1 NB NZ)])] [(ZZ 1 0); (ZZ 2 0)] [(ZOZ 1 (SZ 2)); (ZOZ 2 (SZ 2))] false NZ [])); (RS 1 (IPromise 2 2 NB NZ) [(OAccept 0 2 1 (SZ 2)); (OAccept 2 2 1 (SZ 2))] (mkO (SB 2 1) (SB 2 1) (SZ 2) 2 [(ZZ 1 0); (ZZ 2 1)] [(P1E 1 [(RSP 1 NB NZ); (RSP 0 NB NZ)]); (P1E 2 [(RSP 1 NB NZ); (RSP 2 NB NZ)])] [(ZZ 1 0); (ZZ 2 1)] [(ZOZ 1 (SZ 2)); (ZOZ 2 (SZ 2))] false NZ [])); (RS 2 (IPromise 1 0 NB NZ) [(OAccept 0 1 2 (SZ 3)); (OAccept 1 1 2 (SZ 3))] (mkO (SB 2 1) NB NZ 1 [(ZZ 1 0)] [(P1E 1 [(RSP 2 NB NZ); (RSP 0 NB NZ)])] [(ZZ 1 0)] [(ZOZ 1 (SZ 3))] false NZ [])); (RS 0 (IAccept 1 2 1 (SZ 2)) [(OAccepted 1 2 1 0)] (mkO (SB 2 1) (SB 2 1) (SZ 2) 0 [] [] [] [] false NZ [])); (RS 2 (INack 1 2) [(ORetry 1)] (mkO (SB 2 1) NB NZ 2 [(ZZ 1 0)] [(P1E 1 [(RSP 2 NB NZ); (RSP 0 NB NZ)])] [(ZZ 1 0)] [(ZOZ 1 (SZ 3))] false NZ [])); (RS 1 (IAccepted 2) [(ODecided 0 (SZ 2)); (ODecided 2 (SZ 2))] (mkO (SB 2 1) (SB 2 1) (SZ 2) 2 [(ZZ 1 0); (ZZ 2 1)] [(P1E 1 [(RSP 1 NB NZ); (RSP 0 NB NZ)]); (P1E 2 [(RSP 1 NB NZ); (RSP 2 NB NZ)])] [(ZZ 1 0); (ZZ 2 2)] [(ZOZ 1 (SZ 2)); (ZOZ 2 (SZ 2))] true (SZ 2) [(ZOZ 1 (SZ 2))])); (RS 1 (IPromise 2 0 NB NZ) [] (mkO (SB 2 1) (SB 2 1) (SZ 2) 2 [(ZZ 1 0); (ZZ 2 1)] [(P1E 1 [(RSP 1 NB NZ); (RSP 0 NB NZ)]); (P1E 2 [(RSP 1 NB NZ); (RSP 2 NB NZ); (RSP 0 NB NZ)])] [(ZZ 1 0); (ZZ 2 2)] [(ZOZ 1 (SZ 2)); (ZOZ 2 (SZ 2))] true (SZ 2) [(ZOZ 1 (SZ 2))])); (RS 2 (IAccept 1 2 1 (SZ 2)) [(OAccepted 1 2 1 2)] (mkO (SB 2 1) (SB 2 1) (SZ 2) 2 [(ZZ 1 0)] [(P1E 1 [(RSP 2 NB NZ); (RSP 0 NB NZ)])] [(ZZ 1 0)] [(ZOZ 1 (SZ 3))] false NZ [])); (RS 1 (IAccept 2 1 2 (SZ 3)) [(ONack 2 1 2 2 1)] (mkO (SB 2 1) (SB 2 1) (SZ 2) 2 [(ZZ 1 0); (ZZ 2 1)] [(P1E 1 [(RSP 1 NB NZ); (RSP 0 NB NZ)]); (P1E 2 [(RSP 1 NB NZ); (RSP 2 NB NZ); (RSP 0 NB NZ)])] [(ZZ 1 0); (ZZ 2 2)] [(ZOZ 1 (SZ 2)); (ZOZ 2 (SZ 2))] true (SZ 2) [(ZOZ 1 (SZ 2))])); (RS 0 (IDecided (SZ 2)) [] (mkO (SB 2 1) (SB 2 1) (SZ 2) 0 [] [] [] [] true (SZ 2) [])); (RS 0 (IAccept 2 1 2 (SZ 3)) [(ONack 2 1 2 2 1)] (mkO (SB 2 1) (SB 2 1) (SZ 2) 0 [] [] [] [] true (SZ 2) [])); (RS 2 (IDecided (SZ 2)) [] (mkO (SB 2 1) (SB 2 1) (SZ 2) 2 [(ZZ 1 0)] [(P1E 1 [(RSP 2 NB NZ); (RSP 0 NB NZ)])] [(ZZ 1 0)] [(ZOZ 1 (SZ 3))] true (SZ 2) [])); (RS 2 (INack 1 2) [(ORetry 1)] (mkO (SB 2 1) (SB 2 1) (SZ 2) 2 [(ZZ 1 0)] [(P1E 1 [(RSP 2 NB NZ); (RSP 0 NB NZ)])] [(ZZ 1 0)] [(ZOZ 1 (SZ 3))] true (SZ 2) [])); (RS 2 (INack 1 2) [(ORetry 1)] (mkO (SB 2 1) (SB 2 1) (SZ 2) 2 [(ZZ 1 0)] [(P1E 1 [(RSP 2 NB NZ); (RSP 0 NB NZ)])] [(ZZ 1 0)] [(ZOZ 1 (SZ 3))] true (SZ 2) [])); (RS 1 (IAccepted 2) [] (mkO (SB 2 1) (SB 2 1) (SZ 2) 2 [(ZZ 1 0); (ZZ 2 1)] [(P1E 1 [(RSP 1 NB NZ); (RSP 0 NB NZ)]); (P1E 2 [(RSP 1 NB NZ); (RSP 2 NB NZ); (RSP 0 NB NZ)])] [(ZZ 1 0); (ZZ 2 3)] [(ZOZ 1 (SZ 2)); (ZOZ 2 (SZ 2))] true (SZ 2) [(ZOZ 1 (SZ 2))])); (RS 1 (IPropose 3) [] (mkO (SB 2 1) (SB 2 1) (SZ 2) 2 [(ZZ 1 0); (ZZ 2 1)] [(P1E 1 [(RSP 1 NB NZ); (RSP 0 NB NZ)]); (P1E 2 [(RSP 1 NB NZ); (RSP 2 NB NZ); (RSP 0 NB NZ)])] [(ZZ 1 0); (ZZ 2 3)] [(ZOZ 1 (SZ 2)); (ZOZ 2 (SZ 2))] true (SZ 2) [(ZOZ 1 (SZ 2)); (ZOZ 2 (SZ 2))])); (RS 1 (IRetry 1) [] (mkO (SB 2 1) (SB 2 1) (SZ 2) 2 [(ZZ 1 0); (ZZ 2 1)] [(P1E 1 [(RSP 1 NB NZ); (RSP 0 NB NZ)]); (P1E 2 [(RSP 1 NB NZ); (RSP 2 NB NZ); (RSP 0 NB NZ)])] [(ZZ 1 0); (ZZ 2 3)] [(ZOZ 1 (SZ 2)); (ZOZ 2 (SZ 2))] true (SZ 2) [(ZOZ 1 (SZ 2)); (ZOZ 2 (SZ 2))])); (RS 1 (IRetry 1) [] (mkO (SB 2 1) (SB 2 1) (SZ 2) 2 [(ZZ 1 0); (ZZ 2 1)] [(P1E 1 [(RSP 1 NB NZ); (RSP 0 NB NZ)]); (P1E 2 [(RSP 1 NB NZ); (RSP 2 NB NZ); (RSP 0 NB NZ)])] [(ZZ 1 0); (ZZ 2 3)] [(ZOZ 1 (SZ 2)); (ZOZ 2 (SZ 2))] true (SZ 2) [(ZOZ 1 (SZ 2)); (ZOZ 2 (SZ 2))])); (RS 2 (IRetry 1) [] (mkO (SB 2 1) (SB 2 1) (SZ 2) 2 [(ZZ 1 0)] [(P1E 1 [(RSP 2 NB NZ); (RSP 0 NB NZ)])] [(ZZ 1 0)] [(ZOZ 1 (SZ 3))] true (SZ 2) [])); (RS 2 (IRetry 1) [] (mkO (SB 2 1) (SB 2 1) (SZ 2) 2 [(ZZ 1 0)] [(P1E 1 [(RSP 2 NB NZ); (RSP 0 NB NZ)])] [(ZZ 1 0)] [(ZOZ 1 (SZ 3))] true (SZ 2) [])); (RS 1 (IRetry 1) [] (mkO (SB 2 1) (SB 2 1) (SZ 2) 2 [(ZZ 1 0); (ZZ 2 1)] [(P1E 1 [(RSP 1 NB NZ); (RSP 0 NB NZ)]); (P1E 2 [(RSP 1 NB NZ); (RSP 2 NB NZ); (RSP 0 NB NZ)])] [(ZZ 1 0); (ZZ 2 3)] [(ZOZ 1 (SZ 2)); (ZOZ 2 (SZ 2))] true (SZ 2) [(ZOZ 1 (SZ 2)); (ZOZ 2 (SZ 2))])); (RS 2 (IRetry 1) [] (mkO (SB 2 1) (SB 2 1) (SZ 2) 2 [(ZZ 1 0)] [(P1E 1 [(RSP 2 NB NZ); (RSP 0 NB NZ)])] [(ZZ 1 0)] [(ZOZ 1 (SZ 3))] true (SZ 2) []))]).
Definition case_15 : Z * list rec_step := (5, [(RS 3 (IPropose 2) [(OPrepare 0 1 3); (OPrepare 1 1 3); (OPrepare 2 1 3); (OPrepare 4 1 3)] (mkO (SB 1 3) NB NZ 1 [(ZZ 1 0)] [(P1E 1 [(RSP 3 NB NZ)])] [(ZZ 1 0)] [(ZOZ 1 (SZ 2))] false NZ [])); (RS 0 (IPrepare 3 1 3) [(OPromise 3 1 3 0 NB NZ)] (mkO (SB 1 3) NB NZ 0 [] [] [] [] false NZ [])); (RS 2 (IPrepare 3 1 3) [(OPromise 3 1 3 2 NB NZ)] (mkO (SB 1 3) NB NZ 0 [] [] [] [] false NZ [])); (RS 1 (IPrepare 3 1 3) [(OPromise 3 1 3 1 NB NZ)] (mkO (SB 1 3) NB NZ 0 [] [] [] [] false NZ [])); (RS 3 (IPromise 1 2 NB NZ) [] (mkO (SB 1 3) NB NZ 1 [(ZZ 1 0)] [(P1E 1 [(RSP 3 NB NZ); (RSP 2 NB NZ)])] [(ZZ 1 0)] [(ZOZ 1 (SZ 2))] false NZ [])); (RS 3 (IPromise 1 1 NB NZ) [(OAccept 0 1 3 (SZ 2)); (OAccept 1 1 3 (SZ 2)); (OAccept 2 1 3 (SZ 2)); (OAccept 4 1 3 (SZ 2))] (mkO (SB 1 3) (SB 1 3) (SZ 2) 1 [(ZZ 1 0)] [(P1E 1 [(RSP 3 NB NZ); (RSP 2 NB NZ); (RSP 1 NB NZ)])] [(ZZ 1 1)] [(ZOZ 1 (SZ 2))] false NZ [])); (RS 2 (IAccept 3 1 3 (SZ 2)) [(OAccepted 3 1 3 2)] (mkO (SB 1 3) (SB 1 3) (SZ 2) 0 [] [] [] [] false NZ [])); (RS 1 (IAccept 3 1 3 (SZ 2)) [(OAccepted 3 1 3 1)] (mkO (SB 1 3) (SB 1 3) (SZ 2) 0 [] [] [] [] false NZ [])); (RS 3 (IAccepted 1) [] (mkO (SB 1 3) (SB 1 3) (SZ 2) 1 [(ZZ 1 0)] [(P1E 1 [(RSP 3 NB NZ); (RSP 2 NB NZ); (RSP 1 NB NZ)])] [(ZZ 1 2)] [(ZOZ 1 (SZ 2))] false NZ [])); (RS 2 (IPropose 2) [(OPrepare 0 2 2); (OPrepare 1 2 2); (OPrepare 3 2 2); (OPrepare 4 2 2)] (mkO (SB 2 2) (SB 1 3) (SZ 2) 2 [(ZZ 2 0)] [(P1E 2 [(RSP 2 (SB 1 3) (SZ 2))])] [(ZZ 2 0)] [(ZOZ 2 (SZ 2))] false NZ [])); (RS 0 (IPrepare 2 2 2) [(OPromise 2 2 2 0 NB NZ)] (mkO (SB 2 2) NB NZ 0 [] [] [] [] false NZ [])); (RS 4 (IPrepare 2 2 2) [(OPromise 2 2 2 4 NB NZ)] (mkO (SB 2 2) NB NZ 0 [] [] [] [] false NZ [])); (RS 2 (IPromise 2 0 NB NZ) [] (mkO (SB 2 2) (SB 1 3) (SZ 2) 2 [(ZZ 2 0)] [(P1E 2 [(RSP 2 (SB 1 3) (SZ 2)); (RSP 0 NB NZ)])] [(ZZ 2 0)] [(ZOZ 2 (SZ 2))] false NZ [])); (RS 3 (IPrepare 2 2 2) [(OPromise 2 2 2 3 (SB 1 3) (SZ 2))] (mkO (SB 2 2) (SB 1 3) (SZ 2) 1 [(ZZ 1 0)] [(P1E 1 [(RSP 3 NB NZ); (RSP 2 NB NZ); (RSP 1 NB NZ)])] [(ZZ 1 2)] [(ZOZ 1 (SZ 2))] false NZ [])); (RS 2 (IPromise 2 4 NB NZ) [(OAccept 0 2 2 (SZ 2)); (OAccept 1 2 2 (SZ 2)); (OAccept 3 2 2 (SZ 2)); (OAccept 4 2 2 (SZ 2))] (mkO (SB 2 2) (SB 2 2) (SZ 2) 2 [(ZZ 2 0)] [(P1E 2 [(RSP 2 (SB 1 3) (SZ 2)); (RSP 0 NB NZ); (RSP 4 NB NZ)])] [(ZZ 2 1)] [(ZOZ 2 (SZ 2))] false NZ [])); (RS 2 (IPromise 2 3 (SB 1 3) (SZ 2)) [] (mkO (SB 2 2) (SB 2 2) (SZ 2) 2 [(ZZ 2 0)] [(P1E 2 [(RSP 2 (SB 1 3) (SZ 2)); (RSP 0 NB NZ); (RSP 4 NB NZ); (RSP 3 (SB 1 3) (SZ 2))])] [(ZZ 2 1)] [(ZOZ 2 (SZ 2))] false NZ [])); (RS 0 (IAccept 2 2 2 (SZ 2)) [(OAccepted 2 2 2 0)] (mkO (SB 2 2) (SB 2 2) (SZ 2) 0 [] [] [] [] false NZ [])); (RS 4 (IAccept 2 2 2 (SZ 2)) [(OAccepted 2 2 2 4)] (mkO (SB 2 2) (SB 2 2) (SZ 2) 0 [] [] [] [] false NZ [])); (RS 3 (IAccept 2 2 2 (SZ 2)) [(OAccepted 2 2 2 3)] (mkO (SB 2 2) (SB 2 2) (SZ 2) 1 [(ZZ 1 0)] [(P1E 1 [(RSP 3 NB NZ); (RSP 2 NB NZ); (RSP 1 NB NZ)])] [(ZZ 1 2)] [(ZOZ 1 (SZ 2))] false NZ [])); (RS 1 (IAccept 2 2 2 (SZ 2)) [(OAccepted 2 2 2 1)] (mkO (SB 2 2) (SB 2 2) (SZ 2) 0 [] [] [] [] false NZ [])); (RS 2 (IAccepted 2) [] (mkO (SB 2 2) (SB 2 2) (SZ 2) 2 [(ZZ 2 0)] [(P1E 2 [(RSP 2 (SB 1 3) (SZ 2)); (RSP 0 NB NZ); (RSP 4 NB NZ); (RSP 3 (SB 1 3) (SZ 2))])] [(ZZ 2 2)] [(ZOZ 2 (SZ 2))] false NZ [])); (RS 2 (IAccepted 2) [(ODecided 0 (SZ 2)); (ODecided 1 (SZ 2)); (ODecided 3 (SZ 2)); (ODecided 4 (SZ 2))] (mkO (SB 2 2) (SB 2 2) (SZ 2) 2 [(ZZ 2 0)] [(P1E 2 [(RSP 2 (SB 1 3) (SZ 2)); (RSP 0 NB NZ); (RSP 4 NB NZ); (RSP 3 (SB 1 3) (SZ 2))])] [(ZZ 2 3)] [(ZOZ 2 (SZ 2))] true (SZ 2) [(ZOZ 0 (SZ 2))])); (RS 2 (IAccepted 2) [] (mkO (SB 2 2) (SB 2 2) (SZ 2) 2 [(ZZ 2 0)] [(P1E 2 [(RSP 2 (SB 1 3) (SZ 2)); (RSP 0 NB NZ); (RSP 4 NB NZ); (RSP 3 (SB 1 3) (SZ 2))])] [(ZZ 2 4)] [(ZOZ 2 (SZ 2))] true (SZ 2) [(ZOZ 0 (SZ 2))])); (RS 0 (IDecided (SZ 2)) [] (mkO (SB 2 2) (SB 2 2) (SZ 2) 0 [] [] [] [] true (SZ 2) [])); (RS 1 (IDecided (SZ 2)) [] (mkO (SB 2 2) (SB 2 2) (SZ 2) 0 [] [] [] [] true (SZ 2) [])); (RS 4 (IDecided (SZ 2)) [] (mkO (SB 2 2) (SB 2 2) (SZ 2) 0 [] [] [] [] true (SZ 2) [])); (RS 3 (IDecided (SZ 2)) [] (mkO (SB 2 2) (SB 2 2) (SZ 2) 1 [(ZZ 1 0)] [(P1E 1 [(RSP 3 NB NZ); (RSP 2 NB NZ); (RSP 1 NB NZ)])] [(ZZ 1 2)] [(ZOZ 1 (SZ 2))] true (SZ 2) []))]).
Definition case_16 : Z * list rec_step := (5, [(RS 3 (IPropose 1) [(OPrepare 0 1 3); (OPrepare 1 1 3); (OPrepare 2 1 3); (OPrepare 4 1 3)] (mkO (SB 1 3) NB NZ 1 [(ZZ 1 0)] [(P1E 1 [(RSP 3 NB NZ)])] [(ZZ 1 0)] [(ZOZ 1 (SZ 1))] false NZ [])); (RS 1 (IPrepare 3 1 3) [(OPromise 3 1 3 1 NB NZ)] (mkO (SB 1 3) NB NZ 0 [] [] [] [] false NZ [])); (RS 2 (IPrepare 3 1 3) [(OPromise 3 1 3 2 NB NZ)] (mkO (SB 1 3) NB NZ 0 [] [] [] [] false NZ [])); (RS 3 (IPromise 1 1 NB NZ) [] (mkO (SB 1 3) NB NZ 1 [(ZZ 1 0)] [(P1E 1 [(RSP 3 NB NZ); (RSP 1 NB NZ)])] [(ZZ 1 0)] [(ZOZ 1 (SZ 1))] false NZ [])); (RS 0 (IPropose 2) [(OPrepare 1 1 0); (OPrepare 2 1 0); (OPrepare 3 1 0); (OPrepare 4 1 0)] (mkO (SB 1 0) NB NZ 1 [(ZZ 1 0)] [(P1E 1 [(RSP 0 NB NZ)])] [(ZZ 1 0)] [(ZOZ 1 (SZ 2))] false NZ [])); (RS 1 (IPrepare 0 1 0) [(ONack 0 1 0 1 3)] (mkO (SB 1 3) NB NZ 0 [] [] [] [] false NZ [])); (RS 1 (IPropose 3) [(OPrepare 0 2 1); (OPrepare 2 2 1); (OPrepare 3 2 1); (OPrepare 4 2 1)] (mkO (SB 2 1) NB NZ 2 [(ZZ 2 0)] [(P1E 2 [(RSP 1 NB NZ)])] [(ZZ 2 0)] [(ZOZ 2 (SZ 3))] false NZ [])); (RS 2 (IPrepare 1 2 1) [(OPromise 1 2 1 2 NB NZ)] (mkO (SB 2 1) NB NZ 0 [] [] [] [] false NZ []))]).
Definition case_17 : Z * list rec_step := (5, [(RS 3 (IPropose 1) [(OPrepare 0 1 3); (OPrepare 1 1 3); (OPrepare 2 1 3); (OPrepare 4 1 3)] (mkO (SB 1 3) NB NZ 1 [(ZZ 1 0)] [(P1E 1 [(RSP 3 NB NZ)])] [(ZZ 1 0)] [(ZOZ 1 (SZ 1))] false NZ [])); (RS 1 (IPrepare 3 1 3) [(OPromise 3 1 3 1 NB NZ)] (mkO (SB 1 3) NB NZ 0 [] [] [] [] false NZ [])); (RS 4 (IPrepare 3 1 3) [(OPromise 3 1 3 4 NB NZ)] (mkO (SB 1 3) NB NZ 0 [] [] [] [] false NZ [])); (RS 3 (IPromise 1 4 NB NZ) [] (mkO (SB 1 3) NB NZ 1 [(ZZ 1 0)] [(P1E 1 [(RSP 3 NB NZ); (RSP 4 NB NZ)])] [(ZZ 1 0)] [(ZOZ 1 (SZ 1))] false NZ [])); (RS 0 (IPrepare 3 1 3) [(OPromise 3 1 3 0 NB NZ)] (mkO (SB 1 3) NB NZ 0 [] [] [] [] false NZ [])); (RS 0 (IPropose 2) [(OPrepare 1 2 0); (OPrepare 2 2 0); (OPrepare 3 2 0); (OPrepare 4 2 0)] (mkO (SB 2 0) NB NZ 2 [(ZZ 2 0)] [(P1E 2 [(RSP 0 NB NZ)])] [(ZZ 2 0)] [(ZOZ 2 (SZ 2))] false NZ [])); (RS 3 (IPromise 1 1 NB NZ) [(OAccept 0 1 3 (SZ 1)); (OAccept 1 1 3 (SZ 1)); (OAccept 2 1 3 (SZ 1)); (OAccept 4 1 3 (SZ 1))] (mkO (SB 1 3) (SB 1 3) (SZ 1) 1 [(ZZ 1 0)] [(P1E 1 [(RSP 3 NB NZ); (RSP 4 NB NZ); (RSP 1 NB NZ)])] [(ZZ 1 1)] [(ZOZ 1 (SZ 1))] false NZ [])); (RS 0 (IAccept 3 1 3 (SZ 1)) [(ONack 3 1 3 2 0)] (mkO (SB 2 0) NB NZ 2 [(ZZ 2 0)] [(P1E 2 [(RSP 0 NB NZ)])] [(ZZ 2 0)] [(ZOZ 2 (SZ 2))] false NZ [])); (RS 3 (INack 1 2) [(ORetry 1)] (mkO (SB 1 3) (SB 1 3) (SZ 1) 2 [(ZZ 1 0)] [(P1E 1 [(RSP 3 NB NZ); (RSP 4 NB NZ); (RSP 1 NB NZ)])] [(ZZ 1 1)] [(ZOZ 1 (SZ 1))] false NZ [])); (RS 1 (IPropose 3) [(OPrepare 0 2 1); (OPrepare 2 2 1); (OPrepare 3 2 1); (OPrepare 4 2 1)] (mkO (SB 2 1) NB NZ 2 [(ZZ 2 0)] [(P1E 2 [(RSP 1 NB NZ)])] [(ZZ 2 0)] [(ZOZ 2 (SZ 3))] false NZ [])); (RS 0 (IPrepare 1 2 1) [(OPromise 1 2 1 0 NB NZ)] (mkO (SB 2 1) NB NZ 2 [(ZZ 2 0)] [(P1E 2 [(RSP 0 NB NZ)])] [(ZZ 2 0)] [(ZOZ 2 (SZ 2))] false NZ [])); (RS 2 (IPrepare 1 2 1) [(OPromise 1 2 1 2 NB NZ)] (mkO (SB 2 1) NB NZ 0 [] [] [] [] false NZ [])); (RS 4 (IPrepare 1 2 1) [(OPromise 1 2 1 4 NB NZ)] (mkO (SB 2 1) NB NZ 0 [] [] [] [] false NZ [])); (RS 2 (IAccept 3 1 3 (SZ 1)) [(ONack 3 1 3 2 1)] (mkO (SB 2 1) NB NZ 0 [] [] [] [] false NZ [])); (RS 4 (IAccept 3 1 3 (SZ 1)) [(ONack 3 1 3 2 1)] (mkO (SB 2 1) NB NZ 0 [] [] [] [] false NZ [])); (RS 1 (IPromise 2 2 NB NZ) [] (mkO (SB 2 1) NB NZ 2 [(ZZ 2 0)] [(P1E 2 [(RSP 1 NB NZ); (RSP 2 NB NZ)])] [(ZZ 2 0)] [(ZOZ 2 (SZ 3))] false NZ [])); (RS 3 (IPromise 1 0 NB NZ) [] (mkO (SB 1 3) (SB 1 3) (SZ 1) 2 [(ZZ 1 0)] [(P1E 1 [(RSP 3 NB NZ); (RSP 4 NB NZ); (RSP 1 NB NZ); (RSP 0 NB NZ)])] [(ZZ 1 1)] [(ZOZ 1 (SZ 1))] false NZ [])); (RS 3 (IPrepare 0 2 0) [(OPromise 0 2 0 3 (SB 1 3) (SZ 1))] (mkO (SB 2 0) (SB 1 3) (SZ 1) 2 [(ZZ 1 0)] [(P1E 1 [(RSP 3 NB NZ); (RSP 4 NB NZ); (RSP 1 NB NZ); (RSP 0 NB NZ)])] [(ZZ 1 1)] [(ZOZ 1 (SZ 1))] false NZ [])); (RS 1 (IPromise 2 0 NB NZ) [(OAccept 0 2 1 (SZ 3)); (OAccept 2 2 1 (SZ 3)); (OAccept 3 2 1 (SZ 3)); (OAccept 4 2 1 (SZ 3))] (mkO (SB 2 1) (SB 2 1) (SZ 3) 2 [(ZZ 2 0)] [(P1E 2 [(RSP 1 NB NZ); (RSP 2 NB NZ); (RSP 0 NB NZ)])] [(ZZ 2 1)] [(ZOZ 2 (SZ 3))] false NZ [])); (RS 0 (IAccept 1 2 1 (SZ 3)) [(OAccepted 1 2 1 0)] (mkO (SB 2 1) (SB 2 1) (SZ 3) 2 [(ZZ 2 0)] [(P1E 2 [(RSP 0 NB NZ)])] [(ZZ 2 0)] [(ZOZ 2 (SZ 2))] false NZ [])); (RS 3 (IAccept 1 2 1 (SZ 3)) [(OAccepted 1 2 1 3)] (mkO (SB 2 1) (SB 2 1) (SZ 3) 2 [(ZZ 1 0)] [(P1E 1 [(RSP 3 NB NZ); (RSP 4 NB NZ); (RSP 1 NB NZ); (RSP 0 NB NZ)])] [(ZZ 1 1)] [(ZOZ 1 (SZ 1))] false NZ [])); (RS 3 (IPrepare 1 2 1) [(OPromise 1 2 1 3 (SB 2 1) (SZ 3))] (mkO (SB 2 1) (SB 2 1) (SZ 3) 2 [(ZZ 1 0)] [(P1E 1 [(RSP 3 NB NZ); (RSP 4 NB NZ); (RSP 1 NB NZ); (RSP 0 NB NZ)])] [(ZZ 1 1)] [(ZOZ 1 (SZ 1))] false NZ [])); (RS 1 (IAccepted 2) [] (mkO (SB 2 1) (SB 2 1) (SZ 3) 2 [(ZZ 2 0)] [(P1E 2 [(RSP 1 NB NZ); (RSP 2 NB NZ); (RSP 0 NB NZ)])] [(ZZ 2 2)] [(ZOZ 2 (SZ 3))] false NZ [])); (RS 1 (IAccepted 2) [(ODecided 0 (SZ 3)); (ODecided 2 (SZ 3)); (ODecided 3 (SZ 3)); (ODecided 4 (SZ 3))] (mkO (SB 2 1) (SB 2 1) (SZ 3) 2 [(ZZ 2 0)] [(P1E 2 [(RSP 1 NB NZ); (RSP 2 NB NZ); (RSP 0 NB NZ)])] [(ZZ 2 3)] [(ZOZ 2 (SZ 3))] true (SZ 3) [(ZOZ 0 (SZ 3))])); (RS 3 (INack 1 2) [(ORetry 1)] (mkO (SB 2 1) (SB 2 1) (SZ 3) 2 [(ZZ 1 0)] [(P1E 1 [(RSP 3 NB NZ); (RSP 4 NB NZ); (RSP 1 NB NZ); (RSP 0 NB NZ)])] [(ZZ 1 1)] [(ZOZ 1 (SZ 1))] false NZ [])); (RS 3 (INack 1 2) [(ORetry 1)] (mkO (SB 2 1) (SB 2 1) (SZ 3) 2 [(ZZ 1 0)] [(P1E 1 [(RSP 3 NB NZ); (RSP 4 NB NZ); (RSP 1 NB NZ); (RSP 0 NB NZ)])] [(ZZ 1 1)] [(ZOZ 1 (SZ 1))] false NZ [])); (RS 2 (IAccept 1 2 1 (SZ 3)) [(OAccepted 1 2 1 2)] (mkO (SB 2 1) (SB 2 1) (SZ 3) 0 [] [] [] [] false NZ [])); (RS 1 (IPromise 2 3 (SB 2 1) (SZ 3)) [] (mkO (SB 2 1) (SB 2 1) (SZ 3) 2 [(ZZ 2 0)] [(P1E 2 [(RSP 1 NB NZ); (RSP 2 NB NZ); (RSP 0 NB NZ); (RSP 3 (SB 2 1) (SZ 3))])] [(ZZ 2 3)] [(ZOZ 2 (SZ 3))] true (SZ 3) [(ZOZ 0 (SZ 3))])); (RS 2 (IDecided (SZ 3)) [] (mkO (SB 2 1) (SB 2 1) (SZ 3) 0 [] [] [] [] true (SZ 3) [])); (RS 4 (IDecided (SZ 3)) [] (mkO (SB 2 1) NB NZ 0 [] [] [] [] true (SZ 3) [])); (RS 1 (IAccepted 2) [] (mkO (SB 2 1) (SB 2 1) (SZ 3) 2 [(ZZ 2 0)] [(P1E 2 [(RSP 1 NB NZ); (RSP 2 NB NZ); (RSP 0 NB NZ); (RSP 3 (SB 2 1) (SZ 3))])] [(ZZ 2 4)] [(ZOZ 2 (SZ 3))] true (SZ 3) [(ZOZ 0 (SZ 3))])); (RS 3 (IRetry 1) [(OPrepare 0 3 3); (OPrepare 1 3 3); (OPrepare 2 3 3); (OPrepare 4 3 3)] (mkO (SB 3 3) (SB 2 1) (SZ 3) 3 [(ZZ 3 0)] [(P1E 1 [(RSP 3 NB NZ); (RSP 4 NB NZ); (RSP 1 NB NZ); (RSP 0 NB NZ)]); (P1E 3 [(RSP 3 (SB 2 1) (SZ 3))])] [(ZZ 1 1); (ZZ 3 0)] [(ZOZ 3 (SZ 1))] false NZ [])); (RS 0 (IPrepare 3 3 3) [(OPromise 3 3 3 0 (SB 2 1) (SZ 3))] (mkO (SB 3 3) (SB 2 1) (SZ 3) 2 [(ZZ 2 0)] [(P1E 2 [(RSP 0 NB NZ)])] [(ZZ 2 0)] [(ZOZ 2 (SZ 2))] false NZ [])); (RS 3 (IRetry 1) [] (mkO (SB 3 3) (SB 2 1) (SZ 3) 3 [(ZZ 3 0)] [(P1E 1 [(RSP 3 NB NZ); (RSP 4 NB NZ); (RSP 1 NB NZ); (RSP 0 NB NZ)]); (P1E 3 [(RSP 3 (SB 2 1) (SZ 3))])] [(ZZ 1 1); (ZZ 3 0)] [(ZOZ 3 (SZ 1))] false NZ [])); (RS 2 (IPrepare 3 3 3) [(OPromise 3 3 3 2 (SB 2 1) (SZ 3))] (mkO (SB 3 3) (SB 2 1) (SZ 3) 0 [] [] [] [] true (SZ 3) [])); (RS 3 (IRetry 1) [] (mkO (SB 3 3) (SB 2 1) (SZ 3) 3 [(ZZ 3 0)] [(P1E 1 [(RSP 3 NB NZ); (RSP 4 NB NZ); (RSP 1 NB NZ); (RSP 0 NB NZ)]); (P1E 3 [(RSP 3 (SB 2 1) (SZ 3))])] [(ZZ 1 1); (ZZ 3 0)] [(ZOZ 3 (SZ 1))] false NZ [])); (RS 4 (IPropose 4) [] (mkO (SB 2 1) NB NZ 0 [] [] [] [] true (SZ 3) [(ZOZ 0 (SZ 3))]))]).
Definition case_18 : Z * list rec_step := (5, [(RS 0 (IPropose 3) [(OPrepare 1 1 0); (OPrepare 2 1 0); (OPrepare 3 1 0); (OPrepare 4 1 0)] (mkO (SB 1 0) NB NZ 1 [(ZZ 1 0)] [(P1E 1 [(RSP 0 NB NZ)])] [(ZZ 1 0)] [(ZOZ 1 (SZ 3))] false NZ [])); (RS 1 (IPrepare 0 1 0) [(OPromise 0 1 0 1 NB NZ)] (mkO (SB 1 0) NB NZ 0 [] [] [] [] false NZ [])); (RS 3 (IPrepare 0 1 0) [(OPromise 0 1 0 3 NB NZ)] (mkO (SB 1 0) NB NZ 0 [] [] [] [] false NZ [])); (RS 0 (IPromise 1 3 NB NZ) [] (mkO (SB 1 0) NB NZ 1 [(ZZ 1 0)] [(P1E 1 [(RSP 0 NB NZ); (RSP 3 NB NZ)])] [(ZZ 1 0)] [(ZOZ 1 (SZ 3))] false NZ [])); (RS 2 (IPrepare 0 1 0) [(OPromise 0 1 0 2 NB NZ)] (mkO (SB 1 0) NB NZ 0 [] [] [] [] false NZ [])); (RS 4 (IPrepare 0 1 0) [(OPromise 0 1 0 4 NB NZ)] (mkO (SB 1 0) NB NZ 0 [] [] [] [] false NZ [])); (RS 0 (IPromise 1 1 NB NZ) [(OAccept 1 1 0 (SZ 3)); (OAccept 2 1 0 (SZ 3)); (OAccept 3 1 0 (SZ 3)); (OAccept 4 1 0 (SZ 3))] (mkO (SB 1 0) (SB 1 0) (SZ 3) 1 [(ZZ 1 0)] [(P1E 1 [(RSP 0 NB NZ); (RSP 3 NB NZ); (RSP 1 NB NZ)])] [(ZZ 1 1)] [(ZOZ 1 (SZ 3))] false NZ [])); (RS 0 (IPromise 1 4 NB NZ) [] (mkO (SB 1 0) (SB 1 0) (SZ 3) 1 [(ZZ 1 0)] [(P1E 1 [(RSP 0 NB NZ); (RSP 3 NB NZ); (RSP 1 NB NZ); (RSP 4 NB NZ)])] [(ZZ 1 1)] [(ZOZ 1 (SZ 3))] false NZ [])); (RS 0 (IPromise 1 2 NB NZ) [] (mkO (SB 1 0) (SB 1 0) (SZ 3) 1 [(ZZ 1 0)] [(P1E 1 [(RSP 0 NB NZ); (RSP 3 NB NZ); (RSP 1 NB NZ); (RSP 4 NB NZ); (RSP 2 NB NZ)])] [(ZZ 1 1)] [(ZOZ 1 (SZ 3))] false NZ [])); (RS 1 (IAccept 0 1 0 (SZ 3)) [(OAccepted 0 1 0 1)] (mkO (SB 1 0) (SB 1 0) (SZ 3) 0 [] [] [] [] false NZ [])); (RS 2 (IAccept 0 1 0 (SZ 3)) [(OAccepted 0 1 0 2)] (mkO (SB 1 0) (SB 1 0) (SZ 3) 0 [] [] [] [] false NZ [])); (RS 3 (IAccept 0 1 0 (SZ 3)) [(OAccepted 0 1 0 3)] (mkO (SB 1 0) (SB 1 0) (SZ 3) 0 [] [] [] [] false NZ [])); (RS 4 (IAccept 0 1 0 (SZ 3)) [(OAccepted 0 1 0 4)] (mkO (SB 1 0) (SB 1 0) (SZ 3) 0 [] [] [] [] false NZ [])); (RS 0 (IAccepted 1) [] (mkO (SB 1 0) (SB 1 0) (SZ 3) 1 [(ZZ 1 0)] [(P1E 1 [(RSP 0 NB NZ); (RSP 3 NB NZ); (RSP 1 NB NZ); (RSP 4 NB NZ); (RSP 2 NB NZ)])] [(ZZ 1 2)] [(ZOZ 1 (SZ 3))] false NZ [])); (RS 0 (IAccepted 1) [(ODecided 1 (SZ 3)); (ODecided 2 (SZ 3)); (ODecided 3 (SZ 3)); (ODecided 4 (SZ 3))] (mkO (SB 1 0) (SB 1 0) (SZ 3) 1 [(ZZ 1 0)] [(P1E 1 [(RSP 0 NB NZ); (RSP 3 NB NZ); (RSP 1 NB NZ); (RSP 4 NB NZ); (RSP 2 NB NZ)])] [(ZZ 1 3)] [(ZOZ 1 (SZ 3))] true (SZ 3) [(ZOZ 0 (SZ 3))])); (RS 0 (IAccepted 1) [] (mkO (SB 1 0) (SB 1 0) (SZ 3) 1 [(ZZ 1 0)] [(P1E 1 [(RSP 0 NB NZ); (RSP 3 NB NZ); (RSP 1 NB NZ); (RSP 4 NB NZ); (RSP 2 NB NZ)])] [(ZZ 1 4)] [(ZOZ 1 (SZ 3))] true (SZ 3) [(ZOZ 0 (SZ 3))])); (RS 0 (IAccepted 1) [] (mkO (SB 1 0) (SB 1 0) (SZ 3) 1 [(ZZ 1 0)] [(P1E 1 [(RSP 0 NB NZ); (RSP 3 NB NZ); (RSP 1 NB NZ); (RSP 4 NB NZ); (RSP 2 NB NZ)])] [(ZZ 1 5)] [(ZOZ 1 (SZ 3))] true (SZ 3) [(ZOZ 0 (SZ 3))])); (RS 2 (IDecided (SZ 3)) [] (mkO (SB 1 0) (SB 1 0) (SZ 3) 0 [] [] [] [] true (SZ 3) [])); (RS 4 (IDecided (SZ 3)) [] (mkO (SB 1 0) (SB 1 0) (SZ 3) 0 [] [] [] [] true (SZ 3) [])); (RS 1 (IDecided (SZ 3)) [] (mkO (SB 1 0) (SB 1 0) (SZ 3) 0 [] [] [] [] true (SZ 3) [])); (RS 3 (IDecided (SZ 3)) [] (mkO (SB 1 0) (SB 1 0) (SZ 3) 0 [] [] [] [] true (SZ 3) [])); (RS 3 (IPropose 1) [] (mkO (SB 1 0) (SB 1 0) (SZ 3) 0 [] [] [] [] true (SZ 3) [(ZOZ 0 (SZ 3))]))]).
Definition case_19 : Z * list rec_step := (5, [(RS 0 (IPropose 1) [(OPrepare 1 1 0); (OPrepare 2 1 0); (OPrepare 3 1 0); (OPrepare 4 1 0)] (mkO (SB 1 0) NB NZ 1 [(ZZ 1 0)] [(P1E 1 [(RSP 0 NB NZ)])] [(ZZ 1 0)] [(ZOZ 1 (SZ 1))] false NZ [])); (RS 2 (IPrepare 0 1 0) [(OPromise 0 1 0 2 NB NZ)] (mkO (SB 1 0) NB NZ 0 [] [] [] [] false NZ [])); (RS 1 (IPrepare 0 1 0) [(OPromise 0 1 0 1 NB NZ)] (mkO (SB 1 0) NB NZ 0 [] [] [] [] false NZ [])); (RS 4 (IPropose 2) [(OPrepare 0 1 4); (OPrepare 1 1 4); (OPrepare 2 1 4); (OPrepare 3 1 4)] (mkO (SB 1 4) NB NZ 1 [(ZZ 1 0)] [(P1E 1 [(RSP 4 NB NZ)])] [(ZZ 1 0)] [(ZOZ 1 (SZ 2))] false NZ [])); (RS 0 (IPrepare 4 1 4) [(OPromise 4 1 4 0 NB NZ)] (mkO (SB 1 4) NB NZ 1 [(ZZ 1 0)] [(P1E 1 [(RSP 0 NB NZ)])] [(ZZ 1 0)] [(ZOZ 1 (SZ 1))] false NZ [])); (RS 4 (IPromise 1 0 NB NZ) [] (mkO (SB 1 4) NB NZ 1 [(ZZ 1 0)] [(P1E 1 [(RSP 4 NB NZ); (RSP 0 NB NZ)])] [(ZZ 1 0)] [(ZOZ 1 (SZ 2))] false NZ [])); (RS 1 (IPrepare 4 1 4) [(OPromise 4 1 4 1 NB NZ)] (mkO (SB 1 4) NB NZ 0 [] [] [] [] false NZ [])); (RS 1 (IPropose 3) [(OPrepare 0 2 1); (OPrepare 2 2 1); (OPrepare 3 2 1); (OPrepare 4 2 1)] (mkO (SB 2 1) NB NZ 2 [(ZZ 2 0)] [(P1E 2 [(RSP 1 NB NZ)])] [(ZZ 2 0)] [(ZOZ 2 (SZ 3))] false NZ [])); (RS 4 (IPrepare 1 2 1) [(OPromise 1 2 1 4 NB NZ)] (mkO (SB 2 1) NB NZ 1 [(ZZ 1 0)] [(P1E 1 [(RSP 4 NB NZ); (RSP 0 NB NZ)])] [(ZZ 1 0)] [(ZOZ 1 (SZ 2))] false NZ [])); (RS 1 (IPromise 2 4 NB NZ) [] (mkO (SB 2 1) NB NZ 2 [(ZZ 2 0)] [(P1E 2 [(RSP 1 NB NZ); (RSP 4 NB NZ)])] [(ZZ 2 0)] [(ZOZ 2 (SZ 3))] false NZ []))]).
Definition case_20 : Z * list rec_step := (3, [(RS 1 (IPropose 1) [(OPrepare 0 1 1); (OPrepare 2 1 1)] (mkO (SB 1 1) NB NZ 1 [(ZZ 1 0)] [(P1E 1 [(RSP 1 NB NZ)])] [(ZZ 1 0)] [(ZOZ 1 (SZ 1))] false NZ [])); (RS 2 (IPrepare 1 1 1) [(OPromise 1 1 1 2 NB NZ)] (mkO (SB 1 1) NB NZ 0 [] [] [] [] false NZ [])); (RS 1 (IPromise 1 2 NB NZ) [(OAccept 0 1 1 (SZ 1)); (OAccept 2 1 1 (SZ 1))] (mkO (SB 1 1) (SB 1 1) (SZ 1) 1 [(ZZ 1 0)] [(P1E 1 [(RSP 1 NB NZ); (RSP 2 NB NZ)])] [(ZZ 1 1)] [(ZOZ 1 (SZ 1))] false NZ [])); (RS 0 (IPrepare 1 1 1) [(OPromise 1 1 1 0 NB NZ)] (mkO (SB 1 1) NB NZ 0 [] [] [] [] false NZ [])); (RS 0 (IAccept 1 1 1 (SZ 1)) [(OAccepted 1 1 1 0)] (mkO (SB 1 1) (SB 1 1) (SZ 1) 0 [] [] [] [] false NZ [])); (RS 2 (IAccept 1 1 1 (SZ 1)) [(OAccepted 1 1 1 2)] (mkO (SB 1 1) (SB 1 1) (SZ 1) 0 [] [] [] [] false NZ [])); (RS 1 (IPromise 1 0 NB NZ) [] (mkO (SB 1 1) (SB 1 1) (SZ 1) 1 [(ZZ 1 0)] [(P1E 1 [(RSP 1 NB NZ); (RSP 2 NB NZ); (RSP 0 NB NZ)])] [(ZZ 1 1)] [(ZOZ 1 (SZ 1))] false NZ [])); (RS 1 (IAccepted 1) [(ODecided 0 (SZ 1)); (ODecided 2 (SZ 1))] (mkO (SB 1 1) (SB 1 1) (SZ 1) 1 [(ZZ 1 0)] [(P1E 1 [(RSP 1 NB NZ); (RSP 2 NB NZ); (RSP 0 NB NZ)])] [(ZZ 1 2)] [(ZOZ 1 (SZ 1))] true (SZ 1) [(ZOZ 0 (SZ 1))])); (RS 1 (IAccepted 1) [] (mkO (SB 1 1) (SB 1 1) (SZ 1) 1 [(ZZ 1 0)] [(P1E 1 [(RSP 1 NB NZ); (RSP 2 NB NZ); (RSP 0 NB NZ)])] [(ZZ 1 3)] [(ZOZ 1 (SZ 1))] true (SZ 1) [(ZOZ 0 (SZ 1))])); (RS 0 (IDecided (SZ 1)) [] (mkO (SB 1 1) (SB 1 1) (SZ 1) 0 [] [] [] [] true (SZ 1) [])); (RS 2 (IDecided (SZ 1)) [] (mkO (SB 1 1) (SB 1 1) (SZ 1) 0 [] [] [] [] true (SZ 1) [])); (RS 2 (IPropose 2) [] (mkO (SB 1 1) (SB 1 1) (SZ 1) 0 [] [] [] [] true (SZ 1) [(ZOZ 0 (SZ 1))]))]).
Definition case_21 : Z * list rec_step := (5, [(RS 3 (IPropose 1) [(OPrepare 0 1 3); (OPrepare 1 1 3); (OPrepare 2 1 3); (OPrepare 4 1 3)] (mkO (SB 1 3) NB NZ 1 [(ZZ 1 0)] [(P1E 1 [(RSP 3 NB NZ)])] [(ZZ 1 0)] [(ZOZ 1 (SZ 1))] false NZ [])); (RS 2 (IPrepare 3 1 3) [(OPromise 3 1 3 2 NB NZ)] (mkO (SB 1 3) NB NZ 0 [] [] [] [] false NZ [])); (RS 4 (IPrepare 3 1 3) [(OPromise 3 1 3 4 NB NZ)] (mkO (SB 1 3) NB NZ 0 [] [] [] [] false NZ [])); (RS 1 (IPrepare 3 1 3) [(OPromise 3 1 3 1 NB NZ)] (mkO (SB 1 3) NB NZ 0 [] [] [] [] false NZ [])); (RS 3 (IPromise 1 4 NB NZ) [] (mkO (SB 1 3) NB NZ 1 [(ZZ 1 0)] [(P1E 1 [(RSP 3 NB NZ); (RSP 4 NB NZ)])] [(ZZ 1 0)] [(ZOZ 1 (SZ 1))] false NZ [])); (RS 3 (IPropose 1) [(OPrepare 0 2 3); (OPrepare 1 2 3); (OPrepare 2 2 3); (OPrepare 4 2 3)] (mkO (SB 2 3) NB NZ 2 [(ZZ 1 0); (ZZ 2 1)] [(P1E 1 [(RSP 3 NB NZ); (RSP 4 NB NZ)]); (P1E 2 [(RSP 3 NB NZ)])] [(ZZ 1 0); (ZZ 2 0)] [(ZOZ 1 (SZ 1)); (ZOZ 2 (SZ 1))] false NZ [])); (RS 3 (IPromise 1 2 NB NZ) [(OAccept 0 1 3 (SZ 1)); (OAccept 1 1 3 (SZ 1)); (OAccept 2 1 3 (SZ 1)); (OAccept 4 1 3 (SZ 1))] (mkO (SB 2 3) NB NZ 2 [(ZZ 1 0); (ZZ 2 1)] [(P1E 1 [(RSP 3 NB NZ); (RSP 4 NB NZ); (RSP 2 NB NZ)]); (P1E 2 [(RSP 3 NB NZ)])] [(ZZ 1 0); (ZZ 2 0)] [(ZOZ 1 (SZ 1)); (ZOZ 2 (SZ 1))] false NZ [])); (RS 3 (IPromise 1 1 NB NZ) [] (mkO (SB 2 3) NB NZ 2 [(ZZ 1 0); (ZZ 2 1)] [(P1E 1 [(RSP 3 NB NZ); (RSP 4 NB NZ); (RSP 2 NB NZ); (RSP 1 NB NZ)]); (P1E 2 [(RSP 3 NB NZ)])] [(ZZ 1 0); (ZZ 2 0)] [(ZOZ 1 (SZ 1)); (ZOZ 2 (SZ 1))] false NZ [])); (RS 0 (IPrepare 3 2 3) [(OPromise 3 2 3 0 NB NZ)] (mkO (SB 2 3) NB NZ 0 [] [] [] [] false NZ [])); (RS 1 (IPrepare 3 2 3) [(OPromise 3 2 3 1 NB NZ)] (mkO (SB 2 3) NB NZ 0 [] [] [] [] false NZ [])); (RS 4 (IPrepare 3 2 3) [(OPromise 3 2 3 4 NB NZ)] (mkO (SB 2 3) NB NZ 0 [] [] [] [] false NZ [])); (RS 3 (IPromise 2 0 NB NZ) [] (mkO (SB 2 3) NB NZ 2 [(ZZ 1 0); (ZZ 2 1)] [(P1E 1 [(RSP 3 NB NZ); (RSP 4 NB NZ); (RSP 2 NB NZ); (RSP 1 NB NZ)]); (P1E 2 [(RSP 3 NB NZ); (RSP 0 NB NZ)])] [(ZZ 1 0); (ZZ 2 0)] [(ZOZ 1 (SZ 1)); (ZOZ 2 (SZ 1))] false NZ [])); (RS 3 (IPromise 2 1 NB NZ) [(OAccept 0 2 3 (SZ 1)); (OAccept 1 2 3 (SZ 1)); (OAccept 2 2 3 (SZ 1)); (OAccept 4 2 3 (SZ 1))] (mkO (SB 2 3) (SB 2 3) (SZ 1) 2 [(ZZ 1 0); (ZZ 2 1)] [(P1E 1 [(RSP 3 NB NZ); (RSP 4 NB NZ); (RSP 2 NB NZ); (RSP 1 NB NZ)]); (P1E 2 [(RSP 3 NB NZ); (RSP 0 NB NZ); (RSP 1 NB NZ)])] [(ZZ 1 0); (ZZ 2 1)] [(ZOZ 1 (SZ 1)); (ZOZ 2 (SZ 1))] false NZ [])); (RS 3 (IPromise 2 4 NB NZ) [] (mkO (SB 2 3) (SB 2 3) (SZ 1) 2 [(ZZ 1 0); (ZZ 2 1)] [(P1E 1 [(RSP 3 NB NZ); (RSP 4 NB NZ); (RSP 2 NB NZ); (RSP 1 NB NZ)]); (P1E 2 [(RSP 3 NB NZ); (RSP 0 NB NZ); (RSP 1 NB NZ); (RSP 4 NB NZ)])] [(ZZ 1 0); (ZZ 2 1)] [(ZOZ 1 (SZ 1)); (ZOZ 2 (SZ 1))] false NZ [])); (RS 0 (IAccept 3 2 3 (SZ 1)) [(OAccepted 3 2 3 0)] (mkO (SB 2 3) (SB 2 3) (SZ 1) 0 [] [] [] [] false NZ [])); (RS 1 (IAccept 3 2 3 (SZ 1)) [(OAccepted 3 2 3 1)] (mkO (SB 2 3) (SB 2 3) (SZ 1) 0 [] [] [] [] false NZ [])); (RS 2 (IAccept 3 2 3 (SZ 1)) [(OAccepted 3 2 3 2)] (mkO (SB 2 3) (SB 2 3) (SZ 1) 0 [] [] [] [] false NZ [])); (RS 4 (IAccept 3 2 3 (SZ 1)) [(OAccepted 3 2 3 4)] (mkO (SB 2 3) (SB 2 3) (SZ 1) 0 [] [] [] [] false NZ [])); (RS 3 (IAccepted 2) [] (mkO (SB 2 3) (SB 2 3) (SZ 1) 2 [(ZZ 1 0); (ZZ 2 1)] [(P1E 1 [(RSP 3 NB NZ); (RSP 4 NB NZ); (RSP 2 NB NZ); (RSP 1 NB NZ)]); (P1E 2 [(RSP 3 NB NZ); (RSP 0 NB NZ); (RSP 1 NB NZ); (RSP 4 NB NZ)])] [(ZZ 1 0); (ZZ 2 2)] [(ZOZ 1 (SZ 1)); (ZOZ 2 (SZ 1))] false NZ [])); (RS 3 (IAccepted 2) [(ODecided 0 (SZ 1)); (ODecided 1 (SZ 1)); (ODecided 2 (SZ 1)); (ODecided 4 (SZ 1))] (mkO (SB 2 3) (SB 2 3) (SZ 1) 2 [(ZZ 1 0); (ZZ 2 1)] [(P1E 1 [(RSP 3 NB NZ); (RSP 4 NB NZ); (RSP 2 NB NZ); (RSP 1 NB NZ)]); (P1E 2 [(RSP 3 NB NZ); (RSP 0 NB NZ); (RSP 1 NB NZ); (RSP 4 NB NZ)])] [(ZZ 1 0); (ZZ 2 3)] [(ZOZ 1 (SZ 1)); (ZOZ 2 (SZ 1))] true (SZ 1) [(ZOZ 1 (SZ 1))])); (RS 3 (IAccepted 2) [] (mkO (SB 2 3) (SB 2 3) (SZ 1) 2 [(ZZ 1 0); (ZZ 2 1)] [(P1E 1 [(RSP 3 NB NZ); (RSP 4 NB NZ); (RSP 2 NB NZ); (RSP 1 NB NZ)]); (P1E 2 [(RSP 3 NB NZ); (RSP 0 NB NZ); (RSP 1 NB NZ); (RSP 4 NB NZ)])] [(ZZ 1 0); (ZZ 2 4)] [(ZOZ 1 (SZ 1)); (ZOZ 2 (SZ 1))] true (SZ 1) [(ZOZ 1 (SZ 1))])); (RS 3 (IAccepted 2) [] (mkO (SB 2 3) (SB 2 3) (SZ 1) 2 [(ZZ 1 0); (ZZ 2 1)] [(P1E 1 [(RSP 3 NB NZ); (RSP 4 NB NZ); (RSP 2 NB NZ); (RSP 1 NB NZ)]); (P1E 2 [(RSP 3 NB NZ); (RSP 0 NB NZ); (RSP 1 NB NZ); (RSP 4 NB NZ)])] [(ZZ 1 0); (ZZ 2 5)] [(ZOZ 1 (SZ 1)); (ZOZ 2 (SZ 1))] true (SZ 1) [(ZOZ 1 (SZ 1))])); (RS 1 (IDecided (SZ 1)) [] (mkO (SB 2 3) (SB 2 3) (SZ 1) 0 [] [] [] [] true (SZ 1) [])); (RS 4 (IDecided (SZ 1)) [] (mkO (SB 2 3) (SB 2 3) (SZ 1) 0 [] [] [] [] true (SZ 1) [])); (RS 2 (IDecided (SZ 1)) [] (mkO (SB 2 3) (SB 2 3) (SZ 1) 0 [] [] [] [] true (SZ 1) [])); (RS 0 (IPrepare 3 1 3) [(ONack 3 1 3 2 3)] (mkO (SB 2 3) (SB 2 3) (SZ 1) 0 [] [] [] [] false NZ [])); (RS 2 (IPrepare 3 2 3) [(OPromise 3 2 3 2 (SB 2 3) (SZ 1))] (mkO (SB 2 3) (SB 2 3) (SZ 1) 0 [] [] [] [] true (SZ 1) [])); (RS 0 (IAccept 3 1 3 (SZ 1)) [(ONack 3 1 3 2 3)] (mkO (SB 2 3) (SB 2 3) (SZ 1) 0 [] [] [] [] false NZ [])); (RS 1 (IAccept 3 1 3 (SZ 1)) [(ONack 3 1 3 2 3)] (mkO (SB 2 3) (SB 2 3) (SZ 1) 0 [] [] [] [] true (SZ 1) [])); (RS 2 (IAccept 3 1 3 (SZ 1)) [(ONack 3 1 3 2 3)] (mkO (SB 2 3) (SB 2 3) (SZ 1) 0 [] [] [] [] true (SZ 1) [])); (RS 4 (IAccept 3 1 3 (SZ 1)) [(ONack 3 1 3 2 3)] (mkO (SB 2 3) (SB 2 3) (SZ 1) 0 [] [] [] [] true (SZ 1) [])); (RS 3 (INack 1 2) [(ORetry 1)] (mkO (SB 2 3) (SB 2 3) (SZ 1) 2 [(ZZ 1 0); (ZZ 2 1)] [(P1E 1 [(RSP 3 NB NZ); (RSP 4 NB NZ); (RSP 2 NB NZ); (RSP 1 NB NZ)]); (P1E 2 [(RSP 3 NB NZ); (RSP 0 NB NZ); (RSP 1 NB NZ); (RSP 4 NB NZ)])] [(ZZ 1 0); (ZZ 2 5)] [(ZOZ 1 (SZ 1)); (ZOZ 2 (SZ 1))] true (SZ 1) [(ZOZ 1 (SZ 1))])); (RS 3 (INack 1 2) [(ORetry 1)] (mkO (SB 2 3) (SB 2 3) (SZ 1) 2 [(ZZ 1 0); (ZZ 2 1)] [(P1E 1 [(RSP 3 NB NZ); (RSP 4 NB NZ); (RSP 2 NB NZ); (RSP 1 NB NZ)]); (P1E 2 [(RSP 3 NB NZ); (RSP 0 NB NZ); (RSP 1 NB NZ); (RSP 4 NB NZ)])] [(ZZ 1 0); (ZZ 2 5)] [(ZOZ 1 (SZ 1)); (ZOZ 2 (SZ 1))] true (SZ 1) [(ZOZ 1 (SZ 1))])); (RS 3 (INack 1 2) [(ORetry 1)] (mkO (SB 2 3) (SB 2 3) (SZ 1) 2 [(ZZ 1 0); (ZZ 2 1)] [(P1E 1 [(RSP 3 NB NZ); (RSP 4 NB NZ); (RSP 2 NB NZ); (RSP 1 NB NZ)]); (P1E 2 [(RSP 3 NB NZ); (RSP 0 NB NZ); (RSP 1 NB NZ); (RSP 4 NB NZ)])] [(ZZ 1 0); (ZZ 2 5)] [(ZOZ 1 (SZ 1)); (ZOZ 2 (SZ 1))] true (SZ 1) [(ZOZ 1 (SZ 1))])); (RS 3 (INack 1 2) [(ORetry 1)] (mkO (SB 2 3) (SB 2 3) (SZ 1) 2 [(ZZ 1 0); (ZZ 2 1)] [(P1E 1 [(RSP 3 NB NZ); (RSP 4 NB NZ); (RSP 2 NB NZ); (RSP 1 NB NZ)]); (P1E 2 [(RSP 3 NB NZ); (RSP 0 NB NZ); (RSP 1 NB NZ); (RSP 4 NB NZ)])] [(ZZ 1 0); (ZZ 2 5)] [(ZOZ 1 (SZ 1)); (ZOZ 2 (SZ 1))] true (SZ 1) [(ZOZ 1 (SZ 1))])); (RS 0 (IDecided (SZ 1)) [] (mkO (SB 2 3) (SB 2 3) (SZ 1) 0 [] [] [] [] true (SZ 1) [])); (RS 3 (IRetry 1) [] (mkO (SB 2 3) (SB 2 3) (SZ 1) 2 [(ZZ 1 0); (ZZ 2 1)] [(P1E 1 [(RSP 3 NB NZ); (RSP 4 NB NZ); (RSP 2 NB NZ); (RSP 1 NB NZ)]); (P1E 2 [(RSP 3 NB NZ); (RSP 0 NB NZ); (RSP 1 NB NZ); (RSP 4 NB NZ)])] [(ZZ 1 0); (ZZ 2 5)] [(ZOZ 1 (SZ 1)); (ZOZ 2 (SZ 1))] true (SZ 1) [(ZOZ 1 (SZ 1))])); (RS 3 (IRetry 1) [] (mkO (SB 2 3) (SB 2 3) (SZ 1) 2 [(ZZ 1 0); (ZZ 2 1)] [(P1E 1 [(RSP 3 NB NZ); (RSP 4 NB NZ); (RSP 2 NB NZ); (RSP 1 NB NZ)]); (P1E 2 [(RSP 3 NB NZ); (RSP 0 NB NZ); (RSP 1 NB NZ); (RSP 4 NB NZ)])] [(ZZ 1 0); (ZZ 2 5)] [(ZOZ 1 (SZ 1)); (ZOZ 2 (SZ 1))] true (SZ 1) [(ZOZ 1 (SZ 1))])); (RS 3 (IRetry 1) [] (mkO (SB 2 3) (SB 2 3) (SZ 1) 2 [(ZZ 1 0); (ZZ 2 1)] [(P1E 1 [(RSP 3 NB NZ); (RSP 4 NB NZ); (RSP 2 NB NZ); (RSP 1 NB NZ)]); (P1E 2 [(RSP 3 NB NZ); (RSP 0 NB NZ); (RSP 1 NB NZ); (RSP 4 NB NZ)])] [(ZZ 1 0); (ZZ 2 5)] [(ZOZ 1 (SZ 1)); (ZOZ 2 (SZ 1))] true (SZ 1) [(ZOZ 1 (SZ 1))])); (RS 3 (IRetry 1) [] (mkO (SB 2 3) (SB 2 3) (SZ 1) 2 [(ZZ 1 0); (ZZ 2 1)] [(P1E 1 [(RSP 3 NB NZ); (RSP 4 NB NZ); (RSP 2 NB NZ); (RSP 1 NB NZ)]); (P1E 2 [(RSP 3 NB NZ); (RSP 0 NB NZ); (RSP 1 NB NZ); (RSP 4 NB NZ)])] [(ZZ 1 0); (ZZ 2 5)] [(ZOZ 1 (SZ 1)); (ZOZ 2 (SZ 1))] true (SZ 1) [(ZOZ 1 (SZ 1))])); (RS 3 (INack 1 2) [(ORetry 1)] (mkO (SB 2 3) (SB 2 3) (SZ 1) 2 [(ZZ 1 0); (ZZ 2 1)] [(P1E 1 [(RSP 3 NB NZ); (RSP 4 NB NZ); (RSP 2 NB NZ); (RSP 1 NB NZ)]); (P1E 2 [(RSP 3 NB NZ); (RSP 0 NB NZ); (RSP 1 NB NZ); (RSP 4 NB NZ)])] [(ZZ 1 0); (ZZ 2 5)] [(ZOZ 1 (SZ 1)); (ZOZ 2 (SZ 1))] true (SZ 1) [(ZOZ 1 (SZ 1))])); (RS 3 (IPromise 2 2 (SB 2 3) (SZ 1)) [] (mkO (SB 2 3) (SB 2 3) (SZ 1) 2 [(ZZ 1 0); (ZZ 2 1)] [(P1E 1 [(RSP 3 NB NZ); (RSP 4 NB NZ); (RSP 2 NB NZ); (RSP 1 NB NZ)]); (P1E 2 [(RSP 3 NB NZ); (RSP 0 NB NZ); (RSP 1 NB NZ); (RSP 4 NB NZ); (RSP 2 (SB 2 3) (SZ 1))])] [(ZZ 1 0); (ZZ 2 5)] [(ZOZ 1 (SZ 1)); (ZOZ 2 (SZ 1))] true (SZ 1) [(ZOZ 1 (SZ 1))])); (RS 3 (IRetry 1) [] (mkO (SB 2 3) (SB 2 3) (SZ 1) 2 [(ZZ 1 0); (ZZ 2 1)] [(P1E 1 [(RSP 3 NB NZ); (RSP 4 NB NZ); (RSP 2 NB NZ); (RSP 1 NB NZ)]); (P1E 2 [(RSP 3 NB NZ); (RSP 0 NB NZ); (RSP 1 NB NZ); (RSP 4 NB NZ); (RSP 2 (SB 2 3) (SZ 1))])] [(ZZ 1 0); (ZZ 2 5)] [(ZOZ 1 (SZ 1)); (ZOZ 2 (SZ 1))] true (SZ 1) [(ZOZ 1 (SZ 1))]))]).
Definition case_22 : Z * list rec_step := (5, [(RS 0 (IPropose 1) [(OPrepare 1 1 0); (OPrepare 2 1 0); (OPrepare 3 1 0); (OPrepare 4 1 0)] (mkO (SB 1 0) NB NZ 1 [(ZZ 1 0)] [(P1E 1 [(RSP 0 NB NZ)])] [(ZZ 1 0)] [(ZOZ 1 (SZ 1))] false NZ [])); (RS 4 (IPrepare 0 1 0) [(OPromise 0 1 0 4 NB NZ)] (mkO (SB 1 0) NB NZ 0 [] [] [] [] false NZ [])); (RS 2 (IPrepare 0 1 0) [(OPromise 0 1 0 2 NB NZ)] (mkO (SB 1 0) NB NZ 0 [] [] [] [] false NZ [])); (RS 2 (IPropose 2) [(OPrepare 0 2 2); (OPrepare 1 2 2); (OPrepare 3 2 2); (OPrepare 4 2 2)] (mkO (SB 2 2) NB NZ 2 [(ZZ 2 0)] [(P1E 2 [(RSP 2 NB NZ)])] [(ZZ 2 0)] [(ZOZ 2 (SZ 2))] false NZ [])); (RS 0 (IPromise 1 4 NB NZ) [] (mkO (SB 1 0) NB NZ 1 [(ZZ 1 0)] [(P1E 1 [(RSP 0 NB NZ); (RSP 4 NB NZ)])] [(ZZ 1 0)] [(ZOZ 1 (SZ 1))] false NZ [])); (RS 0 (IPromise 1 2 NB NZ) [(OAccept 1 1 0 (SZ 1)); (OAccept 2 1 0 (SZ 1)); (OAccept 3 1 0 (SZ 1)); (OAccept 4 1 0 (SZ 1))] (mkO (SB 1 0) (SB 1 0) (SZ 1) 1 [(ZZ 1 0)] [(P1E 1 [(RSP 0 NB NZ); (RSP 4 NB NZ); (RSP 2 NB NZ)])] [(ZZ 1 1)] [(ZOZ 1 (SZ 1))] false NZ [])); (RS 1 (IPrepare 2 2 2) [(OPromise 2 2 2 1 NB NZ)] (mkO (SB 2 2) NB NZ 0 [] [] [] [] false NZ [])); (RS 3 (IPrepare 2 2 2) [(OPromise 2 2 2 3 NB NZ)] (mkO (SB 2 2) NB NZ 0 [] [] [] [] false NZ [])); (RS 2 (IAccept 0 1 0 (SZ 1)) [(ONack 0 1 0 2 2)] (mkO (SB 2 2) NB NZ 2 [(ZZ 2 0)] [(P1E 2 [(RSP 2 NB NZ)])] [(ZZ 2 0)] [(ZOZ 2 (SZ 2))] false NZ [])); (RS 4 (IAccept 0 1 0 (SZ 1)) [(OAccepted 0 1 0 4)] (mkO (SB 1 0) (SB 1 0) (SZ 1) 0 [] [] [] [] false NZ [])); (RS 3 (IPropose 3) [(OPrepare 0 3 3); (OPrepare 1 3 3); (OPrepare 2 3 3); (OPrepare 4 3 3)] (mkO (SB 3 3) NB NZ 3 [(ZZ 3 0)] [(P1E 3 [(RSP 3 NB NZ)])] [(ZZ 3 0)] [(ZOZ 3 (SZ 3))] false NZ [])); (RS 4 (IPrepare 3 3 3) [(OPromise 3 3 3 4 (SB 1 0) (SZ 1))] (mkO (SB 3 3) (SB 1 0) (SZ 1) 0 [] [] [] [] false NZ [])); (RS 3 (IPromise 3 4 (SB 1 0) (SZ 1)) [] (mkO (SB 3 3) NB NZ 3 [(ZZ 3 0)] [(P1E 3 [(RSP 3 NB NZ); (RSP 4 (SB 1 0) (SZ 1))])] [(ZZ 3 0)] [(ZOZ 3 (SZ 3))] false NZ [])); (RS 0 (IPrepare 3 3 3) [(OPromise 3 3 3 0 (SB 1 0) (SZ 1))] (mkO (SB 3 3) (SB 1 0) (SZ 1) 1 [(ZZ 1 0)] [(P1E 1 [(RSP 0 NB NZ); (RSP 4 NB NZ); (RSP 2 NB NZ)])] [(ZZ 1 1)] [(ZOZ 1 (SZ 1))] false NZ [])); (RS 3 (IPromise 3 0 (SB 1 0) (SZ 1)) [(OAccept 0 3 3 (SZ 1)); (OAccept 1 3 3 (SZ 1)); (OAccept 2 3 3 (SZ 1)); (OAccept 4 3 3 (SZ 1))] (mkO (SB 3 3) (SB 3 3) (SZ 1) 3 [(ZZ 3 0)] [(P1E 3 [(RSP 3 NB NZ); (RSP 4 (SB 1 0) (SZ 1)); (RSP 0 (SB 1 0) (SZ 1))])] [(ZZ 3 1)] [(ZOZ 3 (SZ 1))] false NZ [])); (RS 2 (IAccept 3 3 3 (SZ 1)) [(OAccepted 3 3 3 2)] (mkO (SB 3 3) (SB 3 3) (SZ 1) 2 [(ZZ 2 0)] [(P1E 2 [(RSP 2 NB NZ)])] [(ZZ 2 0)] [(ZOZ 2 (SZ 2))] false NZ [])); (RS 4 (IAccept 3 3 3 (SZ 1)) [(OAccepted 3 3 3 4)] (mkO (SB 3 3) (SB 3 3) (SZ 1) 0 [] [] [] [] false NZ [])); (RS 3 (IAccepted 3) [] (mkO (SB 3 3) (SB 3 3) (SZ 1) 3 [(ZZ 3 0)] [(P1E 3 [(RSP 3 NB NZ); (RSP 4 (SB 1 0) (SZ 1)); (RSP 0 (SB 1 0) (SZ 1))])] [(ZZ 3 2)] [(ZOZ 3 (SZ 1))] false NZ []))]).
Definition case_23 : Z * list rec_step := (3, [(RS 1 (IPropose 1) [(OPrepare 0 1 1); (OPrepare 2 1 1)] (mkO (SB 1 1) NB NZ 1 [(ZZ 1 0)] [(P1E 1 [(RSP 1 NB NZ)])] [(ZZ 1 0)] [(ZOZ 1 (SZ 1))] false NZ [])); (RS 0 (IPrepare 1 1 1) [(OPromise 1 1 1 0 NB NZ)] (mkO (SB 1 1) NB NZ 0 [] [] [] [] false NZ [])); (RS 1 (IPromise 1 0 NB NZ) [(OAccept 0 1 1 (SZ 1)); (OAccept 2 1 1 (SZ 1))] (mkO (SB 1 1) (SB 1 1) (SZ 1) 1 [(ZZ 1 0)] [(P1E 1 [(RSP 1 NB NZ); (RSP 0 NB NZ)])] [(ZZ 1 1)] [(ZOZ 1 (SZ 1))] false NZ [])); (RS 2 (IPropose 2) [(OPrepare 0 1 2); (OPrepare 1 1 2)] (mkO (SB 1 2) NB NZ 1 [(ZZ 1 0)] [(P1E 1 [(RSP 2 NB NZ)])] [(ZZ 1 0)] [(ZOZ 1 (SZ 2))] false NZ [])); (RS 0 (IPrepare 2 1 2) [(OPromise 2 1 2 0 NB NZ)] (mkO (SB 1 2) NB NZ 0 [] [] [] [] false NZ [])); (RS 2 (IPromise 1 0 NB NZ) [(OAccept 0 1 2 (SZ 2)); (OAccept 1 1 2 (SZ 2))] (mkO (SB 1 2) (SB 1 2) (SZ 2) 1 [(ZZ 1 0)] [(P1E 1 [(RSP 2 NB NZ); (RSP 0 NB NZ)])] [(ZZ 1 1)] [(ZOZ 1 (SZ 2))] false NZ [])); (RS 1 (IAccept 2 1 2 (SZ 2)) [(OAccepted 2 1 2 1)] (mkO (SB 1 2) (SB 1 2) (SZ 2) 1 [(ZZ 1 0)] [(P1E 1 [(RSP 1 NB NZ); (RSP 0 NB NZ)])] [(ZZ 1 1)] [(ZOZ 1 (SZ 1))] false NZ [])); (RS 0 (IAccept 2 1 2 (SZ 2)) [(OAccepted 2 1 2 0)] (mkO (SB 1 2) (SB 1 2) (SZ 2) 0 [] [] [] [] false NZ [])); (RS 2 (IAccepted 1) [(ODecided 0 (SZ 2)); (ODecided 1 (SZ 2))] (mkO (SB 1 2) (SB 1 2) (SZ 2) 1 [(ZZ 1 0)] [(P1E 1 [(RSP 2 NB NZ); (RSP 0 NB NZ)])] [(ZZ 1 2)] [(ZOZ 1 (SZ 2))] true (SZ 2) [(ZOZ 0 (SZ 2))])); (RS 2 (IAccepted 1) [] (mkO (SB 1 2) (SB 1 2) (SZ 2) 1 [(ZZ 1 0)] [(P1E 1 [(RSP 2 NB NZ); (RSP 0 NB NZ)])] [(ZZ 1 3)] [(ZOZ 1 (SZ 2))] true (SZ 2) [(ZOZ 0 (SZ 2))])); (RS 0 (IDecided (SZ 2)) [] (mkO (SB 1 2) (SB 1 2) (SZ 2) 0 [] [] [] [] true (SZ 2) [])); (RS 1 (IDecided (SZ 2)) [] (mkO (SB 1 2) (SB 1 2) (SZ 2) 1 [(ZZ 1 0)] [(P1E 1 [(RSP 1 NB NZ); (RSP 0 NB NZ)])] [(ZZ 1 1)] [(ZOZ 1 (SZ 1))] true (SZ 2) [])); (RS 1 (IPropose 3) [] (mkO (SB 1 2) (SB 1 2) (SZ 2) 1 [(ZZ 1 0)] [(P1E 1 [(RSP 1 NB NZ); (RSP 0 NB NZ)])] [(ZZ 1 1)] [(ZOZ 1 (SZ 1))] true (SZ 2) [(ZOZ 1 (SZ 2))]))]).
Definition case_24 : Z * list rec_step := (3, [(RS 0 (IPropose 3) [(OPrepare 1 1 0); (OPrepare 2 1 0)] (mkO (SB 1 0) NB NZ 1 [(ZZ 1 0)] [(P1E 1 [(RSP 0 NB NZ)])] [(ZZ 1 0)] [(ZOZ 1 (SZ 3))] false NZ [])); (RS 2 (IPrepare 0 1 0) [(OPromise 0 1 0 2 NB NZ)] (mkO (SB 1 0) NB NZ 0 [] [] [] [] false NZ [])); (RS 0 (IPromise 1 2 NB NZ) [(OAccept 1 1 0 (SZ 3)); (OAccept 2 1 0 (SZ 3))] (mkO (SB 1 0) (SB 1 0) (SZ 3) 1 [(ZZ 1 0)] [(P1E 1 [(RSP 0 NB NZ); (RSP 2 NB NZ)])] [(ZZ 1 1)] [(ZOZ 1 (SZ 3))] false NZ [])); (RS 1 (IPropose 2) [(OPrepare 0 1 1); (OPrepare 2 1 1)] (mkO (SB 1 1) NB NZ 1 [(ZZ 1 0)] [(P1E 1 [(RSP 1 NB NZ)])] [(ZZ 1 0)] [(ZOZ 1 (SZ 2))] false NZ [])); (RS 2 (IPrepare 1 1 1) [(OPromise 1 1 1 2 NB NZ)] (mkO (SB 1 1) NB NZ 0 [] [] [] [] false NZ [])); (RS 1 (IPromise 1 2 NB NZ) [(OAccept 0 1 1 (SZ 2)); (OAccept 2 1 1 (SZ 2))] (mkO (SB 1 1) (SB 1 1) (SZ 2) 1 [(ZZ 1 0)] [(P1E 1 [(RSP 1 NB NZ); (RSP 2 NB NZ)])] [(ZZ 1 1)] [(ZOZ 1 (SZ 2))] false NZ [])); (RS 0 (IAccept 1 1 1 (SZ 2)) [(OAccepted 1 1 1 0)] (mkO (SB 1 1) (SB 1 1) (SZ 2) 1 [(ZZ 1 0)] [(P1E 1 [(RSP 0 NB NZ); (RSP 2 NB NZ)])] [(ZZ 1 1)] [(ZOZ 1 (SZ 3))] false NZ [])); (RS 1 (IAccepted 1) [(ODecided 0 (SZ 2)); (ODecided 2 (SZ 2))] (mkO (SB 1 1) (SB 1 1) (SZ 2) 1 [(ZZ 1 0)] [(P1E 1 [(RSP 1 NB NZ); (RSP 2 NB NZ)])] [(ZZ 1 2)] [(ZOZ 1 (SZ 2))] true (SZ 2) [(ZOZ 0 (SZ 2))])); (RS 2 (IAccept 1 1 1 (SZ 2)) [(OAccepted 1 1 1 2)] (mkO (SB 1 1) (SB 1 1) (SZ 2) 0 [] [] [] [] false NZ [])); (RS 2 (IDecided (SZ 2)) [] (mkO (SB 1 1) (SB 1 1) (SZ 2) 0 [] [] [] [] true (SZ 2) [])); (RS 1 (IAccepted 1) [] (mkO (SB 1 1) (SB 1 1) (SZ 2) 1 [(ZZ 1 0)] [(P1E 1 [(RSP 1 NB NZ); (RSP 2 NB NZ)])] [(ZZ 1 3)] [(ZOZ 1 (SZ 2))] true (SZ 2) [(ZOZ 0 (SZ 2))])); (RS 0 (IPropose 1) [(OPrepare 1 2 0); (OPrepare 2 2 0)] (mkO (SB 2 0) (SB 1 1) (SZ 2) 2 [(ZZ 1 0); (ZZ 2 1)] [(P1E 1 [(RSP 0 NB NZ); (RSP 2 NB NZ)]); (P1E 2 [(RSP 0 (SB 1 1) (SZ 2))])] [(ZZ 1 1); (ZZ 2 0)] [(ZOZ 1 (SZ 3)); (ZOZ 2 (SZ 1))] false NZ [])); (RS 1 (IPrepare 0 2 0) [(OPromise 0 2 0 1 (SB 1 1) (SZ 2))] (mkO (SB 2 0) (SB 1 1) (SZ 2) 1 [(ZZ 1 0)] [(P1E 1 [(RSP 1 NB NZ); (RSP 2 NB NZ)])] [(ZZ 1 3)] [(ZOZ 1 (SZ 2))] true (SZ 2) [(ZOZ 0 (SZ 2))])); (RS 0 (IPromise 2 1 (SB 1 1) (SZ 2)) [(OAccept 1 2 0 (SZ 2)); (OAccept 2 2 0 (SZ 2))] (mkO (SB 2 0) (SB 2 0) (SZ 2) 2 [(ZZ 1 0); (ZZ 2 1)] [(P1E 1 [(RSP 0 NB NZ); (RSP 2 NB NZ)]); (P1E 2 [(RSP 0 (SB 1 1) (SZ 2)); (RSP 1 (SB 1 1) (SZ 2))])] [(ZZ 1 1); (ZZ 2 1)] [(ZOZ 1 (SZ 3)); (ZOZ 2 (SZ 2))] false NZ [])); (RS 2 (IPrepare 0 2 0) [(OPromise 0 2 0 2 (SB 1 1) (SZ 2))] (mkO (SB 2 0) (SB 1 1) (SZ 2) 0 [] [] [] [] true (SZ 2) [])); (RS 1 (IAccept 0 2 0 (SZ 2)) [(OAccepted 0 2 0 1)] (mkO (SB 2 0) (SB 2 0) (SZ 2) 1 [(ZZ 1 0)] [(P1E 1 [(RSP 1 NB NZ); (RSP 2 NB NZ)])] [(ZZ 1 3)] [(ZOZ 1 (SZ 2))] true (SZ 2) [(ZOZ 0 (SZ 2))])); (RS 0 (IPromise 2 2 (SB 1 1) (SZ 2)) [] (mkO (SB 2 0) (SB 2 0) (SZ 2) 2 [(ZZ 1 0); (ZZ 2 1)] [(P1E 1 [(RSP 0 NB NZ); (RSP 2 NB NZ)]); (P1E 2 [(RSP 0 (SB 1 1) (SZ 2)); (RSP 1 (SB 1 1) (SZ 2)); (RSP 2 (SB 1 1) (SZ 2))])] [(ZZ 1 1); (ZZ 2 1)] [(ZOZ 1 (SZ 3)); (ZOZ 2 (SZ 2))] false NZ [])); (RS 2 (IAccept 0 2 0 (SZ 2)) [(OAccepted 0 2 0 2)] (mkO (SB 2 0) (SB 2 0) (SZ 2) 0 [] [] [] [] true (SZ 2) [])); (RS 0 (IAccepted 2) [(ODecided 1 (SZ 2)); (ODecided 2 (SZ 2))] (mkO (SB 2 0) (SB 2 0) (SZ 2) 2 [(ZZ 1 0); (ZZ 2 1)] [(P1E 1 [(RSP 0 NB NZ); (RSP 2 NB NZ)]); (P1E 2 [(RSP 0 (SB 1 1) (SZ 2)); (RSP 1 (SB 1 1) (SZ 2)); (RSP 2 (SB 1 1) (SZ 2))])] [(ZZ 1 1); (ZZ 2 2)] [(ZOZ 1 (SZ 3)); (ZOZ 2 (SZ 2))] true (SZ 2) [(ZOZ 1 (SZ 2))])); (RS 2 (IDecided (SZ 2)) [] (mkO (SB 2 0) (SB 2 0) (SZ 2) 0 [] [] [] [] true (SZ 2) [])); (RS 0 (IAccepted 2) [] (mkO (SB 2 0) (SB 2 0) (SZ 2) 2 [(ZZ 1 0); (ZZ 2 1)] [(P1E 1 [(RSP 0 NB NZ); (RSP 2 NB NZ)]); (P1E 2 [(RSP 0 (SB 1 1) (SZ 2)); (RSP 1 (SB 1 1) (SZ 2)); (RSP 2 (SB 1 1) (SZ 2))])] [(ZZ 1 1); (ZZ 2 3)] [(ZOZ 1 (SZ 3)); (ZOZ 2 (SZ 2))] true (SZ 2) [(ZOZ 1 (SZ 2))])); (RS 1 (IDecided (SZ 2)) [] (mkO (SB 2 0) (SB 2 0) (SZ 2) 1 [(ZZ 1 0)] [(P1E 1 [(RSP 1 NB NZ); (RSP 2 NB NZ)])] [(ZZ 1 3)] [(ZOZ 1 (SZ 2))] true (SZ 2) [(ZOZ 0 (SZ 2))]))]).
Definition case_25 : Z * list rec_step := (3, [(RS 0 (IPropose 3) [(OPrepare 1 1 0); (OPrepare 2 1 0)] (mkO (SB 1 0) NB NZ 1 [(ZZ 1 0)] [(P1E 1 [(RSP 0 NB NZ)])] [(ZZ 1 0)] [(ZOZ 1 (SZ 3))] false NZ [])); (RS 2 (IPrepare 0 1 0) [(OPromise 0 1 0 2 NB NZ)] (mkO (SB 1 0) NB NZ 0 [] [] [] [] false NZ [])); (RS 0 (IPromise 1 2 NB NZ) [(OAccept 1 1 0 (SZ 3)); (OAccept 2 1 0 (SZ 3))] (mkO (SB 1 0) (SB 1 0) (SZ 3) 1 [(ZZ 1 0)] [(P1E 1 [(RSP 0 NB NZ); (RSP 2 NB NZ)])] [(ZZ 1 1)] [(ZOZ 1 (SZ 3))] false NZ [])); (RS 1 (IAccept 0 1 0 (SZ 3)) [(OAccepted 0 1 0 1)] (mkO (SB 1 0) (SB 1 0) (SZ 3) 0 [] [] [] [] false NZ [])); (RS 2 (IAccept 0 1 0 (SZ 3)) [(OAccepted 0 1 0 2)] (mkO (SB 1 0) (SB 1 0) (SZ 3) 0 [] [] [] [] false NZ [])); (RS 0 (IAccepted 1) [(ODecided 1 (SZ 3)); (ODecided 2 (SZ 3))] (mkO (SB 1 0) (SB 1 0) (SZ 3) 1 [(ZZ 1 0)] [(P1E 1 [(RSP 0 NB NZ); (RSP 2 NB NZ)])] [(ZZ 1 2)] [(ZOZ 1 (SZ 3))] true (SZ 3) [(ZOZ 0 (SZ 3))])); (RS 2 (IDecided (SZ 3)) [] (mkO (SB 1 0) (SB 1 0) (SZ 3) 0 [] [] [] [] true (SZ 3) [])); (RS 1 (IPrepare 0 1 0) [(OPromise 0 1 0 1 (SB 1 0) (SZ 3))] (mkO (SB 1 0) (SB 1 0) (SZ 3) 0 [] [] [] [] false NZ [])); (RS 0 (IAccepted 1) [] (mkO (SB 1 0) (SB 1 0) (SZ 3) 1 [(ZZ 1 0)] [(P1E 1 [(RSP 0 NB NZ); (RSP 2 NB NZ)])] [(ZZ 1 3)] [(ZOZ 1 (SZ 3))] true (SZ 3) [(ZOZ 0 (SZ 3))])); (RS 1 (IDecided (SZ 3)) [] (mkO (SB 1 0) (SB 1 0) (SZ 3) 0 [] [] [] [] true (SZ 3) [])); (RS 0 (IPromise 1 1 (SB 1 0) (SZ 3)) [] (mkO (SB 1 0) (SB 1 0) (SZ 3) 1 [(ZZ 1 0)] [(P1E 1 [(RSP 0 NB NZ); (RSP 2 NB NZ); (RSP 1 (SB 1 0) (SZ 3))])] [(ZZ 1 3)] [(ZOZ 1 (SZ 3))] true (SZ 3) [(ZOZ 0 (SZ 3))]))]).
Definition case_26 : Z * list rec_step := (3, [(RS 2 (IPropose 1) [(OPrepare 0 1 2); (OPrepare 1 1 2)] (mkO (SB 1 2) NB NZ 1 [(ZZ 1 0)] [(P1E 1 [(RSP 2 NB NZ)])] [(ZZ 1 0)] [(ZOZ 1 (SZ 1))] false NZ [])); (RS 1 (IPropose 3) [(OPrepare 0 1 1); (OPrepare 2 1 1)] (mkO (SB 1 1) NB NZ 1 [(ZZ 1 0)] [(P1E 1 [(RSP 1 NB NZ)])] [(ZZ 1 0)] [(ZOZ 1 (SZ 3))] false NZ [])); (RS 0 (IPrepare 2 1 2) [(OPromise 2 1 2 0 NB NZ)] (mkO (SB 1 2) NB NZ 0 [] [] [] [] false NZ [])); (RS 1 (IPrepare 2 1 2) [(OPromise 2 1 2 1 NB NZ)] (mkO (SB 1 2) NB NZ 1 [(ZZ 1 0)] [(P1E 1 [(RSP 1 NB NZ)])] [(ZZ 1 0)] [(ZOZ 1 (SZ 3))] false NZ [])); (RS 0 (IPrepare 1 1 1) [(ONack 1 1 1 1 2)] (mkO (SB 1 2) NB NZ 0 [] [] [] [] false NZ [])); (RS 2 (IPrepare 1 1 1) [(ONack 1 1 1 1 2)] (mkO (SB 1 2) NB NZ 1 [(ZZ 1 0)] [(P1E 1 [(RSP 2 NB NZ)])] [(ZZ 1 0)] [(ZOZ 1 (SZ 1))] false NZ [])); (RS 2 (IPromise 1 0 NB NZ) [(OAccept 0 1 2 (SZ 1)); (OAccept 1 1 2 (SZ 1))] (mkO (SB 1 2) (SB 1 2) (SZ 1) 1 [(ZZ 1 0)] [(P1E 1 [(RSP 2 NB NZ); (RSP 0 NB NZ)])] [(ZZ 1 1)] [(ZOZ 1 (SZ 1))] false NZ [])); (RS 2 (IPromise 1 1 NB NZ) [] (mkO (SB 1 2) (SB 1 2) (SZ 1) 1 [(ZZ 1 0)] [(P1E 1 [(RSP 2 NB NZ); (RSP 0 NB NZ); (RSP 1 NB NZ)])] [(ZZ 1 1)] [(ZOZ 1 (SZ 1))] false NZ [])); (RS 1 (INack 1 1) [(ORetry 1)] (mkO (SB 1 2) NB NZ 1 [(ZZ 1 0)] [(P1E 1 [(RSP 1 NB NZ)])] [(ZZ 1 0)] [(ZOZ 1 (SZ 3))] false NZ [])); (RS 1 (INack 1 1) [(ORetry 1)] (mkO (SB 1 2) NB NZ 1 [(ZZ 1 0)] [(P1E 1 [(RSP 1 NB NZ)])] [(ZZ 1 0)] [(ZOZ 1 (SZ 3))] false NZ [])); (RS 0 (IAccept 2 1 2 (SZ 1)) [(OAccepted 2 1 2 0)] (mkO (SB 1 2) (SB 1 2) (SZ 1) 0 [] [] [] [] false NZ [])); (RS 1 (IAccept 2 1 2 (SZ 1)) [(OAccepted 2 1 2 1)] (mkO (SB 1 2) (SB 1 2) (SZ 1) 1 [(ZZ 1 0)] [(P1E 1 [(RSP 1 NB NZ)])] [(ZZ 1 0)] [(ZOZ 1 (SZ 3))] false NZ [])); (RS 2 (IAccepted 1) [(ODecided 0 (SZ 1)); (ODecided 1 (SZ 1))] (mkO (SB 1 2) (SB 1 2) (SZ 1) 1 [(ZZ 1 0)] [(P1E 1 [(RSP 2 NB NZ); (RSP 0 NB NZ); (RSP 1 NB NZ)])] [(ZZ 1 2)] [(ZOZ 1 (SZ 1))] true (SZ 1) [(ZOZ 0 (SZ 1))])); (RS 2 (IAccepted 1) [] (mkO (SB 1 2) (SB 1 2) (SZ 1) 1 [(ZZ 1 0)] [(P1E 1 [(RSP 2 NB NZ); (RSP 0 NB NZ); (RSP 1 NB NZ)])] [(ZZ 1 3)] [(ZOZ 1 (SZ 1))] true (SZ 1) [(ZOZ 0 (SZ 1))])); (RS 0 (IDecided (SZ 1)) [] (mkO (SB 1 2) (SB 1 2) (SZ 1) 0 [] [] [] [] true (SZ 1) [])); (RS 1 (IDecided (SZ 1)) [] (mkO (SB 1 2) (SB 1 2) (SZ 1) 1 [(ZZ 1 0)] [(P1E 1 [(RSP 1 NB NZ)])] [(ZZ 1 0)] [(ZOZ 1 (SZ 3))] true (SZ 1) [])); (RS 1 (IRetry 1) [] (mkO (SB 1 2) (SB 1 2) (SZ 1) 1 [(ZZ 1 0)] [(P1E 1 [(RSP 1 NB NZ)])] [(ZZ 1 0)] [(ZOZ 1 (SZ 3))] true (SZ 1) [])); (RS 1 (IRetry 1) [] (mkO (SB 1 2) (SB 1 2) (SZ 1) 1 [(ZZ 1 0)] [(P1E 1 [(RSP 1 NB NZ)])] [(ZZ 1 0)] [(ZOZ 1 (SZ 3))] true (SZ 1) [])); (RS 1 (IPropose 1) [] (mkO (SB 1 2) (SB 1 2) (SZ 1) 1 [(ZZ 1 0)] [(P1E 1 [(RSP 1 NB NZ)])] [(ZZ 1 0)] [(ZOZ 1 (SZ 3))] true (SZ 1) [(ZOZ 1 (SZ 1))])); (RS 2 (IPropose 2) [] (mkO (SB 1 2) (SB 1 2) (SZ 1) 1 [(ZZ 1 0)] [(P1E 1 [(RSP 2 NB NZ); (RSP 0 NB NZ); (RSP 1 NB NZ)])] [(ZZ 1 3)] [(ZOZ 1 (SZ 1))] true (SZ 1) [(ZOZ 0 (SZ 1)); (ZOZ 1 (SZ 1))]))]).
Definition case_27 : Z * list rec_step := (5, [(RS 4 (IPropose 2) [(OPrepare 0 1 4); (OPrepare 1 1 4); (OPrepare 2 1 4); (OPrepare 3 1 4)] (mkO (SB 1 4) NB NZ 1 [(ZZ 1 0)] [(P1E 1 [(RSP 4 NB NZ)])] [(ZZ 1 0)] [(ZOZ 1 (SZ 2))] false NZ [])); (RS 1 (IPrepare 4 1 4) [(OPromise 4 1 4 1 NB NZ)] (mkO (SB 1 4) NB NZ 0 [] [] [] [] false NZ [])); (RS 3 (IPrepare 4 1 4) [(OPromise 4 1 4 3 NB NZ)] (mkO (SB 1 4) NB NZ 0 [] [] [] [] false NZ [])); (RS 4 (IPromise 1 3 NB NZ) [] (mkO (SB 1 4) NB NZ 1 [(ZZ 1 0)] [(P1E 1 [(RSP 4 NB NZ); (RSP 3 NB NZ)])] [(ZZ 1 0)] [(ZOZ 1 (SZ 2))] false NZ [])); (RS 1 (IPropose 1) [(OPrepare 0 2 1); (OPrepare 2 2 1); (OPrepare 3 2 1); (OPrepare 4 2 1)] (mkO (SB 2 1) NB NZ 2 [(ZZ 2 0)] [(P1E 2 [(RSP 1 NB NZ)])] [(ZZ 2 0)] [(ZOZ 2 (SZ 1))] false NZ [])); (RS 0 (IPrepare 1 2 1) [(OPromise 1 2 1 0 NB NZ)] (mkO (SB 2 1) NB NZ 0 [] [] [] [] false NZ [])); (RS 2 (IPrepare 1 2 1) [(OPromise 1 2 1 2 NB NZ)] (mkO (SB 2 1) NB NZ 0 [] [] [] [] false NZ [])); (RS 3 (IPrepare 1 2 1) [(OPromise 1 2 1 3 NB NZ)] (mkO (SB 2 1) NB NZ 0 [] [] [] [] false NZ [])); (RS 4 (IPrepare 1 2 1) [(OPromise 1 2 1 4 NB NZ)] (mkO (SB 2 1) NB NZ 1 [(ZZ 1 0)] [(P1E 1 [(RSP 4 NB NZ); (RSP 3 NB NZ)])] [(ZZ 1 0)] [(ZOZ 1 (SZ 2))] false NZ [])); (RS 1 (IPromise 2 0 NB NZ) [] (mkO (SB 2 1) NB NZ 2 [(ZZ 2 0)] [(P1E 2 [(RSP 1 NB NZ); (RSP 0 NB NZ)])] [(ZZ 2 0)] [(ZOZ 2 (SZ 1))] false NZ [])); (RS 1 (IPromise 2 2 NB NZ) [(OAccept 0 2 1 (SZ 1)); (OAccept 2 2 1 (SZ 1)); (OAccept 3 2 1 (SZ 1)); (OAccept 4 2 1 (SZ 1))] (mkO (SB 2 1) (SB 2 1) (SZ 1) 2 [(ZZ 2 0)] [(P1E 2 [(RSP 1 NB NZ); (RSP 0 NB NZ); (RSP 2 NB NZ)])] [(ZZ 2 1)] [(ZOZ 2 (SZ 1))] false NZ [])); (RS 1 (IPromise 2 3 NB NZ) [] (mkO (SB 2 1) (SB 2 1) (SZ 1) 2 [(ZZ 2 0)] [(P1E 2 [(RSP 1 NB NZ); (RSP 0 NB NZ); (RSP 2 NB NZ); (RSP 3 NB NZ)])] [(ZZ 2 1)] [(ZOZ 2 (SZ 1))] false NZ [])); (RS 1 (IPromise 2 4 NB NZ) [] (mkO (SB 2 1) (SB 2 1) (SZ 1) 2 [(ZZ 2 0)] [(P1E 2 [(RSP 1 NB NZ); (RSP 0 NB NZ); (RSP 2 NB NZ); (RSP 3 NB NZ); (RSP 4 NB NZ)])] [(ZZ 2 1)] [(ZOZ 2 (SZ 1))] false NZ [])); (RS 0 (IAccept 1 2 1 (SZ 1)) [(OAccepted 1 2 1 0)] (mkO (SB 2 1) (SB 2 1) (SZ 1) 0 [] [] [] [] false NZ [])); (RS 3 (IAccept 1 2 1 (SZ 1)) [(OAccepted 1 2 1 3)] (mkO (SB 2 1) (SB 2 1) (SZ 1) 0 [] [] [] [] false NZ [])); (RS 2 (IAccept 1 2 1 (SZ 1)) [(OAccepted 1 2 1 2)] (mkO (SB 2 1) (SB 2 1) (SZ 1) 0 [] [] [] [] false NZ [])); (RS 1 (IAccepted 2) [] (mkO (SB 2 1) (SB 2 1) (SZ 1) 2 [(ZZ 2 0)] [(P1E 2 [(RSP 1 NB NZ); (RSP 0 NB NZ); (RSP 2 NB NZ); (RSP 3 NB NZ); (RSP 4 NB NZ)])] [(ZZ 2 2)] [(ZOZ 2 (SZ 1))] false NZ [])); (RS 1 (IAccepted 2) [(ODecided 0 (SZ 1)); (ODecided 2 (SZ 1)); (ODecided 3 (SZ 1)); (ODecided 4 (SZ 1))] (mkO (SB 2 1) (SB 2 1) (SZ 1) 2 [(ZZ 2 0)] [(P1E 2 [(RSP 1 NB NZ); (RSP 0 NB NZ); (RSP 2 NB NZ); (RSP 3 NB NZ); (RSP 4 NB NZ)])] [(ZZ 2 3)] [(ZOZ 2 (SZ 1))] true (SZ 1) [(ZOZ 0 (SZ 1))])); (RS 0 (IDecided (SZ 1)) [] (mkO (SB 2 1) (SB 2 1) (SZ 1) 0 [] [] [] [] true (SZ 1) [])); (RS 2 (IDecided (SZ 1)) [] (mkO (SB 2 1) (SB 2 1) (SZ 1) 0 [] [] [] [] true (SZ 1) [])); (RS 3 (IDecided (SZ 1)) [] (mkO (SB 2 1) (SB 2 1) (SZ 1) 0 [] [] [] [] true (SZ 1) [])); (RS 1 (IAccepted 2) [] (mkO (SB 2 1) (SB 2 1) (SZ 1) 2 [(ZZ 2 0)] [(P1E 2 [(RSP 1 NB NZ); (RSP 0 NB NZ); (RSP 2 NB NZ); (RSP 3 NB NZ); (RSP 4 NB NZ)])] [(ZZ 2 4)] [(ZOZ 2 (SZ 1))] true (SZ 1) [(ZOZ 0 (SZ 1))])); (RS 4 (IDecided (SZ 1)) [] (mkO (SB 2 1) NB NZ 1 [(ZZ 1 0)] [(P1E 1 [(RSP 4 NB NZ); (RSP 3 NB NZ)])] [(ZZ 1 0)] [(ZOZ 1 (SZ 2))] true (SZ 1) [])); (RS 0 (IPrepare 4 1 4) [(ONack 4 1 4 2 1)] (mkO (SB 2 1) (SB 2 1) (SZ 1) 0 [] [] [] [] true (SZ 1) [])); (RS 2 (IPrepare 4 1 4) [(ONack 4 1 4 2 1)] (mkO (SB 2 1) (SB 2 1) (SZ 1) 0 [] [] [] [] true (SZ 1) [])); (RS 4 (IPromise 1 1 NB NZ) [(OAccept 0 1 4 (SZ 2)); (OAccept 1 1 4 (SZ 2)); (OAccept 2 1 4 (SZ 2)); (OAccept 3 1 4 (SZ 2))] (mkO (SB 2 1) NB NZ 1 [(ZZ 1 0)] [(P1E 1 [(RSP 4 NB NZ); (RSP 3 NB NZ); (RSP 1 NB NZ)])] [(ZZ 1 0)] [(ZOZ 1 (SZ 2))] true (SZ 1) [])); (RS 4 (INack 1 2) [(ORetry 1)] (mkO (SB 2 1) NB NZ 2 [(ZZ 1 0)] [(P1E 1 [(RSP 4 NB NZ); (RSP 3 NB NZ); (RSP 1 NB NZ)])] [(ZZ 1 0)] [(ZOZ 1 (SZ 2))] true (SZ 1) [])); (RS 4 (INack 1 2) [(ORetry 1)] (mkO (SB 2 1) NB NZ 2 [(ZZ 1 0)] [(P1E 1 [(RSP 4 NB NZ); (RSP 3 NB NZ); (RSP 1 NB NZ)])] [(ZZ 1 0)] [(ZOZ 1 (SZ 2))] true (SZ 1) [])); (RS 1 (IAccept 4 1 4 (SZ 2)) [(ONack 4 1 4 2 1)] (mkO (SB 2 1) (SB 2 1) (SZ 1) 2 [(ZZ 2 0)] [(P1E 2 [(RSP 1 NB NZ); (RSP 0 NB NZ); (RSP 2 NB NZ); (RSP 3 NB NZ); (RSP 4 NB NZ)])] [(ZZ 2 4)] [(ZOZ 2 (SZ 1))] true (SZ 1) [(ZOZ 0 (SZ 1))])); (RS 2 (IAccept 4 1 4 (SZ 2)) [(ONack 4 1 4 2 1)] (mkO (SB 2 1) (SB 2 1) (SZ 1) 0 [] [] [] [] true (SZ 1) [])); (RS 3 (IAccept 4 1 4 (SZ 2)) [(ONack 4 1 4 2 1)] (mkO (SB 2 1) (SB 2 1) (SZ 1) 0 [] [] [] [] true (SZ 1) [])); (RS 0 (IAccept 4 1 4 (SZ 2)) [(ONack 4 1 4 2 1)] (mkO (SB 2 1) (SB 2 1) (SZ 1) 0 [] [] [] [] true (SZ 1) [])); (RS 4 (INack 1 2) [(ORetry 1)] (mkO (SB 2 1) NB NZ 2 [(ZZ 1 0)] [(P1E 1 [(RSP 4 NB NZ); (RSP 3 NB NZ); (RSP 1 NB NZ)])] [(ZZ 1 0)] [(ZOZ 1 (SZ 2))] true (SZ 1) [])); (RS 4 (INack 1 2) [(ORetry 1)] (mkO (SB 2 1) NB NZ 2 [(ZZ 1 0)] [(P1E 1 [(RSP 4 NB NZ); (RSP 3 NB NZ); (RSP 1 NB NZ)])] [(ZZ 1 0)] [(ZOZ 1 (SZ 2))] true (SZ 1) [])); (RS 4 (INack 1 2) [(ORetry 1)] (mkO (SB 2 1) NB NZ 2 [(ZZ 1 0)] [(P1E 1 [(RSP 4 NB NZ); (RSP 3 NB NZ); (RSP 1 NB NZ)])] [(ZZ 1 0)] [(ZOZ 1 (SZ 2))] true (SZ 1) [])); (RS 4 (INack 1 2) [(ORetry 1)] (mkO (SB 2 1) NB NZ 2 [(ZZ 1 0)] [(P1E 1 [(RSP 4 NB NZ); (RSP 3 NB NZ); (RSP 1 NB NZ)])] [(ZZ 1 0)] [(ZOZ 1 (SZ 2))] true (SZ 1) [])); (RS 4 (IAccept 1 2 1 (SZ 1)) [(OAccepted 1 2 1 4)] (mkO (SB 2 1) (SB 2 1) (SZ 1) 2 [(ZZ 1 0)] [(P1E 1 [(RSP 4 NB NZ); (RSP 3 NB NZ); (RSP 1 NB NZ)])] [(ZZ 1 0)] [(ZOZ 1 (SZ 2))] true (SZ 1) [])); (RS 1 (IAccepted 2) [] (mkO (SB 2 1) (SB 2 1) (SZ 1) 2 [(ZZ 2 0)] [(P1E 2 [(RSP 1 NB NZ); (RSP 0 NB NZ); (RSP 2 NB NZ); (RSP 3 NB NZ); (RSP 4 NB NZ)])] [(ZZ 2 5)] [(ZOZ 2 (SZ 1))] true (SZ 1) [(ZOZ 0 (SZ 1))])); (RS 4 (IRetry 1) [] (mkO (SB 2 1) (SB 2 1) (SZ 1) 2 [(ZZ 1 0)] [(P1E 1 [(RSP 4 NB NZ); (RSP 3 NB NZ); (RSP 1 NB NZ)])] [(ZZ 1 0)] [(ZOZ 1 (SZ 2))] true (SZ 1) [])); (RS 4 (IRetry 1) [] (mkO (SB 2 1) (SB 2 1) (SZ 1) 2 [(ZZ 1 0)] [(P1E 1 [(RSP 4 NB NZ); (RSP 3 NB NZ); (RSP 1 NB NZ)])] [(ZZ 1 0)] [(ZOZ 1 (SZ 2))] true (SZ 1) [])); (RS 4 (IRetry 1) [] (mkO (SB 2 1) (SB 2 1) (SZ 1) 2 [(ZZ 1 0)] [(P1E 1 [(RSP 4 NB NZ); (RSP 3 NB NZ); (RSP 1 NB NZ)])] [(ZZ 1 0)] [(ZOZ 1 (SZ 2))] true (SZ 1) [])); (RS 4 (IRetry 1) [] (mkO (SB 2 1) (SB 2 1) (SZ 1) 2 [(ZZ 1 0)] [(P1E 1 [(RSP 4 NB NZ); (RSP 3 NB NZ); (RSP 1 NB NZ)])] [(ZZ 1 0)] [(ZOZ 1 (SZ 2))] true (SZ 1) [])); (RS 4 (IRetry 1) [] (mkO (SB 2 1) (SB 2 1) (SZ 1) 2 [(ZZ 1 0)] [(P1E 1 [(RSP 4 NB NZ); (RSP 3 NB NZ); (RSP 1 NB NZ)])] [(ZZ 1 0)] [(ZOZ 1 (SZ 2))] true (SZ 1) [])); (RS 4 (IRetry 1) [] (mkO (SB 2 1) (SB 2 1) (SZ 1) 2 [(ZZ 1 0)] [(P1E 1 [(RSP 4 NB NZ); (RSP 3 NB NZ); (RSP 1 NB NZ)])] [(ZZ 1 0)] [(ZOZ 1 (SZ 2))] true (SZ 1) []))]).
Definition case_28 : Z * list rec_step := (3, [(RS 2 (IPropose 2) [(OPrepare 0 1 2); (OPrepare 1 1 2)] (mkO (SB 1 2) NB NZ 1 [(ZZ 1 0)] [(P1E 1 [(RSP 2 NB NZ)])] [(ZZ 1 0)] [(ZOZ 1 (SZ 2))] false NZ [])); (RS 0 (IPrepare 2 1 2) [(OPromise 2 1 2 0 NB NZ)] (mkO (SB 1 2) NB NZ 0 [] [] [] [] false NZ [])); (RS 1 (IPrepare 2 1 2) [(OPromise 2 1 2 1 NB NZ)] (mkO (SB 1 2) NB NZ 0 [] [] [] [] false NZ [])); (RS 2 (IPromise 1 1 NB NZ) [(OAccept 0 1 2 (SZ 2)); (OAccept 1 1 2 (SZ 2))] (mkO (SB 1 2) (SB 1 2) (SZ 2) 1 [(ZZ 1 0)] [(P1E 1 [(RSP 2 NB NZ); (RSP 1 NB NZ)])] [(ZZ 1 1)] [(ZOZ 1 (SZ 2))] false NZ [])); (RS 1 (IAccept 2 1 2 (SZ 2)) [(OAccepted 2 1 2 1)] (mkO (SB 1 2) (SB 1 2) (SZ 2) 0 [] [] [] [] false NZ [])); (RS 0 (IAccept 2 1 2 (SZ 2)) [(OAccepted 2 1 2 0)] (mkO (SB 1 2) (SB 1 2) (SZ 2) 0 [] [] [] [] false NZ [])); (RS 2 (IAccepted 1) [(ODecided 0 (SZ 2)); (ODecided 1 (SZ 2))] (mkO (SB 1 2) (SB 1 2) (SZ 2) 1 [(ZZ 1 0)] [(P1E 1 [(RSP 2 NB NZ); (RSP 1 NB NZ)])] [(ZZ 1 2)] [(ZOZ 1 (SZ 2))] true (SZ 2) [(ZOZ 0 (SZ 2))])); (RS 0 (IDecided (SZ 2)) [] (mkO (SB 1 2) (SB 1 2) (SZ 2) 0 [] [] [] [] true (SZ 2) [])); (RS 1 (IDecided (SZ 2)) [] (mkO (SB 1 2) (SB 1 2) (SZ 2) 0 [] [] [] [] true (SZ 2) [])); (RS 2 (IPromise 1 0 NB NZ) [] (mkO (SB 1 2) (SB 1 2) (SZ 2) 1 [(ZZ 1 0)] [(P1E 1 [(RSP 2 NB NZ); (RSP 1 NB NZ); (RSP 0 NB NZ)])] [(ZZ 1 2)] [(ZOZ 1 (SZ 2))] true (SZ 2) [(ZOZ 0 (SZ 2))])); (RS 2 (IAccepted 1) [] (mkO (SB 1 2) (SB 1 2) (SZ 2) 1 [(ZZ 1 0)] [(P1E 1 [(RSP 2 NB NZ); (RSP 1 NB NZ); (RSP 0 NB NZ)])] [(ZZ 1 3)] [(ZOZ 1 (SZ 2))] true (SZ 2) [(ZOZ 0 (SZ 2))]))]).
Definition case_29 : Z * list rec_step := (3, [(RS 2 (IPropose 3) [(OPrepare 0 1 2); (OPrepare 1 1 2)] (mkO (SB 1 2) NB NZ 1 [(ZZ 1 0)] [(P1E 1 [(RSP 2 NB NZ)])] [(ZZ 1 0)] [(ZOZ 1 (SZ 3))] false NZ [])); (RS 0 (IPrepare 2 1 2) [(OPromise 2 1 2 0 NB NZ)] (mkO (SB 1 2) NB NZ 0 [] [] [] [] false NZ [])); (RS 1 (IPrepare 2 1 2) [(OPromise 2 1 2 1 NB NZ)] (mkO (SB 1 2) NB NZ 0 [] [] [] [] false NZ [])); (RS 2 (IPromise 1 0 NB NZ) [(OAccept 0 1 2 (SZ 3)); (OAccept 1 1 2 (SZ 3))] (mkO (SB 1 2) (SB 1 2) (SZ 3) 1 [(ZZ 1 0)] [(P1E 1 [(RSP 2 NB NZ); (RSP 0 NB NZ)])] [(ZZ 1 1)] [(ZOZ 1 (SZ 3))] false NZ [])); (RS 2 (IPromise 1 1 NB NZ) [] (mkO (SB 1 2) (SB 1 2) (SZ 3) 1 [(ZZ 1 0)] [(P1E 1 [(RSP 2 NB NZ); (RSP 0 NB NZ); (RSP 1 NB NZ)])] [(ZZ 1 1)] [(ZOZ 1 (SZ 3))] false NZ [])); (RS 0 (IAccept 2 1 2 (SZ 3)) [(OAccepted 2 1 2 0)] (mkO (SB 1 2) (SB 1 2) (SZ 3) 0 [] [] [] [] false NZ [])); (RS 1 (IAccept 2 1 2 (SZ 3)) [(OAccepted 2 1 2 1)] (mkO (SB 1 2) (SB 1 2) (SZ 3) 0 [] [] [] [] false NZ [])); (RS 2 (IAccepted 1) [(ODecided 0 (SZ 3)); (ODecided 1 (SZ 3))] (mkO (SB 1 2) (SB 1 2) (SZ 3) 1 [(ZZ 1 0)] [(P1E 1 [(RSP 2 NB NZ); (RSP 0 NB NZ); (RSP 1 NB NZ)])] [(ZZ 1 2)] [(ZOZ 1 (SZ 3))] true (SZ 3) [(ZOZ 0 (SZ 3))])); (RS 2 (IAccepted 1) [] (mkO (SB 1 2) (SB 1 2) (SZ 3) 1 [(ZZ 1 0)] [(P1E 1 [(RSP 2 NB NZ); (RSP 0 NB NZ); (RSP 1 NB NZ)])] [(ZZ 1 3)] [(ZOZ 1 (SZ 3))] true (SZ 3) [(ZOZ 0 (SZ 3))])); (RS 0 (IDecided (SZ 3)) [] (mkO (SB 1 2) (SB 1 2) (SZ 3) 0 [] [] [] [] true (SZ 3) [])); (RS 1 (IDecided (SZ 3)) [] (mkO (SB 1 2) (SB 1 2) (SZ 3) 0 [] [] [] [] true (SZ 3) [])); (RS 0 (IPropose 2) [] (mkO (SB 1 2) (SB 1 2) (SZ 3) 0 [] [] [] [] true (SZ 3) [(ZOZ 0 (SZ 3))]))]).
Definition case_30 : Z * list rec_step := (3, [(RS 1 (IPropose 3) [(OPrepare 0 1 1); (OPrepare 2 1 1)] (mkO (SB 1 1) NB NZ 1 [(ZZ 1 0)] [(P1E 1 [(RSP 1 NB NZ)])] [(ZZ 1 0)] [(ZOZ 1 (SZ 3))] false NZ [])); (RS 2 (IPrepare 1 1 1) [(OPromise 1 1 1 2 NB NZ)] (mkO (SB 1 1) NB NZ 0 [] [] [] [] false NZ [])); (RS 0 (IPrepare 1 1 1) [(OPromise 1 1 1 0 NB NZ)] (mkO (SB 1 1) NB NZ 0 [] [] [] [] false NZ [])); (RS 1 (IPromise 1 2 NB NZ) [(OAccept 0 1 1 (SZ 3)); (OAccept 2 1 1 (SZ 3))] (mkO (SB 1 1) (SB 1 1) (SZ 3) 1 [(ZZ 1 0)] [(P1E 1 [(RSP 1 NB NZ); (RSP 2 NB NZ)])] [(ZZ 1 1)] [(ZOZ 1 (SZ 3))] false NZ [])); (RS 2 (IAccept 1 1 1 (SZ 3)) [(OAccepted 1 1 1 2)] (mkO (SB 1 1) (SB 1 1) (SZ 3) 0 [] [] [] [] false NZ [])); (RS 1 (IAccepted 1) [(ODecided 0 (SZ 3)); (ODecided 2 (SZ 3))] (mkO (SB 1 1) (SB 1 1) (SZ 3) 1 [(ZZ 1 0)] [(P1E 1 [(RSP 1 NB NZ); (RSP 2 NB NZ)])] [(ZZ 1 2)] [(ZOZ 1 (SZ 3))] true (SZ 3) [(ZOZ 0 (SZ 3))])); (RS 0 (IDecided (SZ 3)) [] (mkO (SB 1 1) NB NZ 0 [] [] [] [] true (SZ 3) [])); (RS 2 (IDecided (SZ 3)) [] (mkO (SB 1 1) (SB 1 1) (SZ 3) 0 [] [] [] [] true (SZ 3) [])); (RS 0 (IAccept 1 1 1 (SZ 3)) [(OAccepted 1 1 1 0)] (mkO (SB 1 1) (SB 1 1) (SZ 3) 0 [] [] [] [] true (SZ 3) [])); (RS 1 (IAccepted 1) [] (mkO (SB 1 1) (SB 1 1) (SZ 3) 1 [(ZZ 1 0)] [(P1E 1 [(RSP 1 NB NZ); (RSP 2 NB NZ)])] [(ZZ 1 3)] [(ZOZ 1 (SZ 3))] true (SZ 3) [(ZOZ 0 (SZ 3))])); (RS 1 (IPropose 1) [] (mkO (SB 1 1) (SB 1 1) (SZ 3) 1 [(ZZ 1 0)] [(P1E 1 [(RSP 1 NB NZ); (RSP 2 NB NZ)])] [(ZZ 1 3)] [(ZOZ 1 (SZ 3))] true (SZ 3) [(ZOZ 0 (SZ 3)); (ZOZ 1 (SZ 3))]))]).
Definition case_31 : Z * list rec_step := (3, [(RS 0 (IPropose 2) [(OPrepare 1 1 0); (OPrepare 2 1 0)] (mkO (SB 1 0) NB NZ 1 [(ZZ 1 0)] [(P1E 1 [(RSP 0 NB NZ)])] [(ZZ 1 0)] [(ZOZ 1 (SZ 2))] false NZ [])); (RS 2 (IPrepare 0 1 0) [(OPromise 0 1 0 2 NB NZ)] (mkO (SB 1 0) NB NZ 0 [] [] [] [] false NZ [])); (RS 0 (IPromise 1 2 NB NZ) [(OAccept 1 1 0 (SZ 2)); (OAccept 2 1 0 (SZ 2))] (mkO (SB 1 0) (SB 1 0) (SZ 2) 1 [(ZZ 1 0)] [(P1E 1 [(RSP 0 NB NZ); (RSP 2 NB NZ)])] [(ZZ 1 1)] [(ZOZ 1 (SZ 2))] false NZ [])); (RS 1 (IPropose 1) [(OPrepare 0 1 1); (OPrepare 2 1 1)] (mkO (SB 1 1) NB NZ 1 [(ZZ 1 0)] [(P1E 1 [(RSP 1 NB NZ)])] [(ZZ 1 0)] [(ZOZ 1 (SZ 1))] false NZ [])); (RS 2 (IPrepare 1 1 1) [(OPromise 1 1 1 2 NB NZ)] (mkO (SB 1 1) NB NZ 0 [] [] [] [] false NZ [])); (RS 1 (IPromise 1 2 NB NZ) [(OAccept 0 1 1 (SZ 1)); (OAccept 2 1 1 (SZ 1))] (mkO (SB 1 1) (SB 1 1) (SZ 1) 1 [(ZZ 1 0)] [(P1E 1 [(RSP 1 NB NZ); (RSP 2 NB NZ)])] [(ZZ 1 1)] [(ZOZ 1 (SZ 1))] false NZ [])); (RS 2 (IAccept 1 1 1 (SZ 1)) [(OAccepted 1 1 1 2)] (mkO (SB 1 1) (SB 1 1) (SZ 1) 0 [] [] [] [] false NZ [])); (RS 1 (IAccepted 1) [(ODecided 0 (SZ 1)); (ODecided 2 (SZ 1))] (mkO (SB 1 1) (SB 1 1) (SZ 1) 1 [(ZZ 1 0)] [(P1E 1 [(RSP 1 NB NZ); (RSP 2 NB NZ)])] [(ZZ 1 2)] [(ZOZ 1 (SZ 1))] true (SZ 1) [(ZOZ 0 (SZ 1))])); (RS 2 (IDecided (SZ 1)) [] (mkO (SB 1 1) (SB 1 1) (SZ 1) 0 [] [] [] [] true (SZ 1) [])); (RS 2 (IPropose 3) [] (mkO (SB 1 1) (SB 1 1) (SZ 1) 0 [] [] [] [] true (SZ 1) [(ZOZ 0 (SZ 1))]))]).
Definition case_32 : Z * list rec_step := (5, [(RS 0 (IPropose 1) [(OPrepare 1 1 0); (OPrepare 2 1 0); (OPrepare 3 1 0); (OPrepare 4 1 0)] (mkO (SB 1 0) NB NZ 1 [(ZZ 1 0)] [(P1E 1 [(RSP 0 NB NZ)])] [(ZZ 1 0)] [(ZOZ 1 (SZ 1))] false NZ [])); (RS 3 (IPropose 2) [(OPrepare 0 1 3); (OPrepare 1 1 3); (OPrepare 2 1 3); (OPrepare 4 1 3)] (mkO (SB 1 3) NB NZ 1 [(ZZ 1 0)] [(P1E 1 [(RSP 3 NB NZ)])] [(ZZ 1 0)] [(ZOZ 1 (SZ 2))] false NZ [])); (RS 1 (IPrepare 0 1 0) [(OPromise 0 1 0 1 NB NZ)] (mkO (SB 1 0) NB NZ 0 [] [] [] [] false NZ [])); (RS 0 (IPromise 1 1 NB NZ) [] (mkO (SB 1 0) NB NZ 1 [(ZZ 1 0)] [(P1E 1 [(RSP 0 NB NZ); (RSP 1 NB NZ)])] [(ZZ 1 0)] [(ZOZ 1 (SZ 1))] false NZ [])); (RS 2 (IPrepare 0 1 0) [(OPromise 0 1 0 2 NB NZ)] (mkO (SB 1 0) NB NZ 0 [] [] [] [] false NZ [])); (RS 2 (IPropose 3) [(OPrepare 0 2 2); (OPrepare 1 2 2); (OPrepare 3 2 2); (OPrepare 4 2 2)] (mkO (SB 2 2) NB NZ 2 [(ZZ 2 0)] [(P1E 2 [(RSP 2 NB NZ)])] [(ZZ 2 0)] [(ZOZ 2 (SZ 3))] false NZ [])); (RS 4 (IPropose 4) [(OPrepare 0 1 4); (OPrepare 1 1 4); (OPrepare 2 1 4); (OPrepare 3 1 4)] (mkO (SB 1 4) NB NZ 1 [(ZZ 1 0)] [(P1E 1 [(RSP 4 NB NZ)])] [(ZZ 1 0)] [(ZOZ 1 (SZ 4))] false NZ [])); (RS 0 (IPrepare 4 1 4) [(OPromise 4 1 4 0 NB NZ)] (mkO (SB 1 4) NB NZ 1 [(ZZ 1 0)] [(P1E 1 [(RSP 0 NB NZ); (RSP 1 NB NZ)])] [(ZZ 1 0)] [(ZOZ 1 (SZ 1))] false NZ [])); (RS 1 (IPrepare 2 2 2) [(OPromise 2 2 2 1 NB NZ)] (mkO (SB 2 2) NB NZ 0 [] [] [] [] false NZ [])); (RS 3 (IPrepare 2 2 2) [(OPromise 2 2 2 3 NB NZ)] (mkO (SB 2 2) NB NZ 1 [(ZZ 1 0)] [(P1E 1 [(RSP 3 NB NZ)])] [(ZZ 1 0)] [(ZOZ 1 (SZ 2))] false NZ [])); (RS 4 (IPrepare 2 2 2) [(OPromise 2 2 2 4 NB NZ)] (mkO (SB 2 2) NB NZ 1 [(ZZ 1 0)] [(P1E 1 [(RSP 4 NB NZ)])] [(ZZ 1 0)] [(ZOZ 1 (SZ 4))] false NZ [])); (RS 2 (IPromise 2 4 NB NZ) [] (mkO (SB 2 2) NB NZ 2 [(ZZ 2 0)] [(P1E 2 [(RSP 2 NB NZ); (RSP 4 NB NZ)])] [(ZZ 2 0)] [(ZOZ 2 (SZ 3))] false NZ [])); (RS 4 (IPromise 1 0 NB NZ) [] (mkO (SB 2 2) NB NZ 1 [(ZZ 1 0)] [(P1E 1 [(RSP 4 NB NZ); (RSP 0 NB NZ)])] [(ZZ 1 0)] [(ZOZ 1 (SZ 4))] false NZ [])); (RS 0 (IPrepare 2 2 2) [(OPromise 2 2 2 0 NB NZ)] (mkO (SB 2 2) NB NZ 1 [(ZZ 1 0)] [(P1E 1 [(RSP 0 NB NZ); (RSP 1 NB NZ)])] [(ZZ 1 0)] [(ZOZ 1 (SZ 1))] false NZ [])); (RS 2 (IPrepare 4 1 4) [(ONack 4 1 4 2 2)] (mkO (SB 2 2) NB NZ 2 [(ZZ 2 0)] [(P1E 2 [(RSP 2 NB NZ); (RSP 4 NB NZ)])] [(ZZ 2 0)] [(ZOZ 2 (SZ 3))] false NZ [])); (RS 2 (IPromise 2 0 NB NZ) [(OAccept 0 2 2 (SZ 3)); (OAccept 1 2 2 (SZ 3)); (OAccept 3 2 2 (SZ 3)); (OAccept 4 2 2 (SZ 3))] (mkO (SB 2 2) (SB 2 2) (SZ 3) 2 [(ZZ 2 0)] [(P1E 2 [(RSP 2 NB NZ); (RSP 4 NB NZ); (RSP 0 NB NZ)])] [(ZZ 2 1)] [(ZOZ 2 (SZ 3))] false NZ [])); (RS 1 (IAccept 2 2 2 (SZ 3)) [(OAccepted 2 2 2 1)] (mkO (SB 2 2) (SB 2 2) (SZ 3) 0 [] [] [] [] false NZ [])); (RS 3 (IAccept 2 2 2 (SZ 3)) [(OAccepted 2 2 2 3)] (mkO (SB 2 2) (SB 2 2) (SZ 3) 1 [(ZZ 1 0)] [(P1E 1 [(RSP 3 NB NZ)])] [(ZZ 1 0)] [(ZOZ 1 (SZ 2))] false NZ [])); (RS 4 (IAccept 2 2 2 (SZ 3)) [(OAccepted 2 2 2 4)] (mkO (SB 2 2) (SB 2 2) (SZ 3) 1 [(ZZ 1 0)] [(P1E 1 [(RSP 4 NB NZ); (RSP 0 NB NZ)])] [(ZZ 1 0)] [(ZOZ 1 (SZ 4))] false NZ [])); (RS 2 (IAccepted 2) [] (mkO (SB 2 2) (SB 2 2) (SZ 3) 2 [(ZZ 2 0)] [(P1E 2 [(RSP 2 NB NZ); (RSP 4 NB NZ); (RSP 0 NB NZ)])] [(ZZ 2 2)] [(ZOZ 2 (SZ 3))] false NZ [])); (RS 2 (IPromise 2 1 NB NZ) [] (mkO (SB 2 2) (SB 2 2) (SZ 3) 2 [(ZZ 2 0)] [(P1E 2 [(RSP 2 NB NZ); (RSP 4 NB NZ); (RSP 0 NB NZ); (RSP 1 NB NZ)])] [(ZZ 2 2)] [(ZOZ 2 (SZ 3))] false NZ [])); (RS 2 (IPromise 2 3 NB NZ) [] (mkO (SB 2 2) (SB 2 2) (SZ 3) 2 [(ZZ 2 0)] [(P1E 2 [(RSP 2 NB NZ); (RSP 4 NB NZ); (RSP 0 NB NZ); (RSP 1 NB NZ); (RSP 3 NB NZ)])] [(ZZ 2 2)] [(ZOZ 2 (SZ 3))] false NZ [])); (RS 2 (IAccepted 2) [(ODecided 0 (SZ 3)); (ODecided 1 (SZ 3)); (ODecided 3 (SZ 3)); (ODecided 4 (SZ 3))] (mkO (SB 2 2) (SB 2 2) (SZ 3) 2 [(ZZ 2 0)] [(P1E 2 [(RSP 2 NB NZ); (RSP 4 NB NZ); (RSP 0 NB NZ); (RSP 1 NB NZ); (RSP 3 NB NZ)])] [(ZZ 2 3)] [(ZOZ 2 (SZ 3))] true (SZ 3) [(ZOZ 0 (SZ 3))])); (RS 3 (IDecided (SZ 3)) [] (mkO (SB 2 2) (SB 2 2) (SZ 3) 1 [(ZZ 1 0)] [(P1E 1 [(RSP 3 NB NZ)])] [(ZZ 1 0)] [(ZOZ 1 (SZ 2))] true (SZ 3) []))]).
Definition case_33 : Z * list rec_step := (3, [(RS 1 (IPropose 1) [(OPrepare 0 1 1); (OPrepare 2 1 1)] (mkO (SB 1 1) NB NZ 1 [(ZZ 1 0)] [(P1E 1 [(RSP 1 NB NZ)])] [(ZZ 1 0)] [(ZOZ 1 (SZ 1))] false NZ [])); (RS 0 (IPropose 2) [(OPrepare 1 1 0); (OPrepare 2 1 0)] (mkO (SB 1 0) NB NZ 1 [(ZZ 1 0)] [(P1E 1 [(RSP 0 NB NZ)])] [(ZZ 1 0)] [(ZOZ 1 (SZ 2))] false NZ [])); (RS 0 (IPrepare 1 1 1) [(OPromise 1 1 1 0 NB NZ)] (mkO (SB 1 1) NB NZ 1 [(ZZ 1 0)] [(P1E 1 [(RSP 0 NB NZ)])] [(ZZ 1 0)] [(ZOZ 1 (SZ 2))] false NZ [])); (RS 2 (IPrepare 1 1 1) [(OPromise 1 1 1 2 NB NZ)] (mkO (SB 1 1) NB NZ 0 [] [] [] [] false NZ [])); (RS 1 (IPromise 1 0 NB NZ) [(OAccept 0 1 1 (SZ 1)); (OAccept 2 1 1 (SZ 1))] (mkO (SB 1 1) (SB 1 1) (SZ 1) 1 [(ZZ 1 0)] [(P1E 1 [(RSP 1 NB NZ); (RSP 0 NB NZ)])] [(ZZ 1 1)] [(ZOZ 1 (SZ 1))] false NZ [])); (RS 2 (IPrepare 0 1 0) [(ONack 0 1 0 1 1)] (mkO (SB 1 1) NB NZ 0 [] [] [] [] false NZ [])); (RS 1 (IPropose 3) [(OPrepare 0 2 1); (OPrepare 2 2 1)] (mkO (SB 2 1) (SB 1 1) (SZ 1) 2 [(ZZ 1 0); (ZZ 2 1)] [(P1E 1 [(RSP 1 NB NZ); (RSP 0 NB NZ)]); (P1E 2 [(RSP 1 (SB 1 1) (SZ 1))])] [(ZZ 1 1); (ZZ 2 0)] [(ZOZ 1 (SZ 1)); (ZOZ 2 (SZ 3))] false NZ [])); (RS 0 (IPrepare 1 2 1) [(OPromise 1 2 1 0 NB NZ)] (mkO (SB 2 1) NB NZ 1 [(ZZ 1 0)] [(P1E 1 [(RSP 0 NB NZ)])] [(ZZ 1 0)] [(ZOZ 1 (SZ 2))] false NZ [])); (RS 1 (IPrepare 0 1 0) [(ONack 0 1 0 2 1)] (mkO (SB 2 1) (SB 1 1) (SZ 1) 2 [(ZZ 1 0); (ZZ 2 1)] [(P1E 1 [(RSP 1 NB NZ); (RSP 0 NB NZ)]); (P1E 2 [(RSP 1 (SB 1 1) (SZ 1))])] [(ZZ 1 1); (ZZ 2 0)] [(ZOZ 1 (SZ 1)); (ZOZ 2 (SZ 3))] false NZ [])); (RS 1 (IPromise 2 0 NB NZ) [(OAccept 0 2 1 (SZ 1)); (OAccept 2 2 1 (SZ 1))] (mkO (SB 2 1) (SB 2 1) (SZ 1) 2 [(ZZ 1 0); (ZZ 2 1)] [(P1E 1 [(RSP 1 NB NZ); (RSP 0 NB NZ)]); (P1E 2 [(RSP 1 (SB 1 1) (SZ 1)); (RSP 0 NB NZ)])] [(ZZ 1 1); (ZZ 2 1)] [(ZOZ 1 (SZ 1)); (ZOZ 2 (SZ 1))] false NZ [])); (RS 0 (IAccept 1 1 1 (SZ 1)) [(ONack 1 1 1 2 1)] (mkO (SB 2 1) NB NZ 1 [(ZZ 1 0)] [(P1E 1 [(RSP 0 NB NZ)])] [(ZZ 1 0)] [(ZOZ 1 (SZ 2))] false NZ [])); (RS 0 (INack 1 2) [(ORetry 1)] (mkO (SB 2 1) NB NZ 2 [(ZZ 1 0)] [(P1E 1 [(RSP 0 NB NZ)])] [(ZZ 1 0)] [(ZOZ 1 (SZ 2))] false NZ [])); (RS 0 (IAccept 1 2 1 (SZ 1)) [(OAccepted 1 2 1 0)] (mkO (SB 2 1) (SB 2 1) (SZ 1) 2 [(ZZ 1 0)] [(P1E 1 [(RSP 0 NB NZ)])] [(ZZ 1 0)] [(ZOZ 1 (SZ 2))] false NZ [])); (RS 1 (IAccepted 2) [(ODecided 0 (SZ 1)); (ODecided 2 (SZ 1))] (mkO (SB 2 1) (SB 2 1) (SZ 1) 2 [(ZZ 1 0); (ZZ 2 1)] [(P1E 1 [(RSP 1 NB NZ); (RSP 0 NB NZ)]); (P1E 2 [(RSP 1 (SB 1 1) (SZ 1)); (RSP 0 NB NZ)])] [(ZZ 1 1); (ZZ 2 2)] [(ZOZ 1 (SZ 1)); (ZOZ 2 (SZ 1))] true (SZ 1) [(ZOZ 1 (SZ 1))])); (RS 0 (IDecided (SZ 1)) [] (mkO (SB 2 1) (SB 2 1) (SZ 1) 2 [(ZZ 1 0)] [(P1E 1 [(RSP 0 NB NZ)])] [(ZZ 1 0)] [(ZOZ 1 (SZ 2))] true (SZ 1) [])); (RS 2 (IDecided (SZ 1)) [] (mkO (SB 1 1) NB NZ 0 [] [] [] [] true (SZ 1) [])); (RS 0 (IRetry 1) [] (mkO (SB 2 1) (SB 2 1) (SZ 1) 2 [(ZZ 1 0)] [(P1E 1 [(RSP 0 NB NZ)])] [(ZZ 1 0)] [(ZOZ 1 (SZ 2))] true (SZ 1) [])); (RS 1 (INack 1 2) [(ORetry 1)] (mkO (SB 2 1) (SB 2 1) (SZ 1) 2 [(ZZ 1 0); (ZZ 2 1)] [(P1E 1 [(RSP 1 NB NZ); (RSP 0 NB NZ)]); (P1E 2 [(RSP 1 (SB 1 1) (SZ 1)); (RSP 0 NB NZ)])] [(ZZ 1 1); (ZZ 2 2)] [(ZOZ 1 (SZ 1)); (ZOZ 2 (SZ 1))] true (SZ 1) [(ZOZ 1 (SZ 1))])); (RS 1 (IRetry 1) [] (mkO (SB 2 1) (SB 2 1) (SZ 1) 2 [(ZZ 1 0); (ZZ 2 1)] [(P1E 1 [(RSP 1 NB NZ); (RSP 0 NB NZ)]); (P1E 2 [(RSP 1 (SB 1 1) (SZ 1)); (RSP 0 NB NZ)])] [(ZZ 1 1); (ZZ 2 2)] [(ZOZ 1 (SZ 1)); (ZOZ 2 (SZ 1))] true (SZ 1) [(ZOZ 1 (SZ 1))]))]).
Definition case_34 : Z * list rec_step := (5, [(RS 0 (IPropose 3) [(OPrepare 1 1 0); (OPrepare 2 1 0); (OPrepare 3 1 0); (OPrepare 4 1 0)] (mkO (SB 1 0) NB NZ 1 [(ZZ 1 0)] [(P1E 1 [(RSP 0 NB NZ)])] [(ZZ 1 0)] [(ZOZ 1 (SZ 3))] false NZ [])); (RS 3 (IPropose 3) [(OPrepare 0 1 3); (OPrepare 1 1 3); (OPrepare 2 1 3); (OPrepare 4 1 3)] (mkO (SB 1 3) NB NZ 1 [(ZZ 1 0)] [(P1E 1 [(RSP 3 NB NZ)])] [(ZZ 1 0)] [(ZOZ 1 (SZ 3))] false NZ [])); (RS 2 (IPrepare 3 1 3) [(OPromise 3 1 3 2 NB NZ)] (mkO (SB 1 3) NB NZ 0 [] [] [] [] false NZ [])); (RS 0 (IPrepare 3 1 3) [(OPromise 3 1 3 0 NB NZ)] (mkO (SB 1 3) NB NZ 1 [(ZZ 1 0)] [(P1E 1 [(RSP 0 NB NZ)])] [(ZZ 1 0)] [(ZOZ 1 (SZ 3))] false NZ [])); (RS 4 (IPrepare 0 1 0) [(OPromise 0 1 0 4 NB NZ)] (mkO (SB 1 0) NB NZ 0 [] [] [] [] false NZ [])); (RS 0 (IPromise 1 4 NB NZ) [] (mkO (SB 1 3) NB NZ 1 [(ZZ 1 0)] [(P1E 1 [(RSP 0 NB NZ); (RSP 4 NB NZ)])] [(ZZ 1 0)] [(ZOZ 1 (SZ 3))] false NZ [])); (RS 3 (IPromise 1 0 NB NZ) [] (mkO (SB 1 3) NB NZ 1 [(ZZ 1 0)] [(P1E 1 [(RSP 3 NB NZ); (RSP 0 NB NZ)])] [(ZZ 1 0)] [(ZOZ 1 (SZ 3))] false NZ [])); (RS 2 (IPrepare 0 1 0) [(ONack 0 1 0 1 3)] (mkO (SB 1 3) NB NZ 0 [] [] [] [] false NZ [])); (RS 4 (IPrepare 3 1 3) [(OPromise 3 1 3 4 NB NZ)] (mkO (SB 1 3) NB NZ 0 [] [] [] [] false NZ [])); (RS 0 (INack 1 1) [(ORetry 1)] (mkO (SB 1 3) NB NZ 1 [(ZZ 1 0)] [(P1E 1 [(RSP 0 NB NZ); (RSP 4 NB NZ)])] [(ZZ 1 0)] [(ZOZ 1 (SZ 3))] false NZ [])); (RS 4 (IPropose 2) [(OPrepare 0 2 4); (OPrepare 1 2 4); (OPrepare 2 2 4); (OPrepare 3 2 4)] (mkO (SB 2 4) NB NZ 2 [(ZZ 2 0)] [(P1E 2 [(RSP 4 NB NZ)])] [(ZZ 2 0)] [(ZOZ 2 (SZ 2))] false NZ [])); (RS 3 (IPrepare 4 2 4) [(OPromise 4 2 4 3 NB NZ)] (mkO (SB 2 4) NB NZ 1 [(ZZ 1 0)] [(P1E 1 [(RSP 3 NB NZ); (RSP 0 NB NZ)])] [(ZZ 1 0)] [(ZOZ 1 (SZ 3))] false NZ [])); (RS 2 (IPrepare 4 2 4) [(OPromise 4 2 4 2 NB NZ)] (mkO (SB 2 4) NB NZ 0 [] [] [] [] false NZ [])); (RS 4 (IPromise 2 2 NB NZ) [] (mkO (SB 2 4) NB NZ 2 [(ZZ 2 0)] [(P1E 2 [(RSP 4 NB NZ); (RSP 2 NB NZ)])] [(ZZ 2 0)] [(ZOZ 2 (SZ 2))] false NZ [])); (RS 0 (IPrepare 4 2 4) [(OPromise 4 2 4 0 NB NZ)] (mkO (SB 2 4) NB NZ 1 [(ZZ 1 0)] [(P1E 1 [(RSP 0 NB NZ); (RSP 4 NB NZ)])] [(ZZ 1 0)] [(ZOZ 1 (SZ 3))] false NZ [])); (RS 4 (IPromise 2 0 NB NZ) [(OAccept 0 2 4 (SZ 2)); (OAccept 1 2 4 (SZ 2)); (OAccept 2 2 4 (SZ 2)); (OAccept 3 2 4 (SZ 2))] (mkO (SB 2 4) (SB 2 4) (SZ 2) 2 [(ZZ 2 0)] [(P1E 2 [(RSP 4 NB NZ); (RSP 2 NB NZ); (RSP 0 NB NZ)])] [(ZZ 2 1)] [(ZOZ 2 (SZ 2))] false NZ [])); (RS 2 (IAccept 4 2 4 (SZ 2)) [(OAccepted 4 2 4 2)] (mkO (SB 2 4) (SB 2 4) (SZ 2) 0 [] [] [] [] false NZ [])); (RS 3 (IPrepare 0 1 0) [(ONack 0 1 0 2 4)] (mkO (SB 2 4) NB NZ 1 [(ZZ 1 0)] [(P1E 1 [(RSP 3 NB NZ); (RSP 0 NB NZ)])] [(ZZ 1 0)] [(ZOZ 1 (SZ 3))] false NZ [])); (RS 3 (IAccept 4 2 4 (SZ 2)) [(OAccepted 4 2 4 3)] (mkO (SB 2 4) (SB 2 4) (SZ 2) 1 [(ZZ 1 0)] [(P1E 1 [(RSP 3 NB NZ); (RSP 0 NB NZ)])] [(ZZ 1 0)] [(ZOZ 1 (SZ 3))] false NZ [])); (RS 1 (IAccept 4 2 4 (SZ 2)) [(OAccepted 4 2 4 1)] (mkO (SB 2 4) (SB 2 4) (SZ 2) 0 [] [] [] [] false NZ [])); (RS 4 (IAccepted 2) [] (mkO (SB 2 4) (SB 2 4) (SZ 2) 2 [(ZZ 2 0)] [(P1E 2 [(RSP 4 NB NZ); (RSP 2 NB NZ); (RSP 0 NB NZ)])] [(ZZ 2 2)] [(ZOZ 2 (SZ 2))] false NZ [])); (RS 0 (INack 1 2) [(ORetry 1)] (mkO (SB 2 4) NB NZ 2 [(ZZ 1 0)] [(P1E 1 [(RSP 0 NB NZ); (RSP 4 NB NZ)])] [(ZZ 1 0)] [(ZOZ 1 (SZ 3))] false NZ [])); (RS 1 (IPrepare 4 2 4) [(OPromise 4 2 4 1 (SB 2 4) (SZ 2))] (mkO (SB 2 4) (SB 2 4) (SZ 2) 0 [] [] [] [] false NZ [])); (RS 4 (IPromise 2 1 (SB 2 4) (SZ 2)) [] (mkO (SB 2 4) (SB 2 4) (SZ 2) 2 [(ZZ 2 0)] [(P1E 2 [(RSP 4 NB NZ); (RSP 2 NB NZ); (RSP 0 NB NZ); (RSP 1 (SB 2 4) (SZ 2))])] [(ZZ 2 2)] [(ZOZ 2 (SZ 2))] false NZ [])); (RS 4 (IAccepted 2) [(ODecided 0 (SZ 2)); (ODecided 1 (SZ 2)); (ODecided 2 (SZ 2)); (ODecided 3 (SZ 2))] (mkO (SB 2 4) (SB 2 4) (SZ 2) 2 [(ZZ 2 0)] [(P1E 2 [(RSP 4 NB NZ); (RSP 2 NB NZ); (RSP 0 NB NZ); (RSP 1 (SB 2 4) (SZ 2))])] [(ZZ 2 3)] [(ZOZ 2 (SZ 2))] true (SZ 2) [(ZOZ 0 (SZ 2))])); (RS 1 (IDecided (SZ 2)) [] (mkO (SB 2 4) (SB 2 4) (SZ 2) 0 [] [] [] [] true (SZ 2) [])); (RS 2 (IDecided (SZ 2)) [] (mkO (SB 2 4) (SB 2 4) (SZ 2) 0 [] [] [] [] true (SZ 2) [])); (RS 1 (IPrepare 0 1 0) [(ONack 0 1 0 2 4)] (mkO (SB 2 4) (SB 2 4) (SZ 2) 0 [] [] [] [] true (SZ 2) [])); (RS 1 (IPrepare 3 1 3) [(ONack 3 1 3 2 4)] (mkO (SB 2 4) (SB 2 4) (SZ 2) 0 [] [] [] [] true (SZ 2) [])); (RS 3 (IPromise 1 2 NB NZ) [(OAccept 0 1 3 (SZ 3)); (OAccept 1 1 3 (SZ 3)); (OAccept 2 1 3 (SZ 3)); (OAccept 4 1 3 (SZ 3))] (mkO (SB 2 4) (SB 2 4) (SZ 2) 1 [(ZZ 1 0)] [(P1E 1 [(RSP 3 NB NZ); (RSP 0 NB NZ); (RSP 2 NB NZ)])] [(ZZ 1 0)] [(ZOZ 1 (SZ 3))] false NZ [])); (RS 3 (INack 1 2) [(ORetry 1)] (mkO (SB 2 4) (SB 2 4) (SZ 2) 2 [(ZZ 1 0)] [(P1E 1 [(RSP 3 NB NZ); (RSP 0 NB NZ); (RSP 2 NB NZ)])] [(ZZ 1 0)] [(ZOZ 1 (SZ 3))] false NZ [])); (RS 0 (IAccept 3 1 3 (SZ 3)) [(ONack 3 1 3 2 4)] (mkO (SB 2 4) NB NZ 2 [(ZZ 1 0)] [(P1E 1 [(RSP 0 NB NZ); (RSP 4 NB NZ)])] [(ZZ 1 0)] [(ZOZ 1 (SZ 3))] false NZ [])); (RS 0 (INack 1 2) [(ORetry 1)] (mkO (SB 2 4) NB NZ 2 [(ZZ 1 0)] [(P1E 1 [(RSP 0 NB NZ); (RSP 4 NB NZ)])] [(ZZ 1 0)] [(ZOZ 1 (SZ 3))] false NZ [])); (RS 3 (INack 1 2) [(ORetry 1)] (mkO (SB 2 4) (SB 2 4) (SZ 2) 2 [(ZZ 1 0)] [(P1E 1 [(RSP 3 NB NZ); (RSP 0 NB NZ); (RSP 2 NB NZ)])] [(ZZ 1 0)] [(ZOZ 1 (SZ 3))] false NZ [])); (RS 3 (IPromise 1 4 NB NZ) [] (mkO (SB 2 4) (SB 2 4) (SZ 2) 2 [(ZZ 1 0)] [(P1E 1 [(RSP 3 NB NZ); (RSP 0 NB NZ); (RSP 2 NB NZ); (RSP 4 NB NZ)])] [(ZZ 1 0)] [(ZOZ 1 (SZ 3))] false NZ [])); (RS 2 (IAccept 3 1 3 (SZ 3)) [(ONack 3 1 3 2 4)] (mkO (SB 2 4) (SB 2 4) (SZ 2) 0 [] [] [] [] true (SZ 2) [])); (RS 3 (INack 1 2) [(ORetry 1)] (mkO (SB 2 4) (SB 2 4) (SZ 2) 2 [(ZZ 1 0)] [(P1E 1 [(RSP 3 NB NZ); (RSP 0 NB NZ); (RSP 2 NB NZ); (RSP 4 NB NZ)])] [(ZZ 1 0)] [(ZOZ 1 (SZ 3))] false NZ [])); (RS 4 (IPromise 2 3 NB NZ) [] (mkO (SB 2 4) (SB 2 4) (SZ 2) 2 [(ZZ 2 0)] [(P1E 2 [(RSP 4 NB NZ); (RSP 2 NB NZ); (RSP 0 NB NZ); (RSP 1 (SB 2 4) (SZ 2)); (RSP 3 NB NZ)])] [(ZZ 2 3)] [(ZOZ 2 (SZ 2))] true (SZ 2) [(ZOZ 0 (SZ 2))])); (RS 0 (IAccept 4 2 4 (SZ 2)) [(OAccepted 4 2 4 0)] (mkO (SB 2 4) (SB 2 4) (SZ 2) 2 [(ZZ 1 0)] [(P1E 1 [(RSP 0 NB NZ); (RSP 4 NB NZ)])] [(ZZ 1 0)] [(ZOZ 1 (SZ 3))] false NZ [])); (RS 0 (IRetry 1) [(OPrepare 1 3 0); (OPrepare 2 3 0); (OPrepare 3 3 0); (OPrepare 4 3 0)] (mkO (SB 3 0) (SB 2 4) (SZ 2) 3 [(ZZ 3 0)] [(P1E 1 [(RSP 0 NB NZ); (RSP 4 NB NZ)]); (P1E 3 [(RSP 0 (SB 2 4) (SZ 2))])] [(ZZ 1 0); (ZZ 3 0)] [(ZOZ 3 (SZ 3))] false NZ [])); (RS 1 (IPrepare 0 3 0) [(OPromise 0 3 0 1 (SB 2 4) (SZ 2))] (mkO (SB 3 0) (SB 2 4) (SZ 2) 0 [] [] [] [] true (SZ 2) [])); (RS 4 (IAccepted 2) [] (mkO (SB 2 4) (SB 2 4) (SZ 2) 2 [(ZZ 2 0)] [(P1E 2 [(RSP 4 NB NZ); (RSP 2 NB NZ); (RSP 0 NB NZ); (RSP 1 (SB 2 4) (SZ 2)); (RSP 3 NB NZ)])] [(ZZ 2 4)] [(ZOZ 2 (SZ 2))] true (SZ 2) [(ZOZ 0 (SZ 2))])); (RS 0 (IPromise 3 1 (SB 2 4) (SZ 2)) [] (mkO (SB 3 0) (SB 2 4) (SZ 2) 3 [(ZZ 3 0)] [(P1E 1 [(RSP 0 NB NZ); (RSP 4 NB NZ)]); (P1E 3 [(RSP 0 (SB 2 4) (SZ 2)); (RSP 1 (SB 2 4) (SZ 2))])] [(ZZ 1 0); (ZZ 3 0)] [(ZOZ 3 (SZ 3))] false NZ [])); (RS 4 (IAccept 3 1 3 (SZ 3)) [(ONack 3 1 3 2 4)] (mkO (SB 2 4) (SB 2 4) (SZ 2) 2 [(ZZ 2 0)] [(P1E 2 [(RSP 4 NB NZ); (RSP 2 NB NZ); (RSP 0 NB NZ); (RSP 1 (SB 2 4) (SZ 2)); (RSP 3 NB NZ)])] [(ZZ 2 4)] [(ZOZ 2 (SZ 2))] true (SZ 2) [(ZOZ 0 (SZ 2))])); (RS 4 (IPrepare 0 3 0) [(OPromise 0 3 0 4 (SB 2 4) (SZ 2))] (mkO (SB 3 0) (SB 2 4) (SZ 2) 2 [(ZZ 2 0)] [(P1E 2 [(RSP 4 NB NZ); (RSP 2 NB NZ); (RSP 0 NB NZ); (RSP 1 (SB 2 4) (SZ 2)); (RSP 3 NB NZ)])] [(ZZ 2 4)] [(ZOZ 2 (SZ 2))] true (SZ 2) [(ZOZ 0 (SZ 2))])); (RS 3 (INack 1 2) [(ORetry 1)] (mkO (SB 2 4) (SB 2 4) (SZ 2) 2 [(ZZ 1 0)] [(P1E 1 [(RSP 3 NB NZ); (RSP 0 NB NZ); (RSP 2 NB NZ); (RSP 4 NB NZ)])] [(ZZ 1 0)] [(ZOZ 1 (SZ 3))] false NZ [])); (RS 2 (IPrepare 0 3 0) [(OPromise 0 3 0 2 (SB 2 4) (SZ 2))] (mkO (SB 3 0) (SB 2 4) (SZ 2) 0 [] [] [] [] true (SZ 2) [])); (RS 0 (IPromise 3 2 (SB 2 4) (SZ 2)) [(OAccept 1 3 0 (SZ 2)); (OAccept 2 3 0 (SZ 2)); (OAccept 3 3 0 (SZ 2)); (OAccept 4 3 0 (SZ 2))] (mkO (SB 3 0) (SB 3 0) (SZ 2) 3 [(ZZ 3 0)] [(P1E 1 [(RSP 0 NB NZ); (RSP 4 NB NZ)]); (P1E 3 [(RSP 0 (SB 2 4) (SZ 2)); (RSP 1 (SB 2 4) (SZ 2)); (RSP 2 (SB 2 4) (SZ 2))])] [(ZZ 1 0); (ZZ 3 1)] [(ZOZ 3 (SZ 2))] false NZ [])); (RS 3 (IAccept 0 3 0 (SZ 2)) [(OAccepted 0 3 0 3)] (mkO (SB 3 0) (SB 3 0) (SZ 2) 2 [(ZZ 1 0)] [(P1E 1 [(RSP 3 NB NZ); (RSP 0 NB NZ); (RSP 2 NB NZ); (RSP 4 NB NZ)])] [(ZZ 1 0)] [(ZOZ 1 (SZ 3))] false NZ [])); (RS 0 (IAccepted 3) [] (mkO (SB 3 0) (SB 3 0) (SZ 2) 3 [(ZZ 3 0)] [(P1E 1 [(RSP 0 NB NZ); (RSP 4 NB NZ)]); (P1E 3 [(RSP 0 (SB 2 4) (SZ 2)); (RSP 1 (SB 2 4) (SZ 2)); (RSP 2 (SB 2 4) (SZ 2))])] [(ZZ 1 0); (ZZ 3 2)] [(ZOZ 3 (SZ 2))] false NZ [])); (RS 2 (IAccept 0 3 0 (SZ 2)) [(OAccepted 0 3 0 2)] (mkO (SB 3 0) (SB 3 0) (SZ 2) 0 [] [] [] [] true (SZ 2) [])); (RS 0 (IAccepted 3) [(ODecided 1 (SZ 2)); (ODecided 2 (SZ 2)); (ODecided 3 (SZ 2)); (ODecided 4 (SZ 2))] (mkO (SB 3 0) (SB 3 0) (SZ 2) 3 [(ZZ 3 0)] [(P1E 1 [(RSP 0 NB NZ); (RSP 4 NB NZ)]); (P1E 3 [(RSP 0 (SB 2 4) (SZ 2)); (RSP 1 (SB 2 4) (SZ 2)); (RSP 2 (SB 2 4) (SZ 2))])] [(ZZ 1 0); (ZZ 3 3)] [(ZOZ 3 (SZ 2))] true (SZ 2) [(ZOZ 0 (SZ 2))])); (RS 3 (IDecided (SZ 2)) [] (mkO (SB 3 0) (SB 3 0) (SZ 2) 2 [(ZZ 1 0)] [(P1E 1 [(RSP 3 NB NZ); (RSP 0 NB NZ); (RSP 2 NB NZ); (RSP 4 NB NZ)])] [(ZZ 1 0)] [(ZOZ 1 (SZ 3))] true (SZ 2) [])); (RS 4 (IDecided (SZ 2)) [] (mkO (SB 3 0) (SB 2 4) (SZ 2) 2 [(ZZ 2 0)] [(P1E 2 [(RSP 4 NB NZ); (RSP 2 NB NZ); (RSP 0 NB NZ); (RSP 1 (SB 2 4) (SZ 2)); (RSP 3 NB NZ)])] [(ZZ 2 4)] [(ZOZ 2 (SZ 2))] true (SZ 2) [(ZOZ 0 (SZ 2))])); (RS 2 (IDecided (SZ 2)) [] (mkO (SB 3 0) (SB 3 0) (SZ 2) 0 [] [] [] [] true (SZ 2) [])); (RS 0 (IDecided (SZ 2)) [] (mkO (SB 3 0) (SB 3 0) (SZ 2) 3 [(ZZ 3 0)] [(P1E 1 [(RSP 0 NB NZ); (RSP 4 NB NZ)]); (P1E 3 [(RSP 0 (SB 2 4) (SZ 2)); (RSP 1 (SB 2 4) (SZ 2)); (RSP 2 (SB 2 4) (SZ 2))])] [(ZZ 1 0); (ZZ 3 3)] [(ZOZ 3 (SZ 2))] true (SZ 2) [(ZOZ 0 (SZ 2))])); (RS 3 (IDecided (SZ 2)) [] (mkO (SB 3 0) (SB 3 0) (SZ 2) 2 [(ZZ 1 0)] [(P1E 1 [(RSP 3 NB NZ); (RSP 0 NB NZ); (RSP 2 NB NZ); (RSP 4 NB NZ)])] [(ZZ 1 0)] [(ZOZ 1 (SZ 3))] true (SZ 2) [])); (RS 1 (IAccept 0 3 0 (SZ 2)) [(OAccepted 0 3 0 1)] (mkO (SB 3 0) (SB 3 0) (SZ 2) 0 [] [] [] [] true (SZ 2) [])); (RS 1 (IAccept 3 1 3 (SZ 3)) [(ONack 3 1 3 3 0)] (mkO (SB 3 0) (SB 3 0) (SZ 2) 0 [] [] [] [] true (SZ 2) [])); (RS 0 (IRetry 1) [] (mkO (SB 3 0) (SB 3 0) (SZ 2) 3 [(ZZ 3 0)] [(P1E 1 [(RSP 0 NB NZ); (RSP 4 NB NZ)]); (P1E 3 [(RSP 0 (SB 2 4) (SZ 2)); (RSP 1 (SB 2 4) (SZ 2)); (RSP 2 (SB 2 4) (SZ 2))])] [(ZZ 1 0); (ZZ 3 3)] [(ZOZ 3 (SZ 2))] true (SZ 2) [(ZOZ 0 (SZ 2))])); (RS 3 (INack 1 3) [(ORetry 1)] (mkO (SB 3 0) (SB 3 0) (SZ 2) 3 [(ZZ 1 0)] [(P1E 1 [(RSP 3 NB NZ); (RSP 0 NB NZ); (RSP 2 NB NZ); (RSP 4 NB NZ)])] [(ZZ 1 0)] [(ZOZ 1 (SZ 3))] true (SZ 2) [])); (RS 3 (IRetry 1) [] (mkO (SB 3 0) (SB 3 0) (SZ 2) 3 [(ZZ 1 0)] [(P1E 1 [(RSP 3 NB NZ); (RSP 0 NB NZ); (RSP 2 NB NZ); (RSP 4 NB NZ)])] [(ZZ 1 0)] [(ZOZ 1 (SZ 3))] true (SZ 2) [])); (RS 3 (IRetry 1) [] (mkO (SB 3 0) (SB 3 0) (SZ 2) 3 [(ZZ 1 0)] [(P1E 1 [(RSP 3 NB NZ); (RSP 0 NB NZ); (RSP 2 NB NZ); (RSP 4 NB NZ)])] [(ZZ 1 0)] [(ZOZ 1 (SZ 3))] true (SZ 2) [])); (RS 0 (IRetry 1) [] (mkO (SB 3 0) (SB 3 0) (SZ 2) 3 [(ZZ 3 0)] [(P1E 1 [(RSP 0 NB NZ); (RSP 4 NB NZ)]); (P1E 3 [(RSP 0 (SB 2 4) (SZ 2)); (RSP 1 (SB 2 4) (SZ 2)); (RSP 2 (SB 2 4) (SZ 2))])] [(ZZ 1 0); (ZZ 3 3)] [(ZOZ 3 (SZ 2))] true (SZ 2) [(ZOZ 0 (SZ 2))])); (RS 4 (IAccepted 2) [] (mkO (SB 3 0) (SB 2 4) (SZ 2) 2 [(ZZ 2 0)] [(P1E 2 [(RSP 4 NB NZ); (RSP 2 NB NZ); (RSP 0 NB NZ); (RSP 1 (SB 2 4) (SZ 2)); (RSP 3 NB NZ)])] [(ZZ 2 5)] [(ZOZ 2 (SZ 2))] true (SZ 2) [(ZOZ 0 (SZ 2))])); (RS 3 (IPrepare 0 3 0) [(OPromise 0 3 0 3 (SB 3 0) (SZ 2))] (mkO (SB 3 0) (SB 3 0) (SZ 2) 3 [(ZZ 1 0)] [(P1E 1 [(RSP 3 NB NZ); (RSP 0 NB NZ); (RSP 2 NB NZ); (RSP 4 NB NZ)])] [(ZZ 1 0)] [(ZOZ 1 (SZ 3))] true (SZ 2) [])); (RS 0 (IPromise 3 4 (SB 2 4) (SZ 2)) [] (mkO (SB 3 0) (SB 3 0) (SZ 2) 3 [(ZZ 3 0)] [(P1E 1 [(RSP 0 NB NZ); (RSP 4 NB NZ)]); (P1E 3 [(RSP 0 (SB 2 4) (SZ 2)); (RSP 1 (SB 2 4) (SZ 2)); (RSP 2 (SB 2 4) (SZ 2)); (RSP 4 (SB 2 4) (SZ 2))])] [(ZZ 1 0); (ZZ 3 3)] [(ZOZ 3 (SZ 2))] true (SZ 2) [(ZOZ 0 (SZ 2))])); (RS 4 (IAccept 0 3 0 (SZ 2)) [(OAccepted 0 3 0 4)] (mkO (SB 3 0) (SB 3 0) (SZ 2) 2 [(ZZ 2 0)] [(P1E 2 [(RSP 4 NB NZ); (RSP 2 NB NZ); (RSP 0 NB NZ); (RSP 1 (SB 2 4) (SZ 2)); (RSP 3 NB NZ)])] [(ZZ 2 5)] [(ZOZ 2 (SZ 2))] true (SZ 2) [(ZOZ 0 (SZ 2))])); (RS 0 (IAccepted 3) [] (mkO (SB 3 0) (SB 3 0) (SZ 2) 3 [(ZZ 3 0)] [(P1E 1 [(RSP 0 NB NZ); (RSP 4 NB NZ)]); (P1E 3 [(RSP 0 (SB 2 4) (SZ 2)); (RSP 1 (SB 2 4) (SZ 2)); (RSP 2 (SB 2 4) (SZ 2)); (RSP 4 (SB 2 4) (SZ 2))])] [(ZZ 1 0); (ZZ 3 4)] [(ZOZ 3 (SZ 2))] true (SZ 2) [(ZOZ 0 (SZ 2))])); (RS 3 (IRetry 1) [] (mkO (SB 3 0) (SB 3 0) (SZ 2) 3 [(ZZ 1 0)] [(P1E 1 [(RSP 3 NB NZ); (RSP 0 NB NZ); (RSP 2 NB NZ); (RSP 4 NB NZ)])] [(ZZ 1 0)] [(ZOZ 1 (SZ 3))] true (SZ 2) [])); (RS 1 (IDecided (SZ 2)) [] (mkO (SB 3 0) (SB 3 0) (SZ 2) 0 [] [] [] [] true (SZ 2) [])); (RS 0 (IPromise 3 3 (SB 3 0) (SZ 2)) [] (mkO (SB 3 0) (SB 3 0) (SZ 2) 3 [(ZZ 3 0)] [(P1E 1 [(RSP 0 NB NZ); (RSP 4 NB NZ)]); (P1E 3 [(RSP 0 (SB 2 4) (SZ 2)); (RSP 1 (SB 2 4) (SZ 2)); (RSP 2 (SB 2 4) (SZ 2)); (RSP 4 (SB 2 4) (SZ 2)); (RSP 3 (SB 3 0) (SZ 2))])] [(ZZ 1 0); (ZZ 3 4)] [(ZOZ 3 (SZ 2))] true (SZ 2) [(ZOZ 0 (SZ 2))])); (RS 0 (IAccepted 3) [] (mkO (SB 3 0) (SB 3 0) (SZ 2) 3 [(ZZ 3 0)] [(P1E 1 [(RSP 0 NB NZ); (RSP 4 NB NZ)]); (P1E 3 [(RSP 0 (SB 2 4) (SZ 2)); (RSP 1 (SB 2 4) (SZ 2)); (RSP 2 (SB 2 4) (SZ 2)); (RSP 4 (SB 2 4) (SZ 2)); (RSP 3 (SB 3 0) (SZ 2))])] [(ZZ 1 0); (ZZ 3 5)] [(ZOZ 3 (SZ 2))] true (SZ 2) [(ZOZ 0 (SZ 2))])); (RS 3 (IRetry 1) [] (mkO (SB 3 0) (SB 3 0) (SZ 2) 3 [(ZZ 1 0)] [(P1E 1 [(RSP 3 NB NZ); (RSP 0 NB NZ); (RSP 2 NB NZ); (RSP 4 NB NZ)])] [(ZZ 1 0)] [(ZOZ 1 (SZ 3))] true (SZ 2) [])); (RS 3 (IRetry 1) [] (mkO (SB 3 0) (SB 3 0) (SZ 2) 3 [(ZZ 1 0)] [(P1E 1 [(RSP 3 NB NZ); (RSP 0 NB NZ); (RSP 2 NB NZ); (RSP 4 NB NZ)])] [(ZZ 1 0)] [(ZOZ 1 (SZ 3))] true (SZ 2) []))]).
Definition case_35 : Z * list rec_step := (3, [(RS 2 (IPropose 2) [(OPrepare 0 1 2); (OPrepare 1 1 2)] (mkO (SB 1 2) NB NZ 1 [(ZZ 1 0)] [(P1E 1 [(RSP 2 NB NZ)])] [(ZZ 1 0)] [(ZOZ 1 (SZ 2))] false NZ [])); (RS 0 (IPrepare 2 1 2) [(OPromise 2 1 2 0 NB NZ)] (mkO (SB 1 2) NB NZ 0 [] [] [] [] false NZ [])); (RS 1 (IPrepare 2 1 2) [(OPromise 2 1 2 1 NB NZ)] (mkO (SB 1 2) NB NZ 0 [] [] [] [] false NZ [])); (RS 2 (IPromise 1 0 NB NZ) [(OAccept 0 1 2 (SZ 2)); (OAccept 1 1 2 (SZ 2))] (mkO (SB 1 2) (SB 1 2) (SZ 2) 1 [(ZZ 1 0)] [(P1E 1 [(RSP 2 NB NZ); (RSP 0 NB NZ)])] [(ZZ 1 1)] [(ZOZ 1 (SZ 2))] false NZ [])); (RS 0 (IAccept 2 1 2 (SZ 2)) [(OAccepted 2 1 2 0)] (mkO (SB 1 2) (SB 1 2) (SZ 2) 0 [] [] [] [] false NZ [])); (RS 2 (IPromise 1 1 NB NZ) [] (mkO (SB 1 2) (SB 1 2) (SZ 2) 1 [(ZZ 1 0)] [(P1E 1 [(RSP 2 NB NZ); (RSP 0 NB NZ); (RSP 1 NB NZ)])] [(ZZ 1 1)] [(ZOZ 1 (SZ 2))] false NZ [])); (RS 2 (IAccepted 1) [(ODecided 0 (SZ 2)); (ODecided 1 (SZ 2))] (mkO (SB 1 2) (SB 1 2) (SZ 2) 1 [(ZZ 1 0)] [(P1E 1 [(RSP 2 NB NZ); (RSP 0 NB NZ); (RSP 1 NB NZ)])] [(ZZ 1 2)] [(ZOZ 1 (SZ 2))] true (SZ 2) [(ZOZ 0 (SZ 2))])); (RS 1 (IDecided (SZ 2)) [] (mkO (SB 1 2) NB NZ 0 [] [] [] [] true (SZ 2) [])); (RS 1 (IAccept 2 1 2 (SZ 2)) [(OAccepted 2 1 2 1)] (mkO (SB 1 2) (SB 1 2) (SZ 2) 0 [] [] [] [] true (SZ 2) [])); (RS 2 (IAccepted 1) [] (mkO (SB 1 2) (SB 1 2) (SZ 2) 1 [(ZZ 1 0)] [(P1E 1 [(RSP 2 NB NZ); (RSP 0 NB NZ); (RSP 1 NB NZ)])] [(ZZ 1 3)] [(ZOZ 1 (SZ 2))] true (SZ 2) [(ZOZ 0 (SZ 2))])); (RS 0 (IDecided (SZ 2)) [] (mkO (SB 1 2) (SB 1 2) (SZ 2) 0 [] [] [] [] true (SZ 2) []))]).
Definition case_36 : Z * list rec_step := (3, [(RS 1 (IPropose 1) [(OPrepare 0 1 1); (OPrepare 2 1 1)] (mkO (SB 1 1) NB NZ 1 [(ZZ 1 0)] [(P1E 1 [(RSP 1 NB NZ)])] [(ZZ 1 0)] [(ZOZ 1 (SZ 1))] false NZ [])); (RS 0 (IPrepare 1 1 1) [(OPromise 1 1 1 0 NB NZ)] (mkO (SB 1 1) NB NZ 0 [] [] [] [] false NZ [])); (RS 2 (IPrepare 1 1 1) [(OPromise 1 1 1 2 NB NZ)] (mkO (SB 1 1) NB NZ 0 [] [] [] [] false NZ [])); (RS 1 (IPromise 1 0 NB NZ) [(OAccept 0 1 1 (SZ 1)); (OAccept 2 1 1 (SZ 1))] (mkO (SB 1 1) (SB 1 1) (SZ 1) 1 [(ZZ 1 0)] [(P1E 1 [(RSP 1 NB NZ); (RSP 0 NB NZ)])] [(ZZ 1 1)] [(ZOZ 1 (SZ 1))] false NZ [])); (RS 1 (IPromise 1 2 NB NZ) [] (mkO (SB 1 1) (SB 1 1) (SZ 1) 1 [(ZZ 1 0)] [(P1E 1 [(RSP 1 NB NZ); (RSP 0 NB NZ); (RSP 2 NB NZ)])] [(ZZ 1 1)] [(ZOZ 1 (SZ 1))] false NZ [])); (RS 2 (IAccept 1 1 1 (SZ 1)) [(OAccepted 1 1 1 2)] (mkO (SB 1 1) (SB 1 1) (SZ 1) 0 [] [] [] [] false NZ [])); (RS 0 (IPropose 1) [(OPrepare 1 2 0); (OPrepare 2 2 0)] (mkO (SB 2 0) NB NZ 2 [(ZZ 2 0)] [(P1E 2 [(RSP 0 NB NZ)])] [(ZZ 2 0)] [(ZOZ 2 (SZ 1))] false NZ [])); (RS 1 (IPropose 3) [(OPrepare 0 2 1); (OPrepare 2 2 1)] (mkO (SB 2 1) (SB 1 1) (SZ 1) 2 [(ZZ 1 0); (ZZ 2 1)] [(P1E 1 [(RSP 1 NB NZ); (RSP 0 NB NZ); (RSP 2 NB NZ)]); (P1E 2 [(RSP 1 (SB 1 1) (SZ 1))])] [(ZZ 1 1); (ZZ 2 0)] [(ZOZ 1 (SZ 1)); (ZOZ 2 (SZ 3))] false NZ [])); (RS 1 (IPrepare 0 2 0) [(ONack 0 2 0 2 1)] (mkO (SB 2 1) (SB 1 1) (SZ 1) 2 [(ZZ 1 0); (ZZ 2 1)] [(P1E 1 [(RSP 1 NB NZ); (RSP 0 NB NZ); (RSP 2 NB NZ)]); (P1E 2 [(RSP 1 (SB 1 1) (SZ 1))])] [(ZZ 1 1); (ZZ 2 0)] [(ZOZ 1 (SZ 1)); (ZOZ 2 (SZ 3))] false NZ [])); (RS 0 (IPrepare 1 2 1) [(OPromise 1 2 1 0 NB NZ)] (mkO (SB 2 1) NB NZ 2 [(ZZ 2 0)] [(P1E 2 [(RSP 0 NB NZ)])] [(ZZ 2 0)] [(ZOZ 2 (SZ 1))] false NZ [])); (RS 2 (IPrepare 0 2 0) [(OPromise 0 2 0 2 (SB 1 1) (SZ 1))] (mkO (SB 2 0) (SB 1 1) (SZ 1) 0 [] [] [] [] false NZ [])); (RS 2 (IPrepare 1 2 1) [(OPromise 1 2 1 2 (SB 1 1) (SZ 1))] (mkO (SB 2 1) (SB 1 1) (SZ 1) 0 [] [] [] [] false NZ [])); (RS 1 (IPromise 2 0 NB NZ) [(OAccept 0 2 1 (SZ 1)); (OAccept 2 2 1 (SZ 1))] (mkO (SB 2 1) (SB 2 1) (SZ 1) 2 [(ZZ 1 0); (ZZ 2 1)] [(P1E 1 [(RSP 1 NB NZ); (RSP 0 NB NZ); (RSP 2 NB NZ)]); (P1E 2 [(RSP 1 (SB 1 1) (SZ 1)); (RSP 0 NB NZ)])] [(ZZ 1 1); (ZZ 2 1)] [(ZOZ 1 (SZ 1)); (ZOZ 2 (SZ 1))] false NZ [])); (RS 0 (IAccept 1 2 1 (SZ 1)) [(OAccepted 1 2 1 0)] (mkO (SB 2 1) (SB 2 1) (SZ 1) 2 [(ZZ 2 0)] [(P1E 2 [(RSP 0 NB NZ)])] [(ZZ 2 0)] [(ZOZ 2 (SZ 1))] false NZ [])); (RS 1 (IAccepted 2) [(ODecided 0 (SZ 1)); (ODecided 2 (SZ 1))] (mkO (SB 2 1) (SB 2 1) (SZ 1) 2 [(ZZ 1 0); (ZZ 2 1)] [(P1E 1 [(RSP 1 NB NZ); (RSP 0 NB NZ); (RSP 2 NB NZ)]); (P1E 2 [(RSP 1 (SB 1 1) (SZ 1)); (RSP 0 NB NZ)])] [(ZZ 1 1); (ZZ 2 2)] [(ZOZ 1 (SZ 1)); (ZOZ 2 (SZ 1))] true (SZ 1) [(ZOZ 1 (SZ 1))])); (RS 0 (IDecided (SZ 1)) [] (mkO (SB 2 1) (SB 2 1) (SZ 1) 2 [(ZZ 2 0)] [(P1E 2 [(RSP 0 NB NZ)])] [(ZZ 2 0)] [(ZOZ 2 (SZ 1))] true (SZ 1) [])); (RS 0 (IPropose 3) [] (mkO (SB 2 1) (SB 2 1) (SZ 1) 2 [(ZZ 2 0)] [(P1E 2 [(RSP 0 NB NZ)])] [(ZZ 2 0)] [(ZOZ 2 (SZ 1))] true (SZ 1) [(ZOZ 1 (SZ 1))])); (RS 0 (IAccept 1 1 1 (SZ 1)) [(ONack 1 1 1 2 1)] (mkO (SB 2 1) (SB 2 1) (SZ 1) 2 [(ZZ 2 0)] [(P1E 2 [(RSP 0 NB NZ)])] [(ZZ 2 0)] [(ZOZ 2 (SZ 1))] true (SZ 1) [(ZOZ 1 (SZ 1))])); (RS 1 (INack 1 2) [(ORetry 1)] (mkO (SB 2 1) (SB 2 1) (SZ 1) 2 [(ZZ 1 0); (ZZ 2 1)] [(P1E 1 [(RSP 1 NB NZ); (RSP 0 NB NZ); (RSP 2 NB NZ)]); (P1E 2 [(RSP 1 (SB 1 1) (SZ 1)); (RSP 0 NB NZ)])] [(ZZ 1 1); (ZZ 2 2)] [(ZOZ 1 (SZ 1)); (ZOZ 2 (SZ 1))] true (SZ 1) [(ZOZ 1 (SZ 1))])); (RS 1 (IRetry 1) [] (mkO (SB 2 1) (SB 2 1) (SZ 1) 2 [(ZZ 1 0); (ZZ 2 1)] [(P1E 1 [(RSP 1 NB NZ); (RSP 0 NB NZ); (RSP 2 NB NZ)]); (P1E 2 [(RSP 1 (SB 1 1) (SZ 1)); (RSP 0 NB NZ)])] [(ZZ 1 1); (ZZ 2 2)] [(ZOZ 1 (SZ 1)); (ZOZ 2 (SZ 1))] true (SZ 1) [(ZOZ 1 (SZ 1))])); (RS 0 (INack 2 2) [(ORetry 2)] (mkO (SB 2 1) (SB 2 1) (SZ 1) 2 [(ZZ 2 0)] [(P1E 2 [(RSP 0 NB NZ)])] [(ZZ 2 0)] [(ZOZ 2 (SZ 1))] true (SZ 1) [(ZOZ 1 (SZ 1))])); (RS 1 (IPromise 2 2 (SB 1 1) (SZ 1)) [] (mkO (SB 2 1) (SB 2 1) (SZ 1) 2 [(ZZ 1 0); (ZZ 2 1)] [(P1E 1 [(RSP 1 NB NZ); (RSP 0 NB NZ); (RSP 2 NB NZ)]); (P1E 2 [(RSP 1 (SB 1 1) (SZ 1)); (RSP 0 NB NZ); (RSP 2 (SB 1 1) (SZ 1))])] [(ZZ 1 1); (ZZ 2 2)] [(ZOZ 1 (SZ 1)); (ZOZ 2 (SZ 1))] true (SZ 1) [(ZOZ 1 (SZ 1))])); (RS 2 (IAccept 1 2 1 (SZ 1)) [(OAccepted 1 2 1 2)] (mkO (SB 2 1) (SB 2 1) (SZ 1) 0 [] [] [] [] false NZ [])); (RS 1 (IAccepted 2) [] (mkO (SB 2 1) (SB 2 1) (SZ 1) 2 [(ZZ 1 0); (ZZ 2 1)] [(P1E 1 [(RSP 1 NB NZ); (RSP 0 NB NZ); (RSP 2 NB NZ)]); (P1E 2 [(RSP 1 (SB 1 1) (SZ 1)); (RSP 0 NB NZ); (RSP 2 (SB 1 1) (SZ 1))])] [(ZZ 1 1); (ZZ 2 3)] [(ZOZ 1 (SZ 1)); (ZOZ 2 (SZ 1))] true (SZ 1) [(ZOZ 1 (SZ 1))])); (RS 2 (IDecided (SZ 1)) [] (mkO (SB 2 1) (SB 2 1) (SZ 1) 0 [] [] [] [] true (SZ 1) [])); (RS 0 (IRetry 2) [] (mkO (SB 2 1) (SB 2 1) (SZ 1) 2 [(ZZ 2 0)] [(P1E 2 [(RSP 0 NB NZ)])] [(ZZ 2 0)] [(ZOZ 2 (SZ 1))] true (SZ 1) [(ZOZ 1 (SZ 1))]))]).
Definition case_37 : Z * list rec_step := (5, [(RS 0 (IPropose 3) [(OPrepare 1 1 0); (OPrepare 2 1 0); (OPrepare 3 1 0); (OPrepare 4 1 0)] (mkO (SB 1 0) NB NZ 1 [(ZZ 1 0)] [(P1E 1 [(RSP 0 NB NZ)])] [(ZZ 1 0)] [(ZOZ 1 (SZ 3))] false NZ [])); (RS 1 (IPrepare 0 1 0) [(OPromise 0 1 0 1 NB NZ)] (mkO (SB 1 0) NB NZ 0 [] [] [] [] false NZ [])); (RS 3 (IPrepare 0 1 0) [(OPromise 0 1 0 3 NB NZ)] (mkO (SB 1 0) NB NZ 0 [] [] [] [] false NZ [])); (RS 0 (IPromise 1 1 NB NZ) [] (mkO (SB 1 0) NB NZ 1 [(ZZ 1 0)] [(P1E 1 [(RSP 0 NB NZ); (RSP 1 NB NZ)])] [(ZZ 1 0)] [(ZOZ 1 (SZ 3))] false NZ [])); (RS 2 (IPropose 1) [(OPrepare 0 1 2); (OPrepare 1 1 2); (OPrepare 3 1 2); (OPrepare 4 1 2)] (mkO (SB 1 2) NB NZ 1 [(ZZ 1 0)] [(P1E 1 [(RSP 2 NB NZ)])] [(ZZ 1 0)] [(ZOZ 1 (SZ 1))] false NZ [])); (RS 4 (IPrepare 2 1 2) [(OPromise 2 1 2 4 NB NZ)] (mkO (SB 1 2) NB NZ 0 [] [] [] [] false NZ [])); (RS 2 (IPromise 1 4 NB NZ) [] (mkO (SB 1 2) NB NZ 1 [(ZZ 1 0)] [(P1E 1 [(RSP 2 NB NZ); (RSP 4 NB NZ)])] [(ZZ 1 0)] [(ZOZ 1 (SZ 1))] false NZ [])); (RS 0 (IPromise 1 3 NB NZ) [(OAccept 1 1 0 (SZ 3)); (OAccept 2 1 0 (SZ 3)); (OAccept 3 1 0 (SZ 3)); (OAccept 4 1 0 (SZ 3))] (mkO (SB 1 0) (SB 1 0) (SZ 3) 1 [(ZZ 1 0)] [(P1E 1 [(RSP 0 NB NZ); (RSP 1 NB NZ); (RSP 3 NB NZ)])] [(ZZ 1 1)] [(ZOZ 1 (SZ 3))] false NZ [])); (RS 3 (IAccept 0 1 0 (SZ 3)) [(OAccepted 0 1 0 3)] (mkO (SB 1 0) (SB 1 0) (SZ 3) 0 [] [] [] [] false NZ [])); (RS 0 (IAccepted 1) [] (mkO (SB 1 0) (SB 1 0) (SZ 3) 1 [(ZZ 1 0)] [(P1E 1 [(RSP 0 NB NZ); (RSP 1 NB NZ); (RSP 3 NB NZ)])] [(ZZ 1 2)] [(ZOZ 1 (SZ 3))] false NZ [])); (RS 4 (IAccept 0 1 0 (SZ 3)) [(ONack 0 1 0 1 2)] (mkO (SB 1 2) NB NZ 0 [] [] [] [] false NZ [])); (RS 2 (IAccept 0 1 0 (SZ 3)) [(ONack 0 1 0 1 2)] (mkO (SB 1 2) NB NZ 1 [(ZZ 1 0)] [(P1E 1 [(RSP 2 NB NZ); (RSP 4 NB NZ)])] [(ZZ 1 0)] [(ZOZ 1 (SZ 1))] false NZ [])); (RS 0 (INack 1 1) [(ORetry 1)] (mkO (SB 1 0) (SB 1 0) (SZ 3) 1 [(ZZ 1 0)] [(P1E 1 [(RSP 0 NB NZ); (RSP 1 NB NZ); (RSP 3 NB NZ)])] [(ZZ 1 2)] [(ZOZ 1 (SZ 3))] false NZ [])); (RS 0 (INack 1 1) [(ORetry 1)] (mkO (SB 1 0) (SB 1 0) (SZ 3) 1 [(ZZ 1 0)] [(P1E 1 [(RSP 0 NB NZ); (RSP 1 NB NZ); (RSP 3 NB NZ)])] [(ZZ 1 2)] [(ZOZ 1 (SZ 3))] false NZ [])); (RS 0 (IRetry 1) [(OPrepare 1 2 0); (OPrepare 2 2 0); (OPrepare 3 2 0); (OPrepare 4 2 0)] (mkO (SB 2 0) (SB 1 0) (SZ 3) 2 [(ZZ 2 0)] [(P1E 1 [(RSP 0 NB NZ); (RSP 1 NB NZ); (RSP 3 NB NZ)]); (P1E 2 [(RSP 0 (SB 1 0) (SZ 3))])] [(ZZ 1 2); (ZZ 2 0)] [(ZOZ 2 (SZ 3))] false NZ [])); (RS 2 (IPrepare 0 2 0) [(OPromise 0 2 0 2 NB NZ)] (mkO (SB 2 0) NB NZ 1 [(ZZ 1 0)] [(P1E 1 [(RSP 2 NB NZ); (RSP 4 NB NZ)])] [(ZZ 1 0)] [(ZOZ 1 (SZ 1))] false NZ [])); (RS 1 (IPrepare 0 2 0) [(OPromise 0 2 0 1 NB NZ)] (mkO (SB 2 0) NB NZ 0 [] [] [] [] false NZ [])); (RS 0 (IPromise 2 2 NB NZ) [] (mkO (SB 2 0) (SB 1 0) (SZ 3) 2 [(ZZ 2 0)] [(P1E 1 [(RSP 0 NB NZ); (RSP 1 NB NZ); (RSP 3 NB NZ)]); (P1E 2 [(RSP 0 (SB 1 0) (SZ 3)); (RSP 2 NB NZ)])] [(ZZ 1 2); (ZZ 2 0)] [(ZOZ 2 (SZ 3))] false NZ [])); (RS 0 (IRetry 1) [] (mkO (SB 2 0) (SB 1 0) (SZ 3) 2 [(ZZ 2 0)] [(P1E 1 [(RSP 0 NB NZ); (RSP 1 NB NZ); (RSP 3 NB NZ)]); (P1E 2 [(RSP 0 (SB 1 0) (SZ 3)); (RSP 2 NB NZ)])] [(ZZ 1 2); (ZZ 2 0)] [(ZOZ 2 (SZ 3))] false NZ [])); (RS 3 (IPrepare 0 2 0) [(OPromise 0 2 0 3 (SB 1 0) (SZ 3))] (mkO (SB 2 0) (SB 1 0) (SZ 3) 0 [] [] [] [] false NZ [])); (RS 0 (IPromise 2 1 NB NZ) [(OAccept 1 2 0 (SZ 3)); (OAccept 2 2 0 (SZ 3)); (OAccept 3 2 0 (SZ 3)); (OAccept 4 2 0 (SZ 3))] (mkO (SB 2 0) (SB 2 0) (SZ 3) 2 [(ZZ 2 0)] [(P1E 1 [(RSP 0 NB NZ); (RSP 1 NB NZ); (RSP 3 NB NZ)]); (P1E 2 [(RSP 0 (SB 1 0) (SZ 3)); (RSP 2 NB NZ); (RSP 1 NB NZ)])] [(ZZ 1 2); (ZZ 2 1)] [(ZOZ 2 (SZ 3))] false NZ [])); (RS 3 (IAccept 0 2 0 (SZ 3)) [(OAccepted 0 2 0 3)] (mkO (SB 2 0) (SB 2 0) (SZ 3) 0 [] [] [] [] false NZ [])); (RS 1 (IAccept 0 2 0 (SZ 3)) [(OAccepted 0 2 0 1)] (mkO (SB 2 0) (SB 2 0) (SZ 3) 0 [] [] [] [] false NZ [])); (RS 0 (IAccepted 2) [] (mkO (SB 2 0) (SB 2 0) (SZ 3) 2 [(ZZ 2 0)] [(P1E 1 [(RSP 0 NB NZ); (RSP 1 NB NZ); (RSP 3 NB NZ)]); (P1E 2 [(RSP 0 (SB 1 0) (SZ 3)); (RSP 2 NB NZ); (RSP 1 NB NZ)])] [(ZZ 1 2); (ZZ 2 2)] [(ZOZ 2 (SZ 3))] false NZ [])); (RS 0 (IAccepted 2) [(ODecided 1 (SZ 3)); (ODecided 2 (SZ 3)); (ODecided 3 (SZ 3)); (ODecided 4 (SZ 3))] (mkO (SB 2 0) (SB 2 0) (SZ 3) 2 [(ZZ 2 0)] [(P1E 1 [(RSP 0 NB NZ); (RSP 1 NB NZ); (RSP 3 NB NZ)]); (P1E 2 [(RSP 0 (SB 1 0) (SZ 3)); (RSP 2 NB NZ); (RSP 1 NB NZ)])] [(ZZ 1 2); (ZZ 2 3)] [(ZOZ 2 (SZ 3))] true (SZ 3) [(ZOZ 0 (SZ 3))])); (RS 0 (IPromise 2 3 (SB 1 0) (SZ 3)) [] (mkO (SB 2 0) (SB 2 0) (SZ 3) 2 [(ZZ 2 0)] [(P1E 1 [(RSP 0 NB NZ); (RSP 1 NB NZ); (RSP 3 NB NZ)]); (P1E 2 [(RSP 0 (SB 1 0) (SZ 3)); (RSP 2 NB NZ); (RSP 1 NB NZ); (RSP 3 (SB 1 0) (SZ 3))])] [(ZZ 1 2); (ZZ 2 3)] [(ZOZ 2 (SZ 3))] true (SZ 3) [(ZOZ 0 (SZ 3))])); (RS 1 (IDecided (SZ 3)) [] (mkO (SB 2 0) (SB 2 0) (SZ 3) 0 [] [] [] [] true (SZ 3) [])); (RS 4 (IDecided (SZ 3)) [] (mkO (SB 1 2) NB NZ 0 [] [] [] [] true (SZ 3) [])); (RS 2 (IDecided (SZ 3)) [] (mkO (SB 2 0) NB NZ 1 [(ZZ 1 0)] [(P1E 1 [(RSP 2 NB NZ); (RSP 4 NB NZ)])] [(ZZ 1 0)] [(ZOZ 1 (SZ 1))] true (SZ 3) [])); (RS 2 (IAccept 0 2 0 (SZ 3)) [(OAccepted 0 2 0 2)] (mkO (SB 2 0) (SB 2 0) (SZ 3) 1 [(ZZ 1 0)] [(P1E 1 [(RSP 2 NB NZ); (RSP 4 NB NZ)])] [(ZZ 1 0)] [(ZOZ 1 (SZ 1))] true (SZ 3) [])); (RS 1 (IAccept 0 1 0 (SZ 3)) [(ONack 0 1 0 2 0)] (mkO (SB 2 0) (SB 2 0) (SZ 3) 0 [] [] [] [] true (SZ 3) [])); (RS 0 (IAccepted 2) [] (mkO (SB 2 0) (SB 2 0) (SZ 3) 2 [(ZZ 2 0)] [(P1E 1 [(RSP 0 NB NZ); (RSP 1 NB NZ); (RSP 3 NB NZ)]); (P1E 2 [(RSP 0 (SB 1 0) (SZ 3)); (RSP 2 NB NZ); (RSP 1 NB NZ); (RSP 3 (SB 1 0) (SZ 3))])] [(ZZ 1 2); (ZZ 2 4)] [(ZOZ 2 (SZ 3))] true (SZ 3) [(ZOZ 0 (SZ 3))])); (RS 3 (IDecided (SZ 3)) [] (mkO (SB 2 0) (SB 2 0) (SZ 3) 0 [] [] [] [] true (SZ 3) [])); (RS 4 (IPrepare 0 2 0) [(OPromise 0 2 0 4 NB NZ)] (mkO (SB 2 0) NB NZ 0 [] [] [] [] true (SZ 3) [])); (RS 0 (IPromise 2 4 NB NZ) [] (mkO (SB 2 0) (SB 2 0) (SZ 3) 2 [(ZZ 2 0)] [(P1E 1 [(RSP 0 NB NZ); (RSP 1 NB NZ); (RSP 3 NB NZ)]); (P1E 2 [(RSP 0 (SB 1 0) (SZ 3)); (RSP 2 NB NZ); (RSP 1 NB NZ); (RSP 3 (SB 1 0) (SZ 3)); (RSP 4 NB NZ)])] [(ZZ 1 2); (ZZ 2 4)] [(ZOZ 2 (SZ 3))] true (SZ 3) [(ZOZ 0 (SZ 3))])); (RS 4 (IAccept 0 2 0 (SZ 3)) [(OAccepted 0 2 0 4)] (mkO (SB 2 0) (SB 2 0) (SZ 3) 0 [] [] [] [] true (SZ 3) [])); (RS 0 (IAccepted 2) [] (mkO (SB 2 0) (SB 2 0) (SZ 3) 2 [(ZZ 2 0)] [(P1E 1 [(RSP 0 NB NZ); (RSP 1 NB NZ); (RSP 3 NB NZ)]); (P1E 2 [(RSP 0 (SB 1 0) (SZ 3)); (RSP 2 NB NZ); (RSP 1 NB NZ); (RSP 3 (SB 1 0) (SZ 3)); (RSP 4 NB NZ)])] [(ZZ 1 2); (ZZ 2 5)] [(ZOZ 2 (SZ 3))] true (SZ 3) [(ZOZ 0 (SZ 3))])); (RS 0 (INack 1 2) [] (mkO (SB 2 0) (SB 2 0) (SZ 3) 2 [(ZZ 2 0)] [(P1E 1 [(RSP 0 NB NZ); (RSP 1 NB NZ); (RSP 3 NB NZ)]); (P1E 2 [(RSP 0 (SB 1 0) (SZ 3)); (RSP 2 NB NZ); (RSP 1 NB NZ); (RSP 3 (SB 1 0) (SZ 3)); (RSP 4 NB NZ)])] [(ZZ 1 2); (ZZ 2 5)] [(ZOZ 2 (SZ 3))] true (SZ 3) [(ZOZ 0 (SZ 3))]))]).
Definition case_38 : Z * list rec_step := (3, [(RS 1 (IPropose 1) [(OPrepare 0 1 1); (OPrepare 2 1 1)] (mkO (SB 1 1) NB NZ 1 [(ZZ 1 0)] [(P1E 1 [(RSP 1 NB NZ)])] [(ZZ 1 0)] [(ZOZ 1 (SZ 1))] false NZ [])); (RS 2 (IPropose 2) [(OPrepare 0 1 2); (OPrepare 1 1 2)] (mkO (SB 1 2) NB NZ 1 [(ZZ 1 0)] [(P1E 1 [(RSP 2 NB NZ)])] [(ZZ 1 0)] [(ZOZ 1 (SZ 2))] false NZ [])); (RS 0 (IPrepare 1 1 1) [(OPromise 1 1 1 0 NB NZ)] (mkO (SB 1 1) NB NZ 0 [] [] [] [] false NZ [])); (RS 1 (IPromise 1 0 NB NZ) [(OAccept 0 1 1 (SZ 1)); (OAccept 2 1 1 (SZ 1))] (mkO (SB 1 1) (SB 1 1) (SZ 1) 1 [(ZZ 1 0)] [(P1E 1 [(RSP 1 NB NZ); (RSP 0 NB NZ)])] [(ZZ 1 1)] [(ZOZ 1 (SZ 1))] false NZ [])); (RS 2 (IAccept 1 1 1 (SZ 1)) [(ONack 1 1 1 1 2)] (mkO (SB 1 2) NB NZ 1 [(ZZ 1 0)] [(P1E 1 [(RSP 2 NB NZ)])] [(ZZ 1 0)] [(ZOZ 1 (SZ 2))] false NZ [])); (RS 0 (IAccept 1 1 1 (SZ 1)) [(OAccepted 1 1 1 0)] (mkO (SB 1 1) (SB 1 1) (SZ 1) 0 [] [] [] [] false NZ [])); (RS 1 (INack 1 1) [(ORetry 1)] (mkO (SB 1 1) (SB 1 1) (SZ 1) 1 [(ZZ 1 0)] [(P1E 1 [(RSP 1 NB NZ); (RSP 0 NB NZ)])] [(ZZ 1 1)] [(ZOZ 1 (SZ 1))] false NZ [])); (RS 1 (IAccepted 1) [(ODecided 0 (SZ 1)); (ODecided 2 (SZ 1))] (mkO (SB 1 1) (SB 1 1) (SZ 1) 1 [(ZZ 1 0)] [(P1E 1 [(RSP 1 NB NZ); (RSP 0 NB NZ)])] [(ZZ 1 2)] [(ZOZ 1 (SZ 1))] true (SZ 1) [(ZOZ 0 (SZ 1))])); (RS 0 (IDecided (SZ 1)) [] (mkO (SB 1 1) (SB 1 1) (SZ 1) 0 [] [] [] [] true (SZ 1) [])); (RS 2 (IDecided (SZ 1)) [] (mkO (SB 1 2) NB NZ 1 [(ZZ 1 0)] [(P1E 1 [(RSP 2 NB NZ)])] [(ZZ 1 0)] [(ZOZ 1 (SZ 2))] true (SZ 1) [])); (RS 1 (IRetry 1) [] (mkO (SB 1 1) (SB 1 1) (SZ 1) 1 [(ZZ 1 0)] [(P1E 1 [(RSP 1 NB NZ); (RSP 0 NB NZ)])] [(ZZ 1 2)] [(ZOZ 1 (SZ 1))] true (SZ 1) [(ZOZ 0 (SZ 1))]))]).
Definition case_39 : Z * list rec_step := (5, [(RS 1 (IPropose 1) [(OPrepare 0 1 1); (OPrepare 2 1 1); (OPrepare 3 1 1); (OPrepare 4 1 1)] (mkO (SB 1 1) NB NZ 1 [(ZZ 1 0)] [(P1E 1 [(RSP 1 NB NZ)])] [(ZZ 1 0)] [(ZOZ 1 (SZ 1))] false NZ [])); (RS 4 (IPropose 3) [(OPrepare 0 1 4); (OPrepare 1 1 4); (OPrepare 2 1 4); (OPrepare 3 1 4)] (mkO (SB 1 4) NB NZ 1 [(ZZ 1 0)] [(P1E 1 [(RSP 4 NB NZ)])] [(ZZ 1 0)] [(ZOZ 1 (SZ 3))] false NZ [])); (RS 0 (IPrepare 1 1 1) [(OPromise 1 1 1 0 NB NZ)] (mkO (SB 1 1) NB NZ 0 [] [] [] [] false NZ [])); (RS 3 (IPrepare 1 1 1) [(OPromise 1 1 1 3 NB NZ)] (mkO (SB 1 1) NB NZ 0 [] [] [] [] false NZ [])); (RS 1 (IPromise 1 3 NB NZ) [] (mkO (SB 1 1) NB NZ 1 [(ZZ 1 0)] [(P1E 1 [(RSP 1 NB NZ); (RSP 3 NB NZ)])] [(ZZ 1 0)] [(ZOZ 1 (SZ 1))] false NZ [])); (RS 0 (IPropose 3) [(OPrepare 1 2 0); (OPrepare 2 2 0); (OPrepare 3 2 0); (OPrepare 4 2 0)] (mkO (SB 2 0) NB NZ 2 [(ZZ 2 0)] [(P1E 2 [(RSP 0 NB NZ)])] [(ZZ 2 0)] [(ZOZ 2 (SZ 3))] false NZ [])); (RS 2 (IPrepare 0 2 0) [(OPromise 0 2 0 2 NB NZ)] (mkO (SB 2 0) NB NZ 0 [] [] [] [] false NZ [])); (RS 3 (IPrepare 0 2 0) [(OPromise 0 2 0 3 NB NZ)] (mkO (SB 2 0) NB NZ 0 [] [] [] [] false NZ [])); (RS 0 (IPromise 2 2 NB NZ) [] (mkO (SB 2 0) NB NZ 2 [(ZZ 2 0)] [(P1E 2 [(RSP 0 NB NZ); (RSP 2 NB NZ)])] [(ZZ 2 0)] [(ZOZ 2 (SZ 3))] false NZ [])); (RS 0 (IPromise 2 3 NB NZ) [(OAccept 1 2 0 (SZ 3)); (OAccept 2 2 0 (SZ 3)); (OAccept 3 2 0 (SZ 3)); (OAccept 4 2 0 (SZ 3))] (mkO (SB 2 0) (SB 2 0) (SZ 3) 2 [(ZZ 2 0)] [(P1E 2 [(RSP 0 NB NZ); (RSP 2 NB NZ); (RSP 3 NB NZ)])] [(ZZ 2 1)] [(ZOZ 2 (SZ 3))] false NZ [])); (RS 2 (IAccept 0 2 0 (SZ 3)) [(OAccepted 0 2 0 2)] (mkO (SB 2 0) (SB 2 0) (SZ 3) 0 [] [] [] [] false NZ [])); (RS 3 (IAccept 0 2 0 (SZ 3)) [(OAccepted 0 2 0 3)] (mkO (SB 2 0) (SB 2 0) (SZ 3) 0 [] [] [] [] false NZ [])); (RS 4 (IAccept 0 2 0 (SZ 3)) [(OAccepted 0 2 0 4)] (mkO (SB 2 0) (SB 2 0) (SZ 3) 1 [(ZZ 1 0)] [(P1E 1 [(RSP 4 NB NZ)])] [(ZZ 1 0)] [(ZOZ 1 (SZ 3))] false NZ [])); (RS 1 (IAccept 0 2 0 (SZ 3)) [(OAccepted 0 2 0 1)] (mkO (SB 2 0) (SB 2 0) (SZ 3) 1 [(ZZ 1 0)] [(P1E 1 [(RSP 1 NB NZ); (RSP 3 NB NZ)])] [(ZZ 1 0)] [(ZOZ 1 (SZ 1))] false NZ [])); (RS 0 (IAccepted 2) [] (mkO (SB 2 0) (SB 2 0) (SZ 3) 2 [(ZZ 2 0)] [(P1E 2 [(RSP 0 NB NZ); (RSP 2 NB NZ); (RSP 3 NB NZ)])] [(ZZ 2 2)] [(ZOZ 2 (SZ 3))] false NZ [])); (RS 0 (IAccepted 2) [(ODecided 1 (SZ 3)); (ODecided 2 (SZ 3)); (ODecided 3 (SZ 3)); (ODecided 4 (SZ 3))] (mkO (SB 2 0) (SB 2 0) (SZ 3) 2 [(ZZ 2 0)] [(P1E 2 [(RSP 0 NB NZ); (RSP 2 NB NZ); (RSP 3 NB NZ)])] [(ZZ 2 3)] [(ZOZ 2 (SZ 3))] true (SZ 3) [(ZOZ 0 (SZ 3))])); (RS 3 (IDecided (SZ 3)) [] (mkO (SB 2 0) (SB 2 0) (SZ 3) 0 [] [] [] [] true (SZ 3) [])); (RS 1 (IDecided (SZ 3)) [] (mkO (SB 2 0) (SB 2 0) (SZ 3) 1 [(ZZ 1 0)] [(P1E 1 [(RSP 1 NB NZ); (RSP 3 NB NZ)])] [(ZZ 1 0)] [(ZOZ 1 (SZ 1))] true (SZ 3) [])); (RS 2 (IDecided (SZ 3)) [] (mkO (SB 2 0) (SB 2 0) (SZ 3) 0 [] [] [] [] true (SZ 3) [])); (RS 0 (IAccepted 2) [] (mkO (SB 2 0) (SB 2 0) (SZ 3) 2 [(ZZ 2 0)] [(P1E 2 [(RSP 0 NB NZ); (RSP 2 NB NZ); (RSP 3 NB NZ)])] [(ZZ 2 4)] [(ZOZ 2 (SZ 3))] true (SZ 3) [(ZOZ 0 (SZ 3))])); (RS 4 (IDecided (SZ 3)) [] (mkO (SB 2 0) (SB 2 0) (SZ 3) 1 [(ZZ 1 0)] [(P1E 1 [(RSP 4 NB NZ)])] [(ZZ 1 0)] [(ZOZ 1 (SZ 3))] true (SZ 3) [])); (RS 1 (IPrepare 0 2 0) [(OPromise 0 2 0 1 (SB 2 0) (SZ 3))] (mkO (SB 2 0) (SB 2 0) (SZ 3) 1 [(ZZ 1 0)] [(P1E 1 [(RSP 1 NB NZ); (RSP 3 NB NZ)])] [(ZZ 1 0)] [(ZOZ 1 (SZ 1))] true (SZ 3) [])); (RS 0 (IPromise 2 1 (SB 2 0) (SZ 3)) [] (mkO (SB 2 0) (SB 2 0) (SZ 3) 2 [(ZZ 2 0)] [(P1E 2 [(RSP 0 NB NZ); (RSP 2 NB NZ); (RSP 3 NB NZ); (RSP 1 (SB 2 0) (SZ 3))])] [(ZZ 2 4)] [(ZOZ 2 (SZ 3))] true (SZ 3) [(ZOZ 0 (SZ 3))])); (RS 2 (IPrepare 4 1 4) [(ONack 4 1 4 2 0)] (mkO (SB 2 0) (SB 2 0) (SZ 3) 0 [] [] [] [] true (SZ 3) [])); (RS 1 (IPromise 1 0 NB NZ) [(OAccept 0 1 1 (SZ 1)); (OAccept 2 1 1 (SZ 1)); (OAccept 3 1 1 (SZ 1)); (OAccept 4 1 1 (SZ 1))] (mkO (SB 2 0) (SB 2 0) (SZ 3) 1 [(ZZ 1 0)] [(P1E 1 [(RSP 1 NB NZ); (RSP 3 NB NZ); (RSP 0 NB NZ)])] [(ZZ 1 0)] [(ZOZ 1 (SZ 1))] true (SZ 3) [])); (RS 4 (IAccept 1 1 1 (SZ 1)) [(ONack 1 1 1 2 0)] (mkO (SB 2 0) (SB 2 0) (SZ 3) 1 [(ZZ 1 0)] [(P1E 1 [(RSP 4 NB NZ)])] [(ZZ 1 0)] [(ZOZ 1 (SZ 3))] true (SZ 3) [])); (RS 0 (IAccept 1 1 1 (SZ 1)) [(ONack 1 1 1 2 0)] (mkO (SB 2 0) (SB 2 0) (SZ 3) 2 [(ZZ 2 0)] [(P1E 2 [(RSP 0 NB NZ); (RSP 2 NB NZ); (RSP 3 NB NZ); (RSP 1 (SB 2 0) (SZ 3))])] [(ZZ 2 4)] [(ZOZ 2 (SZ 3))] true (SZ 3) [(ZOZ 0 (SZ 3))])); (RS 3 (IAccept 1 1 1 (SZ 1)) [(ONack 1 1 1 2 0)] (mkO (SB 2 0) (SB 2 0) (SZ 3) 0 [] [] [] [] true (SZ 3) [])); (RS 1 (INack 1 2) [(ORetry 1)] (mkO (SB 2 0) (SB 2 0) (SZ 3) 2 [(ZZ 1 0)] [(P1E 1 [(RSP 1 NB NZ); (RSP 3 NB NZ); (RSP 0 NB NZ)])] [(ZZ 1 0)] [(ZOZ 1 (SZ 1))] true (SZ 3) [])); (RS 1 (INack 1 2) [(ORetry 1)] (mkO (SB 2 0) (SB 2 0) (SZ 3) 2 [(ZZ 1 0)] [(P1E 1 [(RSP 1 NB NZ); (RSP 3 NB NZ); (RSP 0 NB NZ)])] [(ZZ 1 0)] [(ZOZ 1 (SZ 1))] true (SZ 3) [])); (RS 1 (INack 1 2) [(ORetry 1)] (mkO (SB 2 0) (SB 2 0) (SZ 3) 2 [(ZZ 1 0)] [(P1E 1 [(RSP 1 NB NZ); (RSP 3 NB NZ); (RSP 0 NB NZ)])] [(ZZ 1 0)] [(ZOZ 1 (SZ 1))] true (SZ 3) [])); (RS 1 (IRetry 1) [] (mkO (SB 2 0) (SB 2 0) (SZ 3) 2 [(ZZ 1 0)] [(P1E 1 [(RSP 1 NB NZ); (RSP 3 NB NZ); (RSP 0 NB NZ)])] [(ZZ 1 0)] [(ZOZ 1 (SZ 1))] true (SZ 3) [])); (RS 1 (IRetry 1) [] (mkO (SB 2 0) (SB 2 0) (SZ 3) 2 [(ZZ 1 0)] [(P1E 1 [(RSP 1 NB NZ); (RSP 3 NB NZ); (RSP 0 NB NZ)])] [(ZZ 1 0)] [(ZOZ 1 (SZ 1))] true (SZ 3) [])); (RS 1 (IRetry 1) [] (mkO (SB 2 0) (SB 2 0) (SZ 3) 2 [(ZZ 1 0)] [(P1E 1 [(RSP 1 NB NZ); (RSP 3 NB NZ); (RSP 0 NB NZ)])] [(ZZ 1 0)] [(ZOZ 1 (SZ 1))] true (SZ 3) [])); (RS 4 (INack 1 2) [(ORetry 1)] (mkO (SB 2 0) (SB 2 0) (SZ 3) 2 [(ZZ 1 0)] [(P1E 1 [(RSP 4 NB NZ)])] [(ZZ 1 0)] [(ZOZ 1 (SZ 3))] true (SZ 3) [])); (RS 2 (IAccept 1 1 1 (SZ 1)) [(ONack 1 1 1 2 0)] (mkO (SB 2 0) (SB 2 0) (SZ 3) 0 [] [] [] [] true (SZ 3) [])); (RS 1 (INack 1 2) [(ORetry 1)] (mkO (SB 2 0) (SB 2 0) (SZ 3) 2 [(ZZ 1 0)] [(P1E 1 [(RSP 1 NB NZ); (RSP 3 NB NZ); (RSP 0 NB NZ)])] [(ZZ 1 0)] [(ZOZ 1 (SZ 1))] true (SZ 3) [])); (RS 4 (IRetry 1) [] (mkO (SB 2 0) (SB 2 0) (SZ 3) 2 [(ZZ 1 0)] [(P1E 1 [(RSP 4 NB NZ)])] [(ZZ 1 0)] [(ZOZ 1 (SZ 3))] true (SZ 3) [])); (RS 4 (IPrepare 0 2 0) [(OPromise 0 2 0 4 (SB 2 0) (SZ 3))] (mkO (SB 2 0) (SB 2 0) (SZ 3) 2 [(ZZ 1 0)] [(P1E 1 [(RSP 4 NB NZ)])] [(ZZ 1 0)] [(ZOZ 1 (SZ 3))] true (SZ 3) [])); (RS 1 (IRetry 1) [] (mkO (SB 2 0) (SB 2 0) (SZ 3) 2 [(ZZ 1 0)] [(P1E 1 [(RSP 1 NB NZ); (RSP 3 NB NZ); (RSP 0 NB NZ)])] [(ZZ 1 0)] [(ZOZ 1 (SZ 1))] true (SZ 3) [])); (RS 0 (IAccepted 2) [] (mkO (SB 2 0) (SB 2 0) (SZ 3) 2 [(ZZ 2 0)] [(P1E 2 [(RSP 0 NB NZ); (RSP 2 NB NZ); (RSP 3 NB NZ); (RSP 1 (SB 2 0) (SZ 3))])] [(ZZ 2 5)] [(ZOZ 2 (SZ 3))] true (SZ 3) [(ZOZ 0 (SZ 3))])); (RS 0 (IPromise 2 4 (SB 2 0) (SZ 3)) [] (mkO (SB 2 0) (SB 2 0) (SZ 3) 2 [(ZZ 2 0)] [(P1E 2 [(RSP 0 NB NZ); (RSP 2 NB NZ); (RSP 3 NB NZ); (RSP 1 (SB 2 0) (SZ 3)); (RSP 4 (SB 2 0) (SZ 3))])] [(ZZ 2 5)] [(ZOZ 2 (SZ 3))] true (SZ 3) [(ZOZ 0 (SZ 3))]))]).
Definition case_40 : Z * list rec_step := (5, [(RS 0 (IPropose 1) [(OPrepare 1 1 0); (OPrepare 2 1 0); (OPrepare 3 1 0); (OPrepare 4 1 0)] (mkO (SB 1 0) NB NZ 1 [(ZZ 1 0)] [(P1E 1 [(RSP 0 NB NZ)])] [(ZZ 1 0)] [(ZOZ 1 (SZ 1))] false NZ [])); (RS 1 (IPrepare 0 1 0) [(OPromise 0 1 0 1 NB NZ)] (mkO (SB 1 0) NB NZ 0 [] [] [] [] false NZ [])); (RS 2 (IPrepare 0 1 0) [(OPromise 0 1 0 2 NB NZ)] (mkO (SB 1 0) NB NZ 0 [] [] [] [] false NZ [])); (RS 4 (IPrepare 0 1 0) [(OPromise 0 1 0 4 NB NZ)] (mkO (SB 1 0) NB NZ 0 [] [] [] [] false NZ [])); (RS 3 (IPrepare 0 1 0) [(OPromise 0 1 0 3 NB NZ)] (mkO (SB 1 0) NB NZ 0 [] [] [] [] false NZ [])); (RS 0 (IPromise 1 2 NB NZ) [] (mkO (SB 1 0) NB NZ 1 [(ZZ 1 0)] [(P1E 1 [(RSP 0 NB NZ); (RSP 2 NB NZ)])] [(ZZ 1 0)] [(ZOZ 1 (SZ 1))] false NZ [])); (RS 0 (IPromise 1 1 NB NZ) [(OAccept 1 1 0 (SZ 1)); (OAccept 2 1 0 (SZ 1)); (OAccept 3 1 0 (SZ 1)); (OAccept 4 1 0 (SZ 1))] (mkO (SB 1 0) (SB 1 0) (SZ 1) 1 [(ZZ 1 0)] [(P1E 1 [(RSP 0 NB NZ); (RSP 2 NB NZ); (RSP 1 NB NZ)])] [(ZZ 1 1)] [(ZOZ 1 (SZ 1))] false NZ [])); (RS 0 (IPromise 1 3 NB NZ) [] (mkO (SB 1 0) (SB 1 0) (SZ 1) 1 [(ZZ 1 0)] [(P1E 1 [(RSP 0 NB NZ); (RSP 2 NB NZ); (RSP 1 NB NZ); (RSP 3 NB NZ)])] [(ZZ 1 1)] [(ZOZ 1 (SZ 1))] false NZ [])); (RS 3 (IAccept 0 1 0 (SZ 1)) [(OAccepted 0 1 0 3)] (mkO (SB 1 0) (SB 1 0) (SZ 1) 0 [] [] [] [] false NZ [])); (RS 4 (IAccept 0 1 0 (SZ 1)) [(OAccepted 0 1 0 4)] (mkO (SB 1 0) (SB 1 0) (SZ 1) 0 [] [] [] [] false NZ [])); (RS 0 (IAccepted 1) [] (mkO (SB 1 0) (SB 1 0) (SZ 1) 1 [(ZZ 1 0)] [(P1E 1 [(RSP 0 NB NZ); (RSP 2 NB NZ); (RSP 1 NB NZ); (RSP 3 NB NZ)])] [(ZZ 1 2)] [(ZOZ 1 (SZ 1))] false NZ [])); (RS 1 (IPropose 2) [(OPrepare 0 2 1); (OPrepare 2 2 1); (OPrepare 3 2 1); (OPrepare 4 2 1)] (mkO (SB 2 1) NB NZ 2 [(ZZ 2 0)] [(P1E 2 [(RSP 1 NB NZ)])] [(ZZ 2 0)] [(ZOZ 2 (SZ 2))] false NZ [])); (RS 0 (IPrepare 1 2 1) [(OPromise 1 2 1 0 (SB 1 0) (SZ 1))] (mkO (SB 2 1) (SB 1 0) (SZ 1) 1 [(ZZ 1 0)] [(P1E 1 [(RSP 0 NB NZ); (RSP 2 NB NZ); (RSP 1 NB NZ); (RSP 3 NB NZ)])] [(ZZ 1 2)] [(ZOZ 1 (SZ 1))] false NZ [])); (RS 1 (IPromise 2 0 (SB 1 0) (SZ 1)) [] (mkO (SB 2 1) NB NZ 2 [(ZZ 2 0)] [(P1E 2 [(RSP 1 NB NZ); (RSP 0 (SB 1 0) (SZ 1))])] [(ZZ 2 0)] [(ZOZ 2 (SZ 2))] false NZ [])); (RS 3 (IPropose 3) [(OPrepare 0 2 3); (OPrepare 1 2 3); (OPrepare 2 2 3); (OPrepare 4 2 3)] (mkO (SB 2 3) (SB 1 0) (SZ 1) 2 [(ZZ 2 0)] [(P1E 2 [(RSP 3 (SB 1 0) (SZ 1))])] [(ZZ 2 0)] [(ZOZ 2 (SZ 3))] false NZ [])); (RS 4 (IPropose 4) [(OPrepare 0 2 4); (OPrepare 1 2 4); (OPrepare 2 2 4); (OPrepare 3 2 4)] (mkO (SB 2 4) (SB 1 0) (SZ 1) 2 [(ZZ 2 0)] [(P1E 2 [(RSP 4 (SB 1 0) (SZ 1))])] [(ZZ 2 0)] [(ZOZ 2 (SZ 4))] false NZ [])); (RS 2 (IPrepare 3 2 3) [(OPromise 3 2 3 2 NB NZ)] (mkO (SB 2 3) NB NZ 0 [] [] [] [] false NZ [])); (RS 0 (IPrepare 4 2 4) [(OPromise 4 2 4 0 (SB 1 0) (SZ 1))] (mkO (SB 2 4) (SB 1 0) (SZ 1) 1 [(ZZ 1 0)] [(P1E 1 [(RSP 0 NB NZ); (RSP 2 NB NZ); (RSP 1 NB NZ); (RSP 3 NB NZ)])] [(ZZ 1 2)] [(ZOZ 1 (SZ 1))] false NZ [])); (RS 4 (IPromise 2 0 (SB 1 0) (SZ 1)) [] (mkO (SB 2 4) (SB 1 0) (SZ 1) 2 [(ZZ 2 0)] [(P1E 2 [(RSP 4 (SB 1 0) (SZ 1)); (RSP 0 (SB 1 0) (SZ 1))])] [(ZZ 2 0)] [(ZOZ 2 (SZ 4))] false NZ []))]).
Definition case_41 : Z * list rec_step := (3, [(RS 1 (IPropose 1) [(OPrepare 0 1 1); (OPrepare 2 1 1)] (mkO (SB 1 1) NB NZ 1 [(ZZ 1 0)] [(P1E 1 [(RSP 1 NB NZ)])] [(ZZ 1 0)] [(ZOZ 1 (SZ 1))] false NZ [])); (RS 0 (IPrepare 1 1 1) [(OPromise 1 1 1 0 NB NZ)] (mkO (SB 1 1) NB NZ 0 [] [] [] [] false NZ [])); (RS 2 (IPrepare 1 1 1) [(OPromise 1 1 1 2 NB NZ)] (mkO (SB 1 1) NB NZ 0 [] [] [] [] false NZ [])); (RS 0 (IPropose 3) [(OPrepare 1 2 0); (OPrepare 2 2 0)] (mkO (SB 2 0) NB NZ 2 [(ZZ 2 0)] [(P1E 2 [(RSP 0 NB NZ)])] [(ZZ 2 0)] [(ZOZ 2 (SZ 3))] false NZ [])); (RS 1 (IPromise 1 0 NB NZ) [(OAccept 0 1 1 (SZ 1)); (OAccept 2 1 1 (SZ 1))] (mkO (SB 1 1) (SB 1 1) (SZ 1) 1 [(ZZ 1 0)] [(P1E 1 [(RSP 1 NB NZ); (RSP 0 NB NZ)])] [(ZZ 1 1)] [(ZOZ 1 (SZ 1))] false NZ [])); (RS 1 (IPromise 1 2 NB NZ) [] (mkO (SB 1 1) (SB 1 1) (SZ 1) 1 [(ZZ 1 0)] [(P1E 1 [(RSP 1 NB NZ); (RSP 0 NB NZ); (RSP 2 NB NZ)])] [(ZZ 1 1)] [(ZOZ 1 (SZ 1))] false NZ [])); (RS 1 (IPrepare 0 2 0) [(OPromise 0 2 0 1 (SB 1 1) (SZ 1))] (mkO (SB 2 0) (SB 1 1) (SZ 1) 1 [(ZZ 1 0)] [(P1E 1 [(RSP 1 NB NZ); (RSP 0 NB NZ); (RSP 2 NB NZ)])] [(ZZ 1 1)] [(ZOZ 1 (SZ 1))] false NZ [])); (RS 2 (IPrepare 0 2 0) [(OPromise 0 2 0 2 NB NZ)] (mkO (SB 2 0) NB NZ 0 [] [] [] [] false NZ [])); (RS 0 (IAccept 1 1 1 (SZ 1)) [(ONack 1 1 1 2 0)] (mkO (SB 2 0) NB NZ 2 [(ZZ 2 0)] [(P1E 2 [(RSP 0 NB NZ)])] [(ZZ 2 0)] [(ZOZ 2 (SZ 3))] false NZ [])); (RS 2 (IAccept 1 1 1 (SZ 1)) [(ONack 1 1 1 2 0)] (mkO (SB 2 0) NB NZ 0 [] [] [] [] false NZ [])); (RS 0 (IPromise 2 2 NB NZ) [(OAccept 1 2 0 (SZ 3)); (OAccept 2 2 0 (SZ 3))] (mkO (SB 2 0) (SB 2 0) (SZ 3) 2 [(ZZ 2 0)] [(P1E 2 [(RSP 0 NB NZ); (RSP 2 NB NZ)])] [(ZZ 2 1)] [(ZOZ 2 (SZ 3))] false NZ [])); (RS 1 (INack 1 2) [(ORetry 1)] (mkO (SB 2 0) (SB 1 1) (SZ 1) 2 [(ZZ 1 0)] [(P1E 1 [(RSP 1 NB NZ); (RSP 0 NB NZ); (RSP 2 NB NZ)])] [(ZZ 1 1)] [(ZOZ 1 (SZ 1))] false NZ [])); (RS 1 (INack 1 2) [(ORetry 1)] (mkO (SB 2 0) (SB 1 1) (SZ 1) 2 [(ZZ 1 0)] [(P1E 1 [(RSP 1 NB NZ); (RSP 0 NB NZ); (RSP 2 NB NZ)])] [(ZZ 1 1)] [(ZOZ 1 (SZ 1))] false NZ [])); (RS 0 (IPromise 2 1 (SB 1 1) (SZ 1)) [] (mkO (SB 2 0) (SB 2 0) (SZ 3) 2 [(ZZ 2 0)] [(P1E 2 [(RSP 0 NB NZ); (RSP 2 NB NZ); (RSP 1 (SB 1 1) (SZ 1))])] [(ZZ 2 1)] [(ZOZ 2 (SZ 3))] false NZ [])); (RS 1 (IAccept 0 2 0 (SZ 3)) [(OAccepted 0 2 0 1)] (mkO (SB 2 0) (SB 2 0) (SZ 3) 2 [(ZZ 1 0)] [(P1E 1 [(RSP 1 NB NZ); (RSP 0 NB NZ); (RSP 2 NB NZ)])] [(ZZ 1 1)] [(ZOZ 1 (SZ 1))] false NZ [])); (RS 2 (IAccept 0 2 0 (SZ 3)) [(OAccepted 0 2 0 2)] (mkO (SB 2 0) (SB 2 0) (SZ 3) 0 [] [] [] [] false NZ [])); (RS 0 (IAccepted 2) [(ODecided 1 (SZ 3)); (ODecided 2 (SZ 3))] (mkO (SB 2 0) (SB 2 0) (SZ 3) 2 [(ZZ 2 0)] [(P1E 2 [(RSP 0 NB NZ); (RSP 2 NB NZ); (RSP 1 (SB 1 1) (SZ 1))])] [(ZZ 2 2)] [(ZOZ 2 (SZ 3))] true (SZ 3) [(ZOZ 0 (SZ 3))])); (RS 0 (IAccepted 2) [] (mkO (SB 2 0) (SB 2 0) (SZ 3) 2 [(ZZ 2 0)] [(P1E 2 [(RSP 0 NB NZ); (RSP 2 NB NZ); (RSP 1 (SB 1 1) (SZ 1))])] [(ZZ 2 3)] [(ZOZ 2 (SZ 3))] true (SZ 3) [(ZOZ 0 (SZ 3))])); (RS 1 (IDecided (SZ 3)) [] (mkO (SB 2 0) (SB 2 0) (SZ 3) 2 [(ZZ 1 0)] [(P1E 1 [(RSP 1 NB NZ); (RSP 0 NB NZ); (RSP 2 NB NZ)])] [(ZZ 1 1)] [(ZOZ 1 (SZ 1))] true (SZ 3) [])); (RS 2 (IDecided (SZ 3)) [] (mkO (SB 2 0) (SB 2 0) (SZ 3) 0 [] [] [] [] true (SZ 3) [])); (RS 1 (IRetry 1) [] (mkO (SB 2 0) (SB 2 0) (SZ 3) 2 [(ZZ 1 0)] [(P1E 1 [(RSP 1 NB NZ); (RSP 0 NB NZ); (RSP 2 NB NZ)])] [(ZZ 1 1)] [(ZOZ 1 (SZ 1))] true (SZ 3) [])); (RS 1 (IRetry 1) [] (mkO (SB 2 0) (SB 2 0) (SZ 3) 2 [(ZZ 1 0)] [(P1E 1 [(RSP 1 NB NZ); (RSP 0 NB NZ); (RSP 2 NB NZ)])] [(ZZ 1 1)] [(ZOZ 1 (SZ 1))] true (SZ 3) []))]).
Definition case_42 : Z * list rec_step := (3, [(RS 1 (IPropose 2) [(OPrepare 0 1 1); (OPrepare 2 1 1)] (mkO (SB 1 1) NB NZ 1 [(ZZ 1 0)] [(P1E 1 [(RSP 1 NB NZ)])] [(ZZ 1 0)] [(ZOZ 1 (SZ 2))] false NZ [])); (RS 0 (IPrepare 1 1 1) [(OPromise 1 1 1 0 NB NZ)] (mkO (SB 1 1) NB NZ 0 [] [] [] [] false NZ [])); (RS 1 (IPromise 1 0 NB NZ) [(OAccept 0 1 1 (SZ 2)); (OAccept 2 1 1 (SZ 2))] (mkO (SB 1 1) (SB 1 1) (SZ 2) 1 [(ZZ 1 0)] [(P1E 1 [(RSP 1 NB NZ); (RSP 0 NB NZ)])] [(ZZ 1 1)] [(ZOZ 1 (SZ 2))] false NZ [])); (RS 2 (IPropose 3) [(OPrepare 0 1 2); (OPrepare 1 1 2)] (mkO (SB 1 2) NB NZ 1 [(ZZ 1 0)] [(P1E 1 [(RSP 2 NB NZ)])] [(ZZ 1 0)] [(ZOZ 1 (SZ 3))] false NZ [])); (RS 0 (IPrepare 2 1 2) [(OPromise 2 1 2 0 NB NZ)] (mkO (SB 1 2) NB NZ 0 [] [] [] [] false NZ [])); (RS 2 (IPromise 1 0 NB NZ) [(OAccept 0 1 2 (SZ 3)); (OAccept 1 1 2 (SZ 3))] (mkO (SB 1 2) (SB 1 2) (SZ 3) 1 [(ZZ 1 0)] [(P1E 1 [(RSP 2 NB NZ); (RSP 0 NB NZ)])] [(ZZ 1 1)] [(ZOZ 1 (SZ 3))] false NZ [])); (RS 1 (IAccept 2 1 2 (SZ 3)) [(OAccepted 2 1 2 1)] (mkO (SB 1 2) (SB 1 2) (SZ 3) 1 [(ZZ 1 0)] [(P1E 1 [(RSP 1 NB NZ); (RSP 0 NB NZ)])] [(ZZ 1 1)] [(ZOZ 1 (SZ 2))] false NZ [])); (RS 2 (IAccepted 1) [(ODecided 0 (SZ 3)); (ODecided 1 (SZ 3))] (mkO (SB 1 2) (SB 1 2) (SZ 3) 1 [(ZZ 1 0)] [(P1E 1 [(RSP 2 NB NZ); (RSP 0 NB NZ)])] [(ZZ 1 2)] [(ZOZ 1 (SZ 3))] true (SZ 3) [(ZOZ 0 (SZ 3))])); (RS 1 (IDecided (SZ 3)) [] (mkO (SB 1 2) (SB 1 2) (SZ 3) 1 [(ZZ 1 0)] [(P1E 1 [(RSP 1 NB NZ); (RSP 0 NB NZ)])] [(ZZ 1 1)] [(ZOZ 1 (SZ 2))] true (SZ 3) [])); (RS 0 (IPropose 1) [(OPrepare 1 2 0); (OPrepare 2 2 0)] (mkO (SB 2 0) NB NZ 2 [(ZZ 2 0)] [(P1E 2 [(RSP 0 NB NZ)])] [(ZZ 2 0)] [(ZOZ 2 (SZ 1))] false NZ [])); (RS 1 (IPrepare 0 2 0) [(OPromise 0 2 0 1 (SB 1 2) (SZ 3))] (mkO (SB 2 0) (SB 1 2) (SZ 3) 1 [(ZZ 1 0)] [(P1E 1 [(RSP 1 NB NZ); (RSP 0 NB NZ)])] [(ZZ 1 1)] [(ZOZ 1 (SZ 2))] true (SZ 3) [])); (RS 2 (IPrepare 0 2 0) [(OPromise 0 2 0 2 (SB 1 2) (SZ 3))] (mkO (SB 2 0) (SB 1 2) (SZ 3) 1 [(ZZ 1 0)] [(P1E 1 [(RSP 2 NB NZ); (RSP 0 NB NZ)])] [(ZZ 1 2)] [(ZOZ 1 (SZ 3))] true (SZ 3) [(ZOZ 0 (SZ 3))])); (RS 0 (IPromise 2 2 (SB 1 2) (SZ 3)) [(OAccept 1 2 0 (SZ 3)); (OAccept 2 2 0 (SZ 3))] (mkO (SB 2 0) (SB 2 0) (SZ 3) 2 [(ZZ 2 0)] [(P1E 2 [(RSP 0 NB NZ); (RSP 2 (SB 1 2) (SZ 3))])] [(ZZ 2 1)] [(ZOZ 2 (SZ 3))] false NZ [])); (RS 1 (IAccept 0 2 0 (SZ 3)) [(OAccepted 0 2 0 1)] (mkO (SB 2 0) (SB 2 0) (SZ 3) 1 [(ZZ 1 0)] [(P1E 1 [(RSP 1 NB NZ); (RSP 0 NB NZ)])] [(ZZ 1 1)] [(ZOZ 1 (SZ 2))] true (SZ 3) [])); (RS 0 (IPromise 2 1 (SB 1 2) (SZ 3)) [] (mkO (SB 2 0) (SB 2 0) (SZ 3) 2 [(ZZ 2 0)] [(P1E 2 [(RSP 0 NB NZ); (RSP 2 (SB 1 2) (SZ 3)); (RSP 1 (SB 1 2) (SZ 3))])] [(ZZ 2 1)] [(ZOZ 2 (SZ 3))] false NZ [])); (RS 2 (IAccept 0 2 0 (SZ 3)) [(OAccepted 0 2 0 2)] (mkO (SB 2 0) (SB 2 0) (SZ 3) 1 [(ZZ 1 0)] [(P1E 1 [(RSP 2 NB NZ); (RSP 0 NB NZ)])] [(ZZ 1 2)] [(ZOZ 1 (SZ 3))] true (SZ 3) [(ZOZ 0 (SZ 3))])); (RS 0 (IAccepted 2) [(ODecided 1 (SZ 3)); (ODecided 2 (SZ 3))] (mkO (SB 2 0) (SB 2 0) (SZ 3) 2 [(ZZ 2 0)] [(P1E 2 [(RSP 0 NB NZ); (RSP 2 (SB 1 2) (SZ 3)); (RSP 1 (SB 1 2) (SZ 3))])] [(ZZ 2 2)] [(ZOZ 2 (SZ 3))] true (SZ 3) [(ZOZ 0 (SZ 3))])); (RS 1 (IDecided (SZ 3)) [] (mkO (SB 2 0) (SB 2 0) (SZ 3) 1 [(ZZ 1 0)] [(P1E 1 [(RSP 1 NB NZ); (RSP 0 NB NZ)])] [(ZZ 1 1)] [(ZOZ 1 (SZ 2))] true (SZ 3) [])); (RS 2 (IDecided (SZ 3)) [] (mkO (SB 2 0) (SB 2 0) (SZ 3) 1 [(ZZ 1 0)] [(P1E 1 [(RSP 2 NB NZ); (RSP 0 NB NZ)])] [(ZZ 1 2)] [(ZOZ 1 (SZ 3))] true (SZ 3) [(ZOZ 0 (SZ 3))])); (RS 0 (IAccepted 2) [] (mkO (SB 2 0) (SB 2 0) (SZ 3) 2 [(ZZ 2 0)] [(P1E 2 [(RSP 0 NB NZ); (RSP 2 (SB 1 2) (SZ 3)); (RSP 1 (SB 1 2) (SZ 3))])] [(ZZ 2 3)] [(ZOZ 2 (SZ 3))] true (SZ 3) [(ZOZ 0 (SZ 3))]))]).
Definition case_43 : Z * list rec_step := (4, [(RS 3 (IPropose 3) [(OPrepare 0 1 3); (OPrepare 1 1 3); (OPrepare 2 1 3)] (mkO (SB 1 3) NB NZ 1 [(ZZ 1 0)] [(P1E 1 [(RSP 3 NB NZ)])] [(ZZ 1 0)] [(ZOZ 1 (SZ 3))] false NZ [])); (RS 0 (IPrepare 3 1 3) [(OPromise 3 1 3 0 NB NZ)] (mkO (SB 1 3) NB NZ 0 [] [] [] [] false NZ [])); (RS 2 (IPrepare 3 1 3) [(OPromise 3 1 3 2 NB NZ)] (mkO (SB 1 3) NB NZ 0 [] [] [] [] false NZ [])); (RS 3 (IPromise 1 2 NB NZ) [] (mkO (SB 1 3) NB NZ 1 [(ZZ 1 0)] [(P1E 1 [(RSP 3 NB NZ); (RSP 2 NB NZ)])] [(ZZ 1 0)] [(ZOZ 1 (SZ 3))] false NZ [])); (RS 3 (IPromise 1 0 NB NZ) [(OAccept 0 1 3 (SZ 3)); (OAccept 1 1 3 (SZ 3)); (OAccept 2 1 3 (SZ 3))] (mkO (SB 1 3) (SB 1 3) (SZ 3) 1 [(ZZ 1 0)] [(P1E 1 [(RSP 3 NB NZ); (RSP 2 NB NZ); (RSP 0 NB NZ)])] [(ZZ 1 1)] [(ZOZ 1 (SZ 3))] false NZ [])); (RS 0 (IAccept 3 1 3 (SZ 3)) [(OAccepted 3 1 3 0)] (mkO (SB 1 3) (SB 1 3) (SZ 3) 0 [] [] [] [] false NZ [])); (RS 1 (IAccept 3 1 3 (SZ 3)) [(OAccepted 3 1 3 1)] (mkO (SB 1 3) (SB 1 3) (SZ 3) 0 [] [] [] [] false NZ [])); (RS 2 (IAccept 3 1 3 (SZ 3)) [(OAccepted 3 1 3 2)] (mkO (SB 1 3) (SB 1 3) (SZ 3) 0 [] [] [] [] false NZ [])); (RS 3 (IAccepted 1) [] (mkO (SB 1 3) (SB 1 3) (SZ 3) 1 [(ZZ 1 0)] [(P1E 1 [(RSP 3 NB NZ); (RSP 2 NB NZ); (RSP 0 NB NZ)])] [(ZZ 1 2)] [(ZOZ 1 (SZ 3))] false NZ [])); (RS 1 (IPrepare 3 1 3) [(OPromise 3 1 3 1 (SB 1 3) (SZ 3))] (mkO (SB 1 3) (SB 1 3) (SZ 3) 0 [] [] [] [] false NZ [])); (RS 3 (IPromise 1 1 (SB 1 3) (SZ 3)) [] (mkO (SB 1 3) (SB 1 3) (SZ 3) 1 [(ZZ 1 0)] [(P1E 1 [(RSP 3 NB NZ); (RSP 2 NB NZ); (RSP 0 NB NZ); (RSP 1 (SB 1 3) (SZ 3))])] [(ZZ 1 2)] [(ZOZ 1 (SZ 3))] false NZ [])); (RS 3 (IAccepted 1) [(ODecided 0 (SZ 3)); (ODecided 1 (SZ 3)); (ODecided 2 (SZ 3))] (mkO (SB 1 3) (SB 1 3) (SZ 3) 1 [(ZZ 1 0)] [(P1E 1 [(RSP 3 NB NZ); (RSP 2 NB NZ); (RSP 0 NB NZ); (RSP 1 (SB 1 3) (SZ 3))])] [(ZZ 1 3)] [(ZOZ 1 (SZ 3))] true (SZ 3) [(ZOZ 0 (SZ 3))])); (RS 0 (IDecided (SZ 3)) [] (mkO (SB 1 3) (SB 1 3) (SZ 3) 0 [] [] [] [] true (SZ 3) [])); (RS 0 (IPropose 2) [] (mkO (SB 1 3) (SB 1 3) (SZ 3) 0 [] [] [] [] true (SZ 3) [(ZOZ 0 (SZ 3))])); (RS 1 (IDecided (SZ 3)) [] (mkO (SB 1 3) (SB 1 3) (SZ 3) 0 [] [] [] [] true (SZ 3) [])); (RS 2 (IDecided (SZ 3)) [] (mkO (SB 1 3) (SB 1 3) (SZ 3) 0 [] [] [] [] true (SZ 3) [])); (RS 3 (IAccepted 1) [] (mkO (SB 1 3) (SB 1 3) (SZ 3) 1 [(ZZ 1 0)] [(P1E 1 [(RSP 3 NB NZ); (RSP 2 NB NZ); (RSP 0 NB NZ); (RSP 1 (SB 1 3) (SZ 3))])] [(ZZ 1 4)] [(ZOZ 1 (SZ 3))] true (SZ 3) [(ZOZ 0 (SZ 3))]))]).
Definition case_44 : Z * list rec_step := (3, [(RS 1 (IPropose 2) [(OPrepare 0 1 1); (OPrepare 2 1 1)] (mkO (SB 1 1) NB NZ 1 [(ZZ 1 0)] [(P1E 1 [(RSP 1 NB NZ)])] [(ZZ 1 0)] [(ZOZ 1 (SZ 2))] false NZ [])); (RS 2 (IPrepare 1 1 1) [(OPromise 1 1 1 2 NB NZ)] (mkO (SB 1 1) NB NZ 0 [] [] [] [] false NZ [])); (RS 1 (IPromise 1 2 NB NZ) [(OAccept 0 1 1 (SZ 2)); (OAccept 2 1 1 (SZ 2))] (mkO (SB 1 1) (SB 1 1) (SZ 2) 1 [(ZZ 1 0)] [(P1E 1 [(RSP 1 NB NZ); (RSP 2 NB NZ)])] [(ZZ 1 1)] [(ZOZ 1 (SZ 2))] false NZ [])); (RS 0 (IPrepare 1 1 1) [(OPromise 1 1 1 0 NB NZ)] (mkO (SB 1 1) NB NZ 0 [] [] [] [] false NZ [])); (RS 1 (IPromise 1 0 NB NZ) [] (mkO (SB 1 1) (SB 1 1) (SZ 2) 1 [(ZZ 1 0)] [(P1E 1 [(RSP 1 NB NZ); (RSP 2 NB NZ); (RSP 0 NB NZ)])] [(ZZ 1 1)] [(ZOZ 1 (SZ 2))] false NZ [])); (RS 0 (IAccept 1 1 1 (SZ 2)) [(OAccepted 1 1 1 0)] (mkO (SB 1 1) (SB 1 1) (SZ 2) 0 [] [] [] [] false NZ [])); (RS 2 (IAccept 1 1 1 (SZ 2)) [(OAccepted 1 1 1 2)] (mkO (SB 1 1) (SB 1 1) (SZ 2) 0 [] [] [] [] false NZ [])); (RS 1 (IAccepted 1) [(ODecided 0 (SZ 2)); (ODecided 2 (SZ 2))] (mkO (SB 1 1) (SB 1 1) (SZ 2) 1 [(ZZ 1 0)] [(P1E 1 [(RSP 1 NB NZ); (RSP 2 NB NZ); (RSP 0 NB NZ)])] [(ZZ 1 2)] [(ZOZ 1 (SZ 2))] true (SZ 2) [(ZOZ 0 (SZ 2))])); (RS 1 (IAccepted 1) [] (mkO (SB 1 1) (SB 1 1) (SZ 2) 1 [(ZZ 1 0)] [(P1E 1 [(RSP 1 NB NZ); (RSP 2 NB NZ); (RSP 0 NB NZ)])] [(ZZ 1 3)] [(ZOZ 1 (SZ 2))] true (SZ 2) [(ZOZ 0 (SZ 2))])); (RS 0 (IDecided (SZ 2)) [] (mkO (SB 1 1) (SB 1 1) (SZ 2) 0 [] [] [] [] true (SZ 2) [])); (RS 2 (IDecided (SZ 2)) [] (mkO (SB 1 1) (SB 1 1) (SZ 2) 0 [] [] [] [] true (SZ 2) [])); (RS 1 (IPropose 3) [] (mkO (SB 1 1) (SB 1 1) (SZ 2) 1 [(ZZ 1 0)] [(P1E 1 [(RSP 1 NB NZ); (RSP 2 NB NZ); (RSP 0 NB NZ)])] [(ZZ 1 3)] [(ZOZ 1 (SZ 2))] true (SZ 2) [(ZOZ 0 (SZ 2)); (ZOZ 1 (SZ 2))]))]).
Definition case_45 : Z * list rec_step := (5, [(RS 2 (IPropose 1) [(OPrepare 0 1 2); (OPrepare 1 1 2); (OPrepare 3 1 2); (OPrepare 4 1 2)] (mkO (SB 1 2) NB NZ 1 [(ZZ 1 0)] [(P1E 1 [(RSP 2 NB NZ)])] [(ZZ 1 0)] [(ZOZ 1 (SZ 1))] false NZ [])); (RS 2 (IPropose 3) [(OPrepare 0 2 2); (OPrepare 1 2 2); (OPrepare 3 2 2); (OPrepare 4 2 2)] (mkO (SB 2 2) NB NZ 2 [(ZZ 1 0); (ZZ 2 1)] [(P1E 1 [(RSP 2 NB NZ)]); (P1E 2 [(RSP 2 NB NZ)])] [(ZZ 1 0); (ZZ 2 0)] [(ZOZ 1 (SZ 1)); (ZOZ 2 (SZ 3))] false NZ [])); (RS 4 (IPropose 1) [(OPrepare 0 1 4); (OPrepare 1 1 4); (OPrepare 2 1 4); (OPrepare 3 1 4)] (mkO (SB 1 4) NB NZ 1 [(ZZ 1 0)] [(P1E 1 [(RSP 4 NB NZ)])] [(ZZ 1 0)] [(ZOZ 1 (SZ 1))] false NZ [])); (RS 0 (IPrepare 2 1 2) [(OPromise 2 1 2 0 NB NZ)] (mkO (SB 1 2) NB NZ 0 [] [] [] [] false NZ [])); (RS 3 (IPrepare 2 1 2) [(OPromise 2 1 2 3 NB NZ)] (mkO (SB 1 2) NB NZ 0 [] [] [] [] false NZ [])); (RS 0 (IPrepare 2 2 2) [(OPromise 2 2 2 0 NB NZ)] (mkO (SB 2 2) NB NZ 0 [] [] [] [] false NZ [])); (RS 1 (IPrepare 2 2 2) [(OPromise 2 2 2 1 NB NZ)] (mkO (SB 2 2) NB NZ 0 [] [] [] [] false NZ [])); (RS 0 (IPrepare 4 1 4) [(ONack 4 1 4 2 2)] (mkO (SB 2 2) NB NZ 0 [] [] [] [] false NZ [])); (RS 1 (IPrepare 4 1 4) [(ONack 4 1 4 2 2)] (mkO (SB 2 2) NB NZ 0 [] [] [] [] false NZ [])); (RS 3 (IPrepare 4 1 4) [(OPromise 4 1 4 3 NB NZ)] (mkO (SB 1 4) NB NZ 0 [] [] [] [] false NZ [])); (RS 2 (IPromise 1 3 NB NZ) [] (mkO (SB 2 2) NB NZ 2 [(ZZ 1 0); (ZZ 2 1)] [(P1E 1 [(RSP 2 NB NZ); (RSP 3 NB NZ)]); (P1E 2 [(RSP 2 NB NZ)])] [(ZZ 1 0); (ZZ 2 0)] [(ZOZ 1 (SZ 1)); (ZOZ 2 (SZ 3))] false NZ [])); (RS 4 (INack 1 2) [(ORetry 1)] (mkO (SB 1 4) NB NZ 2 [(ZZ 1 0)] [(P1E 1 [(RSP 4 NB NZ)])] [(ZZ 1 0)] [(ZOZ 1 (SZ 1))] false NZ [])); (RS 1 (IPrepare 2 1 2) [(ONack 2 1 2 2 2)] (mkO (SB 2 2) NB NZ 0 [] [] [] [] false NZ [])); (RS 3 (IPrepare 2 2 2) [(OPromise 2 2 2 3 NB NZ)] (mkO (SB 2 2) NB NZ 0 [] [] [] [] false NZ [])); (RS 4 (IPrepare 2 2 2) [(OPromise 2 2 2 4 NB NZ)] (mkO (SB 2 2) NB NZ 2 [(ZZ 1 0)] [(P1E 1 [(RSP 4 NB NZ)])] [(ZZ 1 0)] [(ZOZ 1 (SZ 1))] false NZ [])); (RS 2 (IPrepare 4 1 4) [(ONack 4 1 4 2 2)] (mkO (SB 2 2) NB NZ 2 [(ZZ 1 0); (ZZ 2 1)] [(P1E 1 [(RSP 2 NB NZ); (RSP 3 NB NZ)]); (P1E 2 [(RSP 2 NB NZ)])] [(ZZ 1 0); (ZZ 2 0)] [(ZOZ 1 (SZ 1)); (ZOZ 2 (SZ 3))] false NZ [])); (RS 2 (IPromise 2 0 NB NZ) [] (mkO (SB 2 2) NB NZ 2 [(ZZ 1 0); (ZZ 2 1)] [(P1E 1 [(RSP 2 NB NZ); (RSP 3 NB NZ)]); (P1E 2 [(RSP 2 NB NZ); (RSP 0 NB NZ)])] [(ZZ 1 0); (ZZ 2 0)] [(ZOZ 1 (SZ 1)); (ZOZ 2 (SZ 3))] false NZ [])); (RS 2 (IPromise 2 1 NB NZ) [(OAccept 0 2 2 (SZ 3)); (OAccept 1 2 2 (SZ 3)); (OAccept 3 2 2 (SZ 3)); (OAccept 4 2 2 (SZ 3))] (mkO (SB 2 2) (SB 2 2) (SZ 3) 2 [(ZZ 1 0); (ZZ 2 1)] [(P1E 1 [(RSP 2 NB NZ); (RSP 3 NB NZ)]); (P1E 2 [(RSP 2 NB NZ); (RSP 0 NB NZ); (RSP 1 NB NZ)])] [(ZZ 1 0); (ZZ 2 1)] [(ZOZ 1 (SZ 1)); (ZOZ 2 (SZ 3))] false NZ [])); (RS 2 (IPromise 1 0 NB NZ) [(OAccept 0 1 2 (SZ 1)); (OAccept 1 1 2 (SZ 1)); (OAccept 3 1 2 (SZ 1)); (OAccept 4 1 2 (SZ 1))] (mkO (SB 2 2) (SB 2 2) (SZ 3) 2 [(ZZ 1 0); (ZZ 2 1)] [(P1E 1 [(RSP 2 NB NZ); (RSP 3 NB NZ); (RSP 0 NB NZ)]); (P1E 2 [(RSP 2 NB NZ); (RSP 0 NB NZ); (RSP 1 NB NZ)])] [(ZZ 1 0); (ZZ 2 1)] [(ZOZ 1 (SZ 1)); (ZOZ 2 (SZ 3))] false NZ [])); (RS 4 (INack 1 2) [(ORetry 1)] (mkO (SB 2 2) NB NZ 2 [(ZZ 1 0)] [(P1E 1 [(RSP 4 NB NZ)])] [(ZZ 1 0)] [(ZOZ 1 (SZ 1))] false NZ [])); (RS 4 (IPromise 1 3 NB NZ) [] (mkO (SB 2 2) NB NZ 2 [(ZZ 1 0)] [(P1E 1 [(RSP 4 NB NZ); (RSP 3 NB NZ)])] [(ZZ 1 0)] [(ZOZ 1 (SZ 1))] false NZ [])); (RS 2 (IPromise 2 3 NB NZ) [] (mkO (SB 2 2) (SB 2 2) (SZ 3) 2 [(ZZ 1 0); (ZZ 2 1)] [(P1E 1 [(RSP 2 NB NZ); (RSP 3 NB NZ); (RSP 0 NB NZ)]); (P1E 2 [(RSP 2 NB NZ); (RSP 0 NB NZ); (RSP 1 NB NZ); (RSP 3 NB NZ)])] [(ZZ 1 0); (ZZ 2 1)] [(ZOZ 1 (SZ 1)); (ZOZ 2 (SZ 3))] false NZ [])); (RS 4 (INack 1 2) [(ORetry 1)] (mkO (SB 2 2) NB NZ 2 [(ZZ 1 0)] [(P1E 1 [(RSP 4 NB NZ); (RSP 3 NB NZ)])] [(ZZ 1 0)] [(ZOZ 1 (SZ 1))] false NZ [])); (RS 4 (IAccept 2 2 2 (SZ 3)) [(OAccepted 2 2 2 4)] (mkO (SB 2 2) (SB 2 2) (SZ 3) 2 [(ZZ 1 0)] [(P1E 1 [(RSP 4 NB NZ); (RSP 3 NB NZ)])] [(ZZ 1 0)] [(ZOZ 1 (SZ 1))] false NZ [])); (RS 0 (IAccept 2 2 2 (SZ 3)) [(OAccepted 2 2 2 0)] (mkO (SB 2 2) (SB 2 2) (SZ 3) 0 [] [] [] [] false NZ [])); (RS 3 (IAccept 2 2 2 (SZ 3)) [(OAccepted 2 2 2 3)] (mkO (SB 2 2) (SB 2 2) (SZ 3) 0 [] [] [] [] false NZ [])); (RS 2 (IAccepted 2) [] (mkO (SB 2 2) (SB 2 2) (SZ 3) 2 [(ZZ 1 0); (ZZ 2 1)] [(P1E 1 [(RSP 2 NB NZ); (RSP 3 NB NZ); (RSP 0 NB NZ)]); (P1E 2 [(RSP 2 NB NZ); (RSP 0 NB NZ); (RSP 1 NB NZ); (RSP 3 NB NZ)])] [(ZZ 1 0); (ZZ 2 2)] [(ZOZ 1 (SZ 1)); (ZOZ 2 (SZ 3))] false NZ [])); (RS 2 (INack 1 2) [(ORetry 1)] (mkO (SB 2 2) (SB 2 2) (SZ 3) 2 [(ZZ 1 0); (ZZ 2 1)] [(P1E 1 [(RSP 2 NB NZ); (RSP 3 NB NZ); (RSP 0 NB NZ)]); (P1E 2 [(RSP 2 NB NZ); (RSP 0 NB NZ); (RSP 1 NB NZ); (RSP 3 NB NZ)])] [(ZZ 1 0); (ZZ 2 2)] [(ZOZ 1 (SZ 1)); (ZOZ 2 (SZ 3))] false NZ [])); (RS 2 (IPromise 2 4 NB NZ) [] (mkO (SB 2 2) (SB 2 2) (SZ 3) 2 [(ZZ 1 0); (ZZ 2 1)] [(P1E 1 [(RSP 2 NB NZ); (RSP 3 NB NZ); (RSP 0 NB NZ)]); (P1E 2 [(RSP 2 NB NZ); (RSP 0 NB NZ); (RSP 1 NB NZ); (RSP 3 NB NZ); (RSP 4 NB NZ)])] [(ZZ 1 0); (ZZ 2 2)] [(ZOZ 1 (SZ 1)); (ZOZ 2 (SZ 3))] false NZ [])); (RS 3 (IAccept 2 1 2 (SZ 1)) [(ONack 2 1 2 2 2)] (mkO (SB 2 2) (SB 2 2) (SZ 3) 0 [] [] [] [] false NZ [])); (RS 2 (IAccepted 2) [(ODecided 0 (SZ 3)); (ODecided 1 (SZ 3)); (ODecided 3 (SZ 3)); (ODecided 4 (SZ 3))] (mkO (SB 2 2) (SB 2 2) (SZ 3) 2 [(ZZ 1 0); (ZZ 2 1)] [(P1E 1 [(RSP 2 NB NZ); (RSP 3 NB NZ); (RSP 0 NB NZ)]); (P1E 2 [(RSP 2 NB NZ); (RSP 0 NB NZ); (RSP 1 NB NZ); (RSP 3 NB NZ); (RSP 4 NB NZ)])] [(ZZ 1 0); (ZZ 2 3)] [(ZOZ 1 (SZ 1)); (ZOZ 2 (SZ 3))] true (SZ 3) [(ZOZ 1 (SZ 3))])); (RS 0 (IAccept 2 1 2 (SZ 1)) [(ONack 2 1 2 2 2)] (mkO (SB 2 2) (SB 2 2) (SZ 3) 0 [] [] [] [] false NZ [])); (RS 1 (IAccept 2 1 2 (SZ 1)) [(ONack 2 1 2 2 2)] (mkO (SB 2 2) NB NZ 0 [] [] [] [] false NZ [])); (RS 4 (IAccept 2 1 2 (SZ 1)) [(ONack 2 1 2 2 2)] (mkO (SB 2 2) (SB 2 2) (SZ 3) 2 [(ZZ 1 0)] [(P1E 1 [(RSP 4 NB NZ); (RSP 3 NB NZ)])] [(ZZ 1 0)] [(ZOZ 1 (SZ 1))] false NZ [])); (RS 2 (IAccepted 2) [] (mkO (SB 2 2) (SB 2 2) (SZ 3) 2 [(ZZ 1 0); (ZZ 2 1)] [(P1E 1 [(RSP 2 NB NZ); (RSP 3 NB NZ); (RSP 0 NB NZ)]); (P1E 2 [(RSP 2 NB NZ); (RSP 0 NB NZ); (RSP 1 NB NZ); (RSP 3 NB NZ); (RSP 4 NB NZ)])] [(ZZ 1 0); (ZZ 2 4)] [(ZOZ 1 (SZ 1)); (ZOZ 2 (SZ 3))] true (SZ 3) [(ZOZ 1 (SZ 3))])); (RS 2 (INack 1 2) [(ORetry 1)] (mkO (SB 2 2) (SB 2 2) (SZ 3) 2 [(ZZ 1 0); (ZZ 2 1)] [(P1E 1 [(RSP 2 NB NZ); (RSP 3 NB NZ); (RSP 0 NB NZ)]); (P1E 2 [(RSP 2 NB NZ); (RSP 0 NB NZ); (RSP 1 NB NZ); (RSP 3 NB NZ); (RSP 4 NB NZ)])] [(ZZ 1 0); (ZZ 2 4)] [(ZOZ 1 (SZ 1)); (ZOZ 2 (SZ 3))] true (SZ 3) [(ZOZ 1 (SZ 3))])); (RS 4 (IDecided (SZ 3)) [] (mkO (SB 2 2) (SB 2 2) (SZ 3) 2 [(ZZ 1 0)] [(P1E 1 [(RSP 4 NB NZ); (RSP 3 NB NZ)])] [(ZZ 1 0)] [(ZOZ 1 (SZ 1))] true (SZ 3) [])); (RS 1 (IDecided (SZ 3)) [] (mkO (SB 2 2) NB NZ 0 [] [] [] [] true (SZ 3) [])); (RS 0 (IDecided (SZ 3)) [] (mkO (SB 2 2) (SB 2 2) (SZ 3) 0 [] [] [] [] true (SZ 3) [])); (RS 3 (IDecided (SZ 3)) [] (mkO (SB 2 2) (SB 2 2) (SZ 3) 0 [] [] [] [] true (SZ 3) [])); (RS 2 (INack 1 2) [(ORetry 1)] (mkO (SB 2 2) (SB 2 2) (SZ 3) 2 [(ZZ 1 0); (ZZ 2 1)] [(P1E 1 [(RSP 2 NB NZ); (RSP 3 NB NZ); (RSP 0 NB NZ)]); (P1E 2 [(RSP 2 NB NZ); (RSP 0 NB NZ); (RSP 1 NB NZ); (RSP 3 NB NZ); (RSP 4 NB NZ)])] [(ZZ 1 0); (ZZ 2 4)] [(ZOZ 1 (SZ 1)); (ZOZ 2 (SZ 3))] true (SZ 3) [(ZOZ 1 (SZ 3))])); (RS 2 (INack 1 2) [(ORetry 1)] (mkO (SB 2 2) (SB 2 2) (SZ 3) 2 [(ZZ 1 0); (ZZ 2 1)] [(P1E 1 [(RSP 2 NB NZ); (RSP 3 NB NZ); (RSP 0 NB NZ)]); (P1E 2 [(RSP 2 NB NZ); (RSP 0 NB NZ); (RSP 1 NB NZ); (RSP 3 NB NZ); (RSP 4 NB NZ)])] [(ZZ 1 0); (ZZ 2 4)] [(ZOZ 1 (SZ 1)); (ZOZ 2 (SZ 3))] true (SZ 3) [(ZOZ 1 (SZ 3))])); (RS 2 (INack 1 2) [(ORetry 1)] (mkO (SB 2 2) (SB 2 2) (SZ 3) 2 [(ZZ 1 0); (ZZ 2 1)] [(P1E 1 [(RSP 2 NB NZ); (RSP 3 NB NZ); (RSP 0 NB NZ)]); (P1E 2 [(RSP 2 NB NZ); (RSP 0 NB NZ); (RSP 1 NB NZ); (RSP 3 NB NZ); (RSP 4 NB NZ)])] [(ZZ 1 0); (ZZ 2 4)] [(ZOZ 1 (SZ 1)); (ZOZ 2 (SZ 3))] true (SZ 3) [(ZOZ 1 (SZ 3))])); (RS 4 (IRetry 1) [] (mkO (SB 2 2) (SB 2 2) (SZ 3) 2 [(ZZ 1 0)] [(P1E 1 [(RSP 4 NB NZ); (RSP 3 NB NZ)])] [(ZZ 1 0)] [(ZOZ 1 (SZ 1))] true (SZ 3) [])); (RS 2 (IRetry 1) [] (mkO (SB 2 2) (SB 2 2) (SZ 3) 2 [(ZZ 1 0); (ZZ 2 1)] [(P1E 1 [(RSP 2 NB NZ); (RSP 3 NB NZ); (RSP 0 NB NZ)]); (P1E 2 [(RSP 2 NB NZ); (RSP 0 NB NZ); (RSP 1 NB NZ); (RSP 3 NB NZ); (RSP 4 NB NZ)])] [(ZZ 1 0); (ZZ 2 4)] [(ZOZ 1 (SZ 1)); (ZOZ 2 (SZ 3))] true (SZ 3) [(ZOZ 1 (SZ 3))])); (RS 2 (IRetry 1) [] (mkO (SB 2 2) (SB 2 2) (SZ 3) 2 [(ZZ 1 0); (ZZ 2 1)] [(P1E 1 [(RSP 2 NB NZ); (RSP 3 NB NZ); (RSP 0 NB NZ)]); (P1E 2 [(RSP 2 NB NZ); (RSP 0 NB NZ); (RSP 1 NB NZ); (RSP 3 NB NZ); (RSP 4 NB NZ)])] [(ZZ 1 0); (ZZ 2 4)] [(ZOZ 1 (SZ 1)); (ZOZ 2 (SZ 3))] true (SZ 3) [(ZOZ 1 (SZ 3))])); (RS 4 (IRetry 1) [] (mkO (SB 2 2) (SB 2 2) (SZ 3) 2 [(ZZ 1 0)] [(P1E 1 [(RSP 4 NB NZ); (RSP 3 NB NZ)])] [(ZZ 1 0)] [(ZOZ 1 (SZ 1))] true (SZ 3) [])); (RS 2 (IRetry 1) [] (mkO (SB 2 2) (SB 2 2) (SZ 3) 2 [(ZZ 1 0); (ZZ 2 1)] [(P1E 1 [(RSP 2 NB NZ); (RSP 3 NB NZ); (RSP 0 NB NZ)]); (P1E 2 [(RSP 2 NB NZ); (RSP 0 NB NZ); (RSP 1 NB NZ); (RSP 3 NB NZ); (RSP 4 NB NZ)])] [(ZZ 1 0); (ZZ 2 4)] [(ZOZ 1 (SZ 1)); (ZOZ 2 (SZ 3))] true (SZ 3) [(ZOZ 1 (SZ 3))])); (RS 2 (IRetry 1) [] (mkO (SB 2 2) (SB 2 2) (SZ 3) 2 [(ZZ 1 0); (ZZ 2 1)] [(P1E 1 [(RSP 2 NB NZ); (RSP 3 NB NZ); (RSP 0 NB NZ)]); (P1E 2 [(RSP 2 NB NZ); (RSP 0 NB NZ); (RSP 1 NB NZ); (RSP 3 NB NZ); (RSP 4 NB NZ)])] [(ZZ 1 0); (ZZ 2 4)] [(ZOZ 1 (SZ 1)); (ZOZ 2 (SZ 3))] true (SZ 3) [(ZOZ 1 (SZ 3))])); (RS 4 (IRetry 1) [] (mkO (SB 2 2) (SB 2 2) (SZ 3) 2 [(ZZ 1 0)] [(P1E 1 [(RSP 4 NB NZ); (RSP 3 NB NZ)])] [(ZZ 1 0)] [(ZOZ 1 (SZ 1))] true (SZ 3) [])); (RS 2 (IRetry 1) [] (mkO (SB 2 2) (SB 2 2) (SZ 3) 2 [(ZZ 1 0); (ZZ 2 1)] [(P1E 1 [(RSP 2 NB NZ); (RSP 3 NB NZ); (RSP 0 NB NZ)]); (P1E 2 [(RSP 2 NB NZ); (RSP 0 NB NZ); (RSP 1 NB NZ); (RSP 3 NB NZ); (RSP 4 NB NZ)])] [(ZZ 1 0); (ZZ 2 4)] [(ZOZ 1 (SZ 1)); (ZOZ 2 (SZ 3))] true (SZ 3) [(ZOZ 1 (SZ 3))]))]).
Definition case_46 : Z * list rec_step := (4, [(RS 0 (IPropose 3) [(OPrepare 1 1 0); (OPrepare 2 1 0); (OPrepare 3 1 0)] (mkO (SB 1 0) NB NZ 1 [(ZZ 1 0)] [(P1E 1 [(RSP 0 NB NZ)])] [(ZZ 1 0)] [(ZOZ 1 (SZ 3))] false NZ [])); (RS 0 (IPropose 3) [(OPrepare 1 2 0); (OPrepare 2 2 0); (OPrepare 3 2 0)] (mkO (SB 2 0) NB NZ 2 [(ZZ 1 0); (ZZ 2 1)] [(P1E 1 [(RSP 0 NB NZ)]); (P1E 2 [(RSP 0 NB NZ)])] [(ZZ 1 0); (ZZ 2 0)] [(ZOZ 1 (SZ 3)); (ZOZ 2 (SZ 3))] false NZ [])); (RS 1 (IPrepare 0 1 0) [(OPromise 0 1 0 1 NB NZ)] (mkO (SB 1 0) NB NZ 0 [] [] [] [] false NZ [])); (RS 2 (IPrepare 0 1 0) [(OPromise 0 1 0 2 NB NZ)] (mkO (SB 1 0) NB NZ 0 [] [] [] [] false NZ [])); (RS 3 (IPrepare 0 1 0) [(OPromise 0 1 0 3 NB NZ)] (mkO (SB 1 0) NB NZ 0 [] [] [] [] false NZ [])); (RS 2 (IPrepare 0 2 0) [(OPromise 0 2 0 2 NB NZ)] (mkO (SB 2 0) NB NZ 0 [] [] [] [] false NZ [])); (RS 3 (IPrepare 0 2 0) [(OPromise 0 2 0 3 NB NZ)] (mkO (SB 2 0) NB NZ 0 [] [] [] [] false NZ [])); (RS 1 (IPrepare 0 2 0) [(OPromise 0 2 0 1 NB NZ)] (mkO (SB 2 0) NB NZ 0 [] [] [] [] false NZ [])); (RS 0 (IPromise 1 2 NB NZ) [] (mkO (SB 2 0) NB NZ 2 [(ZZ 1 0); (ZZ 2 1)] [(P1E 1 [(RSP 0 NB NZ); (RSP 2 NB NZ)]); (P1E 2 [(RSP 0 NB NZ)])] [(ZZ 1 0); (ZZ 2 0)] [(ZOZ 1 (SZ 3)); (ZOZ 2 (SZ 3))] false NZ [])); (RS 0 (IPromise 2 3 NB NZ) [] (mkO (SB 2 0) NB NZ 2 [(ZZ 1 0); (ZZ 2 1)] [(P1E 1 [(RSP 0 NB NZ); (RSP 2 NB NZ)]); (P1E 2 [(RSP 0 NB NZ); (RSP 3 NB NZ)])] [(ZZ 1 0); (ZZ 2 0)] [(ZOZ 1 (SZ 3)); (ZOZ 2 (SZ 3))] false NZ [])); (RS 0 (IPromise 2 2 NB NZ) [(OAccept 1 2 0 (SZ 3)); (OAccept 2 2 0 (SZ 3)); (OAccept 3 2 0 (SZ 3))] (mkO (SB 2 0) (SB 2 0) (SZ 3) 2 [(ZZ 1 0); (ZZ 2 1)] [(P1E 1 [(RSP 0 NB NZ); (RSP 2 NB NZ)]); (P1E 2 [(RSP 0 NB NZ); (RSP 3 NB NZ); (RSP 2 NB NZ)])] [(ZZ 1 0); (ZZ 2 1)] [(ZOZ 1 (SZ 3)); (ZOZ 2 (SZ 3))] false NZ [])); (RS 0 (IPromise 1 1 NB NZ) [(OAccept 1 1 0 (SZ 3)); (OAccept 2 1 0 (SZ 3)); (OAccept 3 1 0 (SZ 3))] (mkO (SB 2 0) (SB 2 0) (SZ 3) 2 [(ZZ 1 0); (ZZ 2 1)] [(P1E 1 [(RSP 0 NB NZ); (RSP 2 NB NZ); (RSP 1 NB NZ)]); (P1E 2 [(RSP 0 NB NZ); (RSP 3 NB NZ); (RSP 2 NB NZ)])] [(ZZ 1 0); (ZZ 2 1)] [(ZOZ 1 (SZ 3)); (ZOZ 2 (SZ 3))] false NZ [])); (RS 0 (IPromise 1 3 NB NZ) [] (mkO (SB 2 0) (SB 2 0) (SZ 3) 2 [(ZZ 1 0); (ZZ 2 1)] [(P1E 1 [(RSP 0 NB NZ); (RSP 2 NB NZ); (RSP 1 NB NZ); (RSP 3 NB NZ)]); (P1E 2 [(RSP 0 NB NZ); (RSP 3 NB NZ); (RSP 2 NB NZ)])] [(ZZ 1 0); (ZZ 2 1)] [(ZOZ 1 (SZ 3)); (ZOZ 2 (SZ 3))] false NZ [])); (RS 0 (IPromise 2 1 NB NZ) [] (mkO (SB 2 0) (SB 2 0) (SZ 3) 2 [(ZZ 1 0); (ZZ 2 1)] [(P1E 1 [(RSP 0 NB NZ); (RSP 2 NB NZ); (RSP 1 NB NZ); (RSP 3 NB NZ)]); (P1E 2 [(RSP 0 NB NZ); (RSP 3 NB NZ); (RSP 2 NB NZ); (RSP 1 NB NZ)])] [(ZZ 1 0); (ZZ 2 1)] [(ZOZ 1 (SZ 3)); (ZOZ 2 (SZ 3))] false NZ [])); (RS 1 (IAccept 0 2 0 (SZ 3)) [(OAccepted 0 2 0 1)] (mkO (SB 2 0) (SB 2 0) (SZ 3) 0 [] [] [] [] false NZ [])); (RS 2 (IAccept 0 2 0 (SZ 3)) [(OAccepted 0 2 0 2)] (mkO (SB 2 0) (SB 2 0) (SZ 3) 0 [] [] [] [] false NZ [])); (RS 3 (IAccept 0 2 0 (SZ 3)) [(OAccepted 0 2 0 3)] (mkO (SB 2 0) (SB 2 0) (SZ 3) 0 [] [] [] [] false NZ [])); (RS 3 (IAccept 0 1 0 (SZ 3)) [(ONack 0 1 0 2 0)] (mkO (SB 2 0) (SB 2 0) (SZ 3) 0 [] [] [] [] false NZ [])); (RS 0 (IAccepted 2) [] (mkO (SB 2 0) (SB 2 0) (SZ 3) 2 [(ZZ 1 0); (ZZ 2 1)] [(P1E 1 [(RSP 0 NB NZ); (RSP 2 NB NZ); (RSP 1 NB NZ); (RSP 3 NB NZ)]); (P1E 2 [(RSP 0 NB NZ); (RSP 3 NB NZ); (RSP 2 NB NZ); (RSP 1 NB NZ)])] [(ZZ 1 0); (ZZ 2 2)] [(ZOZ 1 (SZ 3)); (ZOZ 2 (SZ 3))] false NZ [])); (RS 0 (INack 1 2) [(ORetry 1)] (mkO (SB 2 0) (SB 2 0) (SZ 3) 2 [(ZZ 1 0); (ZZ 2 1)] [(P1E 1 [(RSP 0 NB NZ); (RSP 2 NB NZ); (RSP 1 NB NZ); (RSP 3 NB NZ)]); (P1E 2 [(RSP 0 NB NZ); (RSP 3 NB NZ); (RSP 2 NB NZ); (RSP 1 NB NZ)])] [(ZZ 1 0); (ZZ 2 2)] [(ZOZ 1 (SZ 3)); (ZOZ 2 (SZ 3))] false NZ [])); (RS 2 (IPropose 2) [(OPrepare 0 3 2); (OPrepare 1 3 2); (OPrepare 3 3 2)] (mkO (SB 3 2) (SB 2 0) (SZ 3) 3 [(ZZ 3 0)] [(P1E 3 [(RSP 2 (SB 2 0) (SZ 3))])] [(ZZ 3 0)] [(ZOZ 3 (SZ 2))] false NZ [])); (RS 1 (IPrepare 2 3 2) [(OPromise 2 3 2 1 (SB 2 0) (SZ 3))] (mkO (SB 3 2) (SB 2 0) (SZ 3) 0 [] [] [] [] false NZ [])); (RS 2 (IPromise 3 1 (SB 2 0) (SZ 3)) [] (mkO (SB 3 2) (SB 2 0) (SZ 3) 3 [(ZZ 3 0)] [(P1E 3 [(RSP 2 (SB 2 0) (SZ 3)); (RSP 1 (SB 2 0) (SZ 3))])] [(ZZ 3 0)] [(ZOZ 3 (SZ 2))] false NZ [])); (RS 3 (IPropose 3) [(OPrepare 0 3 3); (OPrepare 1 3 3); (OPrepare 2 3 3)] (mkO (SB 3 3) (SB 2 0) (SZ 3) 3 [(ZZ 3 0)] [(P1E 3 [(RSP 3 (SB 2 0) (SZ 3))])] [(ZZ 3 0)] [(ZOZ 3 (SZ 3))] false NZ [])); (RS 0 (IPrepare 3 3 3) [(OPromise 3 3 3 0 (SB 2 0) (SZ 3))] (mkO (SB 3 3) (SB 2 0) (SZ 3) 2 [(ZZ 1 0); (ZZ 2 1)] [(P1E 1 [(RSP 0 NB NZ); (RSP 2 NB NZ); (RSP 1 NB NZ); (RSP 3 NB NZ)]); (P1E 2 [(RSP 0 NB NZ); (RSP 3 NB NZ); (RSP 2 NB NZ); (RSP 1 NB NZ)])] [(ZZ 1 0); (ZZ 2 2)] [(ZOZ 1 (SZ 3)); (ZOZ 2 (SZ 3))] false NZ [])); (RS 3 (IPromise 3 0 (SB 2 0) (SZ 3)) [] (mkO (SB 3 3) (SB 2 0) (SZ 3) 3 [(ZZ 3 0)] [(P1E 3 [(RSP 3 (SB 2 0) (SZ 3)); (RSP 0 (SB 2 0) (SZ 3))])] [(ZZ 3 0)] [(ZOZ 3 (SZ 3))] false NZ [])); (RS 0 (IRetry 1) [(OPrepare 1 3 0); (OPrepare 2 3 0); (OPrepare 3 3 0)] (mkO (SB 3 3) (SB 2 0) (SZ 3) 3 [(ZZ 2 1); (ZZ 3 0)] [(P1E 1 [(RSP 0 NB NZ); (RSP 2 NB NZ); (RSP 1 NB NZ); (RSP 3 NB NZ)]); (P1E 2 [(RSP 0 NB NZ); (RSP 3 NB NZ); (RSP 2 NB NZ); (RSP 1 NB NZ)]); (P1E 3 [])] [(ZZ 1 0); (ZZ 2 2); (ZZ 3 0)] [(ZOZ 2 (SZ 3)); (ZOZ 3 (SZ 3))] false NZ [])); (RS 1 (IPrepare 0 3 0) [(ONack 0 3 0 3 2)] (mkO (SB 3 2) (SB 2 0) (SZ 3) 0 [] [] [] [] false NZ [])); (RS 2 (IPrepare 0 3 0) [(ONack 0 3 0 3 2)] (mkO (SB 3 2) (SB 2 0) (SZ 3) 3 [(ZZ 3 0)] [(P1E 3 [(RSP 2 (SB 2 0) (SZ 3)); (RSP 1 (SB 2 0) (SZ 3))])] [(ZZ 3 0)] [(ZOZ 3 (SZ 2))] false NZ [])); (RS 3 (IPrepare 0 3 0) [(ONack 0 3 0 3 3)] (mkO (SB 3 3) (SB 2 0) (SZ 3) 3 [(ZZ 3 0)] [(P1E 3 [(RSP 3 (SB 2 0) (SZ 3)); (RSP 0 (SB 2 0) (SZ 3))])] [(ZZ 3 0)] [(ZOZ 3 (SZ 3))] false NZ [])); (RS 0 (INack 3 3) [(ORetry 3)] (mkO (SB 3 3) (SB 2 0) (SZ 3) 3 [(ZZ 2 1); (ZZ 3 0)] [(P1E 1 [(RSP 0 NB NZ); (RSP 2 NB NZ); (RSP 1 NB NZ); (RSP 3 NB NZ)]); (P1E 2 [(RSP 0 NB NZ); (RSP 3 NB NZ); (RSP 2 NB NZ); (RSP 1 NB NZ)]); (P1E 3 [])] [(ZZ 1 0); (ZZ 2 2); (ZZ 3 0)] [(ZOZ 2 (SZ 3)); (ZOZ 3 (SZ 3))] false NZ [])); (RS 0 (INack 3 3) [(ORetry 3)] (mkO (SB 3 3) (SB 2 0) (SZ 3) 3 [(ZZ 2 1); (ZZ 3 0)] [(P1E 1 [(RSP 0 NB NZ); (RSP 2 NB NZ); (RSP 1 NB NZ); (RSP 3 NB NZ)]); (P1E 2 [(RSP 0 NB NZ); (RSP 3 NB NZ); (RSP 2 NB NZ); (RSP 1 NB NZ)]); (P1E 3 [])] [(ZZ 1 0); (ZZ 2 2); (ZZ 3 0)] [(ZOZ 2 (SZ 3)); (ZOZ 3 (SZ 3))] false NZ [])); (RS 0 (INack 3 3) [(ORetry 3)] (mkO (SB 3 3) (SB 2 0) (SZ 3) 3 [(ZZ 2 1); (ZZ 3 0)] [(P1E 1 [(RSP 0 NB NZ); (RSP 2 NB NZ); (RSP 1 NB NZ); (RSP 3 NB NZ)]); (P1E 2 [(RSP 0 NB NZ); (RSP 3 NB NZ); (RSP 2 NB NZ); (RSP 1 NB NZ)]); (P1E 3 [])] [(ZZ 1 0); (ZZ 2 2); (ZZ 3 0)] [(ZOZ 2 (SZ 3)); (ZOZ 3 (SZ 3))] false NZ [])); (RS 0 (IRetry 3) [(OPrepare 1 4 0); (OPrepare 2 4 0); (OPrepare 3 4 0)] (mkO (SB 4 0) (SB 2 0) (SZ 3) 4 [(ZZ 2 1); (ZZ 4 0)] [(P1E 1 [(RSP 0 NB NZ); (RSP 2 NB NZ); (RSP 1 NB NZ); (RSP 3 NB NZ)]); (P1E 2 [(RSP 0 NB NZ); (RSP 3 NB NZ); (RSP 2 NB NZ); (RSP 1 NB NZ)]); (P1E 3 []); (P1E 4 [(RSP 0 (SB 2 0) (SZ 3))])] [(ZZ 1 0); (ZZ 2 2); (ZZ 3 0); (ZZ 4 0)] [(ZOZ 2 (SZ 3)); (ZOZ 4 (SZ 3))] false NZ [])); (RS 1 (IPrepare 0 4 0) [(OPromise 0 4 0 1 (SB 2 0) (SZ 3))] (mkO (SB 4 0) (SB 2 0) (SZ 3) 0 [] [] [] [] false NZ [])); (RS 3 (IPrepare 0 4 0) [(OPromise 0 4 0 3 (SB 2 0) (SZ 3))] (mkO (SB 4 0) (SB 2 0) (SZ 3) 3 [(ZZ 3 0)] [(P1E 3 [(RSP 3 (SB 2 0) (SZ 3)); (RSP 0 (SB 2 0) (SZ 3))])] [(ZZ 3 0)] [(ZOZ 3 (SZ 3))] false NZ [])); (RS 0 (IPromise 4 1 (SB 2 0) (SZ 3)) [] (mkO (SB 4 0) (SB 2 0) (SZ 3) 4 [(ZZ 2 1); (ZZ 4 0)] [(P1E 1 [(RSP 0 NB NZ); (RSP 2 NB NZ); (RSP 1 NB NZ); (RSP 3 NB NZ)]); (P1E 2 [(RSP 0 NB NZ); (RSP 3 NB NZ); (RSP 2 NB NZ); (RSP 1 NB NZ)]); (P1E 3 []); (P1E 4 [(RSP 0 (SB 2 0) (SZ 3)); (RSP 1 (SB 2 0) (SZ 3))])] [(ZZ 1 0); (ZZ 2 2); (ZZ 3 0); (ZZ 4 0)] [(ZOZ 2 (SZ 3)); (ZOZ 4 (SZ 3))] false NZ [])); (RS 2 (IPrepare 0 4 0) [(OPromise 0 4 0 2 (SB 2 0) (SZ 3))] (mkO (SB 4 0) (SB 2 0) (SZ 3) 3 [(ZZ 3 0)] [(P1E 3 [(RSP 2 (SB 2 0) (SZ 3)); (RSP 1 (SB 2 0) (SZ 3))])] [(ZZ 3 0)] [(ZOZ 3 (SZ 2))] false NZ [])); (RS 0 (IPromise 4 3 (SB 2 0) (SZ 3)) [(OAccept 1 4 0 (SZ 3)); (OAccept 2 4 0 (SZ 3)); (OAccept 3 4 0 (SZ 3))] (mkO (SB 4 0) (SB 4 0) (SZ 3) 4 [(ZZ 2 1); (ZZ 4 0)] [(P1E 1 [(RSP 0 NB NZ); (RSP 2 NB NZ); (RSP 1 NB NZ); (RSP 3 NB NZ)]); (P1E 2 [(RSP 0 NB NZ); (RSP 3 NB NZ); (RSP 2 NB NZ); (RSP 1 NB NZ)]); (P1E 3 []); (P1E 4 [(RSP 0 (SB 2 0) (SZ 3)); (RSP 1 (SB 2 0) (SZ 3)); (RSP 3 (SB 2 0) (SZ 3))])] [(ZZ 1 0); (ZZ 2 2); (ZZ 3 0); (ZZ 4 1)] [(ZOZ 2 (SZ 3)); (ZOZ 4 (SZ 3))] false NZ [])); (RS 0 (IPromise 4 2 (SB 2 0) (SZ 3)) [] (mkO (SB 4 0) (SB 4 0) (SZ 3) 4 [(ZZ 2 1); (ZZ 4 0)] [(P1E 1 [(RSP 0 NB NZ); (RSP 2 NB NZ); (RSP 1 NB NZ); (RSP 3 NB NZ)]); (P1E 2 [(RSP 0 NB NZ); (RSP 3 NB NZ); (RSP 2 NB NZ); (RSP 1 NB NZ)]); (P1E 3 []); (P1E 4 [(RSP 0 (SB 2 0) (SZ 3)); (RSP 1 (SB 2 0) (SZ 3)); (RSP 3 (SB 2 0) (SZ 3)); (RSP 2 (SB 2 0) (SZ 3))])] [(ZZ 1 0); (ZZ 2 2); (ZZ 3 0); (ZZ 4 1)] [(ZOZ 2 (SZ 3)); (ZOZ 4 (SZ 3))] false NZ [])); (RS 1 (IAccept 0 4 0 (SZ 3)) [(OAccepted 0 4 0 1)] (mkO (SB 4 0) (SB 4 0) (SZ 3) 0 [] [] [] [] false NZ [])); (RS 2 (IAccept 0 4 0 (SZ 3)) [(OAccepted 0 4 0 2)] (mkO (SB 4 0) (SB 4 0) (SZ 3) 3 [(ZZ 3 0)] [(P1E 3 [(RSP 2 (SB 2 0) (SZ 3)); (RSP 1 (SB 2 0) (SZ 3))])] [(ZZ 3 0)] [(ZOZ 3 (SZ 2))] false NZ [])); (RS 3 (IAccept 0 4 0 (SZ 3)) [(OAccepted 0 4 0 3)] (mkO (SB 4 0) (SB 4 0) (SZ 3) 3 [(ZZ 3 0)] [(P1E 3 [(RSP 3 (SB 2 0) (SZ 3)); (RSP 0 (SB 2 0) (SZ 3))])] [(ZZ 3 0)] [(ZOZ 3 (SZ 3))] false NZ [])); (RS 0 (IAccepted 4) [] (mkO (SB 4 0) (SB 4 0) (SZ 3) 4 [(ZZ 2 1); (ZZ 4 0)] [(P1E 1 [(RSP 0 NB NZ); (RSP 2 NB NZ); (RSP 1 NB NZ); (RSP 3 NB NZ)]); (P1E 2 [(RSP 0 NB NZ); (RSP 3 NB NZ); (RSP 2 NB NZ); (RSP 1 NB NZ)]); (P1E 3 []); (P1E 4 [(RSP 0 (SB 2 0) (SZ 3)); (RSP 1 (SB 2 0) (SZ 3)); (RSP 3 (SB 2 0) (SZ 3)); (RSP 2 (SB 2 0) (SZ 3))])] [(ZZ 1 0); (ZZ 2 2); (ZZ 3 0); (ZZ 4 2)] [(ZOZ 2 (SZ 3)); (ZOZ 4 (SZ 3))] false NZ [])); (RS 0 (IRetry 3) [] (mkO (SB 4 0) (SB 4 0) (SZ 3) 4 [(ZZ 2 1); (ZZ 4 0)] [(P1E 1 [(RSP 0 NB NZ); (RSP 2 NB NZ); (RSP 1 NB NZ); (RSP 3 NB NZ)]); (P1E 2 [(RSP 0 NB NZ); (RSP 3 NB NZ); (RSP 2 NB NZ); (RSP 1 NB NZ)]); (P1E 3 []); (P1E 4 [(RSP 0 (SB 2 0) (SZ 3)); (RSP 1 (SB 2 0) (SZ 3)); (RSP 3 (SB 2 0) (SZ 3)); (RSP 2 (SB 2 0) (SZ 3))])] [(ZZ 1 0); (ZZ 2 2); (ZZ 3 0); (ZZ 4 2)] [(ZOZ 2 (SZ 3)); (ZOZ 4 (SZ 3))] false NZ [])); (RS 0 (IAccepted 4) [(ODecided 1 (SZ 3)); (ODecided 2 (SZ 3)); (ODecided 3 (SZ 3))] (mkO (SB 4 0) (SB 4 0) (SZ 3) 4 [(ZZ 2 1); (ZZ 4 0)] [(P1E 1 [(RSP 0 NB NZ); (RSP 2 NB NZ); (RSP 1 NB NZ); (RSP 3 NB NZ)]); (P1E 2 [(RSP 0 NB NZ); (RSP 3 NB NZ); (RSP 2 NB NZ); (RSP 1 NB NZ)]); (P1E 3 []); (P1E 4 [(RSP 0 (SB 2 0) (SZ 3)); (RSP 1 (SB 2 0) (SZ 3)); (RSP 3 (SB 2 0) (SZ 3)); (RSP 2 (SB 2 0) (SZ 3))])] [(ZZ 1 0); (ZZ 2 2); (ZZ 3 0); (ZZ 4 3)] [(ZOZ 2 (SZ 3)); (ZOZ 4 (SZ 3))] true (SZ 3) [(ZOZ 0 (SZ 3))])); (RS 0 (IAccepted 4) [] (mkO (SB 4 0) (SB 4 0) (SZ 3) 4 [(ZZ 2 1); (ZZ 4 0)] [(P1E 1 [(RSP 0 NB NZ); (RSP 2 NB NZ); (RSP 1 NB NZ); (RSP 3 NB NZ)]); (P1E 2 [(RSP 0 NB NZ); (RSP 3 NB NZ); (RSP 2 NB NZ); (RSP 1 NB NZ)]); (P1E 3 []); (P1E 4 [(RSP 0 (SB 2 0) (SZ 3)); (RSP 1 (SB 2 0) (SZ 3)); (RSP 3 (SB 2 0) (SZ 3)); (RSP 2 (SB 2 0) (SZ 3))])] [(ZZ 1 0); (ZZ 2 2); (ZZ 3 0); (ZZ 4 4)] [(ZOZ 2 (SZ 3)); (ZOZ 4 (SZ 3))] true (SZ 3) [(ZOZ 0 (SZ 3))])); (RS 1 (IDecided (SZ 3)) [] (mkO (SB 4 0) (SB 4 0) (SZ 3) 0 [] [] [] [] true (SZ 3) [])); (RS 3 (IDecided (SZ 3)) [] (mkO (SB 4 0) (SB 4 0) (SZ 3) 3 [(ZZ 3 0)] [(P1E 3 [(RSP 3 (SB 2 0) (SZ 3)); (RSP 0 (SB 2 0) (SZ 3))])] [(ZZ 3 0)] [(ZOZ 3 (SZ 3))] true (SZ 3) [])); (RS 2 (IDecided (SZ 3)) [] (mkO (SB 4 0) (SB 4 0) (SZ 3) 3 [(ZZ 3 0)] [(P1E 3 [(RSP 2 (SB 2 0) (SZ 3)); (RSP 1 (SB 2 0) (SZ 3))])] [(ZZ 3 0)] [(ZOZ 3 (SZ 2))] true (SZ 3) [])); (RS 0 (IRetry 3) [] (mkO (SB 4 0) (SB 4 0) (SZ 3) 4 [(ZZ 2 1); (ZZ 4 0)] [(P1E 1 [(RSP 0 NB NZ); (RSP 2 NB NZ); (RSP 1 NB NZ); (RSP 3 NB NZ)]); (P1E 2 [(RSP 0 NB NZ); (RSP 3 NB NZ); (RSP 2 NB NZ); (RSP 1 NB NZ)]); (P1E 3 []); (P1E 4 [(RSP 0 (SB 2 0) (SZ 3)); (RSP 1 (SB 2 0) (SZ 3)); (RSP 3 (SB 2 0) (SZ 3)); (RSP 2 (SB 2 0) (SZ 3))])] [(ZZ 1 0); (ZZ 2 2); (ZZ 3 0); (ZZ 4 4)] [(ZOZ 2 (SZ 3)); (ZOZ 4 (SZ 3))] true (SZ 3) [(ZOZ 0 (SZ 3))]))]).
Definition case_47 : Z * list rec_step := (3, [(RS 1 (IPropose 1) [(OPrepare 0 1 1); (OPrepare 2 1 1)] (mkO (SB 1 1) NB NZ 1 [(ZZ 1 0)] [(P1E 1 [(RSP 1 NB NZ)])] [(ZZ 1 0)] [(ZOZ 1 (SZ 1))] false NZ [])); (RS 0 (IPrepare 1 1 1) [(OPromise 1 1 1 0 NB NZ)] (mkO (SB 1 1) NB NZ 0 [] [] [] [] false NZ [])); (RS 1 (IPromise 1 0 NB NZ) [(OAccept 0 1 1 (SZ 1)); (OAccept 2 1 1 (SZ 1))] (mkO (SB 1 1) (SB 1 1) (SZ 1) 1 [(ZZ 1 0)] [(P1E 1 [(RSP 1 NB NZ); (RSP 0 NB NZ)])] [(ZZ 1 1)] [(ZOZ 1 (SZ 1))] false NZ [])); (RS 2 (IPropose 2) [(OPrepare 0 1 2); (OPrepare 1 1 2)] (mkO (SB 1 2) NB NZ 1 [(ZZ 1 0)] [(P1E 1 [(RSP 2 NB NZ)])] [(ZZ 1 0)] [(ZOZ 1 (SZ 2))] false NZ [])); (RS 0 (IPrepare 2 1 2) [(OPromise 2 1 2 0 NB NZ)] (mkO (SB 1 2) NB NZ 0 [] [] [] [] false NZ [])); (RS 2 (IPromise 1 0 NB NZ) [(OAccept 0 1 2 (SZ 2)); (OAccept 1 1 2 (SZ 2))] (mkO (SB 1 2) (SB 1 2) (SZ 2) 1 [(ZZ 1 0)] [(P1E 1 [(RSP 2 NB NZ); (RSP 0 NB NZ)])] [(ZZ 1 1)] [(ZOZ 1 (SZ 2))] false NZ [])); (RS 1 (IAccept 2 1 2 (SZ 2)) [(OAccepted 2 1 2 1)] (mkO (SB 1 2) (SB 1 2) (SZ 2) 1 [(ZZ 1 0)] [(P1E 1 [(RSP 1 NB NZ); (RSP 0 NB NZ)])] [(ZZ 1 1)] [(ZOZ 1 (SZ 1))] false NZ [])); (RS 2 (IAccepted 1) [(ODecided 0 (SZ 2)); (ODecided 1 (SZ 2))] (mkO (SB 1 2) (SB 1 2) (SZ 2) 1 [(ZZ 1 0)] [(P1E 1 [(RSP 2 NB NZ); (RSP 0 NB NZ)])] [(ZZ 1 2)] [(ZOZ 1 (SZ 2))] true (SZ 2) [(ZOZ 0 (SZ 2))])); (RS 1 (IDecided (SZ 2)) [] (mkO (SB 1 2) (SB 1 2) (SZ 2) 1 [(ZZ 1 0)] [(P1E 1 [(RSP 1 NB NZ); (RSP 0 NB NZ)])] [(ZZ 1 1)] [(ZOZ 1 (SZ 1))] true (SZ 2) [])); (RS 1 (IPropose 3) [] (mkO (SB 1 2) (SB 1 2) (SZ 2) 1 [(ZZ 1 0)] [(P1E 1 [(RSP 1 NB NZ); (RSP 0 NB NZ)])] [(ZZ 1 1)] [(ZOZ 1 (SZ 1))] true (SZ 2) [(ZOZ 1 (SZ 2))]))]).
Definition case_48 : Z * list rec_step := (3, [(RS 0 (IPropose 2) [(OPrepare 1 1 0); (OPrepare 2 1 0)] (mkO (SB 1 0) NB NZ 1 [(ZZ 1 0)] [(P1E 1 [(RSP 0 NB NZ)])] [(ZZ 1 0)] [(ZOZ 1 (SZ 2))] false NZ [])); (RS 1 (IPrepare 0 1 0) [(OPromise 0 1 0 1 NB NZ)] (mkO (SB 1 0) NB NZ 0 [] [] [] [] false NZ [])); (RS 2 (IPrepare 0 1 0) [(OPromise 0 1 0 2 NB NZ)] (mkO (SB 1 0) NB NZ 0 [] [] [] [] false NZ [])); (RS 0 (IPromise 1 1 NB NZ) [(OAccept 1 1 0 (SZ 2)); (OAccept 2 1 0 (SZ 2))] (mkO (SB 1 0) (SB 1 0) (SZ 2) 1 [(ZZ 1 0)] [(P1E 1 [(RSP 0 NB NZ); (RSP 1 NB NZ)])] [(ZZ 1 1)] [(ZOZ 1 (SZ 2))] false NZ [])); (RS 0 (IPromise 1 2 NB NZ) [] (mkO (SB 1 0) (SB 1 0) (SZ 2) 1 [(ZZ 1 0)] [(P1E 1 [(RSP 0 NB NZ); (RSP 1 NB NZ); (RSP 2 NB NZ)])] [(ZZ 1 1)] [(ZOZ 1 (SZ 2))] false NZ [])); (RS 1 (IPropose 1) [(OPrepare 0 2 1); (OPrepare 2 2 1)] (mkO (SB 2 1) NB NZ 2 [(ZZ 2 0)] [(P1E 2 [(RSP 1 NB NZ)])] [(ZZ 2 0)] [(ZOZ 2 (SZ 1))] false NZ [])); (RS 2 (IPrepare 1 2 1) [(OPromise 1 2 1 2 NB NZ)] (mkO (SB 2 1) NB NZ 0 [] [] [] [] false NZ [])); (RS 1 (IPromise 2 2 NB NZ) [(OAccept 0 2 1 (SZ 1)); (OAccept 2 2 1 (SZ 1))] (mkO (SB 2 1) (SB 2 1) (SZ 1) 2 [(ZZ 2 0)] [(P1E 2 [(RSP 1 NB NZ); (RSP 2 NB NZ)])] [(ZZ 2 1)] [(ZOZ 2 (SZ 1))] false NZ [])); (RS 0 (IPrepare 1 2 1) [(OPromise 1 2 1 0 (SB 1 0) (SZ 2))] (mkO (SB 2 1) (SB 1 0) (SZ 2) 1 [(ZZ 1 0)] [(P1E 1 [(RSP 0 NB NZ); (RSP 1 NB NZ); (RSP 2 NB NZ)])] [(ZZ 1 1)] [(ZOZ 1 (SZ 2))] false NZ [])); (RS 1 (IPromise 2 0 (SB 1 0) (SZ 2)) [] (mkO (SB 2 1) (SB 2 1) (SZ 1) 2 [(ZZ 2 0)] [(P1E 2 [(RSP 1 NB NZ); (RSP 2 NB NZ); (RSP 0 (SB 1 0) (SZ 2))])] [(ZZ 2 1)] [(ZOZ 2 (SZ 1))] false NZ [])); (RS 2 (IAccept 1 2 1 (SZ 1)) [(OAccepted 1 2 1 2)] (mkO (SB 2 1) (SB 2 1) (SZ 1) 0 [] [] [] [] false NZ [])); (RS 2 (IPropose 1) [(OPrepare 0 3 2); (OPrepare 1 3 2)] (mkO (SB 3 2) (SB 2 1) (SZ 1) 3 [(ZZ 3 0)] [(P1E 3 [(RSP 2 (SB 2 1) (SZ 1))])] [(ZZ 3 0)] [(ZOZ 3 (SZ 1))] false NZ [])); (RS 0 (IPrepare 2 3 2) [(OPromise 2 3 2 0 (SB 1 0) (SZ 2))] (mkO (SB 3 2) (SB 1 0) (SZ 2) 1 [(ZZ 1 0)] [(P1E 1 [(RSP 0 NB NZ); (RSP 1 NB NZ); (RSP 2 NB NZ)])] [(ZZ 1 1)] [(ZOZ 1 (SZ 2))] false NZ [])); (RS 2 (IPromise 3 0 (SB 1 0) (SZ 2)) [(OAccept 0 3 2 (SZ 1)); (OAccept 1 3 2 (SZ 1))] (mkO (SB 3 2) (SB 3 2) (SZ 1) 3 [(ZZ 3 0)] [(P1E 3 [(RSP 2 (SB 2 1) (SZ 1)); (RSP 0 (SB 1 0) (SZ 2))])] [(ZZ 3 1)] [(ZOZ 3 (SZ 1))] false NZ [])); (RS 0 (IAccept 2 3 2 (SZ 1)) [(OAccepted 2 3 2 0)] (mkO (SB 3 2) (SB 3 2) (SZ 1) 1 [(ZZ 1 0)] [(P1E 1 [(RSP 0 NB NZ); (RSP 1 NB NZ); (RSP 2 NB NZ)])] [(ZZ 1 1)] [(ZOZ 1 (SZ 2))] false NZ [])); (RS 1 (IAccept 2 3 2 (SZ 1)) [(OAccepted 2 3 2 1)] (mkO (SB 3 2) (SB 3 2) (SZ 1) 2 [(ZZ 2 0)] [(P1E 2 [(RSP 1 NB NZ); (RSP 2 NB NZ); (RSP 0 (SB 1 0) (SZ 2))])] [(ZZ 2 1)] [(ZOZ 2 (SZ 1))] false NZ [])); (RS 1 (IAccept 0 1 0 (SZ 2)) [(ONack 0 1 0 3 2)] (mkO (SB 3 2) (SB 3 2) (SZ 1) 2 [(ZZ 2 0)] [(P1E 2 [(RSP 1 NB NZ); (RSP 2 NB NZ); (RSP 0 (SB 1 0) (SZ 2))])] [(ZZ 2 1)] [(ZOZ 2 (SZ 1))] false NZ [])); (RS 0 (INack 1 3) [(ORetry 1)] (mkO (SB 3 2) (SB 3 2) (SZ 1) 3 [(ZZ 1 0)] [(P1E 1 [(RSP 0 NB NZ); (RSP 1 NB NZ); (RSP 2 NB NZ)])] [(ZZ 1 1)] [(ZOZ 1 (SZ 2))] false NZ [])); (RS 0 (IAccept 1 2 1 (SZ 1)) [(ONack 1 2 1 3 2)] (mkO (SB 3 2) (SB 3 2) (SZ 1) 3 [(ZZ 1 0)] [(P1E 1 [(RSP 0 NB NZ); (RSP 1 NB NZ); (RSP 2 NB NZ)])] [(ZZ 1 1)] [(ZOZ 1 (SZ 2))] false NZ [])); (RS 1 (IPrepare 2 3 2) [(OPromise 2 3 2 1 (SB 3 2) (SZ 1))] (mkO (SB 3 2) (SB 3 2) (SZ 1) 2 [(ZZ 2 0)] [(P1E 2 [(RSP 1 NB NZ); (RSP 2 NB NZ); (RSP 0 (SB 1 0) (SZ 2))])] [(ZZ 2 1)] [(ZOZ 2 (SZ 1))] false NZ [])); (RS 2 (IPromise 3 1 (SB 3 2) (SZ 1)) [] (mkO (SB 3 2) (SB 3 2) (SZ 1) 3 [(ZZ 3 0)] [(P1E 3 [(RSP 2 (SB 2 1) (SZ 1)); (RSP 0 (SB 1 0) (SZ 2)); (RSP 1 (SB 3 2) (SZ 1))])] [(ZZ 3 1)] [(ZOZ 3 (SZ 1))] false NZ [])); (RS 2 (IPropose 2) [(OPrepare 0 4 2); (OPrepare 1 4 2)] (mkO (SB 4 2) (SB 3 2) (SZ 1) 4 [(ZZ 3 0); (ZZ 4 1)] [(P1E 3 [(RSP 2 (SB 2 1) (SZ 1)); (RSP 0 (SB 1 0) (SZ 2)); (RSP 1 (SB 3 2) (SZ 1))]); (P1E 4 [(RSP 2 (SB 3 2) (SZ 1))])] [(ZZ 3 1); (ZZ 4 0)] [(ZOZ 3 (SZ 1)); (ZOZ 4 (SZ 2))] false NZ [])); (RS 1 (IPrepare 2 4 2) [(OPromise 2 4 2 1 (SB 3 2) (SZ 1))] (mkO (SB 4 2) (SB 3 2) (SZ 1) 2 [(ZZ 2 0)] [(P1E 2 [(RSP 1 NB NZ); (RSP 2 NB NZ); (RSP 0 (SB 1 0) (SZ 2))])] [(ZZ 2 1)] [(ZOZ 2 (SZ 1))] false NZ [])); (RS 2 (IAccepted 3) [(ODecided 0 (SZ 1)); (ODecided 1 (SZ 1))] (mkO (SB 4 2) (SB 3 2) (SZ 1) 4 [(ZZ 3 0); (ZZ 4 1)] [(P1E 3 [(RSP 2 (SB 2 1) (SZ 1)); (RSP 0 (SB 1 0) (SZ 2)); (RSP 1 (SB 3 2) (SZ 1))]); (P1E 4 [(RSP 2 (SB 3 2) (SZ 1))])] [(ZZ 3 2); (ZZ 4 0)] [(ZOZ 3 (SZ 1)); (ZOZ 4 (SZ 2))] true (SZ 1) [(ZOZ 0 (SZ 1))])); (RS 0 (IDecided (SZ 1)) [] (mkO (SB 3 2) (SB 3 2) (SZ 1) 3 [(ZZ 1 0)] [(P1E 1 [(RSP 0 NB NZ); (RSP 1 NB NZ); (RSP 2 NB NZ)])] [(ZZ 1 1)] [(ZOZ 1 (SZ 2))] true (SZ 1) [])); (RS 2 (IPromise 4 1 (SB 3 2) (SZ 1)) [(OAccept 0 4 2 (SZ 1)); (OAccept 1 4 2 (SZ 1))] (mkO (SB 4 2) (SB 4 2) (SZ 1) 4 [(ZZ 3 0); (ZZ 4 1)] [(P1E 3 [(RSP 2 (SB 2 1) (SZ 1)); (RSP 0 (SB 1 0) (SZ 2)); (RSP 1 (SB 3 2) (SZ 1))]); (P1E 4 [(RSP 2 (SB 3 2) (SZ 1)); (RSP 1 (SB 3 2) (SZ 1))])] [(ZZ 3 2); (ZZ 4 1)] [(ZOZ 3 (SZ 1)); (ZOZ 4 (SZ 1))] true (SZ 1) [(ZOZ 0 (SZ 1))])); (RS 1 (IDecided (SZ 1)) [] (mkO (SB 4 2) (SB 3 2) (SZ 1) 2 [(ZZ 2 0)] [(P1E 2 [(RSP 1 NB NZ); (RSP 2 NB NZ); (RSP 0 (SB 1 0) (SZ 2))])] [(ZZ 2 1)] [(ZOZ 2 (SZ 1))] true (SZ 1) [])); (RS 1 (IAccept 2 4 2 (SZ 1)) [(OAccepted 2 4 2 1)] (mkO (SB 4 2) (SB 4 2) (SZ 1) 2 [(ZZ 2 0)] [(P1E 2 [(RSP 1 NB NZ); (RSP 2 NB NZ); (RSP 0 (SB 1 0) (SZ 2))])] [(ZZ 2 1)] [(ZOZ 2 (SZ 1))] true (SZ 1) [])); (RS 2 (IAccepted 4) [] (mkO (SB 4 2) (SB 4 2) (SZ 1) 4 [(ZZ 3 0); (ZZ 4 1)] [(P1E 3 [(RSP 2 (SB 2 1) (SZ 1)); (RSP 0 (SB 1 0) (SZ 2)); (RSP 1 (SB 3 2) (SZ 1))]); (P1E 4 [(RSP 2 (SB 3 2) (SZ 1)); (RSP 1 (SB 3 2) (SZ 1))])] [(ZZ 3 2); (ZZ 4 2)] [(ZOZ 3 (SZ 1)); (ZOZ 4 (SZ 1))] true (SZ 1) [(ZOZ 0 (SZ 1))])); (RS 0 (IRetry 1) [] (mkO (SB 3 2) (SB 3 2) (SZ 1) 3 [(ZZ 1 0)] [(P1E 1 [(RSP 0 NB NZ); (RSP 1 NB NZ); (RSP 2 NB NZ)])] [(ZZ 1 1)] [(ZOZ 1 (SZ 2))] true (SZ 1) [])); (RS 0 (IAccept 2 4 2 (SZ 1)) [(OAccepted 2 4 2 0)] (mkO (SB 4 2) (SB 4 2) (SZ 1) 3 [(ZZ 1 0)] [(P1E 1 [(RSP 0 NB NZ); (RSP 1 NB NZ); (RSP 2 NB NZ)])] [(ZZ 1 1)] [(ZOZ 1 (SZ 2))] true (SZ 1) [])); (RS 2 (IAccept 0 1 0 (SZ 2)) [(ONack 0 1 0 4 2)] (mkO (SB 4 2) (SB 4 2) (SZ 1) 4 [(ZZ 3 0); (ZZ 4 1)] [(P1E 3 [(RSP 2 (SB 2 1) (SZ 1)); (RSP 0 (SB 1 0) (SZ 2)); (RSP 1 (SB 3 2) (SZ 1))]); (P1E 4 [(RSP 2 (SB 3 2) (SZ 1)); (RSP 1 (SB 3 2) (SZ 1))])] [(ZZ 3 2); (ZZ 4 2)] [(ZOZ 3 (SZ 1)); (ZOZ 4 (SZ 1))] true (SZ 1) [(ZOZ 0 (SZ 1))])); (RS 0 (INack 1 4) [(ORetry 1)] (mkO (SB 4 2) (SB 4 2) (SZ 1) 4 [(ZZ 1 0)] [(P1E 1 [(RSP 0 NB NZ); (RSP 1 NB NZ); (RSP 2 NB NZ)])] [(ZZ 1 1)] [(ZOZ 1 (SZ 2))] true (SZ 1) [])); (RS 2 (IAccepted 4) [] (mkO (SB 4 2) (SB 4 2) (SZ 1) 4 [(ZZ 3 0); (ZZ 4 1)] [(P1E 3 [(RSP 2 (SB 2 1) (SZ 1)); (RSP 0 (SB 1 0) (SZ 2)); (RSP 1 (SB 3 2) (SZ 1))]); (P1E 4 [(RSP 2 (SB 3 2) (SZ 1)); (RSP 1 (SB 3 2) (SZ 1))])] [(ZZ 3 2); (ZZ 4 3)] [(ZOZ 3 (SZ 1)); (ZOZ 4 (SZ 1))] true (SZ 1) [(ZOZ 0 (SZ 1))])); (RS 2 (IAccepted 3) [] (mkO (SB 4 2) (SB 4 2) (SZ 1) 4 [(ZZ 3 0); (ZZ 4 1)] [(P1E 3 [(RSP 2 (SB 2 1) (SZ 1)); (RSP 0 (SB 1 0) (SZ 2)); (RSP 1 (SB 3 2) (SZ 1))]); (P1E 4 [(RSP 2 (SB 3 2) (SZ 1)); (RSP 1 (SB 3 2) (SZ 1))])] [(ZZ 3 3); (ZZ 4 3)] [(ZOZ 3 (SZ 1)); (ZOZ 4 (SZ 1))] true (SZ 1) [(ZOZ 0 (SZ 1))])); (RS 0 (IRetry 1) [] (mkO (SB 4 2) (SB 4 2) (SZ 1) 4 [(ZZ 1 0)] [(P1E 1 [(RSP 0 NB NZ); (RSP 1 NB NZ); (RSP 2 NB NZ)])] [(ZZ 1 1)] [(ZOZ 1 (SZ 2))] true (SZ 1) [])); (RS 1 (INack 2 3) [(ORetry 2)] (mkO (SB 4 2) (SB 4 2) (SZ 1) 3 [(ZZ 2 0)] [(P1E 2 [(RSP 1 NB NZ); (RSP 2 NB NZ); (RSP 0 (SB 1 0) (SZ 2))])] [(ZZ 2 1)] [(ZOZ 2 (SZ 1))] true (SZ 1) [])); (RS 0 (IPrepare 2 4 2) [(OPromise 2 4 2 0 (SB 4 2) (SZ 1))] (mkO (SB 4 2) (SB 4 2) (SZ 1) 4 [(ZZ 1 0)] [(P1E 1 [(RSP 0 NB NZ); (RSP 1 NB NZ); (RSP 2 NB NZ)])] [(ZZ 1 1)] [(ZOZ 1 (SZ 2))] true (SZ 1) [])); (RS 2 (IPromise 4 0 (SB 4 2) (SZ 1)) [] (mkO (SB 4 2) (SB 4 2) (SZ 1) 4 [(ZZ 3 0); (ZZ 4 1)] [(P1E 3 [(RSP 2 (SB 2 1) (SZ 1)); (RSP 0 (SB 1 0) (SZ 2)); (RSP 1 (SB 3 2) (SZ 1))]); (P1E 4 [(RSP 2 (SB 3 2) (SZ 1)); (RSP 1 (SB 3 2) (SZ 1)); (RSP 0 (SB 4 2) (SZ 1))])] [(ZZ 3 3); (ZZ 4 3)] [(ZOZ 3 (SZ 1)); (ZOZ 4 (SZ 1))] true (SZ 1) [(ZOZ 0 (SZ 1))])); (RS 1 (IRetry 2) [] (mkO (SB 4 2) (SB 4 2) (SZ 1) 3 [(ZZ 2 0)] [(P1E 2 [(RSP 1 NB NZ); (RSP 2 NB NZ); (RSP 0 (SB 1 0) (SZ 2))])] [(ZZ 2 1)] [(ZOZ 2 (SZ 1))] true (SZ 1) []))]).
Definition case_49 : Z * list rec_step := (3, [(RS 0 (IPropose 3) [(OPrepare 1 1 0); (OPrepare 2 1 0)] (mkO (SB 1 0) NB NZ 1 [(ZZ 1 0)] [(P1E 1 [(RSP 0 NB NZ)])] [(ZZ 1 0)] [(ZOZ 1 (SZ 3))] false NZ [])); (RS 2 (IPrepare 0 1 0) [(OPromise 0 1 0 2 NB NZ)] (mkO (SB 1 0) NB NZ 0 [] [] [] [] false NZ [])); (RS 0 (IPromise 1 2 NB NZ) [(OAccept 1 1 0 (SZ 3)); (OAccept 2 1 0 (SZ 3))] (mkO (SB 1 0) (SB 1 0) (SZ 3) 1 [(ZZ 1 0)] [(P1E 1 [(RSP 0 NB NZ); (RSP 2 NB NZ)])] [(ZZ 1 1)] [(ZOZ 1 (SZ 3))] false NZ [])); (RS 1 (IPropose 1) [(OPrepare 0 1 1); (OPrepare 2 1 1)] (mkO (SB 1 1) NB NZ 1 [(ZZ 1 0)] [(P1E 1 [(RSP 1 NB NZ)])] [(ZZ 1 0)] [(ZOZ 1 (SZ 1))] false NZ [])); (RS 2 (IPrepare 1 1 1) [(OPromise 1 1 1 2 NB NZ)] (mkO (SB 1 1) NB NZ 0 [] [] [] [] false NZ [])); (RS 1 (IPromise 1 2 NB NZ) [(OAccept 0 1 1 (SZ 1)); (OAccept 2 1 1 (SZ 1))] (mkO (SB 1 1) (SB 1 1) (SZ 1) 1 [(ZZ 1 0)] [(P1E 1 [(RSP 1 NB NZ); (RSP 2 NB NZ)])] [(ZZ 1 1)] [(ZOZ 1 (SZ 1))] false NZ [])); (RS 0 (IAccept 1 1 1 (SZ 1)) [(OAccepted 1 1 1 0)] (mkO (SB 1 1) (SB 1 1) (SZ 1) 1 [(ZZ 1 0)] [(P1E 1 [(RSP 0 NB NZ); (RSP 2 NB NZ)])] [(ZZ 1 1)] [(ZOZ 1 (SZ 3))] false NZ [])); (RS 2 (IAccept 1 1 1 (SZ 1)) [(OAccepted 1 1 1 2)] (mkO (SB 1 1) (SB 1 1) (SZ 1) 0 [] [] [] [] false NZ [])); (RS 1 (IAccepted 1) [(ODecided 0 (SZ 1)); (ODecided 2 (SZ 1))] (mkO (SB 1 1) (SB 1 1) (SZ 1) 1 [(ZZ 1 0)] [(P1E 1 [(RSP 1 NB NZ); (RSP 2 NB NZ)])] [(ZZ 1 2)] [(ZOZ 1 (SZ 1))] true (SZ 1) [(ZOZ 0 (SZ 1))])); (RS 2 (IDecided (SZ 1)) [] (mkO (SB 1 1) (SB 1 1) (SZ 1) 0 [] [] [] [] true (SZ 1) [])); (RS 0 (IDecided (SZ 1)) [] (mkO (SB 1 1) (SB 1 1) (SZ 1) 1 [(ZZ 1 0)] [(P1E 1 [(RSP 0 NB NZ); (RSP 2 NB NZ)])] [(ZZ 1 1)] [(ZOZ 1 (SZ 3))] true (SZ 1) [])); (RS 2 (IPropose 2) [] (mkO (SB 1 1) (SB 1 1) (SZ 1) 0 [] [] [] [] true (SZ 1) [(ZOZ 0 (SZ 1))]))]).
Definition case_50 : Z * list rec_step := (4, [(RS 1 (IPropose 1) [(OPrepare 0 1 1); (OPrepare 2 1 1); (OPrepare 3 1 1)] (mkO (SB 1 1) NB NZ 1 [(ZZ 1 0)] [(P1E 1 [(RSP 1 NB NZ)])] [(ZZ 1 0)] [(ZOZ 1 (SZ 1))] false NZ [])); (RS 2 (IPrepare 1 1 1) [(OPromise 1 1 1 2 NB NZ)] (mkO (SB 1 1) NB NZ 0 [] [] [] [] false NZ [])); (RS 3 (IPrepare 1 1 1) [(OPromise 1 1 1 3 NB NZ)] (mkO (SB 1 1) NB NZ 0 [] [] [] [] false NZ [])); (RS 1 (IPromise 1 3 NB NZ) [] (mkO (SB 1 1) NB NZ 1 [(ZZ 1 0)] [(P1E 1 [(RSP 1 NB NZ); (RSP 3 NB NZ)])] [(ZZ 1 0)] [(ZOZ 1 (SZ 1))] false NZ [])); (RS 1 (IPromise 1 2 NB NZ) [(OAccept 0 1 1 (SZ 1)); (OAccept 2 1 1 (SZ 1)); (OAccept 3 1 1 (SZ 1))] (mkO (SB 1 1) (SB 1 1) (SZ 1) 1 [(ZZ 1 0)] [(P1E 1 [(RSP 1 NB NZ); (RSP 3 NB NZ); (RSP 2 NB NZ)])] [(ZZ 1 1)] [(ZOZ 1 (SZ 1))] false NZ [])); (RS 3 (IPropose 2) [(OPrepare 0 2 3); (OPrepare 1 2 3); (OPrepare 2 2 3)] (mkO (SB 2 3) NB NZ 2 [(ZZ 2 0)] [(P1E 2 [(RSP 3 NB NZ)])] [(ZZ 2 0)] [(ZOZ 2 (SZ 2))] false NZ [])); (RS 0 (IPropose 3) [(OPrepare 1 1 0); (OPrepare 2 1 0); (OPrepare 3 1 0)] (mkO (SB 1 0) NB NZ 1 [(ZZ 1 0)] [(P1E 1 [(RSP 0 NB NZ)])] [(ZZ 1 0)] [(ZOZ 1 (SZ 3))] false NZ [])); (RS 3 (IPrepare 0 1 0) [(ONack 0 1 0 2 3)] (mkO (SB 2 3) NB NZ 2 [(ZZ 2 0)] [(P1E 2 [(RSP 3 NB NZ)])] [(ZZ 2 0)] [(ZOZ 2 (SZ 2))] false NZ [])); (RS 1 (IPrepare 3 2 3) [(OPromise 3 2 3 1 (SB 1 1) (SZ 1))] (mkO (SB 2 3) (SB 1 1) (SZ 1) 1 [(ZZ 1 0)] [(P1E 1 [(RSP 1 NB NZ); (RSP 3 NB NZ); (RSP 2 NB NZ)])] [(ZZ 1 1)] [(ZOZ 1 (SZ 1))] false NZ [])); (RS 1 (IPrepare 0 1 0) [(ONack 0 1 0 2 3)] (mkO (SB 2 3) (SB 1 1) (SZ 1) 1 [(ZZ 1 0)] [(P1E 1 [(RSP 1 NB NZ); (RSP 3 NB NZ); (RSP 2 NB NZ)])] [(ZZ 1 1)] [(ZOZ 1 (SZ 1))] false NZ [])); (RS 0 (INack 1 2) [(ORetry 1)] (mkO (SB 1 0) NB NZ 2 [(ZZ 1 0)] [(P1E 1 [(RSP 0 NB NZ)])] [(ZZ 1 0)] [(ZOZ 1 (SZ 3))] false NZ [])); (RS 0 (IPrepare 3 2 3) [(OPromise 3 2 3 0 NB NZ)] (mkO (SB 2 3) NB NZ 2 [(ZZ 1 0)] [(P1E 1 [(RSP 0 NB NZ)])] [(ZZ 1 0)] [(ZOZ 1 (SZ 3))] false NZ [])); (RS 3 (IPromise 2 1 (SB 1 1) (SZ 1)) [] (mkO (SB 2 3) NB NZ 2 [(ZZ 2 0)] [(P1E 2 [(RSP 3 NB NZ); (RSP 1 (SB 1 1) (SZ 1))])] [(ZZ 2 0)] [(ZOZ 2 (SZ 2))] false NZ [])); (RS 0 (IRetry 1) [(OPrepare 1 3 0); (OPrepare 2 3 0); (OPrepare 3 3 0)] (mkO (SB 3 0) NB NZ 3 [(ZZ 3 0)] [(P1E 1 [(RSP 0 NB NZ)]); (P1E 3 [(RSP 0 NB NZ)])] [(ZZ 1 0); (ZZ 3 0)] [(ZOZ 3 (SZ 3))] false NZ [])); (RS 2 (IPrepare 0 3 0) [(OPromise 0 3 0 2 NB NZ)] (mkO (SB 3 0) NB NZ 0 [] [] [] [] false NZ [])); (RS 3 (IPrepare 0 3 0) [(OPromise 0 3 0 3 NB NZ)] (mkO (SB 3 0) NB NZ 2 [(ZZ 2 0)] [(P1E 2 [(RSP 3 NB NZ); (RSP 1 (SB 1 1) (SZ 1))])] [(ZZ 2 0)] [(ZOZ 2 (SZ 2))] false NZ [])); (RS 0 (INack 1 2) [] (mkO (SB 3 0) NB NZ 3 [(ZZ 3 0)] [(P1E 1 [(RSP 0 NB NZ)]); (P1E 3 [(RSP 0 NB NZ)])] [(ZZ 1 0); (ZZ 3 0)] [(ZOZ 3 (SZ 3))] false NZ [])); (RS 3 (IPromise 2 0 NB NZ) [(OAccept 0 2 3 (SZ 1)); (OAccept 1 2 3 (SZ 1)); (OAccept 2 2 3 (SZ 1))] (mkO (SB 3 0) NB NZ 2 [(ZZ 2 0)] [(P1E 2 [(RSP 3 NB NZ); (RSP 1 (SB 1 1) (SZ 1)); (RSP 0 NB NZ)])] [(ZZ 2 0)] [(ZOZ 2 (SZ 1))] false NZ [])); (RS 2 (IAccept 3 2 3 (SZ 1)) [(ONack 3 2 3 3 0)] (mkO (SB 3 0) NB NZ 0 [] [] [] [] false NZ [])); (RS 1 (IAccept 3 2 3 (SZ 1)) [(OAccepted 3 2 3 1)] (mkO (SB 2 3) (SB 2 3) (SZ 1) 1 [(ZZ 1 0)] [(P1E 1 [(RSP 1 NB NZ); (RSP 3 NB NZ); (RSP 2 NB NZ)])] [(ZZ 1 1)] [(ZOZ 1 (SZ 1))] false NZ [])); (RS 0 (IPromise 3 2 NB NZ) [] (mkO (SB 3 0) NB NZ 3 [(ZZ 3 0)] [(P1E 1 [(RSP 0 NB NZ)]); (P1E 3 [(RSP 0 NB NZ); (RSP 2 NB NZ)])] [(ZZ 1 0); (ZZ 3 0)] [(ZOZ 3 (SZ 3))] false NZ [])); (RS 0 (IPromise 3 3 NB NZ) [(OAccept 1 3 0 (SZ 3)); (OAccept 2 3 0 (SZ 3)); (OAccept 3 3 0 (SZ 3))] (mkO (SB 3 0) (SB 3 0) (SZ 3) 3 [(ZZ 3 0)] [(P1E 1 [(RSP 0 NB NZ)]); (P1E 3 [(RSP 0 NB NZ); (RSP 2 NB NZ); (RSP 3 NB NZ)])] [(ZZ 1 0); (ZZ 3 1)] [(ZOZ 3 (SZ 3))] false NZ [])); (RS 0 (IAccept 3 2 3 (SZ 1)) [(ONack 3 2 3 3 0)] (mkO (SB 3 0) (SB 3 0) (SZ 3) 3 [(ZZ 3 0)] [(P1E 1 [(RSP 0 NB NZ)]); (P1E 3 [(RSP 0 NB NZ); (RSP 2 NB NZ); (RSP 3 NB NZ)])] [(ZZ 1 0); (ZZ 3 1)] [(ZOZ 3 (SZ 3))] false NZ [])); (RS 3 (INack 2 3) [(ORetry 2)] (mkO (SB 3 0) NB NZ 3 [(ZZ 2 0)] [(P1E 2 [(RSP 3 NB NZ); (RSP 1 (SB 1 1) (SZ 1)); (RSP 0 NB NZ)])] [(ZZ 2 0)] [(ZOZ 2 (SZ 1))] false NZ [])); (RS 1 (IAccept 0 3 0 (SZ 3)) [(OAccepted 0 3 0 1)] (mkO (SB 3 0) (SB 3 0) (SZ 3) 1 [(ZZ 1 0)] [(P1E 1 [(RSP 1 NB NZ); (RSP 3 NB NZ); (RSP 2 NB NZ)])] [(ZZ 1 1)] [(ZOZ 1 (SZ 1))] false NZ [])); (RS 3 (IAccept 0 3 0 (SZ 3)) [(OAccepted 0 3 0 3)] (mkO (SB 3 0) (SB 3 0) (SZ 3) 3 [(ZZ 2 0)] [(P1E 2 [(RSP 3 NB NZ); (RSP 1 (SB 1 1) (SZ 1)); (RSP 0 NB NZ)])] [(ZZ 2 0)] [(ZOZ 2 (SZ 1))] false NZ [])); (RS 3 (IRetry 2) [(OPrepare 0 4 3); (OPrepare 1 4 3); (OPrepare 2 4 3)] (mkO (SB 4 3) (SB 3 0) (SZ 3) 4 [(ZZ 4 0)] [(P1E 2 [(RSP 3 NB NZ); (RSP 1 (SB 1 1) (SZ 1)); (RSP 0 NB NZ)]); (P1E 4 [(RSP 3 (SB 3 0) (SZ 3))])] [(ZZ 2 0); (ZZ 4 0)] [(ZOZ 4 (SZ 1))] false NZ [])); (RS 0 (IAccepted 3) [] (mkO (SB 3 0) (SB 3 0) (SZ 3) 3 [(ZZ 3 0)] [(P1E 1 [(RSP 0 NB NZ)]); (P1E 3 [(RSP 0 NB NZ); (RSP 2 NB NZ); (RSP 3 NB NZ)])] [(ZZ 1 0); (ZZ 3 2)] [(ZOZ 3 (SZ 3))] false NZ [])); (RS 2 (IPrepare 3 4 3) [(OPromise 3 4 3 2 NB NZ)] (mkO (SB 4 3) NB NZ 0 [] [] [] [] false NZ [])); (RS 3 (IPromise 4 2 NB NZ) [] (mkO (SB 4 3) (SB 3 0) (SZ 3) 4 [(ZZ 4 0)] [(P1E 2 [(RSP 3 NB NZ); (RSP 1 (SB 1 1) (SZ 1)); (RSP 0 NB NZ)]); (P1E 4 [(RSP 3 (SB 3 0) (SZ 3)); (RSP 2 NB NZ)])] [(ZZ 2 0); (ZZ 4 0)] [(ZOZ 4 (SZ 1))] false NZ [])); (RS 0 (IAccepted 3) [(ODecided 1 (SZ 3)); (ODecided 2 (SZ 3)); (ODecided 3 (SZ 3))] (mkO (SB 3 0) (SB 3 0) (SZ 3) 3 [(ZZ 3 0)] [(P1E 1 [(RSP 0 NB NZ)]); (P1E 3 [(RSP 0 NB NZ); (RSP 2 NB NZ); (RSP 3 NB NZ)])] [(ZZ 1 0); (ZZ 3 3)] [(ZOZ 3 (SZ 3))] true (SZ 3) [(ZOZ 0 (SZ 3))])); (RS 3 (IDecided (SZ 3)) [] (mkO (SB 4 3) (SB 3 0) (SZ 3) 4 [(ZZ 4 0)] [(P1E 2 [(RSP 3 NB NZ); (RSP 1 (SB 1 1) (SZ 1)); (RSP 0 NB NZ)]); (P1E 4 [(RSP 3 (SB 3 0) (SZ 3)); (RSP 2 NB NZ)])] [(ZZ 2 0); (ZZ 4 0)] [(ZOZ 4 (SZ 1))] true (SZ 3) [])); (RS 0 (IPrepare 3 4 3) [(OPromise 3 4 3 0 (SB 3 0) (SZ 3))] (mkO (SB 4 3) (SB 3 0) (SZ 3) 3 [(ZZ 3 0)] [(P1E 1 [(RSP 0 NB NZ)]); (P1E 3 [(RSP 0 NB NZ); (RSP 2 NB NZ); (RSP 3 NB NZ)])] [(ZZ 1 0); (ZZ 3 3)] [(ZOZ 3 (SZ 3))] true (SZ 3) [(ZOZ 0 (SZ 3))])); (RS 1 (IDecided (SZ 3)) [] (mkO (SB 3 0) (SB 3 0) (SZ 3) 1 [(ZZ 1 0)] [(P1E 1 [(RSP 1 NB NZ); (RSP 3 NB NZ); (RSP 2 NB NZ)])] [(ZZ 1 1)] [(ZOZ 1 (SZ 1))] true (SZ 3) [])); (RS 2 (IPropose 4) [(OPrepare 0 5 2); (OPrepare 1 5 2); (OPrepare 3 5 2)] (mkO (SB 5 2) NB NZ 5 [(ZZ 5 0)] [(P1E 5 [(RSP 2 NB NZ)])] [(ZZ 5 0)] [(ZOZ 5 (SZ 4))] false NZ [])); (RS 3 (IPrepare 2 5 2) [(OPromise 2 5 2 3 (SB 3 0) (SZ 3))] (mkO (SB 5 2) (SB 3 0) (SZ 3) 4 [(ZZ 4 0)] [(P1E 2 [(RSP 3 NB NZ); (RSP 1 (SB 1 1) (SZ 1)); (RSP 0 NB NZ)]); (P1E 4 [(RSP 3 (SB 3 0) (SZ 3)); (RSP 2 NB NZ)])] [(ZZ 2 0); (ZZ 4 0)] [(ZOZ 4 (SZ 1))] true (SZ 3) [])); (RS 2 (IPromise 5 3 (SB 3 0) (SZ 3)) [] (mkO (SB 5 2) NB NZ 5 [(ZZ 5 0)] [(P1E 5 [(RSP 2 NB NZ); (RSP 3 (SB 3 0) (SZ 3))])] [(ZZ 5 0)] [(ZOZ 5 (SZ 4))] false NZ [])); (RS 1 (IPrepare 2 5 2) [(OPromise 2 5 2 1 (SB 3 0) (SZ 3))] (mkO (SB 5 2) (SB 3 0) (SZ 3) 1 [(ZZ 1 0)] [(P1E 1 [(RSP 1 NB NZ); (RSP 3 NB NZ); (RSP 2 NB NZ)])] [(ZZ 1 1)] [(ZOZ 1 (SZ 1))] true (SZ 3) []))]).
Definition case_51 : Z * list rec_step := (5, [(RS 1 (IPropose 1) [(OPrepare 0 1 1); (OPrepare 2 1 1); (OPrepare 3 1 1); (OPrepare 4 1 1)] (mkO (SB 1 1) NB NZ 1 [(ZZ 1 0)] [(P1E 1 [(RSP 1 NB NZ)])] [(ZZ 1 0)] [(ZOZ 1 (SZ 1))] false NZ [])); (RS 3 (IPrepare 1 1 1) [(OPromise 1 1 1 3 NB NZ)] (mkO (SB 1 1) NB NZ 0 [] [] [] [] false NZ [])); (RS 0 (IPrepare 1 1 1) [(OPromise 1 1 1 0 NB NZ)] (mkO (SB 1 1) NB NZ 0 [] [] [] [] false NZ [])); (RS 2 (IPrepare 1 1 1) [(OPromise 1 1 1 2 NB NZ)] (mkO (SB 1 1) NB NZ 0 [] [] [] [] false NZ [])); (RS 4 (IPropose 2) [(OPrepare 0 1 4); (OPrepare 1 1 4); (OPrepare 2 1 4); (OPrepare 3 1 4)] (mkO (SB 1 4) NB NZ 1 [(ZZ 1 0)] [(P1E 1 [(RSP 4 NB NZ)])] [(ZZ 1 0)] [(ZOZ 1 (SZ 2))] false NZ [])); (RS 1 (IPromise 1 3 NB NZ) [] (mkO (SB 1 1) NB NZ 1 [(ZZ 1 0)] [(P1E 1 [(RSP 1 NB NZ); (RSP 3 NB NZ)])] [(ZZ 1 0)] [(ZOZ 1 (SZ 1))] false NZ [])); (RS 1 (IPrepare 4 1 4) [(OPromise 4 1 4 1 NB NZ)] (mkO (SB 1 4) NB NZ 1 [(ZZ 1 0)] [(P1E 1 [(RSP 1 NB NZ); (RSP 3 NB NZ)])] [(ZZ 1 0)] [(ZOZ 1 (SZ 1))] false NZ [])); (RS 0 (IPrepare 4 1 4) [(OPromise 4 1 4 0 NB NZ)] (mkO (SB 1 4) NB NZ 0 [] [] [] [] false NZ [])); (RS 3 (IPrepare 4 1 4) [(OPromise 4 1 4 3 NB NZ)] (mkO (SB 1 4) NB NZ 0 [] [] [] [] false NZ [])); (RS 4 (IPromise 1 1 NB NZ) [] (mkO (SB 1 4) NB NZ 1 [(ZZ 1 0)] [(P1E 1 [(RSP 4 NB NZ); (RSP 1 NB NZ)])] [(ZZ 1 0)] [(ZOZ 1 (SZ 2))] false NZ [])); (RS 4 (IPromise 1 0 NB NZ) [(OAccept 0 1 4 (SZ 2)); (OAccept 1 1 4 (SZ 2)); (OAccept 2 1 4 (SZ 2)); (OAccept 3 1 4 (SZ 2))] (mkO (SB 1 4) (SB 1 4) (SZ 2) 1 [(ZZ 1 0)] [(P1E 1 [(RSP 4 NB NZ); (RSP 1 NB NZ); (RSP 0 NB NZ)])] [(ZZ 1 1)] [(ZOZ 1 (SZ 2))] false NZ [])); (RS 2 (IAccept 4 1 4 (SZ 2)) [(OAccepted 4 1 4 2)] (mkO (SB 1 4) (SB 1 4) (SZ 2) 0 [] [] [] [] false NZ [])); (RS 1 (IAccept 4 1 4 (SZ 2)) [(OAccepted 4 1 4 1)] (mkO (SB 1 4) (SB 1 4) (SZ 2) 1 [(ZZ 1 0)] [(P1E 1 [(RSP 1 NB NZ); (RSP 3 NB NZ)])] [(ZZ 1 0)] [(ZOZ 1 (SZ 1))] false NZ [])); (RS 4 (IAccepted 1) [] (mkO (SB 1 4) (SB 1 4) (SZ 2) 1 [(ZZ 1 0)] [(P1E 1 [(RSP 4 NB NZ); (RSP 1 NB NZ); (RSP 0 NB NZ)])] [(ZZ 1 2)] [(ZOZ 1 (SZ 2))] false NZ [])); (RS 4 (IAccepted 1) [(ODecided 0 (SZ 2)); (ODecided 1 (SZ 2)); (ODecided 2 (SZ 2)); (ODecided 3 (SZ 2))] (mkO (SB 1 4) (SB 1 4) (SZ 2) 1 [(ZZ 1 0)] [(P1E 1 [(RSP 4 NB NZ); (RSP 1 NB NZ); (RSP 0 NB NZ)])] [(ZZ 1 3)] [(ZOZ 1 (SZ 2))] true (SZ 2) [(ZOZ 0 (SZ 2))])); (RS 2 (IPropose 3) [(OPrepare 0 2 2); (OPrepare 1 2 2); (OPrepare 3 2 2); (OPrepare 4 2 2)] (mkO (SB 2 2) (SB 1 4) (SZ 2) 2 [(ZZ 2 0)] [(P1E 2 [(RSP 2 (SB 1 4) (SZ 2))])] [(ZZ 2 0)] [(ZOZ 2 (SZ 3))] false NZ [])); (RS 1 (IDecided (SZ 2)) [] (mkO (SB 1 4) (SB 1 4) (SZ 2) 1 [(ZZ 1 0)] [(P1E 1 [(RSP 1 NB NZ); (RSP 3 NB NZ)])] [(ZZ 1 0)] [(ZOZ 1 (SZ 1))] true (SZ 2) [])); (RS 2 (IDecided (SZ 2)) [] (mkO (SB 2 2) (SB 1 4) (SZ 2) 2 [(ZZ 2 0)] [(P1E 2 [(RSP 2 (SB 1 4) (SZ 2))])] [(ZZ 2 0)] [(ZOZ 2 (SZ 3))] true (SZ 2) [])); (RS 0 (IDecided (SZ 2)) [] (mkO (SB 1 4) NB NZ 0 [] [] [] [] true (SZ 2) [])); (RS 1 (IPrepare 2 2 2) [(OPromise 2 2 2 1 (SB 1 4) (SZ 2))] (mkO (SB 2 2) (SB 1 4) (SZ 2) 1 [(ZZ 1 0)] [(P1E 1 [(RSP 1 NB NZ); (RSP 3 NB NZ)])] [(ZZ 1 0)] [(ZOZ 1 (SZ 1))] true (SZ 2) [])); (RS 3 (IPrepare 2 2 2) [(OPromise 2 2 2 3 NB NZ)] (mkO (SB 2 2) NB NZ 0 [] [] [] [] false NZ [])); (RS 0 (IPrepare 2 2 2) [(OPromise 2 2 2 0 NB NZ)] (mkO (SB 2 2) NB NZ 0 [] [] [] [] true (SZ 2) [])); (RS 4 (IPrepare 2 2 2) [(OPromise 2 2 2 4 (SB 1 4) (SZ 2))] (mkO (SB 2 2) (SB 1 4) (SZ 2) 1 [(ZZ 1 0)] [(P1E 1 [(RSP 4 NB NZ); (RSP 1 NB NZ); (RSP 0 NB NZ)])] [(ZZ 1 3)] [(ZOZ 1 (SZ 2))] true (SZ 2) [(ZOZ 0 (SZ 2))])); (RS 2 (IPromise 2 1 (SB 1 4) (SZ 2)) [] (mkO (SB 2 2) (SB 1 4) (SZ 2) 2 [(ZZ 2 0)] [(P1E 2 [(RSP 2 (SB 1 4) (SZ 2)); (RSP 1 (SB 1 4) (SZ 2))])] [(ZZ 2 0)] [(ZOZ 2 (SZ 3))] true (SZ 2) [])); (RS 2 (IPromise 2 0 NB NZ) [(OAccept 0 2 2 (SZ 2)); (OAccept 1 2 2 (SZ 2)); (OAccept 3 2 2 (SZ 2)); (OAccept 4 2 2 (SZ 2))] (mkO (SB 2 2) (SB 2 2) (SZ 2) 2 [(ZZ 2 0)] [(P1E 2 [(RSP 2 (SB 1 4) (SZ 2)); (RSP 1 (SB 1 4) (SZ 2)); (RSP 0 NB NZ)])] [(ZZ 2 1)] [(ZOZ 2 (SZ 2))] true (SZ 2) [])); (RS 2 (IPromise 2 3 NB NZ) [] (mkO (SB 2 2) (SB 2 2) (SZ 2) 2 [(ZZ 2 0)] [(P1E 2 [(RSP 2 (SB 1 4) (SZ 2)); (RSP 1 (SB 1 4) (SZ 2)); (RSP 0 NB NZ); (RSP 3 NB NZ)])] [(ZZ 2 1)] [(ZOZ 2 (SZ 2))] true (SZ 2) [])); (RS 2 (IPromise 2 4 (SB 1 4) (SZ 2)) [] (mkO (SB 2 2) (SB 2 2) (SZ 2) 2 [(ZZ 2 0)] [(P1E 2 [(RSP 2 (SB 1 4) (SZ 2)); (RSP 1 (SB 1 4) (SZ 2)); (RSP 0 NB NZ); (RSP 3 NB NZ); (RSP 4 (SB 1 4) (SZ 2))])] [(ZZ 2 1)] [(ZOZ 2 (SZ 2))] true (SZ 2) [])); (RS 3 (IAccept 2 2 2 (SZ 2)) [(OAccepted 2 2 2 3)] (mkO (SB 2 2) (SB 2 2) (SZ 2) 0 [] [] [] [] false NZ [])); (RS 2 (IAccepted 2) [] (mkO (SB 2 2) (SB 2 2) (SZ 2) 2 [(ZZ 2 0)] [(P1E 2 [(RSP 2 (SB 1 4) (SZ 2)); (RSP 1 (SB 1 4) (SZ 2)); (RSP 0 NB NZ); (RSP 3 NB NZ); (RSP 4 (SB 1 4) (SZ 2))])] [(ZZ 2 2)] [(ZOZ 2 (SZ 2))] true (SZ 2) [])); (RS 0 (IAccept 2 2 2 (SZ 2)) [(OAccepted 2 2 2 0)] (mkO (SB 2 2) (SB 2 2) (SZ 2) 0 [] [] [] [] true (SZ 2) [])); (RS 4 (IAccept 2 2 2 (SZ 2)) [(OAccepted 2 2 2 4)] (mkO (SB 2 2) (SB 2 2) (SZ 2) 1 [(ZZ 1 0)] [(P1E 1 [(RSP 4 NB NZ); (RSP 1 NB NZ); (RSP 0 NB NZ)])] [(ZZ 1 3)] [(ZOZ 1 (SZ 2))] true (SZ 2) [(ZOZ 0 (SZ 2))])); (RS 2 (IAccepted 2) [] (mkO (SB 2 2) (SB 2 2) (SZ 2) 2 [(ZZ 2 0)] [(P1E 2 [(RSP 2 (SB 1 4) (SZ 2)); (RSP 1 (SB 1 4) (SZ 2)); (RSP 0 NB NZ); (RSP 3 NB NZ); (RSP 4 (SB 1 4) (SZ 2))])] [(ZZ 2 3)] [(ZOZ 2 (SZ 2))] true (SZ 2) []))]).
Definition case_52 : Z * list rec_step := (5, [(RS 2 (IPropose 1) [(OPrepare 0 1 2); (OPrepare 1 1 2); (OPrepare 3 1 2); (OPrepare 4 1 2)] (mkO (SB 1 2) NB NZ 1 [(ZZ 1 0)] [(P1E 1 [(RSP 2 NB NZ)])] [(ZZ 1 0)] [(ZOZ 1 (SZ 1))] false NZ [])); (RS 1 (IPrepare 2 1 2) [(OPromise 2 1 2 1 NB NZ)] (mkO (SB 1 2) NB NZ 0 [] [] [] [] false NZ [])); (RS 3 (IPrepare 2 1 2) [(OPromise 2 1 2 3 NB NZ)] (mkO (SB 1 2) NB NZ 0 [] [] [] [] false NZ [])); (RS 2 (IPromise 1 3 NB NZ) [] (mkO (SB 1 2) NB NZ 1 [(ZZ 1 0)] [(P1E 1 [(RSP 2 NB NZ); (RSP 3 NB NZ)])] [(ZZ 1 0)] [(ZOZ 1 (SZ 1))] false NZ [])); (RS 4 (IPropose 2) [(OPrepare 0 1 4); (OPrepare 1 1 4); (OPrepare 2 1 4); (OPrepare 3 1 4)] (mkO (SB 1 4) NB NZ 1 [(ZZ 1 0)] [(P1E 1 [(RSP 4 NB NZ)])] [(ZZ 1 0)] [(ZOZ 1 (SZ 2))] false NZ [])); (RS 0 (IPrepare 4 1 4) [(OPromise 4 1 4 0 NB NZ)] (mkO (SB 1 4) NB NZ 0 [] [] [] [] false NZ [])); (RS 4 (IPromise 1 0 NB NZ) [] (mkO (SB 1 4) NB NZ 1 [(ZZ 1 0)] [(P1E 1 [(RSP 4 NB NZ); (RSP 0 NB NZ)])] [(ZZ 1 0)] [(ZOZ 1 (SZ 2))] false NZ [])); (RS 0 (IPropose 3) [(OPrepare 1 2 0); (OPrepare 2 2 0); (OPrepare 3 2 0); (OPrepare 4 2 0)] (mkO (SB 2 0) NB NZ 2 [(ZZ 2 0)] [(P1E 2 [(RSP 0 NB NZ)])] [(ZZ 2 0)] [(ZOZ 2 (SZ 3))] false NZ [])); (RS 1 (IPrepare 0 2 0) [(OPromise 0 2 0 1 NB NZ)] (mkO (SB 2 0) NB NZ 0 [] [] [] [] false NZ [])); (RS 4 (IPrepare 0 2 0) [(OPromise 0 2 0 4 NB NZ)] (mkO (SB 2 0) NB NZ 1 [(ZZ 1 0)] [(P1E 1 [(RSP 4 NB NZ); (RSP 0 NB NZ)])] [(ZZ 1 0)] [(ZOZ 1 (SZ 2))] false NZ [])); (RS 2 (IPrepare 0 2 0) [(OPromise 0 2 0 2 NB NZ)] (mkO (SB 2 0) NB NZ 1 [(ZZ 1 0)] [(P1E 1 [(RSP 2 NB NZ); (RSP 3 NB NZ)])] [(ZZ 1 0)] [(ZOZ 1 (SZ 1))] false NZ [])); (RS 3 (IPrepare 0 2 0) [(OPromise 0 2 0 3 NB NZ)] (mkO (SB 2 0) NB NZ 0 [] [] [] [] false NZ [])); (RS 0 (IPromise 2 1 NB NZ) [] (mkO (SB 2 0) NB NZ 2 [(ZZ 2 0)] [(P1E 2 [(RSP 0 NB NZ); (RSP 1 NB NZ)])] [(ZZ 2 0)] [(ZOZ 2 (SZ 3))] false NZ [])); (RS 0 (IPromise 2 2 NB NZ) [(OAccept 1 2 0 (SZ 3)); (OAccept 2 2 0 (SZ 3)); (OAccept 3 2 0 (SZ 3)); (OAccept 4 2 0 (SZ 3))] (mkO (SB 2 0) (SB 2 0) (SZ 3) 2 [(ZZ 2 0)] [(P1E 2 [(RSP 0 NB NZ); (RSP 1 NB NZ); (RSP 2 NB NZ)])] [(ZZ 2 1)] [(ZOZ 2 (SZ 3))] false NZ [])); (RS 1 (IPrepare 4 1 4) [(ONack 4 1 4 2 0)] (mkO (SB 2 0) NB NZ 0 [] [] [] [] false NZ [])); (RS 3 (IPrepare 4 1 4) [(ONack 4 1 4 2 0)] (mkO (SB 2 0) NB NZ 0 [] [] [] [] false NZ [])); (RS 1 (IAccept 0 2 0 (SZ 3)) [(OAccepted 0 2 0 1)] (mkO (SB 2 0) (SB 2 0) (SZ 3) 0 [] [] [] [] false NZ [])); (RS 0 (IAccepted 2) [] (mkO (SB 2 0) (SB 2 0) (SZ 3) 2 [(ZZ 2 0)] [(P1E 2 [(RSP 0 NB NZ); (RSP 1 NB NZ); (RSP 2 NB NZ)])] [(ZZ 2 2)] [(ZOZ 2 (SZ 3))] false NZ [])); (RS 0 (IPromise 2 3 NB NZ) [] (mkO (SB 2 0) (SB 2 0) (SZ 3) 2 [(ZZ 2 0)] [(P1E 2 [(RSP 0 NB NZ); (RSP 1 NB NZ); (RSP 2 NB NZ); (RSP 3 NB NZ)])] [(ZZ 2 2)] [(ZOZ 2 (SZ 3))] false NZ [])); (RS 2 (IAccept 0 2 0 (SZ 3)) [(OAccepted 0 2 0 2)] (mkO (SB 2 0) (SB 2 0) (SZ 3) 1 [(ZZ 1 0)] [(P1E 1 [(RSP 2 NB NZ); (RSP 3 NB NZ)])] [(ZZ 1 0)] [(ZOZ 1 (SZ 1))] false NZ [])); (RS 4 (INack 1 2) [(ORetry 1)] (mkO (SB 2 0) NB NZ 2 [(ZZ 1 0)] [(P1E 1 [(RSP 4 NB NZ); (RSP 0 NB NZ)])] [(ZZ 1 0)] [(ZOZ 1 (SZ 2))] false NZ [])); (RS 4 (IRetry 1) [(OPrepare 0 3 4); (OPrepare 1 3 4); (OPrepare 2 3 4); (OPrepare 3 3 4)] (mkO (SB 3 4) NB NZ 3 [(ZZ 3 0)] [(P1E 1 [(RSP 4 NB NZ); (RSP 0 NB NZ)]); (P1E 3 [(RSP 4 NB NZ)])] [(ZZ 1 0); (ZZ 3 0)] [(ZOZ 3 (SZ 2))] false NZ [])); (RS 2 (IPrepare 4 3 4) [(OPromise 4 3 4 2 (SB 2 0) (SZ 3))] (mkO (SB 3 4) (SB 2 0) (SZ 3) 1 [(ZZ 1 0)] [(P1E 1 [(RSP 2 NB NZ); (RSP 3 NB NZ)])] [(ZZ 1 0)] [(ZOZ 1 (SZ 1))] false NZ [])); (RS 3 (IPrepare 4 3 4) [(OPromise 4 3 4 3 NB NZ)] (mkO (SB 3 4) NB NZ 0 [] [] [] [] false NZ [])); (RS 4 (IPromise 3 3 NB NZ) [] (mkO (SB 3 4) NB NZ 3 [(ZZ 3 0)] [(P1E 1 [(RSP 4 NB NZ); (RSP 0 NB NZ)]); (P1E 3 [(RSP 4 NB NZ); (RSP 3 NB NZ)])] [(ZZ 1 0); (ZZ 3 0)] [(ZOZ 3 (SZ 2))] false NZ []))]).
Definition case_53 : Z * list rec_step := (5, [(RS 0 (IPropose 1) [(OPrepare 1 1 0); (OPrepare 2 1 0); (OPrepare 3 1 0); (OPrepare 4 1 0)] (mkO (SB 1 0) NB NZ 1 [(ZZ 1 0)] [(P1E 1 [(RSP 0 NB NZ)])] [(ZZ 1 0)] [(ZOZ 1 (SZ 1))] false NZ [])); (RS 4 (IPrepare 0 1 0) [(OPromise 0 1 0 4 NB NZ)] (mkO (SB 1 0) NB NZ 0 [] [] [] [] false NZ [])); (RS 0 (IPromise 1 4 NB NZ) [] (mkO (SB 1 0) NB NZ 1 [(ZZ 1 0)] [(P1E 1 [(RSP 0 NB NZ); (RSP 4 NB NZ)])] [(ZZ 1 0)] [(ZOZ 1 (SZ 1))] false NZ [])); (RS 3 (IPropose 2) [(OPrepare 0 1 3); (OPrepare 1 1 3); (OPrepare 2 1 3); (OPrepare 4 1 3)] (mkO (SB 1 3) NB NZ 1 [(ZZ 1 0)] [(P1E 1 [(RSP 3 NB NZ)])] [(ZZ 1 0)] [(ZOZ 1 (SZ 2))] false NZ [])); (RS 0 (IPrepare 3 1 3) [(OPromise 3 1 3 0 NB NZ)] (mkO (SB 1 3) NB NZ 1 [(ZZ 1 0)] [(P1E 1 [(RSP 0 NB NZ); (RSP 4 NB NZ)])] [(ZZ 1 0)] [(ZOZ 1 (SZ 1))] false NZ [])); (RS 1 (IPrepare 3 1 3) [(OPromise 3 1 3 1 NB NZ)] (mkO (SB 1 3) NB NZ 0 [] [] [] [] false NZ [])); (RS 3 (IPromise 1 1 NB NZ) [] (mkO (SB 1 3) NB NZ 1 [(ZZ 1 0)] [(P1E 1 [(RSP 3 NB NZ); (RSP 1 NB NZ)])] [(ZZ 1 0)] [(ZOZ 1 (SZ 2))] false NZ [])); (RS 1 (IPrepare 0 1 0) [(ONack 0 1 0 1 3)] (mkO (SB 1 3) NB NZ 0 [] [] [] [] false NZ [])); (RS 3 (IPromise 1 0 NB NZ) [(OAccept 0 1 3 (SZ 2)); (OAccept 1 1 3 (SZ 2)); (OAccept 2 1 3 (SZ 2)); (OAccept 4 1 3 (SZ 2))] (mkO (SB 1 3) (SB 1 3) (SZ 2) 1 [(ZZ 1 0)] [(P1E 1 [(RSP 3 NB NZ); (RSP 1 NB NZ); (RSP 0 NB NZ)])] [(ZZ 1 1)] [(ZOZ 1 (SZ 2))] false NZ [])); (RS 2 (IAccept 3 1 3 (SZ 2)) [(OAccepted 3 1 3 2)] (mkO (SB 1 3) (SB 1 3) (SZ 2) 0 [] [] [] [] false NZ [])); (RS 0 (IAccept 3 1 3 (SZ 2)) [(OAccepted 3 1 3 0)] (mkO (SB 1 3) (SB 1 3) (SZ 2) 1 [(ZZ 1 0)] [(P1E 1 [(RSP 0 NB NZ); (RSP 4 NB NZ)])] [(ZZ 1 0)] [(ZOZ 1 (SZ 1))] false NZ [])); (RS 3 (IAccepted 1) [] (mkO (SB 1 3) (SB 1 3) (SZ 2) 1 [(ZZ 1 0)] [(P1E 1 [(RSP 3 NB NZ); (RSP 1 NB NZ); (RSP 0 NB NZ)])] [(ZZ 1 2)] [(ZOZ 1 (SZ 2))] false NZ [])); (RS 4 (IAccept 3 1 3 (SZ 2)) [(OAccepted 3 1 3 4)] (mkO (SB 1 3) (SB 1 3) (SZ 2) 0 [] [] [] [] false NZ [])); (RS 3 (IAccepted 1) [(ODecided 0 (SZ 2)); (ODecided 1 (SZ 2)); (ODecided 2 (SZ 2)); (ODecided 4 (SZ 2))] (mkO (SB 1 3) (SB 1 3) (SZ 2) 1 [(ZZ 1 0)] [(P1E 1 [(RSP 3 NB NZ); (RSP 1 NB NZ); (RSP 0 NB NZ)])] [(ZZ 1 3)] [(ZOZ 1 (SZ 2))] true (SZ 2) [(ZOZ 0 (SZ 2))])); (RS 1 (IDecided (SZ 2)) [] (mkO (SB 1 3) NB NZ 0 [] [] [] [] true (SZ 2) [])); (RS 0 (IDecided (SZ 2)) [] (mkO (SB 1 3) (SB 1 3) (SZ 2) 1 [(ZZ 1 0)] [(P1E 1 [(RSP 0 NB NZ); (RSP 4 NB NZ)])] [(ZZ 1 0)] [(ZOZ 1 (SZ 1))] true (SZ 2) [])); (RS 2 (IDecided (SZ 2)) [] (mkO (SB 1 3) (SB 1 3) (SZ 2) 0 [] [] [] [] true (SZ 2) [])); (RS 0 (INack 1 1) [(ORetry 1)] (mkO (SB 1 3) (SB 1 3) (SZ 2) 1 [(ZZ 1 0)] [(P1E 1 [(RSP 0 NB NZ); (RSP 4 NB NZ)])] [(ZZ 1 0)] [(ZOZ 1 (SZ 1))] true (SZ 2) [])); (RS 4 (IDecided (SZ 2)) [] (mkO (SB 1 3) (SB 1 3) (SZ 2) 0 [] [] [] [] true (SZ 2) [])); (RS 2 (IPropose 3) [] (mkO (SB 1 3) (SB 1 3) (SZ 2) 0 [] [] [] [] true (SZ 2) [(ZOZ 0 (SZ 2))])); (RS 0 (IRetry 1) [] (mkO (SB 1 3) (SB 1 3) (SZ 2) 1 [(ZZ 1 0)] [(P1E 1 [(RSP 0 NB NZ); (RSP 4 NB NZ)])] [(ZZ 1 0)] [(ZOZ 1 (SZ 1))] true (SZ 2) []))]).
Definition case_54 : Z * list rec_step := (5, [(RS 2 (IPropose 1) [(OPrepare 0 1 2); (OPrepare 1 1 2); (OPrepare 3 1 2); (OPrepare 4 1 2)] (mkO (SB 1 2) NB NZ 1 [(ZZ 1 0)] [(P1E 1 [(RSP 2 NB NZ)])] [(ZZ 1 0)] [(ZOZ 1 (SZ 1))] false NZ [])); (RS 1 (IPrepare 2 1 2) [(OPromise 2 1 2 1 NB NZ)] (mkO (SB 1 2) NB NZ 0 [] [] [] [] false NZ [])); (RS 3 (IPrepare 2 1 2) [(OPromise 2 1 2 3 NB NZ)] (mkO (SB 1 2) NB NZ 0 [] [] [] [] false NZ [])); (RS 4 (IPrepare 2 1 2) [(OPromise 2 1 2 4 NB NZ)] (mkO (SB 1 2) NB NZ 0 [] [] [] [] false NZ [])); (RS 1 (IPropose 2) [(OPrepare 0 2 1); (OPrepare 2 2 1); (OPrepare 3 2 1); (OPrepare 4 2 1)] (mkO (SB 2 1) NB NZ 2 [(ZZ 2 0)] [(P1E 2 [(RSP 1 NB NZ)])] [(ZZ 2 0)] [(ZOZ 2 (SZ 2))] false NZ [])); (RS 2 (IPromise 1 4 NB NZ) [] (mkO (SB 1 2) NB NZ 1 [(ZZ 1 0)] [(P1E 1 [(RSP 2 NB NZ); (RSP 4 NB NZ)])] [(ZZ 1 0)] [(ZOZ 1 (SZ 1))] false NZ [])); (RS 2 (IPromise 1 1 NB NZ) [(OAccept 0 1 2 (SZ 1)); (OAccept 1 1 2 (SZ 1)); (OAccept 3 1 2 (SZ 1)); (OAccept 4 1 2 (SZ 1))] (mkO (SB 1 2) (SB 1 2) (SZ 1) 1 [(ZZ 1 0)] [(P1E 1 [(RSP 2 NB NZ); (RSP 4 NB NZ); (RSP 1 NB NZ)])] [(ZZ 1 1)] [(ZOZ 1 (SZ 1))] false NZ [])); (RS 0 (IPrepare 1 2 1) [(OPromise 1 2 1 0 NB NZ)] (mkO (SB 2 1) NB NZ 0 [] [] [] [] false NZ [])); (RS 3 (IPrepare 1 2 1) [(OPromise 1 2 1 3 NB NZ)] (mkO (SB 2 1) NB NZ 0 [] [] [] [] false NZ [])); (RS 1 (IPromise 2 0 NB NZ) [] (mkO (SB 2 1) NB NZ 2 [(ZZ 2 0)] [(P1E 2 [(RSP 1 NB NZ); (RSP 0 NB NZ)])] [(ZZ 2 0)] [(ZOZ 2 (SZ 2))] false NZ [])); (RS 2 (IPromise 1 3 NB NZ) [] (mkO (SB 1 2) (SB 1 2) (SZ 1) 1 [(ZZ 1 0)] [(P1E 1 [(RSP 2 NB NZ); (RSP 4 NB NZ); (RSP 1 NB NZ); (RSP 3 NB NZ)])] [(ZZ 1 1)] [(ZOZ 1 (SZ 1))] false NZ [])); (RS 4 (IPrepare 1 2 1) [(OPromise 1 2 1 4 NB NZ)] (mkO (SB 2 1) NB NZ 0 [] [] [] [] false NZ [])); (RS 1 (IPromise 2 3 NB NZ) [(OAccept 0 2 1 (SZ 2)); (OAccept 2 2 1 (SZ 2)); (OAccept 3 2 1 (SZ 2)); (OAccept 4 2 1 (SZ 2))] (mkO (SB 2 1) (SB 2 1) (SZ 2) 2 [(ZZ 2 0)] [(P1E 2 [(RSP 1 NB NZ); (RSP 0 NB NZ); (RSP 3 NB NZ)])] [(ZZ 2 1)] [(ZOZ 2 (SZ 2))] false NZ [])); (RS 0 (IAccept 1 2 1 (SZ 2)) [(OAccepted 1 2 1 0)] (mkO (SB 2 1) (SB 2 1) (SZ 2) 0 [] [] [] [] false NZ [])); (RS 2 (IAccept 1 2 1 (SZ 2)) [(OAccepted 1 2 1 2)] (mkO (SB 2 1) (SB 2 1) (SZ 2) 1 [(ZZ 1 0)] [(P1E 1 [(RSP 2 NB NZ); (RSP 4 NB NZ); (RSP 1 NB NZ); (RSP 3 NB NZ)])] [(ZZ 1 1)] [(ZOZ 1 (SZ 1))] false NZ [])); (RS 4 (IAccept 1 2 1 (SZ 2)) [(OAccepted 1 2 1 4)] (mkO (SB 2 1) (SB 2 1) (SZ 2) 0 [] [] [] [] false NZ [])); (RS 3 (IPropose 3) [(OPrepare 0 3 3); (OPrepare 1 3 3); (OPrepare 2 3 3); (OPrepare 4 3 3)] (mkO (SB 3 3) NB NZ 3 [(ZZ 3 0)] [(P1E 3 [(RSP 3 NB NZ)])] [(ZZ 3 0)] [(ZOZ 3 (SZ 3))] false NZ [])); (RS 1 (IPrepare 3 3 3) [(OPromise 3 3 3 1 (SB 2 1) (SZ 2))] (mkO (SB 3 3) (SB 2 1) (SZ 2) 2 [(ZZ 2 0)] [(P1E 2 [(RSP 1 NB NZ); (RSP 0 NB NZ); (RSP 3 NB NZ)])] [(ZZ 2 1)] [(ZOZ 2 (SZ 2))] false NZ [])); (RS 2 (IPrepare 3 3 3) [(OPromise 3 3 3 2 (SB 2 1) (SZ 2))] (mkO (SB 3 3) (SB 2 1) (SZ 2) 1 [(ZZ 1 0)] [(P1E 1 [(RSP 2 NB NZ); (RSP 4 NB NZ); (RSP 1 NB NZ); (RSP 3 NB NZ)])] [(ZZ 1 1)] [(ZOZ 1 (SZ 1))] false NZ [])); (RS 3 (IPromise 3 2 (SB 2 1) (SZ 2)) [] (mkO (SB 3 3) NB NZ 3 [(ZZ 3 0)] [(P1E 3 [(RSP 3 NB NZ); (RSP 2 (SB 2 1) (SZ 2))])] [(ZZ 3 0)] [(ZOZ 3 (SZ 3))] false NZ [])); (RS 4 (IPropose 4) [(OPrepare 0 3 4); (OPrepare 1 3 4); (OPrepare 2 3 4); (OPrepare 3 3 4)] (mkO (SB 3 4) (SB 2 1) (SZ 2) 3 [(ZZ 3 0)] [(P1E 3 [(RSP 4 (SB 2 1) (SZ 2))])] [(ZZ 3 0)] [(ZOZ 3 (SZ 4))] false NZ [])); (RS 3 (IPrepare 4 3 4) [(OPromise 4 3 4 3 NB NZ)] (mkO (SB 3 4) NB NZ 3 [(ZZ 3 0)] [(P1E 3 [(RSP 3 NB NZ); (RSP 2 (SB 2 1) (SZ 2))])] [(ZZ 3 0)] [(ZOZ 3 (SZ 3))] false NZ [])); (RS 4 (IPromise 3 3 NB NZ) [] (mkO (SB 3 4) (SB 2 1) (SZ 2) 3 [(ZZ 3 0)] [(P1E 3 [(RSP 4 (SB 2 1) (SZ 2)); (RSP 3 NB NZ)])] [(ZZ 3 0)] [(ZOZ 3 (SZ 4))] false NZ [])); (RS 1 (IPrepare 4 3 4) [(OPromise 4 3 4 1 (SB 2 1) (SZ 2))] (mkO (SB 3 4) (SB 2 1) (SZ 2) 2 [(ZZ 2 0)] [(P1E 2 [(RSP 1 NB NZ); (RSP 0 NB NZ); (RSP 3 NB NZ)])] [(ZZ 2 1)] [(ZOZ 2 (SZ 2))] false NZ [])); (RS 4 (IPromise 3 1 (SB 2 1) (SZ 2)) [(OAccept 0 3 4 (SZ 2)); (OAccept 1 3 4 (SZ 2)); (OAccept 2 3 4 (SZ 2)); (OAccept 3 3 4 (SZ 2))] (mkO (SB 3 4) (SB 3 4) (SZ 2) 3 [(ZZ 3 0)] [(P1E 3 [(RSP 4 (SB 2 1) (SZ 2)); (RSP 3 NB NZ); (RSP 1 (SB 2 1) (SZ 2))])] [(ZZ 3 1)] [(ZOZ 3 (SZ 2))] false NZ [])); (RS 2 (IAccept 4 3 4 (SZ 2)) [(OAccepted 4 3 4 2)] (mkO (SB 3 4) (SB 3 4) (SZ 2) 1 [(ZZ 1 0)] [(P1E 1 [(RSP 2 NB NZ); (RSP 4 NB NZ); (RSP 1 NB NZ); (RSP 3 NB NZ)])] [(ZZ 1 1)] [(ZOZ 1 (SZ 1))] false NZ [])); (RS 3 (IAccept 4 3 4 (SZ 2)) [(OAccepted 4 3 4 3)] (mkO (SB 3 4) (SB 3 4) (SZ 2) 3 [(ZZ 3 0)] [(P1E 3 [(RSP 3 NB NZ); (RSP 2 (SB 2 1) (SZ 2))])] [(ZZ 3 0)] [(ZOZ 3 (SZ 3))] false NZ [])); (RS 1 (IAccept 4 3 4 (SZ 2)) [(OAccepted 4 3 4 1)] (mkO (SB 3 4) (SB 3 4) (SZ 2) 2 [(ZZ 2 0)] [(P1E 2 [(RSP 1 NB NZ); (RSP 0 NB NZ); (RSP 3 NB NZ)])] [(ZZ 2 1)] [(ZOZ 2 (SZ 2))] false NZ [])); (RS 4 (IAccepted 3) [] (mkO (SB 3 4) (SB 3 4) (SZ 2) 3 [(ZZ 3 0)] [(P1E 3 [(RSP 4 (SB 2 1) (SZ 2)); (RSP 3 NB NZ); (RSP 1 (SB 2 1) (SZ 2))])] [(ZZ 3 2)] [(ZOZ 3 (SZ 2))] false NZ [])); (RS 0 (IAccept 4 3 4 (SZ 2)) [(OAccepted 4 3 4 0)] (mkO (SB 3 4) (SB 3 4) (SZ 2) 0 [] [] [] [] false NZ []))]).
Definition case_55 : Z * list rec_step := (4, [(RS 2 (IPropose 1) [(OPrepare 0 1 2); (OPrepare 1 1 2); (OPrepare 3 1 2)] (mkO (SB 1 2) NB NZ 1 [(ZZ 1 0)] [(P1E 1 [(RSP 2 NB NZ)])] [(ZZ 1 0)] [(ZOZ 1 (SZ 1))] false NZ [])); (RS 2 (IPropose 2) [(OPrepare 0 2 2); (OPrepare 1 2 2); (OPrepare 3 2 2)] (mkO (SB 2 2) NB NZ 2 [(ZZ 1 0); (ZZ 2 1)] [(P1E 1 [(RSP 2 NB NZ)]); (P1E 2 [(RSP 2 NB NZ)])] [(ZZ 1 0); (ZZ 2 0)] [(ZOZ 1 (SZ 1)); (ZOZ 2 (SZ 2))] false NZ [])); (RS 3 (IPrepare 2 2 2) [(OPromise 2 2 2 3 NB NZ)] (mkO (SB 2 2) NB NZ 0 [] [] [] [] false NZ [])); (RS 1 (IPrepare 2 1 2) [(OPromise 2 1 2 1 NB NZ)] (mkO (SB 1 2) NB NZ 0 [] [] [] [] false NZ [])); (RS 0 (IPrepare 2 2 2) [(OPromise 2 2 2 0 NB NZ)] (mkO (SB 2 2) NB NZ 0 [] [] [] [] false NZ [])); (RS 2 (IPromise 2 0 NB NZ) [] (mkO (SB 2 2) NB NZ 2 [(ZZ 1 0); (ZZ 2 1)] [(P1E 1 [(RSP 2 NB NZ)]); (P1E 2 [(RSP 2 NB NZ); (RSP 0 NB NZ)])] [(ZZ 1 0); (ZZ 2 0)] [(ZOZ 1 (SZ 1)); (ZOZ 2 (SZ 2))] false NZ [])); (RS 2 (IPromise 1 1 NB NZ) [] (mkO (SB 2 2) NB NZ 2 [(ZZ 1 0); (ZZ 2 1)] [(P1E 1 [(RSP 2 NB NZ); (RSP 1 NB NZ)]); (P1E 2 [(RSP 2 NB NZ); (RSP 0 NB NZ)])] [(ZZ 1 0); (ZZ 2 0)] [(ZOZ 1 (SZ 1)); (ZOZ 2 (SZ 2))] false NZ [])); (RS 0 (IPrepare 2 1 2) [(ONack 2 1 2 2 2)] (mkO (SB 2 2) NB NZ 0 [] [] [] [] false NZ [])); (RS 3 (IPrepare 2 1 2) [(ONack 2 1 2 2 2)] (mkO (SB 2 2) NB NZ 0 [] [] [] [] false NZ [])); (RS 1 (IPrepare 2 2 2) [(OPromise 2 2 2 1 NB NZ)] (mkO (SB 2 2) NB NZ 0 [] [] [] [] false NZ [])); (RS 2 (INack 1 2) [(ORetry 1)] (mkO (SB 2 2) NB NZ 2 [(ZZ 1 0); (ZZ 2 1)] [(P1E 1 [(RSP 2 NB NZ); (RSP 1 NB NZ)]); (P1E 2 [(RSP 2 NB NZ); (RSP 0 NB NZ)])] [(ZZ 1 0); (ZZ 2 0)] [(ZOZ 1 (SZ 1)); (ZOZ 2 (SZ 2))] false NZ [])); (RS 2 (IPromise 2 1 NB NZ) [(OAccept 0 2 2 (SZ 2)); (OAccept 1 2 2 (SZ 2)); (OAccept 3 2 2 (SZ 2))] (mkO (SB 2 2) (SB 2 2) (SZ 2) 2 [(ZZ 1 0); (ZZ 2 1)] [(P1E 1 [(RSP 2 NB NZ); (RSP 1 NB NZ)]); (P1E 2 [(RSP 2 NB NZ); (RSP 0 NB NZ); (RSP 1 NB NZ)])] [(ZZ 1 0); (ZZ 2 1)] [(ZOZ 1 (SZ 1)); (ZOZ 2 (SZ 2))] false NZ [])); (RS 3 (IAccept 2 2 2 (SZ 2)) [(OAccepted 2 2 2 3)] (mkO (SB 2 2) (SB 2 2) (SZ 2) 0 [] [] [] [] false NZ [])); (RS 2 (IRetry 1) [(OPrepare 0 3 2); (OPrepare 1 3 2); (OPrepare 3 3 2)] (mkO (SB 3 2) (SB 2 2) (SZ 2) 3 [(ZZ 2 1); (ZZ 3 0)] [(P1E 1 [(RSP 2 NB NZ); (RSP 1 NB NZ)]); (P1E 2 [(RSP 2 NB NZ); (RSP 0 NB NZ); (RSP 1 NB NZ)]); (P1E 3 [(RSP 2 (SB 2 2) (SZ 2))])] [(ZZ 1 0); (ZZ 2 1); (ZZ 3 0)] [(ZOZ 2 (SZ 2)); (ZOZ 3 (SZ 1))] false NZ [])); (RS 0 (IPrepare 2 3 2) [(OPromise 2 3 2 0 NB NZ)] (mkO (SB 3 2) NB NZ 0 [] [] [] [] false NZ [])); (RS 2 (IAccepted 2) [] (mkO (SB 3 2) (SB 2 2) (SZ 2) 3 [(ZZ 2 1); (ZZ 3 0)] [(P1E 1 [(RSP 2 NB NZ); (RSP 1 NB NZ)]); (P1E 2 [(RSP 2 NB NZ); (RSP 0 NB NZ); (RSP 1 NB NZ)]); (P1E 3 [(RSP 2 (SB 2 2) (SZ 2))])] [(ZZ 1 0); (ZZ 2 2); (ZZ 3 0)] [(ZOZ 2 (SZ 2)); (ZOZ 3 (SZ 1))] false NZ [])); (RS 3 (IPrepare 2 3 2) [(OPromise 2 3 2 3 (SB 2 2) (SZ 2))] (mkO (SB 3 2) (SB 2 2) (SZ 2) 0 [] [] [] [] false NZ [])); (RS 1 (IPrepare 2 3 2) [(OPromise 2 3 2 1 NB NZ)] (mkO (SB 3 2) NB NZ 0 [] [] [] [] false NZ [])); (RS 2 (IPromise 3 0 NB NZ) [] (mkO (SB 3 2) (SB 2 2) (SZ 2) 3 [(ZZ 2 1); (ZZ 3 0)] [(P1E 1 [(RSP 2 NB NZ); (RSP 1 NB NZ)]); (P1E 2 [(RSP 2 NB NZ); (RSP 0 NB NZ); (RSP 1 NB NZ)]); (P1E 3 [(RSP 2 (SB 2 2) (SZ 2)); (RSP 0 NB NZ)])] [(ZZ 1 0); (ZZ 2 2); (ZZ 3 0)] [(ZOZ 2 (SZ 2)); (ZOZ 3 (SZ 1))] false NZ [])); (RS 2 (INack 1 2) [] (mkO (SB 3 2) (SB 2 2) (SZ 2) 3 [(ZZ 2 1); (ZZ 3 0)] [(P1E 1 [(RSP 2 NB NZ); (RSP 1 NB NZ)]); (P1E 2 [(RSP 2 NB NZ); (RSP 0 NB NZ); (RSP 1 NB NZ)]); (P1E 3 [(RSP 2 (SB 2 2) (SZ 2)); (RSP 0 NB NZ)])] [(ZZ 1 0); (ZZ 2 2); (ZZ 3 0)] [(ZOZ 2 (SZ 2)); (ZOZ 3 (SZ 1))] false NZ [])); (RS 1 (IAccept 2 2 2 (SZ 2)) [(ONack 2 2 2 3 2)] (mkO (SB 3 2) NB NZ 0 [] [] [] [] false NZ [])); (RS 2 (INack 2 3) [(ORetry 2)] (mkO (SB 3 2) (SB 2 2) (SZ 2) 3 [(ZZ 2 1); (ZZ 3 0)] [(P1E 1 [(RSP 2 NB NZ); (RSP 1 NB NZ)]); (P1E 2 [(RSP 2 NB NZ); (RSP 0 NB NZ); (RSP 1 NB NZ)]); (P1E 3 [(RSP 2 (SB 2 2) (SZ 2)); (RSP 0 NB NZ)])] [(ZZ 1 0); (ZZ 2 2); (ZZ 3 0)] [(ZOZ 2 (SZ 2)); (ZOZ 3 (SZ 1))] false NZ [])); (RS 2 (IPromise 3 3 (SB 2 2) (SZ 2)) [(OAccept 0 3 2 (SZ 2)); (OAccept 1 3 2 (SZ 2)); (OAccept 3 3 2 (SZ 2))] (mkO (SB 3 2) (SB 3 2) (SZ 2) 3 [(ZZ 2 1); (ZZ 3 0)] [(P1E 1 [(RSP 2 NB NZ); (RSP 1 NB NZ)]); (P1E 2 [(RSP 2 NB NZ); (RSP 0 NB NZ); (RSP 1 NB NZ)]); (P1E 3 [(RSP 2 (SB 2 2) (SZ 2)); (RSP 0 NB NZ); (RSP 3 (SB 2 2) (SZ 2))])] [(ZZ 1 0); (ZZ 2 2); (ZZ 3 1)] [(ZOZ 2 (SZ 2)); (ZOZ 3 (SZ 2))] false NZ [])); (RS 0 (IAccept 2 3 2 (SZ 2)) [(OAccepted 2 3 2 0)] (mkO (SB 3 2) (SB 3 2) (SZ 2) 0 [] [] [] [] false NZ [])); (RS 2 (IPromise 3 1 NB NZ) [] (mkO (SB 3 2) (SB 3 2) (SZ 2) 3 [(ZZ 2 1); (ZZ 3 0)] [(P1E 1 [(RSP 2 NB NZ); (RSP 1 NB NZ)]); (P1E 2 [(RSP 2 NB NZ); (RSP 0 NB NZ); (RSP 1 NB NZ)]); (P1E 3 [(RSP 2 (SB 2 2) (SZ 2)); (RSP 0 NB NZ); (RSP 3 (SB 2 2) (SZ 2)); (RSP 1 NB NZ)])] [(ZZ 1 0); (ZZ 2 2); (ZZ 3 1)] [(ZOZ 2 (SZ 2)); (ZOZ 3 (SZ 2))] false NZ [])); (RS 2 (IAccepted 3) [] (mkO (SB 3 2) (SB 3 2) (SZ 2) 3 [(ZZ 2 1); (ZZ 3 0)] [(P1E 1 [(RSP 2 NB NZ); (RSP 1 NB NZ)]); (P1E 2 [(RSP 2 NB NZ); (RSP 0 NB NZ); (RSP 1 NB NZ)]); (P1E 3 [(RSP 2 (SB 2 2) (SZ 2)); (RSP 0 NB NZ); (RSP 3 (SB 2 2) (SZ 2)); (RSP 1 NB NZ)])] [(ZZ 1 0); (ZZ 2 2); (ZZ 3 2)] [(ZOZ 2 (SZ 2)); (ZOZ 3 (SZ 2))] false NZ [])); (RS 1 (IAccept 2 3 2 (SZ 2)) [(OAccepted 2 3 2 1)] (mkO (SB 3 2) (SB 3 2) (SZ 2) 0 [] [] [] [] false NZ [])); (RS 2 (IRetry 2) [(OPrepare 0 4 2); (OPrepare 1 4 2); (OPrepare 3 4 2)] (mkO (SB 4 2) (SB 3 2) (SZ 2) 4 [(ZZ 3 0); (ZZ 4 1)] [(P1E 1 [(RSP 2 NB NZ); (RSP 1 NB NZ)]); (P1E 2 [(RSP 2 NB NZ); (RSP 0 NB NZ); (RSP 1 NB NZ)]); (P1E 3 [(RSP 2 (SB 2 2) (SZ 2)); (RSP 0 NB NZ); (RSP 3 (SB 2 2) (SZ 2)); (RSP 1 NB NZ)]); (P1E 4 [(RSP 2 (SB 3 2) (SZ 2))])] [(ZZ 1 0); (ZZ 2 2); (ZZ 3 2); (ZZ 4 0)] [(ZOZ 3 (SZ 2)); (ZOZ 4 (SZ 2))] false NZ [])); (RS 3 (IPrepare 2 4 2) [(OPromise 2 4 2 3 (SB 2 2) (SZ 2))] (mkO (SB 4 2) (SB 2 2) (SZ 2) 0 [] [] [] [] false NZ [])); (RS 0 (IPrepare 2 4 2) [(OPromise 2 4 2 0 (SB 3 2) (SZ 2))] (mkO (SB 4 2) (SB 3 2) (SZ 2) 0 [] [] [] [] false NZ [])); (RS 2 (IPromise 4 0 (SB 3 2) (SZ 2)) [] (mkO (SB 4 2) (SB 3 2) (SZ 2) 4 [(ZZ 3 0); (ZZ 4 1)] [(P1E 1 [(RSP 2 NB NZ); (RSP 1 NB NZ)]); (P1E 2 [(RSP 2 NB NZ); (RSP 0 NB NZ); (RSP 1 NB NZ)]); (P1E 3 [(RSP 2 (SB 2 2) (SZ 2)); (RSP 0 NB NZ); (RSP 3 (SB 2 2) (SZ 2)); (RSP 1 NB NZ)]); (P1E 4 [(RSP 2 (SB 3 2) (SZ 2)); (RSP 0 (SB 3 2) (SZ 2))])] [(ZZ 1 0); (ZZ 2 2); (ZZ 3 2); (ZZ 4 0)] [(ZOZ 3 (SZ 2)); (ZOZ 4 (SZ 2))] false NZ [])); (RS 2 (IPromise 2 3 NB NZ) [] (mkO (SB 4 2) (SB 3 2) (SZ 2) 4 [(ZZ 3 0); (ZZ 4 1)] [(P1E 1 [(RSP 2 NB NZ); (RSP 1 NB NZ)]); (P1E 2 [(RSP 2 NB NZ); (RSP 0 NB NZ); (RSP 1 NB NZ); (RSP 3 NB NZ)]); (P1E 3 [(RSP 2 (SB 2 2) (SZ 2)); (RSP 0 NB NZ); (RSP 3 (SB 2 2) (SZ 2)); (RSP 1 NB NZ)]); (P1E 4 [(RSP 2 (SB 3 2) (SZ 2)); (RSP 0 (SB 3 2) (SZ 2))])] [(ZZ 1 0); (ZZ 2 2); (ZZ 3 2); (ZZ 4 0)] [(ZOZ 3 (SZ 2)); (ZOZ 4 (SZ 2))] false NZ [])); (RS 3 (IAccept 2 3 2 (SZ 2)) [(ONack 2 3 2 4 2)] (mkO (SB 4 2) (SB 2 2) (SZ 2) 0 [] [] [] [] false NZ [])); (RS 2 (INack 3 4) [(ORetry 3)] (mkO (SB 4 2) (SB 3 2) (SZ 2) 4 [(ZZ 3 0); (ZZ 4 1)] [(P1E 1 [(RSP 2 NB NZ); (RSP 1 NB NZ)]); (P1E 2 [(RSP 2 NB NZ); (RSP 0 NB NZ); (RSP 1 NB NZ); (RSP 3 NB NZ)]); (P1E 3 [(RSP 2 (SB 2 2) (SZ 2)); (RSP 0 NB NZ); (RSP 3 (SB 2 2) (SZ 2)); (RSP 1 NB NZ)]); (P1E 4 [(RSP 2 (SB 3 2) (SZ 2)); (RSP 0 (SB 3 2) (SZ 2))])] [(ZZ 1 0); (ZZ 2 2); (ZZ 3 2); (ZZ 4 0)] [(ZOZ 3 (SZ 2)); (ZOZ 4 (SZ 2))] false NZ [])); (RS 2 (IAccepted 3) [(ODecided 0 (SZ 2)); (ODecided 1 (SZ 2)); (ODecided 3 (SZ 2))] (mkO (SB 4 2) (SB 3 2) (SZ 2) 4 [(ZZ 3 0); (ZZ 4 1)] [(P1E 1 [(RSP 2 NB NZ); (RSP 1 NB NZ)]); (P1E 2 [(RSP 2 NB NZ); (RSP 0 NB NZ); (RSP 1 NB NZ); (RSP 3 NB NZ)]); (P1E 3 [(RSP 2 (SB 2 2) (SZ 2)); (RSP 0 NB NZ); (RSP 3 (SB 2 2) (SZ 2)); (RSP 1 NB NZ)]); (P1E 4 [(RSP 2 (SB 3 2) (SZ 2)); (RSP 0 (SB 3 2) (SZ 2))])] [(ZZ 1 0); (ZZ 2 2); (ZZ 3 3); (ZZ 4 0)] [(ZOZ 3 (SZ 2)); (ZOZ 4 (SZ 2))] true (SZ 2) [(ZOZ 0 (SZ 2))])); (RS 1 (IDecided (SZ 2)) [] (mkO (SB 3 2) (SB 3 2) (SZ 2) 0 [] [] [] [] true (SZ 2) [])); (RS 3 (IDecided (SZ 2)) [] (mkO (SB 4 2) (SB 2 2) (SZ 2) 0 [] [] [] [] true (SZ 2) [])); (RS 1 (IPrepare 2 4 2) [(OPromise 2 4 2 1 (SB 3 2) (SZ 2))] (mkO (SB 4 2) (SB 3 2) (SZ 2) 0 [] [] [] [] true (SZ 2) [])); (RS 2 (IRetry 3) [] (mkO (SB 4 2) (SB 3 2) (SZ 2) 4 [(ZZ 3 0); (ZZ 4 1)] [(P1E 1 [(RSP 2 NB NZ); (RSP 1 NB NZ)]); (P1E 2 [(RSP 2 NB NZ); (RSP 0 NB NZ); (RSP 1 NB NZ); (RSP 3 NB NZ)]); (P1E 3 [(RSP 2 (SB 2 2) (SZ 2)); (RSP 0 NB NZ); (RSP 3 (SB 2 2) (SZ 2)); (RSP 1 NB NZ)]); (P1E 4 [(RSP 2 (SB 3 2) (SZ 2)); (RSP 0 (SB 3 2) (SZ 2))])] [(ZZ 1 0); (ZZ 2 2); (ZZ 3 3); (ZZ 4 0)] [(ZOZ 3 (SZ 2)); (ZOZ 4 (SZ 2))] true (SZ 2) [(ZOZ 0 (SZ 2))])); (RS 0 (IAccept 2 2 2 (SZ 2)) [(ONack 2 2 2 4 2)] (mkO (SB 4 2) (SB 3 2) (SZ 2) 0 [] [] [] [] false NZ [])); (RS 0 (IDecided (SZ 2)) [] (mkO (SB 4 2) (SB 3 2) (SZ 2) 0 [] [] [] [] true (SZ 2) [])); (RS 2 (INack 2 4) [] (mkO (SB 4 2) (SB 3 2) (SZ 2) 4 [(ZZ 3 0); (ZZ 4 1)] [(P1E 1 [(RSP 2 NB NZ); (RSP 1 NB NZ)]); (P1E 2 [(RSP 2 NB NZ); (RSP 0 NB NZ); (RSP 1 NB NZ); (RSP 3 NB NZ)]); (P1E 3 [(RSP 2 (SB 2 2) (SZ 2)); (RSP 0 NB NZ); (RSP 3 (SB 2 2) (SZ 2)); (RSP 1 NB NZ)]); (P1E 4 [(RSP 2 (SB 3 2) (SZ 2)); (RSP 0 (SB 3 2) (SZ 2))])] [(ZZ 1 0); (ZZ 2 2); (ZZ 3 3); (ZZ 4 0)] [(ZOZ 3 (SZ 2)); (ZOZ 4 (SZ 2))] true (SZ 2) [(ZOZ 0 (SZ 2))])); (RS 2 (IPromise 4 3 (SB 2 2) (SZ 2)) [(OAccept 0 4 2 (SZ 2)); (OAccept 1 4 2 (SZ 2)); (OAccept 3 4 2 (SZ 2))] (mkO (SB 4 2) (SB 4 2) (SZ 2) 4 [(ZZ 3 0); (ZZ 4 1)] [(P1E 1 [(RSP 2 NB NZ); (RSP 1 NB NZ)]); (P1E 2 [(RSP 2 NB NZ); (RSP 0 NB NZ); (RSP 1 NB NZ); (RSP 3 NB NZ)]); (P1E 3 [(RSP 2 (SB 2 2) (SZ 2)); (RSP 0 NB NZ); (RSP 3 (SB 2 2) (SZ 2)); (RSP 1 NB NZ)]); (P1E 4 [(RSP 2 (SB 3 2) (SZ 2)); (RSP 0 (SB 3 2) (SZ 2)); (RSP 3 (SB 2 2) (SZ 2))])] [(ZZ 1 0); (ZZ 2 2); (ZZ 3 3); (ZZ 4 1)] [(ZOZ 3 (SZ 2)); (ZOZ 4 (SZ 2))] true (SZ 2) [(ZOZ 0 (SZ 2))])); (RS 3 (IAccept 2 4 2 (SZ 2)) [(OAccepted 2 4 2 3)] (mkO (SB 4 2) (SB 4 2) (SZ 2) 0 [] [] [] [] true (SZ 2) [])); (RS 1 (IAccept 2 4 2 (SZ 2)) [(OAccepted 2 4 2 1)] (mkO (SB 4 2) (SB 4 2) (SZ 2) 0 [] [] [] [] true (SZ 2) [])); (RS 2 (IAccepted 4) [] (mkO (SB 4 2) (SB 4 2) (SZ 2) 4 [(ZZ 3 0); (ZZ 4 1)] [(P1E 1 [(RSP 2 NB NZ); (RSP 1 NB NZ)]); (P1E 2 [(RSP 2 NB NZ); (RSP 0 NB NZ); (RSP 1 NB NZ); (RSP 3 NB NZ)]); (P1E 3 [(RSP 2 (SB 2 2) (SZ 2)); (RSP 0 NB NZ); (RSP 3 (SB 2 2) (SZ 2)); (RSP 1 NB NZ)]); (P1E 4 [(RSP 2 (SB 3 2) (SZ 2)); (RSP 0 (SB 3 2) (SZ 2)); (RSP 3 (SB 2 2) (SZ 2))])] [(ZZ 1 0); (ZZ 2 2); (ZZ 3 3); (ZZ 4 2)] [(ZOZ 3 (SZ 2)); (ZOZ 4 (SZ 2))] true (SZ 2) [(ZOZ 0 (SZ 2))])); (RS 2 (IAccepted 4) [] (mkO (SB 4 2) (SB 4 2) (SZ 2) 4 [(ZZ 3 0); (ZZ 4 1)] [(P1E 1 [(RSP 2 NB NZ); (RSP 1 NB NZ)]); (P1E 2 [(RSP 2 NB NZ); (RSP 0 NB NZ); (RSP 1 NB NZ); (RSP 3 NB NZ)]); (P1E 3 [(RSP 2 (SB 2 2) (SZ 2)); (RSP 0 NB NZ); (RSP 3 (SB 2 2) (SZ 2)); (RSP 1 NB NZ)]); (P1E 4 [(RSP 2 (SB 3 2) (SZ 2)); (RSP 0 (SB 3 2) (SZ 2)); (RSP 3 (SB 2 2) (SZ 2))])] [(ZZ 1 0); (ZZ 2 2); (ZZ 3 3); (ZZ 4 3)] [(ZOZ 3 (SZ 2)); (ZOZ 4 (SZ 2))] true (SZ 2) [(ZOZ 0 (SZ 2))])); (RS 0 (IAccept 2 4 2 (SZ 2)) [(OAccepted 2 4 2 0)] (mkO (SB 4 2) (SB 4 2) (SZ 2) 0 [] [] [] [] true (SZ 2) [])); (RS 2 (IAccepted 4) [] (mkO (SB 4 2) (SB 4 2) (SZ 2) 4 [(ZZ 3 0); (ZZ 4 1)] [(P1E 1 [(RSP 2 NB NZ); (RSP 1 NB NZ)]); (P1E 2 [(RSP 2 NB NZ); (RSP 0 NB NZ); (RSP 1 NB NZ); (RSP 3 NB NZ)]); (P1E 3 [(RSP 2 (SB 2 2) (SZ 2)); (RSP 0 NB NZ); (RSP 3 (SB 2 2) (SZ 2)); (RSP 1 NB NZ)]); (P1E 4 [(RSP 2 (SB 3 2) (SZ 2)); (RSP 0 (SB 3 2) (SZ 2)); (RSP 3 (SB 2 2) (SZ 2))])] [(ZZ 1 0); (ZZ 2 2); (ZZ 3 3); (ZZ 4 4)] [(ZOZ 3 (SZ 2)); (ZOZ 4 (SZ 2))] true (SZ 2) [(ZOZ 0 (SZ 2))])); (RS 2 (IPromise 4 1 (SB 3 2) (SZ 2)) [] (mkO (SB 4 2) (SB 4 2) (SZ 2) 4 [(ZZ 3 0); (ZZ 4 1)] [(P1E 1 [(RSP 2 NB NZ); (RSP 1 NB NZ)]); (P1E 2 [(RSP 2 NB NZ); (RSP 0 NB NZ); (RSP 1 NB NZ); (RSP 3 NB NZ)]); (P1E 3 [(RSP 2 (SB 2 2) (SZ 2)); (RSP 0 NB NZ); (RSP 3 (SB 2 2) (SZ 2)); (RSP 1 NB NZ)]); (P1E 4 [(RSP 2 (SB 3 2) (SZ 2)); (RSP 0 (SB 3 2) (SZ 2)); (RSP 3 (SB 2 2) (SZ 2)); (RSP 1 (SB 3 2) (SZ 2))])] [(ZZ 1 0); (ZZ 2 2); (ZZ 3 3); (ZZ 4 4)] [(ZOZ 3 (SZ 2)); (ZOZ 4 (SZ 2))] true (SZ 2) [(ZOZ 0 (SZ 2))]))]).
Definition case_56 : Z * list rec_step := (3, [(RS 0 (IPropose 3) [(OPrepare 1 1 0); (OPrepare 2 1 0)] (mkO (SB 1 0) NB NZ 1 [(ZZ 1 0)] [(P1E 1 [(RSP 0 NB NZ)])] [(ZZ 1 0)] [(ZOZ 1 (SZ 3))] false NZ [])); (RS 2 (IPrepare 0 1 0) [(OPromise 0 1 0 2 NB NZ)] (mkO (SB 1 0) NB NZ 0 [] [] [] [] false NZ [])); (RS 0 (IPromise 1 2 NB NZ) [(OAccept 1 1 0 (SZ 3)); (OAccept 2 1 0 (SZ 3))] (mkO (SB 1 0) (SB 1 0) (SZ 3) 1 [(ZZ 1 0)] [(P1E 1 [(RSP 0 NB NZ); (RSP 2 NB NZ)])] [(ZZ 1 1)] [(ZOZ 1 (SZ 3))] false NZ [])); (RS 1 (IAccept 0 1 0 (SZ 3)) [(OAccepted 0 1 0 1)] (mkO (SB 1 0) (SB 1 0) (SZ 3) 0 [] [] [] [] false NZ [])); (RS 2 (IAccept 0 1 0 (SZ 3)) [(OAccepted 0 1 0 2)] (mkO (SB 1 0) (SB 1 0) (SZ 3) 0 [] [] [] [] false NZ [])); (RS 0 (IAccepted 1) [(ODecided 1 (SZ 3)); (ODecided 2 (SZ 3))] (mkO (SB 1 0) (SB 1 0) (SZ 3) 1 [(ZZ 1 0)] [(P1E 1 [(RSP 0 NB NZ); (RSP 2 NB NZ)])] [(ZZ 1 2)] [(ZOZ 1 (SZ 3))] true (SZ 3) [(ZOZ 0 (SZ 3))])); (RS 1 (IPropose 1) [(OPrepare 0 2 1); (OPrepare 2 2 1)] (mkO (SB 2 1) (SB 1 0) (SZ 3) 2 [(ZZ 2 0)] [(P1E 2 [(RSP 1 (SB 1 0) (SZ 3))])] [(ZZ 2 0)] [(ZOZ 2 (SZ 1))] false NZ [])); (RS 0 (IPrepare 1 2 1) [(OPromise 1 2 1 0 (SB 1 0) (SZ 3))] (mkO (SB 2 1) (SB 1 0) (SZ 3) 1 [(ZZ 1 0)] [(P1E 1 [(RSP 0 NB NZ); (RSP 2 NB NZ)])] [(ZZ 1 2)] [(ZOZ 1 (SZ 3))] true (SZ 3) [(ZOZ 0 (SZ 3))])); (RS 2 (IPrepare 1 2 1) [(OPromise 1 2 1 2 (SB 1 0) (SZ 3))] (mkO (SB 2 1) (SB 1 0) (SZ 3) 0 [] [] [] [] false NZ [])); (RS 1 (IPromise 2 0 (SB 1 0) (SZ 3)) [(OAccept 0 2 1 (SZ 3)); (OAccept 2 2 1 (SZ 3))] (mkO (SB 2 1) (SB 2 1) (SZ 3) 2 [(ZZ 2 0)] [(P1E 2 [(RSP 1 (SB 1 0) (SZ 3)); (RSP 0 (SB 1 0) (SZ 3))])] [(ZZ 2 1)] [(ZOZ 2 (SZ 3))] false NZ [])); (RS 1 (IPromise 2 2 (SB 1 0) (SZ 3)) [] (mkO (SB 2 1) (SB 2 1) (SZ 3) 2 [(ZZ 2 0)] [(P1E 2 [(RSP 1 (SB 1 0) (SZ 3)); (RSP 0 (SB 1 0) (SZ 3)); (RSP 2 (SB 1 0) (SZ 3))])] [(ZZ 2 1)] [(ZOZ 2 (SZ 3))] false NZ [])); (RS 2 (IAccept 1 2 1 (SZ 3)) [(OAccepted 1 2 1 2)] (mkO (SB 2 1) (SB 2 1) (SZ 3) 0 [] [] [] [] false NZ [])); (RS 2 (IDecided (SZ 3)) [] (mkO (SB 2 1) (SB 2 1) (SZ 3) 0 [] [] [] [] true (SZ 3) [])); (RS 0 (IAccept 1 2 1 (SZ 3)) [(OAccepted 1 2 1 0)] (mkO (SB 2 1) (SB 2 1) (SZ 3) 1 [(ZZ 1 0)] [(P1E 1 [(RSP 0 NB NZ); (RSP 2 NB NZ)])] [(ZZ 1 2)] [(ZOZ 1 (SZ 3))] true (SZ 3) [(ZOZ 0 (SZ 3))])); (RS 1 (IAccepted 2) [(ODecided 0 (SZ 3)); (ODecided 2 (SZ 3))] (mkO (SB 2 1) (SB 2 1) (SZ 3) 2 [(ZZ 2 0)] [(P1E 2 [(RSP 1 (SB 1 0) (SZ 3)); (RSP 0 (SB 1 0) (SZ 3)); (RSP 2 (SB 1 0) (SZ 3))])] [(ZZ 2 2)] [(ZOZ 2 (SZ 3))] true (SZ 3) [(ZOZ 0 (SZ 3))])); (RS 0 (IDecided (SZ 3)) [] (mkO (SB 2 1) (SB 2 1) (SZ 3) 1 [(ZZ 1 0)] [(P1E 1 [(RSP 0 NB NZ); (RSP 2 NB NZ)])] [(ZZ 1 2)] [(ZOZ 1 (SZ 3))] true (SZ 3) [(ZOZ 0 (SZ 3))])); (RS 2 (IDecided (SZ 3)) [] (mkO (SB 2 1) (SB 2 1) (SZ 3) 0 [] [] [] [] true (SZ 3) [])); (RS 1 (IPrepare 0 1 0) [(ONack 0 1 0 2 1)] (mkO (SB 2 1) (SB 2 1) (SZ 3) 2 [(ZZ 2 0)] [(P1E 2 [(RSP 1 (SB 1 0) (SZ 3)); (RSP 0 (SB 1 0) (SZ 3)); (RSP 2 (SB 1 0) (SZ 3))])] [(ZZ 2 2)] [(ZOZ 2 (SZ 3))] true (SZ 3) [(ZOZ 0 (SZ 3))])); (RS 1 (IAccepted 2) [] (mkO (SB 2 1) (SB 2 1) (SZ 3) 2 [(ZZ 2 0)] [(P1E 2 [(RSP 1 (SB 1 0) (SZ 3)); (RSP 0 (SB 1 0) (SZ 3)); (RSP 2 (SB 1 0) (SZ 3))])] [(ZZ 2 3)] [(ZOZ 2 (SZ 3))] true (SZ 3) [(ZOZ 0 (SZ 3))])); (RS 0 (IAccepted 1) [] (mkO (SB 2 1) (SB 2 1) (SZ 3) 1 [(ZZ 1 0)] [(P1E 1 [(RSP 0 NB NZ); (RSP 2 NB NZ)])] [(ZZ 1 3)] [(ZOZ 1 (SZ 3))] true (SZ 3) [(ZOZ 0 (SZ 3))])); (RS 1 (IDecided (SZ 3)) [] (mkO (SB 2 1) (SB 2 1) (SZ 3) 2 [(ZZ 2 0)] [(P1E 2 [(RSP 1 (SB 1 0) (SZ 3)); (RSP 0 (SB 1 0) (SZ 3)); (RSP 2 (SB 1 0) (SZ 3))])] [(ZZ 2 3)] [(ZOZ 2 (SZ 3))] true (SZ 3) [(ZOZ 0 (SZ 3))])); (RS 0 (INack 1 2) [(ORetry 1)] (mkO (SB 2 1) (SB 2 1) (SZ 3) 2 [(ZZ 1 0)] [(P1E 1 [(RSP 0 NB NZ); (RSP 2 NB NZ)])] [(ZZ 1 3)] [(ZOZ 1 (SZ 3))] true (SZ 3) [(ZOZ 0 (SZ 3))])); (RS 0 (IRetry 1) [] (mkO (SB 2 1) (SB 2 1) (SZ 3) 2 [(ZZ 1 0)] [(P1E 1 [(RSP 0 NB NZ); (RSP 2 NB NZ)])] [(ZZ 1 3)] [(ZOZ 1 (SZ 3))] true (SZ 3) [(ZOZ 0 (SZ 3))]))]).
Definition case_57 : Z * list rec_step := (5, [(RS 4 (IPropose 3) [(OPrepare 0 1 4); (OPrepare 1 1 4); (OPrepare 2 1 4); (OPrepare 3 1 4)] (mkO (SB 1 4) NB NZ 1 [(ZZ 1 0)] [(P1E 1 [(RSP 4 NB NZ)])] [(ZZ 1 0)] [(ZOZ 1 (SZ 3))] false NZ [])); (RS 1 (IPrepare 4 1 4) [(OPromise 4 1 4 1 NB NZ)] (mkO (SB 1 4) NB NZ 0 [] [] [] [] false NZ [])); (RS 3 (IPrepare 4 1 4) [(OPromise 4 1 4 3 NB NZ)] (mkO (SB 1 4) NB NZ 0 [] [] [] [] false NZ [])); (RS 4 (IPromise 1 3 NB NZ) [] (mkO (SB 1 4) NB NZ 1 [(ZZ 1 0)] [(P1E 1 [(RSP 4 NB NZ); (RSP 3 NB NZ)])] [(ZZ 1 0)] [(ZOZ 1 (SZ 3))] false NZ [])); (RS 4 (IPromise 1 1 NB NZ) [(OAccept 0 1 4 (SZ 3)); (OAccept 1 1 4 (SZ 3)); (OAccept 2 1 4 (SZ 3)); (OAccept 3 1 4 (SZ 3))] (mkO (SB 1 4) (SB 1 4) (SZ 3) 1 [(ZZ 1 0)] [(P1E 1 [(RSP 4 NB NZ); (RSP 3 NB NZ); (RSP 1 NB NZ)])] [(ZZ 1 1)] [(ZOZ 1 (SZ 3))] false NZ [])); (RS 3 (IAccept 4 1 4 (SZ 3)) [(OAccepted 4 1 4 3)] (mkO (SB 1 4) (SB 1 4) (SZ 3) 0 [] [] [] [] false NZ [])); (RS 1 (IAccept 4 1 4 (SZ 3)) [(OAccepted 4 1 4 1)] (mkO (SB 1 4) (SB 1 4) (SZ 3) 0 [] [] [] [] false NZ [])); (RS 2 (IAccept 4 1 4 (SZ 3)) [(OAccepted 4 1 4 2)] (mkO (SB 1 4) (SB 1 4) (SZ 3) 0 [] [] [] [] false NZ [])); (RS 0 (IAccept 4 1 4 (SZ 3)) [(OAccepted 4 1 4 0)] (mkO (SB 1 4) (SB 1 4) (SZ 3) 0 [] [] [] [] false NZ [])); (RS 0 (IPrepare 4 1 4) [(OPromise 4 1 4 0 (SB 1 4) (SZ 3))] (mkO (SB 1 4) (SB 1 4) (SZ 3) 0 [] [] [] [] false NZ [])); (RS 2 (IPrepare 4 1 4) [(OPromise 4 1 4 2 (SB 1 4) (SZ 3))] (mkO (SB 1 4) (SB 1 4) (SZ 3) 0 [] [] [] [] false NZ [])); (RS 4 (IAccepted 1) [] (mkO (SB 1 4) (SB 1 4) (SZ 3) 1 [(ZZ 1 0)] [(P1E 1 [(RSP 4 NB NZ); (RSP 3 NB NZ); (RSP 1 NB NZ)])] [(ZZ 1 2)] [(ZOZ 1 (SZ 3))] false NZ [])); (RS 4 (IAccepted 1) [(ODecided 0 (SZ 3)); (ODecided 1 (SZ 3)); (ODecided 2 (SZ 3)); (ODecided 3 (SZ 3))] (mkO (SB 1 4) (SB 1 4) (SZ 3) 1 [(ZZ 1 0)] [(P1E 1 [(RSP 4 NB NZ); (RSP 3 NB NZ); (RSP 1 NB NZ)])] [(ZZ 1 3)] [(ZOZ 1 (SZ 3))] true (SZ 3) [(ZOZ 0 (SZ 3))])); (RS 0 (IDecided (SZ 3)) [] (mkO (SB 1 4) (SB 1 4) (SZ 3) 0 [] [] [] [] true (SZ 3) [])); (RS 3 (IDecided (SZ 3)) [] (mkO (SB 1 4) (SB 1 4) (SZ 3) 0 [] [] [] [] true (SZ 3) [])); (RS 4 (IPromise 1 2 (SB 1 4) (SZ 3)) [] (mkO (SB 1 4) (SB 1 4) (SZ 3) 1 [(ZZ 1 0)] [(P1E 1 [(RSP 4 NB NZ); (RSP 3 NB NZ); (RSP 1 NB NZ); (RSP 2 (SB 1 4) (SZ 3))])] [(ZZ 1 3)] [(ZOZ 1 (SZ 3))] true (SZ 3) [(ZOZ 0 (SZ 3))])); (RS 2 (IDecided (SZ 3)) [] (mkO (SB 1 4) (SB 1 4) (SZ 3) 0 [] [] [] [] true (SZ 3) [])); (RS 4 (IPromise 1 0 (SB 1 4) (SZ 3)) [] (mkO (SB 1 4) (SB 1 4) (SZ 3) 1 [(ZZ 1 0)] [(P1E 1 [(RSP 4 NB NZ); (RSP 3 NB NZ); (RSP 1 NB NZ); (RSP 2 (SB 1 4) (SZ 3)); (RSP 0 (SB 1 4) (SZ 3))])] [(ZZ 1 3)] [(ZOZ 1 (SZ 3))] true (SZ 3) [(ZOZ 0 (SZ 3))])); (RS 4 (IAccepted 1) [] (mkO (SB 1 4) (SB 1 4) (SZ 3) 1 [(ZZ 1 0)] [(P1E 1 [(RSP 4 NB NZ); (RSP 3 NB NZ); (RSP 1 NB NZ); (RSP 2 (SB 1 4) (SZ 3)); (RSP 0 (SB 1 4) (SZ 3))])] [(ZZ 1 4)] [(ZOZ 1 (SZ 3))] true (SZ 3) [(ZOZ 0 (SZ 3))])); (RS 4 (IAccepted 1) [] (mkO (SB 1 4) (SB 1 4) (SZ 3) 1 [(ZZ 1 0)] [(P1E 1 [(RSP 4 NB NZ); (RSP 3 NB NZ); (RSP 1 NB NZ); (RSP 2 (SB 1 4) (SZ 3)); (RSP 0 (SB 1 4) (SZ 3))])] [(ZZ 1 5)] [(ZOZ 1 (SZ 3))] true (SZ 3) [(ZOZ 0 (SZ 3))])); (RS 1 (IDecided (SZ 3)) [] (mkO (SB 1 4) (SB 1 4) (SZ 3) 0 [] [] [] [] true (SZ 3) []))]).
Definition case_58 : Z * list rec_step := (5, [(RS 2 (IPropose 1) [(OPrepare 0 1 2); (OPrepare 1 1 2); (OPrepare 3 1 2); (OPrepare 4 1 2)] (mkO (SB 1 2) NB NZ 1 [(ZZ 1 0)] [(P1E 1 [(RSP 2 NB NZ)])] [(ZZ 1 0)] [(ZOZ 1 (SZ 1))] false NZ [])); (RS 0 (IPrepare 2 1 2) [(OPromise 2 1 2 0 NB NZ)] (mkO (SB 1 2) NB NZ 0 [] [] [] [] false NZ [])); (RS 3 (IPrepare 2 1 2) [(OPromise 2 1 2 3 NB NZ)] (mkO (SB 1 2) NB NZ 0 [] [] [] [] false NZ [])); (RS 0 (IPropose 2) [(OPrepare 1 2 0); (OPrepare 2 2 0); (OPrepare 3 2 0); (OPrepare 4 2 0)] (mkO (SB 2 0) NB NZ 2 [(ZZ 2 0)] [(P1E 2 [(RSP 0 NB NZ)])] [(ZZ 2 0)] [(ZOZ 2 (SZ 2))] false NZ [])); (RS 4 (IPrepare 0 2 0) [(OPromise 0 2 0 4 NB NZ)] (mkO (SB 2 0) NB NZ 0 [] [] [] [] false NZ [])); (RS 3 (IPrepare 0 2 0) [(OPromise 0 2 0 3 NB NZ)] (mkO (SB 2 0) NB NZ 0 [] [] [] [] false NZ [])); (RS 1 (IPrepare 2 1 2) [(OPromise 2 1 2 1 NB NZ)] (mkO (SB 1 2) NB NZ 0 [] [] [] [] false NZ [])); (RS 0 (IPromise 2 4 NB NZ) [] (mkO (SB 2 0) NB NZ 2 [(ZZ 2 0)] [(P1E 2 [(RSP 0 NB NZ); (RSP 4 NB NZ)])] [(ZZ 2 0)] [(ZOZ 2 (SZ 2))] false NZ [])); (RS 2 (IPromise 1 0 NB NZ) [] (mkO (SB 1 2) NB NZ 1 [(ZZ 1 0)] [(P1E 1 [(RSP 2 NB NZ); (RSP 0 NB NZ)])] [(ZZ 1 0)] [(ZOZ 1 (SZ 1))] false NZ [])); (RS 2 (IPromise 1 1 NB NZ) [(OAccept 0 1 2 (SZ 1)); (OAccept 1 1 2 (SZ 1)); (OAccept 3 1 2 (SZ 1)); (OAccept 4 1 2 (SZ 1))] (mkO (SB 1 2) (SB 1 2) (SZ 1) 1 [(ZZ 1 0)] [(P1E 1 [(RSP 2 NB NZ); (RSP 0 NB NZ); (RSP 1 NB NZ)])] [(ZZ 1 1)] [(ZOZ 1 (SZ 1))] false NZ [])); (RS 1 (IPrepare 0 2 0) [(OPromise 0 2 0 1 NB NZ)] (mkO (SB 2 0) NB NZ 0 [] [] [] [] false NZ [])); (RS 1 (IAccept 2 1 2 (SZ 1)) [(ONack 2 1 2 2 0)] (mkO (SB 2 0) NB NZ 0 [] [] [] [] false NZ [])); (RS 4 (IAccept 2 1 2 (SZ 1)) [(ONack 2 1 2 2 0)] (mkO (SB 2 0) NB NZ 0 [] [] [] [] false NZ [])); (RS 2 (INack 1 2) [(ORetry 1)] (mkO (SB 1 2) (SB 1 2) (SZ 1) 2 [(ZZ 1 0)] [(P1E 1 [(RSP 2 NB NZ); (RSP 0 NB NZ); (RSP 1 NB NZ)])] [(ZZ 1 1)] [(ZOZ 1 (SZ 1))] false NZ [])); (RS 3 (IAccept 2 1 2 (SZ 1)) [(ONack 2 1 2 2 0)] (mkO (SB 2 0) NB NZ 0 [] [] [] [] false NZ [])); (RS 0 (IPromise 2 1 NB NZ) [(OAccept 1 2 0 (SZ 2)); (OAccept 2 2 0 (SZ 2)); (OAccept 3 2 0 (SZ 2)); (OAccept 4 2 0 (SZ 2))] (mkO (SB 2 0) (SB 2 0) (SZ 2) 2 [(ZZ 2 0)] [(P1E 2 [(RSP 0 NB NZ); (RSP 4 NB NZ); (RSP 1 NB NZ)])] [(ZZ 2 1)] [(ZOZ 2 (SZ 2))] false NZ [])); (RS 2 (INack 1 2) [(ORetry 1)] (mkO (SB 1 2) (SB 1 2) (SZ 1) 2 [(ZZ 1 0)] [(P1E 1 [(RSP 2 NB NZ); (RSP 0 NB NZ); (RSP 1 NB NZ)])] [(ZZ 1 1)] [(ZOZ 1 (SZ 1))] false NZ [])); (RS 2 (IAccept 0 2 0 (SZ 2)) [(OAccepted 0 2 0 2)] (mkO (SB 2 0) (SB 2 0) (SZ 2) 2 [(ZZ 1 0)] [(P1E 1 [(RSP 2 NB NZ); (RSP 0 NB NZ); (RSP 1 NB NZ)])] [(ZZ 1 1)] [(ZOZ 1 (SZ 1))] false NZ [])); (RS 3 (IAccept 0 2 0 (SZ 2)) [(OAccepted 0 2 0 3)] (mkO (SB 2 0) (SB 2 0) (SZ 2) 0 [] [] [] [] false NZ [])); (RS 2 (IRetry 1) [(OPrepare 0 3 2); (OPrepare 1 3 2); (OPrepare 3 3 2); (OPrepare 4 3 2)] (mkO (SB 3 2) (SB 2 0) (SZ 2) 3 [(ZZ 3 0)] [(P1E 1 [(RSP 2 NB NZ); (RSP 0 NB NZ); (RSP 1 NB NZ)]); (P1E 3 [(RSP 2 (SB 2 0) (SZ 2))])] [(ZZ 1 1); (ZZ 3 0)] [(ZOZ 3 (SZ 1))] false NZ [])); (RS 4 (IAccept 0 2 0 (SZ 2)) [(OAccepted 0 2 0 4)] (mkO (SB 2 0) (SB 2 0) (SZ 2) 0 [] [] [] [] false NZ [])); (RS 3 (IPrepare 2 3 2) [(OPromise 2 3 2 3 (SB 2 0) (SZ 2))] (mkO (SB 3 2) (SB 2 0) (SZ 2) 0 [] [] [] [] false NZ [])); (RS 2 (IRetry 1) [] (mkO (SB 3 2) (SB 2 0) (SZ 2) 3 [(ZZ 3 0)] [(P1E 1 [(RSP 2 NB NZ); (RSP 0 NB NZ); (RSP 1 NB NZ)]); (P1E 3 [(RSP 2 (SB 2 0) (SZ 2))])] [(ZZ 1 1); (ZZ 3 0)] [(ZOZ 3 (SZ 1))] false NZ [])); (RS 2 (INack 1 2) [] (mkO (SB 3 2) (SB 2 0) (SZ 2) 3 [(ZZ 3 0)] [(P1E 1 [(RSP 2 NB NZ); (RSP 0 NB NZ); (RSP 1 NB NZ)]); (P1E 3 [(RSP 2 (SB 2 0) (SZ 2))])] [(ZZ 1 1); (ZZ 3 0)] [(ZOZ 3 (SZ 1))] false NZ [])); (RS 1 (IAccept 0 2 0 (SZ 2)) [(OAccepted 0 2 0 1)] (mkO (SB 2 0) (SB 2 0) (SZ 2) 0 [] [] [] [] false NZ [])); (RS 0 (IPrepare 2 3 2) [(OPromise 2 3 2 0 (SB 2 0) (SZ 2))] (mkO (SB 3 2) (SB 2 0) (SZ 2) 2 [(ZZ 2 0)] [(P1E 2 [(RSP 0 NB NZ); (RSP 4 NB NZ); (RSP 1 NB NZ)])] [(ZZ 2 1)] [(ZOZ 2 (SZ 2))] false NZ [])); (RS 0 (IAccepted 2) [] (mkO (SB 3 2) (SB 2 0) (SZ 2) 2 [(ZZ 2 0)] [(P1E 2 [(RSP 0 NB NZ); (RSP 4 NB NZ); (RSP 1 NB NZ)])] [(ZZ 2 2)] [(ZOZ 2 (SZ 2))] false NZ [])); (RS 0 (IAccepted 2) [(ODecided 1 (SZ 2)); (ODecided 2 (SZ 2)); (ODecided 3 (SZ 2)); (ODecided 4 (SZ 2))] (mkO (SB 3 2) (SB 2 0) (SZ 2) 2 [(ZZ 2 0)] [(P1E 2 [(RSP 0 NB NZ); (RSP 4 NB NZ); (RSP 1 NB NZ)])] [(ZZ 2 3)] [(ZOZ 2 (SZ 2))] true (SZ 2) [(ZOZ 0 (SZ 2))])); (RS 0 (IAccepted 2) [] (mkO (SB 3 2) (SB 2 0) (SZ 2) 2 [(ZZ 2 0)] [(P1E 2 [(RSP 0 NB NZ); (RSP 4 NB NZ); (RSP 1 NB NZ)])] [(ZZ 2 4)] [(ZOZ 2 (SZ 2))] true (SZ 2) [(ZOZ 0 (SZ 2))])); (RS 3 (IDecided (SZ 2)) [] (mkO (SB 3 2) (SB 2 0) (SZ 2) 0 [] [] [] [] true (SZ 2) [])); (RS 2 (IPromise 3 3 (SB 2 0) (SZ 2)) [] (mkO (SB 3 2) (SB 2 0) (SZ 2) 3 [(ZZ 3 0)] [(P1E 1 [(RSP 2 NB NZ); (RSP 0 NB NZ); (RSP 1 NB NZ)]); (P1E 3 [(RSP 2 (SB 2 0) (SZ 2)); (RSP 3 (SB 2 0) (SZ 2))])] [(ZZ 1 1); (ZZ 3 0)] [(ZOZ 3 (SZ 1))] false NZ [])); (RS 4 (IDecided (SZ 2)) [] (mkO (SB 2 0) (SB 2 0) (SZ 2) 0 [] [] [] [] true (SZ 2) [])); (RS 2 (IDecided (SZ 2)) [] (mkO (SB 3 2) (SB 2 0) (SZ 2) 3 [(ZZ 3 0)] [(P1E 1 [(RSP 2 NB NZ); (RSP 0 NB NZ); (RSP 1 NB NZ)]); (P1E 3 [(RSP 2 (SB 2 0) (SZ 2)); (RSP 3 (SB 2 0) (SZ 2))])] [(ZZ 1 1); (ZZ 3 0)] [(ZOZ 3 (SZ 1))] true (SZ 2) [])); (RS 4 (IPropose 3) [] (mkO (SB 2 0) (SB 2 0) (SZ 2) 0 [] [] [] [] true (SZ 2) [(ZOZ 0 (SZ 2))])); (RS 1 (IPropose 4) [(OPrepare 0 3 1); (OPrepare 2 3 1); (OPrepare 3 3 1); (OPrepare 4 3 1)] (mkO (SB 3 1) (SB 2 0) (SZ 2) 3 [(ZZ 3 0)] [(P1E 3 [(RSP 1 (SB 2 0) (SZ 2))])] [(ZZ 3 0)] [(ZOZ 3 (SZ 4))] false NZ [])); (RS 3 (IPrepare 1 3 1) [(ONack 1 3 1 3 2)] (mkO (SB 3 2) (SB 2 0) (SZ 2) 0 [] [] [] [] true (SZ 2) [])); (RS 0 (IPrepare 1 3 1) [(ONack 1 3 1 3 2)] (mkO (SB 3 2) (SB 2 0) (SZ 2) 2 [(ZZ 2 0)] [(P1E 2 [(RSP 0 NB NZ); (RSP 4 NB NZ); (RSP 1 NB NZ)])] [(ZZ 2 4)] [(ZOZ 2 (SZ 2))] true (SZ 2) [(ZOZ 0 (SZ 2))])); (RS 2 (IPrepare 1 3 1) [(ONack 1 3 1 3 2)] (mkO (SB 3 2) (SB 2 0) (SZ 2) 3 [(ZZ 3 0)] [(P1E 1 [(RSP 2 NB NZ); (RSP 0 NB NZ); (RSP 1 NB NZ)]); (P1E 3 [(RSP 2 (SB 2 0) (SZ 2)); (RSP 3 (SB 2 0) (SZ 2))])] [(ZZ 1 1); (ZZ 3 0)] [(ZOZ 3 (SZ 1))] true (SZ 2) [])); (RS 1 (INack 3 3) [(ORetry 3)] (mkO (SB 3 1) (SB 2 0) (SZ 2) 3 [(ZZ 3 0)] [(P1E 3 [(RSP 1 (SB 2 0) (SZ 2))])] [(ZZ 3 0)] [(ZOZ 3 (SZ 4))] false NZ [])); (RS 1 (IRetry 3) [(OPrepare 0 4 1); (OPrepare 2 4 1); (OPrepare 3 4 1); (OPrepare 4 4 1)] (mkO (SB 4 1) (SB 2 0) (SZ 2) 4 [(ZZ 4 0)] [(P1E 3 [(RSP 1 (SB 2 0) (SZ 2))]); (P1E 4 [(RSP 1 (SB 2 0) (SZ 2))])] [(ZZ 3 0); (ZZ 4 0)] [(ZOZ 4 (SZ 4))] false NZ [])); (RS 0 (IPrepare 1 4 1) [(OPromise 1 4 1 0 (SB 2 0) (SZ 2))] (mkO (SB 4 1) (SB 2 0) (SZ 2) 2 [(ZZ 2 0)] [(P1E 2 [(RSP 0 NB NZ); (RSP 4 NB NZ); (RSP 1 NB NZ)])] [(ZZ 2 4)] [(ZOZ 2 (SZ 2))] true (SZ 2) [(ZOZ 0 (SZ 2))])); (RS 4 (IPrepare 1 4 1) [(OPromise 1 4 1 4 (SB 2 0) (SZ 2))] (mkO (SB 4 1) (SB 2 0) (SZ 2) 0 [] [] [] [] true (SZ 2) [(ZOZ 0 (SZ 2))])); (RS 1 (IPromise 4 4 (SB 2 0) (SZ 2)) [] (mkO (SB 4 1) (SB 2 0) (SZ 2) 4 [(ZZ 4 0)] [(P1E 3 [(RSP 1 (SB 2 0) (SZ 2))]); (P1E 4 [(RSP 1 (SB 2 0) (SZ 2)); (RSP 4 (SB 2 0) (SZ 2))])] [(ZZ 3 0); (ZZ 4 0)] [(ZOZ 4 (SZ 4))] false NZ [])); (RS 2 (IPrepare 1 4 1) [(OPromise 1 4 1 2 (SB 2 0) (SZ 2))] (mkO (SB 4 1) (SB 2 0) (SZ 2) 3 [(ZZ 3 0)] [(P1E 1 [(RSP 2 NB NZ); (RSP 0 NB NZ); (RSP 1 NB NZ)]); (P1E 3 [(RSP 2 (SB 2 0) (SZ 2)); (RSP 3 (SB 2 0) (SZ 2))])] [(ZZ 1 1); (ZZ 3 0)] [(ZOZ 3 (SZ 1))] true (SZ 2) [])); (RS 3 (IPrepare 1 4 1) [(OPromise 1 4 1 3 (SB 2 0) (SZ 2))] (mkO (SB 4 1) (SB 2 0) (SZ 2) 0 [] [] [] [] true (SZ 2) [])); (RS 1 (IPromise 4 2 (SB 2 0) (SZ 2)) [(OAccept 0 4 1 (SZ 2)); (OAccept 2 4 1 (SZ 2)); (OAccept 3 4 1 (SZ 2)); (OAccept 4 4 1 (SZ 2))] (mkO (SB 4 1) (SB 4 1) (SZ 2) 4 [(ZZ 4 0)] [(P1E 3 [(RSP 1 (SB 2 0) (SZ 2))]); (P1E 4 [(RSP 1 (SB 2 0) (SZ 2)); (RSP 4 (SB 2 0) (SZ 2)); (RSP 2 (SB 2 0) (SZ 2))])] [(ZZ 3 0); (ZZ 4 1)] [(ZOZ 4 (SZ 2))] false NZ [])); (RS 1 (IPromise 4 3 (SB 2 0) (SZ 2)) [] (mkO (SB 4 1) (SB 4 1) (SZ 2) 4 [(ZZ 4 0)] [(P1E 3 [(RSP 1 (SB 2 0) (SZ 2))]); (P1E 4 [(RSP 1 (SB 2 0) (SZ 2)); (RSP 4 (SB 2 0) (SZ 2)); (RSP 2 (SB 2 0) (SZ 2)); (RSP 3 (SB 2 0) (SZ 2))])] [(ZZ 3 0); (ZZ 4 1)] [(ZOZ 4 (SZ 2))] false NZ [])); (RS 2 (IAccept 1 4 1 (SZ 2)) [(OAccepted 1 4 1 2)] (mkO (SB 4 1) (SB 4 1) (SZ 2) 3 [(ZZ 3 0)] [(P1E 1 [(RSP 2 NB NZ); (RSP 0 NB NZ); (RSP 1 NB NZ)]); (P1E 3 [(RSP 2 (SB 2 0) (SZ 2)); (RSP 3 (SB 2 0) (SZ 2))])] [(ZZ 1 1); (ZZ 3 0)] [(ZOZ 3 (SZ 1))] true (SZ 2) [])); (RS 0 (IAccept 1 4 1 (SZ 2)) [(OAccepted 1 4 1 0)] (mkO (SB 4 1) (SB 4 1) (SZ 2) 2 [(ZZ 2 0)] [(P1E 2 [(RSP 0 NB NZ); (RSP 4 NB NZ); (RSP 1 NB NZ)])] [(ZZ 2 4)] [(ZOZ 2 (SZ 2))] true (SZ 2) [(ZOZ 0 (SZ 2))])); (RS 3 (IAccept 1 4 1 (SZ 2)) [(OAccepted 1 4 1 3)] (mkO (SB 4 1) (SB 4 1) (SZ 2) 0 [] [] [] [] true (SZ 2) [])); (RS 1 (IAccepted 4) [] (mkO (SB 4 1) (SB 4 1) (SZ 2) 4 [(ZZ 4 0)] [(P1E 3 [(RSP 1 (SB 2 0) (SZ 2))]); (P1E 4 [(RSP 1 (SB 2 0) (SZ 2)); (RSP 4 (SB 2 0) (SZ 2)); (RSP 2 (SB 2 0) (SZ 2)); (RSP 3 (SB 2 0) (SZ 2))])] [(ZZ 3 0); (ZZ 4 2)] [(ZOZ 4 (SZ 2))] false NZ [])); (RS 4 (IAccept 1 4 1 (SZ 2)) [(OAccepted 1 4 1 4)] (mkO (SB 4 1) (SB 4 1) (SZ 2) 0 [] [] [] [] true (SZ 2) [(ZOZ 0 (SZ 2))])); (RS 1 (IAccepted 4) [(ODecided 0 (SZ 2)); (ODecided 2 (SZ 2)); (ODecided 3 (SZ 2)); (ODecided 4 (SZ 2))] (mkO (SB 4 1) (SB 4 1) (SZ 2) 4 [(ZZ 4 0)] [(P1E 3 [(RSP 1 (SB 2 0) (SZ 2))]); (P1E 4 [(RSP 1 (SB 2 0) (SZ 2)); (RSP 4 (SB 2 0) (SZ 2)); (RSP 2 (SB 2 0) (SZ 2)); (RSP 3 (SB 2 0) (SZ 2))])] [(ZZ 3 0); (ZZ 4 3)] [(ZOZ 4 (SZ 2))] true (SZ 2) [(ZOZ 0 (SZ 2))])); (RS 1 (IAccepted 4) [] (mkO (SB 4 1) (SB 4 1) (SZ 2) 4 [(ZZ 4 0)] [(P1E 3 [(RSP 1 (SB 2 0) (SZ 2))]); (P1E 4 [(RSP 1 (SB 2 0) (SZ 2)); (RSP 4 (SB 2 0) (SZ 2)); (RSP 2 (SB 2 0) (SZ 2)); (RSP 3 (SB 2 0) (SZ 2))])] [(ZZ 3 0); (ZZ 4 4)] [(ZOZ 4 (SZ 2))] true (SZ 2) [(ZOZ 0 (SZ 2))])); (RS 1 (IAccepted 4) [] (mkO (SB 4 1) (SB 4 1) (SZ 2) 4 [(ZZ 4 0)] [(P1E 3 [(RSP 1 (SB 2 0) (SZ 2))]); (P1E 4 [(RSP 1 (SB 2 0) (SZ 2)); (RSP 4 (SB 2 0) (SZ 2)); (RSP 2 (SB 2 0) (SZ 2)); (RSP 3 (SB 2 0) (SZ 2))])] [(ZZ 3 0); (ZZ 4 5)] [(ZOZ 4 (SZ 2))] true (SZ 2) [(ZOZ 0 (SZ 2))])); (RS 2 (IDecided (SZ 2)) [] (mkO (SB 4 1) (SB 4 1) (SZ 2) 3 [(ZZ 3 0)] [(P1E 1 [(RSP 2 NB NZ); (RSP 0 NB NZ); (RSP 1 NB NZ)]); (P1E 3 [(RSP 2 (SB 2 0) (SZ 2)); (RSP 3 (SB 2 0) (SZ 2))])] [(ZZ 1 1); (ZZ 3 0)] [(ZOZ 3 (SZ 1))] true (SZ 2) [])); (RS 4 (IDecided (SZ 2)) [] (mkO (SB 4 1) (SB 4 1) (SZ 2) 0 [] [] [] [] true (SZ 2) [(ZOZ 0 (SZ 2))])); (RS 0 (IDecided (SZ 2)) [] (mkO (SB 4 1) (SB 4 1) (SZ 2) 2 [(ZZ 2 0)] [(P1E 2 [(RSP 0 NB NZ); (RSP 4 NB NZ); (RSP 1 NB NZ)])] [(ZZ 2 4)] [(ZOZ 2 (SZ 2))] true (SZ 2) [(ZOZ 0 (SZ 2))])); (RS 3 (IDecided (SZ 2)) [] (mkO (SB 4 1) (SB 4 1) (SZ 2) 0 [] [] [] [] true (SZ 2) []))]).
Definition case_59 : Z * list rec_step := (5, [(RS 3 (IPropose 3) [(OPrepare 0 1 3); (OPrepare 1 1 3); (OPrepare 2 1 3); (OPrepare 4 1 3)] (mkO (SB 1 3) NB NZ 1 [(ZZ 1 0)] [(P1E 1 [(RSP 3 NB NZ)])] [(ZZ 1 0)] [(ZOZ 1 (SZ 3))] false NZ [])); (RS 1 (IPrepare 3 1 3) [(OPromise 3 1 3 1 NB NZ)] (mkO (SB 1 3) NB NZ 0 [] [] [] [] false NZ [])); (RS 4 (IPrepare 3 1 3) [(OPromise 3 1 3 4 NB NZ)] (mkO (SB 1 3) NB NZ 0 [] [] [] [] false NZ [])); (RS 1 (IPropose 2) [(OPrepare 0 2 1); (OPrepare 2 2 1); (OPrepare 3 2 1); (OPrepare 4 2 1)] (mkO (SB 2 1) NB NZ 2 [(ZZ 2 0)] [(P1E 2 [(RSP 1 NB NZ)])] [(ZZ 2 0)] [(ZOZ 2 (SZ 2))] false NZ [])); (RS 4 (IPropose 2) [(OPrepare 0 2 4); (OPrepare 1 2 4); (OPrepare 2 2 4); (OPrepare 3 2 4)] (mkO (SB 2 4) NB NZ 2 [(ZZ 2 0)] [(P1E 2 [(RSP 4 NB NZ)])] [(ZZ 2 0)] [(ZOZ 2 (SZ 2))] false NZ [])); (RS 3 (IPrepare 4 2 4) [(OPromise 4 2 4 3 NB NZ)] (mkO (SB 2 4) NB NZ 1 [(ZZ 1 0)] [(P1E 1 [(RSP 3 NB NZ)])] [(ZZ 1 0)] [(ZOZ 1 (SZ 3))] false NZ [])); (RS 0 (IPrepare 4 2 4) [(OPromise 4 2 4 0 NB NZ)] (mkO (SB 2 4) NB NZ 0 [] [] [] [] false NZ [])); (RS 2 (IPrepare 3 1 3) [(OPromise 3 1 3 2 NB NZ)] (mkO (SB 1 3) NB NZ 0 [] [] [] [] false NZ [])); (RS 2 (IPrepare 1 2 1) [(OPromise 1 2 1 2 NB NZ)] (mkO (SB 2 1) NB NZ 0 [] [] [] [] false NZ [])); (RS 1 (IPrepare 4 2 4) [(OPromise 4 2 4 1 NB NZ)] (mkO (SB 2 4) NB NZ 2 [(ZZ 2 0)] [(P1E 2 [(RSP 1 NB NZ)])] [(ZZ 2 0)] [(ZOZ 2 (SZ 2))] false NZ [])); (RS 4 (IPromise 2 0 NB NZ) [] (mkO (SB 2 4) NB NZ 2 [(ZZ 2 0)] [(P1E 2 [(RSP 4 NB NZ); (RSP 0 NB NZ)])] [(ZZ 2 0)] [(ZOZ 2 (SZ 2))] false NZ [])); (RS 3 (IPromise 1 2 NB NZ) [] (mkO (SB 2 4) NB NZ 1 [(ZZ 1 0)] [(P1E 1 [(RSP 3 NB NZ); (RSP 2 NB NZ)])] [(ZZ 1 0)] [(ZOZ 1 (SZ 3))] false NZ [])); (RS 0 (IPrepare 1 2 1) [(ONack 1 2 1 2 4)] (mkO (SB 2 4) NB NZ 0 [] [] [] [] false NZ [])); (RS 0 (IPropose 2) [(OPrepare 1 3 0); (OPrepare 2 3 0); (OPrepare 3 3 0); (OPrepare 4 3 0)] (mkO (SB 3 0) NB NZ 3 [(ZZ 3 0)] [(P1E 3 [(RSP 0 NB NZ)])] [(ZZ 3 0)] [(ZOZ 3 (SZ 2))] false NZ [])); (RS 1 (IPrepare 0 3 0) [(OPromise 0 3 0 1 NB NZ)] (mkO (SB 3 0) NB NZ 2 [(ZZ 2 0)] [(P1E 2 [(RSP 1 NB NZ)])] [(ZZ 2 0)] [(ZOZ 2 (SZ 2))] false NZ [])); (RS 3 (IPrepare 0 3 0) [(OPromise 0 3 0 3 NB NZ)] (mkO (SB 3 0) NB NZ 1 [(ZZ 1 0)] [(P1E 1 [(RSP 3 NB NZ); (RSP 2 NB NZ)])] [(ZZ 1 0)] [(ZOZ 1 (SZ 3))] false NZ [])); (RS 1 (INack 2 2) [(ORetry 2)] (mkO (SB 3 0) NB NZ 2 [(ZZ 2 0)] [(P1E 2 [(RSP 1 NB NZ)])] [(ZZ 2 0)] [(ZOZ 2 (SZ 2))] false NZ [])); (RS 4 (IPrepare 0 3 0) [(OPromise 0 3 0 4 NB NZ)] (mkO (SB 3 0) NB NZ 2 [(ZZ 2 0)] [(P1E 2 [(RSP 4 NB NZ); (RSP 0 NB NZ)])] [(ZZ 2 0)] [(ZOZ 2 (SZ 2))] false NZ [])); (RS 0 (IPromise 3 1 NB NZ) [] (mkO (SB 3 0) NB NZ 3 [(ZZ 3 0)] [(P1E 3 [(RSP 0 NB NZ); (RSP 1 NB NZ)])] [(ZZ 3 0)] [(ZOZ 3 (SZ 2))] false NZ [])); (RS 2 (IPrepare 0 3 0) [(OPromise 0 3 0 2 NB NZ)] (mkO (SB 3 0) NB NZ 0 [] [] [] [] false NZ [])); (RS 0 (IPromise 3 4 NB NZ) [(OAccept 1 3 0 (SZ 2)); (OAccept 2 3 0 (SZ 2)); (OAccept 3 3 0 (SZ 2)); (OAccept 4 3 0 (SZ 2))] (mkO (SB 3 0) (SB 3 0) (SZ 2) 3 [(ZZ 3 0)] [(P1E 3 [(RSP 0 NB NZ); (RSP 1 NB NZ); (RSP 4 NB NZ)])] [(ZZ 3 1)] [(ZOZ 3 (SZ 2))] false NZ [])); (RS 1 (IAccept 0 3 0 (SZ 2)) [(OAccepted 0 3 0 1)] (mkO (SB 3 0) (SB 3 0) (SZ 2) 2 [(ZZ 2 0)] [(P1E 2 [(RSP 1 NB NZ)])] [(ZZ 2 0)] [(ZOZ 2 (SZ 2))] false NZ [])); (RS 4 (IAccept 0 3 0 (SZ 2)) [(OAccepted 0 3 0 4)] (mkO (SB 3 0) (SB 3 0) (SZ 2) 2 [(ZZ 2 0)] [(P1E 2 [(RSP 4 NB NZ); (RSP 0 NB NZ)])] [(ZZ 2 0)] [(ZOZ 2 (SZ 2))] false NZ [])); (RS 0 (IAccepted 3) [] (mkO (SB 3 0) (SB 3 0) (SZ 2) 3 [(ZZ 3 0)] [(P1E 3 [(RSP 0 NB NZ); (RSP 1 NB NZ); (RSP 4 NB NZ)])] [(ZZ 3 2)] [(ZOZ 3 (SZ 2))] false NZ [])); (RS 2 (IAccept 0 3 0 (SZ 2)) [(OAccepted 0 3 0 2)] (mkO (SB 3 0) (SB 3 0) (SZ 2) 0 [] [] [] [] false NZ [])); (RS 0 (IAccepted 3) [(ODecided 1 (SZ 2)); (ODecided 2 (SZ 2)); (ODecided 3 (SZ 2)); (ODecided 4 (SZ 2))] (mkO (SB 3 0) (SB 3 0) (SZ 2) 3 [(ZZ 3 0)] [(P1E 3 [(RSP 0 NB NZ); (RSP 1 NB NZ); (RSP 4 NB NZ)])] [(ZZ 3 3)] [(ZOZ 3 (SZ 2))] true (SZ 2) [(ZOZ 0 (SZ 2))])); (RS 3 (IPromise 1 4 NB NZ) [(OAccept 0 1 3 (SZ 3)); (OAccept 1 1 3 (SZ 3)); (OAccept 2 1 3 (SZ 3)); (OAccept 4 1 3 (SZ 3))] (mkO (SB 3 0) NB NZ 1 [(ZZ 1 0)] [(P1E 1 [(RSP 3 NB NZ); (RSP 2 NB NZ); (RSP 4 NB NZ)])] [(ZZ 1 0)] [(ZOZ 1 (SZ 3))] false NZ [])); (RS 4 (IDecided (SZ 2)) [] (mkO (SB 3 0) (SB 3 0) (SZ 2) 2 [(ZZ 2 0)] [(P1E 2 [(RSP 4 NB NZ); (RSP 0 NB NZ)])] [(ZZ 2 0)] [(ZOZ 2 (SZ 2))] true (SZ 2) [])); (RS 4 (IAccept 3 1 3 (SZ 3)) [(ONack 3 1 3 3 0)] (mkO (SB 3 0) (SB 3 0) (SZ 2) 2 [(ZZ 2 0)] [(P1E 2 [(RSP 4 NB NZ); (RSP 0 NB NZ)])] [(ZZ 2 0)] [(ZOZ 2 (SZ 2))] true (SZ 2) [])); (RS 3 (INack 1 3) [(ORetry 1)] (mkO (SB 3 0) NB NZ 3 [(ZZ 1 0)] [(P1E 1 [(RSP 3 NB NZ); (RSP 2 NB NZ); (RSP 4 NB NZ)])] [(ZZ 1 0)] [(ZOZ 1 (SZ 3))] false NZ [])); (RS 3 (IPrepare 1 2 1) [(ONack 1 2 1 3 0)] (mkO (SB 3 0) NB NZ 3 [(ZZ 1 0)] [(P1E 1 [(RSP 3 NB NZ); (RSP 2 NB NZ); (RSP 4 NB NZ)])] [(ZZ 1 0)] [(ZOZ 1 (SZ 3))] false NZ [])); (RS 4 (IPrepare 1 2 1) [(ONack 1 2 1 3 0)] (mkO (SB 3 0) (SB 3 0) (SZ 2) 2 [(ZZ 2 0)] [(P1E 2 [(RSP 4 NB NZ); (RSP 0 NB NZ)])] [(ZZ 2 0)] [(ZOZ 2 (SZ 2))] true (SZ 2) [])); (RS 2 (IPrepare 4 2 4) [(ONack 4 2 4 3 0)] (mkO (SB 3 0) (SB 3 0) (SZ 2) 0 [] [] [] [] false NZ [])); (RS 2 (IAccept 3 1 3 (SZ 3)) [(ONack 3 1 3 3 0)] (mkO (SB 3 0) (SB 3 0) (SZ 2) 0 [] [] [] [] false NZ [])); (RS 1 (INack 2 3) [(ORetry 2)] (mkO (SB 3 0) (SB 3 0) (SZ 2) 3 [(ZZ 2 0)] [(P1E 2 [(RSP 1 NB NZ)])] [(ZZ 2 0)] [(ZOZ 2 (SZ 2))] false NZ [])); (RS 4 (IPromise 2 1 NB NZ) [(OAccept 0 2 4 (SZ 2)); (OAccept 1 2 4 (SZ 2)); (OAccept 2 2 4 (SZ 2)); (OAccept 3 2 4 (SZ 2))] (mkO (SB 3 0) (SB 3 0) (SZ 2) 2 [(ZZ 2 0)] [(P1E 2 [(RSP 4 NB NZ); (RSP 0 NB NZ); (RSP 1 NB NZ)])] [(ZZ 2 0)] [(ZOZ 2 (SZ 2))] true (SZ 2) [])); (RS 1 (IAccept 3 1 3 (SZ 3)) [(ONack 3 1 3 3 0)] (mkO (SB 3 0) (SB 3 0) (SZ 2) 3 [(ZZ 2 0)] [(P1E 2 [(RSP 1 NB NZ)])] [(ZZ 2 0)] [(ZOZ 2 (SZ 2))] false NZ [])); (RS 1 (INack 2 3) [(ORetry 2)] (mkO (SB 3 0) (SB 3 0) (SZ 2) 3 [(ZZ 2 0)] [(P1E 2 [(RSP 1 NB NZ)])] [(ZZ 2 0)] [(ZOZ 2 (SZ 2))] false NZ [])); (RS 1 (IAccept 4 2 4 (SZ 2)) [(ONack 4 2 4 3 0)] (mkO (SB 3 0) (SB 3 0) (SZ 2) 3 [(ZZ 2 0)] [(P1E 2 [(RSP 1 NB NZ)])] [(ZZ 2 0)] [(ZOZ 2 (SZ 2))] false NZ [])); (RS 3 (IAccept 4 2 4 (SZ 2)) [(ONack 4 2 4 3 0)] (mkO (SB 3 0) NB NZ 3 [(ZZ 1 0)] [(P1E 1 [(RSP 3 NB NZ); (RSP 2 NB NZ); (RSP 4 NB NZ)])] [(ZZ 1 0)] [(ZOZ 1 (SZ 3))] false NZ [])); (RS 4 (INack 2 3) [(ORetry 2)] (mkO (SB 3 0) (SB 3 0) (SZ 2) 3 [(ZZ 2 0)] [(P1E 2 [(RSP 4 NB NZ); (RSP 0 NB NZ); (RSP 1 NB NZ)])] [(ZZ 2 0)] [(ZOZ 2 (SZ 2))] true (SZ 2) [])); (RS 0 (IAccept 4 2 4 (SZ 2)) [(ONack 4 2 4 3 0)] (mkO (SB 3 0) (SB 3 0) (SZ 2) 3 [(ZZ 3 0)] [(P1E 3 [(RSP 0 NB NZ); (RSP 1 NB NZ); (RSP 4 NB NZ)])] [(ZZ 3 3)] [(ZOZ 3 (SZ 2))] true (SZ 2) [(ZOZ 0 (SZ 2))])); (RS 2 (IAccept 4 2 4 (SZ 2)) [(ONack 4 2 4 3 0)] (mkO (SB 3 0) (SB 3 0) (SZ 2) 0 [] [] [] [] false NZ [])); (RS 3 (INack 1 3) [(ORetry 1)] (mkO (SB 3 0) NB NZ 3 [(ZZ 1 0)] [(P1E 1 [(RSP 3 NB NZ); (RSP 2 NB NZ); (RSP 4 NB NZ)])] [(ZZ 1 0)] [(ZOZ 1 (SZ 3))] false NZ [])); (RS 4 (INack 2 3) [(ORetry 2)] (mkO (SB 3 0) (SB 3 0) (SZ 2) 3 [(ZZ 2 0)] [(P1E 2 [(RSP 4 NB NZ); (RSP 0 NB NZ); (RSP 1 NB NZ)])] [(ZZ 2 0)] [(ZOZ 2 (SZ 2))] true (SZ 2) [])); (RS 4 (INack 2 3) [(ORetry 2)] (mkO (SB 3 0) (SB 3 0) (SZ 2) 3 [(ZZ 2 0)] [(P1E 2 [(RSP 4 NB NZ); (RSP 0 NB NZ); (RSP 1 NB NZ)])] [(ZZ 2 0)] [(ZOZ 2 (SZ 2))] true (SZ 2) [])); (RS 0 (IPromise 3 2 NB NZ) [] (mkO (SB 3 0) (SB 3 0) (SZ 2) 3 [(ZZ 3 0)] [(P1E 3 [(RSP 0 NB NZ); (RSP 1 NB NZ); (RSP 4 NB NZ); (RSP 2 NB NZ)])] [(ZZ 3 3)] [(ZOZ 3 (SZ 2))] true (SZ 2) [(ZOZ 0 (SZ 2))])); (RS 3 (IAccept 0 3 0 (SZ 2)) [(OAccepted 0 3 0 3)] (mkO (SB 3 0) (SB 3 0) (SZ 2) 3 [(ZZ 1 0)] [(P1E 1 [(RSP 3 NB NZ); (RSP 2 NB NZ); (RSP 4 NB NZ)])] [(ZZ 1 0)] [(ZOZ 1 (SZ 3))] false NZ [])); (RS 0 (IAccepted 3) [] (mkO (SB 3 0) (SB 3 0) (SZ 2) 3 [(ZZ 3 0)] [(P1E 3 [(RSP 0 NB NZ); (RSP 1 NB NZ); (RSP 4 NB NZ); (RSP 2 NB NZ)])] [(ZZ 3 4)] [(ZOZ 3 (SZ 2))] true (SZ 2) [(ZOZ 0 (SZ 2))])); (RS 1 (IDecided (SZ 2)) [] (mkO (SB 3 0) (SB 3 0) (SZ 2) 3 [(ZZ 2 0)] [(P1E 2 [(RSP 1 NB NZ)])] [(ZZ 2 0)] [(ZOZ 2 (SZ 2))] true (SZ 2) [])); (RS 0 (IAccept 3 1 3 (SZ 3)) [(ONack 3 1 3 3 0)] (mkO (SB 3 0) (SB 3 0) (SZ 2) 3 [(ZZ 3 0)] [(P1E 3 [(RSP 0 NB NZ); (RSP 1 NB NZ); (RSP 4 NB NZ); (RSP 2 NB NZ)])] [(ZZ 3 4)] [(ZOZ 3 (SZ 2))] true (SZ 2) [(ZOZ 0 (SZ 2))])); (RS 4 (INack 2 3) [(ORetry 2)] (mkO (SB 3 0) (SB 3 0) (SZ 2) 3 [(ZZ 2 0)] [(P1E 2 [(RSP 4 NB NZ); (RSP 0 NB NZ); (RSP 1 NB NZ)])] [(ZZ 2 0)] [(ZOZ 2 (SZ 2))] true (SZ 2) [])); (RS 0 (IPrepare 3 1 3) [(ONack 3 1 3 3 0)] (mkO (SB 3 0) (SB 3 0) (SZ 2) 3 [(ZZ 3 0)] [(P1E 3 [(RSP 0 NB NZ); (RSP 1 NB NZ); (RSP 4 NB NZ); (RSP 2 NB NZ)])] [(ZZ 3 4)] [(ZOZ 3 (SZ 2))] true (SZ 2) [(ZOZ 0 (SZ 2))])); (RS 3 (IPromise 1 1 NB NZ) [] (mkO (SB 3 0) (SB 3 0) (SZ 2) 3 [(ZZ 1 0)] [(P1E 1 [(RSP 3 NB NZ); (RSP 2 NB NZ); (RSP 4 NB NZ); (RSP 1 NB NZ)])] [(ZZ 1 0)] [(ZOZ 1 (SZ 3))] false NZ [])); (RS 3 (INack 1 3) [(ORetry 1)] (mkO (SB 3 0) (SB 3 0) (SZ 2) 3 [(ZZ 1 0)] [(P1E 1 [(RSP 3 NB NZ); (RSP 2 NB NZ); (RSP 4 NB NZ); (RSP 1 NB NZ)])] [(ZZ 1 0)] [(ZOZ 1 (SZ 3))] false NZ [])); (RS 4 (IPromise 2 3 NB NZ) [] (mkO (SB 3 0) (SB 3 0) (SZ 2) 3 [(ZZ 2 0)] [(P1E 2 [(RSP 4 NB NZ); (RSP 0 NB NZ); (RSP 1 NB NZ); (RSP 3 NB NZ)])] [(ZZ 2 0)] [(ZOZ 2 (SZ 2))] true (SZ 2) [])); (RS 1 (IPromise 2 2 NB NZ) [] (mkO (SB 3 0) (SB 3 0) (SZ 2) 3 [(ZZ 2 0)] [(P1E 2 [(RSP 1 NB NZ); (RSP 2 NB NZ)])] [(ZZ 2 0)] [(ZOZ 2 (SZ 2))] true (SZ 2) [])); (RS 0 (IPromise 3 3 NB NZ) [] (mkO (SB 3 0) (SB 3 0) (SZ 2) 3 [(ZZ 3 0)] [(P1E 3 [(RSP 0 NB NZ); (RSP 1 NB NZ); (RSP 4 NB NZ); (RSP 2 NB NZ); (RSP 3 NB NZ)])] [(ZZ 3 4)] [(ZOZ 3 (SZ 2))] true (SZ 2) [(ZOZ 0 (SZ 2))])); (RS 0 (IAccepted 3) [] (mkO (SB 3 0) (SB 3 0) (SZ 2) 3 [(ZZ 3 0)] [(P1E 3 [(RSP 0 NB NZ); (RSP 1 NB NZ); (RSP 4 NB NZ); (RSP 2 NB NZ); (RSP 3 NB NZ)])] [(ZZ 3 5)] [(ZOZ 3 (SZ 2))] true (SZ 2) [(ZOZ 0 (SZ 2))])); (RS 2 (IDecided (SZ 2)) [] (mkO (SB 3 0) (SB 3 0) (SZ 2) 0 [] [] [] [] true (SZ 2) [])); (RS 3 (IDecided (SZ 2)) [] (mkO (SB 3 0) (SB 3 0) (SZ 2) 3 [(ZZ 1 0)] [(P1E 1 [(RSP 3 NB NZ); (RSP 2 NB NZ); (RSP 4 NB NZ); (RSP 1 NB NZ)])] [(ZZ 1 0)] [(ZOZ 1 (SZ 3))] true (SZ 2) [])); (RS 4 (INack 2 3) [(ORetry 2)] (mkO (SB 3 0) (SB 3 0) (SZ 2) 3 [(ZZ 2 0)] [(P1E 2 [(RSP 4 NB NZ); (RSP 0 NB NZ); (RSP 1 NB NZ); (RSP 3 NB NZ)])] [(ZZ 2 0)] [(ZOZ 2 (SZ 2))] true (SZ 2) [])); (RS 3 (INack 1 3) [(ORetry 1)] (mkO (SB 3 0) (SB 3 0) (SZ 2) 3 [(ZZ 1 0)] [(P1E 1 [(RSP 3 NB NZ); (RSP 2 NB NZ); (RSP 4 NB NZ); (RSP 1 NB NZ)])] [(ZZ 1 0)] [(ZOZ 1 (SZ 3))] true (SZ 2) [])); (RS 1 (IRetry 2) [] (mkO (SB 3 0) (SB 3 0) (SZ 2) 3 [(ZZ 2 0)] [(P1E 2 [(RSP 1 NB NZ); (RSP 2 NB NZ)])] [(ZZ 2 0)] [(ZOZ 2 (SZ 2))] true (SZ 2) [])); (RS 4 (IRetry 2) [] (mkO (SB 3 0) (SB 3 0) (SZ 2) 3 [(ZZ 2 0)] [(P1E 2 [(RSP 4 NB NZ); (RSP 0 NB NZ); (RSP 1 NB NZ); (RSP 3 NB NZ)])] [(ZZ 2 0)] [(ZOZ 2 (SZ 2))] true (SZ 2) [])); (RS 3 (INack 1 3) [(ORetry 1)] (mkO (SB 3 0) (SB 3 0) (SZ 2) 3 [(ZZ 1 0)] [(P1E 1 [(RSP 3 NB NZ); (RSP 2 NB NZ); (RSP 4 NB NZ); (RSP 1 NB NZ)])] [(ZZ 1 0)] [(ZOZ 1 (SZ 3))] true (SZ 2) [])); (RS 4 (IRetry 2) [] (mkO (SB 3 0) (SB 3 0) (SZ 2) 3 [(ZZ 2 0)] [(P1E 2 [(RSP 4 NB NZ); (RSP 0 NB NZ); (RSP 1 NB NZ); (RSP 3 NB NZ)])] [(ZZ 2 0)] [(ZOZ 2 (SZ 2))] true (SZ 2) [])); (RS 1 (IRetry 2) [] (mkO (SB 3 0) (SB 3 0) (SZ 2) 3 [(ZZ 2 0)] [(P1E 2 [(RSP 1 NB NZ); (RSP 2 NB NZ)])] [(ZZ 2 0)] [(ZOZ 2 (SZ 2))] true (SZ 2) [])); (RS 3 (IRetry 1) [] (mkO (SB 3 0) (SB 3 0) (SZ 2) 3 [(ZZ 1 0)] [(P1E 1 [(RSP 3 NB NZ); (RSP 2 NB NZ); (RSP 4 NB NZ); (RSP 1 NB NZ)])] [(ZZ 1 0)] [(ZOZ 1 (SZ 3))] true (SZ 2) [])); (RS 1 (IRetry 2) [] (mkO (SB 3 0) (SB 3 0) (SZ 2) 3 [(ZZ 2 0)] [(P1E 2 [(RSP 1 NB NZ); (RSP 2 NB NZ)])] [(ZZ 2 0)] [(ZOZ 2 (SZ 2))] true (SZ 2) [])); (RS 4 (IRetry 2) [] (mkO (SB 3 0) (SB 3 0) (SZ 2) 3 [(ZZ 2 0)] [(P1E 2 [(RSP 4 NB NZ); (RSP 0 NB NZ); (RSP 1 NB NZ); (RSP 3 NB NZ)])] [(ZZ 2 0)] [(ZOZ 2 (SZ 2))] true (SZ 2) [])); (RS 3 (IRetry 1) [] (mkO (SB 3 0) (SB 3 0) (SZ 2) 3 [(ZZ 1 0)] [(P1E 1 [(RSP 3 NB NZ); (RSP 2 NB NZ); (RSP 4 NB NZ); (RSP 1 NB NZ)])] [(ZZ 1 0)] [(ZOZ 1 (SZ 3))] true (SZ 2) [])); (RS 4 (IRetry 2) [] (mkO (SB 3 0) (SB 3 0) (SZ 2) 3 [(ZZ 2 0)] [(P1E 2 [(RSP 4 NB NZ); (RSP 0 NB NZ); (RSP 1 NB NZ); (RSP 3 NB NZ)])] [(ZZ 2 0)] [(ZOZ 2 (SZ 2))] true (SZ 2) [])); (RS 3 (IRetry 1) [] (mkO (SB 3 0) (SB 3 0) (SZ 2) 3 [(ZZ 1 0)] [(P1E 1 [(RSP 3 NB NZ); (RSP 2 NB NZ); (RSP 4 NB NZ); (RSP 1 NB NZ)])] [(ZZ 1 0)] [(ZOZ 1 (SZ 3))] true (SZ 2) [])); (RS 3 (IRetry 1) [] (mkO (SB 3 0) (SB 3 0) (SZ 2) 3 [(ZZ 1 0)] [(P1E 1 [(RSP 3 NB NZ); (RSP 2 NB NZ); (RSP 4 NB NZ); (RSP 1 NB NZ)])] [(ZZ 1 0)] [(ZOZ 1 (SZ 3))] true (SZ 2) [])); (RS 3 (IRetry 1) [] (mkO (SB 3 0) (SB 3 0) (SZ 2) 3 [(ZZ 1 0)] [(P1E 1 [(RSP 3 NB NZ); (RSP 2 NB NZ); (RSP 4 NB NZ); (RSP 1 NB NZ)])] [(ZZ 1 0)] [(ZOZ 1 (SZ 3))] true (SZ 2) [])); (RS 4 (IRetry 2) [] (mkO (SB 3 0) (SB 3 0) (SZ 2) 3 [(ZZ 2 0)] [(P1E 2 [(RSP 4 NB NZ); (RSP 0 NB NZ); (RSP 1 NB NZ); (RSP 3 NB NZ)])] [(ZZ 2 0)] [(ZOZ 2 (SZ 2))] true (SZ 2) []))]).
Definition case_60 : Z * list rec_step := (5, [(RS 0 (IPropose 1) [(OPrepare 1 1 0); (OPrepare 2 1 0); (OPrepare 3 1 0); (OPrepare 4 1 0)] (mkO (SB 1 0) NB NZ 1 [(ZZ 1 0)] [(P1E 1 [(RSP 0 NB NZ)])] [(ZZ 1 0)] [(ZOZ 1 (SZ 1))] false NZ [])); (RS 4 (IPrepare 0 1 0) [(OPromise 0 1 0 4 NB NZ)] (mkO (SB 1 0) NB NZ 0 [] [] [] [] false NZ [])); (RS 0 (IPromise 1 4 NB NZ) [] (mkO (SB 1 0) NB NZ 1 [(ZZ 1 0)] [(P1E 1 [(RSP 0 NB NZ); (RSP 4 NB NZ)])] [(ZZ 1 0)] [(ZOZ 1 (SZ 1))] false NZ [])); (RS 4 (IPropose 2) [(OPrepare 0 2 4); (OPrepare 1 2 4); (OPrepare 2 2 4); (OPrepare 3 2 4)] (mkO (SB 2 4) NB NZ 2 [(ZZ 2 0)] [(P1E 2 [(RSP 4 NB NZ)])] [(ZZ 2 0)] [(ZOZ 2 (SZ 2))] false NZ [])); (RS 1 (IPropose 3) [(OPrepare 0 1 1); (OPrepare 2 1 1); (OPrepare 3 1 1); (OPrepare 4 1 1)] (mkO (SB 1 1) NB NZ 1 [(ZZ 1 0)] [(P1E 1 [(RSP 1 NB NZ)])] [(ZZ 1 0)] [(ZOZ 1 (SZ 3))] false NZ [])); (RS 2 (IPrepare 4 2 4) [(OPromise 4 2 4 2 NB NZ)] (mkO (SB 2 4) NB NZ 0 [] [] [] [] false NZ [])); (RS 3 (IPrepare 1 1 1) [(OPromise 1 1 1 3 NB NZ)] (mkO (SB 1 1) NB NZ 0 [] [] [] [] false NZ [])); (RS 4 (IPromise 2 2 NB NZ) [] (mkO (SB 2 4) NB NZ 2 [(ZZ 2 0)] [(P1E 2 [(RSP 4 NB NZ); (RSP 2 NB NZ)])] [(ZZ 2 0)] [(ZOZ 2 (SZ 2))] false NZ [])); (RS 4 (IPrepare 1 1 1) [(ONack 1 1 1 2 4)] (mkO (SB 2 4) NB NZ 2 [(ZZ 2 0)] [(P1E 2 [(RSP 4 NB NZ); (RSP 2 NB NZ)])] [(ZZ 2 0)] [(ZOZ 2 (SZ 2))] false NZ [])); (RS 0 (IPrepare 4 2 4) [(OPromise 4 2 4 0 NB NZ)] (mkO (SB 2 4) NB NZ 1 [(ZZ 1 0)] [(P1E 1 [(RSP 0 NB NZ); (RSP 4 NB NZ)])] [(ZZ 1 0)] [(ZOZ 1 (SZ 1))] false NZ [])); (RS 3 (IPrepare 4 2 4) [(OPromise 4 2 4 3 NB NZ)] (mkO (SB 2 4) NB NZ 0 [] [] [] [] false NZ [])); (RS 2 (IPrepare 1 1 1) [(ONack 1 1 1 2 4)] (mkO (SB 2 4) NB NZ 0 [] [] [] [] false NZ [])); (RS 4 (IPromise 2 3 NB NZ) [(OAccept 0 2 4 (SZ 2)); (OAccept 1 2 4 (SZ 2)); (OAccept 2 2 4 (SZ 2)); (OAccept 3 2 4 (SZ 2))] (mkO (SB 2 4) (SB 2 4) (SZ 2) 2 [(ZZ 2 0)] [(P1E 2 [(RSP 4 NB NZ); (RSP 2 NB NZ); (RSP 3 NB NZ)])] [(ZZ 2 1)] [(ZOZ 2 (SZ 2))] false NZ [])); (RS 1 (IPrepare 4 2 4) [(OPromise 4 2 4 1 NB NZ)] (mkO (SB 2 4) NB NZ 1 [(ZZ 1 0)] [(P1E 1 [(RSP 1 NB NZ)])] [(ZZ 1 0)] [(ZOZ 1 (SZ 3))] false NZ [])); (RS 0 (IAccept 4 2 4 (SZ 2)) [(OAccepted 4 2 4 0)] (mkO (SB 2 4) (SB 2 4) (SZ 2) 1 [(ZZ 1 0)] [(P1E 1 [(RSP 0 NB NZ); (RSP 4 NB NZ)])] [(ZZ 1 0)] [(ZOZ 1 (SZ 1))] false NZ [])); (RS 3 (IAccept 4 2 4 (SZ 2)) [(OAccepted 4 2 4 3)] (mkO (SB 2 4) (SB 2 4) (SZ 2) 0 [] [] [] [] false NZ [])); (RS 1 (INack 1 2) [(ORetry 1)] (mkO (SB 2 4) NB NZ 2 [(ZZ 1 0)] [(P1E 1 [(RSP 1 NB NZ)])] [(ZZ 1 0)] [(ZOZ 1 (SZ 3))] false NZ [])); (RS 4 (IPromise 2 1 NB NZ) [] (mkO (SB 2 4) (SB 2 4) (SZ 2) 2 [(ZZ 2 0)] [(P1E 2 [(RSP 4 NB NZ); (RSP 2 NB NZ); (RSP 3 NB NZ); (RSP 1 NB NZ)])] [(ZZ 2 1)] [(ZOZ 2 (SZ 2))] false NZ [])); (RS 1 (IRetry 1) [(OPrepare 0 3 1); (OPrepare 2 3 1); (OPrepare 3 3 1); (OPrepare 4 3 1)] (mkO (SB 3 1) NB NZ 3 [(ZZ 3 0)] [(P1E 1 [(RSP 1 NB NZ)]); (P1E 3 [(RSP 1 NB NZ)])] [(ZZ 1 0); (ZZ 3 0)] [(ZOZ 3 (SZ 3))] false NZ [])); (RS 0 (IPrepare 1 3 1) [(OPromise 1 3 1 0 (SB 2 4) (SZ 2))] (mkO (SB 3 1) (SB 2 4) (SZ 2) 1 [(ZZ 1 0)] [(P1E 1 [(RSP 0 NB NZ); (RSP 4 NB NZ)])] [(ZZ 1 0)] [(ZOZ 1 (SZ 1))] false NZ [])); (RS 4 (IAccepted 2) [] (mkO (SB 2 4) (SB 2 4) (SZ 2) 2 [(ZZ 2 0)] [(P1E 2 [(RSP 4 NB NZ); (RSP 2 NB NZ); (RSP 3 NB NZ); (RSP 1 NB NZ)])] [(ZZ 2 2)] [(ZOZ 2 (SZ 2))] false NZ [])); (RS 1 (IAccept 4 2 4 (SZ 2)) [(ONack 4 2 4 3 1)] (mkO (SB 3 1) NB NZ 3 [(ZZ 3 0)] [(P1E 1 [(RSP 1 NB NZ)]); (P1E 3 [(RSP 1 NB NZ)])] [(ZZ 1 0); (ZZ 3 0)] [(ZOZ 3 (SZ 3))] false NZ [])); (RS 2 (IAccept 4 2 4 (SZ 2)) [(OAccepted 4 2 4 2)] (mkO (SB 2 4) (SB 2 4) (SZ 2) 0 [] [] [] [] false NZ [])); (RS 4 (INack 2 3) [(ORetry 2)] (mkO (SB 2 4) (SB 2 4) (SZ 2) 3 [(ZZ 2 0)] [(P1E 2 [(RSP 4 NB NZ); (RSP 2 NB NZ); (RSP 3 NB NZ); (RSP 1 NB NZ)])] [(ZZ 2 2)] [(ZOZ 2 (SZ 2))] false NZ [])); (RS 4 (IAccepted 2) [(ODecided 0 (SZ 2)); (ODecided 1 (SZ 2)); (ODecided 2 (SZ 2)); (ODecided 3 (SZ 2))] (mkO (SB 2 4) (SB 2 4) (SZ 2) 3 [(ZZ 2 0)] [(P1E 2 [(RSP 4 NB NZ); (RSP 2 NB NZ); (RSP 3 NB NZ); (RSP 1 NB NZ)])] [(ZZ 2 3)] [(ZOZ 2 (SZ 2))] true (SZ 2) [(ZOZ 0 (SZ 2))])); (RS 1 (IPromise 3 0 (SB 2 4) (SZ 2)) [] (mkO (SB 3 1) NB NZ 3 [(ZZ 3 0)] [(P1E 1 [(RSP 1 NB NZ)]); (P1E 3 [(RSP 1 NB NZ); (RSP 0 (SB 2 4) (SZ 2))])] [(ZZ 1 0); (ZZ 3 0)] [(ZOZ 3 (SZ 3))] false NZ [])); (RS 4 (IRetry 2) [] (mkO (SB 2 4) (SB 2 4) (SZ 2) 3 [(ZZ 2 0)] [(P1E 2 [(RSP 4 NB NZ); (RSP 2 NB NZ); (RSP 3 NB NZ); (RSP 1 NB NZ)])] [(ZZ 2 3)] [(ZOZ 2 (SZ 2))] true (SZ 2) [(ZOZ 0 (SZ 2))])); (RS 1 (IDecided (SZ 2)) [] (mkO (SB 3 1) NB NZ 3 [(ZZ 3 0)] [(P1E 1 [(RSP 1 NB NZ)]); (P1E 3 [(RSP 1 NB NZ); (RSP 0 (SB 2 4) (SZ 2))])] [(ZZ 1 0); (ZZ 3 0)] [(ZOZ 3 (SZ 3))] true (SZ 2) [])); (RS 4 (IAccepted 2) [] (mkO (SB 2 4) (SB 2 4) (SZ 2) 3 [(ZZ 2 0)] [(P1E 2 [(RSP 4 NB NZ); (RSP 2 NB NZ); (RSP 3 NB NZ); (RSP 1 NB NZ)])] [(ZZ 2 4)] [(ZOZ 2 (SZ 2))] true (SZ 2) [(ZOZ 0 (SZ 2))])); (RS 0 (IDecided (SZ 2)) [] (mkO (SB 3 1) (SB 2 4) (SZ 2) 1 [(ZZ 1 0)] [(P1E 1 [(RSP 0 NB NZ); (RSP 4 NB NZ)])] [(ZZ 1 0)] [(ZOZ 1 (SZ 1))] true (SZ 2) []))]).
Definition case_61 : Z * list rec_step := (5, [(RS 1 (IPropose 1) [(OPrepare 0 1 1); (OPrepare 2 1 1); (OPrepare 3 1 1); (OPrepare 4 1 1)] (mkO (SB 1 1) NB NZ 1 [(ZZ 1 0)] [(P1E 1 [(RSP 1 NB NZ)])] [(ZZ 1 0)] [(ZOZ 1 (SZ 1))] false NZ [])); (RS 2 (IPrepare 1 1 1) [(OPromise 1 1 1 2 NB NZ)] (mkO (SB 1 1) NB NZ 0 [] [] [] [] false NZ [])); (RS 4 (IPropose 2) [(OPrepare 0 1 4); (OPrepare 1 1 4); (OPrepare 2 1 4); (OPrepare 3 1 4)] (mkO (SB 1 4) NB NZ 1 [(ZZ 1 0)] [(P1E 1 [(RSP 4 NB NZ)])] [(ZZ 1 0)] [(ZOZ 1 (SZ 2))] false NZ [])); (RS 0 (IPrepare 1 1 1) [(OPromise 1 1 1 0 NB NZ)] (mkO (SB 1 1) NB NZ 0 [] [] [] [] false NZ [])); (RS 3 (IPrepare 1 1 1) [(OPromise 1 1 1 3 NB NZ)] (mkO (SB 1 1) NB NZ 0 [] [] [] [] false NZ [])); (RS 1 (IPromise 1 2 NB NZ) [] (mkO (SB 1 1) NB NZ 1 [(ZZ 1 0)] [(P1E 1 [(RSP 1 NB NZ); (RSP 2 NB NZ)])] [(ZZ 1 0)] [(ZOZ 1 (SZ 1))] false NZ [])); (RS 2 (IPrepare 4 1 4) [(OPromise 4 1 4 2 NB NZ)] (mkO (SB 1 4) NB NZ 0 [] [] [] [] false NZ [])); (RS 3 (IPrepare 4 1 4) [(OPromise 4 1 4 3 NB NZ)] (mkO (SB 1 4) NB NZ 0 [] [] [] [] false NZ [])); (RS 0 (IPrepare 4 1 4) [(OPromise 4 1 4 0 NB NZ)] (mkO (SB 1 4) NB NZ 0 [] [] [] [] false NZ [])); (RS 1 (IPrepare 4 1 4) [(OPromise 4 1 4 1 NB NZ)] (mkO (SB 1 4) NB NZ 1 [(ZZ 1 0)] [(P1E 1 [(RSP 1 NB NZ); (RSP 2 NB NZ)])] [(ZZ 1 0)] [(ZOZ 1 (SZ 1))] false NZ [])); (RS 4 (IPromise 1 2 NB NZ) [] (mkO (SB 1 4) NB NZ 1 [(ZZ 1 0)] [(P1E 1 [(RSP 4 NB NZ); (RSP 2 NB NZ)])] [(ZZ 1 0)] [(ZOZ 1 (SZ 2))] false NZ [])); (RS 4 (IPromise 1 3 NB NZ) [(OAccept 0 1 4 (SZ 2)); (OAccept 1 1 4 (SZ 2)); (OAccept 2 1 4 (SZ 2)); (OAccept 3 1 4 (SZ 2))] (mkO (SB 1 4) (SB 1 4) (SZ 2) 1 [(ZZ 1 0)] [(P1E 1 [(RSP 4 NB NZ); (RSP 2 NB NZ); (RSP 3 NB NZ)])] [(ZZ 1 1)] [(ZOZ 1 (SZ 2))] false NZ [])); (RS 1 (IPromise 1 3 NB NZ) [(OAccept 0 1 1 (SZ 1)); (OAccept 2 1 1 (SZ 1)); (OAccept 3 1 1 (SZ 1)); (OAccept 4 1 1 (SZ 1))] (mkO (SB 1 4) NB NZ 1 [(ZZ 1 0)] [(P1E 1 [(RSP 1 NB NZ); (RSP 2 NB NZ); (RSP 3 NB NZ)])] [(ZZ 1 0)] [(ZOZ 1 (SZ 1))] false NZ [])); (RS 4 (IPromise 1 0 NB NZ) [] (mkO (SB 1 4) (SB 1 4) (SZ 2) 1 [(ZZ 1 0)] [(P1E 1 [(RSP 4 NB NZ); (RSP 2 NB NZ); (RSP 3 NB NZ); (RSP 0 NB NZ)])] [(ZZ 1 1)] [(ZOZ 1 (SZ 2))] false NZ [])); (RS 4 (IPromise 1 1 NB NZ) [] (mkO (SB 1 4) (SB 1 4) (SZ 2) 1 [(ZZ 1 0)] [(P1E 1 [(RSP 4 NB NZ); (RSP 2 NB NZ); (RSP 3 NB NZ); (RSP 0 NB NZ); (RSP 1 NB NZ)])] [(ZZ 1 1)] [(ZOZ 1 (SZ 2))] false NZ [])); (RS 0 (IAccept 4 1 4 (SZ 2)) [(OAccepted 4 1 4 0)] (mkO (SB 1 4) (SB 1 4) (SZ 2) 0 [] [] [] [] false NZ [])); (RS 1 (IAccept 4 1 4 (SZ 2)) [(OAccepted 4 1 4 1)] (mkO (SB 1 4) (SB 1 4) (SZ 2) 1 [(ZZ 1 0)] [(P1E 1 [(RSP 1 NB NZ); (RSP 2 NB NZ); (RSP 3 NB NZ)])] [(ZZ 1 0)] [(ZOZ 1 (SZ 1))] false NZ [])); (RS 2 (IAccept 4 1 4 (SZ 2)) [(OAccepted 4 1 4 2)] (mkO (SB 1 4) (SB 1 4) (SZ 2) 0 [] [] [] [] false NZ [])); (RS 3 (IAccept 1 1 1 (SZ 1)) [(ONack 1 1 1 1 4)] (mkO (SB 1 4) NB NZ 0 [] [] [] [] false NZ [])); (RS 4 (IAccept 1 1 1 (SZ 1)) [(ONack 1 1 1 1 4)] (mkO (SB 1 4) (SB 1 4) (SZ 2) 1 [(ZZ 1 0)] [(P1E 1 [(RSP 4 NB NZ); (RSP 2 NB NZ); (RSP 3 NB NZ); (RSP 0 NB NZ); (RSP 1 NB NZ)])] [(ZZ 1 1)] [(ZOZ 1 (SZ 2))] false NZ [])); (RS 0 (IAccept 1 1 1 (SZ 1)) [(ONack 1 1 1 1 4)] (mkO (SB 1 4) (SB 1 4) (SZ 2) 0 [] [] [] [] false NZ [])); (RS 4 (IAccepted 1) [] (mkO (SB 1 4) (SB 1 4) (SZ 2) 1 [(ZZ 1 0)] [(P1E 1 [(RSP 4 NB NZ); (RSP 2 NB NZ); (RSP 3 NB NZ); (RSP 0 NB NZ); (RSP 1 NB NZ)])] [(ZZ 1 2)] [(ZOZ 1 (SZ 2))] false NZ [])); (RS 4 (IAccepted 1) [(ODecided 0 (SZ 2)); (ODecided 1 (SZ 2)); (ODecided 2 (SZ 2)); (ODecided 3 (SZ 2))] (mkO (SB 1 4) (SB 1 4) (SZ 2) 1 [(ZZ 1 0)] [(P1E 1 [(RSP 4 NB NZ); (RSP 2 NB NZ); (RSP 3 NB NZ); (RSP 0 NB NZ); (RSP 1 NB NZ)])] [(ZZ 1 3)] [(ZOZ 1 (SZ 2))] true (SZ 2) [(ZOZ 0 (SZ 2))])); (RS 1 (INack 1 1) [(ORetry 1)] (mkO (SB 1 4) (SB 1 4) (SZ 2) 1 [(ZZ 1 0)] [(P1E 1 [(RSP 1 NB NZ); (RSP 2 NB NZ); (RSP 3 NB NZ)])] [(ZZ 1 0)] [(ZOZ 1 (SZ 1))] false NZ [])); (RS 0 (IDecided (SZ 2)) [] (mkO (SB 1 4) (SB 1 4) (SZ 2) 0 [] [] [] [] true (SZ 2) [])); (RS 1 (IDecided (SZ 2)) [] (mkO (SB 1 4) (SB 1 4) (SZ 2) 1 [(ZZ 1 0)] [(P1E 1 [(RSP 1 NB NZ); (RSP 2 NB NZ); (RSP 3 NB NZ)])] [(ZZ 1 0)] [(ZOZ 1 (SZ 1))] true (SZ 2) [])); (RS 4 (IAccepted 1) [] (mkO (SB 1 4) (SB 1 4) (SZ 2) 1 [(ZZ 1 0)] [(P1E 1 [(RSP 4 NB NZ); (RSP 2 NB NZ); (RSP 3 NB NZ); (RSP 0 NB NZ); (RSP 1 NB NZ)])] [(ZZ 1 4)] [(ZOZ 1 (SZ 2))] true (SZ 2) [(ZOZ 0 (SZ 2))])); (RS 1 (INack 1 1) [(ORetry 1)] (mkO (SB 1 4) (SB 1 4) (SZ 2) 1 [(ZZ 1 0)] [(P1E 1 [(RSP 1 NB NZ); (RSP 2 NB NZ); (RSP 3 NB NZ)])] [(ZZ 1 0)] [(ZOZ 1 (SZ 1))] true (SZ 2) [])); (RS 2 (IDecided (SZ 2)) [] (mkO (SB 1 4) (SB 1 4) (SZ 2) 0 [] [] [] [] true (SZ 2) [])); (RS 1 (INack 1 1) [(ORetry 1)] (mkO (SB 1 4) (SB 1 4) (SZ 2) 1 [(ZZ 1 0)] [(P1E 1 [(RSP 1 NB NZ); (RSP 2 NB NZ); (RSP 3 NB NZ)])] [(ZZ 1 0)] [(ZOZ 1 (SZ 1))] true (SZ 2) [])); (RS 3 (IDecided (SZ 2)) [] (mkO (SB 1 4) NB NZ 0 [] [] [] [] true (SZ 2) [])); (RS 3 (IPropose 3) [] (mkO (SB 1 4) NB NZ 0 [] [] [] [] true (SZ 2) [(ZOZ 0 (SZ 2))])); (RS 1 (IRetry 1) [] (mkO (SB 1 4) (SB 1 4) (SZ 2) 1 [(ZZ 1 0)] [(P1E 1 [(RSP 1 NB NZ); (RSP 2 NB NZ); (RSP 3 NB NZ)])] [(ZZ 1 0)] [(ZOZ 1 (SZ 1))] true (SZ 2) [])); (RS 1 (IRetry 1) [] (mkO (SB 1 4) (SB 1 4) (SZ 2) 1 [(ZZ 1 0)] [(P1E 1 [(RSP 1 NB NZ); (RSP 2 NB NZ); (RSP 3 NB NZ)])] [(ZZ 1 0)] [(ZOZ 1 (SZ 1))] true (SZ 2) [])); (RS 1 (IRetry 1) [] (mkO (SB 1 4) (SB 1 4) (SZ 2) 1 [(ZZ 1 0)] [(P1E 1 [(RSP 1 NB NZ); (RSP 2 NB NZ); (RSP 3 NB NZ)])] [(ZZ 1 0)] [(ZOZ 1 (SZ 1))] true (SZ 2) []))]).
Definition case_62 : Z * list rec_step := (3, [(RS 0 (IPropose 3) [(OPrepare 1 1 0); (OPrepare 2 1 0)] (mkO (SB 1 0) NB NZ 1 [(ZZ 1 0)] [(P1E 1 [(RSP 0 NB NZ)])] [(ZZ 1 0)] [(ZOZ 1 (SZ 3))] false NZ [])); (RS 1 (IPrepare 0 1 0) [(OPromise 0 1 0 1 NB NZ)] (mkO (SB 1 0) NB NZ 0 [] [] [] [] false NZ [])); (RS 0 (IPromise 1 1 NB NZ) [(OAccept 1 1 0 (SZ 3)); (OAccept 2 1 0 (SZ 3))] (mkO (SB 1 0) (SB 1 0) (SZ 3) 1 [(ZZ 1 0)] [(P1E 1 [(RSP 0 NB NZ); (RSP 1 NB NZ)])] [(ZZ 1 1)] [(ZOZ 1 (SZ 3))] false NZ [])); (RS 2 (IPropose 2) [(OPrepare 0 1 2); (OPrepare 1 1 2)] (mkO (SB 1 2) NB NZ 1 [(ZZ 1 0)] [(P1E 1 [(RSP 2 NB NZ)])] [(ZZ 1 0)] [(ZOZ 1 (SZ 2))] false NZ [])); (RS 1 (IPrepare 2 1 2) [(OPromise 2 1 2 1 NB NZ)] (mkO (SB 1 2) NB NZ 0 [] [] [] [] false NZ [])); (RS 2 (IPromise 1 1 NB NZ) [(OAccept 0 1 2 (SZ 2)); (OAccept 1 1 2 (SZ 2))] (mkO (SB 1 2) (SB 1 2) (SZ 2) 1 [(ZZ 1 0)] [(P1E 1 [(RSP 2 NB NZ); (RSP 1 NB NZ)])] [(ZZ 1 1)] [(ZOZ 1 (SZ 2))] false NZ [])); (RS 0 (IAccept 2 1 2 (SZ 2)) [(OAccepted 2 1 2 0)] (mkO (SB 1 2) (SB 1 2) (SZ 2) 1 [(ZZ 1 0)] [(P1E 1 [(RSP 0 NB NZ); (RSP 1 NB NZ)])] [(ZZ 1 1)] [(ZOZ 1 (SZ 3))] false NZ [])); (RS 1 (IAccept 2 1 2 (SZ 2)) [(OAccepted 2 1 2 1)] (mkO (SB 1 2) (SB 1 2) (SZ 2) 0 [] [] [] [] false NZ [])); (RS 2 (IAccepted 1) [(ODecided 0 (SZ 2)); (ODecided 1 (SZ 2))] (mkO (SB 1 2) (SB 1 2) (SZ 2) 1 [(ZZ 1 0)] [(P1E 1 [(RSP 2 NB NZ); (RSP 1 NB NZ)])] [(ZZ 1 2)] [(ZOZ 1 (SZ 2))] true (SZ 2) [(ZOZ 0 (SZ 2))])); (RS 1 (IDecided (SZ 2)) [] (mkO (SB 1 2) (SB 1 2) (SZ 2) 0 [] [] [] [] true (SZ 2) [])); (RS 2 (IAccepted 1) [] (mkO (SB 1 2) (SB 1 2) (SZ 2) 1 [(ZZ 1 0)] [(P1E 1 [(RSP 2 NB NZ); (RSP 1 NB NZ)])] [(ZZ 1 3)] [(ZOZ 1 (SZ 2))] true (SZ 2) [(ZOZ 0 (SZ 2))])); (RS 0 (IDecided (SZ 2)) [] (mkO (SB 1 2) (SB 1 2) (SZ 2) 1 [(ZZ 1 0)] [(P1E 1 [(RSP 0 NB NZ); (RSP 1 NB NZ)])] [(ZZ 1 1)] [(ZOZ 1 (SZ 3))] true (SZ 2) [])); (RS 0 (IPropose 1) [] (mkO (SB 1 2) (SB 1 2) (SZ 2) 1 [(ZZ 1 0)] [(P1E 1 [(RSP 0 NB NZ); (RSP 1 NB NZ)])] [(ZZ 1 1)] [(ZOZ 1 (SZ 3))] true (SZ 2) [(ZOZ 1 (SZ 2))]))]).
Definition case_63 : Z * list rec_step := (5, [(RS 2 (IPropose 3) [(OPrepare 0 1 2); (OPrepare 1 1 2); (OPrepare 3 1 2); (OPrepare 4 1 2)] (mkO (SB 1 2) NB NZ 1 [(ZZ 1 0)] [(P1E 1 [(RSP 2 NB NZ)])] [(ZZ 1 0)] [(ZOZ 1 (SZ 3))] false NZ [])); (RS 3 (IPropose 1) [(OPrepare 0 1 3); (OPrepare 1 1 3); (OPrepare 2 1 3); (OPrepare 4 1 3)] (mkO (SB 1 3) NB NZ 1 [(ZZ 1 0)] [(P1E 1 [(RSP 3 NB NZ)])] [(ZZ 1 0)] [(ZOZ 1 (SZ 1))] false NZ [])); (RS 1 (IPrepare 2 1 2) [(OPromise 2 1 2 1 NB NZ)] (mkO (SB 1 2) NB NZ 0 [] [] [] [] false NZ [])); (RS 4 (IPrepare 2 1 2) [(OPromise 2 1 2 4 NB NZ)] (mkO (SB 1 2) NB NZ 0 [] [] [] [] false NZ [])); (RS 0 (IPrepare 3 1 3) [(OPromise 3 1 3 0 NB NZ)] (mkO (SB 1 3) NB NZ 0 [] [] [] [] false NZ [])); (RS 2 (IPrepare 3 1 3) [(OPromise 3 1 3 2 NB NZ)] (mkO (SB 1 3) NB NZ 1 [(ZZ 1 0)] [(P1E 1 [(RSP 2 NB NZ)])] [(ZZ 1 0)] [(ZOZ 1 (SZ 3))] false NZ [])); (RS 3 (IPrepare 2 1 2) [(ONack 2 1 2 1 3)] (mkO (SB 1 3) NB NZ 1 [(ZZ 1 0)] [(P1E 1 [(RSP 3 NB NZ)])] [(ZZ 1 0)] [(ZOZ 1 (SZ 1))] false NZ [])); (RS 1 (IPrepare 3 1 3) [(OPromise 3 1 3 1 NB NZ)] (mkO (SB 1 3) NB NZ 0 [] [] [] [] false NZ [])); (RS 4 (IPrepare 3 1 3) [(OPromise 3 1 3 4 NB NZ)] (mkO (SB 1 3) NB NZ 0 [] [] [] [] false NZ [])); (RS 3 (IPromise 1 2 NB NZ) [] (mkO (SB 1 3) NB NZ 1 [(ZZ 1 0)] [(P1E 1 [(RSP 3 NB NZ); (RSP 2 NB NZ)])] [(ZZ 1 0)] [(ZOZ 1 (SZ 1))] false NZ [])); (RS 0 (IPrepare 2 1 2) [(ONack 2 1 2 1 3)] (mkO (SB 1 3) NB NZ 0 [] [] [] [] false NZ [])); (RS 2 (IPromise 1 1 NB NZ) [] (mkO (SB 1 3) NB NZ 1 [(ZZ 1 0)] [(P1E 1 [(RSP 2 NB NZ); (RSP 1 NB NZ)])] [(ZZ 1 0)] [(ZOZ 1 (SZ 3))] false NZ [])); (RS 2 (IPromise 1 4 NB NZ) [(OAccept 0 1 2 (SZ 3)); (OAccept 1 1 2 (SZ 3)); (OAccept 3 1 2 (SZ 3)); (OAccept 4 1 2 (SZ 3))] (mkO (SB 1 3) NB NZ 1 [(ZZ 1 0)] [(P1E 1 [(RSP 2 NB NZ); (RSP 1 NB NZ); (RSP 4 NB NZ)])] [(ZZ 1 0)] [(ZOZ 1 (SZ 3))] false NZ [])); (RS 3 (IPromise 1 0 NB NZ) [(OAccept 0 1 3 (SZ 1)); (OAccept 1 1 3 (SZ 1)); (OAccept 2 1 3 (SZ 1)); (OAccept 4 1 3 (SZ 1))] (mkO (SB 1 3) (SB 1 3) (SZ 1) 1 [(ZZ 1 0)] [(P1E 1 [(RSP 3 NB NZ); (RSP 2 NB NZ); (RSP 0 NB NZ)])] [(ZZ 1 1)] [(ZOZ 1 (SZ 1))] false NZ [])); (RS 3 (IPromise 1 1 NB NZ) [] (mkO (SB 1 3) (SB 1 3) (SZ 1) 1 [(ZZ 1 0)] [(P1E 1 [(RSP 3 NB NZ); (RSP 2 NB NZ); (RSP 0 NB NZ); (RSP 1 NB NZ)])] [(ZZ 1 1)] [(ZOZ 1 (SZ 1))] false NZ [])); (RS 3 (IPromise 1 4 NB NZ) [] (mkO (SB 1 3) (SB 1 3) (SZ 1) 1 [(ZZ 1 0)] [(P1E 1 [(RSP 3 NB NZ); (RSP 2 NB NZ); (RSP 0 NB NZ); (RSP 1 NB NZ); (RSP 4 NB NZ)])] [(ZZ 1 1)] [(ZOZ 1 (SZ 1))] false NZ [])); (RS 2 (INack 1 1) [(ORetry 1)] (mkO (SB 1 3) NB NZ 1 [(ZZ 1 0)] [(P1E 1 [(RSP 2 NB NZ); (RSP 1 NB NZ); (RSP 4 NB NZ)])] [(ZZ 1 0)] [(ZOZ 1 (SZ 3))] false NZ [])); (RS 0 (IAccept 2 1 2 (SZ 3)) [(ONack 2 1 2 1 3)] (mkO (SB 1 3) NB NZ 0 [] [] [] [] false NZ [])); (RS 1 (IAccept 2 1 2 (SZ 3)) [(ONack 2 1 2 1 3)] (mkO (SB 1 3) NB NZ 0 [] [] [] [] false NZ [])); (RS 3 (IAccept 2 1 2 (SZ 3)) [(ONack 2 1 2 1 3)] (mkO (SB 1 3) (SB 1 3) (SZ 1) 1 [(ZZ 1 0)] [(P1E 1 [(RSP 3 NB NZ); (RSP 2 NB NZ); (RSP 0 NB NZ); (RSP 1 NB NZ); (RSP 4 NB NZ)])] [(ZZ 1 1)] [(ZOZ 1 (SZ 1))] false NZ [])); (RS 4 (IAccept 2 1 2 (SZ 3)) [(ONack 2 1 2 1 3)] (mkO (SB 1 3) NB NZ 0 [] [] [] [] false NZ [])); (RS 1 (IAccept 3 1 3 (SZ 1)) [(OAccepted 3 1 3 1)] (mkO (SB 1 3) (SB 1 3) (SZ 1) 0 [] [] [] [] false NZ [])); (RS 2 (INack 1 1) [(ORetry 1)] (mkO (SB 1 3) NB NZ 1 [(ZZ 1 0)] [(P1E 1 [(RSP 2 NB NZ); (RSP 1 NB NZ); (RSP 4 NB NZ)])] [(ZZ 1 0)] [(ZOZ 1 (SZ 3))] false NZ [])); (RS 2 (IAccept 3 1 3 (SZ 1)) [(OAccepted 3 1 3 2)] (mkO (SB 1 3) (SB 1 3) (SZ 1) 1 [(ZZ 1 0)] [(P1E 1 [(RSP 2 NB NZ); (RSP 1 NB NZ); (RSP 4 NB NZ)])] [(ZZ 1 0)] [(ZOZ 1 (SZ 3))] false NZ [])); (RS 4 (IAccept 3 1 3 (SZ 1)) [(OAccepted 3 1 3 4)] (mkO (SB 1 3) (SB 1 3) (SZ 1) 0 [] [] [] [] false NZ [])); (RS 2 (INack 1 1) [(ORetry 1)] (mkO (SB 1 3) (SB 1 3) (SZ 1) 1 [(ZZ 1 0)] [(P1E 1 [(RSP 2 NB NZ); (RSP 1 NB NZ); (RSP 4 NB NZ)])] [(ZZ 1 0)] [(ZOZ 1 (SZ 3))] false NZ [])); (RS 0 (IAccept 3 1 3 (SZ 1)) [(OAccepted 3 1 3 0)] (mkO (SB 1 3) (SB 1 3) (SZ 1) 0 [] [] [] [] false NZ [])); (RS 2 (INack 1 1) [(ORetry 1)] (mkO (SB 1 3) (SB 1 3) (SZ 1) 1 [(ZZ 1 0)] [(P1E 1 [(RSP 2 NB NZ); (RSP 1 NB NZ); (RSP 4 NB NZ)])] [(ZZ 1 0)] [(ZOZ 1 (SZ 3))] false NZ [])); (RS 2 (INack 1 1) [(ORetry 1)] (mkO (SB 1 3) (SB 1 3) (SZ 1) 1 [(ZZ 1 0)] [(P1E 1 [(RSP 2 NB NZ); (RSP 1 NB NZ); (RSP 4 NB NZ)])] [(ZZ 1 0)] [(ZOZ 1 (SZ 3))] false NZ [])); (RS 2 (INack 1 1) [(ORetry 1)] (mkO (SB 1 3) (SB 1 3) (SZ 1) 1 [(ZZ 1 0)] [(P1E 1 [(RSP 2 NB NZ); (RSP 1 NB NZ); (RSP 4 NB NZ)])] [(ZZ 1 0)] [(ZOZ 1 (SZ 3))] false NZ [])); (RS 3 (IAccepted 1) [] (mkO (SB 1 3) (SB 1 3) (SZ 1) 1 [(ZZ 1 0)] [(P1E 1 [(RSP 3 NB NZ); (RSP 2 NB NZ); (RSP 0 NB NZ); (RSP 1 NB NZ); (RSP 4 NB NZ)])] [(ZZ 1 2)] [(ZOZ 1 (SZ 1))] false NZ [])); (RS 3 (IAccepted 1) [(ODecided 0 (SZ 1)); (ODecided 1 (SZ 1)); (ODecided 2 (SZ 1)); (ODecided 4 (SZ 1))] (mkO (SB 1 3) (SB 1 3) (SZ 1) 1 [(ZZ 1 0)] [(P1E 1 [(RSP 3 NB NZ); (RSP 2 NB NZ); (RSP 0 NB NZ); (RSP 1 NB NZ); (RSP 4 NB NZ)])] [(ZZ 1 3)] [(ZOZ 1 (SZ 1))] true (SZ 1) [(ZOZ 0 (SZ 1))])); (RS 3 (IAccepted 1) [] (mkO (SB 1 3) (SB 1 3) (SZ 1) 1 [(ZZ 1 0)] [(P1E 1 [(RSP 3 NB NZ); (RSP 2 NB NZ); (RSP 0 NB NZ); (RSP 1 NB NZ); (RSP 4 NB NZ)])] [(ZZ 1 4)] [(ZOZ 1 (SZ 1))] true (SZ 1) [(ZOZ 0 (SZ 1))])); (RS 3 (IAccepted 1) [] (mkO (SB 1 3) (SB 1 3) (SZ 1) 1 [(ZZ 1 0)] [(P1E 1 [(RSP 3 NB NZ); (RSP 2 NB NZ); (RSP 0 NB NZ); (RSP 1 NB NZ); (RSP 4 NB NZ)])] [(ZZ 1 5)] [(ZOZ 1 (SZ 1))] true (SZ 1) [(ZOZ 0 (SZ 1))])); (RS 4 (IPropose 3) [(OPrepare 0 2 4); (OPrepare 1 2 4); (OPrepare 2 2 4); (OPrepare 3 2 4)] (mkO (SB 2 4) (SB 1 3) (SZ 1) 2 [(ZZ 2 0)] [(P1E 2 [(RSP 4 (SB 1 3) (SZ 1))])] [(ZZ 2 0)] [(ZOZ 2 (SZ 3))] false NZ [])); (RS 4 (IDecided (SZ 1)) [] (mkO (SB 2 4) (SB 1 3) (SZ 1) 2 [(ZZ 2 0)] [(P1E 2 [(RSP 4 (SB 1 3) (SZ 1))])] [(ZZ 2 0)] [(ZOZ 2 (SZ 3))] true (SZ 1) [])); (RS 0 (IDecided (SZ 1)) [] (mkO (SB 1 3) (SB 1 3) (SZ 1) 0 [] [] [] [] true (SZ 1) [])); (RS 1 (IDecided (SZ 1)) [] (mkO (SB 1 3) (SB 1 3) (SZ 1) 0 [] [] [] [] true (SZ 1) [])); (RS 2 (IDecided (SZ 1)) [] (mkO (SB 1 3) (SB 1 3) (SZ 1) 1 [(ZZ 1 0)] [(P1E 1 [(RSP 2 NB NZ); (RSP 1 NB NZ); (RSP 4 NB NZ)])] [(ZZ 1 0)] [(ZOZ 1 (SZ 3))] true (SZ 1) [])); (RS 0 (IPrepare 4 2 4) [(OPromise 4 2 4 0 (SB 1 3) (SZ 1))] (mkO (SB 2 4) (SB 1 3) (SZ 1) 0 [] [] [] [] true (SZ 1) [])); (RS 2 (IPrepare 4 2 4) [(OPromise 4 2 4 2 (SB 1 3) (SZ 1))] (mkO (SB 2 4) (SB 1 3) (SZ 1) 1 [(ZZ 1 0)] [(P1E 1 [(RSP 2 NB NZ); (RSP 1 NB NZ); (RSP 4 NB NZ)])] [(ZZ 1 0)] [(ZOZ 1 (SZ 3))] true (SZ 1) [])); (RS 4 (IPromise 2 0 (SB 1 3) (SZ 1)) [] (mkO (SB 2 4) (SB 1 3) (SZ 1) 2 [(ZZ 2 0)] [(P1E 2 [(RSP 4 (SB 1 3) (SZ 1)); (RSP 0 (SB 1 3) (SZ 1))])] [(ZZ 2 0)] [(ZOZ 2 (SZ 3))] true (SZ 1) [])); (RS 2 (IRetry 1) [] (mkO (SB 2 4) (SB 1 3) (SZ 1) 1 [(ZZ 1 0)] [(P1E 1 [(RSP 2 NB NZ); (RSP 1 NB NZ); (RSP 4 NB NZ)])] [(ZZ 1 0)] [(ZOZ 1 (SZ 3))] true (SZ 1) [])); (RS 1 (IPrepare 4 2 4) [(OPromise 4 2 4 1 (SB 1 3) (SZ 1))] (mkO (SB 2 4) (SB 1 3) (SZ 1) 0 [] [] [] [] true (SZ 1) [])); (RS 3 (IPrepare 4 2 4) [(OPromise 4 2 4 3 (SB 1 3) (SZ 1))] (mkO (SB 2 4) (SB 1 3) (SZ 1) 1 [(ZZ 1 0)] [(P1E 1 [(RSP 3 NB NZ); (RSP 2 NB NZ); (RSP 0 NB NZ); (RSP 1 NB NZ); (RSP 4 NB NZ)])] [(ZZ 1 5)] [(ZOZ 1 (SZ 1))] true (SZ 1) [(ZOZ 0 (SZ 1))])); (RS 2 (IRetry 1) [] (mkO (SB 2 4) (SB 1 3) (SZ 1) 1 [(ZZ 1 0)] [(P1E 1 [(RSP 2 NB NZ); (RSP 1 NB NZ); (RSP 4 NB NZ)])] [(ZZ 1 0)] [(ZOZ 1 (SZ 3))] true (SZ 1) [])); (RS 4 (IPromise 2 2 (SB 1 3) (SZ 1)) [(OAccept 0 2 4 (SZ 1)); (OAccept 1 2 4 (SZ 1)); (OAccept 2 2 4 (SZ 1)); (OAccept 3 2 4 (SZ 1))] (mkO (SB 2 4) (SB 2 4) (SZ 1) 2 [(ZZ 2 0)] [(P1E 2 [(RSP 4 (SB 1 3) (SZ 1)); (RSP 0 (SB 1 3) (SZ 1)); (RSP 2 (SB 1 3) (SZ 1))])] [(ZZ 2 1)] [(ZOZ 2 (SZ 1))] true (SZ 1) [])); (RS 4 (IPromise 2 3 (SB 1 3) (SZ 1)) [] (mkO (SB 2 4) (SB 2 4) (SZ 1) 2 [(ZZ 2 0)] [(P1E 2 [(RSP 4 (SB 1 3) (SZ 1)); (RSP 0 (SB 1 3) (SZ 1)); (RSP 2 (SB 1 3) (SZ 1)); (RSP 3 (SB 1 3) (SZ 1))])] [(ZZ 2 1)] [(ZOZ 2 (SZ 1))] true (SZ 1) [])); (RS 2 (IRetry 1) [] (mkO (SB 2 4) (SB 1 3) (SZ 1) 1 [(ZZ 1 0)] [(P1E 1 [(RSP 2 NB NZ); (RSP 1 NB NZ); (RSP 4 NB NZ)])] [(ZZ 1 0)] [(ZOZ 1 (SZ 3))] true (SZ 1) [])); (RS 2 (IRetry 1) [] (mkO (SB 2 4) (SB 1 3) (SZ 1) 1 [(ZZ 1 0)] [(P1E 1 [(RSP 2 NB NZ); (RSP 1 NB NZ); (RSP 4 NB NZ)])] [(ZZ 1 0)] [(ZOZ 1 (SZ 3))] true (SZ 1) [])); (RS 2 (IRetry 1) [] (mkO (SB 2 4) (SB 1 3) (SZ 1) 1 [(ZZ 1 0)] [(P1E 1 [(RSP 2 NB NZ); (RSP 1 NB NZ); (RSP 4 NB NZ)])] [(ZZ 1 0)] [(ZOZ 1 (SZ 3))] true (SZ 1) [])); (RS 1 (IAccept 4 2 4 (SZ 1)) [(OAccepted 4 2 4 1)] (mkO (SB 2 4) (SB 2 4) (SZ 1) 0 [] [] [] [] true (SZ 1) [])); (RS 3 (IAccept 4 2 4 (SZ 1)) [(OAccepted 4 2 4 3)] (mkO (SB 2 4) (SB 2 4) (SZ 1) 1 [(ZZ 1 0)] [(P1E 1 [(RSP 3 NB NZ); (RSP 2 NB NZ); (RSP 0 NB NZ); (RSP 1 NB NZ); (RSP 4 NB NZ)])] [(ZZ 1 5)] [(ZOZ 1 (SZ 1))] true (SZ 1) [(ZOZ 0 (SZ 1))])); (RS 4 (IPromise 2 1 (SB 1 3) (SZ 1)) [] (mkO (SB 2 4) (SB 2 4) (SZ 1) 2 [(ZZ 2 0)] [(P1E 2 [(RSP 4 (SB 1 3) (SZ 1)); (RSP 0 (SB 1 3) (SZ 1)); (RSP 2 (SB 1 3) (SZ 1)); (RSP 3 (SB 1 3) (SZ 1)); (RSP 1 (SB 1 3) (SZ 1))])] [(ZZ 2 1)] [(ZOZ 2 (SZ 1))] true (SZ 1) [])); (RS 2 (IAccept 4 2 4 (SZ 1)) [(OAccepted 4 2 4 2)] (mkO (SB 2 4) (SB 2 4) (SZ 1) 1 [(ZZ 1 0)] [(P1E 1 [(RSP 2 NB NZ); (RSP 1 NB NZ); (RSP 4 NB NZ)])] [(ZZ 1 0)] [(ZOZ 1 (SZ 3))] true (SZ 1) [])); (RS 4 (IAccepted 2) [] (mkO (SB 2 4) (SB 2 4) (SZ 1) 2 [(ZZ 2 0)] [(P1E 2 [(RSP 4 (SB 1 3) (SZ 1)); (RSP 0 (SB 1 3) (SZ 1)); (RSP 2 (SB 1 3) (SZ 1)); (RSP 3 (SB 1 3) (SZ 1)); (RSP 1 (SB 1 3) (SZ 1))])] [(ZZ 2 2)] [(ZOZ 2 (SZ 1))] true (SZ 1) [])); (RS 2 (IRetry 1) [] (mkO (SB 2 4) (SB 2 4) (SZ 1) 1 [(ZZ 1 0)] [(P1E 1 [(RSP 2 NB NZ); (RSP 1 NB NZ); (RSP 4 NB NZ)])] [(ZZ 1 0)] [(ZOZ 1 (SZ 3))] true (SZ 1) [])); (RS 0 (IAccept 4 2 4 (SZ 1)) [(OAccepted 4 2 4 0)] (mkO (SB 2 4) (SB 2 4) (SZ 1) 0 [] [] [] [] true (SZ 1) [])); (RS 4 (IAccepted 2) [] (mkO (SB 2 4) (SB 2 4) (SZ 1) 2 [(ZZ 2 0)] [(P1E 2 [(RSP 4 (SB 1 3) (SZ 1)); (RSP 0 (SB 1 3) (SZ 1)); (RSP 2 (SB 1 3) (SZ 1)); (RSP 3 (SB 1 3) (SZ 1)); (RSP 1 (SB 1 3) (SZ 1))])] [(ZZ 2 3)] [(ZOZ 2 (SZ 1))] true (SZ 1) [])); (RS 4 (IAccepted 2) [] (mkO (SB 2 4) (SB 2 4) (SZ 1) 2 [(ZZ 2 0)] [(P1E 2 [(RSP 4 (SB 1 3) (SZ 1)); (RSP 0 (SB 1 3) (SZ 1)); (RSP 2 (SB 1 3) (SZ 1)); (RSP 3 (SB 1 3) (SZ 1)); (RSP 1 (SB 1 3) (SZ 1))])] [(ZZ 2 4)] [(ZOZ 2 (SZ 1))] true (SZ 1) [])); (RS 4 (IAccepted 2) [] (mkO (SB 2 4) (SB 2 4) (SZ 1) 2 [(ZZ 2 0)] [(P1E 2 [(RSP 4 (SB 1 3) (SZ 1)); (RSP 0 (SB 1 3) (SZ 1)); (RSP 2 (SB 1 3) (SZ 1)); (RSP 3 (SB 1 3) (SZ 1)); (RSP 1 (SB 1 3) (SZ 1))])] [(ZZ 2 5)] [(ZOZ 2 (SZ 1))] true (SZ 1) [])); (RS 1 (IPropose 1) [] (mkO (SB 2 4) (SB 2 4) (SZ 1) 0 [] [] [] [] true (SZ 1) [(ZOZ 0 (SZ 1))]))]).
Definition case_64 : Z * list rec_step := (3, [(RS 1 (IPropose 2) [(OPrepare 0 1 1); (OPrepare 2 1 1)] (mkO (SB 1 1) NB NZ 1 [(ZZ 1 0)] [(P1E 1 [(RSP 1 NB NZ)])] [(ZZ 1 0)] [(ZOZ 1 (SZ 2))] false NZ [])); (RS 2 (IPrepare 1 1 1) [(OPromise 1 1 1 2 NB NZ)] (mkO (SB 1 1) NB NZ 0 [] [] [] [] false NZ [])); (RS 0 (IPrepare 1 1 1) [(OPromise 1 1 1 0 NB NZ)] (mkO (SB 1 1) NB NZ 0 [] [] [] [] false NZ [])); (RS 1 (IPromise 1 0 NB NZ) [(OAccept 0 1 1 (SZ 2)); (OAccept 2 1 1 (SZ 2))] (mkO (SB 1 1) (SB 1 1) (SZ 2) 1 [(ZZ 1 0)] [(P1E 1 [(RSP 1 NB NZ); (RSP 0 NB NZ)])] [(ZZ 1 1)] [(ZOZ 1 (SZ 2))] false NZ [])); (RS 2 (IAccept 1 1 1 (SZ 2)) [(OAccepted 1 1 1 2)] (mkO (SB 1 1) (SB 1 1) (SZ 2) 0 [] [] [] [] false NZ [])); (RS 1 (IAccepted 1) [(ODecided 0 (SZ 2)); (ODecided 2 (SZ 2))] (mkO (SB 1 1) (SB 1 1) (SZ 2) 1 [(ZZ 1 0)] [(P1E 1 [(RSP 1 NB NZ); (RSP 0 NB NZ)])] [(ZZ 1 2)] [(ZOZ 1 (SZ 2))] true (SZ 2) [(ZOZ 0 (SZ 2))])); (RS 0 (IDecided (SZ 2)) [] (mkO (SB 1 1) NB NZ 0 [] [] [] [] true (SZ 2) [])); (RS 2 (IDecided (SZ 2)) [] (mkO (SB 1 1) (SB 1 1) (SZ 2) 0 [] [] [] [] true (SZ 2) [])); (RS 0 (IPropose 3) [] (mkO (SB 1 1) NB NZ 0 [] [] [] [] true (SZ 2) [(ZOZ 0 (SZ 2))])); (RS 1 (IPromise 1 2 NB NZ) [] (mkO (SB 1 1) (SB 1 1) (SZ 2) 1 [(ZZ 1 0)] [(P1E 1 [(RSP 1 NB NZ); (RSP 0 NB NZ); (RSP 2 NB NZ)])] [(ZZ 1 2)] [(ZOZ 1 (SZ 2))] true (SZ 2) [(ZOZ 0 (SZ 2))])); (RS 0 (IAccept 1 1 1 (SZ 2)) [(OAccepted 1 1 1 0)] (mkO (SB 1 1) (SB 1 1) (SZ 2) 0 [] [] [] [] true (SZ 2) [(ZOZ 0 (SZ 2))])); (RS 1 (IAccepted 1) [] (mkO (SB 1 1) (SB 1 1) (SZ 2) 1 [(ZZ 1 0)] [(P1E 1 [(RSP 1 NB NZ); (RSP 0 NB NZ); (RSP 2 NB NZ)])] [(ZZ 1 3)] [(ZOZ 1 (SZ 2))] true (SZ 2) [(ZOZ 0 (SZ 2))]))]).
Definition case_65 : Z * list rec_step := (3, [(RS 0 (IPropose 2) [(OPrepare 1 1 0); (OPrepare 2 1 0)] (mkO (SB 1 0) NB NZ 1 [(ZZ 1 0)] [(P1E 1 [(RSP 0 NB NZ)])] [(ZZ 1 0)] [(ZOZ 1 (SZ 2))] false NZ [])); (RS 2 (IPropose 1) [(OPrepare 0 1 2); (OPrepare 1 1 2)] (mkO (SB 1 2) NB NZ 1 [(ZZ 1 0)] [(P1E 1 [(RSP 2 NB NZ)])] [(ZZ 1 0)] [(ZOZ 1 (SZ 1))] false NZ [])); (RS 2 (IPropose 3) [(OPrepare 0 2 2); (OPrepare 1 2 2)] (mkO (SB 2 2) NB NZ 2 [(ZZ 1 0); (ZZ 2 1)] [(P1E 1 [(RSP 2 NB NZ)]); (P1E 2 [(RSP 2 NB NZ)])] [(ZZ 1 0); (ZZ 2 0)] [(ZOZ 1 (SZ 1)); (ZOZ 2 (SZ 3))] false NZ [])); (RS 2 (IPropose 1) [(OPrepare 0 3 2); (OPrepare 1 3 2)] (mkO (SB 3 2) NB NZ 3 [(ZZ 1 0); (ZZ 2 1); (ZZ 3 2)] [(P1E 1 [(RSP 2 NB NZ)]); (P1E 2 [(RSP 2 NB NZ)]); (P1E 3 [(RSP 2 NB NZ)])] [(ZZ 1 0); (ZZ 2 0); (ZZ 3 0)] [(ZOZ 1 (SZ 1)); (ZOZ 2 (SZ 3)); (ZOZ 3 (SZ 1))] false NZ [])); (RS 0 (IPrepare 2 1 2) [(OPromise 2 1 2 0 NB NZ)] (mkO (SB 1 2) NB NZ 1 [(ZZ 1 0)] [(P1E 1 [(RSP 0 NB NZ)])] [(ZZ 1 0)] [(ZOZ 1 (SZ 2))] false NZ [])); (RS 0 (IPrepare 2 3 2) [(OPromise 2 3 2 0 NB NZ)] (mkO (SB 3 2) NB NZ 1 [(ZZ 1 0)] [(P1E 1 [(RSP 0 NB NZ)])] [(ZZ 1 0)] [(ZOZ 1 (SZ 2))] false NZ [])); (RS 0 (IPrepare 2 2 2) [(ONack 2 2 2 3 2)] (mkO (SB 3 2) NB NZ 1 [(ZZ 1 0)] [(P1E 1 [(RSP 0 NB NZ)])] [(ZZ 1 0)] [(ZOZ 1 (SZ 2))] false NZ [])); (RS 1 (IPrepare 2 2 2) [(OPromise 2 2 2 1 NB NZ)] (mkO (SB 2 2) NB NZ 0 [] [] [] [] false NZ [])); (RS 2 (INack 2 3) [(ORetry 2)] (mkO (SB 3 2) NB NZ 3 [(ZZ 1 0); (ZZ 2 1); (ZZ 3 2)] [(P1E 1 [(RSP 2 NB NZ)]); (P1E 2 [(RSP 2 NB NZ)]); (P1E 3 [(RSP 2 NB NZ)])] [(ZZ 1 0); (ZZ 2 0); (ZZ 3 0)] [(ZOZ 1 (SZ 1)); (ZOZ 2 (SZ 3)); (ZOZ 3 (SZ 1))] false NZ [])); (RS 1 (IPrepare 2 1 2) [(ONack 2 1 2 2 2)] (mkO (SB 2 2) NB NZ 0 [] [] [] [] false NZ [])); (RS 2 (INack 1 2) [(ORetry 1)] (mkO (SB 3 2) NB NZ 3 [(ZZ 1 0); (ZZ 2 1); (ZZ 3 2)] [(P1E 1 [(RSP 2 NB NZ)]); (P1E 2 [(RSP 2 NB NZ)]); (P1E 3 [(RSP 2 NB NZ)])] [(ZZ 1 0); (ZZ 2 0); (ZZ 3 0)] [(ZOZ 1 (SZ 1)); (ZOZ 2 (SZ 3)); (ZOZ 3 (SZ 1))] false NZ [])); (RS 2 (IPrepare 0 1 0) [(ONack 0 1 0 3 2)] (mkO (SB 3 2) NB NZ 3 [(ZZ 1 0); (ZZ 2 1); (ZZ 3 2)] [(P1E 1 [(RSP 2 NB NZ)]); (P1E 2 [(RSP 2 NB NZ)]); (P1E 3 [(RSP 2 NB NZ)])] [(ZZ 1 0); (ZZ 2 0); (ZZ 3 0)] [(ZOZ 1 (SZ 1)); (ZOZ 2 (SZ 3)); (ZOZ 3 (SZ 1))] false NZ [])); (RS 2 (IPromise 2 1 NB NZ) [(OAccept 0 2 2 (SZ 3)); (OAccept 1 2 2 (SZ 3))] (mkO (SB 3 2) NB NZ 3 [(ZZ 1 0); (ZZ 2 1); (ZZ 3 2)] [(P1E 1 [(RSP 2 NB NZ)]); (P1E 2 [(RSP 2 NB NZ); (RSP 1 NB NZ)]); (P1E 3 [(RSP 2 NB NZ)])] [(ZZ 1 0); (ZZ 2 0); (ZZ 3 0)] [(ZOZ 1 (SZ 1)); (ZOZ 2 (SZ 3)); (ZOZ 3 (SZ 1))] false NZ [])); (RS 2 (IPromise 1 0 NB NZ) [(OAccept 0 1 2 (SZ 1)); (OAccept 1 1 2 (SZ 1))] (mkO (SB 3 2) NB NZ 3 [(ZZ 1 0); (ZZ 2 1); (ZZ 3 2)] [(P1E 1 [(RSP 2 NB NZ); (RSP 0 NB NZ)]); (P1E 2 [(RSP 2 NB NZ); (RSP 1 NB NZ)]); (P1E 3 [(RSP 2 NB NZ)])] [(ZZ 1 0); (ZZ 2 0); (ZZ 3 0)] [(ZOZ 1 (SZ 1)); (ZOZ 2 (SZ 3)); (ZOZ 3 (SZ 1))] false NZ [])); (RS 0 (INack 1 3) [(ORetry 1)] (mkO (SB 3 2) NB NZ 3 [(ZZ 1 0)] [(P1E 1 [(RSP 0 NB NZ)])] [(ZZ 1 0)] [(ZOZ 1 (SZ 2))] false NZ [])); (RS 0 (IAccept 2 1 2 (SZ 1)) [(ONack 2 1 2 3 2)] (mkO (SB 3 2) NB NZ 3 [(ZZ 1 0)] [(P1E 1 [(RSP 0 NB NZ)])] [(ZZ 1 0)] [(ZOZ 1 (SZ 2))] false NZ [])); (RS 2 (INack 1 3) [(ORetry 1)] (mkO (SB 3 2) NB NZ 3 [(ZZ 1 0); (ZZ 2 1); (ZZ 3 2)] [(P1E 1 [(RSP 2 NB NZ); (RSP 0 NB NZ)]); (P1E 2 [(RSP 2 NB NZ); (RSP 1 NB NZ)]); (P1E 3 [(RSP 2 NB NZ)])] [(ZZ 1 0); (ZZ 2 0); (ZZ 3 0)] [(ZOZ 1 (SZ 1)); (ZOZ 2 (SZ 3)); (ZOZ 3 (SZ 1))] false NZ [])); (RS 1 (IAccept 2 1 2 (SZ 1)) [(ONack 2 1 2 2 2)] (mkO (SB 2 2) NB NZ 0 [] [] [] [] false NZ [])); (RS 1 (IAccept 2 2 2 (SZ 3)) [(OAccepted 2 2 2 1)] (mkO (SB 2 2) (SB 2 2) (SZ 3) 0 [] [] [] [] false NZ [])); (RS 2 (INack 1 2) [(ORetry 1)] (mkO (SB 3 2) NB NZ 3 [(ZZ 1 0); (ZZ 2 1); (ZZ 3 2)] [(P1E 1 [(RSP 2 NB NZ); (RSP 0 NB NZ)]); (P1E 2 [(RSP 2 NB NZ); (RSP 1 NB NZ)]); (P1E 3 [(RSP 2 NB NZ)])] [(ZZ 1 0); (ZZ 2 0); (ZZ 3 0)] [(ZOZ 1 (SZ 1)); (ZOZ 2 (SZ 3)); (ZOZ 3 (SZ 1))] false NZ [])); (RS 2 (IAccepted 2) [] (mkO (SB 3 2) NB NZ 3 [(ZZ 1 0); (ZZ 2 1); (ZZ 3 2)] [(P1E 1 [(RSP 2 NB NZ); (RSP 0 NB NZ)]); (P1E 2 [(RSP 2 NB NZ); (RSP 1 NB NZ)]); (P1E 3 [(RSP 2 NB NZ)])] [(ZZ 1 0); (ZZ 2 1); (ZZ 3 0)] [(ZOZ 1 (SZ 1)); (ZOZ 2 (SZ 3)); (ZOZ 3 (SZ 1))] false NZ [])); (RS 2 (IRetry 2) [(OPrepare 0 4 2); (OPrepare 1 4 2)] (mkO (SB 4 2) NB NZ 4 [(ZZ 1 0); (ZZ 3 2); (ZZ 4 1)] [(P1E 1 [(RSP 2 NB NZ); (RSP 0 NB NZ)]); (P1E 2 [(RSP 2 NB NZ); (RSP 1 NB NZ)]); (P1E 3 [(RSP 2 NB NZ)]); (P1E 4 [(RSP 2 NB NZ)])] [(ZZ 1 0); (ZZ 2 1); (ZZ 3 0); (ZZ 4 0)] [(ZOZ 1 (SZ 1)); (ZOZ 3 (SZ 1)); (ZOZ 4 (SZ 3))] false NZ [])); (RS 1 (IPrepare 2 4 2) [(OPromise 2 4 2 1 (SB 2 2) (SZ 3))] (mkO (SB 4 2) (SB 2 2) (SZ 3) 0 [] [] [] [] false NZ [])); (RS 2 (IRetry 1) [(OPrepare 0 5 2); (OPrepare 1 5 2)] (mkO (SB 5 2) NB NZ 5 [(ZZ 3 2); (ZZ 4 1); (ZZ 5 0)] [(P1E 1 [(RSP 2 NB NZ); (RSP 0 NB NZ)]); (P1E 2 [(RSP 2 NB NZ); (RSP 1 NB NZ)]); (P1E 3 [(RSP 2 NB NZ)]); (P1E 4 [(RSP 2 NB NZ)]); (P1E 5 [(RSP 2 NB NZ)])] [(ZZ 1 0); (ZZ 2 1); (ZZ 3 0); (ZZ 4 0); (ZZ 5 0)] [(ZOZ 3 (SZ 1)); (ZOZ 4 (SZ 3)); (ZOZ 5 (SZ 1))] false NZ [])); (RS 0 (IPrepare 2 5 2) [(OPromise 2 5 2 0 NB NZ)] (mkO (SB 5 2) NB NZ 3 [(ZZ 1 0)] [(P1E 1 [(RSP 0 NB NZ)])] [(ZZ 1 0)] [(ZOZ 1 (SZ 2))] false NZ [])); (RS 2 (IRetry 1) [] (mkO (SB 5 2) NB NZ 5 [(ZZ 3 2); (ZZ 4 1); (ZZ 5 0)] [(P1E 1 [(RSP 2 NB NZ); (RSP 0 NB NZ)]); (P1E 2 [(RSP 2 NB NZ); (RSP 1 NB NZ)]); (P1E 3 [(RSP 2 NB NZ)]); (P1E 4 [(RSP 2 NB NZ)]); (P1E 5 [(RSP 2 NB NZ)])] [(ZZ 1 0); (ZZ 2 1); (ZZ 3 0); (ZZ 4 0); (ZZ 5 0)] [(ZOZ 3 (SZ 1)); (ZOZ 4 (SZ 3)); (ZOZ 5 (SZ 1))] false NZ [])); (RS 2 (IPromise 5 0 NB NZ) [(OAccept 0 5 2 (SZ 1)); (OAccept 1 5 2 (SZ 1))] (mkO (SB 5 2) (SB 5 2) (SZ 1) 5 [(ZZ 3 2); (ZZ 4 1); (ZZ 5 0)] [(P1E 1 [(RSP 2 NB NZ); (RSP 0 NB NZ)]); (P1E 2 [(RSP 2 NB NZ); (RSP 1 NB NZ)]); (P1E 3 [(RSP 2 NB NZ)]); (P1E 4 [(RSP 2 NB NZ)]); (P1E 5 [(RSP 2 NB NZ); (RSP 0 NB NZ)])] [(ZZ 1 0); (ZZ 2 1); (ZZ 3 0); (ZZ 4 0); (ZZ 5 1)] [(ZOZ 3 (SZ 1)); (ZOZ 4 (SZ 3)); (ZOZ 5 (SZ 1))] false NZ [])); (RS 0 (IAccept 2 5 2 (SZ 1)) [(OAccepted 2 5 2 0)] (mkO (SB 5 2) (SB 5 2) (SZ 1) 3 [(ZZ 1 0)] [(P1E 1 [(RSP 0 NB NZ)])] [(ZZ 1 0)] [(ZOZ 1 (SZ 2))] false NZ [])); (RS 1 (IPrepare 2 5 2) [(OPromise 2 5 2 1 (SB 2 2) (SZ 3))] (mkO (SB 5 2) (SB 2 2) (SZ 3) 0 [] [] [] [] false NZ [])); (RS 2 (IPromise 5 1 (SB 2 2) (SZ 3)) [] (mkO (SB 5 2) (SB 5 2) (SZ 1) 5 [(ZZ 3 2); (ZZ 4 1); (ZZ 5 0)] [(P1E 1 [(RSP 2 NB NZ); (RSP 0 NB NZ)]); (P1E 2 [(RSP 2 NB NZ); (RSP 1 NB NZ)]); (P1E 3 [(RSP 2 NB NZ)]); (P1E 4 [(RSP 2 NB NZ)]); (P1E 5 [(RSP 2 NB NZ); (RSP 0 NB NZ); (RSP 1 (SB 2 2) (SZ 3))])] [(ZZ 1 0); (ZZ 2 1); (ZZ 3 0); (ZZ 4 0); (ZZ 5 1)] [(ZOZ 3 (SZ 1)); (ZOZ 4 (SZ 3)); (ZOZ 5 (SZ 1))] false NZ [])); (RS 2 (IRetry 1) [] (mkO (SB 5 2) (SB 5 2) (SZ 1) 5 [(ZZ 3 2); (ZZ 4 1); (ZZ 5 0)] [(P1E 1 [(RSP 2 NB NZ); (RSP 0 NB NZ)]); (P1E 2 [(RSP 2 NB NZ); (RSP 1 NB NZ)]); (P1E 3 [(RSP 2 NB NZ)]); (P1E 4 [(RSP 2 NB NZ)]); (P1E 5 [(RSP 2 NB NZ); (RSP 0 NB NZ); (RSP 1 (SB 2 2) (SZ 3))])] [(ZZ 1 0); (ZZ 2 1); (ZZ 3 0); (ZZ 4 0); (ZZ 5 1)] [(ZOZ 3 (SZ 1)); (ZOZ 4 (SZ 3)); (ZOZ 5 (SZ 1))] false NZ [])); (RS 0 (IRetry 1) [(OPrepare 1 4 0); (OPrepare 2 4 0)] (mkO (SB 5 2) (SB 5 2) (SZ 1) 4 [(ZZ 4 0)] [(P1E 1 [(RSP 0 NB NZ)]); (P1E 4 [])] [(ZZ 1 0); (ZZ 4 0)] [(ZOZ 4 (SZ 2))] false NZ [])); (RS 2 (IAccepted 5) [(ODecided 0 (SZ 1)); (ODecided 1 (SZ 1))] (mkO (SB 5 2) (SB 5 2) (SZ 1) 5 [(ZZ 3 2); (ZZ 4 1); (ZZ 5 0)] [(P1E 1 [(RSP 2 NB NZ); (RSP 0 NB NZ)]); (P1E 2 [(RSP 2 NB NZ); (RSP 1 NB NZ)]); (P1E 3 [(RSP 2 NB NZ)]); (P1E 4 [(RSP 2 NB NZ)]); (P1E 5 [(RSP 2 NB NZ); (RSP 0 NB NZ); (RSP 1 (SB 2 2) (SZ 3))])] [(ZZ 1 0); (ZZ 2 1); (ZZ 3 0); (ZZ 4 0); (ZZ 5 2)] [(ZOZ 3 (SZ 1)); (ZOZ 4 (SZ 3)); (ZOZ 5 (SZ 1))] true (SZ 1) [(ZOZ 0 (SZ 1))])); (RS 1 (IDecided (SZ 1)) [] (mkO (SB 5 2) (SB 2 2) (SZ 3) 0 [] [] [] [] true (SZ 1) [])); (RS 2 (IPrepare 0 4 0) [(ONack 0 4 0 5 2)] (mkO (SB 5 2) (SB 5 2) (SZ 1) 5 [(ZZ 3 2); (ZZ 4 1); (ZZ 5 0)] [(P1E 1 [(RSP 2 NB NZ); (RSP 0 NB NZ)]); (P1E 2 [(RSP 2 NB NZ); (RSP 1 NB NZ)]); (P1E 3 [(RSP 2 NB NZ)]); (P1E 4 [(RSP 2 NB NZ)]); (P1E 5 [(RSP 2 NB NZ); (RSP 0 NB NZ); (RSP 1 (SB 2 2) (SZ 3))])] [(ZZ 1 0); (ZZ 2 1); (ZZ 3 0); (ZZ 4 0); (ZZ 5 2)] [(ZOZ 3 (SZ 1)); (ZOZ 4 (SZ 3)); (ZOZ 5 (SZ 1))] true (SZ 1) [(ZOZ 0 (SZ 1))])); (RS 0 (IDecided (SZ 1)) [] (mkO (SB 5 2) (SB 5 2) (SZ 1) 4 [(ZZ 4 0)] [(P1E 1 [(RSP 0 NB NZ)]); (P1E 4 [])] [(ZZ 1 0); (ZZ 4 0)] [(ZOZ 4 (SZ 2))] true (SZ 1) [])); (RS 1 (IPrepare 0 4 0) [(ONack 0 4 0 5 2)] (mkO (SB 5 2) (SB 2 2) (SZ 3) 0 [] [] [] [] true (SZ 1) [])); (RS 0 (INack 4 5) [(ORetry 4)] (mkO (SB 5 2) (SB 5 2) (SZ 1) 5 [(ZZ 4 0)] [(P1E 1 [(RSP 0 NB NZ)]); (P1E 4 [])] [(ZZ 1 0); (ZZ 4 0)] [(ZOZ 4 (SZ 2))] true (SZ 1) [])); (RS 1 (IPrepare 0 1 0) [(ONack 0 1 0 5 2)] (mkO (SB 5 2) (SB 2 2) (SZ 3) 0 [] [] [] [] true (SZ 1) [])); (RS 1 (IPrepare 2 3 2) [(ONack 2 3 2 5 2)] (mkO (SB 5 2) (SB 2 2) (SZ 3) 0 [] [] [] [] true (SZ 1) [])); (RS 2 (INack 3 5) [(ORetry 3)] (mkO (SB 5 2) (SB 5 2) (SZ 1) 5 [(ZZ 3 2); (ZZ 4 1); (ZZ 5 0)] [(P1E 1 [(RSP 2 NB NZ); (RSP 0 NB NZ)]); (P1E 2 [(RSP 2 NB NZ); (RSP 1 NB NZ)]); (P1E 3 [(RSP 2 NB NZ)]); (P1E 4 [(RSP 2 NB NZ)]); (P1E 5 [(RSP 2 NB NZ); (RSP 0 NB NZ); (RSP 1 (SB 2 2) (SZ 3))])] [(ZZ 1 0); (ZZ 2 1); (ZZ 3 0); (ZZ 4 0); (ZZ 5 2)] [(ZOZ 3 (SZ 1)); (ZOZ 4 (SZ 3)); (ZOZ 5 (SZ 1))] true (SZ 1) [(ZOZ 0 (SZ 1))])); (RS 2 (IPromise 3 0 NB NZ) [(OAccept 0 3 2 (SZ 1)); (OAccept 1 3 2 (SZ 1))] (mkO (SB 5 2) (SB 5 2) (SZ 1) 5 [(ZZ 3 2); (ZZ 4 1); (ZZ 5 0)] [(P1E 1 [(RSP 2 NB NZ); (RSP 0 NB NZ)]); (P1E 2 [(RSP 2 NB NZ); (RSP 1 NB NZ)]); (P1E 3 [(RSP 2 NB NZ); (RSP 0 NB NZ)]); (P1E 4 [(RSP 2 NB NZ)]); (P1E 5 [(RSP 2 NB NZ); (RSP 0 NB NZ); (RSP 1 (SB 2 2) (SZ 3))])] [(ZZ 1 0); (ZZ 2 1); (ZZ 3 0); (ZZ 4 0); (ZZ 5 2)] [(ZOZ 3 (SZ 1)); (ZOZ 4 (SZ 3)); (ZOZ 5 (SZ 1))] true (SZ 1) [(ZOZ 0 (SZ 1))])); (RS 1 (IAccept 2 3 2 (SZ 1)) [(ONack 2 3 2 5 2)] (mkO (SB 5 2) (SB 2 2) (SZ 3) 0 [] [] [] [] true (SZ 1) [])); (RS 2 (INack 3 5) [(ORetry 3)] (mkO (SB 5 2) (SB 5 2) (SZ 1) 5 [(ZZ 3 2); (ZZ 4 1); (ZZ 5 0)] [(P1E 1 [(RSP 2 NB NZ); (RSP 0 NB NZ)]); (P1E 2 [(RSP 2 NB NZ); (RSP 1 NB NZ)]); (P1E 3 [(RSP 2 NB NZ); (RSP 0 NB NZ)]); (P1E 4 [(RSP 2 NB NZ)]); (P1E 5 [(RSP 2 NB NZ); (RSP 0 NB NZ); (RSP 1 (SB 2 2) (SZ 3))])] [(ZZ 1 0); (ZZ 2 1); (ZZ 3 0); (ZZ 4 0); (ZZ 5 2)] [(ZOZ 3 (SZ 1)); (ZOZ 4 (SZ 3)); (ZOZ 5 (SZ 1))] true (SZ 1) [(ZOZ 0 (SZ 1))])); (RS 0 (IRetry 4) [] (mkO (SB 5 2) (SB 5 2) (SZ 1) 5 [(ZZ 4 0)] [(P1E 1 [(RSP 0 NB NZ)]); (P1E 4 [])] [(ZZ 1 0); (ZZ 4 0)] [(ZOZ 4 (SZ 2))] true (SZ 1) [])); (RS 0 (IAccept 2 3 2 (SZ 1)) [(ONack 2 3 2 5 2)] (mkO (SB 5 2) (SB 5 2) (SZ 1) 5 [(ZZ 4 0)] [(P1E 1 [(RSP 0 NB NZ)]); (P1E 4 [])] [(ZZ 1 0); (ZZ 4 0)] [(ZOZ 4 (SZ 2))] true (SZ 1) [])); (RS 0 (IAccept 2 2 2 (SZ 3)) [(ONack 2 2 2 5 2)] (mkO (SB 5 2) (SB 5 2) (SZ 1) 5 [(ZZ 4 0)] [(P1E 1 [(RSP 0 NB NZ)]); (P1E 4 [])] [(ZZ 1 0); (ZZ 4 0)] [(ZOZ 4 (SZ 2))] true (SZ 1) [])); (RS 2 (INack 2 5) [] (mkO (SB 5 2) (SB 5 2) (SZ 1) 5 [(ZZ 3 2); (ZZ 4 1); (ZZ 5 0)] [(P1E 1 [(RSP 2 NB NZ); (RSP 0 NB NZ)]); (P1E 2 [(RSP 2 NB NZ); (RSP 1 NB NZ)]); (P1E 3 [(RSP 2 NB NZ); (RSP 0 NB NZ)]); (P1E 4 [(RSP 2 NB NZ)]); (P1E 5 [(RSP 2 NB NZ); (RSP 0 NB NZ); (RSP 1 (SB 2 2) (SZ 3))])] [(ZZ 1 0); (ZZ 2 1); (ZZ 3 0); (ZZ 4 0); (ZZ 5 2)] [(ZOZ 3 (SZ 1)); (ZOZ 4 (SZ 3)); (ZOZ 5 (SZ 1))] true (SZ 1) [(ZOZ 0 (SZ 1))])); (RS 0 (IPrepare 2 4 2) [(ONack 2 4 2 5 2)] (mkO (SB 5 2) (SB 5 2) (SZ 1) 5 [(ZZ 4 0)] [(P1E 1 [(RSP 0 NB NZ)]); (P1E 4 [])] [(ZZ 1 0); (ZZ 4 0)] [(ZOZ 4 (SZ 2))] true (SZ 1) [])); (RS 2 (INack 4 5) [(ORetry 4)] (mkO (SB 5 2) (SB 5 2) (SZ 1) 5 [(ZZ 3 2); (ZZ 4 1); (ZZ 5 0)] [(P1E 1 [(RSP 2 NB NZ); (RSP 0 NB NZ)]); (P1E 2 [(RSP 2 NB NZ); (RSP 1 NB NZ)]); (P1E 3 [(RSP 2 NB NZ); (RSP 0 NB NZ)]); (P1E 4 [(RSP 2 NB NZ)]); (P1E 5 [(RSP 2 NB NZ); (RSP 0 NB NZ); (RSP 1 (SB 2 2) (SZ 3))])] [(ZZ 1 0); (ZZ 2 1); (ZZ 3 0); (ZZ 4 0); (ZZ 5 2)] [(ZOZ 3 (SZ 1)); (ZOZ 4 (SZ 3)); (ZOZ 5 (SZ 1))] true (SZ 1) [(ZOZ 0 (SZ 1))])); (RS 2 (IPromise 4 1 (SB 2 2) (SZ 3)) [(OAccept 0 4 2 (SZ 3)); (OAccept 1 4 2 (SZ 3))] (mkO (SB 5 2) (SB 5 2) (SZ 1) 5 [(ZZ 3 2); (ZZ 4 1); (ZZ 5 0)] [(P1E 1 [(RSP 2 NB NZ); (RSP 0 NB NZ)]); (P1E 2 [(RSP 2 NB NZ); (RSP 1 NB NZ)]); (P1E 3 [(RSP 2 NB NZ); (RSP 0 NB NZ)]); (P1E 4 [(RSP 2 NB NZ); (RSP 1 (SB 2 2) (SZ 3))]); (P1E 5 [(RSP 2 NB NZ); (RSP 0 NB NZ); (RSP 1 (SB 2 2) (SZ 3))])] [(ZZ 1 0); (ZZ 2 1); (ZZ 3 0); (ZZ 4 0); (ZZ 5 2)] [(ZOZ 3 (SZ 1)); (ZOZ 4 (SZ 3)); (ZOZ 5 (SZ 1))] true (SZ 1) [(ZOZ 0 (SZ 1))])); (RS 2 (IRetry 3) [] (mkO (SB 5 2) (SB 5 2) (SZ 1) 5 [(ZZ 3 2); (ZZ 4 1); (ZZ 5 0)] [(P1E 1 [(RSP 2 NB NZ); (RSP 0 NB NZ)]); (P1E 2 [(RSP 2 NB NZ); (RSP 1 NB NZ)]); (P1E 3 [(RSP 2 NB NZ); (RSP 0 NB NZ)]); (P1E 4 [(RSP 2 NB NZ); (RSP 1 (SB 2 2) (SZ 3))]); (P1E 5 [(RSP 2 NB NZ); (RSP 0 NB NZ); (RSP 1 (SB 2 2) (SZ 3))])] [(ZZ 1 0); (ZZ 2 1); (ZZ 3 0); (ZZ 4 0); (ZZ 5 2)] [(ZOZ 3 (SZ 1)); (ZOZ 4 (SZ 3)); (ZOZ 5 (SZ 1))] true (SZ 1) [(ZOZ 0 (SZ 1))])); (RS 2 (IRetry 3) [] (mkO (SB 5 2) (SB 5 2) (SZ 1) 5 [(ZZ 3 2); (ZZ 4 1); (ZZ 5 0)] [(P1E 1 [(RSP 2 NB NZ); (RSP 0 NB NZ)]); (P1E 2 [(RSP 2 NB NZ); (RSP 1 NB NZ)]); (P1E 3 [(RSP 2 NB NZ); (RSP 0 NB NZ)]); (P1E 4 [(RSP 2 NB NZ); (RSP 1 (SB 2 2) (SZ 3))]); (P1E 5 [(RSP 2 NB NZ); (RSP 0 NB NZ); (RSP 1 (SB 2 2) (SZ 3))])] [(ZZ 1 0); (ZZ 2 1); (ZZ 3 0); (ZZ 4 0); (ZZ 5 2)] [(ZOZ 3 (SZ 1)); (ZOZ 4 (SZ 3)); (ZOZ 5 (SZ 1))] true (SZ 1) [(ZOZ 0 (SZ 1))])); (RS 1 (IAccept 2 4 2 (SZ 3)) [(ONack 2 4 2 5 2)] (mkO (SB 5 2) (SB 2 2) (SZ 3) 0 [] [] [] [] true (SZ 1) [])); (RS 1 (IAccept 2 5 2 (SZ 1)) [(OAccepted 2 5 2 1)] (mkO (SB 5 2) (SB 5 2) (SZ 1) 0 [] [] [] [] true (SZ 1) [])); (RS 0 (IAccept 2 4 2 (SZ 3)) [(ONack 2 4 2 5 2)] (mkO (SB 5 2) (SB 5 2) (SZ 1) 5 [(ZZ 4 0)] [(P1E 1 [(RSP 0 NB NZ)]); (P1E 4 [])] [(ZZ 1 0); (ZZ 4 0)] [(ZOZ 4 (SZ 2))] true (SZ 1) [])); (RS 2 (INack 4 5) [(ORetry 4)] (mkO (SB 5 2) (SB 5 2) (SZ 1) 5 [(ZZ 3 2); (ZZ 4 1); (ZZ 5 0)] [(P1E 1 [(RSP 2 NB NZ); (RSP 0 NB NZ)]); (P1E 2 [(RSP 2 NB NZ); (RSP 1 NB NZ)]); (P1E 3 [(RSP 2 NB NZ); (RSP 0 NB NZ)]); (P1E 4 [(RSP 2 NB NZ); (RSP 1 (SB 2 2) (SZ 3))]); (P1E 5 [(RSP 2 NB NZ); (RSP 0 NB NZ); (RSP 1 (SB 2 2) (SZ 3))])] [(ZZ 1 0); (ZZ 2 1); (ZZ 3 0); (ZZ 4 0); (ZZ 5 2)] [(ZOZ 3 (SZ 1)); (ZOZ 4 (SZ 3)); (ZOZ 5 (SZ 1))] true (SZ 1) [(ZOZ 0 (SZ 1))])); (RS 2 (IAccepted 5) [] (mkO (SB 5 2) (SB 5 2) (SZ 1) 5 [(ZZ 3 2); (ZZ 4 1); (ZZ 5 0)] [(P1E 1 [(RSP 2 NB NZ); (RSP 0 NB NZ)]); (P1E 2 [(RSP 2 NB NZ); (RSP 1 NB NZ)]); (P1E 3 [(RSP 2 NB NZ); (RSP 0 NB NZ)]); (P1E 4 [(RSP 2 NB NZ); (RSP 1 (SB 2 2) (SZ 3))]); (P1E 5 [(RSP 2 NB NZ); (RSP 0 NB NZ); (RSP 1 (SB 2 2) (SZ 3))])] [(ZZ 1 0); (ZZ 2 1); (ZZ 3 0); (ZZ 4 0); (ZZ 5 3)] [(ZOZ 3 (SZ 1)); (ZOZ 4 (SZ 3)); (ZOZ 5 (SZ 1))] true (SZ 1) [(ZOZ 0 (SZ 1))])); (RS 0 (INack 4 5) [(ORetry 4)] (mkO (SB 5 2) (SB 5 2) (SZ 1) 5 [(ZZ 4 0)] [(P1E 1 [(RSP 0 NB NZ)]); (P1E 4 [])] [(ZZ 1 0); (ZZ 4 0)] [(ZOZ 4 (SZ 2))] true (SZ 1) [])); (RS 2 (IRetry 4) [] (mkO (SB 5 2) (SB 5 2) (SZ 1) 5 [(ZZ 3 2); (ZZ 4 1); (ZZ 5 0)] [(P1E 1 [(RSP 2 NB NZ); (RSP 0 NB NZ)]); (P1E 2 [(RSP 2 NB NZ); (RSP 1 NB NZ)]); (P1E 3 [(RSP 2 NB NZ); (RSP 0 NB NZ)]); (P1E 4 [(RSP 2 NB NZ); (RSP 1 (SB 2 2) (SZ 3))]); (P1E 5 [(RSP 2 NB NZ); (RSP 0 NB NZ); (RSP 1 (SB 2 2) (SZ 3))])] [(ZZ 1 0); (ZZ 2 1); (ZZ 3 0); (ZZ 4 0); (ZZ 5 3)] [(ZOZ 3 (SZ 1)); (ZOZ 4 (SZ 3)); (ZOZ 5 (SZ 1))] true (SZ 1) [(ZOZ 0 (SZ 1))])); (RS 0 (IRetry 4) [] (mkO (SB 5 2) (SB 5 2) (SZ 1) 5 [(ZZ 4 0)] [(P1E 1 [(RSP 0 NB NZ)]); (P1E 4 [])] [(ZZ 1 0); (ZZ 4 0)] [(ZOZ 4 (SZ 2))] true (SZ 1) [])); (RS 2 (IRetry 4) [] (mkO (SB 5 2) (SB 5 2) (SZ 1) 5 [(ZZ 3 2); (ZZ 4 1); (ZZ 5 0)] [(P1E 1 [(RSP 2 NB NZ); (RSP 0 NB NZ)]); (P1E 2 [(RSP 2 NB NZ); (RSP 1 NB NZ)]); (P1E 3 [(RSP 2 NB NZ); (RSP 0 NB NZ)]); (P1E 4 [(RSP 2 NB NZ); (RSP 1 (SB 2 2) (SZ 3))]); (P1E 5 [(RSP 2 NB NZ); (RSP 0 NB NZ); (RSP 1 (SB 2 2) (SZ 3))])] [(ZZ 1 0); (ZZ 2 1); (ZZ 3 0); (ZZ 4 0); (ZZ 5 3)] [(ZOZ 3 (SZ 1)); (ZOZ 4 (SZ 3)); (ZOZ 5 (SZ 1))] true (SZ 1) [(ZOZ 0 (SZ 1))])); (RS 0 (INack 1 5) [] (mkO (SB 5 2) (SB 5 2) (SZ 1) 5 [(ZZ 4 0)] [(P1E 1 [(RSP 0 NB NZ)]); (P1E 4 [])] [(ZZ 1 0); (ZZ 4 0)] [(ZOZ 4 (SZ 2))] true (SZ 1) [])); (RS 2 (INack 3 5) [(ORetry 3)] (mkO (SB 5 2) (SB 5 2) (SZ 1) 5 [(ZZ 3 2); (ZZ 4 1); (ZZ 5 0)] [(P1E 1 [(RSP 2 NB NZ); (RSP 0 NB NZ)]); (P1E 2 [(RSP 2 NB NZ); (RSP 1 NB NZ)]); (P1E 3 [(RSP 2 NB NZ); (RSP 0 NB NZ)]); (P1E 4 [(RSP 2 NB NZ); (RSP 1 (SB 2 2) (SZ 3))]); (P1E 5 [(RSP 2 NB NZ); (RSP 0 NB NZ); (RSP 1 (SB 2 2) (SZ 3))])] [(ZZ 1 0); (ZZ 2 1); (ZZ 3 0); (ZZ 4 0); (ZZ 5 3)] [(ZOZ 3 (SZ 1)); (ZOZ 4 (SZ 3)); (ZOZ 5 (SZ 1))] true (SZ 1) [(ZOZ 0 (SZ 1))])); (RS 2 (INack 4 5) [(ORetry 4)] (mkO (SB 5 2) (SB 5 2) (SZ 1) 5 [(ZZ 3 2); (ZZ 4 1); (ZZ 5 0)] [(P1E 1 [(RSP 2 NB NZ); (RSP 0 NB NZ)]); (P1E 2 [(RSP 2 NB NZ); (RSP 1 NB NZ)]); (P1E 3 [(RSP 2 NB NZ); (RSP 0 NB NZ)]); (P1E 4 [(RSP 2 NB NZ); (RSP 1 (SB 2 2) (SZ 3))]); (P1E 5 [(RSP 2 NB NZ); (RSP 0 NB NZ); (RSP 1 (SB 2 2) (SZ 3))])] [(ZZ 1 0); (ZZ 2 1); (ZZ 3 0); (ZZ 4 0); (ZZ 5 3)] [(ZOZ 3 (SZ 1)); (ZOZ 4 (SZ 3)); (ZOZ 5 (SZ 1))] true (SZ 1) [(ZOZ 0 (SZ 1))])); (RS 2 (IRetry 3) [] (mkO (SB 5 2) (SB 5 2) (SZ 1) 5 [(ZZ 3 2); (ZZ 4 1); (ZZ 5 0)] [(P1E 1 [(RSP 2 NB NZ); (RSP 0 NB NZ)]); (P1E 2 [(RSP 2 NB NZ); (RSP 1 NB NZ)]); (P1E 3 [(RSP 2 NB NZ); (RSP 0 NB NZ)]); (P1E 4 [(RSP 2 NB NZ); (RSP 1 (SB 2 2) (SZ 3))]); (P1E 5 [(RSP 2 NB NZ); (RSP 0 NB NZ); (RSP 1 (SB 2 2) (SZ 3))])] [(ZZ 1 0); (ZZ 2 1); (ZZ 3 0); (ZZ 4 0); (ZZ 5 3)] [(ZOZ 3 (SZ 1)); (ZOZ 4 (SZ 3)); (ZOZ 5 (SZ 1))] true (SZ 1) [(ZOZ 0 (SZ 1))])); (RS 2 (IRetry 4) [] (mkO (SB 5 2) (SB 5 2) (SZ 1) 5 [(ZZ 3 2); (ZZ 4 1); (ZZ 5 0)] [(P1E 1 [(RSP 2 NB NZ); (RSP 0 NB NZ)]); (P1E 2 [(RSP 2 NB NZ); (RSP 1 NB NZ)]); (P1E 3 [(RSP 2 NB NZ); (RSP 0 NB NZ)]); (P1E 4 [(RSP 2 NB NZ); (RSP 1 (SB 2 2) (SZ 3))]); (P1E 5 [(RSP 2 NB NZ); (RSP 0 NB NZ); (RSP 1 (SB 2 2) (SZ 3))])] [(ZZ 1 0); (ZZ 2 1); (ZZ 3 0); (ZZ 4 0); (ZZ 5 3)] [(ZOZ 3 (SZ 1)); (ZOZ 4 (SZ 3)); (ZOZ 5 (SZ 1))] true (SZ 1) [(ZOZ 0 (SZ 1))]))]).
Definition case_66 : Z * list rec_step := (4, [(RS 0 (IPropose 1) [(OPrepare 1 1 0); (OPrepare 2 1 0); (OPrepare 3 1 0)] (mkO (SB 1 0) NB NZ 1 [(ZZ 1 0)] [(P1E 1 [(RSP 0 NB NZ)])] [(ZZ 1 0)] [(ZOZ 1 (SZ 1))] false NZ [])); (RS 1 (IPropose 2) [(OPrepare 0 1 1); (OPrepare 2 1 1); (OPrepare 3 1 1)] (mkO (SB 1 1) NB NZ 1 [(ZZ 1 0)] [(P1E 1 [(RSP 1 NB NZ)])] [(ZZ 1 0)] [(ZOZ 1 (SZ 2))] false NZ [])); (RS 3 (IPropose 2) [(OPrepare 0 1 3); (OPrepare 1 1 3); (OPrepare 2 1 3)] (mkO (SB 1 3) NB NZ 1 [(ZZ 1 0)] [(P1E 1 [(RSP 3 NB NZ)])] [(ZZ 1 0)] [(ZOZ 1 (SZ 2))] false NZ [])); (RS 0 (IPrepare 3 1 3) [(OPromise 3 1 3 0 NB NZ)] (mkO (SB 1 3) NB NZ 1 [(ZZ 1 0)] [(P1E 1 [(RSP 0 NB NZ)])] [(ZZ 1 0)] [(ZOZ 1 (SZ 1))] false NZ [])); (RS 2 (IPrepare 0 1 0) [(OPromise 0 1 0 2 NB NZ)] (mkO (SB 1 0) NB NZ 0 [] [] [] [] false NZ [])); (RS 2 (IPrepare 1 1 1) [(OPromise 1 1 1 2 NB NZ)] (mkO (SB 1 1) NB NZ 0 [] [] [] [] false NZ [])); (RS 0 (IPromise 1 2 NB NZ) [] (mkO (SB 1 3) NB NZ 1 [(ZZ 1 0)] [(P1E 1 [(RSP 0 NB NZ); (RSP 2 NB NZ)])] [(ZZ 1 0)] [(ZOZ 1 (SZ 1))] false NZ [])); (RS 1 (IPrepare 3 1 3) [(OPromise 3 1 3 1 NB NZ)] (mkO (SB 1 3) NB NZ 1 [(ZZ 1 0)] [(P1E 1 [(RSP 1 NB NZ)])] [(ZZ 1 0)] [(ZOZ 1 (SZ 2))] false NZ [])); (RS 2 (IPrepare 3 1 3) [(OPromise 3 1 3 2 NB NZ)] (mkO (SB 1 3) NB NZ 0 [] [] [] [] false NZ [])); (RS 3 (IPromise 1 1 NB NZ) [] (mkO (SB 1 3) NB NZ 1 [(ZZ 1 0)] [(P1E 1 [(RSP 3 NB NZ); (RSP 1 NB NZ)])] [(ZZ 1 0)] [(ZOZ 1 (SZ 2))] false NZ [])); (RS 3 (IPromise 1 2 NB NZ) [(OAccept 0 1 3 (SZ 2)); (OAccept 1 1 3 (SZ 2)); (OAccept 2 1 3 (SZ 2))] (mkO (SB 1 3) (SB 1 3) (SZ 2) 1 [(ZZ 1 0)] [(P1E 1 [(RSP 3 NB NZ); (RSP 1 NB NZ); (RSP 2 NB NZ)])] [(ZZ 1 1)] [(ZOZ 1 (SZ 2))] false NZ [])); (RS 0 (IAccept 3 1 3 (SZ 2)) [(OAccepted 3 1 3 0)] (mkO (SB 1 3) (SB 1 3) (SZ 2) 1 [(ZZ 1 0)] [(P1E 1 [(RSP 0 NB NZ); (RSP 2 NB NZ)])] [(ZZ 1 0)] [(ZOZ 1 (SZ 1))] false NZ [])); (RS 1 (IAccept 3 1 3 (SZ 2)) [(OAccepted 3 1 3 1)] (mkO (SB 1 3) (SB 1 3) (SZ 2) 1 [(ZZ 1 0)] [(P1E 1 [(RSP 1 NB NZ)])] [(ZZ 1 0)] [(ZOZ 1 (SZ 2))] false NZ [])); (RS 2 (IAccept 3 1 3 (SZ 2)) [(OAccepted 3 1 3 2)] (mkO (SB 1 3) (SB 1 3) (SZ 2) 0 [] [] [] [] false NZ [])); (RS 3 (IAccepted 1) [] (mkO (SB 1 3) (SB 1 3) (SZ 2) 1 [(ZZ 1 0)] [(P1E 1 [(RSP 3 NB NZ); (RSP 1 NB NZ); (RSP 2 NB NZ)])] [(ZZ 1 2)] [(ZOZ 1 (SZ 2))] false NZ [])); (RS 2 (IPropose 1) [(OPrepare 0 2 2); (OPrepare 1 2 2); (OPrepare 3 2 2)] (mkO (SB 2 2) (SB 1 3) (SZ 2) 2 [(ZZ 2 0)] [(P1E 2 [(RSP 2 (SB 1 3) (SZ 2))])] [(ZZ 2 0)] [(ZOZ 2 (SZ 1))] false NZ [])); (RS 0 (IPrepare 2 2 2) [(OPromise 2 2 2 0 (SB 1 3) (SZ 2))] (mkO (SB 2 2) (SB 1 3) (SZ 2) 1 [(ZZ 1 0)] [(P1E 1 [(RSP 0 NB NZ); (RSP 2 NB NZ)])] [(ZZ 1 0)] [(ZOZ 1 (SZ 1))] false NZ [])); (RS 3 (IPrepare 2 2 2) [(OPromise 2 2 2 3 (SB 1 3) (SZ 2))] (mkO (SB 2 2) (SB 1 3) (SZ 2) 1 [(ZZ 1 0)] [(P1E 1 [(RSP 3 NB NZ); (RSP 1 NB NZ); (RSP 2 NB NZ)])] [(ZZ 1 2)] [(ZOZ 1 (SZ 2))] false NZ [])); (RS 2 (IPromise 2 0 (SB 1 3) (SZ 2)) [] (mkO (SB 2 2) (SB 1 3) (SZ 2) 2 [(ZZ 2 0)] [(P1E 2 [(RSP 2 (SB 1 3) (SZ 2)); (RSP 0 (SB 1 3) (SZ 2))])] [(ZZ 2 0)] [(ZOZ 2 (SZ 1))] false NZ [])); (RS 1 (IPromise 1 2 NB NZ) [] (mkO (SB 1 3) (SB 1 3) (SZ 2) 1 [(ZZ 1 0)] [(P1E 1 [(RSP 1 NB NZ); (RSP 2 NB NZ)])] [(ZZ 1 0)] [(ZOZ 1 (SZ 2))] false NZ [])); (RS 2 (IPromise 2 3 (SB 1 3) (SZ 2)) [(OAccept 0 2 2 (SZ 2)); (OAccept 1 2 2 (SZ 2)); (OAccept 3 2 2 (SZ 2))] (mkO (SB 2 2) (SB 2 2) (SZ 2) 2 [(ZZ 2 0)] [(P1E 2 [(RSP 2 (SB 1 3) (SZ 2)); (RSP 0 (SB 1 3) (SZ 2)); (RSP 3 (SB 1 3) (SZ 2))])] [(ZZ 2 1)] [(ZOZ 2 (SZ 2))] false NZ [])); (RS 3 (IAccept 2 2 2 (SZ 2)) [(OAccepted 2 2 2 3)] (mkO (SB 2 2) (SB 2 2) (SZ 2) 1 [(ZZ 1 0)] [(P1E 1 [(RSP 3 NB NZ); (RSP 1 NB NZ); (RSP 2 NB NZ)])] [(ZZ 1 2)] [(ZOZ 1 (SZ 2))] false NZ [])); (RS 2 (IAccepted 2) [] (mkO (SB 2 2) (SB 2 2) (SZ 2) 2 [(ZZ 2 0)] [(P1E 2 [(RSP 2 (SB 1 3) (SZ 2)); (RSP 0 (SB 1 3) (SZ 2)); (RSP 3 (SB 1 3) (SZ 2))])] [(ZZ 2 2)] [(ZOZ 2 (SZ 2))] false NZ [])); (RS 3 (IAccepted 1) [(ODecided 0 (SZ 2)); (ODecided 1 (SZ 2)); (ODecided 2 (SZ 2))] (mkO (SB 2 2) (SB 2 2) (SZ 2) 1 [(ZZ 1 0)] [(P1E 1 [(RSP 3 NB NZ); (RSP 1 NB NZ); (RSP 2 NB NZ)])] [(ZZ 1 3)] [(ZOZ 1 (SZ 2))] true (SZ 2) [(ZOZ 0 (SZ 2))])); (RS 3 (IAccepted 1) [] (mkO (SB 2 2) (SB 2 2) (SZ 2) 1 [(ZZ 1 0)] [(P1E 1 [(RSP 3 NB NZ); (RSP 1 NB NZ); (RSP 2 NB NZ)])] [(ZZ 1 4)] [(ZOZ 1 (SZ 2))] true (SZ 2) [(ZOZ 0 (SZ 2))])); (RS 1 (IDecided (SZ 2)) [] (mkO (SB 1 3) (SB 1 3) (SZ 2) 1 [(ZZ 1 0)] [(P1E 1 [(RSP 1 NB NZ); (RSP 2 NB NZ)])] [(ZZ 1 0)] [(ZOZ 1 (SZ 2))] true (SZ 2) [])); (RS 1 (IAccept 2 2 2 (SZ 2)) [(OAccepted 2 2 2 1)] (mkO (SB 2 2) (SB 2 2) (SZ 2) 1 [(ZZ 1 0)] [(P1E 1 [(RSP 1 NB NZ); (RSP 2 NB NZ)])] [(ZZ 1 0)] [(ZOZ 1 (SZ 2))] true (SZ 2) [])); (RS 2 (IAccepted 2) [(ODecided 0 (SZ 2)); (ODecided 1 (SZ 2)); (ODecided 3 (SZ 2))] (mkO (SB 2 2) (SB 2 2) (SZ 2) 2 [(ZZ 2 0)] [(P1E 2 [(RSP 2 (SB 1 3) (SZ 2)); (RSP 0 (SB 1 3) (SZ 2)); (RSP 3 (SB 1 3) (SZ 2))])] [(ZZ 2 3)] [(ZOZ 2 (SZ 2))] true (SZ 2) [(ZOZ 0 (SZ 2))])); (RS 3 (IDecided (SZ 2)) [] (mkO (SB 2 2) (SB 2 2) (SZ 2) 1 [(ZZ 1 0)] [(P1E 1 [(RSP 3 NB NZ); (RSP 1 NB NZ); (RSP 2 NB NZ)])] [(ZZ 1 4)] [(ZOZ 1 (SZ 2))] true (SZ 2) [(ZOZ 0 (SZ 2))])); (RS 2 (IDecided (SZ 2)) [] (mkO (SB 2 2) (SB 2 2) (SZ 2) 2 [(ZZ 2 0)] [(P1E 2 [(RSP 2 (SB 1 3) (SZ 2)); (RSP 0 (SB 1 3) (SZ 2)); (RSP 3 (SB 1 3) (SZ 2))])] [(ZZ 2 3)] [(ZOZ 2 (SZ 2))] true (SZ 2) [(ZOZ 0 (SZ 2))])); (RS 0 (IDecided (SZ 2)) [] (mkO (SB 2 2) (SB 1 3) (SZ 2) 1 [(ZZ 1 0)] [(P1E 1 [(RSP 0 NB NZ); (RSP 2 NB NZ)])] [(ZZ 1 0)] [(ZOZ 1 (SZ 1))] true (SZ 2) [])); (RS 1 (IDecided (SZ 2)) [] (mkO (SB 2 2) (SB 2 2) (SZ 2) 1 [(ZZ 1 0)] [(P1E 1 [(RSP 1 NB NZ); (RSP 2 NB NZ)])] [(ZZ 1 0)] [(ZOZ 1 (SZ 2))] true (SZ 2) [])); (RS 0 (IAccept 2 2 2 (SZ 2)) [(OAccepted 2 2 2 0)] (mkO (SB 2 2) (SB 2 2) (SZ 2) 1 [(ZZ 1 0)] [(P1E 1 [(RSP 0 NB NZ); (RSP 2 NB NZ)])] [(ZZ 1 0)] [(ZOZ 1 (SZ 1))] true (SZ 2) [])); (RS 2 (IAccepted 2) [] (mkO (SB 2 2) (SB 2 2) (SZ 2) 2 [(ZZ 2 0)] [(P1E 2 [(RSP 2 (SB 1 3) (SZ 2)); (RSP 0 (SB 1 3) (SZ 2)); (RSP 3 (SB 1 3) (SZ 2))])] [(ZZ 2 4)] [(ZOZ 2 (SZ 2))] true (SZ 2) [(ZOZ 0 (SZ 2))])); (RS 1 (IPrepare 0 1 0) [(ONack 0 1 0 2 2)] (mkO (SB 2 2) (SB 2 2) (SZ 2) 1 [(ZZ 1 0)] [(P1E 1 [(RSP 1 NB NZ); (RSP 2 NB NZ)])] [(ZZ 1 0)] [(ZOZ 1 (SZ 2))] true (SZ 2) [])); (RS 3 (IPrepare 0 1 0) [(ONack 0 1 0 2 2)] (mkO (SB 2 2) (SB 2 2) (SZ 2) 1 [(ZZ 1 0)] [(P1E 1 [(RSP 3 NB NZ); (RSP 1 NB NZ); (RSP 2 NB NZ)])] [(ZZ 1 4)] [(ZOZ 1 (SZ 2))] true (SZ 2) [(ZOZ 0 (SZ 2))])); (RS 0 (IPrepare 1 1 1) [(ONack 1 1 1 2 2)] (mkO (SB 2 2) (SB 2 2) (SZ 2) 1 [(ZZ 1 0)] [(P1E 1 [(RSP 0 NB NZ); (RSP 2 NB NZ)])] [(ZZ 1 0)] [(ZOZ 1 (SZ 1))] true (SZ 2) [])); (RS 3 (IPrepare 1 1 1) [(ONack 1 1 1 2 2)] (mkO (SB 2 2) (SB 2 2) (SZ 2) 1 [(ZZ 1 0)] [(P1E 1 [(RSP 3 NB NZ); (RSP 1 NB NZ); (RSP 2 NB NZ)])] [(ZZ 1 4)] [(ZOZ 1 (SZ 2))] true (SZ 2) [(ZOZ 0 (SZ 2))])); (RS 0 (INack 1 2) [(ORetry 1)] (mkO (SB 2 2) (SB 2 2) (SZ 2) 2 [(ZZ 1 0)] [(P1E 1 [(RSP 0 NB NZ); (RSP 2 NB NZ)])] [(ZZ 1 0)] [(ZOZ 1 (SZ 1))] true (SZ 2) [])); (RS 0 (INack 1 2) [(ORetry 1)] (mkO (SB 2 2) (SB 2 2) (SZ 2) 2 [(ZZ 1 0)] [(P1E 1 [(RSP 0 NB NZ); (RSP 2 NB NZ)])] [(ZZ 1 0)] [(ZOZ 1 (SZ 1))] true (SZ 2) [])); (RS 3 (IPromise 1 0 NB NZ) [] (mkO (SB 2 2) (SB 2 2) (SZ 2) 1 [(ZZ 1 0)] [(P1E 1 [(RSP 3 NB NZ); (RSP 1 NB NZ); (RSP 2 NB NZ); (RSP 0 NB NZ)])] [(ZZ 1 4)] [(ZOZ 1 (SZ 2))] true (SZ 2) [(ZOZ 0 (SZ 2))])); (RS 1 (INack 1 2) [(ORetry 1)] (mkO (SB 2 2) (SB 2 2) (SZ 2) 2 [(ZZ 1 0)] [(P1E 1 [(RSP 1 NB NZ); (RSP 2 NB NZ)])] [(ZZ 1 0)] [(ZOZ 1 (SZ 2))] true (SZ 2) [])); (RS 1 (INack 1 2) [(ORetry 1)] (mkO (SB 2 2) (SB 2 2) (SZ 2) 2 [(ZZ 1 0)] [(P1E 1 [(RSP 1 NB NZ); (RSP 2 NB NZ)])] [(ZZ 1 0)] [(ZOZ 1 (SZ 2))] true (SZ 2) [])); (RS 0 (IRetry 1) [] (mkO (SB 2 2) (SB 2 2) (SZ 2) 2 [(ZZ 1 0)] [(P1E 1 [(RSP 0 NB NZ); (RSP 2 NB NZ)])] [(ZZ 1 0)] [(ZOZ 1 (SZ 1))] true (SZ 2) [])); (RS 1 (IRetry 1) [] (mkO (SB 2 2) (SB 2 2) (SZ 2) 2 [(ZZ 1 0)] [(P1E 1 [(RSP 1 NB NZ); (RSP 2 NB NZ)])] [(ZZ 1 0)] [(ZOZ 1 (SZ 2))] true (SZ 2) [])); (RS 0 (IRetry 1) [] (mkO (SB 2 2) (SB 2 2) (SZ 2) 2 [(ZZ 1 0)] [(P1E 1 [(RSP 0 NB NZ); (RSP 2 NB NZ)])] [(ZZ 1 0)] [(ZOZ 1 (SZ 1))] true (SZ 2) [])); (RS 1 (IRetry 1) [] (mkO (SB 2 2) (SB 2 2) (SZ 2) 2 [(ZZ 1 0)] [(P1E 1 [(RSP 1 NB NZ); (RSP 2 NB NZ)])] [(ZZ 1 0)] [(ZOZ 1 (SZ 2))] true (SZ 2) [])); (RS 1 (IPrepare 2 2 2) [(OPromise 2 2 2 1 (SB 2 2) (SZ 2))] (mkO (SB 2 2) (SB 2 2) (SZ 2) 2 [(ZZ 1 0)] [(P1E 1 [(RSP 1 NB NZ); (RSP 2 NB NZ)])] [(ZZ 1 0)] [(ZOZ 1 (SZ 2))] true (SZ 2) [])); (RS 0 (IDecided (SZ 2)) [] (mkO (SB 2 2) (SB 2 2) (SZ 2) 2 [(ZZ 1 0)] [(P1E 1 [(RSP 0 NB NZ); (RSP 2 NB NZ)])] [(ZZ 1 0)] [(ZOZ 1 (SZ 1))] true (SZ 2) [])); (RS 2 (IPromise 2 1 (SB 2 2) (SZ 2)) [] (mkO (SB 2 2) (SB 2 2) (SZ 2) 2 [(ZZ 2 0)] [(P1E 2 [(RSP 2 (SB 1 3) (SZ 2)); (RSP 0 (SB 1 3) (SZ 2)); (RSP 3 (SB 1 3) (SZ 2)); (RSP 1 (SB 2 2) (SZ 2))])] [(ZZ 2 4)] [(ZOZ 2 (SZ 2))] true (SZ 2) [(ZOZ 0 (SZ 2))]))]).
Definition case_67 : Z * list rec_step := (3, [(RS 2 (IPropose 1) [(OPrepare 0 1 2); (OPrepare 1 1 2)] (mkO (SB 1 2) NB NZ 1 [(ZZ 1 0)] [(P1E 1 [(RSP 2 NB NZ)])] [(ZZ 1 0)] [(ZOZ 1 (SZ 1))] false NZ [])); (RS 1 (IPrepare 2 1 2) [(OPromise 2 1 2 1 NB NZ)] (mkO (SB 1 2) NB NZ 0 [] [] [] [] false NZ [])); (RS 0 (IPrepare 2 1 2) [(OPromise 2 1 2 0 NB NZ)] (mkO (SB 1 2) NB NZ 0 [] [] [] [] false NZ [])); (RS 2 (IPromise 1 0 NB NZ) [(OAccept 0 1 2 (SZ 1)); (OAccept 1 1 2 (SZ 1))] (mkO (SB 1 2) (SB 1 2) (SZ 1) 1 [(ZZ 1 0)] [(P1E 1 [(RSP 2 NB NZ); (RSP 0 NB NZ)])] [(ZZ 1 1)] [(ZOZ 1 (SZ 1))] false NZ [])); (RS 2 (IPromise 1 1 NB NZ) [] (mkO (SB 1 2) (SB 1 2) (SZ 1) 1 [(ZZ 1 0)] [(P1E 1 [(RSP 2 NB NZ); (RSP 0 NB NZ); (RSP 1 NB NZ)])] [(ZZ 1 1)] [(ZOZ 1 (SZ 1))] false NZ [])); (RS 0 (IAccept 2 1 2 (SZ 1)) [(OAccepted 2 1 2 0)] (mkO (SB 1 2) (SB 1 2) (SZ 1) 0 [] [] [] [] false NZ [])); (RS 1 (IAccept 2 1 2 (SZ 1)) [(OAccepted 2 1 2 1)] (mkO (SB 1 2) (SB 1 2) (SZ 1) 0 [] [] [] [] false NZ [])); (RS 2 (IAccepted 1) [(ODecided 0 (SZ 1)); (ODecided 1 (SZ 1))] (mkO (SB 1 2) (SB 1 2) (SZ 1) 1 [(ZZ 1 0)] [(P1E 1 [(RSP 2 NB NZ); (RSP 0 NB NZ); (RSP 1 NB NZ)])] [(ZZ 1 2)] [(ZOZ 1 (SZ 1))] true (SZ 1) [(ZOZ 0 (SZ 1))])); (RS 0 (IDecided (SZ 1)) [] (mkO (SB 1 2) (SB 1 2) (SZ 1) 0 [] [] [] [] true (SZ 1) [])); (RS 1 (IDecided (SZ 1)) [] (mkO (SB 1 2) (SB 1 2) (SZ 1) 0 [] [] [] [] true (SZ 1) [])); (RS 1 (IPropose 2) [] (mkO (SB 1 2) (SB 1 2) (SZ 1) 0 [] [] [] [] true (SZ 1) [(ZOZ 0 (SZ 1))])); (RS 0 (IPropose 3) [] (mkO (SB 1 2) (SB 1 2) (SZ 1) 0 [] [] [] [] true (SZ 1) [(ZOZ 0 (SZ 1))]))]).
Definition case_68 : Z * list rec_step := (3, [(RS 0 (IPropose 2) [(OPrepare 1 1 0); (OPrepare 2 1 0)] (mkO (SB 1 0) NB NZ 1 [(ZZ 1 0)] [(P1E 1 [(RSP 0 NB NZ)])] [(ZZ 1 0)] [(ZOZ 1 (SZ 2))] false NZ [])); (RS 1 (IPropose 3) [(OPrepare 0 1 1); (OPrepare 2 1 1)] (mkO (SB 1 1) NB NZ 1 [(ZZ 1 0)] [(P1E 1 [(RSP 1 NB NZ)])] [(ZZ 1 0)] [(ZOZ 1 (SZ 3))] false NZ [])); (RS 0 (IPropose 1) [(OPrepare 1 2 0); (OPrepare 2 2 0)] (mkO (SB 2 0) NB NZ 2 [(ZZ 1 0); (ZZ 2 1)] [(P1E 1 [(RSP 0 NB NZ)]); (P1E 2 [(RSP 0 NB NZ)])] [(ZZ 1 0); (ZZ 2 0)] [(ZOZ 1 (SZ 2)); (ZOZ 2 (SZ 1))] false NZ [])); (RS 2 (IPrepare 0 1 0) [(OPromise 0 1 0 2 NB NZ)] (mkO (SB 1 0) NB NZ 0 [] [] [] [] false NZ [])); (RS 1 (IPrepare 0 2 0) [(OPromise 0 2 0 1 NB NZ)] (mkO (SB 2 0) NB NZ 1 [(ZZ 1 0)] [(P1E 1 [(RSP 1 NB NZ)])] [(ZZ 1 0)] [(ZOZ 1 (SZ 3))] false NZ [])); (RS 2 (IPrepare 1 1 1) [(OPromise 1 1 1 2 NB NZ)] (mkO (SB 1 1) NB NZ 0 [] [] [] [] false NZ [])); (RS 0 (IPromise 1 2 NB NZ) [(OAccept 1 1 0 (SZ 2)); (OAccept 2 1 0 (SZ 2))] (mkO (SB 2 0) NB NZ 2 [(ZZ 1 0); (ZZ 2 1)] [(P1E 1 [(RSP 0 NB NZ); (RSP 2 NB NZ)]); (P1E 2 [(RSP 0 NB NZ)])] [(ZZ 1 0); (ZZ 2 0)] [(ZOZ 1 (SZ 2)); (ZOZ 2 (SZ 1))] false NZ [])); (RS 1 (IAccept 0 1 0 (SZ 2)) [(ONack 0 1 0 2 0)] (mkO (SB 2 0) NB NZ 1 [(ZZ 1 0)] [(P1E 1 [(RSP 1 NB NZ)])] [(ZZ 1 0)] [(ZOZ 1 (SZ 3))] false NZ [])); (RS 0 (INack 1 2) [(ORetry 1)] (mkO (SB 2 0) NB NZ 2 [(ZZ 1 0); (ZZ 2 1)] [(P1E 1 [(RSP 0 NB NZ); (RSP 2 NB NZ)]); (P1E 2 [(RSP 0 NB NZ)])] [(ZZ 1 0); (ZZ 2 0)] [(ZOZ 1 (SZ 2)); (ZOZ 2 (SZ 1))] false NZ [])); (RS 1 (IPropose 1) [(OPrepare 0 3 1); (OPrepare 2 3 1)] (mkO (SB 3 1) NB NZ 3 [(ZZ 1 0); (ZZ 3 1)] [(P1E 1 [(RSP 1 NB NZ)]); (P1E 3 [(RSP 1 NB NZ)])] [(ZZ 1 0); (ZZ 3 0)] [(ZOZ 1 (SZ 3)); (ZOZ 3 (SZ 1))] false NZ [])); (RS 0 (IPrepare 1 3 1) [(OPromise 1 3 1 0 NB NZ)] (mkO (SB 3 1) NB NZ 2 [(ZZ 1 0); (ZZ 2 1)] [(P1E 1 [(RSP 0 NB NZ); (RSP 2 NB NZ)]); (P1E 2 [(RSP 0 NB NZ)])] [(ZZ 1 0); (ZZ 2 0)] [(ZOZ 1 (SZ 2)); (ZOZ 2 (SZ 1))] false NZ [])); (RS 1 (IPromise 3 0 NB NZ) [(OAccept 0 3 1 (SZ 1)); (OAccept 2 3 1 (SZ 1))] (mkO (SB 3 1) (SB 3 1) (SZ 1) 3 [(ZZ 1 0); (ZZ 3 1)] [(P1E 1 [(RSP 1 NB NZ)]); (P1E 3 [(RSP 1 NB NZ); (RSP 0 NB NZ)])] [(ZZ 1 0); (ZZ 3 1)] [(ZOZ 1 (SZ 3)); (ZOZ 3 (SZ 1))] false NZ [])); (RS 2 (IPrepare 1 3 1) [(OPromise 1 3 1 2 NB NZ)] (mkO (SB 3 1) NB NZ 0 [] [] [] [] false NZ [])); (RS 2 (IAccept 1 3 1 (SZ 1)) [(OAccepted 1 3 1 2)] (mkO (SB 3 1) (SB 3 1) (SZ 1) 0 [] [] [] [] false NZ [])); (RS 1 (IPromise 3 2 NB NZ) [] (mkO (SB 3 1) (SB 3 1) (SZ 1) 3 [(ZZ 1 0); (ZZ 3 1)] [(P1E 1 [(RSP 1 NB NZ)]); (P1E 3 [(RSP 1 NB NZ); (RSP 0 NB NZ); (RSP 2 NB NZ)])] [(ZZ 1 0); (ZZ 3 1)] [(ZOZ 1 (SZ 3)); (ZOZ 3 (SZ 1))] false NZ [])); (RS 1 (IAccepted 3) [(ODecided 0 (SZ 1)); (ODecided 2 (SZ 1))] (mkO (SB 3 1) (SB 3 1) (SZ 1) 3 [(ZZ 1 0); (ZZ 3 1)] [(P1E 1 [(RSP 1 NB NZ)]); (P1E 3 [(RSP 1 NB NZ); (RSP 0 NB NZ); (RSP 2 NB NZ)])] [(ZZ 1 0); (ZZ 3 2)] [(ZOZ 1 (SZ 3)); (ZOZ 3 (SZ 1))] true (SZ 1) [(ZOZ 1 (SZ 1))])); (RS 2 (IDecided (SZ 1)) [] (mkO (SB 3 1) (SB 3 1) (SZ 1) 0 [] [] [] [] true (SZ 1) [])); (RS 0 (IPrepare 1 1 1) [(ONack 1 1 1 3 1)] (mkO (SB 3 1) NB NZ 2 [(ZZ 1 0); (ZZ 2 1)] [(P1E 1 [(RSP 0 NB NZ); (RSP 2 NB NZ)]); (P1E 2 [(RSP 0 NB NZ)])] [(ZZ 1 0); (ZZ 2 0)] [(ZOZ 1 (SZ 2)); (ZOZ 2 (SZ 1))] false NZ [])); (RS 0 (IDecided (SZ 1)) [] (mkO (SB 3 1) NB NZ 2 [(ZZ 1 0); (ZZ 2 1)] [(P1E 1 [(RSP 0 NB NZ); (RSP 2 NB NZ)]); (P1E 2 [(RSP 0 NB NZ)])] [(ZZ 1 0); (ZZ 2 0)] [(ZOZ 1 (SZ 2)); (ZOZ 2 (SZ 1))] true (SZ 1) [])); (RS 0 (IPromise 2 1 NB NZ) [(OAccept 1 2 0 (SZ 1)); (OAccept 2 2 0 (SZ 1))] (mkO (SB 3 1) NB NZ 2 [(ZZ 1 0); (ZZ 2 1)] [(P1E 1 [(RSP 0 NB NZ); (RSP 2 NB NZ)]); (P1E 2 [(RSP 0 NB NZ); (RSP 1 NB NZ)])] [(ZZ 1 0); (ZZ 2 0)] [(ZOZ 1 (SZ 2)); (ZOZ 2 (SZ 1))] true (SZ 1) [])); (RS 1 (INack 1 3) [(ORetry 1)] (mkO (SB 3 1) (SB 3 1) (SZ 1) 3 [(ZZ 1 0); (ZZ 3 1)] [(P1E 1 [(RSP 1 NB NZ)]); (P1E 3 [(RSP 1 NB NZ); (RSP 0 NB NZ); (RSP 2 NB NZ)])] [(ZZ 1 0); (ZZ 3 2)] [(ZOZ 1 (SZ 3)); (ZOZ 3 (SZ 1))] true (SZ 1) [(ZOZ 1 (SZ 1))])); (RS 1 (IAccept 0 2 0 (SZ 1)) [(ONack 0 2 0 3 1)] (mkO (SB 3 1) (SB 3 1) (SZ 1) 3 [(ZZ 1 0); (ZZ 3 1)] [(P1E 1 [(RSP 1 NB NZ)]); (P1E 3 [(RSP 1 NB NZ); (RSP 0 NB NZ); (RSP 2 NB NZ)])] [(ZZ 1 0); (ZZ 3 2)] [(ZOZ 1 (SZ 3)); (ZOZ 3 (SZ 1))] true (SZ 1) [(ZOZ 1 (SZ 1))])); (RS 2 (IAccept 0 2 0 (SZ 1)) [(ONack 0 2 0 3 1)] (mkO (SB 3 1) (SB 3 1) (SZ 1) 0 [] [] [] [] true (SZ 1) [])); (RS 0 (INack 2 3) [(ORetry 2)] (mkO (SB 3 1) NB NZ 3 [(ZZ 1 0); (ZZ 2 1)] [(P1E 1 [(RSP 0 NB NZ); (RSP 2 NB NZ)]); (P1E 2 [(RSP 0 NB NZ); (RSP 1 NB NZ)])] [(ZZ 1 0); (ZZ 2 0)] [(ZOZ 1 (SZ 2)); (ZOZ 2 (SZ 1))] true (SZ 1) [])); (RS 1 (IPromise 1 2 NB NZ) [(OAccept 0 1 1 (SZ 3)); (OAccept 2 1 1 (SZ 3))] (mkO (SB 3 1) (SB 3 1) (SZ 1) 3 [(ZZ 1 0); (ZZ 3 1)] [(P1E 1 [(RSP 1 NB NZ); (RSP 2 NB NZ)]); (P1E 3 [(RSP 1 NB NZ); (RSP 0 NB NZ); (RSP 2 NB NZ)])] [(ZZ 1 0); (ZZ 3 2)] [(ZOZ 1 (SZ 3)); (ZOZ 3 (SZ 1))] true (SZ 1) [(ZOZ 1 (SZ 1))])); (RS 2 (IAccept 0 1 0 (SZ 2)) [(ONack 0 1 0 3 1)] (mkO (SB 3 1) (SB 3 1) (SZ 1) 0 [] [] [] [] true (SZ 1) [])); (RS 2 (IAccept 1 1 1 (SZ 3)) [(ONack 1 1 1 3 1)] (mkO (SB 3 1) (SB 3 1) (SZ 1) 0 [] [] [] [] true (SZ 1) [])); (RS 0 (INack 1 3) [(ORetry 1)] (mkO (SB 3 1) NB NZ 3 [(ZZ 1 0); (ZZ 2 1)] [(P1E 1 [(RSP 0 NB NZ); (RSP 2 NB NZ)]); (P1E 2 [(RSP 0 NB NZ); (RSP 1 NB NZ)])] [(ZZ 1 0); (ZZ 2 0)] [(ZOZ 1 (SZ 2)); (ZOZ 2 (SZ 1))] true (SZ 1) [])); (RS 1 (INack 1 3) [(ORetry 1)] (mkO (SB 3 1) (SB 3 1) (SZ 1) 3 [(ZZ 1 0); (ZZ 3 1)] [(P1E 1 [(RSP 1 NB NZ); (RSP 2 NB NZ)]); (P1E 3 [(RSP 1 NB NZ); (RSP 0 NB NZ); (RSP 2 NB NZ)])] [(ZZ 1 0); (ZZ 3 2)] [(ZOZ 1 (SZ 3)); (ZOZ 3 (SZ 1))] true (SZ 1) [(ZOZ 1 (SZ 1))])); (RS 0 (IRetry 1) [] (mkO (SB 3 1) NB NZ 3 [(ZZ 1 0); (ZZ 2 1)] [(P1E 1 [(RSP 0 NB NZ); (RSP 2 NB NZ)]); (P1E 2 [(RSP 0 NB NZ); (RSP 1 NB NZ)])] [(ZZ 1 0); (ZZ 2 0)] [(ZOZ 1 (SZ 2)); (ZOZ 2 (SZ 1))] true (SZ 1) [])); (RS 0 (IRetry 2) [] (mkO (SB 3 1) NB NZ 3 [(ZZ 1 0); (ZZ 2 1)] [(P1E 1 [(RSP 0 NB NZ); (RSP 2 NB NZ)]); (P1E 2 [(RSP 0 NB NZ); (RSP 1 NB NZ)])] [(ZZ 1 0); (ZZ 2 0)] [(ZOZ 1 (SZ 2)); (ZOZ 2 (SZ 1))] true (SZ 1) [])); (RS 1 (IRetry 1) [] (mkO (SB 3 1) (SB 3 1) (SZ 1) 3 [(ZZ 1 0); (ZZ 3 1)] [(P1E 1 [(RSP 1 NB NZ); (RSP 2 NB NZ)]); (P1E 3 [(RSP 1 NB NZ); (RSP 0 NB NZ); (RSP 2 NB NZ)])] [(ZZ 1 0); (ZZ 3 2)] [(ZOZ 1 (SZ 3)); (ZOZ 3 (SZ 1))] true (SZ 1) [(ZOZ 1 (SZ 1))])); (RS 0 (IAccept 1 1 1 (SZ 3)) [(ONack 1 1 1 3 1)] (mkO (SB 3 1) NB NZ 3 [(ZZ 1 0); (ZZ 2 1)] [(P1E 1 [(RSP 0 NB NZ); (RSP 2 NB NZ)]); (P1E 2 [(RSP 0 NB NZ); (RSP 1 NB NZ)])] [(ZZ 1 0); (ZZ 2 0)] [(ZOZ 1 (SZ 2)); (ZOZ 2 (SZ 1))] true (SZ 1) [])); (RS 1 (IRetry 1) [] (mkO (SB 3 1) (SB 3 1) (SZ 1) 3 [(ZZ 1 0); (ZZ 3 1)] [(P1E 1 [(RSP 1 NB NZ); (RSP 2 NB NZ)]); (P1E 3 [(RSP 1 NB NZ); (RSP 0 NB NZ); (RSP 2 NB NZ)])] [(ZZ 1 0); (ZZ 3 2)] [(ZOZ 1 (SZ 3)); (ZOZ 3 (SZ 1))] true (SZ 1) [(ZOZ 1 (SZ 1))])); (RS 0 (IRetry 1) [] (mkO (SB 3 1) NB NZ 3 [(ZZ 1 0); (ZZ 2 1)] [(P1E 1 [(RSP 0 NB NZ); (RSP 2 NB NZ)]); (P1E 2 [(RSP 0 NB NZ); (RSP 1 NB NZ)])] [(ZZ 1 0); (ZZ 2 0)] [(ZOZ 1 (SZ 2)); (ZOZ 2 (SZ 1))] true (SZ 1) []))]).
Definition case_69 : Z * list rec_step := (3, [(RS 2 (IPropose 2) [(OPrepare 0 1 2); (OPrepare 1 1 2)] (mkO (SB 1 2) NB NZ 1 [(ZZ 1 0)] [(P1E 1 [(RSP 2 NB NZ)])] [(ZZ 1 0)] [(ZOZ 1 (SZ 2))] false NZ [])); (RS 2 (IPropose 3) [(OPrepare 0 2 2); (OPrepare 1 2 2)] (mkO (SB 2 2) NB NZ 2 [(ZZ 1 0); (ZZ 2 1)] [(P1E 1 [(RSP 2 NB NZ)]); (P1E 2 [(RSP 2 NB NZ)])] [(ZZ 1 0); (ZZ 2 0)] [(ZOZ 1 (SZ 2)); (ZOZ 2 (SZ 3))] false NZ [])); (RS 1 (IPrepare 2 2 2) [(OPromise 2 2 2 1 NB NZ)] (mkO (SB 2 2) NB NZ 0 [] [] [] [] false NZ [])); (RS 2 (IPromise 2 1 NB NZ) [(OAccept 0 2 2 (SZ 3)); (OAccept 1 2 2 (SZ 3))] (mkO (SB 2 2) (SB 2 2) (SZ 3) 2 [(ZZ 1 0); (ZZ 2 1)] [(P1E 1 [(RSP 2 NB NZ)]); (P1E 2 [(RSP 2 NB NZ); (RSP 1 NB NZ)])] [(ZZ 1 0); (ZZ 2 1)] [(ZOZ 1 (SZ 2)); (ZOZ 2 (SZ 3))] false NZ [])); (RS 0 (IAccept 2 2 2 (SZ 3)) [(OAccepted 2 2 2 0)] (mkO (SB 2 2) (SB 2 2) (SZ 3) 0 [] [] [] [] false NZ [])); (RS 2 (IAccepted 2) [(ODecided 0 (SZ 3)); (ODecided 1 (SZ 3))] (mkO (SB 2 2) (SB 2 2) (SZ 3) 2 [(ZZ 1 0); (ZZ 2 1)] [(P1E 1 [(RSP 2 NB NZ)]); (P1E 2 [(RSP 2 NB NZ); (RSP 1 NB NZ)])] [(ZZ 1 0); (ZZ 2 2)] [(ZOZ 1 (SZ 2)); (ZOZ 2 (SZ 3))] true (SZ 3) [(ZOZ 1 (SZ 3))])); (RS 0 (IDecided (SZ 3)) [] (mkO (SB 2 2) (SB 2 2) (SZ 3) 0 [] [] [] [] true (SZ 3) [])); (RS 1 (IAccept 2 2 2 (SZ 3)) [(OAccepted 2 2 2 1)] (mkO (SB 2 2) (SB 2 2) (SZ 3) 0 [] [] [] [] false NZ [])); (RS 2 (IAccepted 2) [] (mkO (SB 2 2) (SB 2 2) (SZ 3) 2 [(ZZ 1 0); (ZZ 2 1)] [(P1E 1 [(RSP 2 NB NZ)]); (P1E 2 [(RSP 2 NB NZ); (RSP 1 NB NZ)])] [(ZZ 1 0); (ZZ 2 3)] [(ZOZ 1 (SZ 2)); (ZOZ 2 (SZ 3))] true (SZ 3) [(ZOZ 1 (SZ 3))])); (RS 0 (IPrepare 2 1 2) [(ONack 2 1 2 2 2)] (mkO (SB 2 2) (SB 2 2) (SZ 3) 0 [] [] [] [] true (SZ 3) [])); (RS 0 (IPrepare 2 2 2) [(OPromise 2 2 2 0 (SB 2 2) (SZ 3))] (mkO (SB 2 2) (SB 2 2) (SZ 3) 0 [] [] [] [] true (SZ 3) [])); (RS 2 (INack 1 2) [(ORetry 1)] (mkO (SB 2 2) (SB 2 2) (SZ 3) 2 [(ZZ 1 0); (ZZ 2 1)] [(P1E 1 [(RSP 2 NB NZ)]); (P1E 2 [(RSP 2 NB NZ); (RSP 1 NB NZ)])] [(ZZ 1 0); (ZZ 2 3)] [(ZOZ 1 (SZ 2)); (ZOZ 2 (SZ 3))] true (SZ 3) [(ZOZ 1 (SZ 3))])); (RS 1 (IDecided (SZ 3)) [] (mkO (SB 2 2) (SB 2 2) (SZ 3) 0 [] [] [] [] true (SZ 3) [])); (RS 2 (IRetry 1) [] (mkO (SB 2 2) (SB 2 2) (SZ 3) 2 [(ZZ 1 0); (ZZ 2 1)] [(P1E 1 [(RSP 2 NB NZ)]); (P1E 2 [(RSP 2 NB NZ); (RSP 1 NB NZ)])] [(ZZ 1 0); (ZZ 2 3)] [(ZOZ 1 (SZ 2)); (ZOZ 2 (SZ 3))] true (SZ 3) [(ZOZ 1 (SZ 3))])); (RS 1 (IPrepare 2 1 2) [(ONack 2 1 2 2 2)] (mkO (SB 2 2) (SB 2 2) (SZ 3) 0 [] [] [] [] true (SZ 3) [])); (RS 2 (INack 1 2) [(ORetry 1)] (mkO (SB 2 2) (SB 2 2) (SZ 3) 2 [(ZZ 1 0); (ZZ 2 1)] [(P1E 1 [(RSP 2 NB NZ)]); (P1E 2 [(RSP 2 NB NZ); (RSP 1 NB NZ)])] [(ZZ 1 0); (ZZ 2 3)] [(ZOZ 1 (SZ 2)); (ZOZ 2 (SZ 3))] true (SZ 3) [(ZOZ 1 (SZ 3))])); (RS 2 (IRetry 1) [] (mkO (SB 2 2) (SB 2 2) (SZ 3) 2 [(ZZ 1 0); (ZZ 2 1)] [(P1E 1 [(RSP 2 NB NZ)]); (P1E 2 [(RSP 2 NB NZ); (RSP 1 NB NZ)])] [(ZZ 1 0); (ZZ 2 3)] [(ZOZ 1 (SZ 2)); (ZOZ 2 (SZ 3))] true (SZ 3) [(ZOZ 1 (SZ 3))])); (RS 2 (IPromise 2 0 (SB 2 2) (SZ 3)) [] (mkO (SB 2 2) (SB 2 2) (SZ 3) 2 [(ZZ 1 0); (ZZ 2 1)] [(P1E 1 [(RSP 2 NB NZ)]); (P1E 2 [(RSP 2 NB NZ); (RSP 1 NB NZ); (RSP 0 (SB 2 2) (SZ 3))])] [(ZZ 1 0); (ZZ 2 3)] [(ZOZ 1 (SZ 2)); (ZOZ 2 (SZ 3))] true (SZ 3) [(ZOZ 1 (SZ 3))]))]).
Definition case_70 : Z * list rec_step := (4, [(RS 1 (IPropose 1) [(OPrepare 0 1 1); (OPrepare 2 1 1); (OPrepare 3 1 1)] (mkO (SB 1 1) NB NZ 1 [(ZZ 1 0)] [(P1E 1 [(RSP 1 NB NZ)])] [(ZZ 1 0)] [(ZOZ 1 (SZ 1))] false NZ [])); (RS 0 (IPrepare 1 1 1) [(OPromise 1 1 1 0 NB NZ)] (mkO (SB 1 1) NB NZ 0 [] [] [] [] false NZ [])); (RS 1 (IPromise 1 0 NB NZ) [] (mkO (SB 1 1) NB NZ 1 [(ZZ 1 0)] [(P1E 1 [(RSP 1 NB NZ); (RSP 0 NB NZ)])] [(ZZ 1 0)] [(ZOZ 1 (SZ 1))] false NZ [])); (RS 2 (IPropose 2) [(OPrepare 0 1 2); (OPrepare 1 1 2); (OPrepare 3 1 2)] (mkO (SB 1 2) NB NZ 1 [(ZZ 1 0)] [(P1E 1 [(RSP 2 NB NZ)])] [(ZZ 1 0)] [(ZOZ 1 (SZ 2))] false NZ [])); (RS 0 (IPrepare 2 1 2) [(OPromise 2 1 2 0 NB NZ)] (mkO (SB 1 2) NB NZ 0 [] [] [] [] false NZ [])); (RS 3 (IPrepare 1 1 1) [(OPromise 1 1 1 3 NB NZ)] (mkO (SB 1 1) NB NZ 0 [] [] [] [] false NZ [])); (RS 1 (IPrepare 2 1 2) [(OPromise 2 1 2 1 NB NZ)] (mkO (SB 1 2) NB NZ 1 [(ZZ 1 0)] [(P1E 1 [(RSP 1 NB NZ); (RSP 0 NB NZ)])] [(ZZ 1 0)] [(ZOZ 1 (SZ 1))] false NZ [])); (RS 3 (IPrepare 2 1 2) [(OPromise 2 1 2 3 NB NZ)] (mkO (SB 1 2) NB NZ 0 [] [] [] [] false NZ [])); (RS 2 (IPrepare 1 1 1) [(ONack 1 1 1 1 2)] (mkO (SB 1 2) NB NZ 1 [(ZZ 1 0)] [(P1E 1 [(RSP 2 NB NZ)])] [(ZZ 1 0)] [(ZOZ 1 (SZ 2))] false NZ [])); (RS 1 (INack 1 1) [(ORetry 1)] (mkO (SB 1 2) NB NZ 1 [(ZZ 1 0)] [(P1E 1 [(RSP 1 NB NZ); (RSP 0 NB NZ)])] [(ZZ 1 0)] [(ZOZ 1 (SZ 1))] false NZ [])); (RS 3 (IPropose 3) [(OPrepare 0 2 3); (OPrepare 1 2 3); (OPrepare 2 2 3)] (mkO (SB 2 3) NB NZ 2 [(ZZ 2 0)] [(P1E 2 [(RSP 3 NB NZ)])] [(ZZ 2 0)] [(ZOZ 2 (SZ 3))] false NZ [])); (RS 2 (IPromise 1 0 NB NZ) [] (mkO (SB 1 2) NB NZ 1 [(ZZ 1 0)] [(P1E 1 [(RSP 2 NB NZ); (RSP 0 NB NZ)])] [(ZZ 1 0)] [(ZOZ 1 (SZ 2))] false NZ [])); (RS 1 (IPromise 1 3 NB NZ) [(OAccept 0 1 1 (SZ 1)); (OAccept 2 1 1 (SZ 1)); (OAccept 3 1 1 (SZ 1))] (mkO (SB 1 2) NB NZ 1 [(ZZ 1 0)] [(P1E 1 [(RSP 1 NB NZ); (RSP 0 NB NZ); (RSP 3 NB NZ)])] [(ZZ 1 0)] [(ZOZ 1 (SZ 1))] false NZ [])); (RS 0 (IPrepare 3 2 3) [(OPromise 3 2 3 0 NB NZ)] (mkO (SB 2 3) NB NZ 0 [] [] [] [] false NZ [])); (RS 2 (IPromise 1 3 NB NZ) [(OAccept 0 1 2 (SZ 2)); (OAccept 1 1 2 (SZ 2)); (OAccept 3 1 2 (SZ 2))] (mkO (SB 1 2) (SB 1 2) (SZ 2) 1 [(ZZ 1 0)] [(P1E 1 [(RSP 2 NB NZ); (RSP 0 NB NZ); (RSP 3 NB NZ)])] [(ZZ 1 1)] [(ZOZ 1 (SZ 2))] false NZ [])); (RS 0 (IAccept 2 1 2 (SZ 2)) [(ONack 2 1 2 2 3)] (mkO (SB 2 3) NB NZ 0 [] [] [] [] false NZ [])); (RS 2 (IAccept 1 1 1 (SZ 1)) [(ONack 1 1 1 1 2)] (mkO (SB 1 2) (SB 1 2) (SZ 2) 1 [(ZZ 1 0)] [(P1E 1 [(RSP 2 NB NZ); (RSP 0 NB NZ); (RSP 3 NB NZ)])] [(ZZ 1 1)] [(ZOZ 1 (SZ 2))] false NZ [])); (RS 3 (IAccept 1 1 1 (SZ 1)) [(ONack 1 1 1 2 3)] (mkO (SB 2 3) NB NZ 2 [(ZZ 2 0)] [(P1E 2 [(RSP 3 NB NZ)])] [(ZZ 2 0)] [(ZOZ 2 (SZ 3))] false NZ [])); (RS 3 (IAccept 2 1 2 (SZ 2)) [(ONack 2 1 2 2 3)] (mkO (SB 2 3) NB NZ 2 [(ZZ 2 0)] [(P1E 2 [(RSP 3 NB NZ)])] [(ZZ 2 0)] [(ZOZ 2 (SZ 3))] false NZ [])); (RS 1 (INack 1 1) [(ORetry 1)] (mkO (SB 1 2) NB NZ 1 [(ZZ 1 0)] [(P1E 1 [(RSP 1 NB NZ); (RSP 0 NB NZ); (RSP 3 NB NZ)])] [(ZZ 1 0)] [(ZOZ 1 (SZ 1))] false NZ [])); (RS 1 (IPrepare 3 2 3) [(OPromise 3 2 3 1 NB NZ)] (mkO (SB 2 3) NB NZ 1 [(ZZ 1 0)] [(P1E 1 [(RSP 1 NB NZ); (RSP 0 NB NZ); (RSP 3 NB NZ)])] [(ZZ 1 0)] [(ZOZ 1 (SZ 1))] false NZ [])); (RS 1 (IAccept 2 1 2 (SZ 2)) [(ONack 2 1 2 2 3)] (mkO (SB 2 3) NB NZ 1 [(ZZ 1 0)] [(P1E 1 [(RSP 1 NB NZ); (RSP 0 NB NZ); (RSP 3 NB NZ)])] [(ZZ 1 0)] [(ZOZ 1 (SZ 1))] false NZ [])); (RS 2 (INack 1 2) [(ORetry 1)] (mkO (SB 1 2) (SB 1 2) (SZ 2) 2 [(ZZ 1 0)] [(P1E 1 [(RSP 2 NB NZ); (RSP 0 NB NZ); (RSP 3 NB NZ)])] [(ZZ 1 1)] [(ZOZ 1 (SZ 2))] false NZ [])); (RS 2 (INack 1 2) [(ORetry 1)] (mkO (SB 1 2) (SB 1 2) (SZ 2) 2 [(ZZ 1 0)] [(P1E 1 [(RSP 2 NB NZ); (RSP 0 NB NZ); (RSP 3 NB NZ)])] [(ZZ 1 1)] [(ZOZ 1 (SZ 2))] false NZ [])); (RS 0 (IPropose 4) [(OPrepare 1 3 0); (OPrepare 2 3 0); (OPrepare 3 3 0)] (mkO (SB 3 0) NB NZ 3 [(ZZ 3 0)] [(P1E 3 [(RSP 0 NB NZ)])] [(ZZ 3 0)] [(ZOZ 3 (SZ 4))] false NZ [])); (RS 1 (IPrepare 0 3 0) [(OPromise 0 3 0 1 NB NZ)] (mkO (SB 3 0) NB NZ 1 [(ZZ 1 0)] [(P1E 1 [(RSP 1 NB NZ); (RSP 0 NB NZ); (RSP 3 NB NZ)])] [(ZZ 1 0)] [(ZOZ 1 (SZ 1))] false NZ [])); (RS 0 (IPromise 3 1 NB NZ) [] (mkO (SB 3 0) NB NZ 3 [(ZZ 3 0)] [(P1E 3 [(RSP 0 NB NZ); (RSP 1 NB NZ)])] [(ZZ 3 0)] [(ZOZ 3 (SZ 4))] false NZ [])); (RS 2 (IPrepare 0 3 0) [(OPromise 0 3 0 2 (SB 1 2) (SZ 2))] (mkO (SB 3 0) (SB 1 2) (SZ 2) 2 [(ZZ 1 0)] [(P1E 1 [(RSP 2 NB NZ); (RSP 0 NB NZ); (RSP 3 NB NZ)])] [(ZZ 1 1)] [(ZOZ 1 (SZ 2))] false NZ [])); (RS 3 (IPrepare 0 3 0) [(OPromise 0 3 0 3 NB NZ)] (mkO (SB 3 0) NB NZ 2 [(ZZ 2 0)] [(P1E 2 [(RSP 3 NB NZ)])] [(ZZ 2 0)] [(ZOZ 2 (SZ 3))] false NZ [])); (RS 0 (IPromise 3 3 NB NZ) [(OAccept 1 3 0 (SZ 4)); (OAccept 2 3 0 (SZ 4)); (OAccept 3 3 0 (SZ 4))] (mkO (SB 3 0) (SB 3 0) (SZ 4) 3 [(ZZ 3 0)] [(P1E 3 [(RSP 0 NB NZ); (RSP 1 NB NZ); (RSP 3 NB NZ)])] [(ZZ 3 1)] [(ZOZ 3 (SZ 4))] false NZ [])); (RS 1 (IRetry 1) [(OPrepare 0 2 1); (OPrepare 2 2 1); (OPrepare 3 2 1)] (mkO (SB 3 0) NB NZ 2 [(ZZ 2 0)] [(P1E 1 [(RSP 1 NB NZ); (RSP 0 NB NZ); (RSP 3 NB NZ)]); (P1E 2 [])] [(ZZ 1 0); (ZZ 2 0)] [(ZOZ 2 (SZ 1))] false NZ [])); (RS 1 (IAccept 0 3 0 (SZ 4)) [(OAccepted 0 3 0 1)] (mkO (SB 3 0) (SB 3 0) (SZ 4) 2 [(ZZ 2 0)] [(P1E 1 [(RSP 1 NB NZ); (RSP 0 NB NZ); (RSP 3 NB NZ)]); (P1E 2 [])] [(ZZ 1 0); (ZZ 2 0)] [(ZOZ 2 (SZ 1))] false NZ [])); (RS 0 (IPrepare 1 2 1) [(ONack 1 2 1 3 0)] (mkO (SB 3 0) (SB 3 0) (SZ 4) 3 [(ZZ 3 0)] [(P1E 3 [(RSP 0 NB NZ); (RSP 1 NB NZ); (RSP 3 NB NZ)])] [(ZZ 3 1)] [(ZOZ 3 (SZ 4))] false NZ [])); (RS 1 (IRetry 1) [] (mkO (SB 3 0) (SB 3 0) (SZ 4) 2 [(ZZ 2 0)] [(P1E 1 [(RSP 1 NB NZ); (RSP 0 NB NZ); (RSP 3 NB NZ)]); (P1E 2 [])] [(ZZ 1 0); (ZZ 2 0)] [(ZOZ 2 (SZ 1))] false NZ [])); (RS 2 (IPrepare 1 2 1) [(ONack 1 2 1 3 0)] (mkO (SB 3 0) (SB 1 2) (SZ 2) 2 [(ZZ 1 0)] [(P1E 1 [(RSP 2 NB NZ); (RSP 0 NB NZ); (RSP 3 NB NZ)])] [(ZZ 1 1)] [(ZOZ 1 (SZ 2))] false NZ [])); (RS 0 (IAccepted 3) [] (mkO (SB 3 0) (SB 3 0) (SZ 4) 3 [(ZZ 3 0)] [(P1E 3 [(RSP 0 NB NZ); (RSP 1 NB NZ); (RSP 3 NB NZ)])] [(ZZ 3 2)] [(ZOZ 3 (SZ 4))] false NZ [])); (RS 1 (INack 2 3) [(ORetry 2)] (mkO (SB 3 0) (SB 3 0) (SZ 4) 3 [(ZZ 2 0)] [(P1E 1 [(RSP 1 NB NZ); (RSP 0 NB NZ); (RSP 3 NB NZ)]); (P1E 2 [])] [(ZZ 1 0); (ZZ 2 0)] [(ZOZ 2 (SZ 1))] false NZ [])); (RS 2 (IAccept 0 3 0 (SZ 4)) [(OAccepted 0 3 0 2)] (mkO (SB 3 0) (SB 3 0) (SZ 4) 2 [(ZZ 1 0)] [(P1E 1 [(RSP 2 NB NZ); (RSP 0 NB NZ); (RSP 3 NB NZ)])] [(ZZ 1 1)] [(ZOZ 1 (SZ 2))] false NZ [])); (RS 3 (IAccept 0 3 0 (SZ 4)) [(OAccepted 0 3 0 3)] (mkO (SB 3 0) (SB 3 0) (SZ 4) 2 [(ZZ 2 0)] [(P1E 2 [(RSP 3 NB NZ)])] [(ZZ 2 0)] [(ZOZ 2 (SZ 3))] false NZ [])); (RS 1 (INack 2 3) [(ORetry 2)] (mkO (SB 3 0) (SB 3 0) (SZ 4) 3 [(ZZ 2 0)] [(P1E 1 [(RSP 1 NB NZ); (RSP 0 NB NZ); (RSP 3 NB NZ)]); (P1E 2 [])] [(ZZ 1 0); (ZZ 2 0)] [(ZOZ 2 (SZ 1))] false NZ [])); (RS 2 (IRetry 1) [(OPrepare 0 3 2); (OPrepare 1 3 2); (OPrepare 3 3 2)] (mkO (SB 3 2) (SB 3 0) (SZ 4) 3 [(ZZ 3 0)] [(P1E 1 [(RSP 2 NB NZ); (RSP 0 NB NZ); (RSP 3 NB NZ)]); (P1E 3 [(RSP 2 (SB 3 0) (SZ 4))])] [(ZZ 1 1); (ZZ 3 0)] [(ZOZ 3 (SZ 2))] false NZ [])); (RS 0 (IAccepted 3) [(ODecided 1 (SZ 4)); (ODecided 2 (SZ 4)); (ODecided 3 (SZ 4))] (mkO (SB 3 0) (SB 3 0) (SZ 4) 3 [(ZZ 3 0)] [(P1E 3 [(RSP 0 NB NZ); (RSP 1 NB NZ); (RSP 3 NB NZ)])] [(ZZ 3 3)] [(ZOZ 3 (SZ 4))] true (SZ 4) [(ZOZ 0 (SZ 4))])); (RS 0 (IAccepted 3) [] (mkO (SB 3 0) (SB 3 0) (SZ 4) 3 [(ZZ 3 0)] [(P1E 3 [(RSP 0 NB NZ); (RSP 1 NB NZ); (RSP 3 NB NZ)])] [(ZZ 3 4)] [(ZOZ 3 (SZ 4))] true (SZ 4) [(ZOZ 0 (SZ 4))])); (RS 1 (IPrepare 2 3 2) [(OPromise 2 3 2 1 (SB 3 0) (SZ 4))] (mkO (SB 3 2) (SB 3 0) (SZ 4) 3 [(ZZ 2 0)] [(P1E 1 [(RSP 1 NB NZ); (RSP 0 NB NZ); (RSP 3 NB NZ)]); (P1E 2 [])] [(ZZ 1 0); (ZZ 2 0)] [(ZOZ 2 (SZ 1))] false NZ [])); (RS 3 (IPrepare 2 3 2) [(OPromise 2 3 2 3 (SB 3 0) (SZ 4))] (mkO (SB 3 2) (SB 3 0) (SZ 4) 2 [(ZZ 2 0)] [(P1E 2 [(RSP 3 NB NZ)])] [(ZZ 2 0)] [(ZOZ 2 (SZ 3))] false NZ [])); (RS 3 (IPrepare 1 2 1) [(ONack 1 2 1 3 2)] (mkO (SB 3 2) (SB 3 0) (SZ 4) 2 [(ZZ 2 0)] [(P1E 2 [(RSP 3 NB NZ)])] [(ZZ 2 0)] [(ZOZ 2 (SZ 3))] false NZ [])); (RS 2 (IDecided (SZ 4)) [] (mkO (SB 3 2) (SB 3 0) (SZ 4) 3 [(ZZ 3 0)] [(P1E 1 [(RSP 2 NB NZ); (RSP 0 NB NZ); (RSP 3 NB NZ)]); (P1E 3 [(RSP 2 (SB 3 0) (SZ 4))])] [(ZZ 1 1); (ZZ 3 0)] [(ZOZ 3 (SZ 2))] true (SZ 4) [])); (RS 0 (IPrepare 2 3 2) [(OPromise 2 3 2 0 (SB 3 0) (SZ 4))] (mkO (SB 3 2) (SB 3 0) (SZ 4) 3 [(ZZ 3 0)] [(P1E 3 [(RSP 0 NB NZ); (RSP 1 NB NZ); (RSP 3 NB NZ)])] [(ZZ 3 4)] [(ZOZ 3 (SZ 4))] true (SZ 4) [(ZOZ 0 (SZ 4))])); (RS 3 (IDecided (SZ 4)) [] (mkO (SB 3 2) (SB 3 0) (SZ 4) 2 [(ZZ 2 0)] [(P1E 2 [(RSP 3 NB NZ)])] [(ZZ 2 0)] [(ZOZ 2 (SZ 3))] true (SZ 4) [])); (RS 2 (IPromise 3 1 (SB 3 0) (SZ 4)) [] (mkO (SB 3 2) (SB 3 0) (SZ 4) 3 [(ZZ 3 0)] [(P1E 1 [(RSP 2 NB NZ); (RSP 0 NB NZ); (RSP 3 NB NZ)]); (P1E 3 [(RSP 2 (SB 3 0) (SZ 4)); (RSP 1 (SB 3 0) (SZ 4))])] [(ZZ 1 1); (ZZ 3 0)] [(ZOZ 3 (SZ 2))] true (SZ 4) [])); (RS 2 (IPromise 3 0 (SB 3 0) (SZ 4)) [(OAccept 0 3 2 (SZ 4)); (OAccept 1 3 2 (SZ 4)); (OAccept 3 3 2 (SZ 4))] (mkO (SB 3 2) (SB 3 2) (SZ 4) 3 [(ZZ 3 0)] [(P1E 1 [(RSP 2 NB NZ); (RSP 0 NB NZ); (RSP 3 NB NZ)]); (P1E 3 [(RSP 2 (SB 3 0) (SZ 4)); (RSP 1 (SB 3 0) (SZ 4)); (RSP 0 (SB 3 0) (SZ 4))])] [(ZZ 1 1); (ZZ 3 1)] [(ZOZ 3 (SZ 4))] true (SZ 4) [])); (RS 2 (IRetry 1) [] (mkO (SB 3 2) (SB 3 2) (SZ 4) 3 [(ZZ 3 0)] [(P1E 1 [(RSP 2 NB NZ); (RSP 0 NB NZ); (RSP 3 NB NZ)]); (P1E 3 [(RSP 2 (SB 3 0) (SZ 4)); (RSP 1 (SB 3 0) (SZ 4)); (RSP 0 (SB 3 0) (SZ 4))])] [(ZZ 1 1); (ZZ 3 1)] [(ZOZ 3 (SZ 4))] true (SZ 4) [])); (RS 0 (IAccept 2 3 2 (SZ 4)) [(OAccepted 2 3 2 0)] (mkO (SB 3 2) (SB 3 2) (SZ 4) 3 [(ZZ 3 0)] [(P1E 3 [(RSP 0 NB NZ); (RSP 1 NB NZ); (RSP 3 NB NZ)])] [(ZZ 3 4)] [(ZOZ 3 (SZ 4))] true (SZ 4) [(ZOZ 0 (SZ 4))])); (RS 2 (IAccepted 3) [] (mkO (SB 3 2) (SB 3 2) (SZ 4) 3 [(ZZ 3 0)] [(P1E 1 [(RSP 2 NB NZ); (RSP 0 NB NZ); (RSP 3 NB NZ)]); (P1E 3 [(RSP 2 (SB 3 0) (SZ 4)); (RSP 1 (SB 3 0) (SZ 4)); (RSP 0 (SB 3 0) (SZ 4))])] [(ZZ 1 1); (ZZ 3 2)] [(ZOZ 3 (SZ 4))] true (SZ 4) [])); (RS 1 (INack 2 3) [(ORetry 2)] (mkO (SB 3 2) (SB 3 0) (SZ 4) 3 [(ZZ 2 0)] [(P1E 1 [(RSP 1 NB NZ); (RSP 0 NB NZ); (RSP 3 NB NZ)]); (P1E 2 [])] [(ZZ 1 0); (ZZ 2 0)] [(ZOZ 2 (SZ 1))] false NZ [])); (RS 3 (IAccept 2 3 2 (SZ 4)) [(OAccepted 2 3 2 3)] (mkO (SB 3 2) (SB 3 2) (SZ 4) 2 [(ZZ 2 0)] [(P1E 2 [(RSP 3 NB NZ)])] [(ZZ 2 0)] [(ZOZ 2 (SZ 3))] true (SZ 4) [])); (RS 2 (IAccepted 3) [] (mkO (SB 3 2) (SB 3 2) (SZ 4) 3 [(ZZ 3 0)] [(P1E 1 [(RSP 2 NB NZ); (RSP 0 NB NZ); (RSP 3 NB NZ)]); (P1E 3 [(RSP 2 (SB 3 0) (SZ 4)); (RSP 1 (SB 3 0) (SZ 4)); (RSP 0 (SB 3 0) (SZ 4))])] [(ZZ 1 1); (ZZ 3 3)] [(ZOZ 3 (SZ 4))] true (SZ 4) [])); (RS 1 (IRetry 2) [(OPrepare 0 4 1); (OPrepare 2 4 1); (OPrepare 3 4 1)] (mkO (SB 4 1) (SB 3 0) (SZ 4) 4 [(ZZ 4 0)] [(P1E 1 [(RSP 1 NB NZ); (RSP 0 NB NZ); (RSP 3 NB NZ)]); (P1E 2 []); (P1E 4 [(RSP 1 (SB 3 0) (SZ 4))])] [(ZZ 1 0); (ZZ 2 0); (ZZ 4 0)] [(ZOZ 4 (SZ 1))] false NZ [])); (RS 0 (IPrepare 1 4 1) [(OPromise 1 4 1 0 (SB 3 2) (SZ 4))] (mkO (SB 4 1) (SB 3 2) (SZ 4) 3 [(ZZ 3 0)] [(P1E 3 [(RSP 0 NB NZ); (RSP 1 NB NZ); (RSP 3 NB NZ)])] [(ZZ 3 4)] [(ZOZ 3 (SZ 4))] true (SZ 4) [(ZOZ 0 (SZ 4))])); (RS 2 (IPrepare 1 4 1) [(OPromise 1 4 1 2 (SB 3 2) (SZ 4))] (mkO (SB 4 1) (SB 3 2) (SZ 4) 3 [(ZZ 3 0)] [(P1E 1 [(RSP 2 NB NZ); (RSP 0 NB NZ); (RSP 3 NB NZ)]); (P1E 3 [(RSP 2 (SB 3 0) (SZ 4)); (RSP 1 (SB 3 0) (SZ 4)); (RSP 0 (SB 3 0) (SZ 4))])] [(ZZ 1 1); (ZZ 3 3)] [(ZOZ 3 (SZ 4))] true (SZ 4) [])); (RS 1 (IPromise 4 0 (SB 3 2) (SZ 4)) [] (mkO (SB 4 1) (SB 3 0) (SZ 4) 4 [(ZZ 4 0)] [(P1E 1 [(RSP 1 NB NZ); (RSP 0 NB NZ); (RSP 3 NB NZ)]); (P1E 2 []); (P1E 4 [(RSP 1 (SB 3 0) (SZ 4)); (RSP 0 (SB 3 2) (SZ 4))])] [(ZZ 1 0); (ZZ 2 0); (ZZ 4 0)] [(ZOZ 4 (SZ 1))] false NZ [])); (RS 1 (IRetry 2) [] (mkO (SB 4 1) (SB 3 0) (SZ 4) 4 [(ZZ 4 0)] [(P1E 1 [(RSP 1 NB NZ); (RSP 0 NB NZ); (RSP 3 NB NZ)]); (P1E 2 []); (P1E 4 [(RSP 1 (SB 3 0) (SZ 4)); (RSP 0 (SB 3 2) (SZ 4))])] [(ZZ 1 0); (ZZ 2 0); (ZZ 4 0)] [(ZOZ 4 (SZ 1))] false NZ [])); (RS 1 (IRetry 2) [] (mkO (SB 4 1) (SB 3 0) (SZ 4) 4 [(ZZ 4 0)] [(P1E 1 [(RSP 1 NB NZ); (RSP 0 NB NZ); (RSP 3 NB NZ)]); (P1E 2 []); (P1E 4 [(RSP 1 (SB 3 0) (SZ 4)); (RSP 0 (SB 3 2) (SZ 4))])] [(ZZ 1 0); (ZZ 2 0); (ZZ 4 0)] [(ZOZ 4 (SZ 1))] false NZ [])); (RS 1 (IPromise 4 2 (SB 3 2) (SZ 4)) [(OAccept 0 4 1 (SZ 4)); (OAccept 2 4 1 (SZ 4)); (OAccept 3 4 1 (SZ 4))] (mkO (SB 4 1) (SB 4 1) (SZ 4) 4 [(ZZ 4 0)] [(P1E 1 [(RSP 1 NB NZ); (RSP 0 NB NZ); (RSP 3 NB NZ)]); (P1E 2 []); (P1E 4 [(RSP 1 (SB 3 0) (SZ 4)); (RSP 0 (SB 3 2) (SZ 4)); (RSP 2 (SB 3 2) (SZ 4))])] [(ZZ 1 0); (ZZ 2 0); (ZZ 4 1)] [(ZOZ 4 (SZ 4))] false NZ [])); (RS 2 (IAccept 1 4 1 (SZ 4)) [(OAccepted 1 4 1 2)] (mkO (SB 4 1) (SB 4 1) (SZ 4) 3 [(ZZ 3 0)] [(P1E 1 [(RSP 2 NB NZ); (RSP 0 NB NZ); (RSP 3 NB NZ)]); (P1E 3 [(RSP 2 (SB 3 0) (SZ 4)); (RSP 1 (SB 3 0) (SZ 4)); (RSP 0 (SB 3 0) (SZ 4))])] [(ZZ 1 1); (ZZ 3 3)] [(ZOZ 3 (SZ 4))] true (SZ 4) [])); (RS 3 (IAccept 1 4 1 (SZ 4)) [(OAccepted 1 4 1 3)] (mkO (SB 4 1) (SB 4 1) (SZ 4) 2 [(ZZ 2 0)] [(P1E 2 [(RSP 3 NB NZ)])] [(ZZ 2 0)] [(ZOZ 2 (SZ 3))] true (SZ 4) [])); (RS 1 (IAccepted 4) [] (mkO (SB 4 1) (SB 4 1) (SZ 4) 4 [(ZZ 4 0)] [(P1E 1 [(RSP 1 NB NZ); (RSP 0 NB NZ); (RSP 3 NB NZ)]); (P1E 2 []); (P1E 4 [(RSP 1 (SB 3 0) (SZ 4)); (RSP 0 (SB 3 2) (SZ 4)); (RSP 2 (SB 3 2) (SZ 4))])] [(ZZ 1 0); (ZZ 2 0); (ZZ 4 2)] [(ZOZ 4 (SZ 4))] false NZ [])); (RS 0 (IAccept 1 4 1 (SZ 4)) [(OAccepted 1 4 1 0)] (mkO (SB 4 1) (SB 4 1) (SZ 4) 3 [(ZZ 3 0)] [(P1E 3 [(RSP 0 NB NZ); (RSP 1 NB NZ); (RSP 3 NB NZ)])] [(ZZ 3 4)] [(ZOZ 3 (SZ 4))] true (SZ 4) [(ZOZ 0 (SZ 4))])); (RS 1 (IAccepted 4) [(ODecided 0 (SZ 4)); (ODecided 2 (SZ 4)); (ODecided 3 (SZ 4))] (mkO (SB 4 1) (SB 4 1) (SZ 4) 4 [(ZZ 4 0)] [(P1E 1 [(RSP 1 NB NZ); (RSP 0 NB NZ); (RSP 3 NB NZ)]); (P1E 2 []); (P1E 4 [(RSP 1 (SB 3 0) (SZ 4)); (RSP 0 (SB 3 2) (SZ 4)); (RSP 2 (SB 3 2) (SZ 4))])] [(ZZ 1 0); (ZZ 2 0); (ZZ 4 3)] [(ZOZ 4 (SZ 4))] true (SZ 4) [(ZOZ 0 (SZ 4))])); (RS 1 (IAccepted 4) [] (mkO (SB 4 1) (SB 4 1) (SZ 4) 4 [(ZZ 4 0)] [(P1E 1 [(RSP 1 NB NZ); (RSP 0 NB NZ); (RSP 3 NB NZ)]); (P1E 2 []); (P1E 4 [(RSP 1 (SB 3 0) (SZ 4)); (RSP 0 (SB 3 2) (SZ 4)); (RSP 2 (SB 3 2) (SZ 4))])] [(ZZ 1 0); (ZZ 2 0); (ZZ 4 4)] [(ZOZ 4 (SZ 4))] true (SZ 4) [(ZOZ 0 (SZ 4))])); (RS 0 (IDecided (SZ 4)) [] (mkO (SB 4 1) (SB 4 1) (SZ 4) 3 [(ZZ 3 0)] [(P1E 3 [(RSP 0 NB NZ); (RSP 1 NB NZ); (RSP 3 NB NZ)])] [(ZZ 3 4)] [(ZOZ 3 (SZ 4))] true (SZ 4) [(ZOZ 0 (SZ 4))])); (RS 3 (IDecided (SZ 4)) [] (mkO (SB 4 1) (SB 4 1) (SZ 4) 2 [(ZZ 2 0)] [(P1E 2 [(RSP 3 NB NZ)])] [(ZZ 2 0)] [(ZOZ 2 (SZ 3))] true (SZ 4) []))]).
Definition case_71 : Z * list rec_step := (5, [(RS 2 (IPropose 3) [(OPrepare 0 1 2); (OPrepare 1 1 2); (OPrepare 3 1 2); (OPrepare 4 1 2)] (mkO (SB 1 2) NB NZ 1 [(ZZ 1 0)] [(P1E 1 [(RSP 2 NB NZ)])] [(ZZ 1 0)] [(ZOZ 1 (SZ 3))] false NZ [])); (RS 3 (IPrepare 2 1 2) [(OPromise 2 1 2 3 NB NZ)] (mkO (SB 1 2) NB NZ 0 [] [] [] [] false NZ [])); (RS 1 (IPrepare 2 1 2) [(OPromise 2 1 2 1 NB NZ)] (mkO (SB 1 2) NB NZ 0 [] [] [] [] false NZ [])); (RS 0 (IPrepare 2 1 2) [(OPromise 2 1 2 0 NB NZ)] (mkO (SB 1 2) NB NZ 0 [] [] [] [] false NZ [])); (RS 4 (IPrepare 2 1 2) [(OPromise 2 1 2 4 NB NZ)] (mkO (SB 1 2) NB NZ 0 [] [] [] [] false NZ [])); (RS 2 (IPromise 1 3 NB NZ) [] (mkO (SB 1 2) NB NZ 1 [(ZZ 1 0)] [(P1E 1 [(RSP 2 NB NZ); (RSP 3 NB NZ)])] [(ZZ 1 0)] [(ZOZ 1 (SZ 3))] false NZ [])); (RS 2 (IPromise 1 0 NB NZ) [(OAccept 0 1 2 (SZ 3)); (OAccept 1 1 2 (SZ 3)); (OAccept 3 1 2 (SZ 3)); (OAccept 4 1 2 (SZ 3))] (mkO (SB 1 2) (SB 1 2) (SZ 3) 1 [(ZZ 1 0)] [(P1E 1 [(RSP 2 NB NZ); (RSP 3 NB NZ); (RSP 0 NB NZ)])] [(ZZ 1 1)] [(ZOZ 1 (SZ 3))] false NZ [])); (RS 2 (IPromise 1 1 NB NZ) [] (mkO (SB 1 2) (SB 1 2) (SZ 3) 1 [(ZZ 1 0)] [(P1E 1 [(RSP 2 NB NZ); (RSP 3 NB NZ); (RSP 0 NB NZ); (RSP 1 NB NZ)])] [(ZZ 1 1)] [(ZOZ 1 (SZ 3))] false NZ [])); (RS 0 (IAccept 2 1 2 (SZ 3)) [(OAccepted 2 1 2 0)] (mkO (SB 1 2) (SB 1 2) (SZ 3) 0 [] [] [] [] false NZ [])); (RS 3 (IAccept 2 1 2 (SZ 3)) [(OAccepted 2 1 2 3)] (mkO (SB 1 2) (SB 1 2) (SZ 3) 0 [] [] [] [] false NZ [])); (RS 4 (IAccept 2 1 2 (SZ 3)) [(OAccepted 2 1 2 4)] (mkO (SB 1 2) (SB 1 2) (SZ 3) 0 [] [] [] [] false NZ [])); (RS 2 (IPromise 1 4 NB NZ) [] (mkO (SB 1 2) (SB 1 2) (SZ 3) 1 [(ZZ 1 0)] [(P1E 1 [(RSP 2 NB NZ); (RSP 3 NB NZ); (RSP 0 NB NZ); (RSP 1 NB NZ); (RSP 4 NB NZ)])] [(ZZ 1 1)] [(ZOZ 1 (SZ 3))] false NZ [])); (RS 1 (IAccept 2 1 2 (SZ 3)) [(OAccepted 2 1 2 1)] (mkO (SB 1 2) (SB 1 2) (SZ 3) 0 [] [] [] [] false NZ [])); (RS 2 (IAccepted 1) [] (mkO (SB 1 2) (SB 1 2) (SZ 3) 1 [(ZZ 1 0)] [(P1E 1 [(RSP 2 NB NZ); (RSP 3 NB NZ); (RSP 0 NB NZ); (RSP 1 NB NZ); (RSP 4 NB NZ)])] [(ZZ 1 2)] [(ZOZ 1 (SZ 3))] false NZ [])); (RS 2 (IAccepted 1) [(ODecided 0 (SZ 3)); (ODecided 1 (SZ 3)); (ODecided 3 (SZ 3)); (ODecided 4 (SZ 3))] (mkO (SB 1 2) (SB 1 2) (SZ 3) 1 [(ZZ 1 0)] [(P1E 1 [(RSP 2 NB NZ); (RSP 3 NB NZ); (RSP 0 NB NZ); (RSP 1 NB NZ); (RSP 4 NB NZ)])] [(ZZ 1 3)] [(ZOZ 1 (SZ 3))] true (SZ 3) [(ZOZ 0 (SZ 3))])); (RS 1 (IDecided (SZ 3)) [] (mkO (SB 1 2) (SB 1 2) (SZ 3) 0 [] [] [] [] true (SZ 3) [])); (RS 3 (IDecided (SZ 3)) [] (mkO (SB 1 2) (SB 1 2) (SZ 3) 0 [] [] [] [] true (SZ 3) [])); (RS 2 (IAccepted 1) [] (mkO (SB 1 2) (SB 1 2) (SZ 3) 1 [(ZZ 1 0)] [(P1E 1 [(RSP 2 NB NZ); (RSP 3 NB NZ); (RSP 0 NB NZ); (RSP 1 NB NZ); (RSP 4 NB NZ)])] [(ZZ 1 4)] [(ZOZ 1 (SZ 3))] true (SZ 3) [(ZOZ 0 (SZ 3))])); (RS 2 (IAccepted 1) [] (mkO (SB 1 2) (SB 1 2) (SZ 3) 1 [(ZZ 1 0)] [(P1E 1 [(RSP 2 NB NZ); (RSP 3 NB NZ); (RSP 0 NB NZ); (RSP 1 NB NZ); (RSP 4 NB NZ)])] [(ZZ 1 5)] [(ZOZ 1 (SZ 3))] true (SZ 3) [(ZOZ 0 (SZ 3))])); (RS 4 (IDecided (SZ 3)) [] (mkO (SB 1 2) (SB 1 2) (SZ 3) 0 [] [] [] [] true (SZ 3) [])); (RS 0 (IDecided (SZ 3)) [] (mkO (SB 1 2) (SB 1 2) (SZ 3) 0 [] [] [] [] true (SZ 3) [])); (RS 0 (IPropose 1) [] (mkO (SB 1 2) (SB 1 2) (SZ 3) 0 [] [] [] [] true (SZ 3) [(ZOZ 0 (SZ 3))]))]).
Definition case_72 : Z * list rec_step := (4, [(RS 3 (IPropose 1) [(OPrepare 0 1 3); (OPrepare 1 1 3); (OPrepare 2 1 3)] (mkO (SB 1 3) NB NZ 1 [(ZZ 1 0)] [(P1E 1 [(RSP 3 NB NZ)])] [(ZZ 1 0)] [(ZOZ 1 (SZ 1))] false NZ [])); (RS 1 (IPrepare 3 1 3) [(OPromise 3 1 3 1 NB NZ)] (mkO (SB 1 3) NB NZ 0 [] [] [] [] false NZ [])); (RS 2 (IPrepare 3 1 3) [(OPromise 3 1 3 2 NB NZ)] (mkO (SB 1 3) NB NZ 0 [] [] [] [] false NZ [])); (RS 3 (IPromise 1 1 NB NZ) [] (mkO (SB 1 3) NB NZ 1 [(ZZ 1 0)] [(P1E 1 [(RSP 3 NB NZ); (RSP 1 NB NZ)])] [(ZZ 1 0)] [(ZOZ 1 (SZ 1))] false NZ [])); (RS 3 (IPromise 1 2 NB NZ) [(OAccept 0 1 3 (SZ 1)); (OAccept 1 1 3 (SZ 1)); (OAccept 2 1 3 (SZ 1))] (mkO (SB 1 3) (SB 1 3) (SZ 1) 1 [(ZZ 1 0)] [(P1E 1 [(RSP 3 NB NZ); (RSP 1 NB NZ); (RSP 2 NB NZ)])] [(ZZ 1 1)] [(ZOZ 1 (SZ 1))] false NZ [])); (RS 1 (IAccept 3 1 3 (SZ 1)) [(OAccepted 3 1 3 1)] (mkO (SB 1 3) (SB 1 3) (SZ 1) 0 [] [] [] [] false NZ [])); (RS 3 (IAccepted 1) [] (mkO (SB 1 3) (SB 1 3) (SZ 1) 1 [(ZZ 1 0)] [(P1E 1 [(RSP 3 NB NZ); (RSP 1 NB NZ); (RSP 2 NB NZ)])] [(ZZ 1 2)] [(ZOZ 1 (SZ 1))] false NZ [])); (RS 0 (IPrepare 3 1 3) [(OPromise 3 1 3 0 NB NZ)] (mkO (SB 1 3) NB NZ 0 [] [] [] [] false NZ [])); (RS 0 (IAccept 3 1 3 (SZ 1)) [(OAccepted 3 1 3 0)] (mkO (SB 1 3) (SB 1 3) (SZ 1) 0 [] [] [] [] false NZ [])); (RS 3 (IPromise 1 0 NB NZ) [] (mkO (SB 1 3) (SB 1 3) (SZ 1) 1 [(ZZ 1 0)] [(P1E 1 [(RSP 3 NB NZ); (RSP 1 NB NZ); (RSP 2 NB NZ); (RSP 0 NB NZ)])] [(ZZ 1 2)] [(ZOZ 1 (SZ 1))] false NZ [])); (RS 2 (IPropose 2) [(OPrepare 0 2 2); (OPrepare 1 2 2); (OPrepare 3 2 2)] (mkO (SB 2 2) NB NZ 2 [(ZZ 2 0)] [(P1E 2 [(RSP 2 NB NZ)])] [(ZZ 2 0)] [(ZOZ 2 (SZ 2))] false NZ [])); (RS 1 (IPrepare 2 2 2) [(OPromise 2 2 2 1 (SB 1 3) (SZ 1))] (mkO (SB 2 2) (SB 1 3) (SZ 1) 0 [] [] [] [] false NZ [])); (RS 3 (IPrepare 2 2 2) [(OPromise 2 2 2 3 (SB 1 3) (SZ 1))] (mkO (SB 2 2) (SB 1 3) (SZ 1) 1 [(ZZ 1 0)] [(P1E 1 [(RSP 3 NB NZ); (RSP 1 NB NZ); (RSP 2 NB NZ); (RSP 0 NB NZ)])] [(ZZ 1 2)] [(ZOZ 1 (SZ 1))] false NZ [])); (RS 2 (IPromise 2 3 (SB 1 3) (SZ 1)) [] (mkO (SB 2 2) NB NZ 2 [(ZZ 2 0)] [(P1E 2 [(RSP 2 NB NZ); (RSP 3 (SB 1 3) (SZ 1))])] [(ZZ 2 0)] [(ZOZ 2 (SZ 2))] false NZ [])); (RS 2 (IPromise 2 1 (SB 1 3) (SZ 1)) [(OAccept 0 2 2 (SZ 1)); (OAccept 1 2 2 (SZ 1)); (OAccept 3 2 2 (SZ 1))] (mkO (SB 2 2) (SB 2 2) (SZ 1) 2 [(ZZ 2 0)] [(P1E 2 [(RSP 2 NB NZ); (RSP 3 (SB 1 3) (SZ 1)); (RSP 1 (SB 1 3) (SZ 1))])] [(ZZ 2 1)] [(ZOZ 2 (SZ 1))] false NZ [])); (RS 0 (IAccept 2 2 2 (SZ 1)) [(OAccepted 2 2 2 0)] (mkO (SB 2 2) (SB 2 2) (SZ 1) 0 [] [] [] [] false NZ [])); (RS 3 (IAccept 2 2 2 (SZ 1)) [(OAccepted 2 2 2 3)] (mkO (SB 2 2) (SB 2 2) (SZ 1) 1 [(ZZ 1 0)] [(P1E 1 [(RSP 3 NB NZ); (RSP 1 NB NZ); (RSP 2 NB NZ); (RSP 0 NB NZ)])] [(ZZ 1 2)] [(ZOZ 1 (SZ 1))] false NZ [])); (RS 1 (IPropose 3) [(OPrepare 0 3 1); (OPrepare 2 3 1); (OPrepare 3 3 1)] (mkO (SB 3 1) (SB 1 3) (SZ 1) 3 [(ZZ 3 0)] [(P1E 3 [(RSP 1 (SB 1 3) (SZ 1))])] [(ZZ 3 0)] [(ZOZ 3 (SZ 3))] false NZ [])); (RS 0 (IPropose 4) [(OPrepare 1 3 0); (OPrepare 2 3 0); (OPrepare 3 3 0)] (mkO (SB 3 0) (SB 2 2) (SZ 1) 3 [(ZZ 3 0)] [(P1E 3 [(RSP 0 (SB 2 2) (SZ 1))])] [(ZZ 3 0)] [(ZOZ 3 (SZ 4))] false NZ [])); (RS 2 (IAccepted 2) [] (mkO (SB 2 2) (SB 2 2) (SZ 1) 2 [(ZZ 2 0)] [(P1E 2 [(RSP 2 NB NZ); (RSP 3 (SB 1 3) (SZ 1)); (RSP 1 (SB 1 3) (SZ 1))])] [(ZZ 2 2)] [(ZOZ 2 (SZ 1))] false NZ [])); (RS 0 (IPrepare 1 3 1) [(OPromise 1 3 1 0 (SB 2 2) (SZ 1))] (mkO (SB 3 1) (SB 2 2) (SZ 1) 3 [(ZZ 3 0)] [(P1E 3 [(RSP 0 (SB 2 2) (SZ 1))])] [(ZZ 3 0)] [(ZOZ 3 (SZ 4))] false NZ [])); (RS 3 (IPrepare 1 3 1) [(OPromise 1 3 1 3 (SB 2 2) (SZ 1))] (mkO (SB 3 1) (SB 2 2) (SZ 1) 1 [(ZZ 1 0)] [(P1E 1 [(RSP 3 NB NZ); (RSP 1 NB NZ); (RSP 2 NB NZ); (RSP 0 NB NZ)])] [(ZZ 1 2)] [(ZOZ 1 (SZ 1))] false NZ [])); (RS 1 (IPrepare 0 3 0) [(ONack 0 3 0 3 1)] (mkO (SB 3 1) (SB 1 3) (SZ 1) 3 [(ZZ 3 0)] [(P1E 3 [(RSP 1 (SB 1 3) (SZ 1))])] [(ZZ 3 0)] [(ZOZ 3 (SZ 3))] false NZ [])); (RS 2 (IPrepare 0 3 0) [(OPromise 0 3 0 2 (SB 2 2) (SZ 1))] (mkO (SB 3 0) (SB 2 2) (SZ 1) 2 [(ZZ 2 0)] [(P1E 2 [(RSP 2 NB NZ); (RSP 3 (SB 1 3) (SZ 1)); (RSP 1 (SB 1 3) (SZ 1))])] [(ZZ 2 2)] [(ZOZ 2 (SZ 1))] false NZ [])); (RS 1 (IPromise 3 3 (SB 2 2) (SZ 1)) [] (mkO (SB 3 1) (SB 1 3) (SZ 1) 3 [(ZZ 3 0)] [(P1E 3 [(RSP 1 (SB 1 3) (SZ 1)); (RSP 3 (SB 2 2) (SZ 1))])] [(ZZ 3 0)] [(ZOZ 3 (SZ 3))] false NZ [])); (RS 0 (INack 3 3) [(ORetry 3)] (mkO (SB 3 1) (SB 2 2) (SZ 1) 3 [(ZZ 3 0)] [(P1E 3 [(RSP 0 (SB 2 2) (SZ 1))])] [(ZZ 3 0)] [(ZOZ 3 (SZ 4))] false NZ [])); (RS 0 (IRetry 3) [(OPrepare 1 4 0); (OPrepare 2 4 0); (OPrepare 3 4 0)] (mkO (SB 4 0) (SB 2 2) (SZ 1) 4 [(ZZ 4 0)] [(P1E 3 [(RSP 0 (SB 2 2) (SZ 1))]); (P1E 4 [(RSP 0 (SB 2 2) (SZ 1))])] [(ZZ 3 0); (ZZ 4 0)] [(ZOZ 4 (SZ 4))] false NZ [])); (RS 2 (IPrepare 0 4 0) [(OPromise 0 4 0 2 (SB 2 2) (SZ 1))] (mkO (SB 4 0) (SB 2 2) (SZ 1) 2 [(ZZ 2 0)] [(P1E 2 [(RSP 2 NB NZ); (RSP 3 (SB 1 3) (SZ 1)); (RSP 1 (SB 1 3) (SZ 1))])] [(ZZ 2 2)] [(ZOZ 2 (SZ 1))] false NZ [])); (RS 3 (IPrepare 0 4 0) [(OPromise 0 4 0 3 (SB 2 2) (SZ 1))] (mkO (SB 4 0) (SB 2 2) (SZ 1) 1 [(ZZ 1 0)] [(P1E 1 [(RSP 3 NB NZ); (RSP 1 NB NZ); (RSP 2 NB NZ); (RSP 0 NB NZ)])] [(ZZ 1 2)] [(ZOZ 1 (SZ 1))] false NZ [])); (RS 1 (IPrepare 0 4 0) [(OPromise 0 4 0 1 (SB 1 3) (SZ 1))] (mkO (SB 4 0) (SB 1 3) (SZ 1) 3 [(ZZ 3 0)] [(P1E 3 [(RSP 1 (SB 1 3) (SZ 1)); (RSP 3 (SB 2 2) (SZ 1))])] [(ZZ 3 0)] [(ZOZ 3 (SZ 3))] false NZ [])); (RS 0 (IPromise 4 1 (SB 1 3) (SZ 1)) [] (mkO (SB 4 0) (SB 2 2) (SZ 1) 4 [(ZZ 4 0)] [(P1E 3 [(RSP 0 (SB 2 2) (SZ 1))]); (P1E 4 [(RSP 0 (SB 2 2) (SZ 1)); (RSP 1 (SB 1 3) (SZ 1))])] [(ZZ 3 0); (ZZ 4 0)] [(ZOZ 4 (SZ 4))] false NZ [])); (RS 0 (IPromise 4 2 (SB 2 2) (SZ 1)) [(OAccept 1 4 0 (SZ 1)); (OAccept 2 4 0 (SZ 1)); (OAccept 3 4 0 (SZ 1))] (mkO (SB 4 0) (SB 4 0) (SZ 1) 4 [(ZZ 4 0)] [(P1E 3 [(RSP 0 (SB 2 2) (SZ 1))]); (P1E 4 [(RSP 0 (SB 2 2) (SZ 1)); (RSP 1 (SB 1 3) (SZ 1)); (RSP 2 (SB 2 2) (SZ 1))])] [(ZZ 3 0); (ZZ 4 1)] [(ZOZ 4 (SZ 1))] false NZ [])); (RS 0 (IPromise 4 3 (SB 2 2) (SZ 1)) [] (mkO (SB 4 0) (SB 4 0) (SZ 1) 4 [(ZZ 4 0)] [(P1E 3 [(RSP 0 (SB 2 2) (SZ 1))]); (P1E 4 [(RSP 0 (SB 2 2) (SZ 1)); (RSP 1 (SB 1 3) (SZ 1)); (RSP 2 (SB 2 2) (SZ 1)); (RSP 3 (SB 2 2) (SZ 1))])] [(ZZ 3 0); (ZZ 4 1)] [(ZOZ 4 (SZ 1))] false NZ [])); (RS 2 (IAccept 0 4 0 (SZ 1)) [(OAccepted 0 4 0 2)] (mkO (SB 4 0) (SB 4 0) (SZ 1) 2 [(ZZ 2 0)] [(P1E 2 [(RSP 2 NB NZ); (RSP 3 (SB 1 3) (SZ 1)); (RSP 1 (SB 1 3) (SZ 1))])] [(ZZ 2 2)] [(ZOZ 2 (SZ 1))] false NZ [])); (RS 3 (IAccept 0 4 0 (SZ 1)) [(OAccepted 0 4 0 3)] (mkO (SB 4 0) (SB 4 0) (SZ 1) 1 [(ZZ 1 0)] [(P1E 1 [(RSP 3 NB NZ); (RSP 1 NB NZ); (RSP 2 NB NZ); (RSP 0 NB NZ)])] [(ZZ 1 2)] [(ZOZ 1 (SZ 1))] false NZ [])); (RS 0 (IAccepted 4) [] (mkO (SB 4 0) (SB 4 0) (SZ 1) 4 [(ZZ 4 0)] [(P1E 3 [(RSP 0 (SB 2 2) (SZ 1))]); (P1E 4 [(RSP 0 (SB 2 2) (SZ 1)); (RSP 1 (SB 1 3) (SZ 1)); (RSP 2 (SB 2 2) (SZ 1)); (RSP 3 (SB 2 2) (SZ 1))])] [(ZZ 3 0); (ZZ 4 2)] [(ZOZ 4 (SZ 1))] false NZ [])); (RS 0 (IAccepted 4) [(ODecided 1 (SZ 1)); (ODecided 2 (SZ 1)); (ODecided 3 (SZ 1))] (mkO (SB 4 0) (SB 4 0) (SZ 1) 4 [(ZZ 4 0)] [(P1E 3 [(RSP 0 (SB 2 2) (SZ 1))]); (P1E 4 [(RSP 0 (SB 2 2) (SZ 1)); (RSP 1 (SB 1 3) (SZ 1)); (RSP 2 (SB 2 2) (SZ 1)); (RSP 3 (SB 2 2) (SZ 1))])] [(ZZ 3 0); (ZZ 4 3)] [(ZOZ 4 (SZ 1))] true (SZ 1) [(ZOZ 0 (SZ 1))])); (RS 2 (IDecided (SZ 1)) [] (mkO (SB 4 0) (SB 4 0) (SZ 1) 2 [(ZZ 2 0)] [(P1E 2 [(RSP 2 NB NZ); (RSP 3 (SB 1 3) (SZ 1)); (RSP 1 (SB 1 3) (SZ 1))])] [(ZZ 2 2)] [(ZOZ 2 (SZ 1))] true (SZ 1) [])); (RS 1 (IAccept 0 4 0 (SZ 1)) [(OAccepted 0 4 0 1)] (mkO (SB 4 0) (SB 4 0) (SZ 1) 3 [(ZZ 3 0)] [(P1E 3 [(RSP 1 (SB 1 3) (SZ 1)); (RSP 3 (SB 2 2) (SZ 1))])] [(ZZ 3 0)] [(ZOZ 3 (SZ 3))] false NZ [])); (RS 0 (IAccepted 4) [] (mkO (SB 4 0) (SB 4 0) (SZ 1) 4 [(ZZ 4 0)] [(P1E 3 [(RSP 0 (SB 2 2) (SZ 1))]); (P1E 4 [(RSP 0 (SB 2 2) (SZ 1)); (RSP 1 (SB 1 3) (SZ 1)); (RSP 2 (SB 2 2) (SZ 1)); (RSP 3 (SB 2 2) (SZ 1))])] [(ZZ 3 0); (ZZ 4 4)] [(ZOZ 4 (SZ 1))] true (SZ 1) [(ZOZ 0 (SZ 1))])); (RS 1 (IDecided (SZ 1)) [] (mkO (SB 4 0) (SB 4 0) (SZ 1) 3 [(ZZ 3 0)] [(P1E 3 [(RSP 1 (SB 1 3) (SZ 1)); (RSP 3 (SB 2 2) (SZ 1))])] [(ZZ 3 0)] [(ZOZ 3 (SZ 3))] true (SZ 1) []))]).
Definition case_73 : Z * list rec_step := (3, [(RS 0 (IPropose 2) [(OPrepare 1 1 0); (OPrepare 2 1 0)] (mkO (SB 1 0) NB NZ 1 [(ZZ 1 0)] [(P1E 1 [(RSP 0 NB NZ)])] [(ZZ 1 0)] [(ZOZ 1 (SZ 2))] false NZ [])); (RS 1 (IPrepare 0 1 0) [(OPromise 0 1 0 1 NB NZ)] (mkO (SB 1 0) NB NZ 0 [] [] [] [] false NZ [])); (RS 0 (IPromise 1 1 NB NZ) [(OAccept 1 1 0 (SZ 2)); (OAccept 2 1 0 (SZ 2))] (mkO (SB 1 0) (SB 1 0) (SZ 2) 1 [(ZZ 1 0)] [(P1E 1 [(RSP 0 NB NZ); (RSP 1 NB NZ)])] [(ZZ 1 1)] [(ZOZ 1 (SZ 2))] false NZ [])); (RS 2 (IPropose 2) [(OPrepare 0 1 2); (OPrepare 1 1 2)] (mkO (SB 1 2) NB NZ 1 [(ZZ 1 0)] [(P1E 1 [(RSP 2 NB NZ)])] [(ZZ 1 0)] [(ZOZ 1 (SZ 2))] false NZ [])); (RS 0 (IPrepare 2 1 2) [(OPromise 2 1 2 0 (SB 1 0) (SZ 2))] (mkO (SB 1 2) (SB 1 0) (SZ 2) 1 [(ZZ 1 0)] [(P1E 1 [(RSP 0 NB NZ); (RSP 1 NB NZ)])] [(ZZ 1 1)] [(ZOZ 1 (SZ 2))] false NZ [])); (RS 1 (IPrepare 2 1 2) [(OPromise 2 1 2 1 NB NZ)] (mkO (SB 1 2) NB NZ 0 [] [] [] [] false NZ [])); (RS 1 (IPropose 2) [(OPrepare 0 2 1); (OPrepare 2 2 1)] (mkO (SB 2 1) NB NZ 2 [(ZZ 2 0)] [(P1E 2 [(RSP 1 NB NZ)])] [(ZZ 2 0)] [(ZOZ 2 (SZ 2))] false NZ [])); (RS 2 (IPropose 1) [(OPrepare 0 2 2); (OPrepare 1 2 2)] (mkO (SB 2 2) NB NZ 2 [(ZZ 1 0); (ZZ 2 1)] [(P1E 1 [(RSP 2 NB NZ)]); (P1E 2 [(RSP 2 NB NZ)])] [(ZZ 1 0); (ZZ 2 0)] [(ZOZ 1 (SZ 2)); (ZOZ 2 (SZ 1))] false NZ [])); (RS 2 (IPrepare 0 1 0) [(ONack 0 1 0 2 2)] (mkO (SB 2 2) NB NZ 2 [(ZZ 1 0); (ZZ 2 1)] [(P1E 1 [(RSP 2 NB NZ)]); (P1E 2 [(RSP 2 NB NZ)])] [(ZZ 1 0); (ZZ 2 0)] [(ZOZ 1 (SZ 2)); (ZOZ 2 (SZ 1))] false NZ [])); (RS 1 (IPrepare 2 2 2) [(OPromise 2 2 2 1 NB NZ)] (mkO (SB 2 2) NB NZ 2 [(ZZ 2 0)] [(P1E 2 [(RSP 1 NB NZ)])] [(ZZ 2 0)] [(ZOZ 2 (SZ 2))] false NZ [])); (RS 1 (IAccept 0 1 0 (SZ 2)) [(ONack 0 1 0 2 2)] (mkO (SB 2 2) NB NZ 2 [(ZZ 2 0)] [(P1E 2 [(RSP 1 NB NZ)])] [(ZZ 2 0)] [(ZOZ 2 (SZ 2))] false NZ [])); (RS 2 (IAccept 0 1 0 (SZ 2)) [(ONack 0 1 0 2 2)] (mkO (SB 2 2) NB NZ 2 [(ZZ 1 0); (ZZ 2 1)] [(P1E 1 [(RSP 2 NB NZ)]); (P1E 2 [(RSP 2 NB NZ)])] [(ZZ 1 0); (ZZ 2 0)] [(ZOZ 1 (SZ 2)); (ZOZ 2 (SZ 1))] false NZ [])); (RS 0 (INack 1 2) [(ORetry 1)] (mkO (SB 1 2) (SB 1 0) (SZ 2) 2 [(ZZ 1 0)] [(P1E 1 [(RSP 0 NB NZ); (RSP 1 NB NZ)])] [(ZZ 1 1)] [(ZOZ 1 (SZ 2))] false NZ [])); (RS 0 (INack 1 2) [(ORetry 1)] (mkO (SB 1 2) (SB 1 0) (SZ 2) 2 [(ZZ 1 0)] [(P1E 1 [(RSP 0 NB NZ); (RSP 1 NB NZ)])] [(ZZ 1 1)] [(ZOZ 1 (SZ 2))] false NZ [])); (RS 2 (IPromise 2 1 NB NZ) [(OAccept 0 2 2 (SZ 1)); (OAccept 1 2 2 (SZ 1))] (mkO (SB 2 2) (SB 2 2) (SZ 1) 2 [(ZZ 1 0); (ZZ 2 1)] [(P1E 1 [(RSP 2 NB NZ)]); (P1E 2 [(RSP 2 NB NZ); (RSP 1 NB NZ)])] [(ZZ 1 0); (ZZ 2 1)] [(ZOZ 1 (SZ 2)); (ZOZ 2 (SZ 1))] false NZ [])); (RS 0 (INack 1 2) [(ORetry 1)] (mkO (SB 1 2) (SB 1 0) (SZ 2) 2 [(ZZ 1 0)] [(P1E 1 [(RSP 0 NB NZ); (RSP 1 NB NZ)])] [(ZZ 1 1)] [(ZOZ 1 (SZ 2))] false NZ [])); (RS 0 (IAccept 2 2 2 (SZ 1)) [(OAccepted 2 2 2 0)] (mkO (SB 2 2) (SB 2 2) (SZ 1) 2 [(ZZ 1 0)] [(P1E 1 [(RSP 0 NB NZ); (RSP 1 NB NZ)])] [(ZZ 1 1)] [(ZOZ 1 (SZ 2))] false NZ [])); (RS 1 (IAccept 2 2 2 (SZ 1)) [(OAccepted 2 2 2 1)] (mkO (SB 2 2) (SB 2 2) (SZ 1) 2 [(ZZ 2 0)] [(P1E 2 [(RSP 1 NB NZ)])] [(ZZ 2 0)] [(ZOZ 2 (SZ 2))] false NZ [])); (RS 2 (IPromise 1 0 (SB 1 0) (SZ 2)) [(OAccept 0 1 2 (SZ 2)); (OAccept 1 1 2 (SZ 2))] (mkO (SB 2 2) (SB 2 2) (SZ 1) 2 [(ZZ 1 0); (ZZ 2 1)] [(P1E 1 [(RSP 2 NB NZ); (RSP 0 (SB 1 0) (SZ 2))]); (P1E 2 [(RSP 2 NB NZ); (RSP 1 NB NZ)])] [(ZZ 1 0); (ZZ 2 1)] [(ZOZ 1 (SZ 2)); (ZOZ 2 (SZ 1))] false NZ [])); (RS 2 (IPromise 1 1 NB NZ) [] (mkO (SB 2 2) (SB 2 2) (SZ 1) 2 [(ZZ 1 0); (ZZ 2 1)] [(P1E 1 [(RSP 2 NB NZ); (RSP 0 (SB 1 0) (SZ 2)); (RSP 1 NB NZ)]); (P1E 2 [(RSP 2 NB NZ); (RSP 1 NB NZ)])] [(ZZ 1 0); (ZZ 2 1)] [(ZOZ 1 (SZ 2)); (ZOZ 2 (SZ 1))] false NZ [])); (RS 0 (IPrepare 1 2 1) [(ONack 1 2 1 2 2)] (mkO (SB 2 2) (SB 2 2) (SZ 1) 2 [(ZZ 1 0)] [(P1E 1 [(RSP 0 NB NZ); (RSP 1 NB NZ)])] [(ZZ 1 1)] [(ZOZ 1 (SZ 2))] false NZ [])); (RS 0 (IPrepare 2 2 2) [(OPromise 2 2 2 0 (SB 2 2) (SZ 1))] (mkO (SB 2 2) (SB 2 2) (SZ 1) 2 [(ZZ 1 0)] [(P1E 1 [(RSP 0 NB NZ); (RSP 1 NB NZ)])] [(ZZ 1 1)] [(ZOZ 1 (SZ 2))] false NZ [])); (RS 1 (INack 2 2) [(ORetry 2)] (mkO (SB 2 2) (SB 2 2) (SZ 1) 2 [(ZZ 2 0)] [(P1E 2 [(RSP 1 NB NZ)])] [(ZZ 2 0)] [(ZOZ 2 (SZ 2))] false NZ [])); (RS 1 (IAccept 2 1 2 (SZ 2)) [(ONack 2 1 2 2 2)] (mkO (SB 2 2) (SB 2 2) (SZ 1) 2 [(ZZ 2 0)] [(P1E 2 [(RSP 1 NB NZ)])] [(ZZ 2 0)] [(ZOZ 2 (SZ 2))] false NZ [])); (RS 2 (IAccepted 2) [(ODecided 0 (SZ 1)); (ODecided 1 (SZ 1))] (mkO (SB 2 2) (SB 2 2) (SZ 1) 2 [(ZZ 1 0); (ZZ 2 1)] [(P1E 1 [(RSP 2 NB NZ); (RSP 0 (SB 1 0) (SZ 2)); (RSP 1 NB NZ)]); (P1E 2 [(RSP 2 NB NZ); (RSP 1 NB NZ)])] [(ZZ 1 0); (ZZ 2 2)] [(ZOZ 1 (SZ 2)); (ZOZ 2 (SZ 1))] true (SZ 1) [(ZOZ 1 (SZ 1))])); (RS 0 (IDecided (SZ 1)) [] (mkO (SB 2 2) (SB 2 2) (SZ 1) 2 [(ZZ 1 0)] [(P1E 1 [(RSP 0 NB NZ); (RSP 1 NB NZ)])] [(ZZ 1 1)] [(ZOZ 1 (SZ 2))] true (SZ 1) [])); (RS 1 (IDecided (SZ 1)) [] (mkO (SB 2 2) (SB 2 2) (SZ 1) 2 [(ZZ 2 0)] [(P1E 2 [(RSP 1 NB NZ)])] [(ZZ 2 0)] [(ZOZ 2 (SZ 2))] true (SZ 1) [])); (RS 0 (IRetry 1) [] (mkO (SB 2 2) (SB 2 2) (SZ 1) 2 [(ZZ 1 0)] [(P1E 1 [(RSP 0 NB NZ); (RSP 1 NB NZ)])] [(ZZ 1 1)] [(ZOZ 1 (SZ 2))] true (SZ 1) [])); (RS 0 (IRetry 1) [] (mkO (SB 2 2) (SB 2 2) (SZ 1) 2 [(ZZ 1 0)] [(P1E 1 [(RSP 0 NB NZ); (RSP 1 NB NZ)])] [(ZZ 1 1)] [(ZOZ 1 (SZ 2))] true (SZ 1) [])); (RS 0 (IRetry 1) [] (mkO (SB 2 2) (SB 2 2) (SZ 1) 2 [(ZZ 1 0)] [(P1E 1 [(RSP 0 NB NZ); (RSP 1 NB NZ)])] [(ZZ 1 1)] [(ZOZ 1 (SZ 2))] true (SZ 1) [])); (RS 2 (INack 1 2) [(ORetry 1)] (mkO (SB 2 2) (SB 2 2) (SZ 1) 2 [(ZZ 1 0); (ZZ 2 1)] [(P1E 1 [(RSP 2 NB NZ); (RSP 0 (SB 1 0) (SZ 2)); (RSP 1 NB NZ)]); (P1E 2 [(RSP 2 NB NZ); (RSP 1 NB NZ)])] [(ZZ 1 0); (ZZ 2 2)] [(ZOZ 1 (SZ 2)); (ZOZ 2 (SZ 1))] true (SZ 1) [(ZOZ 1 (SZ 1))])); (RS 1 (IRetry 2) [] (mkO (SB 2 2) (SB 2 2) (SZ 1) 2 [(ZZ 2 0)] [(P1E 2 [(RSP 1 NB NZ)])] [(ZZ 2 0)] [(ZOZ 2 (SZ 2))] true (SZ 1) [])); (RS 2 (IRetry 1) [] (mkO (SB 2 2) (SB 2 2) (SZ 1) 2 [(ZZ 1 0); (ZZ 2 1)] [(P1E 1 [(RSP 2 NB NZ); (RSP 0 (SB 1 0) (SZ 2)); (RSP 1 NB NZ)]); (P1E 2 [(RSP 2 NB NZ); (RSP 1 NB NZ)])] [(ZZ 1 0); (ZZ 2 2)] [(ZOZ 1 (SZ 2)); (ZOZ 2 (SZ 1))] true (SZ 1) [(ZOZ 1 (SZ 1))])); (RS 2 (IPrepare 1 2 1) [(ONack 1 2 1 2 2)] (mkO (SB 2 2) (SB 2 2) (SZ 1) 2 [(ZZ 1 0); (ZZ 2 1)] [(P1E 1 [(RSP 2 NB NZ); (RSP 0 (SB 1 0) (SZ 2)); (RSP 1 NB NZ)]); (P1E 2 [(RSP 2 NB NZ); (RSP 1 NB NZ)])] [(ZZ 1 0); (ZZ 2 2)] [(ZOZ 1 (SZ 2)); (ZOZ 2 (SZ 1))] true (SZ 1) [(ZOZ 1 (SZ 1))])); (RS 1 (INack 2 2) [(ORetry 2)] (mkO (SB 2 2) (SB 2 2) (SZ 1) 2 [(ZZ 2 0)] [(P1E 2 [(RSP 1 NB NZ)])] [(ZZ 2 0)] [(ZOZ 2 (SZ 2))] true (SZ 1) [])); (RS 2 (IAccepted 2) [] (mkO (SB 2 2) (SB 2 2) (SZ 1) 2 [(ZZ 1 0); (ZZ 2 1)] [(P1E 1 [(RSP 2 NB NZ); (RSP 0 (SB 1 0) (SZ 2)); (RSP 1 NB NZ)]); (P1E 2 [(RSP 2 NB NZ); (RSP 1 NB NZ)])] [(ZZ 1 0); (ZZ 2 3)] [(ZOZ 1 (SZ 2)); (ZOZ 2 (SZ 1))] true (SZ 1) [(ZOZ 1 (SZ 1))])); (RS 0 (IAccept 2 1 2 (SZ 2)) [(ONack 2 1 2 2 2)] (mkO (SB 2 2) (SB 2 2) (SZ 1) 2 [(ZZ 1 0)] [(P1E 1 [(RSP 0 NB NZ); (RSP 1 NB NZ)])] [(ZZ 1 1)] [(ZOZ 1 (SZ 2))] true (SZ 1) [])); (RS 2 (IPromise 2 0 (SB 2 2) (SZ 1)) [] (mkO (SB 2 2) (SB 2 2) (SZ 1) 2 [(ZZ 1 0); (ZZ 2 1)] [(P1E 1 [(RSP 2 NB NZ); (RSP 0 (SB 1 0) (SZ 2)); (RSP 1 NB NZ)]); (P1E 2 [(RSP 2 NB NZ); (RSP 1 NB NZ); (RSP 0 (SB 2 2) (SZ 1))])] [(ZZ 1 0); (ZZ 2 3)] [(ZOZ 1 (SZ 2)); (ZOZ 2 (SZ 1))] true (SZ 1) [(ZOZ 1 (SZ 1))])); (RS 2 (INack 1 2) [(ORetry 1)] (mkO (SB 2 2) (SB 2 2) (SZ 1) 2 [(ZZ 1 0); (ZZ 2 1)] [(P1E 1 [(RSP 2 NB NZ); (RSP 0 (SB 1 0) (SZ 2)); (RSP 1 NB NZ)]); (P1E 2 [(RSP 2 NB NZ); (RSP 1 NB NZ); (RSP 0 (SB 2 2) (SZ 1))])] [(ZZ 1 0); (ZZ 2 3)] [(ZOZ 1 (SZ 2)); (ZOZ 2 (SZ 1))] true (SZ 1) [(ZOZ 1 (SZ 1))])); (RS 1 (IRetry 2) [] (mkO (SB 2 2) (SB 2 2) (SZ 1) 2 [(ZZ 2 0)] [(P1E 2 [(RSP 1 NB NZ)])] [(ZZ 2 0)] [(ZOZ 2 (SZ 2))] true (SZ 1) [])); (RS 2 (IRetry 1) [] (mkO (SB 2 2) (SB 2 2) (SZ 1) 2 [(ZZ 1 0); (ZZ 2 1)] [(P1E 1 [(RSP 2 NB NZ); (RSP 0 (SB 1 0) (SZ 2)); (RSP 1 NB NZ)]); (P1E 2 [(RSP 2 NB NZ); (RSP 1 NB NZ); (RSP 0 (SB 2 2) (SZ 1))])] [(ZZ 1 0); (ZZ 2 3)] [(ZOZ 1 (SZ 2)); (ZOZ 2 (SZ 1))] true (SZ 1) [(ZOZ 1 (SZ 1))]))]).
Definition case_74 : Z * list rec_step := (4, [(RS 0 (IPropose 1) [(OPrepare 1 1 0); (OPrepare 2 1 0); (OPrepare 3 1 0)] (mkO (SB 1 0) NB NZ 1 [(ZZ 1 0)] [(P1E 1 [(RSP 0 NB NZ)])] [(ZZ 1 0)] [(ZOZ 1 (SZ 1))] false NZ [])); (RS 1 (IPrepare 0 1 0) [(OPromise 0 1 0 1 NB NZ)] (mkO (SB 1 0) NB NZ 0 [] [] [] [] false NZ [])); (RS 1 (IPropose 2) [(OPrepare 0 2 1); (OPrepare 2 2 1); (OPrepare 3 2 1)] (mkO (SB 2 1) NB NZ 2 [(ZZ 2 0)] [(P1E 2 [(RSP 1 NB NZ)])] [(ZZ 2 0)] [(ZOZ 2 (SZ 2))] false NZ [])); (RS 0 (IPrepare 1 2 1) [(OPromise 1 2 1 0 NB NZ)] (mkO (SB 2 1) NB NZ 1 [(ZZ 1 0)] [(P1E 1 [(RSP 0 NB NZ)])] [(ZZ 1 0)] [(ZOZ 1 (SZ 1))] false NZ [])); (RS 2 (IPrepare 1 2 1) [(OPromise 1 2 1 2 NB NZ)] (mkO (SB 2 1) NB NZ 0 [] [] [] [] false NZ [])); (RS 3 (IPrepare 1 2 1) [(OPromise 1 2 1 3 NB NZ)] (mkO (SB 2 1) NB NZ 0 [] [] [] [] false NZ [])); (RS 1 (IPromise 2 2 NB NZ) [] (mkO (SB 2 1) NB NZ 2 [(ZZ 2 0)] [(P1E 2 [(RSP 1 NB NZ); (RSP 2 NB NZ)])] [(ZZ 2 0)] [(ZOZ 2 (SZ 2))] false NZ [])); (RS 3 (IPropose 3) [(OPrepare 0 3 3); (OPrepare 1 3 3); (OPrepare 2 3 3)] (mkO (SB 3 3) NB NZ 3 [(ZZ 3 0)] [(P1E 3 [(RSP 3 NB NZ)])] [(ZZ 3 0)] [(ZOZ 3 (SZ 3))] false NZ [])); (RS 1 (IPromise 2 0 NB NZ) [(OAccept 0 2 1 (SZ 2)); (OAccept 2 2 1 (SZ 2)); (OAccept 3 2 1 (SZ 2))] (mkO (SB 2 1) (SB 2 1) (SZ 2) 2 [(ZZ 2 0)] [(P1E 2 [(RSP 1 NB NZ); (RSP 2 NB NZ); (RSP 0 NB NZ)])] [(ZZ 2 1)] [(ZOZ 2 (SZ 2))] false NZ [])); (RS 2 (IPrepare 3 3 3) [(OPromise 3 3 3 2 NB NZ)] (mkO (SB 3 3) NB NZ 0 [] [] [] [] false NZ [])); (RS 3 (IAccept 1 2 1 (SZ 2)) [(ONack 1 2 1 3 3)] (mkO (SB 3 3) NB NZ 3 [(ZZ 3 0)] [(P1E 3 [(RSP 3 NB NZ)])] [(ZZ 3 0)] [(ZOZ 3 (SZ 3))] false NZ [])); (RS 2 (IAccept 1 2 1 (SZ 2)) [(ONack 1 2 1 3 3)] (mkO (SB 3 3) NB NZ 0 [] [] [] [] false NZ [])); (RS 3 (IPromise 3 2 NB NZ) [] (mkO (SB 3 3) NB NZ 3 [(ZZ 3 0)] [(P1E 3 [(RSP 3 NB NZ); (RSP 2 NB NZ)])] [(ZZ 3 0)] [(ZOZ 3 (SZ 3))] false NZ [])); (RS 1 (INack 2 3) [(ORetry 2)] (mkO (SB 2 1) (SB 2 1) (SZ 2) 3 [(ZZ 2 0)] [(P1E 2 [(RSP 1 NB NZ); (RSP 2 NB NZ); (RSP 0 NB NZ)])] [(ZZ 2 1)] [(ZOZ 2 (SZ 2))] false NZ [])); (RS 1 (IRetry 2) [(OPrepare 0 4 1); (OPrepare 2 4 1); (OPrepare 3 4 1)] (mkO (SB 4 1) (SB 2 1) (SZ 2) 4 [(ZZ 4 0)] [(P1E 2 [(RSP 1 NB NZ); (RSP 2 NB NZ); (RSP 0 NB NZ)]); (P1E 4 [(RSP 1 (SB 2 1) (SZ 2))])] [(ZZ 2 1); (ZZ 4 0)] [(ZOZ 4 (SZ 2))] false NZ [])); (RS 2 (IPrepare 1 4 1) [(OPromise 1 4 1 2 NB NZ)] (mkO (SB 4 1) NB NZ 0 [] [] [] [] false NZ [])); (RS 3 (IPrepare 1 4 1) [(OPromise 1 4 1 3 NB NZ)] (mkO (SB 4 1) NB NZ 3 [(ZZ 3 0)] [(P1E 3 [(RSP 3 NB NZ); (RSP 2 NB NZ)])] [(ZZ 3 0)] [(ZOZ 3 (SZ 3))] false NZ [])); (RS 1 (IPromise 4 3 NB NZ) [] (mkO (SB 4 1) (SB 2 1) (SZ 2) 4 [(ZZ 4 0)] [(P1E 2 [(RSP 1 NB NZ); (RSP 2 NB NZ); (RSP 0 NB NZ)]); (P1E 4 [(RSP 1 (SB 2 1) (SZ 2)); (RSP 3 NB NZ)])] [(ZZ 2 1); (ZZ 4 0)] [(ZOZ 4 (SZ 2))] false NZ [])); (RS 1 (IPromise 4 2 NB NZ) [(OAccept 0 4 1 (SZ 2)); (OAccept 2 4 1 (SZ 2)); (OAccept 3 4 1 (SZ 2))] (mkO (SB 4 1) (SB 4 1) (SZ 2) 4 [(ZZ 4 0)] [(P1E 2 [(RSP 1 NB NZ); (RSP 2 NB NZ); (RSP 0 NB NZ)]); (P1E 4 [(RSP 1 (SB 2 1) (SZ 2)); (RSP 3 NB NZ); (RSP 2 NB NZ)])] [(ZZ 2 1); (ZZ 4 1)] [(ZOZ 4 (SZ 2))] false NZ [])); (RS 2 (IAccept 1 4 1 (SZ 2)) [(OAccepted 1 4 1 2)] (mkO (SB 4 1) (SB 4 1) (SZ 2) 0 [] [] [] [] false NZ [])); (RS 0 (IAccept 1 4 1 (SZ 2)) [(OAccepted 1 4 1 0)] (mkO (SB 4 1) (SB 4 1) (SZ 2) 1 [(ZZ 1 0)] [(P1E 1 [(RSP 0 NB NZ)])] [(ZZ 1 0)] [(ZOZ 1 (SZ 1))] false NZ [])); (RS 3 (IAccept 1 4 1 (SZ 2)) [(OAccepted 1 4 1 3)] (mkO (SB 4 1) (SB 4 1) (SZ 2) 3 [(ZZ 3 0)] [(P1E 3 [(RSP 3 NB NZ); (RSP 2 NB NZ)])] [(ZZ 3 0)] [(ZOZ 3 (SZ 3))] false NZ [])); (RS 1 (IAccepted 4) [] (mkO (SB 4 1) (SB 4 1) (SZ 2) 4 [(ZZ 4 0)] [(P1E 2 [(RSP 1 NB NZ); (RSP 2 NB NZ); (RSP 0 NB NZ)]); (P1E 4 [(RSP 1 (SB 2 1) (SZ 2)); (RSP 3 NB NZ); (RSP 2 NB NZ)])] [(ZZ 2 1); (ZZ 4 2)] [(ZOZ 4 (SZ 2))] false NZ [])); (RS 1 (IAccepted 4) [(ODecided 0 (SZ 2)); (ODecided 2 (SZ 2)); (ODecided 3 (SZ 2))] (mkO (SB 4 1) (SB 4 1) (SZ 2) 4 [(ZZ 4 0)] [(P1E 2 [(RSP 1 NB NZ); (RSP 2 NB NZ); (RSP 0 NB NZ)]); (P1E 4 [(RSP 1 (SB 2 1) (SZ 2)); (RSP 3 NB NZ); (RSP 2 NB NZ)])] [(ZZ 2 1); (ZZ 4 3)] [(ZOZ 4 (SZ 2))] true (SZ 2) [(ZOZ 0 (SZ 2))])); (RS 1 (IAccepted 4) [] (mkO (SB 4 1) (SB 4 1) (SZ 2) 4 [(ZZ 4 0)] [(P1E 2 [(RSP 1 NB NZ); (RSP 2 NB NZ); (RSP 0 NB NZ)]); (P1E 4 [(RSP 1 (SB 2 1) (SZ 2)); (RSP 3 NB NZ); (RSP 2 NB NZ)])] [(ZZ 2 1); (ZZ 4 4)] [(ZOZ 4 (SZ 2))] true (SZ 2) [(ZOZ 0 (SZ 2))])); (RS 2 (IDecided (SZ 2)) [] (mkO (SB 4 1) (SB 4 1) (SZ 2) 0 [] [] [] [] true (SZ 2) [])); (RS 3 (IDecided (SZ 2)) [] (mkO (SB 4 1) (SB 4 1) (SZ 2) 3 [(ZZ 3 0)] [(P1E 3 [(RSP 3 NB NZ); (RSP 2 NB NZ)])] [(ZZ 3 0)] [(ZOZ 3 (SZ 3))] true (SZ 2) []))]).
Definition case_75 : Z * list rec_step := (3, [(RS 2 (IPropose 3) [(OPrepare 0 1 2); (OPrepare 1 1 2)] (mkO (SB 1 2) NB NZ 1 [(ZZ 1 0)] [(P1E 1 [(RSP 2 NB NZ)])] [(ZZ 1 0)] [(ZOZ 1 (SZ 3))] false NZ [])); (RS 0 (IPrepare 2 1 2) [(OPromise 2 1 2 0 NB NZ)] (mkO (SB 1 2) NB NZ 0 [] [] [] [] false NZ [])); (RS 0 (IPropose 3) [(OPrepare 1 2 0); (OPrepare 2 2 0)] (mkO (SB 2 0) NB NZ 2 [(ZZ 2 0)] [(P1E 2 [(RSP 0 NB NZ)])] [(ZZ 2 0)] [(ZOZ 2 (SZ 3))] false NZ [])); (RS 2 (IPromise 1 0 NB NZ) [(OAccept 0 1 2 (SZ 3)); (OAccept 1 1 2 (SZ 3))] (mkO (SB 1 2) (SB 1 2) (SZ 3) 1 [(ZZ 1 0)] [(P1E 1 [(RSP 2 NB NZ); (RSP 0 NB NZ)])] [(ZZ 1 1)] [(ZOZ 1 (SZ 3))] false NZ [])); (RS 1 (IPrepare 2 1 2) [(OPromise 2 1 2 1 NB NZ)] (mkO (SB 1 2) NB NZ 0 [] [] [] [] false NZ [])); (RS 0 (IAccept 2 1 2 (SZ 3)) [(ONack 2 1 2 2 0)] (mkO (SB 2 0) NB NZ 2 [(ZZ 2 0)] [(P1E 2 [(RSP 0 NB NZ)])] [(ZZ 2 0)] [(ZOZ 2 (SZ 3))] false NZ [])); (RS 2 (IPromise 1 1 NB NZ) [] (mkO (SB 1 2) (SB 1 2) (SZ 3) 1 [(ZZ 1 0)] [(P1E 1 [(RSP 2 NB NZ); (RSP 0 NB NZ); (RSP 1 NB NZ)])] [(ZZ 1 1)] [(ZOZ 1 (SZ 3))] false NZ [])); (RS 1 (IPrepare 0 2 0) [(OPromise 0 2 0 1 NB NZ)] (mkO (SB 2 0) NB NZ 0 [] [] [] [] false NZ [])); (RS 2 (IPrepare 0 2 0) [(OPromise 0 2 0 2 (SB 1 2) (SZ 3))] (mkO (SB 2 0) (SB 1 2) (SZ 3) 1 [(ZZ 1 0)] [(P1E 1 [(RSP 2 NB NZ); (RSP 0 NB NZ); (RSP 1 NB NZ)])] [(ZZ 1 1)] [(ZOZ 1 (SZ 3))] false NZ [])); (RS 1 (IAccept 2 1 2 (SZ 3)) [(ONack 2 1 2 2 0)] (mkO (SB 2 0) NB NZ 0 [] [] [] [] false NZ [])); (RS 2 (INack 1 2) [(ORetry 1)] (mkO (SB 2 0) (SB 1 2) (SZ 3) 2 [(ZZ 1 0)] [(P1E 1 [(RSP 2 NB NZ); (RSP 0 NB NZ); (RSP 1 NB NZ)])] [(ZZ 1 1)] [(ZOZ 1 (SZ 3))] false NZ [])); (RS 0 (IPromise 2 2 (SB 1 2) (SZ 3)) [(OAccept 1 2 0 (SZ 3)); (OAccept 2 2 0 (SZ 3))] (mkO (SB 2 0) (SB 2 0) (SZ 3) 2 [(ZZ 2 0)] [(P1E 2 [(RSP 0 NB NZ); (RSP 2 (SB 1 2) (SZ 3))])] [(ZZ 2 1)] [(ZOZ 2 (SZ 3))] false NZ [])); (RS 1 (IAccept 0 2 0 (SZ 3)) [(OAccepted 0 2 0 1)] (mkO (SB 2 0) (SB 2 0) (SZ 3) 0 [] [] [] [] false NZ [])); (RS 0 (IPromise 2 1 NB NZ) [] (mkO (SB 2 0) (SB 2 0) (SZ 3) 2 [(ZZ 2 0)] [(P1E 2 [(RSP 0 NB NZ); (RSP 2 (SB 1 2) (SZ 3)); (RSP 1 NB NZ)])] [(ZZ 2 1)] [(ZOZ 2 (SZ 3))] false NZ [])); (RS 2 (INack 1 2) [(ORetry 1)] (mkO (SB 2 0) (SB 1 2) (SZ 3) 2 [(ZZ 1 0)] [(P1E 1 [(RSP 2 NB NZ); (RSP 0 NB NZ); (RSP 1 NB NZ)])] [(ZZ 1 1)] [(ZOZ 1 (SZ 3))] false NZ [])); (RS 2 (IAccept 0 2 0 (SZ 3)) [(OAccepted 0 2 0 2)] (mkO (SB 2 0) (SB 2 0) (SZ 3) 2 [(ZZ 1 0)] [(P1E 1 [(RSP 2 NB NZ); (RSP 0 NB NZ); (RSP 1 NB NZ)])] [(ZZ 1 1)] [(ZOZ 1 (SZ 3))] false NZ [])); (RS 0 (IAccepted 2) [(ODecided 1 (SZ 3)); (ODecided 2 (SZ 3))] (mkO (SB 2 0) (SB 2 0) (SZ 3) 2 [(ZZ 2 0)] [(P1E 2 [(RSP 0 NB NZ); (RSP 2 (SB 1 2) (SZ 3)); (RSP 1 NB NZ)])] [(ZZ 2 2)] [(ZOZ 2 (SZ 3))] true (SZ 3) [(ZOZ 0 (SZ 3))])); (RS 0 (IAccepted 2) [] (mkO (SB 2 0) (SB 2 0) (SZ 3) 2 [(ZZ 2 0)] [(P1E 2 [(RSP 0 NB NZ); (RSP 2 (SB 1 2) (SZ 3)); (RSP 1 NB NZ)])] [(ZZ 2 3)] [(ZOZ 2 (SZ 3))] true (SZ 3) [(ZOZ 0 (SZ 3))])); (RS 2 (IDecided (SZ 3)) [] (mkO (SB 2 0) (SB 2 0) (SZ 3) 2 [(ZZ 1 0)] [(P1E 1 [(RSP 2 NB NZ); (RSP 0 NB NZ); (RSP 1 NB NZ)])] [(ZZ 1 1)] [(ZOZ 1 (SZ 3))] true (SZ 3) [])); (RS 1 (IDecided (SZ 3)) [] (mkO (SB 2 0) (SB 2 0) (SZ 3) 0 [] [] [] [] true (SZ 3) [])); (RS 2 (IRetry 1) [] (mkO (SB 2 0) (SB 2 0) (SZ 3) 2 [(ZZ 1 0)] [(P1E 1 [(RSP 2 NB NZ); (RSP 0 NB NZ); (RSP 1 NB NZ)])] [(ZZ 1 1)] [(ZOZ 1 (SZ 3))] true (SZ 3) [])); (RS 2 (IRetry 1) [] (mkO (SB 2 0) (SB 2 0) (SZ 3) 2 [(ZZ 1 0)] [(P1E 1 [(RSP 2 NB NZ); (RSP 0 NB NZ); (RSP 1 NB NZ)])] [(ZZ 1 1)] [(ZOZ 1 (SZ 3))] true (SZ 3) []))]).
Definition case_76 : Z * list rec_step := (4, [(RS 2 (IPropose 1) [(OPrepare 0 1 2); (OPrepare 1 1 2); (OPrepare 3 1 2)] (mkO (SB 1 2) NB NZ 1 [(ZZ 1 0)] [(P1E 1 [(RSP 2 NB NZ)])] [(ZZ 1 0)] [(ZOZ 1 (SZ 1))] false NZ [])); (RS 0 (IPropose 2) [(OPrepare 1 1 0); (OPrepare 2 1 0); (OPrepare 3 1 0)] (mkO (SB 1 0) NB NZ 1 [(ZZ 1 0)] [(P1E 1 [(RSP 0 NB NZ)])] [(ZZ 1 0)] [(ZOZ 1 (SZ 2))] false NZ [])); (RS 1 (IPrepare 2 1 2) [(OPromise 2 1 2 1 NB NZ)] (mkO (SB 1 2) NB NZ 0 [] [] [] [] false NZ [])); (RS 3 (IPrepare 2 1 2) [(OPromise 2 1 2 3 NB NZ)] (mkO (SB 1 2) NB NZ 0 [] [] [] [] false NZ [])); (RS 2 (IPrepare 0 1 0) [(ONack 0 1 0 1 2)] (mkO (SB 1 2) NB NZ 1 [(ZZ 1 0)] [(P1E 1 [(RSP 2 NB NZ)])] [(ZZ 1 0)] [(ZOZ 1 (SZ 1))] false NZ [])); (RS 3 (IPrepare 0 1 0) [(ONack 0 1 0 1 2)] (mkO (SB 1 2) NB NZ 0 [] [] [] [] false NZ [])); (RS 2 (IPromise 1 3 NB NZ) [] (mkO (SB 1 2) NB NZ 1 [(ZZ 1 0)] [(P1E 1 [(RSP 2 NB NZ); (RSP 3 NB NZ)])] [(ZZ 1 0)] [(ZOZ 1 (SZ 1))] false NZ [])); (RS 0 (INack 1 1) [(ORetry 1)] (mkO (SB 1 0) NB NZ 1 [(ZZ 1 0)] [(P1E 1 [(RSP 0 NB NZ)])] [(ZZ 1 0)] [(ZOZ 1 (SZ 2))] false NZ [])); (RS 0 (INack 1 1) [(ORetry 1)] (mkO (SB 1 0) NB NZ 1 [(ZZ 1 0)] [(P1E 1 [(RSP 0 NB NZ)])] [(ZZ 1 0)] [(ZOZ 1 (SZ 2))] false NZ [])); (RS 0 (IRetry 1) [(OPrepare 1 2 0); (OPrepare 2 2 0); (OPrepare 3 2 0)] (mkO (SB 2 0) NB NZ 2 [(ZZ 2 0)] [(P1E 1 [(RSP 0 NB NZ)]); (P1E 2 [(RSP 0 NB NZ)])] [(ZZ 1 0); (ZZ 2 0)] [(ZOZ 2 (SZ 2))] false NZ [])); (RS 0 (IRetry 1) [] (mkO (SB 2 0) NB NZ 2 [(ZZ 2 0)] [(P1E 1 [(RSP 0 NB NZ)]); (P1E 2 [(RSP 0 NB NZ)])] [(ZZ 1 0); (ZZ 2 0)] [(ZOZ 2 (SZ 2))] false NZ [])); (RS 1 (IPrepare 0 2 0) [(OPromise 0 2 0 1 NB NZ)] (mkO (SB 2 0) NB NZ 0 [] [] [] [] false NZ [])); (RS 3 (IPrepare 0 2 0) [(OPromise 0 2 0 3 NB NZ)] (mkO (SB 2 0) NB NZ 0 [] [] [] [] false NZ [])); (RS 0 (IPromise 2 1 NB NZ) [] (mkO (SB 2 0) NB NZ 2 [(ZZ 2 0)] [(P1E 1 [(RSP 0 NB NZ)]); (P1E 2 [(RSP 0 NB NZ); (RSP 1 NB NZ)])] [(ZZ 1 0); (ZZ 2 0)] [(ZOZ 2 (SZ 2))] false NZ [])); (RS 3 (IPropose 3) [(OPrepare 0 3 3); (OPrepare 1 3 3); (OPrepare 2 3 3)] (mkO (SB 3 3) NB NZ 3 [(ZZ 3 0)] [(P1E 3 [(RSP 3 NB NZ)])] [(ZZ 3 0)] [(ZOZ 3 (SZ 3))] false NZ [])); (RS 0 (IPrepare 3 3 3) [(OPromise 3 3 3 0 NB NZ)] (mkO (SB 3 3) NB NZ 2 [(ZZ 2 0)] [(P1E 1 [(RSP 0 NB NZ)]); (P1E 2 [(RSP 0 NB NZ); (RSP 1 NB NZ)])] [(ZZ 1 0); (ZZ 2 0)] [(ZOZ 2 (SZ 2))] false NZ [])); (RS 1 (IPrepare 3 3 3) [(OPromise 3 3 3 1 NB NZ)] (mkO (SB 3 3) NB NZ 0 [] [] [] [] false NZ [])); (RS 2 (IPrepare 3 3 3) [(OPromise 3 3 3 2 NB NZ)] (mkO (SB 3 3) NB NZ 1 [(ZZ 1 0)] [(P1E 1 [(RSP 2 NB NZ); (RSP 3 NB NZ)])] [(ZZ 1 0)] [(ZOZ 1 (SZ 1))] false NZ [])); (RS 3 (IPromise 3 2 NB NZ) [] (mkO (SB 3 3) NB NZ 3 [(ZZ 3 0)] [(P1E 3 [(RSP 3 NB NZ); (RSP 2 NB NZ)])] [(ZZ 3 0)] [(ZOZ 3 (SZ 3))] false NZ [])); (RS 3 (IPromise 3 1 NB NZ) [(OAccept 0 3 3 (SZ 3)); (OAccept 1 3 3 (SZ 3)); (OAccept 2 3 3 (SZ 3))] (mkO (SB 3 3) (SB 3 3) (SZ 3) 3 [(ZZ 3 0)] [(P1E 3 [(RSP 3 NB NZ); (RSP 2 NB NZ); (RSP 1 NB NZ)])] [(ZZ 3 1)] [(ZOZ 3 (SZ 3))] false NZ [])); (RS 1 (IAccept 3 3 3 (SZ 3)) [(OAccepted 3 3 3 1)] (mkO (SB 3 3) (SB 3 3) (SZ 3) 0 [] [] [] [] false NZ [])); (RS 3 (IAccepted 3) [] (mkO (SB 3 3) (SB 3 3) (SZ 3) 3 [(ZZ 3 0)] [(P1E 3 [(RSP 3 NB NZ); (RSP 2 NB NZ); (RSP 1 NB NZ)])] [(ZZ 3 2)] [(ZOZ 3 (SZ 3))] false NZ [])); (RS 1 (IPropose 4) [(OPrepare 0 4 1); (OPrepare 2 4 1); (OPrepare 3 4 1)] (mkO (SB 4 1) (SB 3 3) (SZ 3) 4 [(ZZ 4 0)] [(P1E 4 [(RSP 1 (SB 3 3) (SZ 3))])] [(ZZ 4 0)] [(ZOZ 4 (SZ 4))] false NZ [])); (RS 2 (IPrepare 1 4 1) [(OPromise 1 4 1 2 NB NZ)] (mkO (SB 4 1) NB NZ 1 [(ZZ 1 0)] [(P1E 1 [(RSP 2 NB NZ); (RSP 3 NB NZ)])] [(ZZ 1 0)] [(ZOZ 1 (SZ 1))] false NZ [])); (RS 3 (IPrepare 1 4 1) [(OPromise 1 4 1 3 (SB 3 3) (SZ 3))] (mkO (SB 4 1) (SB 3 3) (SZ 3) 3 [(ZZ 3 0)] [(P1E 3 [(RSP 3 NB NZ); (RSP 2 NB NZ); (RSP 1 NB NZ)])] [(ZZ 3 2)] [(ZOZ 3 (SZ 3))] false NZ [])); (RS 1 (IPromise 4 2 NB NZ) [] (mkO (SB 4 1) (SB 3 3) (SZ 3) 4 [(ZZ 4 0)] [(P1E 4 [(RSP 1 (SB 3 3) (SZ 3)); (RSP 2 NB NZ)])] [(ZZ 4 0)] [(ZOZ 4 (SZ 4))] false NZ [])); (RS 0 (IPrepare 1 4 1) [(OPromise 1 4 1 0 NB NZ)] (mkO (SB 4 1) NB NZ 2 [(ZZ 2 0)] [(P1E 1 [(RSP 0 NB NZ)]); (P1E 2 [(RSP 0 NB NZ); (RSP 1 NB NZ)])] [(ZZ 1 0); (ZZ 2 0)] [(ZOZ 2 (SZ 2))] false NZ [])); (RS 1 (IPromise 4 3 (SB 3 3) (SZ 3)) [(OAccept 0 4 1 (SZ 3)); (OAccept 2 4 1 (SZ 3)); (OAccept 3 4 1 (SZ 3))] (mkO (SB 4 1) (SB 4 1) (SZ 3) 4 [(ZZ 4 0)] [(P1E 4 [(RSP 1 (SB 3 3) (SZ 3)); (RSP 2 NB NZ); (RSP 3 (SB 3 3) (SZ 3))])] [(ZZ 4 1)] [(ZOZ 4 (SZ 3))] false NZ [])); (RS 0 (IAccept 1 4 1 (SZ 3)) [(OAccepted 1 4 1 0)] (mkO (SB 4 1) (SB 4 1) (SZ 3) 2 [(ZZ 2 0)] [(P1E 1 [(RSP 0 NB NZ)]); (P1E 2 [(RSP 0 NB NZ); (RSP 1 NB NZ)])] [(ZZ 1 0); (ZZ 2 0)] [(ZOZ 2 (SZ 2))] false NZ [])); (RS 3 (IAccept 1 4 1 (SZ 3)) [(OAccepted 1 4 1 3)] (mkO (SB 4 1) (SB 4 1) (SZ 3) 3 [(ZZ 3 0)] [(P1E 3 [(RSP 3 NB NZ); (RSP 2 NB NZ); (RSP 1 NB NZ)])] [(ZZ 3 2)] [(ZOZ 3 (SZ 3))] false NZ [])); (RS 1 (IAccepted 4) [] (mkO (SB 4 1) (SB 4 1) (SZ 3) 4 [(ZZ 4 0)] [(P1E 4 [(RSP 1 (SB 3 3) (SZ 3)); (RSP 2 NB NZ); (RSP 3 (SB 3 3) (SZ 3))])] [(ZZ 4 2)] [(ZOZ 4 (SZ 3))] false NZ [])); (RS 1 (IAccepted 4) [(ODecided 0 (SZ 3)); (ODecided 2 (SZ 3)); (ODecided 3 (SZ 3))] (mkO (SB 4 1) (SB 4 1) (SZ 3) 4 [(ZZ 4 0)] [(P1E 4 [(RSP 1 (SB 3 3) (SZ 3)); (RSP 2 NB NZ); (RSP 3 (SB 3 3) (SZ 3))])] [(ZZ 4 3)] [(ZOZ 4 (SZ 3))] true (SZ 3) [(ZOZ 0 (SZ 3))])); (RS 2 (IDecided (SZ 3)) [] (mkO (SB 4 1) NB NZ 1 [(ZZ 1 0)] [(P1E 1 [(RSP 2 NB NZ); (RSP 3 NB NZ)])] [(ZZ 1 0)] [(ZOZ 1 (SZ 1))] true (SZ 3) []))]).
Definition case_77 : Z * list rec_step := (3, [(RS 1 (IPropose 1) [(OPrepare 0 1 1); (OPrepare 2 1 1)] (mkO (SB 1 1) NB NZ 1 [(ZZ 1 0)] [(P1E 1 [(RSP 1 NB NZ)])] [(ZZ 1 0)] [(ZOZ 1 (SZ 1))] false NZ [])); (RS 1 (IPropose 2) [(OPrepare 0 2 1); (OPrepare 2 2 1)] (mkO (SB 2 1) NB NZ 2 [(ZZ 1 0); (ZZ 2 1)] [(P1E 1 [(RSP 1 NB NZ)]); (P1E 2 [(RSP 1 NB NZ)])] [(ZZ 1 0); (ZZ 2 0)] [(ZOZ 1 (SZ 1)); (ZOZ 2 (SZ 2))] false NZ [])); (RS 0 (IPrepare 1 1 1) [(OPromise 1 1 1 0 NB NZ)] (mkO (SB 1 1) NB NZ 0 [] [] [] [] false NZ [])); (RS 0 (IPrepare 1 2 1) [(OPromise 1 2 1 0 NB NZ)] (mkO (SB 2 1) NB NZ 0 [] [] [] [] false NZ [])); (RS 2 (IPrepare 1 2 1) [(OPromise 1 2 1 2 NB NZ)] (mkO (SB 2 1) NB NZ 0 [] [] [] [] false NZ [])); (RS 1 (IPromise 2 2 NB NZ) [(OAccept 0 2 1 (SZ 2)); (OAccept 2 2 1 (SZ 2))] (mkO (SB 2 1) (SB 2 1) (SZ 2) 2 [(ZZ 1 0); (ZZ 2 1)] [(P1E 1 [(RSP 1 NB NZ)]); (P1E 2 [(RSP 1 NB NZ); (RSP 2 NB NZ)])] [(ZZ 1 0); (ZZ 2 1)] [(ZOZ 1 (SZ 1)); (ZOZ 2 (SZ 2))] false NZ [])); (RS 0 (IAccept 1 2 1 (SZ 2)) [(OAccepted 1 2 1 0)] (mkO (SB 2 1) (SB 2 1) (SZ 2) 0 [] [] [] [] false NZ [])); (RS 2 (IAccept 1 2 1 (SZ 2)) [(OAccepted 1 2 1 2)] (mkO (SB 2 1) (SB 2 1) (SZ 2) 0 [] [] [] [] false NZ [])); (RS 1 (IAccepted 2) [(ODecided 0 (SZ 2)); (ODecided 2 (SZ 2))] (mkO (SB 2 1) (SB 2 1) (SZ 2) 2 [(ZZ 1 0); (ZZ 2 1)] [(P1E 1 [(RSP 1 NB NZ)]); (P1E 2 [(RSP 1 NB NZ); (RSP 2 NB NZ)])] [(ZZ 1 0); (ZZ 2 2)] [(ZOZ 1 (SZ 1)); (ZOZ 2 (SZ 2))] true (SZ 2) [(ZOZ 1 (SZ 2))])); (RS 2 (IDecided (SZ 2)) [] (mkO (SB 2 1) (SB 2 1) (SZ 2) 0 [] [] [] [] true (SZ 2) [])); (RS 1 (IPropose 3) [] (mkO (SB 2 1) (SB 2 1) (SZ 2) 2 [(ZZ 1 0); (ZZ 2 1)] [(P1E 1 [(RSP 1 NB NZ)]); (P1E 2 [(RSP 1 NB NZ); (RSP 2 NB NZ)])] [(ZZ 1 0); (ZZ 2 2)] [(ZOZ 1 (SZ 1)); (ZOZ 2 (SZ 2))] true (SZ 2) [(ZOZ 1 (SZ 2)); (ZOZ 2 (SZ 2))])); (RS 2 (IPropose 2) [] (mkO (SB 2 1) (SB 2 1) (SZ 2) 0 [] [] [] [] true (SZ 2) [(ZOZ 0 (SZ 2))]))]).
Definition case_78 : Z * list rec_step := (5, [(RS 4 (IPropose 1) [(OPrepare 0 1 4); (OPrepare 1 1 4); (OPrepare 2 1 4); (OPrepare 3 1 4)] (mkO (SB 1 4) NB NZ 1 [(ZZ 1 0)] [(P1E 1 [(RSP 4 NB NZ)])] [(ZZ 1 0)] [(ZOZ 1 (SZ 1))] false NZ [])); (RS 1 (IPrepare 4 1 4) [(OPromise 4 1 4 1 NB NZ)] (mkO (SB 1 4) NB NZ 0 [] [] [] [] false NZ [])); (RS 3 (IPrepare 4 1 4) [(OPromise 4 1 4 3 NB NZ)] (mkO (SB 1 4) NB NZ 0 [] [] [] [] false NZ [])); (RS 1 (IPropose 2) [(OPrepare 0 2 1); (OPrepare 2 2 1); (OPrepare 3 2 1); (OPrepare 4 2 1)] (mkO (SB 2 1) NB NZ 2 [(ZZ 2 0)] [(P1E 2 [(RSP 1 NB NZ)])] [(ZZ 2 0)] [(ZOZ 2 (SZ 2))] false NZ [])); (RS 3 (IPropose 3) [(OPrepare 0 2 3); (OPrepare 1 2 3); (OPrepare 2 2 3); (OPrepare 4 2 3)] (mkO (SB 2 3) NB NZ 2 [(ZZ 2 0)] [(P1E 2 [(RSP 3 NB NZ)])] [(ZZ 2 0)] [(ZOZ 2 (SZ 3))] false NZ [])); (RS 3 (IPrepare 1 2 1) [(ONack 1 2 1 2 3)] (mkO (SB 2 3) NB NZ 2 [(ZZ 2 0)] [(P1E 2 [(RSP 3 NB NZ)])] [(ZZ 2 0)] [(ZOZ 2 (SZ 3))] false NZ [])); (RS 4 (IPrepare 1 2 1) [(OPromise 1 2 1 4 NB NZ)] (mkO (SB 2 1) NB NZ 1 [(ZZ 1 0)] [(P1E 1 [(RSP 4 NB NZ)])] [(ZZ 1 0)] [(ZOZ 1 (SZ 1))] false NZ [])); (RS 0 (IPrepare 3 2 3) [(OPromise 3 2 3 0 NB NZ)] (mkO (SB 2 3) NB NZ 0 [] [] [] [] false NZ [])); (RS 0 (IPropose 4) [(OPrepare 1 3 0); (OPrepare 2 3 0); (OPrepare 3 3 0); (OPrepare 4 3 0)] (mkO (SB 3 0) NB NZ 3 [(ZZ 3 0)] [(P1E 3 [(RSP 0 NB NZ)])] [(ZZ 3 0)] [(ZOZ 3 (SZ 4))] false NZ [])); (RS 1 (IPrepare 0 3 0) [(OPromise 0 3 0 1 NB NZ)] (mkO (SB 3 0) NB NZ 2 [(ZZ 2 0)] [(P1E 2 [(RSP 1 NB NZ)])] [(ZZ 2 0)] [(ZOZ 2 (SZ 2))] false NZ [])); (RS 3 (IPrepare 0 3 0) [(OPromise 0 3 0 3 NB NZ)] (mkO (SB 3 0) NB NZ 2 [(ZZ 2 0)] [(P1E 2 [(RSP 3 NB NZ)])] [(ZZ 2 0)] [(ZOZ 2 (SZ 3))] false NZ [])); (RS 4 (IPrepare 0 3 0) [(OPromise 0 3 0 4 NB NZ)] (mkO (SB 3 0) NB NZ 1 [(ZZ 1 0)] [(P1E 1 [(RSP 4 NB NZ)])] [(ZZ 1 0)] [(ZOZ 1 (SZ 1))] false NZ [])); (RS 2 (IPrepare 3 2 3) [(OPromise 3 2 3 2 NB NZ)] (mkO (SB 2 3) NB NZ 0 [] [] [] [] false NZ [])); (RS 3 (IPromise 2 2 NB NZ) [] (mkO (SB 3 0) NB NZ 2 [(ZZ 2 0)] [(P1E 2 [(RSP 3 NB NZ); (RSP 2 NB NZ)])] [(ZZ 2 0)] [(ZOZ 2 (SZ 3))] false NZ [])); (RS 1 (INack 2 2) [(ORetry 2)] (mkO (SB 3 0) NB NZ 2 [(ZZ 2 0)] [(P1E 2 [(RSP 1 NB NZ)])] [(ZZ 2 0)] [(ZOZ 2 (SZ 2))] false NZ [])); (RS 2 (IPrepare 1 2 1) [(ONack 1 2 1 2 3)] (mkO (SB 2 3) NB NZ 0 [] [] [] [] false NZ [])); (RS 1 (IRetry 2) [(OPrepare 0 3 1); (OPrepare 2 3 1); (OPrepare 3 3 1); (OPrepare 4 3 1)] (mkO (SB 3 1) NB NZ 3 [(ZZ 3 0)] [(P1E 2 [(RSP 1 NB NZ)]); (P1E 3 [(RSP 1 NB NZ)])] [(ZZ 2 0); (ZZ 3 0)] [(ZOZ 3 (SZ 2))] false NZ [])); (RS 3 (IPrepare 1 3 1) [(OPromise 1 3 1 3 NB NZ)] (mkO (SB 3 1) NB NZ 2 [(ZZ 2 0)] [(P1E 2 [(RSP 3 NB NZ); (RSP 2 NB NZ)])] [(ZZ 2 0)] [(ZOZ 2 (SZ 3))] false NZ [])); (RS 0 (IPromise 3 1 NB NZ) [] (mkO (SB 3 0) NB NZ 3 [(ZZ 3 0)] [(P1E 3 [(RSP 0 NB NZ); (RSP 1 NB NZ)])] [(ZZ 3 0)] [(ZOZ 3 (SZ 4))] false NZ [])); (RS 0 (IPromise 3 3 NB NZ) [(OAccept 1 3 0 (SZ 4)); (OAccept 2 3 0 (SZ 4)); (OAccept 3 3 0 (SZ 4)); (OAccept 4 3 0 (SZ 4))] (mkO (SB 3 0) (SB 3 0) (SZ 4) 3 [(ZZ 3 0)] [(P1E 3 [(RSP 0 NB NZ); (RSP 1 NB NZ); (RSP 3 NB NZ)])] [(ZZ 3 1)] [(ZOZ 3 (SZ 4))] false NZ [])); (RS 1 (IPromise 3 3 NB NZ) [] (mkO (SB 3 1) NB NZ 3 [(ZZ 3 0)] [(P1E 2 [(RSP 1 NB NZ)]); (P1E 3 [(RSP 1 NB NZ); (RSP 3 NB NZ)])] [(ZZ 2 0); (ZZ 3 0)] [(ZOZ 3 (SZ 2))] false NZ [])); (RS 1 (INack 2 2) [] (mkO (SB 3 1) NB NZ 3 [(ZZ 3 0)] [(P1E 2 [(RSP 1 NB NZ)]); (P1E 3 [(RSP 1 NB NZ); (RSP 3 NB NZ)])] [(ZZ 2 0); (ZZ 3 0)] [(ZOZ 3 (SZ 2))] false NZ [])); (RS 3 (IAccept 0 3 0 (SZ 4)) [(ONack 0 3 0 3 1)] (mkO (SB 3 1) NB NZ 2 [(ZZ 2 0)] [(P1E 2 [(RSP 3 NB NZ); (RSP 2 NB NZ)])] [(ZZ 2 0)] [(ZOZ 2 (SZ 3))] false NZ [])); (RS 0 (INack 3 3) [(ORetry 3)] (mkO (SB 3 0) (SB 3 0) (SZ 4) 3 [(ZZ 3 0)] [(P1E 3 [(RSP 0 NB NZ); (RSP 1 NB NZ); (RSP 3 NB NZ)])] [(ZZ 3 1)] [(ZOZ 3 (SZ 4))] false NZ [])); (RS 4 (IPrepare 1 3 1) [(OPromise 1 3 1 4 NB NZ)] (mkO (SB 3 1) NB NZ 1 [(ZZ 1 0)] [(P1E 1 [(RSP 4 NB NZ)])] [(ZZ 1 0)] [(ZOZ 1 (SZ 1))] false NZ [])); (RS 1 (IPrepare 3 2 3) [(ONack 3 2 3 3 1)] (mkO (SB 3 1) NB NZ 3 [(ZZ 3 0)] [(P1E 2 [(RSP 1 NB NZ)]); (P1E 3 [(RSP 1 NB NZ); (RSP 3 NB NZ)])] [(ZZ 2 0); (ZZ 3 0)] [(ZOZ 3 (SZ 2))] false NZ [])); (RS 4 (IPrepare 3 2 3) [(ONack 3 2 3 3 1)] (mkO (SB 3 1) NB NZ 1 [(ZZ 1 0)] [(P1E 1 [(RSP 4 NB NZ)])] [(ZZ 1 0)] [(ZOZ 1 (SZ 1))] false NZ [])); (RS 1 (IPromise 2 4 NB NZ) [] (mkO (SB 3 1) NB NZ 3 [(ZZ 3 0)] [(P1E 2 [(RSP 1 NB NZ); (RSP 4 NB NZ)]); (P1E 3 [(RSP 1 NB NZ); (RSP 3 NB NZ)])] [(ZZ 2 0); (ZZ 3 0)] [(ZOZ 3 (SZ 2))] false NZ [])); (RS 0 (IRetry 3) [(OPrepare 1 4 0); (OPrepare 2 4 0); (OPrepare 3 4 0); (OPrepare 4 4 0)] (mkO (SB 4 0) (SB 3 0) (SZ 4) 4 [(ZZ 4 0)] [(P1E 3 [(RSP 0 NB NZ); (RSP 1 NB NZ); (RSP 3 NB NZ)]); (P1E 4 [(RSP 0 (SB 3 0) (SZ 4))])] [(ZZ 3 1); (ZZ 4 0)] [(ZOZ 4 (SZ 4))] false NZ [])); (RS 3 (IPromise 2 0 NB NZ) [(OAccept 0 2 3 (SZ 3)); (OAccept 1 2 3 (SZ 3)); (OAccept 2 2 3 (SZ 3)); (OAccept 4 2 3 (SZ 3))] (mkO (SB 3 1) NB NZ 2 [(ZZ 2 0)] [(P1E 2 [(RSP 3 NB NZ); (RSP 2 NB NZ); (RSP 0 NB NZ)])] [(ZZ 2 0)] [(ZOZ 2 (SZ 3))] false NZ [])); (RS 3 (INack 2 3) [(ORetry 2)] (mkO (SB 3 1) NB NZ 3 [(ZZ 2 0)] [(P1E 2 [(RSP 3 NB NZ); (RSP 2 NB NZ); (RSP 0 NB NZ)])] [(ZZ 2 0)] [(ZOZ 2 (SZ 3))] false NZ [])); (RS 3 (INack 2 3) [(ORetry 2)] (mkO (SB 3 1) NB NZ 3 [(ZZ 2 0)] [(P1E 2 [(RSP 3 NB NZ); (RSP 2 NB NZ); (RSP 0 NB NZ)])] [(ZZ 2 0)] [(ZOZ 2 (SZ 3))] false NZ [])); (RS 1 (IAccept 0 3 0 (SZ 4)) [(ONack 0 3 0 3 1)] (mkO (SB 3 1) NB NZ 3 [(ZZ 3 0)] [(P1E 2 [(RSP 1 NB NZ); (RSP 4 NB NZ)]); (P1E 3 [(RSP 1 NB NZ); (RSP 3 NB NZ)])] [(ZZ 2 0); (ZZ 3 0)] [(ZOZ 3 (SZ 2))] false NZ [])); (RS 0 (INack 3 3) [] (mkO (SB 4 0) (SB 3 0) (SZ 4) 4 [(ZZ 4 0)] [(P1E 3 [(RSP 0 NB NZ); (RSP 1 NB NZ); (RSP 3 NB NZ)]); (P1E 4 [(RSP 0 (SB 3 0) (SZ 4))])] [(ZZ 3 1); (ZZ 4 0)] [(ZOZ 4 (SZ 4))] false NZ [])); (RS 2 (IPrepare 0 4 0) [(OPromise 0 4 0 2 NB NZ)] (mkO (SB 4 0) NB NZ 0 [] [] [] [] false NZ [])); (RS 1 (IPromise 3 4 NB NZ) [(OAccept 0 3 1 (SZ 2)); (OAccept 2 3 1 (SZ 2)); (OAccept 3 3 1 (SZ 2)); (OAccept 4 3 1 (SZ 2))] (mkO (SB 3 1) (SB 3 1) (SZ 2) 3 [(ZZ 3 0)] [(P1E 2 [(RSP 1 NB NZ); (RSP 4 NB NZ)]); (P1E 3 [(RSP 1 NB NZ); (RSP 3 NB NZ); (RSP 4 NB NZ)])] [(ZZ 2 0); (ZZ 3 1)] [(ZOZ 3 (SZ 2))] false NZ [])); (RS 2 (IPrepare 0 3 0) [(ONack 0 3 0 4 0)] (mkO (SB 4 0) NB NZ 0 [] [] [] [] false NZ [])); (RS 3 (IRetry 2) [(OPrepare 0 4 3); (OPrepare 1 4 3); (OPrepare 2 4 3); (OPrepare 4 4 3)] (mkO (SB 4 3) NB NZ 4 [(ZZ 4 0)] [(P1E 2 [(RSP 3 NB NZ); (RSP 2 NB NZ); (RSP 0 NB NZ)]); (P1E 4 [(RSP 3 NB NZ)])] [(ZZ 2 0); (ZZ 4 0)] [(ZOZ 4 (SZ 3))] false NZ [])); (RS 0 (IPromise 3 4 NB NZ) [] (mkO (SB 4 0) (SB 3 0) (SZ 4) 4 [(ZZ 4 0)] [(P1E 3 [(RSP 0 NB NZ); (RSP 1 NB NZ); (RSP 3 NB NZ); (RSP 4 NB NZ)]); (P1E 4 [(RSP 0 (SB 3 0) (SZ 4))])] [(ZZ 3 1); (ZZ 4 0)] [(ZOZ 4 (SZ 4))] false NZ [])); (RS 3 (IRetry 2) [] (mkO (SB 4 3) NB NZ 4 [(ZZ 4 0)] [(P1E 2 [(RSP 3 NB NZ); (RSP 2 NB NZ); (RSP 0 NB NZ)]); (P1E 4 [(RSP 3 NB NZ)])] [(ZZ 2 0); (ZZ 4 0)] [(ZOZ 4 (SZ 3))] false NZ [])); (RS 1 (IPrepare 0 4 0) [(OPromise 0 4 0 1 (SB 3 1) (SZ 2))] (mkO (SB 4 0) (SB 3 1) (SZ 2) 3 [(ZZ 3 0)] [(P1E 2 [(RSP 1 NB NZ); (RSP 4 NB NZ)]); (P1E 3 [(RSP 1 NB NZ); (RSP 3 NB NZ); (RSP 4 NB NZ)])] [(ZZ 2 0); (ZZ 3 1)] [(ZOZ 3 (SZ 2))] false NZ [])); (RS 4 (IPrepare 0 4 0) [(OPromise 0 4 0 4 NB NZ)] (mkO (SB 4 0) NB NZ 1 [(ZZ 1 0)] [(P1E 1 [(RSP 4 NB NZ)])] [(ZZ 1 0)] [(ZOZ 1 (SZ 1))] false NZ [])); (RS 2 (IAccept 3 2 3 (SZ 3)) [(ONack 3 2 3 4 0)] (mkO (SB 4 0) NB NZ 0 [] [] [] [] false NZ [])); (RS 0 (IPromise 4 2 NB NZ) [] (mkO (SB 4 0) (SB 3 0) (SZ 4) 4 [(ZZ 4 0)] [(P1E 3 [(RSP 0 NB NZ); (RSP 1 NB NZ); (RSP 3 NB NZ); (RSP 4 NB NZ)]); (P1E 4 [(RSP 0 (SB 3 0) (SZ 4)); (RSP 2 NB NZ)])] [(ZZ 3 1); (ZZ 4 0)] [(ZOZ 4 (SZ 4))] false NZ [])); (RS 0 (IPromise 4 1 (SB 3 1) (SZ 2)) [(OAccept 1 4 0 (SZ 2)); (OAccept 2 4 0 (SZ 2)); (OAccept 3 4 0 (SZ 2)); (OAccept 4 4 0 (SZ 2))] (mkO (SB 4 0) (SB 4 0) (SZ 2) 4 [(ZZ 4 0)] [(P1E 3 [(RSP 0 NB NZ); (RSP 1 NB NZ); (RSP 3 NB NZ); (RSP 4 NB NZ)]); (P1E 4 [(RSP 0 (SB 3 0) (SZ 4)); (RSP 2 NB NZ); (RSP 1 (SB 3 1) (SZ 2))])] [(ZZ 3 1); (ZZ 4 1)] [(ZOZ 4 (SZ 2))] false NZ [])); (RS 4 (IAccept 0 4 0 (SZ 2)) [(OAccepted 0 4 0 4)] (mkO (SB 4 0) (SB 4 0) (SZ 2) 1 [(ZZ 1 0)] [(P1E 1 [(RSP 4 NB NZ)])] [(ZZ 1 0)] [(ZOZ 1 (SZ 1))] false NZ [])); (RS 4 (IAccept 1 3 1 (SZ 2)) [(ONack 1 3 1 4 0)] (mkO (SB 4 0) (SB 4 0) (SZ 2) 1 [(ZZ 1 0)] [(P1E 1 [(RSP 4 NB NZ)])] [(ZZ 1 0)] [(ZOZ 1 (SZ 1))] false NZ [])); (RS 0 (IPrepare 1 3 1) [(ONack 1 3 1 4 0)] (mkO (SB 4 0) (SB 4 0) (SZ 2) 4 [(ZZ 4 0)] [(P1E 3 [(RSP 0 NB NZ); (RSP 1 NB NZ); (RSP 3 NB NZ); (RSP 4 NB NZ)]); (P1E 4 [(RSP 0 (SB 3 0) (SZ 4)); (RSP 2 NB NZ); (RSP 1 (SB 3 1) (SZ 2))])] [(ZZ 3 1); (ZZ 4 1)] [(ZOZ 4 (SZ 2))] false NZ [])); (RS 1 (INack 3 4) [(ORetry 3)] (mkO (SB 4 0) (SB 3 1) (SZ 2) 4 [(ZZ 3 0)] [(P1E 2 [(RSP 1 NB NZ); (RSP 4 NB NZ)]); (P1E 3 [(RSP 1 NB NZ); (RSP 3 NB NZ); (RSP 4 NB NZ)])] [(ZZ 2 0); (ZZ 3 1)] [(ZOZ 3 (SZ 2))] false NZ [])); (RS 1 (IPrepare 3 4 3) [(OPromise 3 4 3 1 (SB 3 1) (SZ 2))] (mkO (SB 4 3) (SB 3 1) (SZ 2) 4 [(ZZ 3 0)] [(P1E 2 [(RSP 1 NB NZ); (RSP 4 NB NZ)]); (P1E 3 [(RSP 1 NB NZ); (RSP 3 NB NZ); (RSP 4 NB NZ)])] [(ZZ 2 0); (ZZ 3 1)] [(ZOZ 3 (SZ 2))] false NZ [])); (RS 2 (IPrepare 3 4 3) [(OPromise 3 4 3 2 NB NZ)] (mkO (SB 4 3) NB NZ 0 [] [] [] [] false NZ [])); (RS 0 (IAccepted 4) [] (mkO (SB 4 0) (SB 4 0) (SZ 2) 4 [(ZZ 4 0)] [(P1E 3 [(RSP 0 NB NZ); (RSP 1 NB NZ); (RSP 3 NB NZ); (RSP 4 NB NZ)]); (P1E 4 [(RSP 0 (SB 3 0) (SZ 4)); (RSP 2 NB NZ); (RSP 1 (SB 3 1) (SZ 2))])] [(ZZ 3 1); (ZZ 4 2)] [(ZOZ 4 (SZ 2))] false NZ [])); (RS 1 (IAccept 0 4 0 (SZ 2)) [(ONack 0 4 0 4 3)] (mkO (SB 4 3) (SB 3 1) (SZ 2) 4 [(ZZ 3 0)] [(P1E 2 [(RSP 1 NB NZ); (RSP 4 NB NZ)]); (P1E 3 [(RSP 1 NB NZ); (RSP 3 NB NZ); (RSP 4 NB NZ)])] [(ZZ 2 0); (ZZ 3 1)] [(ZOZ 3 (SZ 2))] false NZ [])); (RS 3 (IAccept 0 4 0 (SZ 2)) [(ONack 0 4 0 4 3)] (mkO (SB 4 3) NB NZ 4 [(ZZ 4 0)] [(P1E 2 [(RSP 3 NB NZ); (RSP 2 NB NZ); (RSP 0 NB NZ)]); (P1E 4 [(RSP 3 NB NZ)])] [(ZZ 2 0); (ZZ 4 0)] [(ZOZ 4 (SZ 3))] false NZ [])); (RS 1 (IRetry 3) [(OPrepare 0 5 1); (OPrepare 2 5 1); (OPrepare 3 5 1); (OPrepare 4 5 1)] (mkO (SB 5 1) (SB 3 1) (SZ 2) 5 [(ZZ 5 0)] [(P1E 2 [(RSP 1 NB NZ); (RSP 4 NB NZ)]); (P1E 3 [(RSP 1 NB NZ); (RSP 3 NB NZ); (RSP 4 NB NZ)]); (P1E 5 [(RSP 1 (SB 3 1) (SZ 2))])] [(ZZ 2 0); (ZZ 3 1); (ZZ 5 0)] [(ZOZ 5 (SZ 2))] false NZ [])); (RS 3 (IPrepare 0 4 0) [(ONack 0 4 0 4 3)] (mkO (SB 4 3) NB NZ 4 [(ZZ 4 0)] [(P1E 2 [(RSP 3 NB NZ); (RSP 2 NB NZ); (RSP 0 NB NZ)]); (P1E 4 [(RSP 3 NB NZ)])] [(ZZ 2 0); (ZZ 4 0)] [(ZOZ 4 (SZ 3))] false NZ [])); (RS 0 (IAccept 3 2 3 (SZ 3)) [(ONack 3 2 3 4 0)] (mkO (SB 4 0) (SB 4 0) (SZ 2) 4 [(ZZ 4 0)] [(P1E 3 [(RSP 0 NB NZ); (RSP 1 NB NZ); (RSP 3 NB NZ); (RSP 4 NB NZ)]); (P1E 4 [(RSP 0 (SB 3 0) (SZ 4)); (RSP 2 NB NZ); (RSP 1 (SB 3 1) (SZ 2))])] [(ZZ 3 1); (ZZ 4 2)] [(ZOZ 4 (SZ 2))] false NZ [])); (RS 1 (IAccept 3 2 3 (SZ 3)) [(ONack 3 2 3 5 1)] (mkO (SB 5 1) (SB 3 1) (SZ 2) 5 [(ZZ 5 0)] [(P1E 2 [(RSP 1 NB NZ); (RSP 4 NB NZ)]); (P1E 3 [(RSP 1 NB NZ); (RSP 3 NB NZ); (RSP 4 NB NZ)]); (P1E 5 [(RSP 1 (SB 3 1) (SZ 2))])] [(ZZ 2 0); (ZZ 3 1); (ZZ 5 0)] [(ZOZ 5 (SZ 2))] false NZ [])); (RS 4 (IAccept 3 2 3 (SZ 3)) [(ONack 3 2 3 4 0)] (mkO (SB 4 0) (SB 4 0) (SZ 2) 1 [(ZZ 1 0)] [(P1E 1 [(RSP 4 NB NZ)])] [(ZZ 1 0)] [(ZOZ 1 (SZ 1))] false NZ [])); (RS 2 (IAccept 1 3 1 (SZ 2)) [(ONack 1 3 1 4 3)] (mkO (SB 4 3) NB NZ 0 [] [] [] [] false NZ [])); (RS 3 (IAccept 1 3 1 (SZ 2)) [(ONack 1 3 1 4 3)] (mkO (SB 4 3) NB NZ 4 [(ZZ 4 0)] [(P1E 2 [(RSP 3 NB NZ); (RSP 2 NB NZ); (RSP 0 NB NZ)]); (P1E 4 [(RSP 3 NB NZ)])] [(ZZ 2 0); (ZZ 4 0)] [(ZOZ 4 (SZ 3))] false NZ [])); (RS 3 (INack 2 4) [] (mkO (SB 4 3) NB NZ 4 [(ZZ 4 0)] [(P1E 2 [(RSP 3 NB NZ); (RSP 2 NB NZ); (RSP 0 NB NZ)]); (P1E 4 [(RSP 3 NB NZ)])] [(ZZ 2 0); (ZZ 4 0)] [(ZOZ 4 (SZ 3))] false NZ [])); (RS 0 (IPrepare 3 4 3) [(OPromise 3 4 3 0 (SB 4 0) (SZ 2))] (mkO (SB 4 3) (SB 4 0) (SZ 2) 4 [(ZZ 4 0)] [(P1E 3 [(RSP 0 NB NZ); (RSP 1 NB NZ); (RSP 3 NB NZ); (RSP 4 NB NZ)]); (P1E 4 [(RSP 0 (SB 3 0) (SZ 4)); (RSP 2 NB NZ); (RSP 1 (SB 3 1) (SZ 2))])] [(ZZ 3 1); (ZZ 4 2)] [(ZOZ 4 (SZ 2))] false NZ [])); (RS 0 (INack 4 4) [(ORetry 4)] (mkO (SB 4 3) (SB 4 0) (SZ 2) 4 [(ZZ 4 0)] [(P1E 3 [(RSP 0 NB NZ); (RSP 1 NB NZ); (RSP 3 NB NZ); (RSP 4 NB NZ)]); (P1E 4 [(RSP 0 (SB 3 0) (SZ 4)); (RSP 2 NB NZ); (RSP 1 (SB 3 1) (SZ 2))])] [(ZZ 3 1); (ZZ 4 2)] [(ZOZ 4 (SZ 2))] false NZ [])); (RS 0 (IPrepare 1 5 1) [(OPromise 1 5 1 0 (SB 4 0) (SZ 2))] (mkO (SB 5 1) (SB 4 0) (SZ 2) 4 [(ZZ 4 0)] [(P1E 3 [(RSP 0 NB NZ); (RSP 1 NB NZ); (RSP 3 NB NZ); (RSP 4 NB NZ)]); (P1E 4 [(RSP 0 (SB 3 0) (SZ 4)); (RSP 2 NB NZ); (RSP 1 (SB 3 1) (SZ 2))])] [(ZZ 3 1); (ZZ 4 2)] [(ZOZ 4 (SZ 2))] false NZ [])); (RS 3 (INack 2 4) [] (mkO (SB 4 3) NB NZ 4 [(ZZ 4 0)] [(P1E 2 [(RSP 3 NB NZ); (RSP 2 NB NZ); (RSP 0 NB NZ)]); (P1E 4 [(RSP 3 NB NZ)])] [(ZZ 2 0); (ZZ 4 0)] [(ZOZ 4 (SZ 3))] false NZ [])); (RS 3 (INack 2 5) [] (mkO (SB 4 3) NB NZ 5 [(ZZ 4 0)] [(P1E 2 [(RSP 3 NB NZ); (RSP 2 NB NZ); (RSP 0 NB NZ)]); (P1E 4 [(RSP 3 NB NZ)])] [(ZZ 2 0); (ZZ 4 0)] [(ZOZ 4 (SZ 3))] false NZ [])); (RS 0 (IRetry 4) [(OPrepare 1 5 0); (OPrepare 2 5 0); (OPrepare 3 5 0); (OPrepare 4 5 0)] (mkO (SB 5 1) (SB 4 0) (SZ 2) 5 [(ZZ 5 0)] [(P1E 3 [(RSP 0 NB NZ); (RSP 1 NB NZ); (RSP 3 NB NZ); (RSP 4 NB NZ)]); (P1E 4 [(RSP 0 (SB 3 0) (SZ 4)); (RSP 2 NB NZ); (RSP 1 (SB 3 1) (SZ 2))]); (P1E 5 [])] [(ZZ 3 1); (ZZ 4 2); (ZZ 5 0)] [(ZOZ 5 (SZ 2))] false NZ [])); (RS 2 (IAccept 0 4 0 (SZ 2)) [(ONack 0 4 0 4 3)] (mkO (SB 4 3) NB NZ 0 [] [] [] [] false NZ [])); (RS 3 (IPrepare 0 5 0) [(OPromise 0 5 0 3 NB NZ)] (mkO (SB 5 0) NB NZ 5 [(ZZ 4 0)] [(P1E 2 [(RSP 3 NB NZ); (RSP 2 NB NZ); (RSP 0 NB NZ)]); (P1E 4 [(RSP 3 NB NZ)])] [(ZZ 2 0); (ZZ 4 0)] [(ZOZ 4 (SZ 3))] false NZ [])); (RS 0 (INack 4 4) [] (mkO (SB 5 1) (SB 4 0) (SZ 2) 5 [(ZZ 5 0)] [(P1E 3 [(RSP 0 NB NZ); (RSP 1 NB NZ); (RSP 3 NB NZ); (RSP 4 NB NZ)]); (P1E 4 [(RSP 0 (SB 3 0) (SZ 4)); (RSP 2 NB NZ); (RSP 1 (SB 3 1) (SZ 2))]); (P1E 5 [])] [(ZZ 3 1); (ZZ 4 2); (ZZ 5 0)] [(ZOZ 5 (SZ 2))] false NZ [])); (RS 1 (INack 3 4) [] (mkO (SB 5 1) (SB 3 1) (SZ 2) 5 [(ZZ 5 0)] [(P1E 2 [(RSP 1 NB NZ); (RSP 4 NB NZ)]); (P1E 3 [(RSP 1 NB NZ); (RSP 3 NB NZ); (RSP 4 NB NZ)]); (P1E 5 [(RSP 1 (SB 3 1) (SZ 2))])] [(ZZ 2 0); (ZZ 3 1); (ZZ 5 0)] [(ZOZ 5 (SZ 2))] false NZ [])); (RS 1 (INack 3 4) [] (mkO (SB 5 1) (SB 3 1) (SZ 2) 5 [(ZZ 5 0)] [(P1E 2 [(RSP 1 NB NZ); (RSP 4 NB NZ)]); (P1E 3 [(RSP 1 NB NZ); (RSP 3 NB NZ); (RSP 4 NB NZ)]); (P1E 5 [(RSP 1 (SB 3 1) (SZ 2))])] [(ZZ 2 0); (ZZ 3 1); (ZZ 5 0)] [(ZOZ 5 (SZ 2))] false NZ [])); (RS 0 (IPromise 5 3 NB NZ) [] (mkO (SB 5 1) (SB 4 0) (SZ 2) 5 [(ZZ 5 0)] [(P1E 3 [(RSP 0 NB NZ); (RSP 1 NB NZ); (RSP 3 NB NZ); (RSP 4 NB NZ)]); (P1E 4 [(RSP 0 (SB 3 0) (SZ 4)); (RSP 2 NB NZ); (RSP 1 (SB 3 1) (SZ 2))]); (P1E 5 [(RSP 3 NB NZ)])] [(ZZ 3 1); (ZZ 4 2); (ZZ 5 0)] [(ZOZ 5 (SZ 2))] false NZ [])); (RS 1 (IPromise 5 0 (SB 4 0) (SZ 2)) [] (mkO (SB 5 1) (SB 3 1) (SZ 2) 5 [(ZZ 5 0)] [(P1E 2 [(RSP 1 NB NZ); (RSP 4 NB NZ)]); (P1E 3 [(RSP 1 NB NZ); (RSP 3 NB NZ); (RSP 4 NB NZ)]); (P1E 5 [(RSP 1 (SB 3 1) (SZ 2)); (RSP 0 (SB 4 0) (SZ 2))])] [(ZZ 2 0); (ZZ 3 1); (ZZ 5 0)] [(ZOZ 5 (SZ 2))] false NZ [])); (RS 0 (INack 4 4) [] (mkO (SB 5 1) (SB 4 0) (SZ 2) 5 [(ZZ 5 0)] [(P1E 3 [(RSP 0 NB NZ); (RSP 1 NB NZ); (RSP 3 NB NZ); (RSP 4 NB NZ)]); (P1E 4 [(RSP 0 (SB 3 0) (SZ 4)); (RSP 2 NB NZ); (RSP 1 (SB 3 1) (SZ 2))]); (P1E 5 [(RSP 3 NB NZ)])] [(ZZ 3 1); (ZZ 4 2); (ZZ 5 0)] [(ZOZ 5 (SZ 2))] false NZ [])); (RS 1 (INack 3 4) [] (mkO (SB 5 1) (SB 3 1) (SZ 2) 5 [(ZZ 5 0)] [(P1E 2 [(RSP 1 NB NZ); (RSP 4 NB NZ)]); (P1E 3 [(RSP 1 NB NZ); (RSP 3 NB NZ); (RSP 4 NB NZ)]); (P1E 5 [(RSP 1 (SB 3 1) (SZ 2)); (RSP 0 (SB 4 0) (SZ 2))])] [(ZZ 2 0); (ZZ 3 1); (ZZ 5 0)] [(ZOZ 5 (SZ 2))] false NZ [])); (RS 3 (IPromise 4 0 (SB 4 0) (SZ 2)) [] (mkO (SB 5 0) NB NZ 5 [(ZZ 4 0)] [(P1E 2 [(RSP 3 NB NZ); (RSP 2 NB NZ); (RSP 0 NB NZ)]); (P1E 4 [(RSP 3 NB NZ); (RSP 0 (SB 4 0) (SZ 2))])] [(ZZ 2 0); (ZZ 4 0)] [(ZOZ 4 (SZ 3))] false NZ [])); (RS 1 (IPrepare 0 5 0) [(ONack 0 5 0 5 1)] (mkO (SB 5 1) (SB 3 1) (SZ 2) 5 [(ZZ 5 0)] [(P1E 2 [(RSP 1 NB NZ); (RSP 4 NB NZ)]); (P1E 3 [(RSP 1 NB NZ); (RSP 3 NB NZ); (RSP 4 NB NZ)]); (P1E 5 [(RSP 1 (SB 3 1) (SZ 2)); (RSP 0 (SB 4 0) (SZ 2))])] [(ZZ 2 0); (ZZ 3 1); (ZZ 5 0)] [(ZOZ 5 (SZ 2))] false NZ [])); (RS 2 (IPrepare 0 5 0) [(OPromise 0 5 0 2 NB NZ)] (mkO (SB 5 0) NB NZ 0 [] [] [] [] false NZ [])); (RS 4 (IPrepare 0 5 0) [(OPromise 0 5 0 4 (SB 4 0) (SZ 2))] (mkO (SB 5 0) (SB 4 0) (SZ 2) 1 [(ZZ 1 0)] [(P1E 1 [(RSP 4 NB NZ)])] [(ZZ 1 0)] [(ZOZ 1 (SZ 1))] false NZ [])); (RS 0 (INack 5 5) [(ORetry 5)] (mkO (SB 5 1) (SB 4 0) (SZ 2) 5 [(ZZ 5 0)] [(P1E 3 [(RSP 0 NB NZ); (RSP 1 NB NZ); (RSP 3 NB NZ); (RSP 4 NB NZ)]); (P1E 4 [(RSP 0 (SB 3 0) (SZ 4)); (RSP 2 NB NZ); (RSP 1 (SB 3 1) (SZ 2))]); (P1E 5 [(RSP 3 NB NZ)])] [(ZZ 3 1); (ZZ 4 2); (ZZ 5 0)] [(ZOZ 5 (SZ 2))] false NZ [])); (RS 0 (IPromise 5 2 NB NZ) [] (mkO (SB 5 1) (SB 4 0) (SZ 2) 5 [(ZZ 5 0)] [(P1E 3 [(RSP 0 NB NZ); (RSP 1 NB NZ); (RSP 3 NB NZ); (RSP 4 NB NZ)]); (P1E 4 [(RSP 0 (SB 3 0) (SZ 4)); (RSP 2 NB NZ); (RSP 1 (SB 3 1) (SZ 2))]); (P1E 5 [(RSP 3 NB NZ); (RSP 2 NB NZ)])] [(ZZ 3 1); (ZZ 4 2); (ZZ 5 0)] [(ZOZ 5 (SZ 2))] false NZ [])); (RS 0 (IRetry 5) [(OPrepare 1 6 0); (OPrepare 2 6 0); (OPrepare 3 6 0); (OPrepare 4 6 0)] (mkO (SB 6 0) (SB 4 0) (SZ 2) 6 [(ZZ 6 0)] [(P1E 3 [(RSP 0 NB NZ); (RSP 1 NB NZ); (RSP 3 NB NZ); (RSP 4 NB NZ)]); (P1E 4 [(RSP 0 (SB 3 0) (SZ 4)); (RSP 2 NB NZ); (RSP 1 (SB 3 1) (SZ 2))]); (P1E 5 [(RSP 3 NB NZ); (RSP 2 NB NZ)]); (P1E 6 [(RSP 0 (SB 4 0) (SZ 2))])] [(ZZ 3 1); (ZZ 4 2); (ZZ 5 0); (ZZ 6 0)] [(ZOZ 6 (SZ 2))] false NZ [])); (RS 1 (IPrepare 0 6 0) [(OPromise 0 6 0 1 (SB 3 1) (SZ 2))] (mkO (SB 6 0) (SB 3 1) (SZ 2) 5 [(ZZ 5 0)] [(P1E 2 [(RSP 1 NB NZ); (RSP 4 NB NZ)]); (P1E 3 [(RSP 1 NB NZ); (RSP 3 NB NZ); (RSP 4 NB NZ)]); (P1E 5 [(RSP 1 (SB 3 1) (SZ 2)); (RSP 0 (SB 4 0) (SZ 2))])] [(ZZ 2 0); (ZZ 3 1); (ZZ 5 0)] [(ZOZ 5 (SZ 2))] false NZ [])); (RS 0 (IPromise 6 1 (SB 3 1) (SZ 2)) [] (mkO (SB 6 0) (SB 4 0) (SZ 2) 6 [(ZZ 6 0)] [(P1E 3 [(RSP 0 NB NZ); (RSP 1 NB NZ); (RSP 3 NB NZ); (RSP 4 NB NZ)]); (P1E 4 [(RSP 0 (SB 3 0) (SZ 4)); (RSP 2 NB NZ); (RSP 1 (SB 3 1) (SZ 2))]); (P1E 5 [(RSP 3 NB NZ); (RSP 2 NB NZ)]); (P1E 6 [(RSP 0 (SB 4 0) (SZ 2)); (RSP 1 (SB 3 1) (SZ 2))])] [(ZZ 3 1); (ZZ 4 2); (ZZ 5 0); (ZZ 6 0)] [(ZOZ 6 (SZ 2))] false NZ [])); (RS 2 (IPrepare 0 6 0) [(OPromise 0 6 0 2 NB NZ)] (mkO (SB 6 0) NB NZ 0 [] [] [] [] false NZ [])); (RS 0 (IPromise 6 2 NB NZ) [(OAccept 1 6 0 (SZ 2)); (OAccept 2 6 0 (SZ 2)); (OAccept 3 6 0 (SZ 2)); (OAccept 4 6 0 (SZ 2))] (mkO (SB 6 0) (SB 6 0) (SZ 2) 6 [(ZZ 6 0)] [(P1E 3 [(RSP 0 NB NZ); (RSP 1 NB NZ); (RSP 3 NB NZ); (RSP 4 NB NZ)]); (P1E 4 [(RSP 0 (SB 3 0) (SZ 4)); (RSP 2 NB NZ); (RSP 1 (SB 3 1) (SZ 2))]); (P1E 5 [(RSP 3 NB NZ); (RSP 2 NB NZ)]); (P1E 6 [(RSP 0 (SB 4 0) (SZ 2)); (RSP 1 (SB 3 1) (SZ 2)); (RSP 2 NB NZ)])] [(ZZ 3 1); (ZZ 4 2); (ZZ 5 0); (ZZ 6 1)] [(ZOZ 6 (SZ 2))] false NZ [])); (RS 1 (IAccept 0 6 0 (SZ 2)) [(OAccepted 0 6 0 1)] (mkO (SB 6 0) (SB 6 0) (SZ 2) 5 [(ZZ 5 0)] [(P1E 2 [(RSP 1 NB NZ); (RSP 4 NB NZ)]); (P1E 3 [(RSP 1 NB NZ); (RSP 3 NB NZ); (RSP 4 NB NZ)]); (P1E 5 [(RSP 1 (SB 3 1) (SZ 2)); (RSP 0 (SB 4 0) (SZ 2))])] [(ZZ 2 0); (ZZ 3 1); (ZZ 5 0)] [(ZOZ 5 (SZ 2))] false NZ [])); (RS 4 (IAccept 0 6 0 (SZ 2)) [(OAccepted 0 6 0 4)] (mkO (SB 6 0) (SB 6 0) (SZ 2) 1 [(ZZ 1 0)] [(P1E 1 [(RSP 4 NB NZ)])] [(ZZ 1 0)] [(ZOZ 1 (SZ 1))] false NZ [])); (RS 0 (IAccepted 6) [] (mkO (SB 6 0) (SB 6 0) (SZ 2) 6 [(ZZ 6 0)] [(P1E 3 [(RSP 0 NB NZ); (RSP 1 NB NZ); (RSP 3 NB NZ); (RSP 4 NB NZ)]); (P1E 4 [(RSP 0 (SB 3 0) (SZ 4)); (RSP 2 NB NZ); (RSP 1 (SB 3 1) (SZ 2))]); (P1E 5 [(RSP 3 NB NZ); (RSP 2 NB NZ)]); (P1E 6 [(RSP 0 (SB 4 0) (SZ 2)); (RSP 1 (SB 3 1) (SZ 2)); (RSP 2 NB NZ)])] [(ZZ 3 1); (ZZ 4 2); (ZZ 5 0); (ZZ 6 2)] [(ZOZ 6 (SZ 2))] false NZ [])); (RS 0 (IPromise 5 4 (SB 4 0) (SZ 2)) [] (mkO (SB 6 0) (SB 6 0) (SZ 2) 6 [(ZZ 6 0)] [(P1E 3 [(RSP 0 NB NZ); (RSP 1 NB NZ); (RSP 3 NB NZ); (RSP 4 NB NZ)]); (P1E 4 [(RSP 0 (SB 3 0) (SZ 4)); (RSP 2 NB NZ); (RSP 1 (SB 3 1) (SZ 2))]); (P1E 5 [(RSP 3 NB NZ); (RSP 2 NB NZ); (RSP 4 (SB 4 0) (SZ 2))]); (P1E 6 [(RSP 0 (SB 4 0) (SZ 2)); (RSP 1 (SB 3 1) (SZ 2)); (RSP 2 NB NZ)])] [(ZZ 3 1); (ZZ 4 2); (ZZ 5 0); (ZZ 6 2)] [(ZOZ 6 (SZ 2))] false NZ [])); (RS 2 (IAccept 0 6 0 (SZ 2)) [(OAccepted 0 6 0 2)] (mkO (SB 6 0) (SB 6 0) (SZ 2) 0 [] [] [] [] false NZ [])); (RS 3 (IPrepare 0 6 0) [(OPromise 0 6 0 3 NB NZ)] (mkO (SB 6 0) NB NZ 5 [(ZZ 4 0)] [(P1E 2 [(RSP 3 NB NZ); (RSP 2 NB NZ); (RSP 0 NB NZ)]); (P1E 4 [(RSP 3 NB NZ); (RSP 0 (SB 4 0) (SZ 2))])] [(ZZ 2 0); (ZZ 4 0)] [(ZOZ 4 (SZ 3))] false NZ [])); (RS 0 (IAccepted 6) [(ODecided 1 (SZ 2)); (ODecided 2 (SZ 2)); (ODecided 3 (SZ 2)); (ODecided 4 (SZ 2))] (mkO (SB 6 0) (SB 6 0) (SZ 2) 6 [(ZZ 6 0)] [(P1E 3 [(RSP 0 NB NZ); (RSP 1 NB NZ); (RSP 3 NB NZ); (RSP 4 NB NZ)]); (P1E 4 [(RSP 0 (SB 3 0) (SZ 4)); (RSP 2 NB NZ); (RSP 1 (SB 3 1) (SZ 2))]); (P1E 5 [(RSP 3 NB NZ); (RSP 2 NB NZ); (RSP 4 (SB 4 0) (SZ 2))]); (P1E 6 [(RSP 0 (SB 4 0) (SZ 2)); (RSP 1 (SB 3 1) (SZ 2)); (RSP 2 NB NZ)])] [(ZZ 3 1); (ZZ 4 2); (ZZ 5 0); (ZZ 6 3)] [(ZOZ 6 (SZ 2))] true (SZ 2) [(ZOZ 0 (SZ 2))])); (RS 0 (IPromise 6 3 NB NZ) [] (mkO (SB 6 0) (SB 6 0) (SZ 2) 6 [(ZZ 6 0)] [(P1E 3 [(RSP 0 NB NZ); (RSP 1 NB NZ); (RSP 3 NB NZ); (RSP 4 NB NZ)]); (P1E 4 [(RSP 0 (SB 3 0) (SZ 4)); (RSP 2 NB NZ); (RSP 1 (SB 3 1) (SZ 2))]); (P1E 5 [(RSP 3 NB NZ); (RSP 2 NB NZ); (RSP 4 (SB 4 0) (SZ 2))]); (P1E 6 [(RSP 0 (SB 4 0) (SZ 2)); (RSP 1 (SB 3 1) (SZ 2)); (RSP 2 NB NZ); (RSP 3 NB NZ)])] [(ZZ 3 1); (ZZ 4 2); (ZZ 5 0); (ZZ 6 3)] [(ZOZ 6 (SZ 2))] true (SZ 2) [(ZOZ 0 (SZ 2))])); (RS 1 (IDecided (SZ 2)) [] (mkO (SB 6 0) (SB 6 0) (SZ 2) 5 [(ZZ 5 0)] [(P1E 2 [(RSP 1 NB NZ); (RSP 4 NB NZ)]); (P1E 3 [(RSP 1 NB NZ); (RSP 3 NB NZ); (RSP 4 NB NZ)]); (P1E 5 [(RSP 1 (SB 3 1) (SZ 2)); (RSP 0 (SB 4 0) (SZ 2))])] [(ZZ 2 0); (ZZ 3 1); (ZZ 5 0)] [(ZOZ 5 (SZ 2))] true (SZ 2) [])); (RS 3 (IDecided (SZ 2)) [] (mkO (SB 6 0) NB NZ 5 [(ZZ 4 0)] [(P1E 2 [(RSP 3 NB NZ); (RSP 2 NB NZ); (RSP 0 NB NZ)]); (P1E 4 [(RSP 3 NB NZ); (RSP 0 (SB 4 0) (SZ 2))])] [(ZZ 2 0); (ZZ 4 0)] [(ZOZ 4 (SZ 3))] true (SZ 2) [])); (RS 2 (IDecided (SZ 2)) [] (mkO (SB 6 0) (SB 6 0) (SZ 2) 0 [] [] [] [] true (SZ 2) [])); (RS 4 (IDecided (SZ 2)) [] (mkO (SB 6 0) (SB 6 0) (SZ 2) 1 [(ZZ 1 0)] [(P1E 1 [(RSP 4 NB NZ)])] [(ZZ 1 0)] [(ZOZ 1 (SZ 1))] true (SZ 2) []))]).
Definition case_79 : Z * list rec_step := (3, [(RS 2 (IPropose 1) [(OPrepare 0 1 2); (OPrepare 1 1 2)] (mkO (SB 1 2) NB NZ 1 [(ZZ 1 0)] [(P1E 1 [(RSP 2 NB NZ)])] [(ZZ 1 0)] [(ZOZ 1 (SZ 1))] false NZ [])); (RS 2 (IPropose 2) [(OPrepare 0 2 2); (OPrepare 1 2 2)] (mkO (SB 2 2) NB NZ 2 [(ZZ 1 0); (ZZ 2 1)] [(P1E 1 [(RSP 2 NB NZ)]); (P1E 2 [(RSP 2 NB NZ)])] [(ZZ 1 0); (ZZ 2 0)] [(ZOZ 1 (SZ 1)); (ZOZ 2 (SZ 2))] false NZ [])); (RS 0 (IPrepare 2 1 2) [(OPromise 2 1 2 0 NB NZ)] (mkO (SB 1 2) NB NZ 0 [] [] [] [] false NZ [])); (RS 1 (IPrepare 2 1 2) [(OPromise 2 1 2 1 NB NZ)] (mkO (SB 1 2) NB NZ 0 [] [] [] [] false NZ [])); (RS 0 (IPrepare 2 2 2) [(OPromise 2 2 2 0 NB NZ)] (mkO (SB 2 2) NB NZ 0 [] [] [] [] false NZ [])); (RS 1 (IPrepare 2 2 2) [(OPromise 2 2 2 1 NB NZ)] (mkO (SB 2 2) NB NZ 0 [] [] [] [] false NZ [])); (RS 2 (IPromise 1 1 NB NZ) [(OAccept 0 1 2 (SZ 1)); (OAccept 1 1 2 (SZ 1))] (mkO (SB 2 2) NB NZ 2 [(ZZ 1 0); (ZZ 2 1)] [(P1E 1 [(RSP 2 NB NZ); (RSP 1 NB NZ)]); (P1E 2 [(RSP 2 NB NZ)])] [(ZZ 1 0); (ZZ 2 0)] [(ZOZ 1 (SZ 1)); (ZOZ 2 (SZ 2))] false NZ [])); (RS 0 (IAccept 2 1 2 (SZ 1)) [(ONack 2 1 2 2 2)] (mkO (SB 2 2) NB NZ 0 [] [] [] [] false NZ [])); (RS 1 (IAccept 2 1 2 (SZ 1)) [(ONack 2 1 2 2 2)] (mkO (SB 2 2) NB NZ 0 [] [] [] [] false NZ [])); (RS 2 (IPromise 2 0 NB NZ) [(OAccept 0 2 2 (SZ 2)); (OAccept 1 2 2 (SZ 2))] (mkO (SB 2 2) (SB 2 2) (SZ 2) 2 [(ZZ 1 0); (ZZ 2 1)] [(P1E 1 [(RSP 2 NB NZ); (RSP 1 NB NZ)]); (P1E 2 [(RSP 2 NB NZ); (RSP 0 NB NZ)])] [(ZZ 1 0); (ZZ 2 1)] [(ZOZ 1 (SZ 1)); (ZOZ 2 (SZ 2))] false NZ [])); (RS 2 (INack 1 2) [(ORetry 1)] (mkO (SB 2 2) (SB 2 2) (SZ 2) 2 [(ZZ 1 0); (ZZ 2 1)] [(P1E 1 [(RSP 2 NB NZ); (RSP 1 NB NZ)]); (P1E 2 [(RSP 2 NB NZ); (RSP 0 NB NZ)])] [(ZZ 1 0); (ZZ 2 1)] [(ZOZ 1 (SZ 1)); (ZOZ 2 (SZ 2))] false NZ [])); (RS 2 (IPromise 2 1 NB NZ) [] (mkO (SB 2 2) (SB 2 2) (SZ 2) 2 [(ZZ 1 0); (ZZ 2 1)] [(P1E 1 [(RSP 2 NB NZ); (RSP 1 NB NZ)]); (P1E 2 [(RSP 2 NB NZ); (RSP 0 NB NZ); (RSP 1 NB NZ)])] [(ZZ 1 0); (ZZ 2 1)] [(ZOZ 1 (SZ 1)); (ZOZ 2 (SZ 2))] false NZ [])); (RS 1 (IAccept 2 2 2 (SZ 2)) [(OAccepted 2 2 2 1)] (mkO (SB 2 2) (SB 2 2) (SZ 2) 0 [] [] [] [] false NZ [])); (RS 2 (IAccepted 2) [(ODecided 0 (SZ 2)); (ODecided 1 (SZ 2))] (mkO (SB 2 2) (SB 2 2) (SZ 2) 2 [(ZZ 1 0); (ZZ 2 1)] [(P1E 1 [(RSP 2 NB NZ); (RSP 1 NB NZ)]); (P1E 2 [(RSP 2 NB NZ); (RSP 0 NB NZ); (RSP 1 NB NZ)])] [(ZZ 1 0); (ZZ 2 2)] [(ZOZ 1 (SZ 1)); (ZOZ 2 (SZ 2))] true (SZ 2) [(ZOZ 1 (SZ 2))])); (RS 1 (IDecided (SZ 2)) [] (mkO (SB 2 2) (SB 2 2) (SZ 2) 0 [] [] [] [] true (SZ 2) [])); (RS 0 (IAccept 2 2 2 (SZ 2)) [(OAccepted 2 2 2 0)] (mkO (SB 2 2) (SB 2 2) (SZ 2) 0 [] [] [] [] false NZ [])); (RS 0 (IDecided (SZ 2)) [] (mkO (SB 2 2) (SB 2 2) (SZ 2) 0 [] [] [] [] true (SZ 2) [])); (RS 2 (IAccepted 2) [] (mkO (SB 2 2) (SB 2 2) (SZ 2) 2 [(ZZ 1 0); (ZZ 2 1)] [(P1E 1 [(RSP 2 NB NZ); (RSP 1 NB NZ)]); (P1E 2 [(RSP 2 NB NZ); (RSP 0 NB NZ); (RSP 1 NB NZ)])] [(ZZ 1 0); (ZZ 2 3)] [(ZOZ 1 (SZ 1)); (ZOZ 2 (SZ 2))] true (SZ 2) [(ZOZ 1 (SZ 2))])); (RS 2 (IPromise 1 0 NB NZ) [] (mkO (SB 2 2) (SB 2 2) (SZ 2) 2 [(ZZ 1 0); (ZZ 2 1)] [(P1E 1 [(RSP 2 NB NZ); (RSP 1 NB NZ); (RSP 0 NB NZ)]); (P1E 2 [(RSP 2 NB NZ); (RSP 0 NB NZ); (RSP 1 NB NZ)])] [(ZZ 1 0); (ZZ 2 3)] [(ZOZ 1 (SZ 1)); (ZOZ 2 (SZ 2))] true (SZ 2) [(ZOZ 1 (SZ 2))])); (RS 2 (INack 1 2) [(ORetry 1)] (mkO (SB 2 2) (SB 2 2) (SZ 2) 2 [(ZZ 1 0); (ZZ 2 1)] [(P1E 1 [(RSP 2 NB NZ); (RSP 1 NB NZ); (RSP 0 NB NZ)]); (P1E 2 [(RSP 2 NB NZ); (RSP 0 NB NZ); (RSP 1 NB NZ)])] [(ZZ 1 0); (ZZ 2 3)] [(ZOZ 1 (SZ 1)); (ZOZ 2 (SZ 2))] true (SZ 2) [(ZOZ 1 (SZ 2))])); (RS 2 (IRetry 1) [] (mkO (SB 2 2) (SB 2 2) (SZ 2) 2 [(ZZ 1 0); (ZZ 2 1)] [(P1E 1 [(RSP 2 NB NZ); (RSP 1 NB NZ); (RSP 0 NB NZ)]); (P1E 2 [(RSP 2 NB NZ); (RSP 0 NB NZ); (RSP 1 NB NZ)])] [(ZZ 1 0); (ZZ 2 3)] [(ZOZ 1 (SZ 1)); (ZOZ 2 (SZ 2))] true (SZ 2) [(ZOZ 1 (SZ 2))])); (RS 2 (IRetry 1) [] (mkO (SB 2 2) (SB 2 2) (SZ 2) 2 [(ZZ 1 0); (ZZ 2 1)] [(P1E 1 [(RSP 2 NB NZ); (RSP 1 NB NZ); (RSP 0 NB NZ)]); (P1E 2 [(RSP 2 NB NZ); (RSP 0 NB NZ); (RSP 1 NB NZ)])] [(ZZ 1 0); (ZZ 2 3)] [(ZOZ 1 (SZ 1)); (ZOZ 2 (SZ 2))] true (SZ 2) [(ZOZ 1 (SZ 2))]))]).
Definition case_80 : Z * list rec_step := (5, [(RS 3 (IPropose 1) [(OPrepare 0 1 3); (OPrepare 1 1 3); (OPrepare 2 1 3); (OPrepare 4 1 3)] (mkO (SB 1 3) NB NZ 1 [(ZZ 1 0)] [(P1E 1 [(RSP 3 NB NZ)])] [(ZZ 1 0)] [(ZOZ 1 (SZ 1))] false NZ [])); (RS 0 (IPrepare 3 1 3) [(OPromise 3 1 3 0 NB NZ)] (mkO (SB 1 3) NB NZ 0 [] [] [] [] false NZ [])); (RS 2 (IPropose 2) [(OPrepare 0 1 2); (OPrepare 1 1 2); (OPrepare 3 1 2); (OPrepare 4 1 2)] (mkO (SB 1 2) NB NZ 1 [(ZZ 1 0)] [(P1E 1 [(RSP 2 NB NZ)])] [(ZZ 1 0)] [(ZOZ 1 (SZ 2))] false NZ [])); (RS 1 (IPrepare 3 1 3) [(OPromise 3 1 3 1 NB NZ)] (mkO (SB 1 3) NB NZ 0 [] [] [] [] false NZ [])); (RS 2 (IPrepare 3 1 3) [(OPromise 3 1 3 2 NB NZ)] (mkO (SB 1 3) NB NZ 1 [(ZZ 1 0)] [(P1E 1 [(RSP 2 NB NZ)])] [(ZZ 1 0)] [(ZOZ 1 (SZ 2))] false NZ [])); (RS 3 (IPromise 1 1 NB NZ) [] (mkO (SB 1 3) NB NZ 1 [(ZZ 1 0)] [(P1E 1 [(RSP 3 NB NZ); (RSP 1 NB NZ)])] [(ZZ 1 0)] [(ZOZ 1 (SZ 1))] false NZ [])); (RS 3 (IPromise 1 0 NB NZ) [(OAccept 0 1 3 (SZ 1)); (OAccept 1 1 3 (SZ 1)); (OAccept 2 1 3 (SZ 1)); (OAccept 4 1 3 (SZ 1))] (mkO (SB 1 3) (SB 1 3) (SZ 1) 1 [(ZZ 1 0)] [(P1E 1 [(RSP 3 NB NZ); (RSP 1 NB NZ); (RSP 0 NB NZ)])] [(ZZ 1 1)] [(ZOZ 1 (SZ 1))] false NZ [])); (RS 0 (IAccept 3 1 3 (SZ 1)) [(OAccepted 3 1 3 0)] (mkO (SB 1 3) (SB 1 3) (SZ 1) 0 [] [] [] [] false NZ [])); (RS 1 (IAccept 3 1 3 (SZ 1)) [(OAccepted 3 1 3 1)] (mkO (SB 1 3) (SB 1 3) (SZ 1) 0 [] [] [] [] false NZ [])); (RS 3 (IAccepted 1) [] (mkO (SB 1 3) (SB 1 3) (SZ 1) 1 [(ZZ 1 0)] [(P1E 1 [(RSP 3 NB NZ); (RSP 1 NB NZ); (RSP 0 NB NZ)])] [(ZZ 1 2)] [(ZOZ 1 (SZ 1))] false NZ [])); (RS 0 (IPropose 3) [(OPrepare 1 2 0); (OPrepare 2 2 0); (OPrepare 3 2 0); (OPrepare 4 2 0)] (mkO (SB 2 0) (SB 1 3) (SZ 1) 2 [(ZZ 2 0)] [(P1E 2 [(RSP 0 (SB 1 3) (SZ 1))])] [(ZZ 2 0)] [(ZOZ 2 (SZ 3))] false NZ [])); (RS 2 (IAccept 3 1 3 (SZ 1)) [(OAccepted 3 1 3 2)] (mkO (SB 1 3) (SB 1 3) (SZ 1) 1 [(ZZ 1 0)] [(P1E 1 [(RSP 2 NB NZ)])] [(ZZ 1 0)] [(ZOZ 1 (SZ 2))] false NZ [])); (RS 4 (IAccept 3 1 3 (SZ 1)) [(OAccepted 3 1 3 4)] (mkO (SB 1 3) (SB 1 3) (SZ 1) 0 [] [] [] [] false NZ [])); (RS 3 (IAccepted 1) [(ODecided 0 (SZ 1)); (ODecided 1 (SZ 1)); (ODecided 2 (SZ 1)); (ODecided 4 (SZ 1))] (mkO (SB 1 3) (SB 1 3) (SZ 1) 1 [(ZZ 1 0)] [(P1E 1 [(RSP 3 NB NZ); (RSP 1 NB NZ); (RSP 0 NB NZ)])] [(ZZ 1 3)] [(ZOZ 1 (SZ 1))] true (SZ 1) [(ZOZ 0 (SZ 1))])); (RS 2 (IPrepare 0 2 0) [(OPromise 0 2 0 2 (SB 1 3) (SZ 1))] (mkO (SB 2 0) (SB 1 3) (SZ 1) 1 [(ZZ 1 0)] [(P1E 1 [(RSP 2 NB NZ)])] [(ZZ 1 0)] [(ZOZ 1 (SZ 2))] false NZ [])); (RS 3 (IAccepted 1) [] (mkO (SB 1 3) (SB 1 3) (SZ 1) 1 [(ZZ 1 0)] [(P1E 1 [(RSP 3 NB NZ); (RSP 1 NB NZ); (RSP 0 NB NZ)])] [(ZZ 1 4)] [(ZOZ 1 (SZ 1))] true (SZ 1) [(ZOZ 0 (SZ 1))])); (RS 2 (IDecided (SZ 1)) [] (mkO (SB 2 0) (SB 1 3) (SZ 1) 1 [(ZZ 1 0)] [(P1E 1 [(RSP 2 NB NZ)])] [(ZZ 1 0)] [(ZOZ 1 (SZ 2))] true (SZ 1) [])); (RS 0 (IPrepare 2 1 2) [(ONack 2 1 2 2 0)] (mkO (SB 2 0) (SB 1 3) (SZ 1) 2 [(ZZ 2 0)] [(P1E 2 [(RSP 0 (SB 1 3) (SZ 1))])] [(ZZ 2 0)] [(ZOZ 2 (SZ 3))] false NZ [])); (RS 1 (IPrepare 2 1 2) [(ONack 2 1 2 1 3)] (mkO (SB 1 3) (SB 1 3) (SZ 1) 0 [] [] [] [] false NZ [])); (RS 0 (IDecided (SZ 1)) [] (mkO (SB 2 0) (SB 1 3) (SZ 1) 2 [(ZZ 2 0)] [(P1E 2 [(RSP 0 (SB 1 3) (SZ 1))])] [(ZZ 2 0)] [(ZOZ 2 (SZ 3))] true (SZ 1) [])); (RS 4 (IDecided (SZ 1)) [] (mkO (SB 1 3) (SB 1 3) (SZ 1) 0 [] [] [] [] true (SZ 1) [])); (RS 2 (INack 1 1) [(ORetry 1)] (mkO (SB 2 0) (SB 1 3) (SZ 1) 1 [(ZZ 1 0)] [(P1E 1 [(RSP 2 NB NZ)])] [(ZZ 1 0)] [(ZOZ 1 (SZ 2))] true (SZ 1) [])); (RS 3 (IPromise 1 2 NB NZ) [] (mkO (SB 1 3) (SB 1 3) (SZ 1) 1 [(ZZ 1 0)] [(P1E 1 [(RSP 3 NB NZ); (RSP 1 NB NZ); (RSP 0 NB NZ); (RSP 2 NB NZ)])] [(ZZ 1 4)] [(ZOZ 1 (SZ 1))] true (SZ 1) [(ZOZ 0 (SZ 1))])); (RS 1 (IPrepare 0 2 0) [(OPromise 0 2 0 1 (SB 1 3) (SZ 1))] (mkO (SB 2 0) (SB 1 3) (SZ 1) 0 [] [] [] [] false NZ [])); (RS 3 (IPrepare 0 2 0) [(OPromise 0 2 0 3 (SB 1 3) (SZ 1))] (mkO (SB 2 0) (SB 1 3) (SZ 1) 1 [(ZZ 1 0)] [(P1E 1 [(RSP 3 NB NZ); (RSP 1 NB NZ); (RSP 0 NB NZ); (RSP 2 NB NZ)])] [(ZZ 1 4)] [(ZOZ 1 (SZ 1))] true (SZ 1) [(ZOZ 0 (SZ 1))])); (RS 1 (IDecided (SZ 1)) [] (mkO (SB 2 0) (SB 1 3) (SZ 1) 0 [] [] [] [] true (SZ 1) [])); (RS 0 (IPromise 2 1 (SB 1 3) (SZ 1)) [] (mkO (SB 2 0) (SB 1 3) (SZ 1) 2 [(ZZ 2 0)] [(P1E 2 [(RSP 0 (SB 1 3) (SZ 1)); (RSP 1 (SB 1 3) (SZ 1))])] [(ZZ 2 0)] [(ZOZ 2 (SZ 3))] true (SZ 1) [])); (RS 0 (IPromise 2 2 (SB 1 3) (SZ 1)) [(OAccept 1 2 0 (SZ 1)); (OAccept 2 2 0 (SZ 1)); (OAccept 3 2 0 (SZ 1)); (OAccept 4 2 0 (SZ 1))] (mkO (SB 2 0) (SB 2 0) (SZ 1) 2 [(ZZ 2 0)] [(P1E 2 [(RSP 0 (SB 1 3) (SZ 1)); (RSP 1 (SB 1 3) (SZ 1)); (RSP 2 (SB 1 3) (SZ 1))])] [(ZZ 2 1)] [(ZOZ 2 (SZ 1))] true (SZ 1) [])); (RS 4 (IAccept 0 2 0 (SZ 1)) [(OAccepted 0 2 0 4)] (mkO (SB 2 0) (SB 2 0) (SZ 1) 0 [] [] [] [] true (SZ 1) [])); (RS 3 (IAccept 0 2 0 (SZ 1)) [(OAccepted 0 2 0 3)] (mkO (SB 2 0) (SB 2 0) (SZ 1) 1 [(ZZ 1 0)] [(P1E 1 [(RSP 3 NB NZ); (RSP 1 NB NZ); (RSP 0 NB NZ); (RSP 2 NB NZ)])] [(ZZ 1 4)] [(ZOZ 1 (SZ 1))] true (SZ 1) [(ZOZ 0 (SZ 1))])); (RS 0 (IPromise 2 3 (SB 1 3) (SZ 1)) [] (mkO (SB 2 0) (SB 2 0) (SZ 1) 2 [(ZZ 2 0)] [(P1E 2 [(RSP 0 (SB 1 3) (SZ 1)); (RSP 1 (SB 1 3) (SZ 1)); (RSP 2 (SB 1 3) (SZ 1)); (RSP 3 (SB 1 3) (SZ 1))])] [(ZZ 2 1)] [(ZOZ 2 (SZ 1))] true (SZ 1) [])); (RS 2 (IRetry 1) [] (mkO (SB 2 0) (SB 1 3) (SZ 1) 1 [(ZZ 1 0)] [(P1E 1 [(RSP 2 NB NZ)])] [(ZZ 1 0)] [(ZOZ 1 (SZ 2))] true (SZ 1) []))]).
Definition case_81 : Z * list rec_step := (3, [(RS 0 (IPropose 2) [(OPrepare 1 1 0); (OPrepare 2 1 0)] (mkO (SB 1 0) NB NZ 1 [(ZZ 1 0)] [(P1E 1 [(RSP 0 NB NZ)])] [(ZZ 1 0)] [(ZOZ 1 (SZ 2))] false NZ [])); (RS 1 (IPrepare 0 1 0) [(OPromise 0 1 0 1 NB NZ)] (mkO (SB 1 0) NB NZ 0 [] [] [] [] false NZ [])); (RS 2 (IPropose 1) [(OPrepare 0 1 2); (OPrepare 1 1 2)] (mkO (SB 1 2) NB NZ 1 [(ZZ 1 0)] [(P1E 1 [(RSP 2 NB NZ)])] [(ZZ 1 0)] [(ZOZ 1 (SZ 1))] false NZ [])); (RS 0 (IPromise 1 1 NB NZ) [(OAccept 1 1 0 (SZ 2)); (OAccept 2 1 0 (SZ 2))] (mkO (SB 1 0) (SB 1 0) (SZ 2) 1 [(ZZ 1 0)] [(P1E 1 [(RSP 0 NB NZ); (RSP 1 NB NZ)])] [(ZZ 1 1)] [(ZOZ 1 (SZ 2))] false NZ [])); (RS 1 (IPrepare 2 1 2) [(OPromise 2 1 2 1 NB NZ)] (mkO (SB 1 2) NB NZ 0 [] [] [] [] false NZ [])); (RS 1 (IAccept 0 1 0 (SZ 2)) [(ONack 0 1 0 1 2)] (mkO (SB 1 2) NB NZ 0 [] [] [] [] false NZ [])); (RS 2 (IAccept 0 1 0 (SZ 2)) [(ONack 0 1 0 1 2)] (mkO (SB 1 2) NB NZ 1 [(ZZ 1 0)] [(P1E 1 [(RSP 2 NB NZ)])] [(ZZ 1 0)] [(ZOZ 1 (SZ 1))] false NZ [])); (RS 0 (IPrepare 2 1 2) [(OPromise 2 1 2 0 (SB 1 0) (SZ 2))] (mkO (SB 1 2) (SB 1 0) (SZ 2) 1 [(ZZ 1 0)] [(P1E 1 [(RSP 0 NB NZ); (RSP 1 NB NZ)])] [(ZZ 1 1)] [(ZOZ 1 (SZ 2))] false NZ [])); (RS 0 (INack 1 1) [(ORetry 1)] (mkO (SB 1 2) (SB 1 0) (SZ 2) 1 [(ZZ 1 0)] [(P1E 1 [(RSP 0 NB NZ); (RSP 1 NB NZ)])] [(ZZ 1 1)] [(ZOZ 1 (SZ 2))] false NZ [])); (RS 0 (INack 1 1) [(ORetry 1)] (mkO (SB 1 2) (SB 1 0) (SZ 2) 1 [(ZZ 1 0)] [(P1E 1 [(RSP 0 NB NZ); (RSP 1 NB NZ)])] [(ZZ 1 1)] [(ZOZ 1 (SZ 2))] false NZ [])); (RS 2 (IPromise 1 0 (SB 1 0) (SZ 2)) [(OAccept 0 1 2 (SZ 2)); (OAccept 1 1 2 (SZ 2))] (mkO (SB 1 2) (SB 1 2) (SZ 2) 1 [(ZZ 1 0)] [(P1E 1 [(RSP 2 NB NZ); (RSP 0 (SB 1 0) (SZ 2))])] [(ZZ 1 1)] [(ZOZ 1 (SZ 2))] false NZ [])); (RS 0 (IAccept 2 1 2 (SZ 2)) [(OAccepted 2 1 2 0)] (mkO (SB 1 2) (SB 1 2) (SZ 2) 1 [(ZZ 1 0)] [(P1E 1 [(RSP 0 NB NZ); (RSP 1 NB NZ)])] [(ZZ 1 1)] [(ZOZ 1 (SZ 2))] false NZ [])); (RS 1 (IAccept 2 1 2 (SZ 2)) [(OAccepted 2 1 2 1)] (mkO (SB 1 2) (SB 1 2) (SZ 2) 0 [] [] [] [] false NZ [])); (RS 2 (IAccepted 1) [(ODecided 0 (SZ 2)); (ODecided 1 (SZ 2))] (mkO (SB 1 2) (SB 1 2) (SZ 2) 1 [(ZZ 1 0)] [(P1E 1 [(RSP 2 NB NZ); (RSP 0 (SB 1 0) (SZ 2))])] [(ZZ 1 2)] [(ZOZ 1 (SZ 2))] true (SZ 2) [(ZOZ 0 (SZ 2))])); (RS 2 (IAccepted 1) [] (mkO (SB 1 2) (SB 1 2) (SZ 2) 1 [(ZZ 1 0)] [(P1E 1 [(RSP 2 NB NZ); (RSP 0 (SB 1 0) (SZ 2))])] [(ZZ 1 3)] [(ZOZ 1 (SZ 2))] true (SZ 2) [(ZOZ 0 (SZ 2))])); (RS 0 (IDecided (SZ 2)) [] (mkO (SB 1 2) (SB 1 2) (SZ 2) 1 [(ZZ 1 0)] [(P1E 1 [(RSP 0 NB NZ); (RSP 1 NB NZ)])] [(ZZ 1 1)] [(ZOZ 1 (SZ 2))] true (SZ 2) [])); (RS 1 (IDecided (SZ 2)) [] (mkO (SB 1 2) (SB 1 2) (SZ 2) 0 [] [] [] [] true (SZ 2) [])); (RS 1 (IPropose 3) [] (mkO (SB 1 2) (SB 1 2) (SZ 2) 0 [] [] [] [] true (SZ 2) [(ZOZ 0 (SZ 2))])); (RS 2 (IPrepare 0 1 0) [(ONack 0 1 0 1 2)] (mkO (SB 1 2) (SB 1 2) (SZ 2) 1 [(ZZ 1 0)] [(P1E 1 [(RSP 2 NB NZ); (RSP 0 (SB 1 0) (SZ 2))])] [(ZZ 1 3)] [(ZOZ 1 (SZ 2))] true (SZ 2) [(ZOZ 0 (SZ 2))])); (RS 0 (INack 1 1) [(ORetry 1)] (mkO (SB 1 2) (SB 1 2) (SZ 2) 1 [(ZZ 1 0)] [(P1E 1 [(RSP 0 NB NZ); (RSP 1 NB NZ)])] [(ZZ 1 1)] [(ZOZ 1 (SZ 2))] true (SZ 2) [])); (RS 2 (IPromise 1 1 NB NZ) [] (mkO (SB 1 2) (SB 1 2) (SZ 2) 1 [(ZZ 1 0)] [(P1E 1 [(RSP 2 NB NZ); (RSP 0 (SB 1 0) (SZ 2)); (RSP 1 NB NZ)])] [(ZZ 1 3)] [(ZOZ 1 (SZ 2))] true (SZ 2) [(ZOZ 0 (SZ 2))])); (RS 0 (IRetry 1) [] (mkO (SB 1 2) (SB 1 2) (SZ 2) 1 [(ZZ 1 0)] [(P1E 1 [(RSP 0 NB NZ); (RSP 1 NB NZ)])] [(ZZ 1 1)] [(ZOZ 1 (SZ 2))] true (SZ 2) [])); (RS 0 (IRetry 1) [] (mkO (SB 1 2) (SB 1 2) (SZ 2) 1 [(ZZ 1 0)] [(P1E 1 [(RSP 0 NB NZ); (RSP 1 NB NZ)])] [(ZZ 1 1)] [(ZOZ 1 (SZ 2))] true (SZ 2) [])); (RS 0 (IRetry 1) [] (mkO (SB 1 2) (SB 1 2) (SZ 2) 1 [(ZZ 1 0)] [(P1E 1 [(RSP 0 NB NZ); (RSP 1 NB NZ)])] [(ZZ 1 1)] [(ZOZ 1 (SZ 2))] true (SZ 2) []))]).
Definition case_82 : Z * list rec_step := (3, [(RS 2 (IPropose 3) [(OPrepare 0 1 2); (OPrepare 1 1 2)] (mkO (SB 1 2) NB NZ 1 [(ZZ 1 0)] [(P1E 1 [(RSP 2 NB NZ)])] [(ZZ 1 0)] [(ZOZ 1 (SZ 3))] false NZ [])); (RS 1 (IPropose 2) [(OPrepare 0 1 1); (OPrepare 2 1 1)] (mkO (SB 1 1) NB NZ 1 [(ZZ 1 0)] [(P1E 1 [(RSP 1 NB NZ)])] [(ZZ 1 0)] [(ZOZ 1 (SZ 2))] false NZ [])); (RS 0 (IPrepare 1 1 1) [(OPromise 1 1 1 0 NB NZ)] (mkO (SB 1 1) NB NZ 0 [] [] [] [] false NZ [])); (RS 2 (IPrepare 1 1 1) [(ONack 1 1 1 1 2)] (mkO (SB 1 2) NB NZ 1 [(ZZ 1 0)] [(P1E 1 [(RSP 2 NB NZ)])] [(ZZ 1 0)] [(ZOZ 1 (SZ 3))] false NZ [])); (RS 1 (INack 1 1) [(ORetry 1)] (mkO (SB 1 1) NB NZ 1 [(ZZ 1 0)] [(P1E 1 [(RSP 1 NB NZ)])] [(ZZ 1 0)] [(ZOZ 1 (SZ 2))] false NZ [])); (RS 1 (IRetry 1) [(OPrepare 0 2 1); (OPrepare 2 2 1)] (mkO (SB 2 1) NB NZ 2 [(ZZ 2 0)] [(P1E 1 [(RSP 1 NB NZ)]); (P1E 2 [(RSP 1 NB NZ)])] [(ZZ 1 0); (ZZ 2 0)] [(ZOZ 2 (SZ 2))] false NZ [])); (RS 0 (IPrepare 2 1 2) [(OPromise 2 1 2 0 NB NZ)] (mkO (SB 1 2) NB NZ 0 [] [] [] [] false NZ [])); (RS 1 (IPrepare 2 1 2) [(ONack 2 1 2 2 1)] (mkO (SB 2 1) NB NZ 2 [(ZZ 2 0)] [(P1E 1 [(RSP 1 NB NZ)]); (P1E 2 [(RSP 1 NB NZ)])] [(ZZ 1 0); (ZZ 2 0)] [(ZOZ 2 (SZ 2))] false NZ [])); (RS 2 (IPromise 1 0 NB NZ) [(OAccept 0 1 2 (SZ 3)); (OAccept 1 1 2 (SZ 3))] (mkO (SB 1 2) (SB 1 2) (SZ 3) 1 [(ZZ 1 0)] [(P1E 1 [(RSP 2 NB NZ); (RSP 0 NB NZ)])] [(ZZ 1 1)] [(ZOZ 1 (SZ 3))] false NZ [])); (RS 2 (INack 1 2) [(ORetry 1)] (mkO (SB 1 2) (SB 1 2) (SZ 3) 2 [(ZZ 1 0)] [(P1E 1 [(RSP 2 NB NZ); (RSP 0 NB NZ)])] [(ZZ 1 1)] [(ZOZ 1 (SZ 3))] false NZ [])); (RS 1 (IAccept 2 1 2 (SZ 3)) [(ONack 2 1 2 2 1)] (mkO (SB 2 1) NB NZ 2 [(ZZ 2 0)] [(P1E 1 [(RSP 1 NB NZ)]); (P1E 2 [(RSP 1 NB NZ)])] [(ZZ 1 0); (ZZ 2 0)] [(ZOZ 2 (SZ 2))] false NZ [])); (RS 2 (IRetry 1) [(OPrepare 0 3 2); (OPrepare 1 3 2)] (mkO (SB 3 2) (SB 1 2) (SZ 3) 3 [(ZZ 3 0)] [(P1E 1 [(RSP 2 NB NZ); (RSP 0 NB NZ)]); (P1E 3 [(RSP 2 (SB 1 2) (SZ 3))])] [(ZZ 1 1); (ZZ 3 0)] [(ZOZ 3 (SZ 3))] false NZ [])); (RS 1 (IPrepare 2 3 2) [(OPromise 2 3 2 1 NB NZ)] (mkO (SB 3 2) NB NZ 2 [(ZZ 2 0)] [(P1E 1 [(RSP 1 NB NZ)]); (P1E 2 [(RSP 1 NB NZ)])] [(ZZ 1 0); (ZZ 2 0)] [(ZOZ 2 (SZ 2))] false NZ [])); (RS 2 (IPromise 3 1 NB NZ) [(OAccept 0 3 2 (SZ 3)); (OAccept 1 3 2 (SZ 3))] (mkO (SB 3 2) (SB 3 2) (SZ 3) 3 [(ZZ 3 0)] [(P1E 1 [(RSP 2 NB NZ); (RSP 0 NB NZ)]); (P1E 3 [(RSP 2 (SB 1 2) (SZ 3)); (RSP 1 NB NZ)])] [(ZZ 1 1); (ZZ 3 1)] [(ZOZ 3 (SZ 3))] false NZ [])); (RS 1 (IAccept 2 3 2 (SZ 3)) [(OAccepted 2 3 2 1)] (mkO (SB 3 2) (SB 3 2) (SZ 3) 2 [(ZZ 2 0)] [(P1E 1 [(RSP 1 NB NZ)]); (P1E 2 [(RSP 1 NB NZ)])] [(ZZ 1 0); (ZZ 2 0)] [(ZOZ 2 (SZ 2))] false NZ [])); (RS 0 (IPrepare 1 2 1) [(OPromise 1 2 1 0 NB NZ)] (mkO (SB 2 1) NB NZ 0 [] [] [] [] false NZ [])); (RS 2 (IPrepare 1 2 1) [(ONack 1 2 1 3 2)] (mkO (SB 3 2) (SB 3 2) (SZ 3) 3 [(ZZ 3 0)] [(P1E 1 [(RSP 2 NB NZ); (RSP 0 NB NZ)]); (P1E 3 [(RSP 2 (SB 1 2) (SZ 3)); (RSP 1 NB NZ)])] [(ZZ 1 1); (ZZ 3 1)] [(ZOZ 3 (SZ 3))] false NZ [])); (RS 1 (INack 2 3) [(ORetry 2)] (mkO (SB 3 2) (SB 3 2) (SZ 3) 3 [(ZZ 2 0)] [(P1E 1 [(RSP 1 NB NZ)]); (P1E 2 [(RSP 1 NB NZ)])] [(ZZ 1 0); (ZZ 2 0)] [(ZOZ 2 (SZ 2))] false NZ [])); (RS 1 (IRetry 2) [(OPrepare 0 4 1); (OPrepare 2 4 1)] (mkO (SB 4 1) (SB 3 2) (SZ 3) 4 [(ZZ 4 0)] [(P1E 1 [(RSP 1 NB NZ)]); (P1E 2 [(RSP 1 NB NZ)]); (P1E 4 [(RSP 1 (SB 3 2) (SZ 3))])] [(ZZ 1 0); (ZZ 2 0); (ZZ 4 0)] [(ZOZ 4 (SZ 2))] false NZ [])); (RS 0 (IPrepare 1 4 1) [(OPromise 1 4 1 0 NB NZ)] (mkO (SB 4 1) NB NZ 0 [] [] [] [] false NZ [])); (RS 1 (IPromise 4 0 NB NZ) [(OAccept 0 4 1 (SZ 3)); (OAccept 2 4 1 (SZ 3))] (mkO (SB 4 1) (SB 4 1) (SZ 3) 4 [(ZZ 4 0)] [(P1E 1 [(RSP 1 NB NZ)]); (P1E 2 [(RSP 1 NB NZ)]); (P1E 4 [(RSP 1 (SB 3 2) (SZ 3)); (RSP 0 NB NZ)])] [(ZZ 1 0); (ZZ 2 0); (ZZ 4 1)] [(ZOZ 4 (SZ 3))] false NZ [])); (RS 2 (INack 1 2) [] (mkO (SB 3 2) (SB 3 2) (SZ 3) 3 [(ZZ 3 0)] [(P1E 1 [(RSP 2 NB NZ); (RSP 0 NB NZ)]); (P1E 3 [(RSP 2 (SB 1 2) (SZ 3)); (RSP 1 NB NZ)])] [(ZZ 1 1); (ZZ 3 1)] [(ZOZ 3 (SZ 3))] false NZ [])); (RS 0 (IPrepare 2 3 2) [(ONack 2 3 2 4 1)] (mkO (SB 4 1) NB NZ 0 [] [] [] [] false NZ [])); (RS 2 (INack 3 4) [(ORetry 3)] (mkO (SB 3 2) (SB 3 2) (SZ 3) 4 [(ZZ 3 0)] [(P1E 1 [(RSP 2 NB NZ); (RSP 0 NB NZ)]); (P1E 3 [(RSP 2 (SB 1 2) (SZ 3)); (RSP 1 NB NZ)])] [(ZZ 1 1); (ZZ 3 1)] [(ZOZ 3 (SZ 3))] false NZ [])); (RS 2 (IAccepted 3) [(ODecided 0 (SZ 3)); (ODecided 1 (SZ 3))] (mkO (SB 3 2) (SB 3 2) (SZ 3) 4 [(ZZ 3 0)] [(P1E 1 [(RSP 2 NB NZ); (RSP 0 NB NZ)]); (P1E 3 [(RSP 2 (SB 1 2) (SZ 3)); (RSP 1 NB NZ)])] [(ZZ 1 1); (ZZ 3 2)] [(ZOZ 3 (SZ 3))] true (SZ 3) [(ZOZ 0 (SZ 3))])); (RS 1 (IPromise 2 0 NB NZ) [] (mkO (SB 4 1) (SB 4 1) (SZ 3) 4 [(ZZ 4 0)] [(P1E 1 [(RSP 1 NB NZ)]); (P1E 2 [(RSP 1 NB NZ); (RSP 0 NB NZ)]); (P1E 4 [(RSP 1 (SB 3 2) (SZ 3)); (RSP 0 NB NZ)])] [(ZZ 1 0); (ZZ 2 0); (ZZ 4 1)] [(ZOZ 4 (SZ 3))] false NZ [])); (RS 0 (IDecided (SZ 3)) [] (mkO (SB 4 1) NB NZ 0 [] [] [] [] true (SZ 3) [])); (RS 2 (IRetry 3) [] (mkO (SB 3 2) (SB 3 2) (SZ 3) 4 [(ZZ 3 0)] [(P1E 1 [(RSP 2 NB NZ); (RSP 0 NB NZ)]); (P1E 3 [(RSP 2 (SB 1 2) (SZ 3)); (RSP 1 NB NZ)])] [(ZZ 1 1); (ZZ 3 2)] [(ZOZ 3 (SZ 3))] true (SZ 3) [(ZOZ 0 (SZ 3))])); (RS 1 (IPropose 2) [(OPrepare 0 5 1); (OPrepare 2 5 1)] (mkO (SB 5 1) (SB 4 1) (SZ 3) 5 [(ZZ 4 0); (ZZ 5 1)] [(P1E 1 [(RSP 1 NB NZ)]); (P1E 2 [(RSP 1 NB NZ); (RSP 0 NB NZ)]); (P1E 4 [(RSP 1 (SB 3 2) (SZ 3)); (RSP 0 NB NZ)]); (P1E 5 [(RSP 1 (SB 4 1) (SZ 3))])] [(ZZ 1 0); (ZZ 2 0); (ZZ 4 1); (ZZ 5 0)] [(ZOZ 4 (SZ 3)); (ZOZ 5 (SZ 2))] false NZ [])); (RS 0 (IAccept 1 4 1 (SZ 3)) [(OAccepted 1 4 1 0)] (mkO (SB 4 1) (SB 4 1) (SZ 3) 0 [] [] [] [] true (SZ 3) [])); (RS 2 (IAccept 1 4 1 (SZ 3)) [(OAccepted 1 4 1 2)] (mkO (SB 4 1) (SB 4 1) (SZ 3) 4 [(ZZ 3 0)] [(P1E 1 [(RSP 2 NB NZ); (RSP 0 NB NZ)]); (P1E 3 [(RSP 2 (SB 1 2) (SZ 3)); (RSP 1 NB NZ)])] [(ZZ 1 1); (ZZ 3 2)] [(ZOZ 3 (SZ 3))] true (SZ 3) [(ZOZ 0 (SZ 3))])); (RS 0 (IPrepare 1 5 1) [(OPromise 1 5 1 0 (SB 4 1) (SZ 3))] (mkO (SB 5 1) (SB 4 1) (SZ 3) 0 [] [] [] [] true (SZ 3) [])); (RS 1 (IAccepted 4) [(ODecided 0 (SZ 3)); (ODecided 2 (SZ 3))] (mkO (SB 5 1) (SB 4 1) (SZ 3) 5 [(ZZ 4 0); (ZZ 5 1)] [(P1E 1 [(RSP 1 NB NZ)]); (P1E 2 [(RSP 1 NB NZ); (RSP 0 NB NZ)]); (P1E 4 [(RSP 1 (SB 3 2) (SZ 3)); (RSP 0 NB NZ)]); (P1E 5 [(RSP 1 (SB 4 1) (SZ 3))])] [(ZZ 1 0); (ZZ 2 0); (ZZ 4 2); (ZZ 5 0)] [(ZOZ 4 (SZ 3)); (ZOZ 5 (SZ 2))] true (SZ 3) [(ZOZ 0 (SZ 3))])); (RS 1 (IPromise 5 0 (SB 4 1) (SZ 3)) [(OAccept 0 5 1 (SZ 3)); (OAccept 2 5 1 (SZ 3))] (mkO (SB 5 1) (SB 5 1) (SZ 3) 5 [(ZZ 4 0); (ZZ 5 1)] [(P1E 1 [(RSP 1 NB NZ)]); (P1E 2 [(RSP 1 NB NZ); (RSP 0 NB NZ)]); (P1E 4 [(RSP 1 (SB 3 2) (SZ 3)); (RSP 0 NB NZ)]); (P1E 5 [(RSP 1 (SB 4 1) (SZ 3)); (RSP 0 (SB 4 1) (SZ 3))])] [(ZZ 1 0); (ZZ 2 0); (ZZ 4 2); (ZZ 5 1)] [(ZOZ 4 (SZ 3)); (ZOZ 5 (SZ 3))] true (SZ 3) [(ZOZ 0 (SZ 3))])); (RS 2 (IDecided (SZ 3)) [] (mkO (SB 4 1) (SB 4 1) (SZ 3) 4 [(ZZ 3 0)] [(P1E 1 [(RSP 2 NB NZ); (RSP 0 NB NZ)]); (P1E 3 [(RSP 2 (SB 1 2) (SZ 3)); (RSP 1 NB NZ)])] [(ZZ 1 1); (ZZ 3 2)] [(ZOZ 3 (SZ 3))] true (SZ 3) [(ZOZ 0 (SZ 3))])); (RS 2 (IPrepare 1 5 1) [(OPromise 1 5 1 2 (SB 4 1) (SZ 3))] (mkO (SB 5 1) (SB 4 1) (SZ 3) 4 [(ZZ 3 0)] [(P1E 1 [(RSP 2 NB NZ); (RSP 0 NB NZ)]); (P1E 3 [(RSP 2 (SB 1 2) (SZ 3)); (RSP 1 NB NZ)])] [(ZZ 1 1); (ZZ 3 2)] [(ZOZ 3 (SZ 3))] true (SZ 3) [(ZOZ 0 (SZ 3))])); (RS 1 (IAccepted 4) [] (mkO (SB 5 1) (SB 5 1) (SZ 3) 5 [(ZZ 4 0); (ZZ 5 1)] [(P1E 1 [(RSP 1 NB NZ)]); (P1E 2 [(RSP 1 NB NZ); (RSP 0 NB NZ)]); (P1E 4 [(RSP 1 (SB 3 2) (SZ 3)); (RSP 0 NB NZ)]); (P1E 5 [(RSP 1 (SB 4 1) (SZ 3)); (RSP 0 (SB 4 1) (SZ 3))])] [(ZZ 1 0); (ZZ 2 0); (ZZ 4 3); (ZZ 5 1)] [(ZOZ 4 (SZ 3)); (ZOZ 5 (SZ 3))] true (SZ 3) [(ZOZ 0 (SZ 3))])); (RS 1 (IPromise 5 2 (SB 4 1) (SZ 3)) [] (mkO (SB 5 1) (SB 5 1) (SZ 3) 5 [(ZZ 4 0); (ZZ 5 1)] [(P1E 1 [(RSP 1 NB NZ)]); (P1E 2 [(RSP 1 NB NZ); (RSP 0 NB NZ)]); (P1E 4 [(RSP 1 (SB 3 2) (SZ 3)); (RSP 0 NB NZ)]); (P1E 5 [(RSP 1 (SB 4 1) (SZ 3)); (RSP 0 (SB 4 1) (SZ 3)); (RSP 2 (SB 4 1) (SZ 3))])] [(ZZ 1 0); (ZZ 2 0); (ZZ 4 3); (ZZ 5 1)] [(ZOZ 4 (SZ 3)); (ZOZ 5 (SZ 3))] true (SZ 3) [(ZOZ 0 (SZ 3))])); (RS 0 (IAccept 1 5 1 (SZ 3)) [(OAccepted 1 5 1 0)] (mkO (SB 5 1) (SB 5 1) (SZ 3) 0 [] [] [] [] true (SZ 3) [])); (RS 2 (IAccept 1 5 1 (SZ 3)) [(OAccepted 1 5 1 2)] (mkO (SB 5 1) (SB 5 1) (SZ 3) 4 [(ZZ 3 0)] [(P1E 1 [(RSP 2 NB NZ); (RSP 0 NB NZ)]); (P1E 3 [(RSP 2 (SB 1 2) (SZ 3)); (RSP 1 NB NZ)])] [(ZZ 1 1); (ZZ 3 2)] [(ZOZ 3 (SZ 3))] true (SZ 3) [(ZOZ 0 (SZ 3))])); (RS 1 (IAccepted 5) [] (mkO (SB 5 1) (SB 5 1) (SZ 3) 5 [(ZZ 4 0); (ZZ 5 1)] [(P1E 1 [(RSP 1 NB NZ)]); (P1E 2 [(RSP 1 NB NZ); (RSP 0 NB NZ)]); (P1E 4 [(RSP 1 (SB 3 2) (SZ 3)); (RSP 0 NB NZ)]); (P1E 5 [(RSP 1 (SB 4 1) (SZ 3)); (RSP 0 (SB 4 1) (SZ 3)); (RSP 2 (SB 4 1) (SZ 3))])] [(ZZ 1 0); (ZZ 2 0); (ZZ 4 3); (ZZ 5 2)] [(ZOZ 4 (SZ 3)); (ZOZ 5 (SZ 3))] true (SZ 3) [(ZOZ 0 (SZ 3))]))]).
Definition case_83 : Z * list rec_step := (3, [(RS 1 (IPropose 1) [(OPrepare 0 1 1); (OPrepare 2 1 1)] (mkO (SB 1 1) NB NZ 1 [(ZZ 1 0)] [(P1E 1 [(RSP 1 NB NZ)])] [(ZZ 1 0)] [(ZOZ 1 (SZ 1))] false NZ [])); (RS 0 (IPrepare 1 1 1) [(OPromise 1 1 1 0 NB NZ)] (mkO (SB 1 1) NB NZ 0 [] [] [] [] false NZ [])); (RS 2 (IPrepare 1 1 1) [(OPromise 1 1 1 2 NB NZ)] (mkO (SB 1 1) NB NZ 0 [] [] [] [] false NZ [])); (RS 1 (IPromise 1 2 NB NZ) [(OAccept 0 1 1 (SZ 1)); (OAccept 2 1 1 (SZ 1))] (mkO (SB 1 1) (SB 1 1) (SZ 1) 1 [(ZZ 1 0)] [(P1E 1 [(RSP 1 NB NZ); (RSP 2 NB NZ)])] [(ZZ 1 1)] [(ZOZ 1 (SZ 1))] false NZ [])); (RS 2 (IAccept 1 1 1 (SZ 1)) [(OAccepted 1 1 1 2)] (mkO (SB 1 1) (SB 1 1) (SZ 1) 0 [] [] [] [] false NZ [])); (RS 1 (IAccepted 1) [(ODecided 0 (SZ 1)); (ODecided 2 (SZ 1))] (mkO (SB 1 1) (SB 1 1) (SZ 1) 1 [(ZZ 1 0)] [(P1E 1 [(RSP 1 NB NZ); (RSP 2 NB NZ)])] [(ZZ 1 2)] [(ZOZ 1 (SZ 1))] true (SZ 1) [(ZOZ 0 (SZ 1))])); (RS 2 (IDecided (SZ 1)) [] (mkO (SB 1 1) (SB 1 1) (SZ 1) 0 [] [] [] [] true (SZ 1) [])); (RS 1 (IPromise 1 0 NB NZ) [] (mkO (SB 1 1) (SB 1 1) (SZ 1) 1 [(ZZ 1 0)] [(P1E 1 [(RSP 1 NB NZ); (RSP 2 NB NZ); (RSP 0 NB NZ)])] [(ZZ 1 2)] [(ZOZ 1 (SZ 1))] true (SZ 1) [(ZOZ 0 (SZ 1))])); (RS 0 (IAccept 1 1 1 (SZ 1)) [(OAccepted 1 1 1 0)] (mkO (SB 1 1) (SB 1 1) (SZ 1) 0 [] [] [] [] false NZ [])); (RS 0 (IDecided (SZ 1)) [] (mkO (SB 1 1) (SB 1 1) (SZ 1) 0 [] [] [] [] true (SZ 1) [])); (RS 1 (IAccepted 1) [] (mkO (SB 1 1) (SB 1 1) (SZ 1) 1 [(ZZ 1 0)] [(P1E 1 [(RSP 1 NB NZ); (RSP 2 NB NZ); (RSP 0 NB NZ)])] [(ZZ 1 3)] [(ZOZ 1 (SZ 1))] true (SZ 1) [(ZOZ 0 (SZ 1))]))]).
Definition case_84 : Z * list rec_step := (3, [(RS 0 (IPropose 3) [(OPrepare 1 1 0); (OPrepare 2 1 0)] (mkO (SB 1 0) NB NZ 1 [(ZZ 1 0)] [(P1E 1 [(RSP 0 NB NZ)])] [(ZZ 1 0)] [(ZOZ 1 (SZ 3))] false NZ [])); (RS 1 (IPrepare 0 1 0) [(OPromise 0 1 0 1 NB NZ)] (mkO (SB 1 0) NB NZ 0 [] [] [] [] false NZ [])); (RS 2 (IPrepare 0 1 0) [(OPromise 0 1 0 2 NB NZ)] (mkO (SB 1 0) NB NZ 0 [] [] [] [] false NZ [])); (RS 0 (IPropose 2) [(OPrepare 1 2 0); (OPrepare 2 2 0)] (mkO (SB 2 0) NB NZ 2 [(ZZ 1 0); (ZZ 2 1)] [(P1E 1 [(RSP 0 NB NZ)]); (P1E 2 [(RSP 0 NB NZ)])] [(ZZ 1 0); (ZZ 2 0)] [(ZOZ 1 (SZ 3)); (ZOZ 2 (SZ 2))] false NZ [])); (RS 0 (IPromise 1 1 NB NZ) [(OAccept 1 1 0 (SZ 3)); (OAccept 2 1 0 (SZ 3))] (mkO (SB 2 0) NB NZ 2 [(ZZ 1 0); (ZZ 2 1)] [(P1E 1 [(RSP 0 NB NZ); (RSP 1 NB NZ)]); (P1E 2 [(RSP 0 NB NZ)])] [(ZZ 1 0); (ZZ 2 0)] [(ZOZ 1 (SZ 3)); (ZOZ 2 (SZ 2))] false NZ [])); (RS 2 (IAccept 0 1 0 (SZ 3)) [(OAccepted 0 1 0 2)] (mkO (SB 1 0) (SB 1 0) (SZ 3) 0 [] [] [] [] false NZ [])); (RS 1 (IAccept 0 1 0 (SZ 3)) [(OAccepted 0 1 0 1)] (mkO (SB 1 0) (SB 1 0) (SZ 3) 0 [] [] [] [] false NZ [])); (RS 2 (IPrepare 0 2 0) [(OPromise 0 2 0 2 (SB 1 0) (SZ 3))] (mkO (SB 2 0) (SB 1 0) (SZ 3) 0 [] [] [] [] false NZ [])); (RS 0 (IPromise 2 2 (SB 1 0) (SZ 3)) [(OAccept 1 2 0 (SZ 3)); (OAccept 2 2 0 (SZ 3))] (mkO (SB 2 0) (SB 2 0) (SZ 3) 2 [(ZZ 1 0); (ZZ 2 1)] [(P1E 1 [(RSP 0 NB NZ); (RSP 1 NB NZ)]); (P1E 2 [(RSP 0 NB NZ); (RSP 2 (SB 1 0) (SZ 3))])] [(ZZ 1 0); (ZZ 2 1)] [(ZOZ 1 (SZ 3)); (ZOZ 2 (SZ 3))] false NZ [])); (RS 1 (IAccept 0 2 0 (SZ 3)) [(OAccepted 0 2 0 1)] (mkO (SB 2 0) (SB 2 0) (SZ 3) 0 [] [] [] [] false NZ [])); (RS 2 (IAccept 0 2 0 (SZ 3)) [(OAccepted 0 2 0 2)] (mkO (SB 2 0) (SB 2 0) (SZ 3) 0 [] [] [] [] false NZ [])); (RS 0 (IAccepted 2) [(ODecided 1 (SZ 3)); (ODecided 2 (SZ 3))] (mkO (SB 2 0) (SB 2 0) (SZ 3) 2 [(ZZ 1 0); (ZZ 2 1)] [(P1E 1 [(RSP 0 NB NZ); (RSP 1 NB NZ)]); (P1E 2 [(RSP 0 NB NZ); (RSP 2 (SB 1 0) (SZ 3))])] [(ZZ 1 0); (ZZ 2 2)] [(ZOZ 1 (SZ 3)); (ZOZ 2 (SZ 3))] true (SZ 3) [(ZOZ 1 (SZ 3))])); (RS 0 (IAccepted 2) [] (mkO (SB 2 0) (SB 2 0) (SZ 3) 2 [(ZZ 1 0); (ZZ 2 1)] [(P1E 1 [(RSP 0 NB NZ); (RSP 1 NB NZ)]); (P1E 2 [(RSP 0 NB NZ); (RSP 2 (SB 1 0) (SZ 3))])] [(ZZ 1 0); (ZZ 2 3)] [(ZOZ 1 (SZ 3)); (ZOZ 2 (SZ 3))] true (SZ 3) [(ZOZ 1 (SZ 3))])); (RS 0 (IPromise 1 2 NB NZ) [] (mkO (SB 2 0) (SB 2 0) (SZ 3) 2 [(ZZ 1 0); (ZZ 2 1)] [(P1E 1 [(RSP 0 NB NZ); (RSP 1 NB NZ); (RSP 2 NB NZ)]); (P1E 2 [(RSP 0 NB NZ); (RSP 2 (SB 1 0) (SZ 3))])] [(ZZ 1 0); (ZZ 2 3)] [(ZOZ 1 (SZ 3)); (ZOZ 2 (SZ 3))] true (SZ 3) [(ZOZ 1 (SZ 3))])); (RS 1 (IPrepare 0 2 0) [(OPromise 0 2 0 1 (SB 2 0) (SZ 3))] (mkO (SB 2 0) (SB 2 0) (SZ 3) 0 [] [] [] [] false NZ [])); (RS 0 (IAccepted 1) [] (mkO (SB 2 0) (SB 2 0) (SZ 3) 2 [(ZZ 1 0); (ZZ 2 1)] [(P1E 1 [(RSP 0 NB NZ); (RSP 1 NB NZ); (RSP 2 NB NZ)]); (P1E 2 [(RSP 0 NB NZ); (RSP 2 (SB 1 0) (SZ 3))])] [(ZZ 1 1); (ZZ 2 3)] [(ZOZ 1 (SZ 3)); (ZOZ 2 (SZ 3))] true (SZ 3) [(ZOZ 1 (SZ 3))])); (RS 0 (IAccepted 1) [] (mkO (SB 2 0) (SB 2 0) (SZ 3) 2 [(ZZ 1 0); (ZZ 2 1)] [(P1E 1 [(RSP 0 NB NZ); (RSP 1 NB NZ); (RSP 2 NB NZ)]); (P1E 2 [(RSP 0 NB NZ); (RSP 2 (SB 1 0) (SZ 3))])] [(ZZ 1 2); (ZZ 2 3)] [(ZOZ 1 (SZ 3)); (ZOZ 2 (SZ 3))] true (SZ 3) [(ZOZ 1 (SZ 3))])); (RS 1 (IDecided (SZ 3)) [] (mkO (SB 2 0) (SB 2 0) (SZ 3) 0 [] [] [] [] true (SZ 3) [])); (RS 2 (IDecided (SZ 3)) [] (mkO (SB 2 0) (SB 2 0) (SZ 3) 0 [] [] [] [] true (SZ 3) [])); (RS 0 (IPromise 2 1 (SB 2 0) (SZ 3)) [] (mkO (SB 2 0) (SB 2 0) (SZ 3) 2 [(ZZ 1 0); (ZZ 2 1)] [(P1E 1 [(RSP 0 NB NZ); (RSP 1 NB NZ); (RSP 2 NB NZ)]); (P1E 2 [(RSP 0 NB NZ); (RSP 2 (SB 1 0) (SZ 3)); (RSP 1 (SB 2 0) (SZ 3))])] [(ZZ 1 2); (ZZ 2 3)] [(ZOZ 1 (SZ 3)); (ZOZ 2 (SZ 3))] true (SZ 3) [(ZOZ 1 (SZ 3))]))]).
Definition case_85 : Z * list rec_step := (3, [(RS 0 (IPropose 2) [(OPrepare 1 1 0); (OPrepare 2 1 0)] (mkO (SB 1 0) NB NZ 1 [(ZZ 1 0)] [(P1E 1 [(RSP 0 NB NZ)])] [(ZZ 1 0)] [(ZOZ 1 (SZ 2))] false NZ [])); (RS 2 (IPrepare 0 1 0) [(OPromise 0 1 0 2 NB NZ)] (mkO (SB 1 0) NB NZ 0 [] [] [] [] false NZ [])); (RS 0 (IPromise 1 2 NB NZ) [(OAccept 1 1 0 (SZ 2)); (OAccept 2 1 0 (SZ 2))] (mkO (SB 1 0) (SB 1 0) (SZ 2) 1 [(ZZ 1 0)] [(P1E 1 [(RSP 0 NB NZ); (RSP 2 NB NZ)])] [(ZZ 1 1)] [(ZOZ 1 (SZ 2))] false NZ [])); (RS 1 (IPropose 3) [(OPrepare 0 1 1); (OPrepare 2 1 1)] (mkO (SB 1 1) NB NZ 1 [(ZZ 1 0)] [(P1E 1 [(RSP 1 NB NZ)])] [(ZZ 1 0)] [(ZOZ 1 (SZ 3))] false NZ [])); (RS 2 (IPrepare 1 1 1) [(OPromise 1 1 1 2 NB NZ)] (mkO (SB 1 1) NB NZ 0 [] [] [] [] false NZ [])); (RS 1 (IPromise 1 2 NB NZ) [(OAccept 0 1 1 (SZ 3)); (OAccept 2 1 1 (SZ 3))] (mkO (SB 1 1) (SB 1 1) (SZ 3) 1 [(ZZ 1 0)] [(P1E 1 [(RSP 1 NB NZ); (RSP 2 NB NZ)])] [(ZZ 1 1)] [(ZOZ 1 (SZ 3))] false NZ [])); (RS 2 (IAccept 1 1 1 (SZ 3)) [(OAccepted 1 1 1 2)] (mkO (SB 1 1) (SB 1 1) (SZ 3) 0 [] [] [] [] false NZ [])); (RS 1 (IAccepted 1) [(ODecided 0 (SZ 3)); (ODecided 2 (SZ 3))] (mkO (SB 1 1) (SB 1 1) (SZ 3) 1 [(ZZ 1 0)] [(P1E 1 [(RSP 1 NB NZ); (RSP 2 NB NZ)])] [(ZZ 1 2)] [(ZOZ 1 (SZ 3))] true (SZ 3) [(ZOZ 0 (SZ 3))])); (RS 0 (IDecided (SZ 3)) [] (mkO (SB 1 0) (SB 1 0) (SZ 2) 1 [(ZZ 1 0)] [(P1E 1 [(RSP 0 NB NZ); (RSP 2 NB NZ)])] [(ZZ 1 1)] [(ZOZ 1 (SZ 2))] true (SZ 3) [])); (RS 2 (IDecided (SZ 3)) [] (mkO (SB 1 1) (SB 1 1) (SZ 3) 0 [] [] [] [] true (SZ 3) [])); (RS 2 (IPropose 1) [] (mkO (SB 1 1) (SB 1 1) (SZ 3) 0 [] [] [] [] true (SZ 3) [(ZOZ 0 (SZ 3))]))]).
Definition case_86 : Z * list rec_step := (5, [(RS 0 (IPropose 1) [(OPrepare 1 1 0); (OPrepare 2 1 0); (OPrepare 3 1 0); (OPrepare 4 1 0)] (mkO (SB 1 0) NB NZ 1 [(ZZ 1 0)] [(P1E 1 [(RSP 0 NB NZ)])] [(ZZ 1 0)] [(ZOZ 1 (SZ 1))] false NZ [])); (RS 2 (IPropose 2) [(OPrepare 0 1 2); (OPrepare 1 1 2); (OPrepare 3 1 2); (OPrepare 4 1 2)] (mkO (SB 1 2) NB NZ 1 [(ZZ 1 0)] [(P1E 1 [(RSP 2 NB NZ)])] [(ZZ 1 0)] [(ZOZ 1 (SZ 2))] false NZ [])); (RS 4 (IPrepare 2 1 2) [(OPromise 2 1 2 4 NB NZ)] (mkO (SB 1 2) NB NZ 0 [] [] [] [] false NZ [])); (RS 0 (IPrepare 2 1 2) [(OPromise 2 1 2 0 NB NZ)] (mkO (SB 1 2) NB NZ 1 [(ZZ 1 0)] [(P1E 1 [(RSP 0 NB NZ)])] [(ZZ 1 0)] [(ZOZ 1 (SZ 1))] false NZ [])); (RS 2 (IPromise 1 0 NB NZ) [] (mkO (SB 1 2) NB NZ 1 [(ZZ 1 0)] [(P1E 1 [(RSP 2 NB NZ); (RSP 0 NB NZ)])] [(ZZ 1 0)] [(ZOZ 1 (SZ 2))] false NZ [])); (RS 2 (IPrepare 0 1 0) [(ONack 0 1 0 1 2)] (mkO (SB 1 2) NB NZ 1 [(ZZ 1 0)] [(P1E 1 [(RSP 2 NB NZ); (RSP 0 NB NZ)])] [(ZZ 1 0)] [(ZOZ 1 (SZ 2))] false NZ [])); (RS 3 (IPrepare 0 1 0) [(OPromise 0 1 0 3 NB NZ)] (mkO (SB 1 0) NB NZ 0 [] [] [] [] false NZ [])); (RS 4 (IPrepare 0 1 0) [(ONack 0 1 0 1 2)] (mkO (SB 1 2) NB NZ 0 [] [] [] [] false NZ [])); (RS 3 (IPropose 3) [(OPrepare 0 2 3); (OPrepare 1 2 3); (OPrepare 2 2 3); (OPrepare 4 2 3)] (mkO (SB 2 3) NB NZ 2 [(ZZ 2 0)] [(P1E 2 [(RSP 3 NB NZ)])] [(ZZ 2 0)] [(ZOZ 2 (SZ 3))] false NZ [])); (RS 2 (IPrepare 3 2 3) [(OPromise 3 2 3 2 NB NZ)] (mkO (SB 2 3) NB NZ 1 [(ZZ 1 0)] [(P1E 1 [(RSP 2 NB NZ); (RSP 0 NB NZ)])] [(ZZ 1 0)] [(ZOZ 1 (SZ 2))] false NZ [])); (RS 4 (IPrepare 3 2 3) [(OPromise 3 2 3 4 NB NZ)] (mkO (SB 2 3) NB NZ 0 [] [] [] [] false NZ [])); (RS 1 (IPrepare 2 1 2) [(OPromise 2 1 2 1 NB NZ)] (mkO (SB 1 2) NB NZ 0 [] [] [] [] false NZ [])); (RS 3 (IPrepare 2 1 2) [(ONack 2 1 2 2 3)] (mkO (SB 2 3) NB NZ 2 [(ZZ 2 0)] [(P1E 2 [(RSP 3 NB NZ)])] [(ZZ 2 0)] [(ZOZ 2 (SZ 3))] false NZ [])); (RS 2 (IPromise 1 1 NB NZ) [(OAccept 0 1 2 (SZ 2)); (OAccept 1 1 2 (SZ 2)); (OAccept 3 1 2 (SZ 2)); (OAccept 4 1 2 (SZ 2))] (mkO (SB 2 3) NB NZ 1 [(ZZ 1 0)] [(P1E 1 [(RSP 2 NB NZ); (RSP 0 NB NZ); (RSP 1 NB NZ)])] [(ZZ 1 0)] [(ZOZ 1 (SZ 2))] false NZ [])); (RS 0 (INack 1 1) [(ORetry 1)] (mkO (SB 1 2) NB NZ 1 [(ZZ 1 0)] [(P1E 1 [(RSP 0 NB NZ)])] [(ZZ 1 0)] [(ZOZ 1 (SZ 1))] false NZ [])); (RS 0 (IPromise 1 3 NB NZ) [] (mkO (SB 1 2) NB NZ 1 [(ZZ 1 0)] [(P1E 1 [(RSP 0 NB NZ); (RSP 3 NB NZ)])] [(ZZ 1 0)] [(ZOZ 1 (SZ 1))] false NZ [])); (RS 0 (INack 1 1) [(ORetry 1)] (mkO (SB 1 2) NB NZ 1 [(ZZ 1 0)] [(P1E 1 [(RSP 0 NB NZ); (RSP 3 NB NZ)])] [(ZZ 1 0)] [(ZOZ 1 (SZ 1))] false NZ [])); (RS 2 (IPromise 1 4 NB NZ) [] (mkO (SB 2 3) NB NZ 1 [(ZZ 1 0)] [(P1E 1 [(RSP 2 NB NZ); (RSP 0 NB NZ); (RSP 1 NB NZ); (RSP 4 NB NZ)])] [(ZZ 1 0)] [(ZOZ 1 (SZ 2))] false NZ [])); (RS 1 (IPrepare 3 2 3) [(OPromise 3 2 3 1 NB NZ)] (mkO (SB 2 3) NB NZ 0 [] [] [] [] false NZ [])); (RS 3 (IPromise 2 1 NB NZ) [] (mkO (SB 2 3) NB NZ 2 [(ZZ 2 0)] [(P1E 2 [(RSP 3 NB NZ); (RSP 1 NB NZ)])] [(ZZ 2 0)] [(ZOZ 2 (SZ 3))] false NZ [])); (RS 3 (IPromise 2 4 NB NZ) [(OAccept 0 2 3 (SZ 3)); (OAccept 1 2 3 (SZ 3)); (OAccept 2 2 3 (SZ 3)); (OAccept 4 2 3 (SZ 3))] (mkO (SB 2 3) (SB 2 3) (SZ 3) 2 [(ZZ 2 0)] [(P1E 2 [(RSP 3 NB NZ); (RSP 1 NB NZ); (RSP 4 NB NZ)])] [(ZZ 2 1)] [(ZOZ 2 (SZ 3))] false NZ [])); (RS 0 (IAccept 2 1 2 (SZ 2)) [(OAccepted 2 1 2 0)] (mkO (SB 1 2) (SB 1 2) (SZ 2) 1 [(ZZ 1 0)] [(P1E 1 [(RSP 0 NB NZ); (RSP 3 NB NZ)])] [(ZZ 1 0)] [(ZOZ 1 (SZ 1))] false NZ [])); (RS 4 (IAccept 3 2 3 (SZ 3)) [(OAccepted 3 2 3 4)] (mkO (SB 2 3) (SB 2 3) (SZ 3) 0 [] [] [] [] false NZ [])); (RS 3 (IAccepted 2) [] (mkO (SB 2 3) (SB 2 3) (SZ 3) 2 [(ZZ 2 0)] [(P1E 2 [(RSP 3 NB NZ); (RSP 1 NB NZ); (RSP 4 NB NZ)])] [(ZZ 2 2)] [(ZOZ 2 (SZ 3))] false NZ [])); (RS 3 (IPromise 2 2 NB NZ) [] (mkO (SB 2 3) (SB 2 3) (SZ 3) 2 [(ZZ 2 0)] [(P1E 2 [(RSP 3 NB NZ); (RSP 1 NB NZ); (RSP 4 NB NZ); (RSP 2 NB NZ)])] [(ZZ 2 2)] [(ZOZ 2 (SZ 3))] false NZ [])); (RS 2 (INack 1 2) [(ORetry 1)] (mkO (SB 2 3) NB NZ 2 [(ZZ 1 0)] [(P1E 1 [(RSP 2 NB NZ); (RSP 0 NB NZ); (RSP 1 NB NZ); (RSP 4 NB NZ)])] [(ZZ 1 0)] [(ZOZ 1 (SZ 2))] false NZ [])); (RS 1 (IAccept 2 1 2 (SZ 2)) [(ONack 2 1 2 2 3)] (mkO (SB 2 3) NB NZ 0 [] [] [] [] false NZ [])); (RS 4 (IAccept 2 1 2 (SZ 2)) [(ONack 2 1 2 2 3)] (mkO (SB 2 3) (SB 2 3) (SZ 3) 0 [] [] [] [] false NZ [])); (RS 2 (INack 1 2) [(ORetry 1)] (mkO (SB 2 3) NB NZ 2 [(ZZ 1 0)] [(P1E 1 [(RSP 2 NB NZ); (RSP 0 NB NZ); (RSP 1 NB NZ); (RSP 4 NB NZ)])] [(ZZ 1 0)] [(ZOZ 1 (SZ 2))] false NZ [])); (RS 0 (IAccept 3 2 3 (SZ 3)) [(OAccepted 3 2 3 0)] (mkO (SB 2 3) (SB 2 3) (SZ 3) 1 [(ZZ 1 0)] [(P1E 1 [(RSP 0 NB NZ); (RSP 3 NB NZ)])] [(ZZ 1 0)] [(ZOZ 1 (SZ 1))] false NZ [])); (RS 3 (IAccepted 2) [(ODecided 0 (SZ 3)); (ODecided 1 (SZ 3)); (ODecided 2 (SZ 3)); (ODecided 4 (SZ 3))] (mkO (SB 2 3) (SB 2 3) (SZ 3) 2 [(ZZ 2 0)] [(P1E 2 [(RSP 3 NB NZ); (RSP 1 NB NZ); (RSP 4 NB NZ); (RSP 2 NB NZ)])] [(ZZ 2 3)] [(ZOZ 2 (SZ 3))] true (SZ 3) [(ZOZ 0 (SZ 3))])); (RS 0 (IDecided (SZ 3)) [] (mkO (SB 2 3) (SB 2 3) (SZ 3) 1 [(ZZ 1 0)] [(P1E 1 [(RSP 0 NB NZ); (RSP 3 NB NZ)])] [(ZZ 1 0)] [(ZOZ 1 (SZ 1))] true (SZ 3) [])); (RS 1 (IPropose 4) [(OPrepare 0 3 1); (OPrepare 2 3 1); (OPrepare 3 3 1); (OPrepare 4 3 1)] (mkO (SB 3 1) NB NZ 3 [(ZZ 3 0)] [(P1E 3 [(RSP 1 NB NZ)])] [(ZZ 3 0)] [(ZOZ 3 (SZ 4))] false NZ [])); (RS 3 (IPrepare 1 3 1) [(OPromise 1 3 1 3 (SB 2 3) (SZ 3))] (mkO (SB 3 1) (SB 2 3) (SZ 3) 2 [(ZZ 2 0)] [(P1E 2 [(RSP 3 NB NZ); (RSP 1 NB NZ); (RSP 4 NB NZ); (RSP 2 NB NZ)])] [(ZZ 2 3)] [(ZOZ 2 (SZ 3))] true (SZ 3) [(ZOZ 0 (SZ 3))])); (RS 0 (IRetry 1) [] (mkO (SB 2 3) (SB 2 3) (SZ 3) 1 [(ZZ 1 0)] [(P1E 1 [(RSP 0 NB NZ); (RSP 3 NB NZ)])] [(ZZ 1 0)] [(ZOZ 1 (SZ 1))] true (SZ 3) [])); (RS 4 (IDecided (SZ 3)) [] (mkO (SB 2 3) (SB 2 3) (SZ 3) 0 [] [] [] [] true (SZ 3) [])); (RS 0 (IPrepare 1 3 1) [(OPromise 1 3 1 0 (SB 2 3) (SZ 3))] (mkO (SB 3 1) (SB 2 3) (SZ 3) 1 [(ZZ 1 0)] [(P1E 1 [(RSP 0 NB NZ); (RSP 3 NB NZ)])] [(ZZ 1 0)] [(ZOZ 1 (SZ 1))] true (SZ 3) [])); (RS 2 (IPrepare 1 3 1) [(OPromise 1 3 1 2 NB NZ)] (mkO (SB 3 1) NB NZ 2 [(ZZ 1 0)] [(P1E 1 [(RSP 2 NB NZ); (RSP 0 NB NZ); (RSP 1 NB NZ); (RSP 4 NB NZ)])] [(ZZ 1 0)] [(ZOZ 1 (SZ 2))] false NZ [])); (RS 4 (IPrepare 1 3 1) [(OPromise 1 3 1 4 (SB 2 3) (SZ 3))] (mkO (SB 3 1) (SB 2 3) (SZ 3) 0 [] [] [] [] true (SZ 3) [])); (RS 1 (IPromise 3 0 (SB 2 3) (SZ 3)) [] (mkO (SB 3 1) NB NZ 3 [(ZZ 3 0)] [(P1E 3 [(RSP 1 NB NZ); (RSP 0 (SB 2 3) (SZ 3))])] [(ZZ 3 0)] [(ZOZ 3 (SZ 4))] false NZ [])); (RS 1 (IPromise 3 4 (SB 2 3) (SZ 3)) [(OAccept 0 3 1 (SZ 3)); (OAccept 2 3 1 (SZ 3)); (OAccept 3 3 1 (SZ 3)); (OAccept 4 3 1 (SZ 3))] (mkO (SB 3 1) (SB 3 1) (SZ 3) 3 [(ZZ 3 0)] [(P1E 3 [(RSP 1 NB NZ); (RSP 0 (SB 2 3) (SZ 3)); (RSP 4 (SB 2 3) (SZ 3))])] [(ZZ 3 1)] [(ZOZ 3 (SZ 3))] false NZ [])); (RS 1 (IPromise 3 3 (SB 2 3) (SZ 3)) [] (mkO (SB 3 1) (SB 3 1) (SZ 3) 3 [(ZZ 3 0)] [(P1E 3 [(RSP 1 NB NZ); (RSP 0 (SB 2 3) (SZ 3)); (RSP 4 (SB 2 3) (SZ 3)); (RSP 3 (SB 2 3) (SZ 3))])] [(ZZ 3 1)] [(ZOZ 3 (SZ 3))] false NZ [])); (RS 0 (IRetry 1) [] (mkO (SB 3 1) (SB 2 3) (SZ 3) 1 [(ZZ 1 0)] [(P1E 1 [(RSP 0 NB NZ); (RSP 3 NB NZ)])] [(ZZ 1 0)] [(ZOZ 1 (SZ 1))] true (SZ 3) [])); (RS 2 (IRetry 1) [(OPrepare 0 3 2); (OPrepare 1 3 2); (OPrepare 3 3 2); (OPrepare 4 3 2)] (mkO (SB 3 2) NB NZ 3 [(ZZ 3 0)] [(P1E 1 [(RSP 2 NB NZ); (RSP 0 NB NZ); (RSP 1 NB NZ); (RSP 4 NB NZ)]); (P1E 3 [(RSP 2 NB NZ)])] [(ZZ 1 0); (ZZ 3 0)] [(ZOZ 3 (SZ 2))] false NZ [])); (RS 0 (IAccept 1 3 1 (SZ 3)) [(OAccepted 1 3 1 0)] (mkO (SB 3 1) (SB 3 1) (SZ 3) 1 [(ZZ 1 0)] [(P1E 1 [(RSP 0 NB NZ); (RSP 3 NB NZ)])] [(ZZ 1 0)] [(ZOZ 1 (SZ 1))] true (SZ 3) [])); (RS 2 (IAccept 1 3 1 (SZ 3)) [(ONack 1 3 1 3 2)] (mkO (SB 3 2) NB NZ 3 [(ZZ 3 0)] [(P1E 1 [(RSP 2 NB NZ); (RSP 0 NB NZ); (RSP 1 NB NZ); (RSP 4 NB NZ)]); (P1E 3 [(RSP 2 NB NZ)])] [(ZZ 1 0); (ZZ 3 0)] [(ZOZ 3 (SZ 2))] false NZ [])); (RS 3 (IAccept 1 3 1 (SZ 3)) [(OAccepted 1 3 1 3)] (mkO (SB 3 1) (SB 3 1) (SZ 3) 2 [(ZZ 2 0)] [(P1E 2 [(RSP 3 NB NZ); (RSP 1 NB NZ); (RSP 4 NB NZ); (RSP 2 NB NZ)])] [(ZZ 2 3)] [(ZOZ 2 (SZ 3))] true (SZ 3) [(ZOZ 0 (SZ 3))])); (RS 1 (INack 3 3) [(ORetry 3)] (mkO (SB 3 1) (SB 3 1) (SZ 3) 3 [(ZZ 3 0)] [(P1E 3 [(RSP 1 NB NZ); (RSP 0 (SB 2 3) (SZ 3)); (RSP 4 (SB 2 3) (SZ 3)); (RSP 3 (SB 2 3) (SZ 3))])] [(ZZ 3 1)] [(ZOZ 3 (SZ 3))] false NZ [])); (RS 1 (IPrepare 2 3 2) [(OPromise 2 3 2 1 (SB 3 1) (SZ 3))] (mkO (SB 3 2) (SB 3 1) (SZ 3) 3 [(ZZ 3 0)] [(P1E 3 [(RSP 1 NB NZ); (RSP 0 (SB 2 3) (SZ 3)); (RSP 4 (SB 2 3) (SZ 3)); (RSP 3 (SB 2 3) (SZ 3))])] [(ZZ 3 1)] [(ZOZ 3 (SZ 3))] false NZ [])); (RS 3 (IPrepare 2 3 2) [(OPromise 2 3 2 3 (SB 3 1) (SZ 3))] (mkO (SB 3 2) (SB 3 1) (SZ 3) 2 [(ZZ 2 0)] [(P1E 2 [(RSP 3 NB NZ); (RSP 1 NB NZ); (RSP 4 NB NZ); (RSP 2 NB NZ)])] [(ZZ 2 3)] [(ZOZ 2 (SZ 3))] true (SZ 3) [(ZOZ 0 (SZ 3))])); (RS 2 (IRetry 1) [] (mkO (SB 3 2) NB NZ 3 [(ZZ 3 0)] [(P1E 1 [(RSP 2 NB NZ); (RSP 0 NB NZ); (RSP 1 NB NZ); (RSP 4 NB NZ)]); (P1E 3 [(RSP 2 NB NZ)])] [(ZZ 1 0); (ZZ 3 0)] [(ZOZ 3 (SZ 2))] false NZ [])); (RS 0 (IPrepare 2 3 2) [(OPromise 2 3 2 0 (SB 3 1) (SZ 3))] (mkO (SB 3 2) (SB 3 1) (SZ 3) 1 [(ZZ 1 0)] [(P1E 1 [(RSP 0 NB NZ); (RSP 3 NB NZ)])] [(ZZ 1 0)] [(ZOZ 1 (SZ 1))] true (SZ 3) [])); (RS 1 (IAccepted 3) [] (mkO (SB 3 2) (SB 3 1) (SZ 3) 3 [(ZZ 3 0)] [(P1E 3 [(RSP 1 NB NZ); (RSP 0 (SB 2 3) (SZ 3)); (RSP 4 (SB 2 3) (SZ 3)); (RSP 3 (SB 2 3) (SZ 3))])] [(ZZ 3 2)] [(ZOZ 3 (SZ 3))] false NZ [])); (RS 1 (IPromise 3 2 NB NZ) [] (mkO (SB 3 2) (SB 3 1) (SZ 3) 3 [(ZZ 3 0)] [(P1E 3 [(RSP 1 NB NZ); (RSP 0 (SB 2 3) (SZ 3)); (RSP 4 (SB 2 3) (SZ 3)); (RSP 3 (SB 2 3) (SZ 3)); (RSP 2 NB NZ)])] [(ZZ 3 2)] [(ZOZ 3 (SZ 3))] false NZ [])); (RS 2 (IPromise 3 1 (SB 3 1) (SZ 3)) [] (mkO (SB 3 2) NB NZ 3 [(ZZ 3 0)] [(P1E 1 [(RSP 2 NB NZ); (RSP 0 NB NZ); (RSP 1 NB NZ); (RSP 4 NB NZ)]); (P1E 3 [(RSP 2 NB NZ); (RSP 1 (SB 3 1) (SZ 3))])] [(ZZ 1 0); (ZZ 3 0)] [(ZOZ 3 (SZ 2))] false NZ [])); (RS 4 (IPrepare 2 3 2) [(OPromise 2 3 2 4 (SB 2 3) (SZ 3))] (mkO (SB 3 2) (SB 2 3) (SZ 3) 0 [] [] [] [] true (SZ 3) [])); (RS 1 (IAccepted 3) [(ODecided 0 (SZ 3)); (ODecided 2 (SZ 3)); (ODecided 3 (SZ 3)); (ODecided 4 (SZ 3))] (mkO (SB 3 2) (SB 3 1) (SZ 3) 3 [(ZZ 3 0)] [(P1E 3 [(RSP 1 NB NZ); (RSP 0 (SB 2 3) (SZ 3)); (RSP 4 (SB 2 3) (SZ 3)); (RSP 3 (SB 2 3) (SZ 3)); (RSP 2 NB NZ)])] [(ZZ 3 3)] [(ZOZ 3 (SZ 3))] true (SZ 3) [(ZOZ 0 (SZ 3))])); (RS 0 (IDecided (SZ 3)) [] (mkO (SB 3 2) (SB 3 1) (SZ 3) 1 [(ZZ 1 0)] [(P1E 1 [(RSP 0 NB NZ); (RSP 3 NB NZ)])] [(ZZ 1 0)] [(ZOZ 1 (SZ 1))] true (SZ 3) [])); (RS 2 (IPromise 3 3 (SB 3 1) (SZ 3)) [(OAccept 0 3 2 (SZ 3)); (OAccept 1 3 2 (SZ 3)); (OAccept 3 3 2 (SZ 3)); (OAccept 4 3 2 (SZ 3))] (mkO (SB 3 2) (SB 3 2) (SZ 3) 3 [(ZZ 3 0)] [(P1E 1 [(RSP 2 NB NZ); (RSP 0 NB NZ); (RSP 1 NB NZ); (RSP 4 NB NZ)]); (P1E 3 [(RSP 2 NB NZ); (RSP 1 (SB 3 1) (SZ 3)); (RSP 3 (SB 3 1) (SZ 3))])] [(ZZ 1 0); (ZZ 3 1)] [(ZOZ 3 (SZ 3))] false NZ [])); (RS 3 (IAccept 2 3 2 (SZ 3)) [(OAccepted 2 3 2 3)] (mkO (SB 3 2) (SB 3 2) (SZ 3) 2 [(ZZ 2 0)] [(P1E 2 [(RSP 3 NB NZ); (RSP 1 NB NZ); (RSP 4 NB NZ); (RSP 2 NB NZ)])] [(ZZ 2 3)] [(ZOZ 2 (SZ 3))] true (SZ 3) [(ZOZ 0 (SZ 3))])); (RS 4 (IAccept 2 3 2 (SZ 3)) [(OAccepted 2 3 2 4)] (mkO (SB 3 2) (SB 3 2) (SZ 3) 0 [] [] [] [] true (SZ 3) [])); (RS 0 (IAccept 2 3 2 (SZ 3)) [(OAccepted 2 3 2 0)] (mkO (SB 3 2) (SB 3 2) (SZ 3) 1 [(ZZ 1 0)] [(P1E 1 [(RSP 0 NB NZ); (RSP 3 NB NZ)])] [(ZZ 1 0)] [(ZOZ 1 (SZ 1))] true (SZ 3) [])); (RS 2 (IAccepted 3) [] (mkO (SB 3 2) (SB 3 2) (SZ 3) 3 [(ZZ 3 0)] [(P1E 1 [(RSP 2 NB NZ); (RSP 0 NB NZ); (RSP 1 NB NZ); (RSP 4 NB NZ)]); (P1E 3 [(RSP 2 NB NZ); (RSP 1 (SB 3 1) (SZ 3)); (RSP 3 (SB 3 1) (SZ 3))])] [(ZZ 1 0); (ZZ 3 2)] [(ZOZ 3 (SZ 3))] false NZ [])); (RS 2 (IAccepted 3) [(ODecided 0 (SZ 3)); (ODecided 1 (SZ 3)); (ODecided 3 (SZ 3)); (ODecided 4 (SZ 3))] (mkO (SB 3 2) (SB 3 2) (SZ 3) 3 [(ZZ 3 0)] [(P1E 1 [(RSP 2 NB NZ); (RSP 0 NB NZ); (RSP 1 NB NZ); (RSP 4 NB NZ)]); (P1E 3 [(RSP 2 NB NZ); (RSP 1 (SB 3 1) (SZ 3)); (RSP 3 (SB 3 1) (SZ 3))])] [(ZZ 1 0); (ZZ 3 3)] [(ZOZ 3 (SZ 3))] true (SZ 3) [(ZOZ 0 (SZ 3))])); (RS 2 (IPromise 3 4 (SB 2 3) (SZ 3)) [] (mkO (SB 3 2) (SB 3 2) (SZ 3) 3 [(ZZ 3 0)] [(P1E 1 [(RSP 2 NB NZ); (RSP 0 NB NZ); (RSP 1 NB NZ); (RSP 4 NB NZ)]); (P1E 3 [(RSP 2 NB NZ); (RSP 1 (SB 3 1) (SZ 3)); (RSP 3 (SB 3 1) (SZ 3)); (RSP 4 (SB 2 3) (SZ 3))])] [(ZZ 1 0); (ZZ 3 3)] [(ZOZ 3 (SZ 3))] true (SZ 3) [(ZOZ 0 (SZ 3))])); (RS 2 (IDecided (SZ 3)) [] (mkO (SB 3 2) (SB 3 2) (SZ 3) 3 [(ZZ 3 0)] [(P1E 1 [(RSP 2 NB NZ); (RSP 0 NB NZ); (RSP 1 NB NZ); (RSP 4 NB NZ)]); (P1E 3 [(RSP 2 NB NZ); (RSP 1 (SB 3 1) (SZ 3)); (RSP 3 (SB 3 1) (SZ 3)); (RSP 4 (SB 2 3) (SZ 3))])] [(ZZ 1 0); (ZZ 3 3)] [(ZOZ 3 (SZ 3))] true (SZ 3) [(ZOZ 0 (SZ 3))])); (RS 3 (IDecided (SZ 3)) [] (mkO (SB 3 2) (SB 3 2) (SZ 3) 2 [(ZZ 2 0)] [(P1E 2 [(RSP 3 NB NZ); (RSP 1 NB NZ); (RSP 4 NB NZ); (RSP 2 NB NZ)])] [(ZZ 2 3)] [(ZOZ 2 (SZ 3))] true (SZ 3) [(ZOZ 0 (SZ 3))])); (RS 4 (IDecided (SZ 3)) [] (mkO (SB 3 2) (SB 3 2) (SZ 3) 0 [] [] [] [] true (SZ 3) [])); (RS 1 (IRetry 3) [] (mkO (SB 3 2) (SB 3 1) (SZ 3) 3 [(ZZ 3 0)] [(P1E 3 [(RSP 1 NB NZ); (RSP 0 (SB 2 3) (SZ 3)); (RSP 4 (SB 2 3) (SZ 3)); (RSP 3 (SB 2 3) (SZ 3)); (RSP 2 NB NZ)])] [(ZZ 3 3)] [(ZOZ 3 (SZ 3))] true (SZ 3) [(ZOZ 0 (SZ 3))]))]).
Definition case_87 : Z * list rec_step := (3, [(RS 1 (IPropose 1) [(OPrepare 0 1 1); (OPrepare 2 1 1)] (mkO (SB 1 1) NB NZ 1 [(ZZ 1 0)] [(P1E 1 [(RSP 1 NB NZ)])] [(ZZ 1 0)] [(ZOZ 1 (SZ 1))] false NZ [])); (RS 2 (IPropose 1) [(OPrepare 0 1 2); (OPrepare 1 1 2)] (mkO (SB 1 2) NB NZ 1 [(ZZ 1 0)] [(P1E 1 [(RSP 2 NB NZ)])] [(ZZ 1 0)] [(ZOZ 1 (SZ 1))] false NZ [])); (RS 1 (IPropose 1) [(OPrepare 0 2 1); (OPrepare 2 2 1)] (mkO (SB 2 1) NB NZ 2 [(ZZ 1 0); (ZZ 2 1)] [(P1E 1 [(RSP 1 NB NZ)]); (P1E 2 [(RSP 1 NB NZ)])] [(ZZ 1 0); (ZZ 2 0)] [(ZOZ 1 (SZ 1)); (ZOZ 2 (SZ 1))] false NZ [])); (RS 2 (IPrepare 1 1 1) [(ONack 1 1 1 1 2)] (mkO (SB 1 2) NB NZ 1 [(ZZ 1 0)] [(P1E 1 [(RSP 2 NB NZ)])] [(ZZ 1 0)] [(ZOZ 1 (SZ 1))] false NZ [])); (RS 1 (IPrepare 2 1 2) [(ONack 2 1 2 2 1)] (mkO (SB 2 1) NB NZ 2 [(ZZ 1 0); (ZZ 2 1)] [(P1E 1 [(RSP 1 NB NZ)]); (P1E 2 [(RSP 1 NB NZ)])] [(ZZ 1 0); (ZZ 2 0)] [(ZOZ 1 (SZ 1)); (ZOZ 2 (SZ 1))] false NZ [])); (RS 2 (INack 1 2) [(ORetry 1)] (mkO (SB 1 2) NB NZ 2 [(ZZ 1 0)] [(P1E 1 [(RSP 2 NB NZ)])] [(ZZ 1 0)] [(ZOZ 1 (SZ 1))] false NZ [])); (RS 1 (IPropose 1) [(OPrepare 0 3 1); (OPrepare 2 3 1)] (mkO (SB 3 1) NB NZ 3 [(ZZ 1 0); (ZZ 2 1); (ZZ 3 2)] [(P1E 1 [(RSP 1 NB NZ)]); (P1E 2 [(RSP 1 NB NZ)]); (P1E 3 [(RSP 1 NB NZ)])] [(ZZ 1 0); (ZZ 2 0); (ZZ 3 0)] [(ZOZ 1 (SZ 1)); (ZOZ 2 (SZ 1)); (ZOZ 3 (SZ 1))] false NZ [])); (RS 0 (IPrepare 1 2 1) [(OPromise 1 2 1 0 NB NZ)] (mkO (SB 2 1) NB NZ 0 [] [] [] [] false NZ [])); (RS 2 (IPrepare 1 3 1) [(OPromise 1 3 1 2 NB NZ)] (mkO (SB 3 1) NB NZ 2 [(ZZ 1 0)] [(P1E 1 [(RSP 2 NB NZ)])] [(ZZ 1 0)] [(ZOZ 1 (SZ 1))] false NZ [])); (RS 0 (IPrepare 1 1 1) [(ONack 1 1 1 2 1)] (mkO (SB 2 1) NB NZ 0 [] [] [] [] false NZ [])); (RS 1 (IPromise 3 2 NB NZ) [(OAccept 0 3 1 (SZ 1)); (OAccept 2 3 1 (SZ 1))] (mkO (SB 3 1) (SB 3 1) (SZ 1) 3 [(ZZ 1 0); (ZZ 2 1); (ZZ 3 2)] [(P1E 1 [(RSP 1 NB NZ)]); (P1E 2 [(RSP 1 NB NZ)]); (P1E 3 [(RSP 1 NB NZ); (RSP 2 NB NZ)])] [(ZZ 1 0); (ZZ 2 0); (ZZ 3 1)] [(ZOZ 1 (SZ 1)); (ZOZ 2 (SZ 1)); (ZOZ 3 (SZ 1))] false NZ [])); (RS 0 (IAccept 1 3 1 (SZ 1)) [(OAccepted 1 3 1 0)] (mkO (SB 3 1) (SB 3 1) (SZ 1) 0 [] [] [] [] false NZ [])); (RS 1 (IAccepted 3) [(ODecided 0 (SZ 1)); (ODecided 2 (SZ 1))] (mkO (SB 3 1) (SB 3 1) (SZ 1) 3 [(ZZ 1 0); (ZZ 2 1); (ZZ 3 2)] [(P1E 1 [(RSP 1 NB NZ)]); (P1E 2 [(RSP 1 NB NZ)]); (P1E 3 [(RSP 1 NB NZ); (RSP 2 NB NZ)])] [(ZZ 1 0); (ZZ 2 0); (ZZ 3 2)] [(ZOZ 1 (SZ 1)); (ZOZ 2 (SZ 1)); (ZOZ 3 (SZ 1))] true (SZ 1) [(ZOZ 2 (SZ 1))])); (RS 1 (INack 1 2) [(ORetry 1)] (mkO (SB 3 1) (SB 3 1) (SZ 1) 3 [(ZZ 1 0); (ZZ 2 1); (ZZ 3 2)] [(P1E 1 [(RSP 1 NB NZ)]); (P1E 2 [(RSP 1 NB NZ)]); (P1E 3 [(RSP 1 NB NZ); (RSP 2 NB NZ)])] [(ZZ 1 0); (ZZ 2 0); (ZZ 3 2)] [(ZOZ 1 (SZ 1)); (ZOZ 2 (SZ 1)); (ZOZ 3 (SZ 1))] true (SZ 1) [(ZOZ 2 (SZ 1))])); (RS 0 (IDecided (SZ 1)) [] (mkO (SB 3 1) (SB 3 1) (SZ 1) 0 [] [] [] [] true (SZ 1) [])); (RS 2 (IRetry 1) [(OPrepare 0 3 2); (OPrepare 1 3 2)] (mkO (SB 3 2) NB NZ 3 [(ZZ 3 0)] [(P1E 1 [(RSP 2 NB NZ)]); (P1E 3 [(RSP 2 NB NZ)])] [(ZZ 1 0); (ZZ 3 0)] [(ZOZ 3 (SZ 1))] false NZ [])); (RS 1 (IPrepare 2 3 2) [(OPromise 2 3 2 1 (SB 3 1) (SZ 1))] (mkO (SB 3 2) (SB 3 1) (SZ 1) 3 [(ZZ 1 0); (ZZ 2 1); (ZZ 3 2)] [(P1E 1 [(RSP 1 NB NZ)]); (P1E 2 [(RSP 1 NB NZ)]); (P1E 3 [(RSP 1 NB NZ); (RSP 2 NB NZ)])] [(ZZ 1 0); (ZZ 2 0); (ZZ 3 2)] [(ZOZ 1 (SZ 1)); (ZOZ 2 (SZ 1)); (ZOZ 3 (SZ 1))] true (SZ 1) [(ZOZ 2 (SZ 1))])); (RS 1 (IRetry 1) [] (mkO (SB 3 2) (SB 3 1) (SZ 1) 3 [(ZZ 1 0); (ZZ 2 1); (ZZ 3 2)] [(P1E 1 [(RSP 1 NB NZ)]); (P1E 2 [(RSP 1 NB NZ)]); (P1E 3 [(RSP 1 NB NZ); (RSP 2 NB NZ)])] [(ZZ 1 0); (ZZ 2 0); (ZZ 3 2)] [(ZOZ 1 (SZ 1)); (ZOZ 2 (SZ 1)); (ZOZ 3 (SZ 1))] true (SZ 1) [(ZOZ 2 (SZ 1))])); (RS 2 (IPrepare 1 2 1) [(ONack 1 2 1 3 2)] (mkO (SB 3 2) NB NZ 3 [(ZZ 3 0)] [(P1E 1 [(RSP 2 NB NZ)]); (P1E 3 [(RSP 2 NB NZ)])] [(ZZ 1 0); (ZZ 3 0)] [(ZOZ 3 (SZ 1))] false NZ [])); (RS 1 (INack 2 3) [(ORetry 2)] (mkO (SB 3 2) (SB 3 1) (SZ 1) 3 [(ZZ 1 0); (ZZ 2 1); (ZZ 3 2)] [(P1E 1 [(RSP 1 NB NZ)]); (P1E 2 [(RSP 1 NB NZ)]); (P1E 3 [(RSP 1 NB NZ); (RSP 2 NB NZ)])] [(ZZ 1 0); (ZZ 2 0); (ZZ 3 2)] [(ZOZ 1 (SZ 1)); (ZOZ 2 (SZ 1)); (ZOZ 3 (SZ 1))] true (SZ 1) [(ZOZ 2 (SZ 1))])); (RS 0 (IPrepare 1 3 1) [(OPromise 1 3 1 0 (SB 3 1) (SZ 1))] (mkO (SB 3 1) (SB 3 1) (SZ 1) 0 [] [] [] [] true (SZ 1) [])); (RS 2 (IDecided (SZ 1)) [] (mkO (SB 3 2) NB NZ 3 [(ZZ 3 0)] [(P1E 1 [(RSP 2 NB NZ)]); (P1E 3 [(RSP 2 NB NZ)])] [(ZZ 1 0); (ZZ 3 0)] [(ZOZ 3 (SZ 1))] true (SZ 1) [])); (RS 1 (IRetry 2) [] (mkO (SB 3 2) (SB 3 1) (SZ 1) 3 [(ZZ 1 0); (ZZ 2 1); (ZZ 3 2)] [(P1E 1 [(RSP 1 NB NZ)]); (P1E 2 [(RSP 1 NB NZ)]); (P1E 3 [(RSP 1 NB NZ); (RSP 2 NB NZ)])] [(ZZ 1 0); (ZZ 2 0); (ZZ 3 2)] [(ZOZ 1 (SZ 1)); (ZOZ 2 (SZ 1)); (ZOZ 3 (SZ 1))] true (SZ 1) [(ZOZ 2 (SZ 1))])); (RS 2 (IPromise 3 1 (SB 3 1) (SZ 1)) [(OAccept 0 3 2 (SZ 1)); (OAccept 1 3 2 (SZ 1))] (mkO (SB 3 2) (SB 3 2) (SZ 1) 3 [(ZZ 3 0)] [(P1E 1 [(RSP 2 NB NZ)]); (P1E 3 [(RSP 2 NB NZ); (RSP 1 (SB 3 1) (SZ 1))])] [(ZZ 1 0); (ZZ 3 1)] [(ZOZ 3 (SZ 1))] true (SZ 1) [])); (RS 0 (IAccept 2 3 2 (SZ 1)) [(OAccepted 2 3 2 0)] (mkO (SB 3 2) (SB 3 2) (SZ 1) 0 [] [] [] [] true (SZ 1) [])); (RS 2 (IAccepted 3) [] (mkO (SB 3 2) (SB 3 2) (SZ 1) 3 [(ZZ 3 0)] [(P1E 1 [(RSP 2 NB NZ)]); (P1E 3 [(RSP 2 NB NZ); (RSP 1 (SB 3 1) (SZ 1))])] [(ZZ 1 0); (ZZ 3 2)] [(ZOZ 3 (SZ 1))] true (SZ 1) [])); (RS 1 (IAccept 2 3 2 (SZ 1)) [(OAccepted 2 3 2 1)] (mkO (SB 3 2) (SB 3 2) (SZ 1) 3 [(ZZ 1 0); (ZZ 2 1); (ZZ 3 2)] [(P1E 1 [(RSP 1 NB NZ)]); (P1E 2 [(RSP 1 NB NZ)]); (P1E 3 [(RSP 1 NB NZ); (RSP 2 NB NZ)])] [(ZZ 1 0); (ZZ 2 0); (ZZ 3 2)] [(ZOZ 1 (SZ 1)); (ZOZ 2 (SZ 1)); (ZOZ 3 (SZ 1))] true (SZ 1) [(ZOZ 2 (SZ 1))]))]).
Definition case_88 : Z * list rec_step := (5, [(RS 1 (IPropose 1) [(OPrepare 0 1 1); (OPrepare 2 1 1); (OPrepare 3 1 1); (OPrepare 4 1 1)] (mkO (SB 1 1) NB NZ 1 [(ZZ 1 0)] [(P1E 1 [(RSP 1 NB NZ)])] [(ZZ 1 0)] [(ZOZ 1 (SZ 1))] false NZ [])); (RS 2 (IPrepare 1 1 1) [(OPromise 1 1 1 2 NB NZ)] (mkO (SB 1 1) NB NZ 0 [] [] [] [] false NZ [])); (RS 4 (IPrepare 1 1 1) [(OPromise 1 1 1 4 NB NZ)] (mkO (SB 1 1) NB NZ 0 [] [] [] [] false NZ [])); (RS 1 (IPromise 1 4 NB NZ) [] (mkO (SB 1 1) NB NZ 1 [(ZZ 1 0)] [(P1E 1 [(RSP 1 NB NZ); (RSP 4 NB NZ)])] [(ZZ 1 0)] [(ZOZ 1 (SZ 1))] false NZ [])); (RS 0 (IPropose 2) [(OPrepare 1 1 0); (OPrepare 2 1 0); (OPrepare 3 1 0); (OPrepare 4 1 0)] (mkO (SB 1 0) NB NZ 1 [(ZZ 1 0)] [(P1E 1 [(RSP 0 NB NZ)])] [(ZZ 1 0)] [(ZOZ 1 (SZ 2))] false NZ [])); (RS 3 (IPrepare 0 1 0) [(OPromise 0 1 0 3 NB NZ)] (mkO (SB 1 0) NB NZ 0 [] [] [] [] false NZ [])); (RS 0 (IPrepare 1 1 1) [(OPromise 1 1 1 0 NB NZ)] (mkO (SB 1 1) NB NZ 1 [(ZZ 1 0)] [(P1E 1 [(RSP 0 NB NZ)])] [(ZZ 1 0)] [(ZOZ 1 (SZ 2))] false NZ [])); (RS 0 (IPromise 1 3 NB NZ) [] (mkO (SB 1 1) NB NZ 1 [(ZZ 1 0)] [(P1E 1 [(RSP 0 NB NZ); (RSP 3 NB NZ)])] [(ZZ 1 0)] [(ZOZ 1 (SZ 2))] false NZ [])); (RS 1 (IPrepare 0 1 0) [(ONack 0 1 0 1 1)] (mkO (SB 1 1) NB NZ 1 [(ZZ 1 0)] [(P1E 1 [(RSP 1 NB NZ); (RSP 4 NB NZ)])] [(ZZ 1 0)] [(ZOZ 1 (SZ 1))] false NZ [])); (RS 4 (IPrepare 0 1 0) [(ONack 0 1 0 1 1)] (mkO (SB 1 1) NB NZ 0 [] [] [] [] false NZ [])); (RS 1 (IPromise 1 0 NB NZ) [(OAccept 0 1 1 (SZ 1)); (OAccept 2 1 1 (SZ 1)); (OAccept 3 1 1 (SZ 1)); (OAccept 4 1 1 (SZ 1))] (mkO (SB 1 1) (SB 1 1) (SZ 1) 1 [(ZZ 1 0)] [(P1E 1 [(RSP 1 NB NZ); (RSP 4 NB NZ); (RSP 0 NB NZ)])] [(ZZ 1 1)] [(ZOZ 1 (SZ 1))] false NZ [])); (RS 2 (IAccept 1 1 1 (SZ 1)) [(OAccepted 1 1 1 2)] (mkO (SB 1 1) (SB 1 1) (SZ 1) 0 [] [] [] [] false NZ [])); (RS 0 (IAccept 1 1 1 (SZ 1)) [(OAccepted 1 1 1 0)] (mkO (SB 1 1) (SB 1 1) (SZ 1) 1 [(ZZ 1 0)] [(P1E 1 [(RSP 0 NB NZ); (RSP 3 NB NZ)])] [(ZZ 1 0)] [(ZOZ 1 (SZ 2))] false NZ [])); (RS 0 (INack 1 1) [(ORetry 1)] (mkO (SB 1 1) (SB 1 1) (SZ 1) 1 [(ZZ 1 0)] [(P1E 1 [(RSP 0 NB NZ); (RSP 3 NB NZ)])] [(ZZ 1 0)] [(ZOZ 1 (SZ 2))] false NZ [])); (RS 2 (IPropose 3) [(OPrepare 0 2 2); (OPrepare 1 2 2); (OPrepare 3 2 2); (OPrepare 4 2 2)] (mkO (SB 2 2) (SB 1 1) (SZ 1) 2 [(ZZ 2 0)] [(P1E 2 [(RSP 2 (SB 1 1) (SZ 1))])] [(ZZ 2 0)] [(ZOZ 2 (SZ 3))] false NZ [])); (RS 1 (IAccepted 1) [] (mkO (SB 1 1) (SB 1 1) (SZ 1) 1 [(ZZ 1 0)] [(P1E 1 [(RSP 1 NB NZ); (RSP 4 NB NZ); (RSP 0 NB NZ)])] [(ZZ 1 2)] [(ZOZ 1 (SZ 1))] false NZ [])); (RS 3 (IAccept 1 1 1 (SZ 1)) [(OAccepted 1 1 1 3)] (mkO (SB 1 1) (SB 1 1) (SZ 1) 0 [] [] [] [] false NZ [])); (RS 4 (IPrepare 2 2 2) [(OPromise 2 2 2 4 NB NZ)] (mkO (SB 2 2) NB NZ 0 [] [] [] [] false NZ [])); (RS 2 (IPrepare 0 1 0) [(ONack 0 1 0 2 2)] (mkO (SB 2 2) (SB 1 1) (SZ 1) 2 [(ZZ 2 0)] [(P1E 2 [(RSP 2 (SB 1 1) (SZ 1))])] [(ZZ 2 0)] [(ZOZ 2 (SZ 3))] false NZ [])); (RS 1 (IAccepted 1) [(ODecided 0 (SZ 1)); (ODecided 2 (SZ 1)); (ODecided 3 (SZ 1)); (ODecided 4 (SZ 1))] (mkO (SB 1 1) (SB 1 1) (SZ 1) 1 [(ZZ 1 0)] [(P1E 1 [(RSP 1 NB NZ); (RSP 4 NB NZ); (RSP 0 NB NZ)])] [(ZZ 1 3)] [(ZOZ 1 (SZ 1))] true (SZ 1) [(ZOZ 0 (SZ 1))])); (RS 0 (IDecided (SZ 1)) [] (mkO (SB 1 1) (SB 1 1) (SZ 1) 1 [(ZZ 1 0)] [(P1E 1 [(RSP 0 NB NZ); (RSP 3 NB NZ)])] [(ZZ 1 0)] [(ZOZ 1 (SZ 2))] true (SZ 1) [])); (RS 2 (IPromise 2 4 NB NZ) [] (mkO (SB 2 2) (SB 1 1) (SZ 1) 2 [(ZZ 2 0)] [(P1E 2 [(RSP 2 (SB 1 1) (SZ 1)); (RSP 4 NB NZ)])] [(ZZ 2 0)] [(ZOZ 2 (SZ 3))] false NZ [])); (RS 2 (IDecided (SZ 1)) [] (mkO (SB 2 2) (SB 1 1) (SZ 1) 2 [(ZZ 2 0)] [(P1E 2 [(RSP 2 (SB 1 1) (SZ 1)); (RSP 4 NB NZ)])] [(ZZ 2 0)] [(ZOZ 2 (SZ 3))] true (SZ 1) [])); (RS 4 (IDecided (SZ 1)) [] (mkO (SB 2 2) NB NZ 0 [] [] [] [] true (SZ 1) [])); (RS 3 (IPrepare 2 2 2) [(OPromise 2 2 2 3 (SB 1 1) (SZ 1))] (mkO (SB 2 2) (SB 1 1) (SZ 1) 0 [] [] [] [] false NZ [])); (RS 2 (IPromise 2 3 (SB 1 1) (SZ 1)) [(OAccept 0 2 2 (SZ 1)); (OAccept 1 2 2 (SZ 1)); (OAccept 3 2 2 (SZ 1)); (OAccept 4 2 2 (SZ 1))] (mkO (SB 2 2) (SB 2 2) (SZ 1) 2 [(ZZ 2 0)] [(P1E 2 [(RSP 2 (SB 1 1) (SZ 1)); (RSP 4 NB NZ); (RSP 3 (SB 1 1) (SZ 1))])] [(ZZ 2 1)] [(ZOZ 2 (SZ 1))] true (SZ 1) [])); (RS 0 (INack 1 1) [(ORetry 1)] (mkO (SB 1 1) (SB 1 1) (SZ 1) 1 [(ZZ 1 0)] [(P1E 1 [(RSP 0 NB NZ); (RSP 3 NB NZ)])] [(ZZ 1 0)] [(ZOZ 1 (SZ 2))] true (SZ 1) [])); (RS 3 (IAccept 2 2 2 (SZ 1)) [(OAccepted 2 2 2 3)] (mkO (SB 2 2) (SB 2 2) (SZ 1) 0 [] [] [] [] false NZ [])); (RS 3 (IPropose 4) [(OPrepare 0 3 3); (OPrepare 1 3 3); (OPrepare 2 3 3); (OPrepare 4 3 3)] (mkO (SB 3 3) (SB 2 2) (SZ 1) 3 [(ZZ 3 0)] [(P1E 3 [(RSP 3 (SB 2 2) (SZ 1))])] [(ZZ 3 0)] [(ZOZ 3 (SZ 4))] false NZ [])); (RS 2 (IPrepare 3 3 3) [(OPromise 3 3 3 2 (SB 2 2) (SZ 1))] (mkO (SB 3 3) (SB 2 2) (SZ 1) 2 [(ZZ 2 0)] [(P1E 2 [(RSP 2 (SB 1 1) (SZ 1)); (RSP 4 NB NZ); (RSP 3 (SB 1 1) (SZ 1))])] [(ZZ 2 1)] [(ZOZ 2 (SZ 1))] true (SZ 1) [])); (RS 0 (IAccept 2 2 2 (SZ 1)) [(OAccepted 2 2 2 0)] (mkO (SB 2 2) (SB 2 2) (SZ 1) 1 [(ZZ 1 0)] [(P1E 1 [(RSP 0 NB NZ); (RSP 3 NB NZ)])] [(ZZ 1 0)] [(ZOZ 1 (SZ 2))] true (SZ 1) [])); (RS 1 (IAccept 2 2 2 (SZ 1)) [(OAccepted 2 2 2 1)] (mkO (SB 2 2) (SB 2 2) (SZ 1) 1 [(ZZ 1 0)] [(P1E 1 [(RSP 1 NB NZ); (RSP 4 NB NZ); (RSP 0 NB NZ)])] [(ZZ 1 3)] [(ZOZ 1 (SZ 1))] true (SZ 1) [(ZOZ 0 (SZ 1))])); (RS 4 (IPrepare 3 3 3) [(OPromise 3 3 3 4 NB NZ)] (mkO (SB 3 3) NB NZ 0 [] [] [] [] true (SZ 1) [])); (RS 2 (IAccepted 2) [] (mkO (SB 3 3) (SB 2 2) (SZ 1) 2 [(ZZ 2 0)] [(P1E 2 [(RSP 2 (SB 1 1) (SZ 1)); (RSP 4 NB NZ); (RSP 3 (SB 1 1) (SZ 1))])] [(ZZ 2 2)] [(ZOZ 2 (SZ 1))] true (SZ 1) [])); (RS 0 (IPrepare 2 2 2) [(OPromise 2 2 2 0 (SB 2 2) (SZ 1))] (mkO (SB 2 2) (SB 2 2) (SZ 1) 1 [(ZZ 1 0)] [(P1E 1 [(RSP 0 NB NZ); (RSP 3 NB NZ)])] [(ZZ 1 0)] [(ZOZ 1 (SZ 2))] true (SZ 1) [])); (RS 3 (IPromise 3 2 (SB 2 2) (SZ 1)) [] (mkO (SB 3 3) (SB 2 2) (SZ 1) 3 [(ZZ 3 0)] [(P1E 3 [(RSP 3 (SB 2 2) (SZ 1)); (RSP 2 (SB 2 2) (SZ 1))])] [(ZZ 3 0)] [(ZOZ 3 (SZ 4))] false NZ [])); (RS 0 (IPrepare 3 3 3) [(OPromise 3 3 3 0 (SB 2 2) (SZ 1))] (mkO (SB 3 3) (SB 2 2) (SZ 1) 1 [(ZZ 1 0)] [(P1E 1 [(RSP 0 NB NZ); (RSP 3 NB NZ)])] [(ZZ 1 0)] [(ZOZ 1 (SZ 2))] true (SZ 1) [])); (RS 1 (IPrepare 3 3 3) [(OPromise 3 3 3 1 (SB 2 2) (SZ 1))] (mkO (SB 3 3) (SB 2 2) (SZ 1) 1 [(ZZ 1 0)] [(P1E 1 [(RSP 1 NB NZ); (RSP 4 NB NZ); (RSP 0 NB NZ)])] [(ZZ 1 3)] [(ZOZ 1 (SZ 1))] true (SZ 1) [(ZOZ 0 (SZ 1))])); (RS 3 (IPromise 3 4 NB NZ) [(OAccept 0 3 3 (SZ 1)); (OAccept 1 3 3 (SZ 1)); (OAccept 2 3 3 (SZ 1)); (OAccept 4 3 3 (SZ 1))] (mkO (SB 3 3) (SB 3 3) (SZ 1) 3 [(ZZ 3 0)] [(P1E 3 [(RSP 3 (SB 2 2) (SZ 1)); (RSP 2 (SB 2 2) (SZ 1)); (RSP 4 NB NZ)])] [(ZZ 3 1)] [(ZOZ 3 (SZ 1))] false NZ [])); (RS 0 (IAccept 3 3 3 (SZ 1)) [(OAccepted 3 3 3 0)] (mkO (SB 3 3) (SB 3 3) (SZ 1) 1 [(ZZ 1 0)] [(P1E 1 [(RSP 0 NB NZ); (RSP 3 NB NZ)])] [(ZZ 1 0)] [(ZOZ 1 (SZ 2))] true (SZ 1) [])); (RS 4 (IAccept 3 3 3 (SZ 1)) [(OAccepted 3 3 3 4)] (mkO (SB 3 3) (SB 3 3) (SZ 1) 0 [] [] [] [] true (SZ 1) [])); (RS 4 (IAccept 2 2 2 (SZ 1)) [(ONack 2 2 2 3 3)] (mkO (SB 3 3) (SB 3 3) (SZ 1) 0 [] [] [] [] true (SZ 1) [])); (RS 3 (IAccepted 3) [] (mkO (SB 3 3) (SB 3 3) (SZ 1) 3 [(ZZ 3 0)] [(P1E 3 [(RSP 3 (SB 2 2) (SZ 1)); (RSP 2 (SB 2 2) (SZ 1)); (RSP 4 NB NZ)])] [(ZZ 3 2)] [(ZOZ 3 (SZ 1))] false NZ [])); (RS 2 (IAccepted 2) [] (mkO (SB 3 3) (SB 2 2) (SZ 1) 2 [(ZZ 2 0)] [(P1E 2 [(RSP 2 (SB 1 1) (SZ 1)); (RSP 4 NB NZ); (RSP 3 (SB 1 1) (SZ 1))])] [(ZZ 2 3)] [(ZOZ 2 (SZ 1))] true (SZ 1) [])); (RS 3 (IPromise 3 0 (SB 2 2) (SZ 1)) [] (mkO (SB 3 3) (SB 3 3) (SZ 1) 3 [(ZZ 3 0)] [(P1E 3 [(RSP 3 (SB 2 2) (SZ 1)); (RSP 2 (SB 2 2) (SZ 1)); (RSP 4 NB NZ); (RSP 0 (SB 2 2) (SZ 1))])] [(ZZ 3 2)] [(ZOZ 3 (SZ 1))] false NZ [])); (RS 3 (IPromise 3 1 (SB 2 2) (SZ 1)) [] (mkO (SB 3 3) (SB 3 3) (SZ 1) 3 [(ZZ 3 0)] [(P1E 3 [(RSP 3 (SB 2 2) (SZ 1)); (RSP 2 (SB 2 2) (SZ 1)); (RSP 4 NB NZ); (RSP 0 (SB 2 2) (SZ 1)); (RSP 1 (SB 2 2) (SZ 1))])] [(ZZ 3 2)] [(ZOZ 3 (SZ 1))] false NZ [])); (RS 0 (IRetry 1) [] (mkO (SB 3 3) (SB 3 3) (SZ 1) 1 [(ZZ 1 0)] [(P1E 1 [(RSP 0 NB NZ); (RSP 3 NB NZ)])] [(ZZ 1 0)] [(ZOZ 1 (SZ 2))] true (SZ 1) [])); (RS 2 (IAccept 3 3 3 (SZ 1)) [(OAccepted 3 3 3 2)] (mkO (SB 3 3) (SB 3 3) (SZ 1) 2 [(ZZ 2 0)] [(P1E 2 [(RSP 2 (SB 1 1) (SZ 1)); (RSP 4 NB NZ); (RSP 3 (SB 1 1) (SZ 1))])] [(ZZ 2 3)] [(ZOZ 2 (SZ 1))] true (SZ 1) [])); (RS 3 (IAccepted 3) [(ODecided 0 (SZ 1)); (ODecided 1 (SZ 1)); (ODecided 2 (SZ 1)); (ODecided 4 (SZ 1))] (mkO (SB 3 3) (SB 3 3) (SZ 1) 3 [(ZZ 3 0)] [(P1E 3 [(RSP 3 (SB 2 2) (SZ 1)); (RSP 2 (SB 2 2) (SZ 1)); (RSP 4 NB NZ); (RSP 0 (SB 2 2) (SZ 1)); (RSP 1 (SB 2 2) (SZ 1))])] [(ZZ 3 3)] [(ZOZ 3 (SZ 1))] true (SZ 1) [(ZOZ 0 (SZ 1))])); (RS 2 (IDecided (SZ 1)) [] (mkO (SB 3 3) (SB 3 3) (SZ 1) 2 [(ZZ 2 0)] [(P1E 2 [(RSP 2 (SB 1 1) (SZ 1)); (RSP 4 NB NZ); (RSP 3 (SB 1 1) (SZ 1))])] [(ZZ 2 3)] [(ZOZ 2 (SZ 1))] true (SZ 1) [])); (RS 0 (IRetry 1) [] (mkO (SB 3 3) (SB 3 3) (SZ 1) 1 [(ZZ 1 0)] [(P1E 1 [(RSP 0 NB NZ); (RSP 3 NB NZ)])] [(ZZ 1 0)] [(ZOZ 1 (SZ 2))] true (SZ 1) [])); (RS 0 (IDecided (SZ 1)) [] (mkO (SB 3 3) (SB 3 3) (SZ 1) 1 [(ZZ 1 0)] [(P1E 1 [(RSP 0 NB NZ); (RSP 3 NB NZ)])] [(ZZ 1 0)] [(ZOZ 1 (SZ 2))] true (SZ 1) [])); (RS 4 (IDecided (SZ 1)) [] (mkO (SB 3 3) (SB 3 3) (SZ 1) 0 [] [] [] [] true (SZ 1) [])); (RS 1 (IDecided (SZ 1)) [] (mkO (SB 3 3) (SB 2 2) (SZ 1) 1 [(ZZ 1 0)] [(P1E 1 [(RSP 1 NB NZ); (RSP 4 NB NZ); (RSP 0 NB NZ)])] [(ZZ 1 3)] [(ZOZ 1 (SZ 1))] true (SZ 1) [(ZOZ 0 (SZ 1))]))]).
Definition case_89 : Z * list rec_step := (5, [(RS 2 (IPropose 1) [(OPrepare 0 1 2); (OPrepare 1 1 2); (OPrepare 3 1 2); (OPrepare 4 1 2)] (mkO (SB 1 2) NB NZ 1 [(ZZ 1 0)] [(P1E 1 [(RSP 2 NB NZ)])] [(ZZ 1 0)] [(ZOZ 1 (SZ 1))] false NZ [])); (RS 4 (IPrepare 2 1 2) [(OPromise 2 1 2 4 NB NZ)] (mkO (SB 1 2) NB NZ 0 [] [] [] [] false NZ [])); (RS 3 (IPrepare 2 1 2) [(OPromise 2 1 2 3 NB NZ)] (mkO (SB 1 2) NB NZ 0 [] [] [] [] false NZ [])); (RS 2 (IPromise 1 4 NB NZ) [] (mkO (SB 1 2) NB NZ 1 [(ZZ 1 0)] [(P1E 1 [(RSP 2 NB NZ); (RSP 4 NB NZ)])] [(ZZ 1 0)] [(ZOZ 1 (SZ 1))] false NZ [])); (RS 0 (IPrepare 2 1 2) [(OPromise 2 1 2 0 NB NZ)] (mkO (SB 1 2) NB NZ 0 [] [] [] [] false NZ [])); (RS 1 (IPrepare 2 1 2) [(OPromise 2 1 2 1 NB NZ)] (mkO (SB 1 2) NB NZ 0 [] [] [] [] false NZ [])); (RS 2 (IPromise 1 3 NB NZ) [(OAccept 0 1 2 (SZ 1)); (OAccept 1 1 2 (SZ 1)); (OAccept 3 1 2 (SZ 1)); (OAccept 4 1 2 (SZ 1))] (mkO (SB 1 2) (SB 1 2) (SZ 1) 1 [(ZZ 1 0)] [(P1E 1 [(RSP 2 NB NZ); (RSP 4 NB NZ); (RSP 3 NB NZ)])] [(ZZ 1 1)] [(ZOZ 1 (SZ 1))] false NZ [])); (RS 2 (IPromise 1 0 NB NZ) [] (mkO (SB 1 2) (SB 1 2) (SZ 1) 1 [(ZZ 1 0)] [(P1E 1 [(RSP 2 NB NZ); (RSP 4 NB NZ); (RSP 3 NB NZ); (RSP 0 NB NZ)])] [(ZZ 1 1)] [(ZOZ 1 (SZ 1))] false NZ [])); (RS 4 (IAccept 2 1 2 (SZ 1)) [(OAccepted 2 1 2 4)] (mkO (SB 1 2) (SB 1 2) (SZ 1) 0 [] [] [] [] false NZ [])); (RS 1 (IAccept 2 1 2 (SZ 1)) [(OAccepted 2 1 2 1)] (mkO (SB 1 2) (SB 1 2) (SZ 1) 0 [] [] [] [] false NZ [])); (RS 3 (IAccept 2 1 2 (SZ 1)) [(OAccepted 2 1 2 3)] (mkO (SB 1 2) (SB 1 2) (SZ 1) 0 [] [] [] [] false NZ [])); (RS 4 (IPropose 3) [(OPrepare 0 2 4); (OPrepare 1 2 4); (OPrepare 2 2 4); (OPrepare 3 2 4)] (mkO (SB 2 4) (SB 1 2) (SZ 1) 2 [(ZZ 2 0)] [(P1E 2 [(RSP 4 (SB 1 2) (SZ 1))])] [(ZZ 2 0)] [(ZOZ 2 (SZ 3))] false NZ [])); (RS 2 (IAccepted 1) [] (mkO (SB 1 2) (SB 1 2) (SZ 1) 1 [(ZZ 1 0)] [(P1E 1 [(RSP 2 NB NZ); (RSP 4 NB NZ); (RSP 3 NB NZ); (RSP 0 NB NZ)])] [(ZZ 1 2)] [(ZOZ 1 (SZ 1))] false NZ [])); (RS 2 (IAccepted 1) [(ODecided 0 (SZ 1)); (ODecided 1 (SZ 1)); (ODecided 3 (SZ 1)); (ODecided 4 (SZ 1))] (mkO (SB 1 2) (SB 1 2) (SZ 1) 1 [(ZZ 1 0)] [(P1E 1 [(RSP 2 NB NZ); (RSP 4 NB NZ); (RSP 3 NB NZ); (RSP 0 NB NZ)])] [(ZZ 1 3)] [(ZOZ 1 (SZ 1))] true (SZ 1) [(ZOZ 0 (SZ 1))])); (RS 1 (IPrepare 4 2 4) [(OPromise 4 2 4 1 (SB 1 2) (SZ 1))] (mkO (SB 2 4) (SB 1 2) (SZ 1) 0 [] [] [] [] false NZ [])); (RS 2 (IPrepare 4 2 4) [(OPromise 4 2 4 2 (SB 1 2) (SZ 1))] (mkO (SB 2 4) (SB 1 2) (SZ 1) 1 [(ZZ 1 0)] [(P1E 1 [(RSP 2 NB NZ); (RSP 4 NB NZ); (RSP 3 NB NZ); (RSP 0 NB NZ)])] [(ZZ 1 3)] [(ZOZ 1 (SZ 1))] true (SZ 1) [(ZOZ 0 (SZ 1))])); (RS 3 (IPrepare 4 2 4) [(OPromise 4 2 4 3 (SB 1 2) (SZ 1))] (mkO (SB 2 4) (SB 1 2) (SZ 1) 0 [] [] [] [] false NZ [])); (RS 0 (IPrepare 4 2 4) [(OPromise 4 2 4 0 NB NZ)] (mkO (SB 2 4) NB NZ 0 [] [] [] [] false NZ [])); (RS 3 (IDecided (SZ 1)) [] (mkO (SB 2 4) (SB 1 2) (SZ 1) 0 [] [] [] [] true (SZ 1) [])); (RS 0 (IDecided (SZ 1)) [] (mkO (SB 2 4) NB NZ 0 [] [] [] [] true (SZ 1) [])); (RS 4 (IPromise 2 2 (SB 1 2) (SZ 1)) [] (mkO (SB 2 4) (SB 1 2) (SZ 1) 2 [(ZZ 2 0)] [(P1E 2 [(RSP 4 (SB 1 2) (SZ 1)); (RSP 2 (SB 1 2) (SZ 1))])] [(ZZ 2 0)] [(ZOZ 2 (SZ 3))] false NZ [])); (RS 4 (IPromise 2 3 (SB 1 2) (SZ 1)) [(OAccept 0 2 4 (SZ 1)); (OAccept 1 2 4 (SZ 1)); (OAccept 2 2 4 (SZ 1)); (OAccept 3 2 4 (SZ 1))] (mkO (SB 2 4) (SB 2 4) (SZ 1) 2 [(ZZ 2 0)] [(P1E 2 [(RSP 4 (SB 1 2) (SZ 1)); (RSP 2 (SB 1 2) (SZ 1)); (RSP 3 (SB 1 2) (SZ 1))])] [(ZZ 2 1)] [(ZOZ 2 (SZ 1))] false NZ [])); (RS 1 (IDecided (SZ 1)) [] (mkO (SB 2 4) (SB 1 2) (SZ 1) 0 [] [] [] [] true (SZ 1) [])); (RS 4 (IDecided (SZ 1)) [] (mkO (SB 2 4) (SB 2 4) (SZ 1) 2 [(ZZ 2 0)] [(P1E 2 [(RSP 4 (SB 1 2) (SZ 1)); (RSP 2 (SB 1 2) (SZ 1)); (RSP 3 (SB 1 2) (SZ 1))])] [(ZZ 2 1)] [(ZOZ 2 (SZ 1))] true (SZ 1) [])); (RS 0 (IAccept 4 2 4 (SZ 1)) [(OAccepted 4 2 4 0)] (mkO (SB 2 4) (SB 2 4) (SZ 1) 0 [] [] [] [] true (SZ 1) [])); (RS 1 (IAccept 4 2 4 (SZ 1)) [(OAccepted 4 2 4 1)] (mkO (SB 2 4) (SB 2 4) (SZ 1) 0 [] [] [] [] true (SZ 1) [])); (RS 3 (IAccept 4 2 4 (SZ 1)) [(OAccepted 4 2 4 3)] (mkO (SB 2 4) (SB 2 4) (SZ 1) 0 [] [] [] [] true (SZ 1) [])); (RS 4 (IAccepted 2) [] (mkO (SB 2 4) (SB 2 4) (SZ 1) 2 [(ZZ 2 0)] [(P1E 2 [(RSP 4 (SB 1 2) (SZ 1)); (RSP 2 (SB 1 2) (SZ 1)); (RSP 3 (SB 1 2) (SZ 1))])] [(ZZ 2 2)] [(ZOZ 2 (SZ 1))] true (SZ 1) [])); (RS 2 (IAccept 4 2 4 (SZ 1)) [(OAccepted 4 2 4 2)] (mkO (SB 2 4) (SB 2 4) (SZ 1) 1 [(ZZ 1 0)] [(P1E 1 [(RSP 2 NB NZ); (RSP 4 NB NZ); (RSP 3 NB NZ); (RSP 0 NB NZ)])] [(ZZ 1 3)] [(ZOZ 1 (SZ 1))] true (SZ 1) [(ZOZ 0 (SZ 1))])); (RS 4 (IAccepted 2) [] (mkO (SB 2 4) (SB 2 4) (SZ 1) 2 [(ZZ 2 0)] [(P1E 2 [(RSP 4 (SB 1 2) (SZ 1)); (RSP 2 (SB 1 2) (SZ 1)); (RSP 3 (SB 1 2) (SZ 1))])] [(ZZ 2 3)] [(ZOZ 2 (SZ 1))] true (SZ 1) [])); (RS 4 (IAccepted 2) [] (mkO (SB 2 4) (SB 2 4) (SZ 1) 2 [(ZZ 2 0)] [(P1E 2 [(RSP 4 (SB 1 2) (SZ 1)); (RSP 2 (SB 1 2) (SZ 1)); (RSP 3 (SB 1 2) (SZ 1))])] [(ZZ 2 4)] [(ZOZ 2 (SZ 1))] true (SZ 1) [])); (RS 4 (IAccepted 2) [] (mkO (SB 2 4) (SB 2 4) (SZ 1) 2 [(ZZ 2 0)] [(P1E 2 [(RSP 4 (SB 1 2) (SZ 1)); (RSP 2 (SB 1 2) (SZ 1)); (RSP 3 (SB 1 2) (SZ 1))])] [(ZZ 2 5)] [(ZOZ 2 (SZ 1))] true (SZ 1) [])); (RS 0 (IPropose 2) [] (mkO (SB 2 4) (SB 2 4) (SZ 1) 0 [] [] [] [] true (SZ 1) [(ZOZ 0 (SZ 1))]))]).
Definition case_90 : Z * list rec_step := (3, [(RS 2 (IPropose 3) [(OPrepare 0 1 2); (OPrepare 1 1 2)] (mkO (SB 1 2) NB NZ 1 [(ZZ 1 0)] [(P1E 1 [(RSP 2 NB NZ)])] [(ZZ 1 0)] [(ZOZ 1 (SZ 3))] false NZ [])); (RS 1 (IPropose 2) [(OPrepare 0 1 1); (OPrepare 2 1 1)] (mkO (SB 1 1) NB NZ 1 [(ZZ 1 0)] [(P1E 1 [(RSP 1 NB NZ)])] [(ZZ 1 0)] [(ZOZ 1 (SZ 2))] false NZ [])); (RS 0 (IPrepare 1 1 1) [(OPromise 1 1 1 0 NB NZ)] (mkO (SB 1 1) NB NZ 0 [] [] [] [] false NZ [])); (RS 1 (IPromise 1 0 NB NZ) [(OAccept 0 1 1 (SZ 2)); (OAccept 2 1 1 (SZ 2))] (mkO (SB 1 1) (SB 1 1) (SZ 2) 1 [(ZZ 1 0)] [(P1E 1 [(RSP 1 NB NZ); (RSP 0 NB NZ)])] [(ZZ 1 1)] [(ZOZ 1 (SZ 2))] false NZ [])); (RS 0 (IAccept 1 1 1 (SZ 2)) [(OAccepted 1 1 1 0)] (mkO (SB 1 1) (SB 1 1) (SZ 2) 0 [] [] [] [] false NZ [])); (RS 1 (IPropose 2) [(OPrepare 0 2 1); (OPrepare 2 2 1)] (mkO (SB 2 1) (SB 1 1) (SZ 2) 2 [(ZZ 1 0); (ZZ 2 1)] [(P1E 1 [(RSP 1 NB NZ); (RSP 0 NB NZ)]); (P1E 2 [(RSP 1 (SB 1 1) (SZ 2))])] [(ZZ 1 1); (ZZ 2 0)] [(ZOZ 1 (SZ 2)); (ZOZ 2 (SZ 2))] false NZ [])); (RS 0 (IPrepare 1 2 1) [(OPromise 1 2 1 0 (SB 1 1) (SZ 2))] (mkO (SB 2 1) (SB 1 1) (SZ 2) 0 [] [] [] [] false NZ [])); (RS 2 (IPrepare 1 2 1) [(OPromise 1 2 1 2 NB NZ)] (mkO (SB 2 1) NB NZ 1 [(ZZ 1 0)] [(P1E 1 [(RSP 2 NB NZ)])] [(ZZ 1 0)] [(ZOZ 1 (SZ 3))] false NZ [])); (RS 1 (IPromise 2 0 (SB 1 1) (SZ 2)) [(OAccept 0 2 1 (SZ 2)); (OAccept 2 2 1 (SZ 2))] (mkO (SB 2 1) (SB 2 1) (SZ 2) 2 [(ZZ 1 0); (ZZ 2 1)] [(P1E 1 [(RSP 1 NB NZ); (RSP 0 NB NZ)]); (P1E 2 [(RSP 1 (SB 1 1) (SZ 2)); (RSP 0 (SB 1 1) (SZ 2))])] [(ZZ 1 1); (ZZ 2 1)] [(ZOZ 1 (SZ 2)); (ZOZ 2 (SZ 2))] false NZ [])); (RS 1 (IPromise 2 2 NB NZ) [] (mkO (SB 2 1) (SB 2 1) (SZ 2) 2 [(ZZ 1 0); (ZZ 2 1)] [(P1E 1 [(RSP 1 NB NZ); (RSP 0 NB NZ)]); (P1E 2 [(RSP 1 (SB 1 1) (SZ 2)); (RSP 0 (SB 1 1) (SZ 2)); (RSP 2 NB NZ)])] [(ZZ 1 1); (ZZ 2 1)] [(ZOZ 1 (SZ 2)); (ZOZ 2 (SZ 2))] false NZ [])); (RS 0 (IAccept 1 2 1 (SZ 2)) [(OAccepted 1 2 1 0)] (mkO (SB 2 1) (SB 2 1) (SZ 2) 0 [] [] [] [] false NZ [])); (RS 2 (IAccept 1 2 1 (SZ 2)) [(OAccepted 1 2 1 2)] (mkO (SB 2 1) (SB 2 1) (SZ 2) 1 [(ZZ 1 0)] [(P1E 1 [(RSP 2 NB NZ)])] [(ZZ 1 0)] [(ZOZ 1 (SZ 3))] false NZ [])); (RS 1 (IAccepted 2) [(ODecided 0 (SZ 2)); (ODecided 2 (SZ 2))] (mkO (SB 2 1) (SB 2 1) (SZ 2) 2 [(ZZ 1 0); (ZZ 2 1)] [(P1E 1 [(RSP 1 NB NZ); (RSP 0 NB NZ)]); (P1E 2 [(RSP 1 (SB 1 1) (SZ 2)); (RSP 0 (SB 1 1) (SZ 2)); (RSP 2 NB NZ)])] [(ZZ 1 1); (ZZ 2 2)] [(ZOZ 1 (SZ 2)); (ZOZ 2 (SZ 2))] true (SZ 2) [(ZOZ 1 (SZ 2))])); (RS 1 (IAccepted 2) [] (mkO (SB 2 1) (SB 2 1) (SZ 2) 2 [(ZZ 1 0); (ZZ 2 1)] [(P1E 1 [(RSP 1 NB NZ); (RSP 0 NB NZ)]); (P1E 2 [(RSP 1 (SB 1 1) (SZ 2)); (RSP 0 (SB 1 1) (SZ 2)); (RSP 2 NB NZ)])] [(ZZ 1 1); (ZZ 2 3)] [(ZOZ 1 (SZ 2)); (ZOZ 2 (SZ 2))] true (SZ 2) [(ZOZ 1 (SZ 2))])); (RS 0 (IDecided (SZ 2)) [] (mkO (SB 2 1) (SB 2 1) (SZ 2) 0 [] [] [] [] true (SZ 2) [])); (RS 0 (IPrepare 2 1 2) [(ONack 2 1 2 2 1)] (mkO (SB 2 1) (SB 2 1) (SZ 2) 0 [] [] [] [] true (SZ 2) [])); (RS 1 (IAccepted 1) [] (mkO (SB 2 1) (SB 2 1) (SZ 2) 2 [(ZZ 1 0); (ZZ 2 1)] [(P1E 1 [(RSP 1 NB NZ); (RSP 0 NB NZ)]); (P1E 2 [(RSP 1 (SB 1 1) (SZ 2)); (RSP 0 (SB 1 1) (SZ 2)); (RSP 2 NB NZ)])] [(ZZ 1 2); (ZZ 2 3)] [(ZOZ 1 (SZ 2)); (ZOZ 2 (SZ 2))] true (SZ 2) [(ZOZ 1 (SZ 2))])); (RS 0 (IPropose 3) [] (mkO (SB 2 1) (SB 2 1) (SZ 2) 0 [] [] [] [] true (SZ 2) [(ZOZ 0 (SZ 2))]))]).
Definition case_91 : Z * list rec_step := (4, [(RS 0 (IPropose 1) [(OPrepare 1 1 0); (OPrepare 2 1 0); (OPrepare 3 1 0)] (mkO (SB 1 0) NB NZ 1 [(ZZ 1 0)] [(P1E 1 [(RSP 0 NB NZ)])] [(ZZ 1 0)] [(ZOZ 1 (SZ 1))] false NZ [])); (RS 1 (IPrepare 0 1 0) [(OPromise 0 1 0 1 NB NZ)] (mkO (SB 1 0) NB NZ 0 [] [] [] [] false NZ [])); (RS 3 (IPrepare 0 1 0) [(OPromise 0 1 0 3 NB NZ)] (mkO (SB 1 0) NB NZ 0 [] [] [] [] false NZ [])); (RS 0 (IPromise 1 3 NB NZ) [] (mkO (SB 1 0) NB NZ 1 [(ZZ 1 0)] [(P1E 1 [(RSP 0 NB NZ); (RSP 3 NB NZ)])] [(ZZ 1 0)] [(ZOZ 1 (SZ 1))] false NZ [])); (RS 1 (IPropose 2) [(OPrepare 0 2 1); (OPrepare 2 2 1); (OPrepare 3 2 1)] (mkO (SB 2 1) NB NZ 2 [(ZZ 2 0)] [(P1E 2 [(RSP 1 NB NZ)])] [(ZZ 2 0)] [(ZOZ 2 (SZ 2))] false NZ [])); (RS 2 (IPrepare 1 2 1) [(OPromise 1 2 1 2 NB NZ)] (mkO (SB 2 1) NB NZ 0 [] [] [] [] false NZ [])); (RS 3 (IPropose 3) [(OPrepare 0 2 3); (OPrepare 1 2 3); (OPrepare 2 2 3)] (mkO (SB 2 3) NB NZ 2 [(ZZ 2 0)] [(P1E 2 [(RSP 3 NB NZ)])] [(ZZ 2 0)] [(ZOZ 2 (SZ 3))] false NZ [])); (RS 0 (IPrepare 1 2 1) [(OPromise 1 2 1 0 NB NZ)] (mkO (SB 2 1) NB NZ 1 [(ZZ 1 0)] [(P1E 1 [(RSP 0 NB NZ); (RSP 3 NB NZ)])] [(ZZ 1 0)] [(ZOZ 1 (SZ 1))] false NZ [])); (RS 2 (IPrepare 3 2 3) [(OPromise 3 2 3 2 NB NZ)] (mkO (SB 2 3) NB NZ 0 [] [] [] [] false NZ [])); (RS 1 (IPromise 2 2 NB NZ) [] (mkO (SB 2 1) NB NZ 2 [(ZZ 2 0)] [(P1E 2 [(RSP 1 NB NZ); (RSP 2 NB NZ)])] [(ZZ 2 0)] [(ZOZ 2 (SZ 2))] false NZ [])); (RS 1 (IPromise 2 0 NB NZ) [(OAccept 0 2 1 (SZ 2)); (OAccept 2 2 1 (SZ 2)); (OAccept 3 2 1 (SZ 2))] (mkO (SB 2 1) (SB 2 1) (SZ 2) 2 [(ZZ 2 0)] [(P1E 2 [(RSP 1 NB NZ); (RSP 2 NB NZ); (RSP 0 NB NZ)])] [(ZZ 2 1)] [(ZOZ 2 (SZ 2))] false NZ [])); (RS 2 (IAccept 1 2 1 (SZ 2)) [(ONack 1 2 1 2 3)] (mkO (SB 2 3) NB NZ 0 [] [] [] [] false NZ [])); (RS 1 (INack 2 2) [(ORetry 2)] (mkO (SB 2 1) (SB 2 1) (SZ 2) 2 [(ZZ 2 0)] [(P1E 2 [(RSP 1 NB NZ); (RSP 2 NB NZ); (RSP 0 NB NZ)])] [(ZZ 2 1)] [(ZOZ 2 (SZ 2))] false NZ [])); (RS 1 (IRetry 2) [(OPrepare 0 3 1); (OPrepare 2 3 1); (OPrepare 3 3 1)] (mkO (SB 3 1) (SB 2 1) (SZ 2) 3 [(ZZ 3 0)] [(P1E 2 [(RSP 1 NB NZ); (RSP 2 NB NZ); (RSP 0 NB NZ)]); (P1E 3 [(RSP 1 (SB 2 1) (SZ 2))])] [(ZZ 2 1); (ZZ 3 0)] [(ZOZ 3 (SZ 2))] false NZ [])); (RS 0 (IPrepare 1 3 1) [(OPromise 1 3 1 0 NB NZ)] (mkO (SB 3 1) NB NZ 1 [(ZZ 1 0)] [(P1E 1 [(RSP 0 NB NZ); (RSP 3 NB NZ)])] [(ZZ 1 0)] [(ZOZ 1 (SZ 1))] false NZ [])); (RS 0 (IAccept 1 2 1 (SZ 2)) [(ONack 1 2 1 3 1)] (mkO (SB 3 1) NB NZ 1 [(ZZ 1 0)] [(P1E 1 [(RSP 0 NB NZ); (RSP 3 NB NZ)])] [(ZZ 1 0)] [(ZOZ 1 (SZ 1))] false NZ [])); (RS 0 (IPrepare 3 2 3) [(ONack 3 2 3 3 1)] (mkO (SB 3 1) NB NZ 1 [(ZZ 1 0)] [(P1E 1 [(RSP 0 NB NZ); (RSP 3 NB NZ)])] [(ZZ 1 0)] [(ZOZ 1 (SZ 1))] false NZ [])); (RS 3 (IPromise 2 2 NB NZ) [] (mkO (SB 2 3) NB NZ 2 [(ZZ 2 0)] [(P1E 2 [(RSP 3 NB NZ); (RSP 2 NB NZ)])] [(ZZ 2 0)] [(ZOZ 2 (SZ 3))] false NZ [])); (RS 3 (IPrepare 1 3 1) [(OPromise 1 3 1 3 NB NZ)] (mkO (SB 3 1) NB NZ 2 [(ZZ 2 0)] [(P1E 2 [(RSP 3 NB NZ); (RSP 2 NB NZ)])] [(ZZ 2 0)] [(ZOZ 2 (SZ 3))] false NZ [])); (RS 3 (INack 2 3) [(ORetry 2)] (mkO (SB 3 1) NB NZ 3 [(ZZ 2 0)] [(P1E 2 [(RSP 3 NB NZ); (RSP 2 NB NZ)])] [(ZZ 2 0)] [(ZOZ 2 (SZ 3))] false NZ [])); (RS 1 (INack 2 3) [] (mkO (SB 3 1) (SB 2 1) (SZ 2) 3 [(ZZ 3 0)] [(P1E 2 [(RSP 1 NB NZ); (RSP 2 NB NZ); (RSP 0 NB NZ)]); (P1E 3 [(RSP 1 (SB 2 1) (SZ 2))])] [(ZZ 2 1); (ZZ 3 0)] [(ZOZ 3 (SZ 2))] false NZ [])); (RS 3 (IRetry 2) [(OPrepare 0 4 3); (OPrepare 1 4 3); (OPrepare 2 4 3)] (mkO (SB 4 3) NB NZ 4 [(ZZ 4 0)] [(P1E 2 [(RSP 3 NB NZ); (RSP 2 NB NZ)]); (P1E 4 [(RSP 3 NB NZ)])] [(ZZ 2 0); (ZZ 4 0)] [(ZOZ 4 (SZ 3))] false NZ [])); (RS 0 (IPrepare 3 4 3) [(OPromise 3 4 3 0 NB NZ)] (mkO (SB 4 3) NB NZ 1 [(ZZ 1 0)] [(P1E 1 [(RSP 0 NB NZ); (RSP 3 NB NZ)])] [(ZZ 1 0)] [(ZOZ 1 (SZ 1))] false NZ [])); (RS 2 (IPrepare 1 3 1) [(OPromise 1 3 1 2 NB NZ)] (mkO (SB 3 1) NB NZ 0 [] [] [] [] false NZ [])); (RS 2 (IPrepare 3 4 3) [(OPromise 3 4 3 2 NB NZ)] (mkO (SB 4 3) NB NZ 0 [] [] [] [] false NZ [])); (RS 3 (IPromise 4 0 NB NZ) [] (mkO (SB 4 3) NB NZ 4 [(ZZ 4 0)] [(P1E 2 [(RSP 3 NB NZ); (RSP 2 NB NZ)]); (P1E 4 [(RSP 3 NB NZ); (RSP 0 NB NZ)])] [(ZZ 2 0); (ZZ 4 0)] [(ZOZ 4 (SZ 3))] false NZ [])); (RS 1 (IPromise 3 0 NB NZ) [] (mkO (SB 3 1) (SB 2 1) (SZ 2) 3 [(ZZ 3 0)] [(P1E 2 [(RSP 1 NB NZ); (RSP 2 NB NZ); (RSP 0 NB NZ)]); (P1E 3 [(RSP 1 (SB 2 1) (SZ 2)); (RSP 0 NB NZ)])] [(ZZ 2 1); (ZZ 3 0)] [(ZOZ 3 (SZ 2))] false NZ [])); (RS 1 (IPrepare 3 4 3) [(OPromise 3 4 3 1 (SB 2 1) (SZ 2))] (mkO (SB 4 3) (SB 2 1) (SZ 2) 3 [(ZZ 3 0)] [(P1E 2 [(RSP 1 NB NZ); (RSP 2 NB NZ); (RSP 0 NB NZ)]); (P1E 3 [(RSP 1 (SB 2 1) (SZ 2)); (RSP 0 NB NZ)])] [(ZZ 2 1); (ZZ 3 0)] [(ZOZ 3 (SZ 2))] false NZ [])); (RS 1 (IPromise 3 2 NB NZ) [(OAccept 0 3 1 (SZ 2)); (OAccept 2 3 1 (SZ 2)); (OAccept 3 3 1 (SZ 2))] (mkO (SB 4 3) (SB 2 1) (SZ 2) 3 [(ZZ 3 0)] [(P1E 2 [(RSP 1 NB NZ); (RSP 2 NB NZ); (RSP 0 NB NZ)]); (P1E 3 [(RSP 1 (SB 2 1) (SZ 2)); (RSP 0 NB NZ); (RSP 2 NB NZ)])] [(ZZ 2 1); (ZZ 3 0)] [(ZOZ 3 (SZ 2))] false NZ [])); (RS 3 (IPromise 4 2 NB NZ) [(OAccept 0 4 3 (SZ 3)); (OAccept 1 4 3 (SZ 3)); (OAccept 2 4 3 (SZ 3))] (mkO (SB 4 3) (SB 4 3) (SZ 3) 4 [(ZZ 4 0)] [(P1E 2 [(RSP 3 NB NZ); (RSP 2 NB NZ)]); (P1E 4 [(RSP 3 NB NZ); (RSP 0 NB NZ); (RSP 2 NB NZ)])] [(ZZ 2 0); (ZZ 4 1)] [(ZOZ 4 (SZ 3))] false NZ [])); (RS 2 (IAccept 3 4 3 (SZ 3)) [(OAccepted 3 4 3 2)] (mkO (SB 4 3) (SB 4 3) (SZ 3) 0 [] [] [] [] false NZ [])); (RS 0 (IAccept 1 3 1 (SZ 2)) [(ONack 1 3 1 4 3)] (mkO (SB 4 3) NB NZ 1 [(ZZ 1 0)] [(P1E 1 [(RSP 0 NB NZ); (RSP 3 NB NZ)])] [(ZZ 1 0)] [(ZOZ 1 (SZ 1))] false NZ [])); (RS 2 (IAccept 1 3 1 (SZ 2)) [(ONack 1 3 1 4 3)] (mkO (SB 4 3) (SB 4 3) (SZ 3) 0 [] [] [] [] false NZ [])); (RS 1 (INack 3 4) [(ORetry 3)] (mkO (SB 4 3) (SB 2 1) (SZ 2) 4 [(ZZ 3 0)] [(P1E 2 [(RSP 1 NB NZ); (RSP 2 NB NZ); (RSP 0 NB NZ)]); (P1E 3 [(RSP 1 (SB 2 1) (SZ 2)); (RSP 0 NB NZ); (RSP 2 NB NZ)])] [(ZZ 2 1); (ZZ 3 0)] [(ZOZ 3 (SZ 2))] false NZ [])); (RS 3 (IAccept 1 3 1 (SZ 2)) [(ONack 1 3 1 4 3)] (mkO (SB 4 3) (SB 4 3) (SZ 3) 4 [(ZZ 4 0)] [(P1E 2 [(RSP 3 NB NZ); (RSP 2 NB NZ)]); (P1E 4 [(RSP 3 NB NZ); (RSP 0 NB NZ); (RSP 2 NB NZ)])] [(ZZ 2 0); (ZZ 4 1)] [(ZOZ 4 (SZ 3))] false NZ [])); (RS 1 (IRetry 3) [(OPrepare 0 5 1); (OPrepare 2 5 1); (OPrepare 3 5 1)] (mkO (SB 5 1) (SB 2 1) (SZ 2) 5 [(ZZ 5 0)] [(P1E 2 [(RSP 1 NB NZ); (RSP 2 NB NZ); (RSP 0 NB NZ)]); (P1E 3 [(RSP 1 (SB 2 1) (SZ 2)); (RSP 0 NB NZ); (RSP 2 NB NZ)]); (P1E 5 [(RSP 1 (SB 2 1) (SZ 2))])] [(ZZ 2 1); (ZZ 3 0); (ZZ 5 0)] [(ZOZ 5 (SZ 2))] false NZ [])); (RS 1 (IAccept 3 4 3 (SZ 3)) [(ONack 3 4 3 5 1)] (mkO (SB 5 1) (SB 2 1) (SZ 2) 5 [(ZZ 5 0)] [(P1E 2 [(RSP 1 NB NZ); (RSP 2 NB NZ); (RSP 0 NB NZ)]); (P1E 3 [(RSP 1 (SB 2 1) (SZ 2)); (RSP 0 NB NZ); (RSP 2 NB NZ)]); (P1E 5 [(RSP 1 (SB 2 1) (SZ 2))])] [(ZZ 2 1); (ZZ 3 0); (ZZ 5 0)] [(ZOZ 5 (SZ 2))] false NZ [])); (RS 0 (IPrepare 1 5 1) [(OPromise 1 5 1 0 NB NZ)] (mkO (SB 5 1) NB NZ 1 [(ZZ 1 0)] [(P1E 1 [(RSP 0 NB NZ); (RSP 3 NB NZ)])] [(ZZ 1 0)] [(ZOZ 1 (SZ 1))] false NZ [])); (RS 2 (IPrepare 1 5 1) [(OPromise 1 5 1 2 (SB 4 3) (SZ 3))] (mkO (SB 5 1) (SB 4 3) (SZ 3) 0 [] [] [] [] false NZ [])); (RS 1 (IPromise 5 2 (SB 4 3) (SZ 3)) [] (mkO (SB 5 1) (SB 2 1) (SZ 2) 5 [(ZZ 5 0)] [(P1E 2 [(RSP 1 NB NZ); (RSP 2 NB NZ); (RSP 0 NB NZ)]); (P1E 3 [(RSP 1 (SB 2 1) (SZ 2)); (RSP 0 NB NZ); (RSP 2 NB NZ)]); (P1E 5 [(RSP 1 (SB 2 1) (SZ 2)); (RSP 2 (SB 4 3) (SZ 3))])] [(ZZ 2 1); (ZZ 3 0); (ZZ 5 0)] [(ZOZ 5 (SZ 2))] false NZ []))]).
Definition case_92 : Z * list rec_step := (3, [(RS 0 (IPropose 1) [(OPrepare 1 1 0); (OPrepare 2 1 0)] (mkO (SB 1 0) NB NZ 1 [(ZZ 1 0)] [(P1E 1 [(RSP 0 NB NZ)])] [(ZZ 1 0)] [(ZOZ 1 (SZ 1))] false NZ [])); (RS 1 (IPropose 2) [(OPrepare 0 1 1); (OPrepare 2 1 1)] (mkO (SB 1 1) NB NZ 1 [(ZZ 1 0)] [(P1E 1 [(RSP 1 NB NZ)])] [(ZZ 1 0)] [(ZOZ 1 (SZ 2))] false NZ [])); (RS 2 (IPropose 1) [(OPrepare 0 1 2); (OPrepare 1 1 2)] (mkO (SB 1 2) NB NZ 1 [(ZZ 1 0)] [(P1E 1 [(RSP 2 NB NZ)])] [(ZZ 1 0)] [(ZOZ 1 (SZ 1))] false NZ [])); (RS 0 (IPrepare 2 1 2) [(OPromise 2 1 2 0 NB NZ)] (mkO (SB 1 2) NB NZ 1 [(ZZ 1 0)] [(P1E 1 [(RSP 0 NB NZ)])] [(ZZ 1 0)] [(ZOZ 1 (SZ 1))] false NZ [])); (RS 2 (IPrepare 1 1 1) [(ONack 1 1 1 1 2)] (mkO (SB 1 2) NB NZ 1 [(ZZ 1 0)] [(P1E 1 [(RSP 2 NB NZ)])] [(ZZ 1 0)] [(ZOZ 1 (SZ 1))] false NZ [])); (RS 1 (IPrepare 2 1 2) [(OPromise 2 1 2 1 NB NZ)] (mkO (SB 1 2) NB NZ 1 [(ZZ 1 0)] [(P1E 1 [(RSP 1 NB NZ)])] [(ZZ 1 0)] [(ZOZ 1 (SZ 2))] false NZ [])); (RS 1 (INack 1 1) [(ORetry 1)] (mkO (SB 1 2) NB NZ 1 [(ZZ 1 0)] [(P1E 1 [(RSP 1 NB NZ)])] [(ZZ 1 0)] [(ZOZ 1 (SZ 2))] false NZ [])); (RS 2 (IPromise 1 1 NB NZ) [(OAccept 0 1 2 (SZ 1)); (OAccept 1 1 2 (SZ 1))] (mkO (SB 1 2) (SB 1 2) (SZ 1) 1 [(ZZ 1 0)] [(P1E 1 [(RSP 2 NB NZ); (RSP 1 NB NZ)])] [(ZZ 1 1)] [(ZOZ 1 (SZ 1))] false NZ [])); (RS 2 (IPrepare 0 1 0) [(ONack 0 1 0 1 2)] (mkO (SB 1 2) (SB 1 2) (SZ 1) 1 [(ZZ 1 0)] [(P1E 1 [(RSP 2 NB NZ); (RSP 1 NB NZ)])] [(ZZ 1 1)] [(ZOZ 1 (SZ 1))] false NZ [])); (RS 2 (IPropose 3) [(OPrepare 0 2 2); (OPrepare 1 2 2)] (mkO (SB 2 2) (SB 1 2) (SZ 1) 2 [(ZZ 1 0); (ZZ 2 1)] [(P1E 1 [(RSP 2 NB NZ); (RSP 1 NB NZ)]); (P1E 2 [(RSP 2 (SB 1 2) (SZ 1))])] [(ZZ 1 1); (ZZ 2 0)] [(ZOZ 1 (SZ 1)); (ZOZ 2 (SZ 3))] false NZ [])); (RS 1 (IAccept 2 1 2 (SZ 1)) [(OAccepted 2 1 2 1)] (mkO (SB 1 2) (SB 1 2) (SZ 1) 1 [(ZZ 1 0)] [(P1E 1 [(RSP 1 NB NZ)])] [(ZZ 1 0)] [(ZOZ 1 (SZ 2))] false NZ [])); (RS 2 (IAccepted 1) [(ODecided 0 (SZ 1)); (ODecided 1 (SZ 1))] (mkO (SB 2 2) (SB 1 2) (SZ 1) 2 [(ZZ 1 0); (ZZ 2 1)] [(P1E 1 [(RSP 2 NB NZ); (RSP 1 NB NZ)]); (P1E 2 [(RSP 2 (SB 1 2) (SZ 1))])] [(ZZ 1 2); (ZZ 2 0)] [(ZOZ 1 (SZ 1)); (ZOZ 2 (SZ 3))] true (SZ 1) [(ZOZ 0 (SZ 1))])); (RS 1 (IDecided (SZ 1)) [] (mkO (SB 1 2) (SB 1 2) (SZ 1) 1 [(ZZ 1 0)] [(P1E 1 [(RSP 1 NB NZ)])] [(ZZ 1 0)] [(ZOZ 1 (SZ 2))] true (SZ 1) [])); (RS 1 (IPrepare 2 2 2) [(OPromise 2 2 2 1 (SB 1 2) (SZ 1))] (mkO (SB 2 2) (SB 1 2) (SZ 1) 1 [(ZZ 1 0)] [(P1E 1 [(RSP 1 NB NZ)])] [(ZZ 1 0)] [(ZOZ 1 (SZ 2))] true (SZ 1) [])); (RS 0 (IPrepare 1 1 1) [(ONack 1 1 1 1 2)] (mkO (SB 1 2) NB NZ 1 [(ZZ 1 0)] [(P1E 1 [(RSP 0 NB NZ)])] [(ZZ 1 0)] [(ZOZ 1 (SZ 1))] false NZ [])); (RS 1 (INack 1 1) [(ORetry 1)] (mkO (SB 2 2) (SB 1 2) (SZ 1) 1 [(ZZ 1 0)] [(P1E 1 [(RSP 1 NB NZ)])] [(ZZ 1 0)] [(ZOZ 1 (SZ 2))] true (SZ 1) [])); (RS 1 (IPrepare 0 1 0) [(ONack 0 1 0 2 2)] (mkO (SB 2 2) (SB 1 2) (SZ 1) 1 [(ZZ 1 0)] [(P1E 1 [(RSP 1 NB NZ)])] [(ZZ 1 0)] [(ZOZ 1 (SZ 2))] true (SZ 1) [])); (RS 0 (INack 1 2) [(ORetry 1)] (mkO (SB 1 2) NB NZ 2 [(ZZ 1 0)] [(P1E 1 [(RSP 0 NB NZ)])] [(ZZ 1 0)] [(ZOZ 1 (SZ 1))] false NZ [])); (RS 2 (IPromise 2 1 (SB 1 2) (SZ 1)) [(OAccept 0 2 2 (SZ 1)); (OAccept 1 2 2 (SZ 1))] (mkO (SB 2 2) (SB 2 2) (SZ 1) 2 [(ZZ 1 0); (ZZ 2 1)] [(P1E 1 [(RSP 2 NB NZ); (RSP 1 NB NZ)]); (P1E 2 [(RSP 2 (SB 1 2) (SZ 1)); (RSP 1 (SB 1 2) (SZ 1))])] [(ZZ 1 2); (ZZ 2 1)] [(ZOZ 1 (SZ 1)); (ZOZ 2 (SZ 1))] true (SZ 1) [(ZOZ 0 (SZ 1))])); (RS 0 (IAccept 2 2 2 (SZ 1)) [(OAccepted 2 2 2 0)] (mkO (SB 2 2) (SB 2 2) (SZ 1) 2 [(ZZ 1 0)] [(P1E 1 [(RSP 0 NB NZ)])] [(ZZ 1 0)] [(ZOZ 1 (SZ 1))] false NZ [])); (RS 1 (IAccept 2 2 2 (SZ 1)) [(OAccepted 2 2 2 1)] (mkO (SB 2 2) (SB 2 2) (SZ 1) 1 [(ZZ 1 0)] [(P1E 1 [(RSP 1 NB NZ)])] [(ZZ 1 0)] [(ZOZ 1 (SZ 2))] true (SZ 1) [])); (RS 2 (IAccepted 2) [] (mkO (SB 2 2) (SB 2 2) (SZ 1) 2 [(ZZ 1 0); (ZZ 2 1)] [(P1E 1 [(RSP 2 NB NZ); (RSP 1 NB NZ)]); (P1E 2 [(RSP 2 (SB 1 2) (SZ 1)); (RSP 1 (SB 1 2) (SZ 1))])] [(ZZ 1 2); (ZZ 2 2)] [(ZOZ 1 (SZ 1)); (ZOZ 2 (SZ 1))] true (SZ 1) [(ZOZ 0 (SZ 1))])); (RS 2 (IAccepted 2) [] (mkO (SB 2 2) (SB 2 2) (SZ 1) 2 [(ZZ 1 0); (ZZ 2 1)] [(P1E 1 [(RSP 2 NB NZ); (RSP 1 NB NZ)]); (P1E 2 [(RSP 2 (SB 1 2) (SZ 1)); (RSP 1 (SB 1 2) (SZ 1))])] [(ZZ 1 2); (ZZ 2 3)] [(ZOZ 1 (SZ 1)); (ZOZ 2 (SZ 1))] true (SZ 1) [(ZOZ 0 (SZ 1))])); (RS 1 (IRetry 1) [] (mkO (SB 2 2) (SB 2 2) (SZ 1) 1 [(ZZ 1 0)] [(P1E 1 [(RSP 1 NB NZ)])] [(ZZ 1 0)] [(ZOZ 1 (SZ 2))] true (SZ 1) [])); (RS 1 (IRetry 1) [] (mkO (SB 2 2) (SB 2 2) (SZ 1) 1 [(ZZ 1 0)] [(P1E 1 [(RSP 1 NB NZ)])] [(ZZ 1 0)] [(ZOZ 1 (SZ 2))] true (SZ 1) [])); (RS 0 (IRetry 1) [(OPrepare 1 3 0); (OPrepare 2 3 0)] (mkO (SB 3 0) (SB 2 2) (SZ 1) 3 [(ZZ 3 0)] [(P1E 1 [(RSP 0 NB NZ)]); (P1E 3 [(RSP 0 (SB 2 2) (SZ 1))])] [(ZZ 1 0); (ZZ 3 0)] [(ZOZ 3 (SZ 1))] false NZ [])); (RS 2 (IPrepare 0 3 0) [(OPromise 0 3 0 2 (SB 2 2) (SZ 1))] (mkO (SB 3 0) (SB 2 2) (SZ 1) 2 [(ZZ 1 0); (ZZ 2 1)] [(P1E 1 [(RSP 2 NB NZ); (RSP 1 NB NZ)]); (P1E 2 [(RSP 2 (SB 1 2) (SZ 1)); (RSP 1 (SB 1 2) (SZ 1))])] [(ZZ 1 2); (ZZ 2 3)] [(ZOZ 1 (SZ 1)); (ZOZ 2 (SZ 1))] true (SZ 1) [(ZOZ 0 (SZ 1))])); (RS 0 (IPromise 3 2 (SB 2 2) (SZ 1)) [(OAccept 1 3 0 (SZ 1)); (OAccept 2 3 0 (SZ 1))] (mkO (SB 3 0) (SB 3 0) (SZ 1) 3 [(ZZ 3 0)] [(P1E 1 [(RSP 0 NB NZ)]); (P1E 3 [(RSP 0 (SB 2 2) (SZ 1)); (RSP 2 (SB 2 2) (SZ 1))])] [(ZZ 1 0); (ZZ 3 1)] [(ZOZ 3 (SZ 1))] false NZ [])); (RS 1 (IPrepare 0 3 0) [(OPromise 0 3 0 1 (SB 2 2) (SZ 1))] (mkO (SB 3 0) (SB 2 2) (SZ 1) 1 [(ZZ 1 0)] [(P1E 1 [(RSP 1 NB NZ)])] [(ZZ 1 0)] [(ZOZ 1 (SZ 2))] true (SZ 1) [])); (RS 2 (IAccept 0 3 0 (SZ 1)) [(OAccepted 0 3 0 2)] (mkO (SB 3 0) (SB 3 0) (SZ 1) 2 [(ZZ 1 0); (ZZ 2 1)] [(P1E 1 [(RSP 2 NB NZ); (RSP 1 NB NZ)]); (P1E 2 [(RSP 2 (SB 1 2) (SZ 1)); (RSP 1 (SB 1 2) (SZ 1))])] [(ZZ 1 2); (ZZ 2 3)] [(ZOZ 1 (SZ 1)); (ZOZ 2 (SZ 1))] true (SZ 1) [(ZOZ 0 (SZ 1))])); (RS 0 (IAccepted 3) [(ODecided 1 (SZ 1)); (ODecided 2 (SZ 1))] (mkO (SB 3 0) (SB 3 0) (SZ 1) 3 [(ZZ 3 0)] [(P1E 1 [(RSP 0 NB NZ)]); (P1E 3 [(RSP 0 (SB 2 2) (SZ 1)); (RSP 2 (SB 2 2) (SZ 1))])] [(ZZ 1 0); (ZZ 3 2)] [(ZOZ 3 (SZ 1))] true (SZ 1) [(ZOZ 0 (SZ 1))])); (RS 2 (IDecided (SZ 1)) [] (mkO (SB 3 0) (SB 3 0) (SZ 1) 2 [(ZZ 1 0); (ZZ 2 1)] [(P1E 1 [(RSP 2 NB NZ); (RSP 1 NB NZ)]); (P1E 2 [(RSP 2 (SB 1 2) (SZ 1)); (RSP 1 (SB 1 2) (SZ 1))])] [(ZZ 1 2); (ZZ 2 3)] [(ZOZ 1 (SZ 1)); (ZOZ 2 (SZ 1))] true (SZ 1) [(ZOZ 0 (SZ 1))])); (RS 1 (IAccept 0 3 0 (SZ 1)) [(OAccepted 0 3 0 1)] (mkO (SB 3 0) (SB 3 0) (SZ 1) 1 [(ZZ 1 0)] [(P1E 1 [(RSP 1 NB NZ)])] [(ZZ 1 0)] [(ZOZ 1 (SZ 2))] true (SZ 1) [])); (RS 0 (IPromise 3 1 (SB 2 2) (SZ 1)) [] (mkO (SB 3 0) (SB 3 0) (SZ 1) 3 [(ZZ 3 0)] [(P1E 1 [(RSP 0 NB NZ)]); (P1E 3 [(RSP 0 (SB 2 2) (SZ 1)); (RSP 2 (SB 2 2) (SZ 1)); (RSP 1 (SB 2 2) (SZ 1))])] [(ZZ 1 0); (ZZ 3 2)] [(ZOZ 3 (SZ 1))] true (SZ 1) [(ZOZ 0 (SZ 1))])); (RS 0 (IAccepted 3) [] (mkO (SB 3 0) (SB 3 0) (SZ 1) 3 [(ZZ 3 0)] [(P1E 1 [(RSP 0 NB NZ)]); (P1E 3 [(RSP 0 (SB 2 2) (SZ 1)); (RSP 2 (SB 2 2) (SZ 1)); (RSP 1 (SB 2 2) (SZ 1))])] [(ZZ 1 0); (ZZ 3 3)] [(ZOZ 3 (SZ 1))] true (SZ 1) [(ZOZ 0 (SZ 1))])); (RS 1 (IDecided (SZ 1)) [] (mkO (SB 3 0) (SB 3 0) (SZ 1) 1 [(ZZ 1 0)] [(P1E 1 [(RSP 1 NB NZ)])] [(ZZ 1 0)] [(ZOZ 1 (SZ 2))] true (SZ 1) []))]).
Definition case_93 : Z * list rec_step := (3, [(RS 0 (IPropose 1) [(OPrepare 1 1 0); (OPrepare 2 1 0)] (mkO (SB 1 0) NB NZ 1 [(ZZ 1 0)] [(P1E 1 [(RSP 0 NB NZ)])] [(ZZ 1 0)] [(ZOZ 1 (SZ 1))] false NZ [])); (RS 1 (IPrepare 0 1 0) [(OPromise 0 1 0 1 NB NZ)] (mkO (SB 1 0) NB NZ 0 [] [] [] [] false NZ [])); (RS 2 (IPrepare 0 1 0) [(OPromise 0 1 0 2 NB NZ)] (mkO (SB 1 0) NB NZ 0 [] [] [] [] false NZ [])); (RS 0 (IPromise 1 1 NB NZ) [(OAccept 1 1 0 (SZ 1)); (OAccept 2 1 0 (SZ 1))] (mkO (SB 1 0) (SB 1 0) (SZ 1) 1 [(ZZ 1 0)] [(P1E 1 [(RSP 0 NB NZ); (RSP 1 NB NZ)])] [(ZZ 1 1)] [(ZOZ 1 (SZ 1))] false NZ [])); (RS 0 (IPromise 1 2 NB NZ) [] (mkO (SB 1 0) (SB 1 0) (SZ 1) 1 [(ZZ 1 0)] [(P1E 1 [(RSP 0 NB NZ); (RSP 1 NB NZ); (RSP 2 NB NZ)])] [(ZZ 1 1)] [(ZOZ 1 (SZ 1))] false NZ [])); (RS 1 (IAccept 0 1 0 (SZ 1)) [(OAccepted 0 1 0 1)] (mkO (SB 1 0) (SB 1 0) (SZ 1) 0 [] [] [] [] false NZ [])); (RS 2 (IAccept 0 1 0 (SZ 1)) [(OAccepted 0 1 0 2)] (mkO (SB 1 0) (SB 1 0) (SZ 1) 0 [] [] [] [] false NZ [])); (RS 0 (IAccepted 1) [(ODecided 1 (SZ 1)); (ODecided 2 (SZ 1))] (mkO (SB 1 0) (SB 1 0) (SZ 1) 1 [(ZZ 1 0)] [(P1E 1 [(RSP 0 NB NZ); (RSP 1 NB NZ); (RSP 2 NB NZ)])] [(ZZ 1 2)] [(ZOZ 1 (SZ 1))] true (SZ 1) [(ZOZ 0 (SZ 1))])); (RS 0 (IAccepted 1) [] (mkO (SB 1 0) (SB 1 0) (SZ 1) 1 [(ZZ 1 0)] [(P1E 1 [(RSP 0 NB NZ); (RSP 1 NB NZ); (RSP 2 NB NZ)])] [(ZZ 1 3)] [(ZOZ 1 (SZ 1))] true (SZ 1) [(ZOZ 0 (SZ 1))])); (RS 1 (IDecided (SZ 1)) [] (mkO (SB 1 0) (SB 1 0) (SZ 1) 0 [] [] [] [] true (SZ 1) [])); (RS 2 (IDecided (SZ 1)) [] (mkO (SB 1 0) (SB 1 0) (SZ 1) 0 [] [] [] [] true (SZ 1) [])); (RS 0 (IPropose 2) [] (mkO (SB 1 0) (SB 1 0) (SZ 1) 1 [(ZZ 1 0)] [(P1E 1 [(RSP 0 NB NZ); (RSP 1 NB NZ); (RSP 2 NB NZ)])] [(ZZ 1 3)] [(ZOZ 1 (SZ 1))] true (SZ 1) [(ZOZ 0 (SZ 1)); (ZOZ 1 (SZ 1))]))]).
Definition case_94 : Z * list rec_step := (3, [(RS 0 (IPropose 3) [(OPrepare 1 1 0); (OPrepare 2 1 0)] (mkO (SB 1 0) NB NZ 1 [(ZZ 1 0)] [(P1E 1 [(RSP 0 NB NZ)])] [(ZZ 1 0)] [(ZOZ 1 (SZ 3))] false NZ [])); (RS 2 (IPrepare 0 1 0) [(OPromise 0 1 0 2 NB NZ)] (mkO (SB 1 0) NB NZ 0 [] [] [] [] false NZ [])); (RS 0 (IPromise 1 2 NB NZ) [(OAccept 1 1 0 (SZ 3)); (OAccept 2 1 0 (SZ 3))] (mkO (SB 1 0) (SB 1 0) (SZ 3) 1 [(ZZ 1 0)] [(P1E 1 [(RSP 0 NB NZ); (RSP 2 NB NZ)])] [(ZZ 1 1)] [(ZOZ 1 (SZ 3))] false NZ [])); (RS 1 (IPrepare 0 1 0) [(OPromise 0 1 0 1 NB NZ)] (mkO (SB 1 0) NB NZ 0 [] [] [] [] false NZ [])); (RS 1 (IAccept 0 1 0 (SZ 3)) [(OAccepted 0 1 0 1)] (mkO (SB 1 0) (SB 1 0) (SZ 3) 0 [] [] [] [] false NZ [])); (RS 2 (IAccept 0 1 0 (SZ 3)) [(OAccepted 0 1 0 2)] (mkO (SB 1 0) (SB 1 0) (SZ 3) 0 [] [] [] [] false NZ [])); (RS 0 (IAccepted 1) [(ODecided 1 (SZ 3)); (ODecided 2 (SZ 3))] (mkO (SB 1 0) (SB 1 0) (SZ 3) 1 [(ZZ 1 0)] [(P1E 1 [(RSP 0 NB NZ); (RSP 2 NB NZ)])] [(ZZ 1 2)] [(ZOZ 1 (SZ 3))] true (SZ 3) [(ZOZ 0 (SZ 3))])); (RS 2 (IDecided (SZ 3)) [] (mkO (SB 1 0) (SB 1 0) (SZ 3) 0 [] [] [] [] true (SZ 3) [])); (RS 1 (IDecided (SZ 3)) [] (mkO (SB 1 0) (SB 1 0) (SZ 3) 0 [] [] [] [] true (SZ 3) [])); (RS 0 (IPromise 1 1 NB NZ) [] (mkO (SB 1 0) (SB 1 0) (SZ 3) 1 [(ZZ 1 0)] [(P1E 1 [(RSP 0 NB NZ); (RSP 2 NB NZ); (RSP 1 NB NZ)])] [(ZZ 1 2)] [(ZOZ 1 (SZ 3))] true (SZ 3) [(ZOZ 0 (SZ 3))])); (RS 0 (IAccepted 1) [] (mkO (SB 1 0) (SB 1 0) (SZ 3) 1 [(ZZ 1 0)] [(P1E 1 [(RSP 0 NB NZ); (RSP 2 NB NZ); (RSP 1 NB NZ)])] [(ZZ 1 3)] [(ZOZ 1 (SZ 3))] true (SZ 3) [(ZOZ 0 (SZ 3))]))]).
Definition case_95 : Z * list rec_step := (4, [(RS 1 (IPropose 2) [(OPrepare 0 1 1); (OPrepare 2 1 1); (OPrepare 3 1 1)] (mkO (SB 1 1) NB NZ 1 [(ZZ 1 0)] [(P1E 1 [(RSP 1 NB NZ)])] [(ZZ 1 0)] [(ZOZ 1 (SZ 2))] false NZ [])); (RS 0 (IPrepare 1 1 1) [(OPromise 1 1 1 0 NB NZ)] (mkO (SB 1 1) NB NZ 0 [] [] [] [] false NZ [])); (RS 3 (IPrepare 1 1 1) [(OPromise 1 1 1 3 NB NZ)] (mkO (SB 1 1) NB NZ 0 [] [] [] [] false NZ [])); (RS 1 (IPromise 1 0 NB NZ) [] (mkO (SB 1 1) NB NZ 1 [(ZZ 1 0)] [(P1E 1 [(RSP 1 NB NZ); (RSP 0 NB NZ)])] [(ZZ 1 0)] [(ZOZ 1 (SZ 2))] false NZ [])); (RS 2 (IPrepare 1 1 1) [(OPromise 1 1 1 2 NB NZ)] (mkO (SB 1 1) NB NZ 0 [] [] [] [] false NZ [])); (RS 1 (IPromise 1 3 NB NZ) [(OAccept 0 1 1 (SZ 2)); (OAccept 2 1 1 (SZ 2)); (OAccept 3 1 1 (SZ 2))] (mkO (SB 1 1) (SB 1 1) (SZ 2) 1 [(ZZ 1 0)] [(P1E 1 [(RSP 1 NB NZ); (RSP 0 NB NZ); (RSP 3 NB NZ)])] [(ZZ 1 1)] [(ZOZ 1 (SZ 2))] false NZ [])); (RS 1 (IPromise 1 2 NB NZ) [] (mkO (SB 1 1) (SB 1 1) (SZ 2) 1 [(ZZ 1 0)] [(P1E 1 [(RSP 1 NB NZ); (RSP 0 NB NZ); (RSP 3 NB NZ); (RSP 2 NB NZ)])] [(ZZ 1 1)] [(ZOZ 1 (SZ 2))] false NZ [])); (RS 0 (IAccept 1 1 1 (SZ 2)) [(OAccepted 1 1 1 0)] (mkO (SB 1 1) (SB 1 1) (SZ 2) 0 [] [] [] [] false NZ [])); (RS 2 (IAccept 1 1 1 (SZ 2)) [(OAccepted 1 1 1 2)] (mkO (SB 1 1) (SB 1 1) (SZ 2) 0 [] [] [] [] false NZ [])); (RS 3 (IAccept 1 1 1 (SZ 2)) [(OAccepted 1 1 1 3)] (mkO (SB 1 1) (SB 1 1) (SZ 2) 0 [] [] [] [] false NZ [])); (RS 1 (IAccepted 1) [] (mkO (SB 1 1) (SB 1 1) (SZ 2) 1 [(ZZ 1 0)] [(P1E 1 [(RSP 1 NB NZ); (RSP 0 NB NZ); (RSP 3 NB NZ); (RSP 2 NB NZ)])] [(ZZ 1 2)] [(ZOZ 1 (SZ 2))] false NZ [])); (RS 1 (IAccepted 1) [(ODecided 0 (SZ 2)); (ODecided 2 (SZ 2)); (ODecided 3 (SZ 2))] (mkO (SB 1 1) (SB 1 1) (SZ 2) 1 [(ZZ 1 0)] [(P1E 1 [(RSP 1 NB NZ); (RSP 0 NB NZ); (RSP 3 NB NZ); (RSP 2 NB NZ)])] [(ZZ 1 3)] [(ZOZ 1 (SZ 2))] true (SZ 2) [(ZOZ 0 (SZ 2))])); (RS 1 (IAccepted 1) [] (mkO (SB 1 1) (SB 1 1) (SZ 2) 1 [(ZZ 1 0)] [(P1E 1 [(RSP 1 NB NZ); (RSP 0 NB NZ); (RSP 3 NB NZ); (RSP 2 NB NZ)])] [(ZZ 1 4)] [(ZOZ 1 (SZ 2))] true (SZ 2) [(ZOZ 0 (SZ 2))])); (RS 2 (IDecided (SZ 2)) [] (mkO (SB 1 1) (SB 1 1) (SZ 2) 0 [] [] [] [] true (SZ 2) [])); (RS 3 (IDecided (SZ 2)) [] (mkO (SB 1 1) (SB 1 1) (SZ 2) 0 [] [] [] [] true (SZ 2) [])); (RS 0 (IDecided (SZ 2)) [] (mkO (SB 1 1) (SB 1 1) (SZ 2) 0 [] [] [] [] true (SZ 2) [])); (RS 3 (IPropose 3) [] (mkO (SB 1 1) (SB 1 1) (SZ 2) 0 [] [] [] [] true (SZ 2) [(ZOZ 0 (SZ 2))]))]).
Definition case_96 : Z * list rec_step := (5, [(RS 3 (IPropose 2) [(OPrepare 0 1 3); (OPrepare 1 1 3); (OPrepare 2 1 3); (OPrepare 4 1 3)] (mkO (SB 1 3) NB NZ 1 [(ZZ 1 0)] [(P1E 1 [(RSP 3 NB NZ)])] [(ZZ 1 0)] [(ZOZ 1 (SZ 2))] false NZ [])); (RS 4 (IPrepare 3 1 3) [(OPromise 3 1 3 4 NB NZ)] (mkO (SB 1 3) NB NZ 0 [] [] [] [] false NZ [])); (RS 1 (IPrepare 3 1 3) [(OPromise 3 1 3 1 NB NZ)] (mkO (SB 1 3) NB NZ 0 [] [] [] [] false NZ [])); (RS 3 (IPromise 1 4 NB NZ) [] (mkO (SB 1 3) NB NZ 1 [(ZZ 1 0)] [(P1E 1 [(RSP 3 NB NZ); (RSP 4 NB NZ)])] [(ZZ 1 0)] [(ZOZ 1 (SZ 2))] false NZ [])); (RS 0 (IPrepare 3 1 3) [(OPromise 3 1 3 0 NB NZ)] (mkO (SB 1 3) NB NZ 0 [] [] [] [] false NZ [])); (RS 2 (IPrepare 3 1 3) [(OPromise 3 1 3 2 NB NZ)] (mkO (SB 1 3) NB NZ 0 [] [] [] [] false NZ [])); (RS 3 (IPromise 1 1 NB NZ) [(OAccept 0 1 3 (SZ 2)); (OAccept 1 1 3 (SZ 2)); (OAccept 2 1 3 (SZ 2)); (OAccept 4 1 3 (SZ 2))] (mkO (SB 1 3) (SB 1 3) (SZ 2) 1 [(ZZ 1 0)] [(P1E 1 [(RSP 3 NB NZ); (RSP 4 NB NZ); (RSP 1 NB NZ)])] [(ZZ 1 1)] [(ZOZ 1 (SZ 2))] false NZ [])); (RS 3 (IPromise 1 0 NB NZ) [] (mkO (SB 1 3) (SB 1 3) (SZ 2) 1 [(ZZ 1 0)] [(P1E 1 [(RSP 3 NB NZ); (RSP 4 NB NZ); (RSP 1 NB NZ); (RSP 0 NB NZ)])] [(ZZ 1 1)] [(ZOZ 1 (SZ 2))] false NZ [])); (RS 3 (IPromise 1 2 NB NZ) [] (mkO (SB 1 3) (SB 1 3) (SZ 2) 1 [(ZZ 1 0)] [(P1E 1 [(RSP 3 NB NZ); (RSP 4 NB NZ); (RSP 1 NB NZ); (RSP 0 NB NZ); (RSP 2 NB NZ)])] [(ZZ 1 1)] [(ZOZ 1 (SZ 2))] false NZ [])); (RS 1 (IAccept 3 1 3 (SZ 2)) [(OAccepted 3 1 3 1)] (mkO (SB 1 3) (SB 1 3) (SZ 2) 0 [] [] [] [] false NZ [])); (RS 2 (IAccept 3 1 3 (SZ 2)) [(OAccepted 3 1 3 2)] (mkO (SB 1 3) (SB 1 3) (SZ 2) 0 [] [] [] [] false NZ [])); (RS 0 (IAccept 3 1 3 (SZ 2)) [(OAccepted 3 1 3 0)] (mkO (SB 1 3) (SB 1 3) (SZ 2) 0 [] [] [] [] false NZ [])); (RS 4 (IAccept 3 1 3 (SZ 2)) [(OAccepted 3 1 3 4)] (mkO (SB 1 3) (SB 1 3) (SZ 2) 0 [] [] [] [] false NZ [])); (RS 3 (IAccepted 1) [] (mkO (SB 1 3) (SB 1 3) (SZ 2) 1 [(ZZ 1 0)] [(P1E 1 [(RSP 3 NB NZ); (RSP 4 NB NZ); (RSP 1 NB NZ); (RSP 0 NB NZ); (RSP 2 NB NZ)])] [(ZZ 1 2)] [(ZOZ 1 (SZ 2))] false NZ [])); (RS 3 (IAccepted 1) [(ODecided 0 (SZ 2)); (ODecided 1 (SZ 2)); (ODecided 2 (SZ 2)); (ODecided 4 (SZ 2))] (mkO (SB 1 3) (SB 1 3) (SZ 2) 1 [(ZZ 1 0)] [(P1E 1 [(RSP 3 NB NZ); (RSP 4 NB NZ); (RSP 1 NB NZ); (RSP 0 NB NZ); (RSP 2 NB NZ)])] [(ZZ 1 3)] [(ZOZ 1 (SZ 2))] true (SZ 2) [(ZOZ 0 (SZ 2))])); (RS 3 (IAccepted 1) [] (mkO (SB 1 3) (SB 1 3) (SZ 2) 1 [(ZZ 1 0)] [(P1E 1 [(RSP 3 NB NZ); (RSP 4 NB NZ); (RSP 1 NB NZ); (RSP 0 NB NZ); (RSP 2 NB NZ)])] [(ZZ 1 4)] [(ZOZ 1 (SZ 2))] true (SZ 2) [(ZOZ 0 (SZ 2))])); (RS 3 (IAccepted 1) [] (mkO (SB 1 3) (SB 1 3) (SZ 2) 1 [(ZZ 1 0)] [(P1E 1 [(RSP 3 NB NZ); (RSP 4 NB NZ); (RSP 1 NB NZ); (RSP 0 NB NZ); (RSP 2 NB NZ)])] [(ZZ 1 5)] [(ZOZ 1 (SZ 2))] true (SZ 2) [(ZOZ 0 (SZ 2))])); (RS 0 (IDecided (SZ 2)) [] (mkO (SB 1 3) (SB 1 3) (SZ 2) 0 [] [] [] [] true (SZ 2) [])); (RS 1 (IDecided (SZ 2)) [] (mkO (SB 1 3) (SB 1 3) (SZ 2) 0 [] [] [] [] true (SZ 2) [])); (RS 1 (IPropose 2) [] (mkO (SB 1 3) (SB 1 3) (SZ 2) 0 [] [] [] [] true (SZ 2) [(ZOZ 0 (SZ 2))])); (RS 2 (IDecided (SZ 2)) [] (mkO (SB 1 3) (SB 1 3) (SZ 2) 0 [] [] [] [] true (SZ 2) [])); (RS 4 (IDecided (SZ 2)) [] (mkO (SB 1 3) (SB 1 3) (SZ 2) 0 [] [] [] [] true (SZ 2) [])); (RS 4 (IPropose 1) [] (mkO (SB 1 3) (SB 1 3) (SZ 2) 0 [] [] [] [] true (SZ 2) [(ZOZ 0 (SZ 2))]))]).
Definition case_97 : Z * list rec_step := (3, [(RS 1 (IPropose 3) [(OPrepare 0 1 1); (OPrepare 2 1 1)] (mkO (SB 1 1) NB NZ 1 [(ZZ 1 0)] [(P1E 1 [(RSP 1 NB NZ)])] [(ZZ 1 0)] [(ZOZ 1 (SZ 3))] false NZ [])); (RS 0 (IPrepare 1 1 1) [(OPromise 1 1 1 0 NB NZ)] (mkO (SB 1 1) NB NZ 0 [] [] [] [] false NZ [])); (RS 2 (IPrepare 1 1 1) [(OPromise 1 1 1 2 NB NZ)] (mkO (SB 1 1) NB NZ 0 [] [] [] [] false NZ [])); (RS 1 (IPromise 1 0 NB NZ) [(OAccept 0 1 1 (SZ 3)); (OAccept 2 1 1 (SZ 3))] (mkO (SB 1 1) (SB 1 1) (SZ 3) 1 [(ZZ 1 0)] [(P1E 1 [(RSP 1 NB NZ); (RSP 0 NB NZ)])] [(ZZ 1 1)] [(ZOZ 1 (SZ 3))] false NZ [])); (RS 1 (IPromise 1 2 NB NZ) [] (mkO (SB 1 1) (SB 1 1) (SZ 3) 1 [(ZZ 1 0)] [(P1E 1 [(RSP 1 NB NZ); (RSP 0 NB NZ); (RSP 2 NB NZ)])] [(ZZ 1 1)] [(ZOZ 1 (SZ 3))] false NZ [])); (RS 0 (IAccept 1 1 1 (SZ 3)) [(OAccepted 1 1 1 0)] (mkO (SB 1 1) (SB 1 1) (SZ 3) 0 [] [] [] [] false NZ [])); (RS 2 (IAccept 1 1 1 (SZ 3)) [(OAccepted 1 1 1 2)] (mkO (SB 1 1) (SB 1 1) (SZ 3) 0 [] [] [] [] false NZ [])); (RS 1 (IAccepted 1) [(ODecided 0 (SZ 3)); (ODecided 2 (SZ 3))] (mkO (SB 1 1) (SB 1 1) (SZ 3) 1 [(ZZ 1 0)] [(P1E 1 [(RSP 1 NB NZ); (RSP 0 NB NZ); (RSP 2 NB NZ)])] [(ZZ 1 2)] [(ZOZ 1 (SZ 3))] true (SZ 3) [(ZOZ 0 (SZ 3))])); (RS 0 (IDecided (SZ 3)) [] (mkO (SB 1 1) (SB 1 1) (SZ 3) 0 [] [] [] [] true (SZ 3) [])); (RS 2 (IDecided (SZ 3)) [] (mkO (SB 1 1) (SB 1 1) (SZ 3) 0 [] [] [] [] true (SZ 3) [])); (RS 1 (IAccepted 1) [] (mkO (SB 1 1) (SB 1 1) (SZ 3) 1 [(ZZ 1 0)] [(P1E 1 [(RSP 1 NB NZ); (RSP 0 NB NZ); (RSP 2 NB NZ)])] [(ZZ 1 3)] [(ZOZ 1 (SZ 3))] true (SZ 3) [(ZOZ 0 (SZ 3))])); (RS 2 (IPropose 1) [] (mkO (SB 1 1) (SB 1 1) (SZ 3) 0 [] [] [] [] true (SZ 3) [(ZOZ 0 (SZ 3))]))]).
Definition case_98 : Z * list rec_step := (3, [(RS 0 (IPropose 2) [(OPrepare 1 1 0); (OPrepare 2 1 0)] (mkO (SB 1 0) NB NZ 1 [(ZZ 1 0)] [(P1E 1 [(RSP 0 NB NZ)])] [(ZZ 1 0)] [(ZOZ 1 (SZ 2))] false NZ [])); (RS 1 (IPrepare 0 1 0) [(OPromise 0 1 0 1 NB NZ)] (mkO (SB 1 0) NB NZ 0 [] [] [] [] false NZ [])); (RS 2 (IPrepare 0 1 0) [(OPromise 0 1 0 2 NB NZ)] (mkO (SB 1 0) NB NZ 0 [] [] [] [] false NZ [])); (RS 0 (IPromise 1 1 NB NZ) [(OAccept 1 1 0 (SZ 2)); (OAccept 2 1 0 (SZ 2))] (mkO (SB 1 0) (SB 1 0) (SZ 2) 1 [(ZZ 1 0)] [(P1E 1 [(RSP 0 NB NZ); (RSP 1 NB NZ)])] [(ZZ 1 1)] [(ZOZ 1 (SZ 2))] false NZ [])); (RS 0 (IPromise 1 2 NB NZ) [] (mkO (SB 1 0) (SB 1 0) (SZ 2) 1 [(ZZ 1 0)] [(P1E 1 [(RSP 0 NB NZ); (RSP 1 NB NZ); (RSP 2 NB NZ)])] [(ZZ 1 1)] [(ZOZ 1 (SZ 2))] false NZ [])); (RS 1 (IAccept 0 1 0 (SZ 2)) [(OAccepted 0 1 0 1)] (mkO (SB 1 0) (SB 1 0) (SZ 2) 0 [] [] [] [] false NZ [])); (RS 2 (IAccept 0 1 0 (SZ 2)) [(OAccepted 0 1 0 2)] (mkO (SB 1 0) (SB 1 0) (SZ 2) 0 [] [] [] [] false NZ [])); (RS 0 (IAccepted 1) [(ODecided 1 (SZ 2)); (ODecided 2 (SZ 2))] (mkO (SB 1 0) (SB 1 0) (SZ 2) 1 [(ZZ 1 0)] [(P1E 1 [(RSP 0 NB NZ); (RSP 1 NB NZ); (RSP 2 NB NZ)])] [(ZZ 1 2)] [(ZOZ 1 (SZ 2))] true (SZ 2) [(ZOZ 0 (SZ 2))])); (RS 0 (IAccepted 1) [] (mkO (SB 1 0) (SB 1 0) (SZ 2) 1 [(ZZ 1 0)] [(P1E 1 [(RSP 0 NB NZ); (RSP 1 NB NZ); (RSP 2 NB NZ)])] [(ZZ 1 3)] [(ZOZ 1 (SZ 2))] true (SZ 2) [(ZOZ 0 (SZ 2))])); (RS 1 (IDecided (SZ 2)) [] (mkO (SB 1 0) (SB 1 0) (SZ 2) 0 [] [] [] [] true (SZ 2) [])); (RS 2 (IDecided (SZ 2)) [] (mkO (SB 1 0) (SB 1 0) (SZ 2) 0 [] [] [] [] true (SZ 2) []))]).
Definition case_99 : Z * list rec_step := (5, [(RS 0 (IPropose 1) [(OPrepare 1 1 0); (OPrepare 2 1 0); (OPrepare 3 1 0); (OPrepare 4 1 0)] (mkO (SB 1 0) NB NZ 1 [(ZZ 1 0)] [(P1E 1 [(RSP 0 NB NZ)])] [(ZZ 1 0)] [(ZOZ 1 (SZ 1))] false NZ [])); (RS 1 (IPrepare 0 1 0) [(OPromise 0 1 0 1 NB NZ)] (mkO (SB 1 0) NB NZ 0 [] [] [] [] false NZ [])); (RS 2 (IPrepare 0 1 0) [(OPromise 0 1 0 2 NB NZ)] (mkO (SB 1 0) NB NZ 0 [] [] [] [] false NZ [])); (RS 0 (IPromise 1 2 NB NZ) [] (mkO (SB 1 0) NB NZ 1 [(ZZ 1 0)] [(P1E 1 [(RSP 0 NB NZ); (RSP 2 NB NZ)])] [(ZZ 1 0)] [(ZOZ 1 (SZ 1))] false NZ [])); (RS 0 (IPromise 1 1 NB NZ) [(OAccept 1 1 0 (SZ 1)); (OAccept 2 1 0 (SZ 1)); (OAccept 3 1 0 (SZ 1)); (OAccept 4 1 0 (SZ 1))] (mkO (SB 1 0) (SB 1 0) (SZ 1) 1 [(ZZ 1 0)] [(P1E 1 [(RSP 0 NB NZ); (RSP 2 NB NZ); (RSP 1 NB NZ)])] [(ZZ 1 1)] [(ZOZ 1 (SZ 1))] false NZ [])); (RS 3 (IPropose 1) [(OPrepare 0 1 3); (OPrepare 1 1 3); (OPrepare 2 1 3); (OPrepare 4 1 3)] (mkO (SB 1 3) NB NZ 1 [(ZZ 1 0)] [(P1E 1 [(RSP 3 NB NZ)])] [(ZZ 1 0)] [(ZOZ 1 (SZ 1))] false NZ [])); (RS 1 (IPrepare 3 1 3) [(OPromise 3 1 3 1 NB NZ)] (mkO (SB 1 3) NB NZ 0 [] [] [] [] false NZ [])); (RS 2 (IPrepare 3 1 3) [(OPromise 3 1 3 2 NB NZ)] (mkO (SB 1 3) NB NZ 0 [] [] [] [] false NZ [])); (RS 4 (IPrepare 3 1 3) [(OPromise 3 1 3 4 NB NZ)] (mkO (SB 1 3) NB NZ 0 [] [] [] [] false NZ [])); (RS 0 (IPrepare 3 1 3) [(OPromise 3 1 3 0 (SB 1 0) (SZ 1))] (mkO (SB 1 3) (SB 1 0) (SZ 1) 1 [(ZZ 1 0)] [(P1E 1 [(RSP 0 NB NZ); (RSP 2 NB NZ); (RSP 1 NB NZ)])] [(ZZ 1 1)] [(ZOZ 1 (SZ 1))] false NZ [])); (RS 3 (IPromise 1 0 (SB 1 0) (SZ 1)) [] (mkO (SB 1 3) NB NZ 1 [(ZZ 1 0)] [(P1E 1 [(RSP 3 NB NZ); (RSP 0 (SB 1 0) (SZ 1))])] [(ZZ 1 0)] [(ZOZ 1 (SZ 1))] false NZ [])); (RS 1 (IAccept 0 1 0 (SZ 1)) [(ONack 0 1 0 1 3)] (mkO (SB 1 3) NB NZ 0 [] [] [] [] false NZ [])); (RS 0 (INack 1 1) [(ORetry 1)] (mkO (SB 1 3) (SB 1 0) (SZ 1) 1 [(ZZ 1 0)] [(P1E 1 [(RSP 0 NB NZ); (RSP 2 NB NZ); (RSP 1 NB NZ)])] [(ZZ 1 1)] [(ZOZ 1 (SZ 1))] false NZ [])); (RS 0 (IRetry 1) [(OPrepare 1 2 0); (OPrepare 2 2 0); (OPrepare 3 2 0); (OPrepare 4 2 0)] (mkO (SB 2 0) (SB 1 0) (SZ 1) 2 [(ZZ 2 0)] [(P1E 1 [(RSP 0 NB NZ); (RSP 2 NB NZ); (RSP 1 NB NZ)]); (P1E 2 [(RSP 0 (SB 1 0) (SZ 1))])] [(ZZ 1 1); (ZZ 2 0)] [(ZOZ 2 (SZ 1))] false NZ [])); (RS 3 (IPrepare 0 2 0) [(OPromise 0 2 0 3 NB NZ)] (mkO (SB 2 0) NB NZ 1 [(ZZ 1 0)] [(P1E 1 [(RSP 3 NB NZ); (RSP 0 (SB 1 0) (SZ 1))])] [(ZZ 1 0)] [(ZOZ 1 (SZ 1))] false NZ [])); (RS 4 (IPrepare 0 2 0) [(OPromise 0 2 0 4 NB NZ)] (mkO (SB 2 0) NB NZ 0 [] [] [] [] false NZ [])); (RS 0 (IPromise 2 3 NB NZ) [] (mkO (SB 2 0) (SB 1 0) (SZ 1) 2 [(ZZ 2 0)] [(P1E 1 [(RSP 0 NB NZ); (RSP 2 NB NZ); (RSP 1 NB NZ)]); (P1E 2 [(RSP 0 (SB 1 0) (SZ 1)); (RSP 3 NB NZ)])] [(ZZ 1 1); (ZZ 2 0)] [(ZOZ 2 (SZ 1))] false NZ [])); (RS 3 (IPromise 1 2 NB NZ) [(OAccept 0 1 3 (SZ 1)); (OAccept 1 1 3 (SZ 1)); (OAccept 2 1 3 (SZ 1)); (OAccept 4 1 3 (SZ 1))] (mkO (SB 2 0) NB NZ 1 [(ZZ 1 0)] [(P1E 1 [(RSP 3 NB NZ); (RSP 0 (SB 1 0) (SZ 1)); (RSP 2 NB NZ)])] [(ZZ 1 0)] [(ZOZ 1 (SZ 1))] false NZ [])); (RS 2 (IAccept 3 1 3 (SZ 1)) [(OAccepted 3 1 3 2)] (mkO (SB 1 3) (SB 1 3) (SZ 1) 0 [] [] [] [] false NZ [])); (RS 1 (IPrepare 0 2 0) [(OPromise 0 2 0 1 NB NZ)] (mkO (SB 2 0) NB NZ 0 [] [] [] [] false NZ [])); (RS 1 (IAccept 3 1 3 (SZ 1)) [(ONack 3 1 3 2 0)] (mkO (SB 2 0) NB NZ 0 [] [] [] [] false NZ [])); (RS 2 (IPrepare 0 2 0) [(OPromise 0 2 0 2 (SB 1 3) (SZ 1))] (mkO (SB 2 0) (SB 1 3) (SZ 1) 0 [] [] [] [] false NZ [])); (RS 4 (IAccept 3 1 3 (SZ 1)) [(ONack 3 1 3 2 0)] (mkO (SB 2 0) NB NZ 0 [] [] [] [] false NZ [])); (RS 3 (INack 1 2) [(ORetry 1)] (mkO (SB 2 0) NB NZ 2 [(ZZ 1 0)] [(P1E 1 [(RSP 3 NB NZ); (RSP 0 (SB 1 0) (SZ 1)); (RSP 2 NB NZ)])] [(ZZ 1 0)] [(ZOZ 1 (SZ 1))] false NZ [])); (RS 0 (IPromise 2 2 (SB 1 3) (SZ 1)) [(OAccept 1 2 0 (SZ 1)); (OAccept 2 2 0 (SZ 1)); (OAccept 3 2 0 (SZ 1)); (OAccept 4 2 0 (SZ 1))] (mkO (SB 2 0) (SB 2 0) (SZ 1) 2 [(ZZ 2 0)] [(P1E 1 [(RSP 0 NB NZ); (RSP 2 NB NZ); (RSP 1 NB NZ)]); (P1E 2 [(RSP 0 (SB 1 0) (SZ 1)); (RSP 3 NB NZ); (RSP 2 (SB 1 3) (SZ 1))])] [(ZZ 1 1); (ZZ 2 1)] [(ZOZ 2 (SZ 1))] false NZ [])); (RS 1 (IAccept 0 2 0 (SZ 1)) [(OAccepted 0 2 0 1)] (mkO (SB 2 0) (SB 2 0) (SZ 1) 0 [] [] [] [] false NZ [])); (RS 3 (IRetry 1) [(OPrepare 0 3 3); (OPrepare 1 3 3); (OPrepare 2 3 3); (OPrepare 4 3 3)] (mkO (SB 3 3) NB NZ 3 [(ZZ 3 0)] [(P1E 1 [(RSP 3 NB NZ); (RSP 0 (SB 1 0) (SZ 1)); (RSP 2 NB NZ)]); (P1E 3 [(RSP 3 NB NZ)])] [(ZZ 1 0); (ZZ 3 0)] [(ZOZ 3 (SZ 1))] false NZ [])); (RS 0 (IPrepare 3 3 3) [(OPromise 3 3 3 0 (SB 2 0) (SZ 1))] (mkO (SB 3 3) (SB 2 0) (SZ 1) 2 [(ZZ 2 0)] [(P1E 1 [(RSP 0 NB NZ); (RSP 2 NB NZ); (RSP 1 NB NZ)]); (P1E 2 [(RSP 0 (SB 1 0) (SZ 1)); (RSP 3 NB NZ); (RSP 2 (SB 1 3) (SZ 1))])] [(ZZ 1 1); (ZZ 2 1)] [(ZOZ 2 (SZ 1))] false NZ [])); (RS 3 (IPromise 3 0 (SB 2 0) (SZ 1)) [] (mkO (SB 3 3) NB NZ 3 [(ZZ 3 0)] [(P1E 1 [(RSP 3 NB NZ); (RSP 0 (SB 1 0) (SZ 1)); (RSP 2 NB NZ)]); (P1E 3 [(RSP 3 NB NZ); (RSP 0 (SB 2 0) (SZ 1))])] [(ZZ 1 0); (ZZ 3 0)] [(ZOZ 3 (SZ 1))] false NZ [])); (RS 2 (IAccept 0 2 0 (SZ 1)) [(OAccepted 0 2 0 2)] (mkO (SB 2 0) (SB 2 0) (SZ 1) 0 [] [] [] [] false NZ [])); (RS 0 (IAccepted 2) [] (mkO (SB 3 3) (SB 2 0) (SZ 1) 2 [(ZZ 2 0)] [(P1E 1 [(RSP 0 NB NZ); (RSP 2 NB NZ); (RSP 1 NB NZ)]); (P1E 2 [(RSP 0 (SB 1 0) (SZ 1)); (RSP 3 NB NZ); (RSP 2 (SB 1 3) (SZ 1))])] [(ZZ 1 1); (ZZ 2 2)] [(ZOZ 2 (SZ 1))] false NZ [])); (RS 1 (IPrepare 3 3 3) [(OPromise 3 3 3 1 (SB 2 0) (SZ 1))] (mkO (SB 3 3) (SB 2 0) (SZ 1) 0 [] [] [] [] false NZ [])); (RS 2 (IPrepare 3 3 3) [(OPromise 3 3 3 2 (SB 2 0) (SZ 1))] (mkO (SB 3 3) (SB 2 0) (SZ 1) 0 [] [] [] [] false NZ [])); (RS 3 (IPromise 3 1 (SB 2 0) (SZ 1)) [(OAccept 0 3 3 (SZ 1)); (OAccept 1 3 3 (SZ 1)); (OAccept 2 3 3 (SZ 1)); (OAccept 4 3 3 (SZ 1))] (mkO (SB 3 3) (SB 3 3) (SZ 1) 3 [(ZZ 3 0)] [(P1E 1 [(RSP 3 NB NZ); (RSP 0 (SB 1 0) (SZ 1)); (RSP 2 NB NZ)]); (P1E 3 [(RSP 3 NB NZ); (RSP 0 (SB 2 0) (SZ 1)); (RSP 1 (SB 2 0) (SZ 1))])] [(ZZ 1 0); (ZZ 3 1)] [(ZOZ 3 (SZ 1))] false NZ [])); (RS 2 (IAccept 3 3 3 (SZ 1)) [(OAccepted 3 3 3 2)] (mkO (SB 3 3) (SB 3 3) (SZ 1) 0 [] [] [] [] false NZ [])); (RS 1 (IAccept 3 3 3 (SZ 1)) [(OAccepted 3 3 3 1)] (mkO (SB 3 3) (SB 3 3) (SZ 1) 0 [] [] [] [] false NZ [])); (RS 4 (IAccept 0 2 0 (SZ 1)) [(OAccepted 0 2 0 4)] (mkO (SB 2 0) (SB 2 0) (SZ 1) 0 [] [] [] [] false NZ [])); (RS 4 (IPrepare 3 3 3) [(OPromise 3 3 3 4 (SB 2 0) (SZ 1))] (mkO (SB 3 3) (SB 2 0) (SZ 1) 0 [] [] [] [] false NZ [])); (RS 3 (IPromise 3 4 (SB 2 0) (SZ 1)) [] (mkO (SB 3 3) (SB 3 3) (SZ 1) 3 [(ZZ 3 0)] [(P1E 1 [(RSP 3 NB NZ); (RSP 0 (SB 1 0) (SZ 1)); (RSP 2 NB NZ)]); (P1E 3 [(RSP 3 NB NZ); (RSP 0 (SB 2 0) (SZ 1)); (RSP 1 (SB 2 0) (SZ 1)); (RSP 4 (SB 2 0) (SZ 1))])] [(ZZ 1 0); (ZZ 3 1)] [(ZOZ 3 (SZ 1))] false NZ [])); (RS 4 (IAccept 3 3 3 (SZ 1)) [(OAccepted 3 3 3 4)] (mkO (SB 3 3) (SB 3 3) (SZ 1) 0 [] [] [] [] false NZ [])); (RS 3 (IAccepted 3) [] (mkO (SB 3 3) (SB 3 3) (SZ 1) 3 [(ZZ 3 0)] [(P1E 1 [(RSP 3 NB NZ); (RSP 0 (SB 1 0) (SZ 1)); (RSP 2 NB NZ)]); (P1E 3 [(RSP 3 NB NZ); (RSP 0 (SB 2 0) (SZ 1)); (RSP 1 (SB 2 0) (SZ 1)); (RSP 4 (SB 2 0) (SZ 1))])] [(ZZ 1 0); (ZZ 3 2)] [(ZOZ 3 (SZ 1))] false NZ [])); (RS 3 (IPrepare 0 1 0) [(ONack 0 1 0 3 3)] (mkO (SB 3 3) (SB 3 3) (SZ 1) 3 [(ZZ 3 0)] [(P1E 1 [(RSP 3 NB NZ); (RSP 0 (SB 1 0) (SZ 1)); (RSP 2 NB NZ)]); (P1E 3 [(RSP 3 NB NZ); (RSP 0 (SB 2 0) (SZ 1)); (RSP 1 (SB 2 0) (SZ 1)); (RSP 4 (SB 2 0) (SZ 1))])] [(ZZ 1 0); (ZZ 3 2)] [(ZOZ 3 (SZ 1))] false NZ [])); (RS 4 (IPrepare 0 1 0) [(ONack 0 1 0 3 3)] (mkO (SB 3 3) (SB 3 3) (SZ 1) 0 [] [] [] [] false NZ [])); (RS 0 (INack 1 3) [] (mkO (SB 3 3) (SB 2 0) (SZ 1) 3 [(ZZ 2 0)] [(P1E 1 [(RSP 0 NB NZ); (RSP 2 NB NZ); (RSP 1 NB NZ)]); (P1E 2 [(RSP 0 (SB 1 0) (SZ 1)); (RSP 3 NB NZ); (RSP 2 (SB 1 3) (SZ 1))])] [(ZZ 1 1); (ZZ 2 2)] [(ZOZ 2 (SZ 1))] false NZ [])); (RS 0 (INack 1 3) [] (mkO (SB 3 3) (SB 2 0) (SZ 1) 3 [(ZZ 2 0)] [(P1E 1 [(RSP 0 NB NZ); (RSP 2 NB NZ); (RSP 1 NB NZ)]); (P1E 2 [(RSP 0 (SB 1 0) (SZ 1)); (RSP 3 NB NZ); (RSP 2 (SB 1 3) (SZ 1))])] [(ZZ 1 1); (ZZ 2 2)] [(ZOZ 2 (SZ 1))] false NZ [])); (RS 2 (IAccept 0 1 0 (SZ 1)) [(ONack 0 1 0 3 3)] (mkO (SB 3 3) (SB 3 3) (SZ 1) 0 [] [] [] [] false NZ [])); (RS 3 (IAccept 0 1 0 (SZ 1)) [(ONack 0 1 0 3 3)] (mkO (SB 3 3) (SB 3 3) (SZ 1) 3 [(ZZ 3 0)] [(P1E 1 [(RSP 3 NB NZ); (RSP 0 (SB 1 0) (SZ 1)); (RSP 2 NB NZ)]); (P1E 3 [(RSP 3 NB NZ); (RSP 0 (SB 2 0) (SZ 1)); (RSP 1 (SB 2 0) (SZ 1)); (RSP 4 (SB 2 0) (SZ 1))])] [(ZZ 1 0); (ZZ 3 2)] [(ZOZ 3 (SZ 1))] false NZ [])); (RS 4 (IAccept 0 1 0 (SZ 1)) [(ONack 0 1 0 3 3)] (mkO (SB 3 3) (SB 3 3) (SZ 1) 0 [] [] [] [] false NZ [])); (RS 3 (IPromise 1 1 NB NZ) [] (mkO (SB 3 3) (SB 3 3) (SZ 1) 3 [(ZZ 3 0)] [(P1E 1 [(RSP 3 NB NZ); (RSP 0 (SB 1 0) (SZ 1)); (RSP 2 NB NZ); (RSP 1 NB NZ)]); (P1E 3 [(RSP 3 NB NZ); (RSP 0 (SB 2 0) (SZ 1)); (RSP 1 (SB 2 0) (SZ 1)); (RSP 4 (SB 2 0) (SZ 1))])] [(ZZ 1 0); (ZZ 3 2)] [(ZOZ 3 (SZ 1))] false NZ [])); (RS 3 (IPromise 1 4 NB NZ) [] (mkO (SB 3 3) (SB 3 3) (SZ 1) 3 [(ZZ 3 0)] [(P1E 1 [(RSP 3 NB NZ); (RSP 0 (SB 1 0) (SZ 1)); (RSP 2 NB NZ); (RSP 1 NB NZ); (RSP 4 NB NZ)]); (P1E 3 [(RSP 3 NB NZ); (RSP 0 (SB 2 0) (SZ 1)); (RSP 1 (SB 2 0) (SZ 1)); (RSP 4 (SB 2 0) (SZ 1))])] [(ZZ 1 0); (ZZ 3 2)] [(ZOZ 3 (SZ 1))] false NZ [])); (RS 0 (INack 1 3) [] (mkO (SB 3 3) (SB 2 0) (SZ 1) 3 [(ZZ 2 0)] [(P1E 1 [(RSP 0 NB NZ); (RSP 2 NB NZ); (RSP 1 NB NZ)]); (P1E 2 [(RSP 0 (SB 1 0) (SZ 1)); (RSP 3 NB NZ); (RSP 2 (SB 1 3) (SZ 1))])] [(ZZ 1 1); (ZZ 2 2)] [(ZOZ 2 (SZ 1))] false NZ [])); (RS 0 (IPromise 2 4 NB NZ) [] (mkO (SB 3 3) (SB 2 0) (SZ 1) 3 [(ZZ 2 0)] [(P1E 1 [(RSP 0 NB NZ); (RSP 2 NB NZ); (RSP 1 NB NZ)]); (P1E 2 [(RSP 0 (SB 1 0) (SZ 1)); (RSP 3 NB NZ); (RSP 2 (SB 1 3) (SZ 1)); (RSP 4 NB NZ)])] [(ZZ 1 1); (ZZ 2 2)] [(ZOZ 2 (SZ 1))] false NZ [])); (RS 0 (IAccept 3 1 3 (SZ 1)) [(ONack 3 1 3 3 3)] (mkO (SB 3 3) (SB 2 0) (SZ 1) 3 [(ZZ 2 0)] [(P1E 1 [(RSP 0 NB NZ); (RSP 2 NB NZ); (RSP 1 NB NZ)]); (P1E 2 [(RSP 0 (SB 1 0) (SZ 1)); (RSP 3 NB NZ); (RSP 2 (SB 1 3) (SZ 1)); (RSP 4 NB NZ)])] [(ZZ 1 1); (ZZ 2 2)] [(ZOZ 2 (SZ 1))] false NZ [])); (RS 3 (IAccepted 1) [] (mkO (SB 3 3) (SB 3 3) (SZ 1) 3 [(ZZ 3 0)] [(P1E 1 [(RSP 3 NB NZ); (RSP 0 (SB 1 0) (SZ 1)); (RSP 2 NB NZ); (RSP 1 NB NZ); (RSP 4 NB NZ)]); (P1E 3 [(RSP 3 NB NZ); (RSP 0 (SB 2 0) (SZ 1)); (RSP 1 (SB 2 0) (SZ 1)); (RSP 4 (SB 2 0) (SZ 1))])] [(ZZ 1 1); (ZZ 3 2)] [(ZOZ 3 (SZ 1))] false NZ [])); (RS 3 (INack 1 3) [] (mkO (SB 3 3) (SB 3 3) (SZ 1) 3 [(ZZ 3 0)] [(P1E 1 [(RSP 3 NB NZ); (RSP 0 (SB 1 0) (SZ 1)); (RSP 2 NB NZ); (RSP 1 NB NZ); (RSP 4 NB NZ)]); (P1E 3 [(RSP 3 NB NZ); (RSP 0 (SB 2 0) (SZ 1)); (RSP 1 (SB 2 0) (SZ 1)); (RSP 4 (SB 2 0) (SZ 1))])] [(ZZ 1 1); (ZZ 3 2)] [(ZOZ 3 (SZ 1))] false NZ [])); (RS 0 (IPromise 2 1 NB NZ) [] (mkO (SB 3 3) (SB 2 0) (SZ 1) 3 [(ZZ 2 0)] [(P1E 1 [(RSP 0 NB NZ); (RSP 2 NB NZ); (RSP 1 NB NZ)]); (P1E 2 [(RSP 0 (SB 1 0) (SZ 1)); (RSP 3 NB NZ); (RSP 2 (SB 1 3) (SZ 1)); (RSP 4 NB NZ); (RSP 1 NB NZ)])] [(ZZ 1 1); (ZZ 2 2)] [(ZOZ 2 (SZ 1))] false NZ [])); (RS 3 (INack 1 2) [] (mkO (SB 3 3) (SB 3 3) (SZ 1) 3 [(ZZ 3 0)] [(P1E 1 [(RSP 3 NB NZ); (RSP 0 (SB 1 0) (SZ 1)); (RSP 2 NB NZ); (RSP 1 NB NZ); (RSP 4 NB NZ)]); (P1E 3 [(RSP 3 NB NZ); (RSP 0 (SB 2 0) (SZ 1)); (RSP 1 (SB 2 0) (SZ 1)); (RSP 4 (SB 2 0) (SZ 1))])] [(ZZ 1 1); (ZZ 3 2)] [(ZOZ 3 (SZ 1))] false NZ [])); (RS 3 (IAccept 0 2 0 (SZ 1)) [(ONack 0 2 0 3 3)] (mkO (SB 3 3) (SB 3 3) (SZ 1) 3 [(ZZ 3 0)] [(P1E 1 [(RSP 3 NB NZ); (RSP 0 (SB 1 0) (SZ 1)); (RSP 2 NB NZ); (RSP 1 NB NZ); (RSP 4 NB NZ)]); (P1E 3 [(RSP 3 NB NZ); (RSP 0 (SB 2 0) (SZ 1)); (RSP 1 (SB 2 0) (SZ 1)); (RSP 4 (SB 2 0) (SZ 1))])] [(ZZ 1 1); (ZZ 3 2)] [(ZOZ 3 (SZ 1))] false NZ [])); (RS 0 (IAccepted 2) [(ODecided 1 (SZ 1)); (ODecided 2 (SZ 1)); (ODecided 3 (SZ 1)); (ODecided 4 (SZ 1))] (mkO (SB 3 3) (SB 2 0) (SZ 1) 3 [(ZZ 2 0)] [(P1E 1 [(RSP 0 NB NZ); (RSP 2 NB NZ); (RSP 1 NB NZ)]); (P1E 2 [(RSP 0 (SB 1 0) (SZ 1)); (RSP 3 NB NZ); (RSP 2 (SB 1 3) (SZ 1)); (RSP 4 NB NZ); (RSP 1 NB NZ)])] [(ZZ 1 1); (ZZ 2 3)] [(ZOZ 2 (SZ 1))] true (SZ 1) [(ZOZ 0 (SZ 1))])); (RS 3 (IDecided (SZ 1)) [] (mkO (SB 3 3) (SB 3 3) (SZ 1) 3 [(ZZ 3 0)] [(P1E 1 [(RSP 3 NB NZ); (RSP 0 (SB 1 0) (SZ 1)); (RSP 2 NB NZ); (RSP 1 NB NZ); (RSP 4 NB NZ)]); (P1E 3 [(RSP 3 NB NZ); (RSP 0 (SB 2 0) (SZ 1)); (RSP 1 (SB 2 0) (SZ 1)); (RSP 4 (SB 2 0) (SZ 1))])] [(ZZ 1 1); (ZZ 3 2)] [(ZOZ 3 (SZ 1))] true (SZ 1) [])); (RS 4 (IDecided (SZ 1)) [] (mkO (SB 3 3) (SB 3 3) (SZ 1) 0 [] [] [] [] true (SZ 1) [])); (RS 0 (INack 2 3) [(ORetry 2)] (mkO (SB 3 3) (SB 2 0) (SZ 1) 3 [(ZZ 2 0)] [(P1E 1 [(RSP 0 NB NZ); (RSP 2 NB NZ); (RSP 1 NB NZ)]); (P1E 2 [(RSP 0 (SB 1 0) (SZ 1)); (RSP 3 NB NZ); (RSP 2 (SB 1 3) (SZ 1)); (RSP 4 NB NZ); (RSP 1 NB NZ)])] [(ZZ 1 1); (ZZ 2 3)] [(ZOZ 2 (SZ 1))] true (SZ 1) [(ZOZ 0 (SZ 1))])); (RS 1 (IDecided (SZ 1)) [] (mkO (SB 3 3) (SB 3 3) (SZ 1) 0 [] [] [] [] true (SZ 1) [])); (RS 3 (IPromise 3 2 (SB 2 0) (SZ 1)) [] (mkO (SB 3 3) (SB 3 3) (SZ 1) 3 [(ZZ 3 0)] [(P1E 1 [(RSP 3 NB NZ); (RSP 0 (SB 1 0) (SZ 1)); (RSP 2 NB NZ); (RSP 1 NB NZ); (RSP 4 NB NZ)]); (P1E 3 [(RSP 3 NB NZ); (RSP 0 (SB 2 0) (SZ 1)); (RSP 1 (SB 2 0) (SZ 1)); (RSP 4 (SB 2 0) (SZ 1)); (RSP 2 (SB 2 0) (SZ 1))])] [(ZZ 1 1); (ZZ 3 2)] [(ZOZ 3 (SZ 1))] true (SZ 1) [])); (RS 0 (IAccept 3 3 3 (SZ 1)) [(OAccepted 3 3 3 0)] (mkO (SB 3 3) (SB 3 3) (SZ 1) 3 [(ZZ 2 0)] [(P1E 1 [(RSP 0 NB NZ); (RSP 2 NB NZ); (RSP 1 NB NZ)]); (P1E 2 [(RSP 0 (SB 1 0) (SZ 1)); (RSP 3 NB NZ); (RSP 2 (SB 1 3) (SZ 1)); (RSP 4 NB NZ); (RSP 1 NB NZ)])] [(ZZ 1 1); (ZZ 2 3)] [(ZOZ 2 (SZ 1))] true (SZ 1) [(ZOZ 0 (SZ 1))])); (RS 3 (IAccepted 3) [] (mkO (SB 3 3) (SB 3 3) (SZ 1) 3 [(ZZ 3 0)] [(P1E 1 [(RSP 3 NB NZ); (RSP 0 (SB 1 0) (SZ 1)); (RSP 2 NB NZ); (RSP 1 NB NZ); (RSP 4 NB NZ)]); (P1E 3 [(RSP 3 NB NZ); (RSP 0 (SB 2 0) (SZ 1)); (RSP 1 (SB 2 0) (SZ 1)); (RSP 4 (SB 2 0) (SZ 1)); (RSP 2 (SB 2 0) (SZ 1))])] [(ZZ 1 1); (ZZ 3 3)] [(ZOZ 3 (SZ 1))] true (SZ 1) [])); (RS 0 (IRetry 2) [] (mkO (SB 3 3) (SB 3 3) (SZ 1) 3 [(ZZ 2 0)] [(P1E 1 [(RSP 0 NB NZ); (RSP 2 NB NZ); (RSP 1 NB NZ)]); (P1E 2 [(RSP 0 (SB 1 0) (SZ 1)); (RSP 3 NB NZ); (RSP 2 (SB 1 3) (SZ 1)); (RSP 4 NB NZ); (RSP 1 NB NZ)])] [(ZZ 1 1); (ZZ 2 3)] [(ZOZ 2 (SZ 1))] true (SZ 1) [(ZOZ 0 (SZ 1))])); (RS 3 (IAccepted 3) [] (mkO (SB 3 3) (SB 3 3) (SZ 1) 3 [(ZZ 3 0)] [(P1E 1 [(RSP 3 NB NZ); (RSP 0 (SB 1 0) (SZ 1)); (RSP 2 NB NZ); (RSP 1 NB NZ); (RSP 4 NB NZ)]); (P1E 3 [(RSP 3 NB NZ); (RSP 0 (SB 2 0) (SZ 1)); (RSP 1 (SB 2 0) (SZ 1)); (RSP 4 (SB 2 0) (SZ 1)); (RSP 2 (SB 2 0) (SZ 1))])] [(ZZ 1 1); (ZZ 3 4)] [(ZOZ 3 (SZ 1))] true (SZ 1) [])); (RS 3 (IAccepted 3) [] (mkO (SB 3 3) (SB 3 3) (SZ 1) 3 [(ZZ 3 0)] [(P1E 1 [(RSP 3 NB NZ); (RSP 0 (SB 1 0) (SZ 1)); (RSP 2 NB NZ); (RSP 1 NB NZ); (RSP 4 NB NZ)]); (P1E 3 [(RSP 3 NB NZ); (RSP 0 (SB 2 0) (SZ 1)); (RSP 1 (SB 2 0) (SZ 1)); (RSP 4 (SB 2 0) (SZ 1)); (RSP 2 (SB 2 0) (SZ 1))])] [(ZZ 1 1); (ZZ 3 5)] [(ZOZ 3 (SZ 1))] true (SZ 1) [])); (RS 0 (IAccepted 2) [] (mkO (SB 3 3) (SB 3 3) (SZ 1) 3 [(ZZ 2 0)] [(P1E 1 [(RSP 0 NB NZ); (RSP 2 NB NZ); (RSP 1 NB NZ)]); (P1E 2 [(RSP 0 (SB 1 0) (SZ 1)); (RSP 3 NB NZ); (RSP 2 (SB 1 3) (SZ 1)); (RSP 4 NB NZ); (RSP 1 NB NZ)])] [(ZZ 1 1); (ZZ 2 4)] [(ZOZ 2 (SZ 1))] true (SZ 1) [(ZOZ 0 (SZ 1))])); (RS 2 (IDecided (SZ 1)) [] (mkO (SB 3 3) (SB 3 3) (SZ 1) 0 [] [] [] [] true (SZ 1) [])); (RS 0 (INack 1 3) [] (mkO (SB 3 3) (SB 3 3) (SZ 1) 3 [(ZZ 2 0)] [(P1E 1 [(RSP 0 NB NZ); (RSP 2 NB NZ); (RSP 1 NB NZ)]); (P1E 2 [(RSP 0 (SB 1 0) (SZ 1)); (RSP 3 NB NZ); (RSP 2 (SB 1 3) (SZ 1)); (RSP 4 NB NZ); (RSP 1 NB NZ)])] [(ZZ 1 1); (ZZ 2 4)] [(ZOZ 2 (SZ 1))] true (SZ 1) [(ZOZ 0 (SZ 1))])); (RS 0 (INack 1 3) [] (mkO (SB 3 3) (SB 3 3) (SZ 1) 3 [(ZZ 2 0)] [(P1E 1 [(RSP 0 NB NZ); (RSP 2 NB NZ); (RSP 1 NB NZ)]); (P1E 2 [(RSP 0 (SB 1 0) (SZ 1)); (RSP 3 NB NZ); (RSP 2 (SB 1 3) (SZ 1)); (RSP 4 NB NZ); (RSP 1 NB NZ)])] [(ZZ 1 1); (ZZ 2 4)] [(ZOZ 2 (SZ 1))] true (SZ 1) [(ZOZ 0 (SZ 1))]))]).
Definition cases : list (Z * list rec_step) := [case_0; case_1; case_2; case_3; case_4; case_5; case_6; case_7; case_8; case_9; case_10; case_11; case_12; case_13; case_14; case_15; case_16; case_17; case_18; case_19; case_20; case_21; case_22; case_23; case_24; case_25; case_26; case_27; case_28; case_29; case_30; case_31; case_32; case_33; case_34; case_35; case_36; case_37; case_38; case_39; case_40; case_41; case_42; case_43; case_44; case_45; case_46; case_47; case_48; case_49; case_50; case_51; case_52; case_53; case_54; case_55; case_56; case_57; case_58; case_59; case_60; case_61; case_62; case_63; case_64; case_65; case_66; case_67; case_68; case_69; case_70; case_71; case_72; case_73; case_74; case_75; case_76; case_77; case_78; case_79; case_80; case_81; case_82; case_83; case_84; case_85; case_86; case_87; case_88; case_89; case_90; case_91; case_92; case_93; case_94; case_95; case_96; case_97; case_98; case_99].
Eval vm_compute in (mismatches ok_paxos cases).
