From HS Require Import Base.Prelude Base.Lists C09.Model.
From Coq Require Import Permutation Sorting.Sorted.
Local Open Scope Z_scope.
Definition wid (w : rwaiter) : Z := fst (fst w).
Definition wamt (w : rwaiter) : Z := snd (fst w).
Definition wgrant (w : rwaiter) : Z * Z := (wid w, wamt w).

Lemma wgrant_ids ws : map fst (map wgrant ws) = map wid ws.
Proof. apply map_map. Qed.
Lemma wgrant_amts ws : map snd (map wgrant ws) = map wamt ws.
Proof. apply map_map. Qed.

Lemma zsum_app a b : zsum (a ++ b) = zsum a + zsum b.
Proof. induction a; cbn; lia. Qed.

Lemma zsum_pos l : Forall (fun x => 0 < x) l -> 0 <= zsum l.
Proof. induction 1; cbn; lia. Qed.

Lemma zsum_perm a b : Permutation a b -> zsum a = zsum b.
Proof. induction 1; cbn; lia. Qed.




(** Ids are creation indices: below the next index [n] and pairwise distinct. *)
Definition ids_ok (n : Z) (l : list Z) : Prop := Forall (fun i => i < n) l /\ NoDup l.

Lemma ids_ok_perm n l l' : Permutation l l' -> ids_ok n l -> ids_ok n l'.
Proof. intros P [F N]. split; [eapply Permutation_Forall|eapply Permutation_NoDup]; eauto. Qed.

Lemma ids_ok_fresh n l : ids_ok n l -> ids_ok (n + 1) (l ++ [n]).
Proof.
  intros [F N]. apply (ids_ok_perm _ (n :: l)); [apply Permutation_cons_append|]. split.
  - constructor; [lia|]. eapply Forall_impl; [|exact F]. cbn; intros; lia.
  - constructor; [|exact N]. intros H. rewrite Forall_forall in F. specialize (F _ H). lia.
Qed.

Lemma ids_ok_tail n x l : ids_ok n (x :: l) -> ids_ok n l.
Proof. intros [F N]. inversion F; inversion N. split; assumption. Qed.

Lemma zremove_perm c l : In c l -> Permutation l (c :: zremove c l).
Proof.
  induction l as [|i r IH]; cbn; [tauto|]. destruct (Z.eqb_spec i c) as [->|Hn]; [reflexivity|].
  intros [H|H]; [contradiction|]. etransitivity; [apply perm_skip, IH, H|apply perm_swap].
Qed.

Lemma held_remove_perm gid h a : held_find gid h = Some a -> Permutation h ((gid, a) :: held_remove gid h).
Proof.
  induction h as [|[i b] r IH]; cbn; [discriminate|]. destruct (Z.eqb_spec i gid) as [->|_]; intros H.
  - injection H as ->. reflexivity.
  - etransitivity; [apply perm_skip, IH, H|apply perm_swap].
Qed.

Lemma held_remove_ids gid h a l : held_find gid h = Some a ->
  Permutation (l ++ map fst h) (gid :: l ++ map fst (held_remove gid h)).
Proof.
  intros F. etransitivity; [|symmetry; apply Permutation_middle].
  apply Permutation_app_head, (Permutation_map fst (held_remove_perm _ _ _ F)).
Qed.

Lemma held_find_none gid h : ~ In gid (map fst h) -> held_find gid h = None.
Proof.
  induction h as [|[i a] r IH]; cbn; auto. intros H.
  destruct (Z.eqb_spec i gid); [tauto|]. apply IH; tauto.
Qed.

Definition head_blocked (a : Z) (ws : list rwaiter) : Prop :=
  match ws with [] => True | w :: _ => a < wamt w end.

Lemma head_blocked_le a a' ws : a' <= a -> head_blocked a ws -> head_blocked a' ws.
Proof. destruct ws; cbn; [auto|lia]. Qed.

(** The wake loop takes a prefix of the queue, in order, and stops at a
    waiter that does not fit. *)
Lemma q_wake_spec ws : forall a, let '(a', pre, ws') := q_wake a ws in
  ws = pre ++ ws' /\ a' = a - zsum (map wamt pre) /\ (0 <= a -> 0 <= a') /\ head_blocked a' ws'.
Proof.
  induction ws as [|[[id amt] enq] rest IH]; intros a; cbn.
  - repeat split; auto; lia.
  - destruct (a >=? amt) eqn:E.
    + specialize (IH (a - amt)). destruct (q_wake (a - amt) rest) as [[a1 pre] ws1].
      destruct IH as (-> & -> & Hlo & Hh). cbn. repeat split; auto; lia.
    + cbn. repeat split; auto; lia.
Qed.

Lemma r_wake_q now ws : forall a, exists wt,
  r_wake now a ws = (fst (fst (q_wake a ws)), snd (q_wake a ws), map wgrant (snd (fst (q_wake a ws))), wt).
Proof.
  induction ws as [|[[id amt] enq] rest IH]; intros a; cbn; [eexists; reflexivity|].
  destruct (a >=? amt); [|eexists; reflexivity].
  destruct (IH (a - amt)) as [wt ->]. destruct (q_wake (a - amt) rest) as [[a1 pre] ws1].
  eexists; reflexivity.
Qed.

(** A successful [_do_release], on the fields the properties speak of. *)
Record woke (s : rstate) (amt : Z) (pre : list rwaiter) (s' : rstate) : Prop := {
  wk_fit : r_avail s + amt <= r_cap s;
  wk_cap : r_cap s' = r_cap s;
  wk_next : r_next s' = r_next s;
  wk_waiters : r_waiters s = pre ++ r_waiters s';
  wk_held : r_held s' = r_held s ++ map wgrant pre;
  wk_avail : r_avail s' = r_avail s + amt - zsum (map wamt pre);
  wk_lo : 0 <= r_avail s + amt -> 0 <= r_avail s';
  wk_head : head_blocked (r_avail s') (r_waiters s');
}.

Lemma r_do_release_spec s now amt :
  (r_cap s < r_avail s + amt /\ r_do_release s now amt = (s, OErr)) \/
  exists pre s', r_do_release s now amt = (s', OReleased (map wid pre)) /\ woke s amt pre s'.
Proof.
  unfold r_do_release. destruct (r_avail s + amt >? r_cap s) eqn:E; [left; split; [lia|reflexivity]|right].
  destruct (r_wake_q now (r_waiters s) (r_avail s + amt)) as [wt ->].
  pose proof (q_wake_spec (r_waiters s) (r_avail s + amt)) as Q.
  destruct (q_wake (r_avail s + amt) (r_waiters s)) as [[a' pre] ws']. destruct Q as (Hws & -> & Hlo & Hh).
  exists pre. eexists. split; [cbn; rewrite wgrant_ids; reflexivity|].
  constructor; cbn; auto. lia.
Qed.


(** ** Invariant of every reachable state, over the values of the fields
    available, waiters, held, next. *)
Record rbase (cap a : Z) (ws : list rwaiter) (h : list (Z * Z)) (n : Z) : Prop := {
  rb_avail : 0 <= a <= cap;
  rb_wamt : Forall (fun w => 0 < wamt w) ws;
  rb_hamt : Forall (fun g => 0 < snd g) h;
  rb_ids : ids_ok n (map wid ws ++ map fst h);
  rb_sorted : StronglySorted Z.lt (map wid ws);
}.

Definition rinv (cap : Z) (s : rstate) : Prop :=
  r_cap s = cap /\ rbase cap (r_avail s) (r_waiters s) (r_held s) (r_next s) /\
  head_blocked (r_avail s) (r_waiters s).

Definition force_pos (o : rop) : Prop := match o with RForce _ a => 0 < a | _ => True end.

Lemma rinv_init cap : 0 < cap -> rinv cap (r_init cap).
Proof. intros H. repeat split; cbn; try lia; constructor. Qed.

Lemma rbase_grant cap a ws h n amt : rbase cap a ws h n -> 0 < amt <= a ->
  rbase cap (a - amt) ws (h ++ [(n, amt)]) (n + 1).
Proof.
  intros [Ha Hw Hh Hi Hs] Hamt. constructor; auto.
  - lia.
  - apply Forall_app; split; [exact Hh|]. constructor; [exact (proj1 Hamt)|constructor].
  - rewrite map_app, app_assoc. apply ids_ok_fresh, Hi.
Qed.

Lemma rbase_queue cap a ws h n amt now : rbase cap a ws h n -> 0 < amt ->
  rbase cap a (ws ++ [(n, amt, now)]) h (n + 1).
Proof.
  intros [Ha Hw Hh Hi Hs] Hamt. constructor; auto; rewrite ?map_app.
  - apply Forall_app; split; [exact Hw|]. constructor; [exact Hamt|constructor].
  - eapply ids_ok_perm; [|apply ids_ok_fresh, Hi].
    rewrite <- !app_assoc. apply Permutation_app_head, Permutation_app_comm.
  - apply ss_snoc; [exact Hs|]. destruct Hi as [Hi _]. apply Forall_app in Hi. apply Hi.
Qed.

Lemma rbase_unhold cap a ws h n gid amt : held_find gid h = Some amt -> rbase cap a ws h n ->
  rbase cap a ws (held_remove gid h) n /\ 0 < amt.
Proof.
  intros F [Ha Hw Hh Hi Hs].
  apply (Permutation_Forall (held_remove_perm _ _ _ F)) in Hh. inversion Hh; subst.
  split; [constructor; auto|assumption].
  eapply ids_ok_tail, ids_ok_perm; [apply (held_remove_ids _ _ _ _ F)|exact Hi].
Qed.

Lemma rinv_woke cap s amt pre s' : r_cap s = cap ->
  rbase cap (r_avail s) (r_waiters s) (r_held s) (r_next s) -> 0 <= amt -> woke s amt pre s' -> rinv cap s'.
Proof.
  intros Hc [Ha Hw Hh Hi Hs] Hamt []. rewrite wk_waiters0 in *. apply Forall_app in Hw as [Hw1 Hw2].
  assert (0 <= zsum (map wamt pre)) by (apply zsum_pos, Forall_map, Hw1).
  split; [congruence|]. split; [|exact wk_head0]. rewrite wk_held0, wk_next0. constructor.
  - lia.
  - exact Hw2.
  - apply Forall_app; split; [exact Hh|]. apply Forall_map. exact Hw1.
  - eapply ids_ok_perm; [|exact Hi]. rewrite !map_app, wgrant_ids, <- app_assoc. apply Permutation_app_rot.
  - rewrite map_app in Hs. apply ss_app in Hs. apply Hs.
Qed.

Lemma rinv_do_release cap s now amt : rinv cap s -> 0 <= amt -> rinv cap (fst (r_do_release s now amt)).
Proof.
  intros I Hamt. destruct (r_do_release_spec s now amt) as [[_ ->]|(pre & s' & -> & W)]; [exact I|].
  destruct I as (Hc & B & _). eapply rinv_woke; eauto.
Qed.

Lemma rinv_step cap s o : rinv cap s -> force_pos o -> rinv cap (fst (r_step s o)).
Proof.
  intros I Hf. pose proof I as (Hc & B & Hh). destruct o as [now amt|now amt|now gid|now amt]; cbn.
  - destruct (amt <=? 0) eqn:E1; [exact I|]. destruct (amt >? r_cap s) eqn:E2; [exact I|].
    destruct (r_avail s >=? amt) eqn:E3; (split; [exact Hc|split]); cbn.
    + apply rbase_grant; [exact B|lia].
    + apply (head_blocked_le (r_avail s)); [lia|exact Hh].
    + apply rbase_queue; [exact B|lia].
    + destruct (r_waiters s); [cbn; lia|exact Hh].
  - destruct (amt <=? 0) eqn:E1; [exact I|]. destruct (amt >? r_cap s) eqn:E2; [exact I|].
    destruct (r_avail s >=? amt) eqn:E3; [|exact I]. (split; [exact Hc|split]); cbn.
    + apply rbase_grant; [exact B|lia].
    + apply (head_blocked_le (r_avail s)); [lia|exact Hh].
  - destruct (held_find gid (r_held s)) as [amt|] eqn:F; [|exact I].
    destruct (rbase_unhold _ _ _ _ _ _ _ F B) as [B1 Hamt].
    apply rinv_do_release; [exact (conj Hc (conj B1 Hh))|lia].
  - apply rinv_do_release; [exact I|cbn in Hf; lia].
Qed.

Lemma rinv_run cap ops : forall s, rinv cap s -> Forall force_pos ops -> rinv cap (r_run s ops).
Proof.
  induction ops as [|o r IH]; cbn; intros s I F; auto.
  inversion F; subst. apply IH; auto. apply rinv_step; auto.
Qed.

Lemma rinv_reach cap ops : 0 < cap -> Forall force_pos ops -> rinv cap (r_run (r_init cap) ops).
Proof. intros Hc F. apply rinv_run; [apply rinv_init, Hc|exact F]. Qed.

(** ** Conservation (legitimate callers only: no [RForce]) *)
Definition conserved (cap : Z) (s : rstate) : Prop := r_avail s + zsum (map snd (r_held s)) = cap.

Lemma conserved_do_release cap s now amt : r_cap s = cap ->
  r_avail s + amt + zsum (map snd (r_held s)) = cap -> 0 <= zsum (map snd (r_held s)) ->
  conserved cap (fst (r_do_release s now amt)).
Proof.
  intros Hc C P. destruct (r_do_release_spec s now amt) as [[? _]|(pre & s' & -> & [])]; [lia|].
  unfold conserved; cbn. rewrite wk_held0, map_app, zsum_app, wgrant_amts. lia.
Qed.

Lemma conserved_step cap s o : rinv cap s -> conserved cap s -> is_force o = false ->
  conserved cap (fst (r_step s o)).
Proof.
  intros (Hc & B & _) C Hf. unfold conserved in *.
  destruct o as [now amt|now amt|now gid|now amt]; cbn in *; try discriminate.
  - destruct (amt <=? 0); [auto|]. destruct (amt >? r_cap s); [auto|].
    destruct (r_avail s >=? amt); cbn; auto. rewrite map_app, zsum_app; cbn. lia.
  - destruct (amt <=? 0); [auto|]. destruct (amt >? r_cap s); [auto|].
    destruct (r_avail s >=? amt); cbn; auto. rewrite map_app, zsum_app; cbn. lia.
  - destruct (held_find gid (r_held s)) as [amt|] eqn:F; [|auto].
    rewrite (zsum_perm _ _ (Permutation_map snd (held_remove_perm _ _ _ F))) in C.
    destruct (rbase_unhold _ _ _ _ _ _ _ F B) as [[] _].
    apply conserved_do_release; cbn in *; [exact Hc|lia|apply zsum_pos, Forall_map; assumption].
Qed.

Lemma conserved_run cap ops : forall s, rinv cap s -> conserved cap s ->
  existsb is_force ops = false -> rinv cap (r_run s ops) /\ conserved cap (r_run s ops).
Proof.
  induction ops as [|o r IH]; cbn; intros s I C F; auto.
  apply orb_false_iff in F as [F1 F2]. apply IH; [apply rinv_step| |exact F2].
  - exact I.
  - destruct o; [exact Logic.I..|discriminate].
  - apply conserved_step; assumption.
Qed.

(** Strict FIFO wake, in any state: a release grants exactly a prefix of the
    queue and stops only at a waiter that does not fit. *)
Lemma do_release_prefix s now amt s' woken : r_do_release s now amt = (s', OReleased woken) ->
  (exists pre, r_waiters s = pre ++ r_waiters s' /\ woken = map wid pre) /\
  head_blocked (r_avail s') (r_waiters s').
Proof.
  destruct (r_do_release_spec s now amt) as [[_ ->]|(pre & s2 & -> & [])]; intros H; [discriminate|].
  injection H as <- <-. split; [exists pre; auto|assumption].
Qed.

Lemma step_release_spec s o s' woken :
  r_step s o = (s', OReleased woken) ->
  (exists pre, r_waiters s = pre ++ r_waiters s' /\ woken = map wid pre) /\
  head_blocked (r_avail s') (r_waiters s').
Proof.
  destruct o as [now amt|now amt|now gid|now amt]; cbn.
  - destruct (amt <=? 0); [discriminate|]. destruct (amt >? r_cap s); [discriminate|].
    destruct (r_avail s >=? amt); discriminate.
  - destruct (amt <=? 0); [discriminate|]. destruct (amt >? r_cap s); [discriminate|].
    destruct (r_avail s >=? amt); discriminate.
  - destruct (held_find gid (r_held s)); [|discriminate]. exact (do_release_prefix _ _ _ _ _).
  - apply do_release_prefix.
Qed.

(** ** Each acquire is granted at most once: the ids granted so far ([past])
    and those still waiting stay distinct. *)
Definition granted_of (o : rout) : list Z :=
  match o with OGranted i => [i] | OReleased w => w | _ => [] end.
Definition grant_log (s : rstate) (ops : list rop) : list Z := concat (map granted_of (r_outs s ops)).

Lemma do_release_granted s now amt past : ids_ok (r_next s) (past ++ map wid (r_waiters s)) ->
  ids_ok (r_next (fst (r_do_release s now amt)))
    (past ++ granted_of (snd (r_do_release s now amt)) ++ map wid (r_waiters (fst (r_do_release s now amt)))).
Proof.
  intros H. destruct (r_do_release_spec s now amt) as [[_ ->]|(pre & s' & -> & [])]; [exact H|].
  cbn [fst snd granted_of]. rewrite wk_next0, <- map_app, <- wk_waiters0. exact H.
Qed.

Lemma step_granted s o past : ids_ok (r_next s) (past ++ map wid (r_waiters s)) ->
  ids_ok (r_next (fst (r_step s o)))
    (past ++ granted_of (snd (r_step s o)) ++ map wid (r_waiters (fst (r_step s o)))).
Proof.
  intros H.
  assert (G : ids_ok (r_next s + 1) (past ++ r_next s :: map wid (r_waiters s))).
  { eapply ids_ok_perm; [|apply ids_ok_fresh, H].
    rewrite <- app_assoc. apply Permutation_app_head. symmetry. apply Permutation_cons_append. }
  destruct o as [now amt|now amt|now gid|now amt]; cbn [r_step].
  - destruct (amt <=? 0); [exact H|]. destruct (amt >? r_cap s); [exact H|].
    destruct (r_avail s >=? amt); cbn; [exact G|].
    rewrite map_app, app_assoc. apply ids_ok_fresh, H.
  - destruct (amt <=? 0); [exact H|]. destruct (amt >? r_cap s); [exact H|].
    destruct (r_avail s >=? amt); [exact G|exact H].
  - destruct (held_find gid (r_held s)); [|exact H]. apply do_release_granted, H.
  - apply do_release_granted, H.
Qed.

Lemma grant_log_nodup ops : forall s past, ids_ok (r_next s) (past ++ map wid (r_waiters s)) ->
  NoDup (past ++ grant_log s ops).
Proof.
  induction ops as [|o r IH]; intros s past H; unfold grant_log; cbn.
  - rewrite app_nil_r. apply (proj1 (NoDup_app_iff _ _) (proj2 H)).
  - fold (grant_log (fst (r_step s o)) r). rewrite app_assoc. apply IH.
    rewrite <- app_assoc. apply step_granted, H.
Qed.

(** ** Releasing a released grant changes nothing: its id is neither held nor
    among the waiters that the first release turned into grants. *)
Lemma do_release_held s now amt gid : ~ In gid (map wid (r_waiters s) ++ map fst (r_held s)) ->
  held_find gid (r_held (fst (r_do_release s now amt))) = None.
Proof.
  intros H. apply held_find_none.
  destruct (r_do_release_spec s now amt) as [[_ ->]|(pre & s' & -> & [])]; cbn [fst].
  - intros G. apply H, in_or_app; auto.
  - rewrite wk_held0, map_app, wgrant_ids, in_app_iff. rewrite wk_waiters0, map_app, !in_app_iff in H.
    intros [G|G]; apply H; [right|left; left]; exact G.
Qed.

Lemma release_idempotent s now now' gid : NoDup (map wid (r_waiters s) ++ map fst (r_held s)) ->
  let s1 := fst (r_step s (RRelease now gid)) in
  r_step s1 (RRelease now' gid) = (s1, ONoop).
Proof.
  intros N. cbn. destruct (held_find gid (r_held s)) as [amt|] eqn:F; [|cbn; rewrite F; reflexivity].
  rewrite do_release_held; [reflexivity|]. cbn.
  apply (Permutation_NoDup (held_remove_ids _ _ _ _ F)) in N. inversion N; assumption.
Qed.

(** ** Arrival order across *all* acquirers is NOT respected (refuted in
    Props.v): a later acquire that fits is granted while an earlier, larger one
    is still queued. *)
Definition no_overtaking : Prop :=
  forall cap ops now amt i, 0 < cap -> Forall force_pos ops ->
    snd (r_step (r_run (r_init cap) ops) (RAcquire now amt)) = OGranted i ->
    r_waiters (r_run (r_init cap) ops) = [].

(** ... but an acquire that needs at least as much as the head waiter never
    overtakes (in particular: unit amounts). *)
Lemma no_overtaking_partial s now amt w rest i : head_blocked (r_avail s) (r_waiters s) ->
  r_waiters s = w :: rest -> wamt w <= amt -> snd (r_step s (RAcquire now amt)) <> OGranted i.
Proof.
  intros Hh Hw Hle. rewrite Hw in Hh. cbn in *.
  destruct (amt <=? 0); [discriminate|]. destruct (amt >? r_cap s); [discriminate|].
  destruct (r_avail s >=? amt) eqn:E; [lia|discriminate].
Qed.
