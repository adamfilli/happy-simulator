(** C19 — DeadLetterQueue driven directly (capacity and retention period):
    what one [add_message] can remove, the capacity bound, and the ledger
    received = held + discarded + popped. *)
From HS Require Import Base.Prelude C19.DlqModel.
Local Open Scope Z_scope.

Lemma dl_zlen_cons {A} (x : A) l : dl_zlen (x :: l) = dl_zlen l + 1.
Proof. unfold dl_zlen. cbn [length]. lia. Qed.

Lemma dl_zlen_app {A} (a b : list A) : dl_zlen (a ++ b) = dl_zlen a + dl_zlen b.
Proof. unfold dl_zlen. rewrite app_length. lia. Qed.

Lemma dl_zlen_tl {A} (l : list A) : l <> [] -> dl_zlen (tl l) = dl_zlen l - 1.
Proof. destruct l; [congruence|]. intros _. rewrite dl_zlen_cons. cbn [tl]. lia. Qed.

Lemma skipn_S_tl {A} j : forall l : list A, skipn (S j) l = tl (skipn j l).
Proof.
  induction j as [|j IH]; intros l.
  - destruct l; reflexivity.
  - destruct l as [|x l]; [reflexivity|]. change (skipn (S (S j)) (x :: l)) with (skipn (S j) l).
    change (skipn (S j) (x :: l)) with (skipn j l). apply IH.
Qed.

(** The list [add_message] works on after [_cleanup_expired] (no retention period: no sweep). *)
Definition swept (ret : option Z) (now : Z) (l : list (Z * Z)) : list (Z * Z) :=
  match ret with None => l | Some r => dl_sweep now r l end.

Lemma dl_sweep_spec now ret l :
  exists j, dl_sweep now ret l = skipn j l
  /\ Forall (fun mt => now - snd mt > ret) (firstn j l)
  /\ match skipn j l with [] => True | (m, t) :: _ => now - t <= ret end.
Proof.
  induction l as [|[m t] r IH]; [exists 0%nat; cbn; auto|].
  cbn [dl_sweep]. destruct (now - t >? ret) eqn:E.
  - destruct IH as (j & E1 & E2 & E3). exists (S j). cbn [skipn firstn]. repeat split; auto. constructor; [cbn; lia|exact E2].
  - exists 0%nat. cbn. repeat split; auto. lia.
Qed.

Lemma swept_spec ret now l :
  exists j, swept ret now l = skipn j l
  /\ Forall (fun mt => match ret with Some r => now - snd mt > r | None => False end) (firstn j l)
  /\ match skipn j l, ret with (_, t) :: _, Some r => now - t <= r | _, _ => True end.
Proof.
  destruct ret as [r|]; cbn [swept].
  - destruct (dl_sweep_spec now r l) as (j & E1 & E2 & E3). exists j. split; [exact E1|]. split; [exact E2|].
    destruct (skipn j l) as [|[? ?] ?]; exact E3.
  - exists 0%nat. cbn [skipn firstn]. split; [reflexivity|]. split; [constructor|]. destruct l as [|[? ?] ?]; exact I.
Qed.

Lemma swept_len ret now l : dl_zlen (swept ret now l) <= dl_zlen l.
Proof. destruct (swept_spec ret now l) as (j & -> & _). unfold dl_zlen. rewrite skipn_length. lia. Qed.

Lemma dl_step_cap c d o : 1 <= c -> d_cap d = Some c -> dl_zlen (d_msgs d) <= c ->
  d_cap (fst (dl_step d o)) = Some c /\ dl_zlen (d_msgs (fst (dl_step d o))) <= c.
Proof.
  intros Hc Hd Hl. destruct o as [now m| |]; cbn [dl_step].
  - cbn [fst]. unfold dl_add. cbn [d_cap d_msgs]. split; [exact Hd|].
    fold (swept (d_ret d) now (d_msgs d)). pose proof (swept_len (d_ret d) now (d_msgs d)) as H1.
    set (l1 := swept (d_ret d) now (d_msgs d)) in *.
    rewrite Hd. unfold dl_full. rewrite dl_zlen_app. change (dl_zlen [(m, now)]) with 1.
    destruct (c <=? dl_zlen l1) eqn:E; cbn [andb]; [|lia].
    destruct l1 as [|x l1']; [change (dl_zlen []) with 0 in E; lia|]. cbn [negb tl]. rewrite dl_zlen_cons in H1. lia.
  - destruct (d_msgs d) as [|[m t] r] eqn:E; cbn [fst d_cap d_msgs]; [split; [exact Hd|rewrite E; exact Hl]|].
    split; [exact Hd|]. rewrite dl_zlen_cons in Hl. lia.
  - cbn [fst d_cap d_msgs]. split; [exact Hd|]. change (dl_zlen []) with 0. lia.
Qed.

Lemma dl_run_cap c ops : 1 <= c -> forall d,
  d_cap d = Some c -> dl_zlen (d_msgs d) <= c -> dl_zlen (d_msgs (dl_run d ops)) <= c.
Proof.
  intros Hc. induction ops as [|o r IH]; intros d Hd Hl; [exact Hl|]. cbn [dl_run].
  destruct (dl_step_cap c d o Hc Hd Hl) as [A B]. apply IH; assumption.
Qed.

Fixpoint dl_taken (d : dlq) (ops : list dlop) : Z :=
  match ops with
  | [] => 0
  | o :: r => (match o with
               | DAdd _ _ => 0
               | DPop => match d_msgs d with [] => 0 | _ => 1 end
               | DClear => 0
               end) + dl_taken (fst (dl_step d o)) r
  end.

Lemma dl_step_ledger d o :
  let d' := fst (dl_step d o) in
  d_recv d' - dl_zlen (d_msgs d') - d_disc d' =
  d_recv d - dl_zlen (d_msgs d) - d_disc d
  + match o with DAdd _ _ => 0 | DPop => match d_msgs d with [] => 0 | _ => 1 end | DClear => 0 end.
Proof.
  destruct o as [now m| |]; cbn [dl_step fst].
  - unfold dl_add. cbn [d_recv d_msgs d_disc]. fold (swept (d_ret d) now (d_msgs d)).
    set (l1 := swept (d_ret d) now (d_msgs d)). rewrite dl_zlen_app. change (dl_zlen [(m, now)]) with 1.
    destruct (dl_full (d_cap d) l1 && negb match l1 with [] => true | _ => false end) eqn:E; [|lia].
    destruct l1 as [|x l1']; [rewrite Bool.andb_false_r in E; discriminate|]. cbn [tl]. rewrite dl_zlen_cons. lia.
  - destruct (d_msgs d) as [|[m t] r] eqn:E; cbn [fst d_recv d_msgs d_disc]; [rewrite E; lia|]. rewrite dl_zlen_cons. lia.
  - cbn [d_recv d_msgs d_disc]. change (dl_zlen []) with 0. lia.
Qed.

Lemma dl_run_ledger ops : forall d,
  let d' := dl_run d ops in
  d_recv d' - dl_zlen (d_msgs d') - d_disc d' = d_recv d - dl_zlen (d_msgs d) - d_disc d + dl_taken d ops.
Proof.
  induction ops as [|o r IH]; intros d; cbn [dl_run dl_taken]; [lia|]. cbn zeta in *.
  rewrite IH. pose proof (dl_step_ledger d o) as S. cbn zeta in S. lia.
Qed.

Example dlq_example :
  map fst (d_msgs (dl_run (MkDlq (Some 2) (Some 10) [] 0 0) [DAdd 1 100; DAdd 9 101; DAdd 12 102])) = [101; 102].
Proof. vm_compute. reflexivity. Qed.
