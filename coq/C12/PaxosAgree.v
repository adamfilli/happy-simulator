(** C12 — single-decree Paxos, cross-ballot safety on the faithful model:
    any two CHOSEN values are equal in every world that satisfies [ainv], and
    a step keeps [ainv] when the lists of phase-1 responses still have distinct
    senders afterwards (the network does not duplicate messages: PaxosFull).
    The argument is the classical one: the acceptor's promise and
    accept rules, the proposer's choice of the value of the highest accepted
    ballot among a quorum of promises, and quorum intersection. *)
From HS Require Import Base.Prelude Base.Lists C12.Model C12.PaxosNode C12.PaxosSys.
From Coq Require Import FinFun.
Local Open Scope Z_scope.

Definition zrange0 (n : Z) : list Z := map Z.of_nat (seq 0 (Z.to_nat n)).

Lemma zrange0_In n x : In x (zrange0 n) <-> 0 <= x < n.
Proof.
  unfold zrange0. rewrite in_map_iff. split.
  - intros [k [<- K]]. apply in_seq in K. lia.
  - intros H. exists (Z.to_nat x). split; [lia|]. apply in_seq. lia.
Qed.

Lemma zrange0_NoDup n : NoDup (zrange0 n).
Proof. apply Injective_map_NoDup; [intros a b; lia|apply seq_NoDup]. Qed.

Lemma zrange0_len n : length (zrange0 n) = Z.to_nat n.
Proof. unfold zrange0. rewrite map_length, seq_length. auto. Qed.

Lemma pigeon n (l1 l2 : list Z) : 0 <= n ->
  NoDup l1 -> NoDup l2 -> (forall x, In x l1 -> 0 <= x < n) -> (forall x, In x l2 -> 0 <= x < n) ->
  n < Z.of_nat (length l1) + Z.of_nat (length l2) -> exists x, In x l1 /\ In x l2.
Proof.
  intros N0 N1 N2 R1 R2 L.
  apply (NoDup_incl_meet (zrange0 n)); [exact N1|exact N2| | |rewrite zrange0_len; lia];
    intros x H; apply zrange0_In; auto.
Qed.

Definition acc_same (s s' : pstate) : Prop := acc_b s' = acc_b s /\ acc_v s' = acc_v s.

Lemma step_acc {c s i s' outs} : step c s i = (s', outs) ->
  acc_same s s' \/
  exists b, acc_b s' = Some b /\ may_promise s b = true /\
    ((exists src, i = IAccept src (fst b) (snd b) (acc_v s') /\ is_peer c src = true) \/
     (snd b = me c /\ forall d, In d (peers c) -> In (OAccept d (fst b) (me c) (acc_v s')) outs)).
Proof.
  intros ST. apply step_graph_eq in ST. destruct ST as [| | | |src bn bnode v Hp Hm| | |bn from ab av rs v s2 dec F Hq M Ev E2 Ed| | |];
    subst; try (left; split; reflexivity).
  - right. exists (bn, bnode). cbn. repeat split; auto. left. exists src. auto.
  - unfold acc_same. cbn. change (may_promise (set_p1 s _) ?b) with (may_promise s b). destruct (may_promise s (bn, me c)) eqn:E; [|left; split; reflexivity].
    right. exists (bn, me c). cbn. rewrite E. split; [reflexivity|]. split; [reflexivity|]. right. split; [reflexivity|].
    intros d Hd. apply in_or_app. left. apply in_map_iff. eauto.
Qed.

Lemma step_p1_resp {c s i s' outs k rs' r} : step c s i = (s', outs) ->
  afind k (p1 s') = Some rs' -> In r rs' ->
  (exists rs, afind k (p1 s) = Some rs /\ In r rs) \/
  (exists f ab av, i = IPromise k f ab av /\ r = (f, ab, av)) \/
  (r = (me c, acc_b s, acc_v s) /\ promised s' = Some (k, me c) /\ acc_same s s').
Proof.
  intros ST. assert (G : forall bn from ab av rs, afind bn (p1 s) = Some rs ->
            afind k (aset bn (rs ++ [(from, ab, av)]) (p1 s)) = Some rs' -> In r rs' ->
            (exists rs, afind k (p1 s) = Some rs /\ In r rs) \/
            (exists f ab0 av0, IPromise bn from ab av = IPromise k f ab0 av0 /\ r = (f, ab0, av0))).
  { intros bn from ab av rs F F' Hr. rewrite afind_aset in F'. destruct (k =? bn) eqn:E; [|left; eauto].
    assert (k = bn) by lia. subst. inversion F'; subst. apply in_app_or in Hr as [Hr|[<-|[]]]; [left|right]; eauto. }
  apply step_graph_eq in ST. destruct ST as [| |i n fs pv fid Hd Ho Hn| | | |bn from ab av rs F Hg|bn from ab av rs v s2 dec F Hq M Ev E2 Ed
      | | |]; subst; cbn [p1 set_p1 set_p2 phase2_acc decided_if opened];
    intros F' Hr; try (left; eauto; fail); try (destruct (G _ _ _ _ _ F F' Hr); auto; fail).
  rewrite afind_aset in F'. destruct (k =? n) eqn:E; [|left; eauto]. assert (k = n) by lia. subst k.
  inversion F'; subst rs'. unfold opened. destruct (may_promise s (n, me c)); [|contradiction].
  destruct Hr as [<-|[]]. right; right. repeat split; reflexivity.
Qed.

Lemma others_In n i j : In j (others n i) <-> 0 <= j < n /\ j <> i.
Proof. unfold others. fold (zrange0 n). rewrite filter_In, zrange0_In, negb_true_iff, Z.eqb_neq. reflexivity. Qed.

Lemma others_NoDup n i : NoDup (others n i).
Proof. apply NoDup_filter, zrange0_NoDup. Qed.

(** [i] and the others are the nodes [0, n), each once *)
Lemma others_length n i : 0 <= i < n -> Z.of_nat (length (others n i)) = n - 1.
Proof.
  intros R.
  assert (ND : NoDup (i :: others n i)).
  { constructor; [|apply others_NoDup]. intros H. apply others_In in H. lia. }
  assert (I1 : incl (i :: others n i) (zrange0 n)).
  { intros x [<-|H]; apply zrange0_In; [exact R|]. apply others_In in H. lia. }
  assert (I2 : incl (zrange0 n) (i :: others n i)).
  { intros x H. apply zrange0_In in H. destruct (Z.eq_dec x i); [left; auto|right; apply others_In; lia]. }
  pose proof (NoDup_incl_length ND I1) as L1. pose proof (NoDup_incl_length (zrange0_NoDup n) I2) as L2.
  rewrite zrange0_len in *. cbn [length] in *. lia.
Qed.

Lemma quorum_cfg n i : 0 <= i < n -> quorum (cfg_of n i) = n / 2 + 1.
Proof. intros R. unfold quorum. cbn [peers cfg_of]. rewrite others_length by auto. f_equal. f_equal. lia. Qed.

Lemma step_dst {c s i s' outs o} : step c s i = (s', outs) -> In o outs -> is_retry o = false -> In (dst_of o) (peers c).
Proof.
  intros ST H R. pose proof (step_emits ST H) as E.
  destruct o; cbn in *; try discriminate; try (apply E); apply is_peer_In; [apply E..|].
  destruct E as [v E]. apply E.
Qed.

Section Agree.
  Variable n : Z.
  Hypothesis n2 : 2 <= n.

  Definition voted (w : sys) (a : Z) (b : ballot) (v : option Z) : Prop := In (a, b, v) (votes w).
  Definition prop (w : sys) (b : ballot) (v : option Z) : Prop :=
    exists src d, In (src, OAccept d (fst b) (snd b) v) (sent w).
  Definition leftb (w : sys) (a : Z) (c : ballot) : Prop :=
    exists p, promised (nodes w a) = Some p /\ bal_ltb c p = true.
  Definition isq (Q : list Z) : Prop :=
    NoDup Q /\ (forall a, In a Q -> 0 <= a < n) /\ n / 2 + 1 <= Z.of_nat (length Q).
  Definition chosen (w : sys) (b : ballot) (v : option Z) : Prop :=
    exists Q, isq Q /\ forall a, In a Q -> voted w a b v.

  (** acceptor [a] promised ballot [b] while its accepted (ballot, value) was (ab, av) *)
  Definition pfact (w : sys) (a : Z) (b : ballot) (ab : option ballot) (av : option Z) : Prop :=
    obal_leb (Some b) (promised (nodes w a)) = true /\
    (forall b' v', voted w a b' v' -> bal_ltb b' b = true -> exists b0, ab = Some b0 /\ bal_leb b' b0 = true) /\
    (forall b0, ab = Some b0 -> voted w a b0 av).

  (** the hypothesis of [ainv_step]: phase-1 response lists have distinct senders *)
  Definition distinct_responders (w : sys) : Prop :=
    forall p k rs, afind k (p1 (nodes w p)) = Some rs -> NoDup (map (fun r : resp => fst (fst r)) rs).

  Record ainv (w : sys) : Prop := {
    a_u : uinv n w;
    a_net : forall x, In x (net w) -> In x (sent w);
    a_noretry : forall src m, In (src, m) (sent w) -> is_retry m = false /\ 0 <= dst_of m < n /\ 0 <= src < n;
    a_tm : forall i b, In (i, b) (timers w) -> 0 <= i < n;
    a_vprop : forall a b v, voted w a b v -> prop w b v;
    a_vmax : forall a b v, voted w a b v -> exists b', acc_b (nodes w a) = Some b' /\ bal_leb b b' = true;
    a_acc : forall a b, acc_b (nodes w a) = Some b -> voted w a b (acc_v (nodes w a));
    a_prep : forall src d k bn, In (src, OPrepare d k bn) (sent w) -> src = bn;
    a_pmsg : forall src d k bn f ab av, In (src, OPromise d k bn f ab av) (sent w) ->
               d = bn /\ pfact w f (k, bn) ab av /\ 0 <= f < n;
    a_resp : forall p k rs f ab av, afind k (p1 (nodes w p)) = Some rs -> In (f, ab, av) rs ->
               pfact w f (k, p) ab av /\ 0 <= f < n;
    a_safe : forall b v, prop w b v -> forall c v1 Q, bal_ltb c b = true -> v1 <> v -> isq Q ->
               exists a, In a Q /\ leftb w a c /\ ~ voted w a c v1;
  }.

  Lemma ainv_init : ainv sys_init.
  Proof.
    split; cbn; try (intros; contradiction); try (intros; discriminate).
    - apply uinv_init.
    - intros b v [src [d []]].
  Qed.

  Lemma others_nonempty i : 0 <= i < n -> exists d, In d (others n i).
  Proof.
    intros R. destruct (Z.eq_dec i 0).
    - exists 1. apply others_In; lia.
    - exists 0. apply others_In; lia.
  Qed.
End Agree.

(** quorum intersection: a majority [Q] and a quorum of responses with distinct
    senders have a node in common *)
Lemma quorum_meets_responses n Q (rs : list resp) : 0 <= n -> isq n Q ->
  NoDup (map (fun r : resp => fst (fst r)) rs) -> (forall f ab av, In (f, ab, av) rs -> 0 <= f < n) ->
  Z.of_nat (length rs) = n / 2 + 1 -> exists N ab av, In N Q /\ In (N, ab, av) rs.
Proof.
  intros N0 [NDQ [RGQ LNQ]] ND RG LEN.
  destruct (pigeon n Q (map (fun r : resp => fst (fst r)) rs)) as [N [H1 H2]]; auto.
  - intros x Hx. apply in_map_iff in Hx as [[[f ab] av] [<- Hr]]. exact (RG f ab av Hr).
  - rewrite map_length. dlia.
  - apply in_map_iff in H2 as [[[f ab] av] [<- H2]]. eauto.
Qed.

Lemma delivered_sent {n w k src m} : ainv n w -> nth_error (net w) k = Some (src, m) -> In (src, m) (sent w).
Proof. intros AI E. exact (a_net n w AI _ (nth_error_In _ _ E)). Qed.

Lemma origin_node {n w i inp net' tm' pr'} : ainv n w -> origin n w i inp net' tm' pr' -> 0 <= i < n.
Proof.
  intros AI [v R|k b E|k src m E <-].
  - exact R.
  - exact (a_tm n w AI _ _ (nth_error_In _ _ E)).
  - apply (delivered_sent AI), (a_noretry n w AI) in E. apply E.
Qed.

Section Handler.
  Variable n : Z.
  Hypothesis n2 : 2 <= n.
  Variables (w : sys) (i : Z) (inp : pin) (net' : list (Z * pout)) (tm' : list (Z * Z)) (pr' : list Z).
  Variables (s' : pstate) (outs : list pout) (w' : sys).
  Hypothesis AI : ainv n w.
  Hypothesis O : origin n w i inp net' tm' pr'.
  Hypothesis HW : handles n w i inp net' s' outs w'.

  Lemma prop_mono b v : prop w b v -> prop w' b v.
  Proof. intros [src [d H]]. exists src, d. apply (h_sent_In HW). auto. Qed.

  Lemma voted_step a b v :
    voted w' a b v <-> voted w a b v \/ (a = i /\ acc_b s' = Some b /\ acc_v s' = v).
  Proof.
    unfold voted. rewrite (h_votes HW), in_app_iff. destruct (acc_b s') as [b0|]; cbn.
    - split.
      + intros [H|[H|[]]]; [left; exact H|]. right. injection H as <- <- <-. auto.
      + intros [H|[-> [Eb <-]]]; [left; exact H|]. right. left. injection Eb as ->. reflexivity.
    - split; [intros [H|[]]; auto|]. intros [H|[_ [X _]]]; [auto|discriminate].
  Qed.

  Lemma promised_mono j : obal_leb (promised (nodes w j)) (promised (nodes w' j)) = true.
  Proof.
    destruct (Z.eq_dec j i) as [->|N]; [|rewrite (h_node_other HW) by auto; apply obal_leb_refl].
    rewrite (h_node_same HW). pose proof (step_promise_monotone (cfg_of n i) (nodes w i) inp) as P.
    rewrite (h_step HW) in P. exact P.
  Qed.

  Lemma new_vote a b v : voted w' a b v ->
    voted w a b v \/ (a = i /\ acc_b s' = Some b /\ may_promise (nodes w i) b = true /\ prop w' b v).
  Proof.
    intros H. apply voted_step in H as [H|[-> [Eb Ev]]]; [auto|].
    destruct (step_acc (h_step HW)) as [[S1 S2]|[b0 [Eb0 [MP SRC]]]].
    - left. rewrite S1 in Eb. rewrite S2 in Ev. subst v. exact (a_acc n w AI _ _ Eb).
    - rewrite Eb in Eb0. inversion Eb0; subst b0. right. repeat split; auto.
      destruct SRC as [[src [EI PEER]]|[SB OUT]].
      + (* accepted an Accept message, which had been sent *)
        pose proof (origin_nth O) as OI. rewrite EI in OI. destruct OI as [kk [OI _]].
        apply (delivered_sent AI) in OI.
        apply prop_mono. exists src, i. rewrite Ev in OI. exact OI.
      + (* the proposer accepted its own ballot: Accept messages went out *)
        destruct (others_nonempty n n2 i (origin_node AI O)) as [d Hd]. specialize (OUT d Hd).
        exists i, d. apply (h_sent_In HW). right. apply In_msgs_of. rewrite SB, <- Ev. auto.
  Qed.

  Lemma pfact_stable f b ab av : pfact w f b ab av -> pfact w' f b ab av.
  Proof.
    intros [P1 [P2 P3]]. split; [|split].
    - exact (obal_leb_trans _ _ _ P1 (promised_mono f)).
    - intros b' v' V L. destruct (new_vote _ _ _ V) as [V0|[-> [_ [MP _]]]]; [eauto|].
      (* a new vote of [f] is at or above its promise, hence not below [b] *)
      exfalso. rewrite may_promise_eq in MP. pose proof (obal_leb_trans _ _ _ P1 MP) as X. cbn in X.
      rewrite (bal_ltb_not_leb _ _ L) in X. discriminate.
    - intros b0 Eb. apply voted_step. auto.
  Qed.

  Lemma pfact_own b : acc_same (nodes w i) s' -> promised s' = Some b ->
    pfact w' i b (acc_b (nodes w i)) (acc_v (nodes w i)).
  Proof.
    intros [S1 S2] PS. split; [|split].
    - rewrite (h_node_same HW), PS. cbn. apply bal_leb_refl.
    - intros b' v' V L. assert (V0 : voted w i b' v').
      { apply voted_step in V as [V|[_ [Eb Ev]]]; auto. rewrite S1 in Eb. rewrite S2 in Ev. subst v'.
        exact (a_acc n w AI _ _ Eb). }
      exact (a_vmax n w AI _ _ _ V0).
    - intros b0 Eb. apply voted_step. left. exact (a_acc n w AI _ _ Eb).
  Qed.

  Lemma resp_origin {p k rs f ab av} : afind k (p1 (nodes w' p)) = Some rs -> In (f, ab, av) rs ->
    (pfact w f (k, p) ab av /\ 0 <= f < n) \/
    (p = i /\ f = i /\ ab = acc_b (nodes w i) /\ av = acc_v (nodes w i) /\
     promised s' = Some (k, i) /\ acc_same (nodes w i) s').
  Proof.
    intros F Hr. destruct (Z.eq_dec p i) as [->|N]; [|rewrite (h_node_other HW) in F by auto; left; exact (a_resp n w AI _ _ _ _ _ _ F Hr)].
    rewrite (h_node_same HW) in F.
    destruct (step_p1_resp (h_step HW) F Hr) as [[rs0 [F0 I0]]|[[f0 [ab0 [av0 [EI ER]]]]|[ER [PS SAME]]]].
    - left. exact (a_resp n w AI _ _ _ _ _ _ F0 I0).
    - left. inversion ER; subst f0 ab0 av0. pose proof (origin_nth O) as OI. rewrite EI in OI.
      destruct OI as (kk & src & bnode & Hm & _). apply (delivered_sent AI), (a_pmsg n w AI) in Hm.
      destruct Hm as [<- Hm]. exact Hm.
    - right. inversion ER. repeat split; auto; apply SAME.
  Qed.

  Lemma resp_step {p k rs f ab av} : afind k (p1 (nodes w' p)) = Some rs -> In (f, ab, av) rs ->
    pfact w' f (k, p) ab av /\ 0 <= f < n.
  Proof.
    intros F Hr. destruct (resp_origin F Hr) as [[PF R]|[-> [-> [-> [-> [PS SAME]]]]]].
    - split; [apply pfact_stable; exact PF|exact R].
    - split; [apply pfact_own; assumption|exact (origin_node AI O)].
  Qed.

  Lemma resp_voted {p k rs f h x} : afind k (p1 (nodes w' p)) = Some rs -> In (f, Some h, x) rs -> voted w f h x.
  Proof.
    intros F Hr. destruct (resp_origin F Hr) as [[[_ [_ P3]] _]|[_ [-> [Eb [-> _]]]]].
    - apply P3. reflexivity.
    - symmetry in Eb. exact (a_acc n w AI _ _ Eb).
  Qed.

  Hypothesis Wtimers :
    timers w' = tm' ++ flat_map (fun o => match o with ORetry b => [(i, b)] | _ => [] end) outs.

  Lemma noretry_step src m : In (src, m) (sent w') -> is_retry m = false /\ 0 <= dst_of m < n /\ 0 <= src < n.
  Proof.
    intros H. apply (h_sent_In HW) in H as [H|H]; [exact (a_noretry n w AI _ _ H)|].
    apply In_msgs_of in H as [-> [Ho R]]. split; [exact R|]. split; [|exact (origin_node AI O)].
    pose proof (step_dst (h_step HW) Ho R) as SD.
    apply others_In in SD. lia.
  Qed.

  Lemma tm_step j b : In (j, b) (timers w') -> 0 <= j < n.
  Proof.
    rewrite Wtimers, in_app_iff. intros [H|H]; [exact (a_tm n w AI _ _ (origin_timers O _ H))|].
    apply in_flat_map in H as [o [_ H]]. destruct o; try contradiction. destruct H as [H|[]].
    inversion H. subst j. exact (origin_node AI O).
  Qed.

  Lemma vprop_step a b v : voted w' a b v -> prop w' b v.
  Proof.
    intros H. destruct (new_vote _ _ _ H) as [H0|[_ [_ [_ P]]]]; [|exact P].
    exact (prop_mono _ _ (a_vprop n w AI _ _ _ H0)).
  Qed.

  Lemma vmax_step a b v : voted w' a b v -> exists b', acc_b (nodes w' a) = Some b' /\ bal_leb b b' = true.
  Proof.
    intros H. destruct (new_vote _ _ _ H) as [H0|[-> [Eb _]]];
      [|rewrite (h_node_same HW); exists b; split; [exact Eb|apply bal_leb_refl]].
    destruct (a_vmax n w AI _ _ _ H0) as [b' [Eb' L]].
    destruct (Z.eq_dec a i) as [->|N]; [|rewrite (h_node_other HW) by auto; eauto].
    rewrite (h_node_same HW). destruct (step_acc (h_step HW)) as [[S1 _]|[b0 [Eb0 [MP _]]]]; [rewrite S1; eauto|].
    (* b <= accepted <= promised <= the newly accepted ballot *)
    exists b0. split; [exact Eb0|]. rewrite may_promise_eq in MP.
    pose proof (ni_acc _ _ (ui_ninv n w (a_u n w AI) i)) as NA. rewrite Eb' in NA.
    pose proof (obal_leb_trans _ _ _ NA MP) as X. exact (bal_leb_trans _ _ _ L X).
  Qed.

  Lemma acc_step a b : acc_b (nodes w' a) = Some b -> voted w' a b (acc_v (nodes w' a)).
  Proof.
    intros H. apply voted_step. destruct (Z.eq_dec a i) as [->|N].
    - rewrite (h_node_same HW) in *. auto.
    - rewrite (h_node_other HW) in * by auto. left. exact (a_acc n w AI _ _ H).
  Qed.

  Lemma prep_step src d k bn : In (src, OPrepare d k bn) (sent w') -> src = bn.
  Proof.
    intros H. apply (h_sent_In HW) in H as [H|H]; [exact (a_prep n w AI _ _ _ _ H)|].
    apply In_msgs_of in H as [-> [Ho _]].
    symmetry. exact (proj1 (proj2 (step_emits (h_step HW) Ho))).
  Qed.

  Lemma pmsg_step src d k bn f ab av : In (src, OPromise d k bn f ab av) (sent w') ->
    d = bn /\ pfact w' f (k, bn) ab av /\ 0 <= f < n.
  Proof.
    intros H. apply (h_sent_In HW) in H as [H|H].
    - destruct (a_pmsg n w AI _ _ _ _ _ _ _ H) as [A [B C]]. split; [exact A|]. split; [exact (pfact_stable _ _ _ _ B)|exact C].
    - apply In_msgs_of in H as [-> [Ho _]].
      destruct (step_emits (h_step HW) Ho) as [EI [_ [_ [-> [-> [-> ES]]]]]].
      assert (PS : promised s' = Some (k, bn)) by (rewrite ES; reflexivity).
      assert (SAME : acc_same (nodes w i) s') by (rewrite ES; split; reflexivity).
      (* the Prepare it answers had been sent, hence by the proposer of its ballot *)
      pose proof (origin_nth O) as OI. rewrite EI in OI. destruct OI as [kk [OI _]].
      apply (delivered_sent AI), (a_prep n w AI) in OI. subst d.
      split; [reflexivity|]. split; [exact (pfact_own _ SAME PS)|exact (origin_node AI O)].
  Qed.

  Lemma left_keep a c v1 : leftb w a c -> ~ voted w a c v1 -> leftb w' a c /\ ~ voted w' a c v1.
  Proof.
    intros [p [Pp Lp]] NV. split.
    - pose proof (promised_mono a) as PRM. rewrite Pp in PRM.
      destruct (promised (nodes w' a)) as [p'|] eqn:X; [|discriminate].
      exists p'. split; [exact X|]. exact (bal_ltb_leb_trans _ _ _ Lp PRM).
    - intros V. destruct (new_vote _ _ _ V) as [V0|[-> [_ [MP _]]]]; [contradiction|].
      rewrite may_promise_eq, Pp in MP. cbn in MP. rewrite (bal_ltb_not_leb _ _ Lp) in MP. discriminate.
  Qed.

  Hypothesis U' : uinv n w'.
  Hypothesis HD : distinct_responders w'.

  (** The safety clause.  For an Accept of ballot [b] sent in this step the
      proposer holds a quorum of responses; one of them is from a node [N] of [Q],
      which has promised [b] and so left [c].  If no response reports an
      accepted ballot, or all report ballots below [c], [N] never voted in
      [c]; if the greatest reported ballot [h] is above [c], the witness for
      the older proposal [(h, v)] serves; if [h = c], all votes in [c] are for [v]. *)
  Lemma safe_step b v : prop w' b v -> forall c v1 Q, bal_ltb c b = true -> v1 <> v -> isq n Q ->
    exists a, In a Q /\ leftb w' a c /\ ~ voted w' a c v1.
  Proof.
    intros [src [d P]] c v1 Q L NE IQ. apply (h_sent_In HW) in P as [P|P].
    { destruct (a_safe n w AI b v (ex_intro _ src (ex_intro _ d P)) c v1 Q L NE IQ) as [a0 [IA [LF NV]]].
      exists a0. split; [exact IA|]. apply left_keep; assumption. }
    apply In_msgs_of in P as [-> [Ho _]].
    destruct (step_emits (h_step HW) Ho) as [_ [SB [from [ab0 [av0 [rs [_ [_ [LEN [_ [Ex [E1 _]]]]]]]]]]]]. cbn in SB.
    assert (Bk : b = (fst b, i)) by (destruct b; cbn in *; subst; reflexivity).
    set (rs' := rs ++ [(from, ab0, av0)]) in *.
    assert (F' : afind (fst b) (p1 (nodes w' i)) = Some rs') by (rewrite (h_node_same HW), E1; apply afind_aset_same).
    assert (CH := choose_top rs' (oget (fst b) (pvals (nodes w i)))). rewrite <- Ex in CH.
    assert (RSP : forall f ab av, In (f, ab, av) rs' -> pfact w' f b ab av /\ 0 <= f < n).
    { intros f ab av Hr. rewrite Bk. exact (resp_step F' Hr). }
    assert (QM : exists N abN avN, In N Q /\ In (N, abN, avN) rs').
    { apply (quorum_meets_responses n Q rs'); [lia|exact IQ|exact (HD i (fst b) rs' F')| |].
      - intros f ab av Hr. exact (proj2 (RSP f ab av Hr)).
      - unfold rs'. rewrite app_length, quorum_cfg in * by exact (origin_node AI O). cbn [length]. lia. }
    destruct QM as [N [abN [avN [INQ IN1]]]].
    destruct (RSP _ _ _ IN1) as [[PN1 [PN2 PN3]] _].
    assert (LEFTN : leftb w' N c).
    { destruct (promised (nodes w' N)) as [p|] eqn:X; [|discriminate]. exists p. split; [exact X|].
      exact (bal_ltb_leb_trans _ _ _ L PN1). }
    destruct CH as [[NONE _]|[fM [h [IM MAX]]]].
    { exists N. split; [exact INQ|]. split; [exact LEFTN|]. intros V. destruct (PN2 _ _ V L) as [b0 [E _]].
      subst abN. exact (NONE _ _ _ IN1). }
    pose proof (resp_voted F' IM) as VM0.
    destruct (bal_ltb c h) eqn:CH1.
    { destruct (a_safe n w AI h v (a_vprop n w AI _ _ _ VM0) c v1 Q CH1 NE IQ) as [a0 [IA [LF NV]]].
      exists a0. split; [exact IA|]. apply left_keep; assumption. }
    exists N. split; [exact INQ|]. split; [exact LEFTN|]. intros V.
    destruct (bal_ltb h c) eqn:CH2.
    - destruct (PN2 _ _ V L) as [b0 [E LE0]]. subst abN. specialize (MAX _ _ _ IN1).
      pose proof (bal_leb_trans _ _ _ LE0 MAX) as X. rewrite (bal_ltb_not_leb _ _ CH2) in X. discriminate.
    - assert (h = c) by (apply bal_leb_antisym; apply bal_not_ltb_leb; assumption). subst h.
      destruct (vprop_step _ _ _ V) as [s1 [d1 P1]]. destruct (prop_mono _ _ (a_vprop n w AI _ _ _ VM0)) as [s2 [d2 P2]].
      apply NE. exact (ui_one n w' U' _ _ _ _ _ _ _ _ P1 P2).
  Qed.
End Handler.

Section Final.
  Variable n : Z.
  Hypothesis n2 : 2 <= n.

  Lemma ainv_step w a : ainv n w -> distinct_responders (sys_step n w a) -> ainv n (sys_step n w a).
  Proof.
    intros AI HD. pose proof (uinv_step n w a (a_u n w AI)) as U'. revert HD U'.
    destruct (sys_step_inv n w a) as [|k|i inp net' tm' pr' s' outs O ST]; intros HD U'.
    - exact AI.
    - destruct AI as [U NT NR TM VP VM AC PR PM RS SF]. split; auto.
      intros x H. apply NT. exact (remove_nth_incl _ _ _ H).
    - pose proof (handles_intro net' tm' pr' ST) as HW.
      split; [exact U'|..].
      + exact (net_sent_handle O HW (a_net n w AI)).
      + eapply noretry_step; eassumption.
      + eapply tm_step; try eassumption; reflexivity.
      + eapply vprop_step; eassumption.
      + eapply vmax_step; eassumption.
      + eapply acc_step; eassumption.
      + eapply prep_step; eassumption.
      + eapply pmsg_step; eassumption.
      + eapply resp_step; eassumption.
      + eapply safe_step; eassumption.
  Qed.

  Lemma isq_inhabited Q : isq n Q -> exists a, In a Q.
  Proof. intros [_ [_ L]]. destruct Q as [|a r]; [cbn in L; dlia|exists a; left; auto]. Qed.

  (** of two chosen values, the one under the higher ballot [b] was proposed
      there, so a member of the other's quorum did not vote for a different
      value under [b'] *)
  Lemma chosen_below w b v b' v' :
    ainv n w -> chosen n w b v -> chosen n w b' v' -> bal_ltb b' b = true -> v' = v.
  Proof.
    intros AI [Q [IQ VQ]] [Q' [IQ' VQ']] L.
    destruct (isq_inhabited Q IQ) as [a Ha]. pose proof (a_vprop n w AI _ _ _ (VQ a Ha)) as P.
    assert (D : {v' = v} + {v' <> v}) by (decide equality; apply Z.eq_dec).
    destruct D as [E|NE]; [exact E|]. exfalso.
    destruct (a_safe n w AI b v P b' v' Q' L NE IQ') as [x [Ix [_ NV]]]. exact (NV (VQ' x Ix)).
  Qed.

  Lemma chosen_unique w b v b' v' : ainv n w -> chosen n w b v -> chosen n w b' v' -> v = v'.
  Proof.
    intros AI C C'.
    destruct (bal_ltb b' b) eqn:L1; [symmetry; exact (chosen_below w b v b' v' AI C C' L1)|].
    destruct (bal_ltb b b') eqn:L2; [exact (chosen_below w b' v' b v AI C' C L2)|].
    assert (b = b') by (apply bal_leb_antisym; apply bal_not_ltb_leb; assumption). subst b'.
    destruct C as [Q [IQ VQ]]. destruct C' as [Q' [IQ' VQ']].
    destruct (isq_inhabited Q IQ) as [a Ha]. destruct (isq_inhabited Q' IQ') as [a' Ha'].
    destruct (a_vprop n w AI _ _ _ (VQ a Ha)) as [s1 [d1 P]].
    destruct (a_vprop n w AI _ _ _ (VQ' a' Ha')) as [s2 [d2 P']].
    exact (ui_one n w (a_u n w AI) _ _ _ _ _ _ _ _ P P').
  Qed.

End Final.

(** The notion is inhabited: in the demo schedule value 7 is chosen under
    ballot (1, 0) by the majority {0, 1}. *)
Example demo_chosen : chosen 3 (sys_run 3 sys_init demo_sch) (1, 0) (Some 7).
Proof.
  destruct (proj2 demo_run) as [W0 W1]. exists [0; 1]. split.
  - split; [repeat constructor; cbn; intuition lia|]. split; [cbn; intros a [<-|[<-|[]]]; lia|vm_compute; discriminate].
  - intros a [<-|[<-|[]]]; assumption.
Qed.
