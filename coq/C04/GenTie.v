(** C04 — the breakpoint predicates, tied to the code: [should_break] of
    TimeBreakpoint, EventCountBreakpoint and EventTypeBreakpoint as REGENERATED
    from core/control/breakpoints.py ([Gen/BreakpointGen.v], py2coq) on the
    context SimulationControl builds after a delivery (clock, events processed,
    the event just delivered) are the model's [should_break]; [one_shot] is
    [bp_one].  (MetricBreakpoint reads an entity attribute through getattr and
    stays hand-modelled; ConditionBreakpoint is user code.) *)
From HS Require Import Base.Prelude Base.PyLib Engine.Engine Engine.Control Gen.BreakpointGen.
Local Open Scope Z_scope.

(** Semantic reading, independent of how the comparison is written in the source. *)
Lemma breakpoints_spec (c : BreakpointContext) t n ty one :
  (TimeBreakpoint_should_break (mkTimeBreakpoint t one) c = true <-> t <= BreakpointContext_current_time c)
  /\ (EventCountBreakpoint_should_break (mkEventCountBreakpoint n one) c = true <-> n <= BreakpointContext_events_processed c)
  /\ (EventTypeBreakpoint_should_break (mkEventTypeBreakpoint ty one) c = true <-> Event_event_type (BreakpointContext_last_event c) = ty).
Proof.
  unfold TimeBreakpoint_should_break, EventCountBreakpoint_should_break, EventTypeBreakpoint_should_break. cbn.
  repeat split; intros; lia.
Qed.

Section Tie.
Variables P U : Type.
Variable etype : P -> Z.
Variable metric : U -> Z -> option Z.

(** the context after delivering [e] in state [s] *)
Definition ctx_of (s : @st P U) (e : @ev P) : BreakpointContext :=
  mkBreakpointContext (clock s) (processed s) (mkEvent (etype (ev_pay e))).

Lemma tie_breakpoints (s : @st P U) (e : @ev P) t n ty one :
  TimeBreakpoint_should_break (mkTimeBreakpoint t one) (ctx_of s e) = should_break etype metric s e (BTime t one)
  /\ EventCountBreakpoint_should_break (mkEventCountBreakpoint n one) (ctx_of s e) = should_break etype metric s e (BCount n one)
  /\ EventTypeBreakpoint_should_break (mkEventTypeBreakpoint ty one) (ctx_of s e) = should_break etype metric s e (BType ty one)
  /\ TimeBreakpoint_one_shot (mkTimeBreakpoint t one) = bp_one (BTime t one)
  /\ EventCountBreakpoint_one_shot (mkEventCountBreakpoint n one) = bp_one (BCount n one)
  /\ EventTypeBreakpoint_one_shot (mkEventTypeBreakpoint ty one) = bp_one (BType ty one).
Proof.
  unfold TimeBreakpoint_should_break, EventCountBreakpoint_should_break, EventTypeBreakpoint_should_break, should_break, ctx_of.
  cbn. repeat split; lia.
Qed.
End Tie.
