(** C11 — tie between consensus/log.py and the model's log functions, through
    the REGENERATED translation [Gen/RaftLogGen.v] (py2coq).  The model stores
    (term, command) pairs, the index of an entry being its position; the code
    stores LogEntry(index, term, command): [log_abs] forgets the stored index,
    [log_wf] says it is the position (kept by every translated method). *)
From HS Require Import Base.Prelude Base.PyLib C11.Model C11.NodeProofs Gen.RaftLogGen.
Local Open Scope Z_scope.

Definition strip (e : LogEntry) : entry := (LogEntry_term e, LogEntry_command e).
Definition triple (e : LogEntry) : Z * Z * Z := (LogEntry_index e, LogEntry_term e, LogEntry_command e).
Definition log_abs (L : Log) : list entry := map strip (Log__entries L).
Definition log_wf (L : Log) : Prop :=
  forall j e, nth_error (Log__entries L) j = Some e -> LogEntry_index e = Z.of_nat j + 1.

Lemma zlen_map {A B} (f : A -> B) l : zlen (map f l) = zlen l.
Proof. unfold zlen. rewrite map_length. reflexivity. Qed.

Lemma map_map_local (l : list LogEntry) : map triple l = map triple l.
Proof. reflexivity. Qed.

Lemma py_index_in {A} (l : list A) i : 0 <= i -> i < Z.of_nat (length l) -> py_index l i = nth_error l (Z.to_nat i).
Proof.
  intros H0 H1. unfold py_index. replace (i <? 0) with false by lia.
  replace ((i <? 0) || (i >=? Z.of_nat (length l))) with false by lia. reflexivity.
Qed.

Lemma py_index_last {A} (l : list A) : l <> [] -> py_index l (-1) = nth_error l (length l - 1).
Proof.
  intros H. unfold py_index. assert (0 < length l)%nat by (destruct l; [congruence|cbn; lia]).
  replace (-1 <? 0) with true by lia.
  replace ((-1 + Z.of_nat (length l) <? 0) || (-1 + Z.of_nat (length l) >=? Z.of_nat (length l))) with false by lia.
  f_equal. lia.
Qed.

Lemma py_slice_prefix {A} (l : list A) k : 0 <= k -> k <= Z.of_nat (length l) -> py_slice l None (Some k) = firstn (Z.to_nat k) l.
Proof.
  intros H0 H1. unfold py_slice, py_clamp. replace (k <? 0) with false by lia.
  rewrite Z.min_r by lia. rewrite Z.max_r by lia. cbn [skipn Z.to_nat]. f_equal. lia.
Qed.

Lemma py_slice_suffix {A} (l : list A) k : 0 <= k -> py_slice l (Some k) None = skipn (Z.to_nat k) l.
Proof.
  intros H0. unfold py_slice, py_clamp. replace (k <? 0) with false by lia.
  destruct (Z_le_gt_dec k (Z.of_nat (length l))) as [H|H].
  - rewrite Z.min_r by lia. rewrite Z.max_r by lia.
    rewrite firstn_all2; [reflexivity|]. rewrite skipn_length. lia.
  - rewrite Z.min_l by lia. rewrite Z.max_r by lia. rewrite Nat2Z.id.
    rewrite skipn_all. rewrite skipn_all2 by lia. destruct (Z.to_nat _); reflexivity.
Qed.

Lemma py_slice_mid {A} (l : list A) a b : 0 <= a -> a <= b -> b <= Z.of_nat (length l) ->
  py_slice l (Some a) (Some b) = firstn (Z.to_nat (b - a)) (skipn (Z.to_nat a) l).
Proof.
  intros H0 H1 H2. unfold py_slice, py_clamp. replace (a <? 0) with false by lia. replace (b <? 0) with false by lia.
  rewrite !Z.min_r by lia. rewrite !Z.max_r by lia. reflexivity.
Qed.

Lemma tie_log_append L t c :
  let r := Log_append L t c in
  log_abs (fst r) = log_abs L ++ [(t, c)] /\ Log_commit_index (fst r) = Log_commit_index L
  /\ triple (snd r) = (last_index (log_abs L) + 1, t, c) /\ (log_wf L -> log_wf (fst r)).
Proof.
  unfold Log_append, log_abs, last_index; cbn. rewrite map_app, zlen_map. repeat split.
  intros W j e H. cbn in H. destruct (Nat.lt_ge_cases j (length (Log__entries L))) as [Hlt|Hge].
  - rewrite nth_error_app1 in H by exact Hlt. apply W, H.
  - assert (j = length (Log__entries L)).
    { assert (j < length (Log__entries L ++ [mkLogEntry (Z.of_nat (length (Log__entries L)) + 1) t c]))%nat by (apply nth_error_Some; congruence).
      rewrite app_length in H0. cbn in H0. lia. }
    subst j. rewrite nth_error_app2 in H by lia. rewrite Nat.sub_diag in H. inversion H; subst. reflexivity.
Qed.

Lemma tie_log_get L i :
  exists r, Log_get L i = Some r /\ option_map strip r = log_get (log_abs L) i.
Proof.
  unfold Log_get, log_get, log_abs. rewrite zlen_map. unfold zlen.
  destruct (i <? 1) eqn:E1; cbn [orb]; [eexists; split; reflexivity|].
  destruct (i >? Z.of_nat (length (Log__entries L))) eqn:E2; [eexists; split; reflexivity|].
  rewrite py_index_in by lia. rewrite nth_error_map.
  destruct (nth_error (Log__entries L) (Z.to_nat (i - 1))) as [e|] eqn:E.
  - eexists; split; reflexivity.
  - exfalso. apply nth_error_None in E. lia.
Qed.

Lemma log_wf_firstn L k c : log_wf L -> log_wf (mkLog (firstn k (Log__entries L)) c).
Proof. intros W j e H. apply W. exact (proj2 (nth_error_firstn_some _ _ _ _ H)). Qed.

Lemma tie_log_truncate L i :
  let r := Log_truncate_from L i in
  (log_abs (fst r), Log_commit_index (fst r)) = truncate_from (log_abs L) (Log_commit_index L) i
  /\ (log_wf L -> log_wf (fst r)).
Proof.
  unfold Log_truncate_from, truncate_from, log_abs. rewrite zlen_map. unfold zlen.
  destruct (i <? 1) eqn:E1; cbn [orb fst]; [split; [reflexivity|auto]|].
  destruct (i >? Z.of_nat (length (Log__entries L))) eqn:E2; cbn [fst]; [split; [reflexivity|auto]|].
  cbn [set_Log__entries Log__entries Log_commit_index].
  rewrite py_slice_prefix by lia.
  destruct (Log_commit_index L >=? i) eqn:E3; cbn [fst Log__entries Log_commit_index set_Log_commit_index];
    (split; [rewrite firstn_map; reflexivity|apply log_wf_firstn]).
Qed.

Lemma wf_range_triple L l : log_wf L -> forall k, 0 <= k ->
  (forall j e, nth_error l j = Some e -> nth_error (Log__entries L) (Z.to_nat k + j) = Some e) ->
  map triple l = with_index k (map strip l).
Proof.
  intros W. induction l as [|e l IH]; intros k Hk H; cbn [map with_index]; [reflexivity|].
  unfold strip at 1. unfold triple at 1. rewrite (W _ _ (H 0%nat e eq_refl)). f_equal; [do 2 f_equal; lia|].
  apply IH; [lia|]. intros j x Hx. replace (Z.to_nat (k + 1) + j)%nat with (Z.to_nat k + S j)%nat by lia. exact (H (S j) x Hx).
Qed.

Lemma tie_log_entries_after L i : log_wf L ->
  map triple (Log_entries_after L i) = entries_after (log_abs L) i.
Proof.
  intros W. unfold Log_entries_after, entries_after, log_abs.
  assert (K : forall k, 0 <= k ->
            map triple (py_slice (Log__entries L) (Some k) None) = with_index k (skipn (Z.to_nat k) (map strip (Log__entries L)))).
  { intros k Hk. rewrite py_slice_suffix by exact Hk. rewrite skipn_map. apply (wf_range_triple L); [exact W|exact Hk|].
    intros j e H. rewrite <- nth_error_skipn'. exact H. }
  destruct (i <? 0) eqn:E; [apply (K 0); lia|apply K; lia].
Qed.

Lemma tie_log_last_index L : Log_last_index L = last_index (log_abs L).
Proof. unfold Log_last_index, last_index, log_abs. rewrite zlen_map. reflexivity. Qed.

Lemma last_term_nth (l : list entry) : last_term l = match nth_error l (length l - 1) with Some e => fst e | None => 0 end.
Proof.
  unfold last_term. destruct l as [|x l] using rev_ind; [reflexivity|].
  rewrite rev_app_distr. cbn [rev app]. rewrite app_length. cbn [length].
  replace (length l + 1 - 1)%nat with (length l) by lia. rewrite nth_error_app2 by lia. rewrite Nat.sub_diag. reflexivity.
Qed.

Lemma tie_log_last_term L : Log_last_term L = Some (last_term (log_abs L)).
Proof.
  unfold Log_last_term, log_abs. destruct (Log__entries L) as [|x l] eqn:E; [reflexivity|].
  cbn [negb]. rewrite py_index_last by discriminate. rewrite last_term_nth, map_length, nth_error_map.
  destruct (nth_error (x :: l) (length (x :: l) - 1)) as [e|] eqn:En; [reflexivity|].
  exfalso. apply nth_error_None in En. cbn in En. lia.
Qed.

(** Where the commit index goes does not depend on the stored indices. *)
Lemma tie_log_advance_commit_index L n :
  Log_commit_index (fst (Log_advance_commit L n)) = fst (advance_commit (log_abs L) (Log_commit_index L) n)
  /\ log_abs (fst (Log_advance_commit L n)) = log_abs L.
Proof.
  unfold Log_advance_commit, advance_commit, log_abs. rewrite zlen_map.
  destruct (n <=? Log_commit_index L); split; reflexivity.
Qed.

Lemma tie_log_advance_commit L n : log_wf L -> 0 <= Log_commit_index L -> Log_commit_index L <= zlen (Log__entries L) ->
  let r := Log_advance_commit L n in
  (Log_commit_index (fst r), map triple (snd r)) = advance_commit (log_abs L) (Log_commit_index L) n
  /\ log_abs (fst r) = log_abs L.
Proof.
  intros W H0 H1. unfold Log_advance_commit, advance_commit, log_abs. rewrite zlen_map.
  destruct (n <=? Log_commit_index L) eqn:E; cbn [fst snd]; [split; reflexivity|].
  cbn [set_Log_commit_index Log__entries Log_commit_index]. split; [|reflexivity].
  unfold zlen in *. f_equal.
  set (c := Log_commit_index L) in *. set (c' := Z.min n (Z.of_nat (length (Log__entries L)))).
  rewrite py_slice_mid by (unfold c'; lia). unfold slice.
  rewrite skipn_map, firstn_map. apply (wf_range_triple L); [exact W|exact H0|].
  intros j e H. apply nth_error_firstn_some in H as [_ H]. rewrite <- nth_error_skipn'. exact H.
Qed.

(** [RaftNode.quorum_size] as regenerated is the model's [quorum], and it is a strict
    majority of the cluster (the node and its peers): two quorums always intersect —
    the arithmetic fact election safety and leader completeness rest on. *)
Lemma tie_raft_quorum (r : RaftNode) (n : node) :
  length (peers n) = length (RaftNode__peers r) -> RaftNode_quorum_size r = quorum n.
Proof. intros H. unfold RaftNode_quorum_size, quorum, zlen. rewrite H. reflexivity. Qed.

Lemma raft_quorum_majority (r : RaftNode) :
  let total := Z.of_nat (length (RaftNode__peers r)) + 1 in
  2 * RaftNode_quorum_size r > total /\ RaftNode_quorum_size r <= total.
Proof. unfold RaftNode_quorum_size. cbn zeta. split; dlia. Qed.
