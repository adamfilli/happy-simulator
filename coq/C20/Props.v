(** Property C20 — the theorems the check counts as obligations. *)
From HS Require Import Base.Prelude C20.Model C20.Bloom C20.Counting C20.TopK C20.Reservoir C20.Merkle C20.TDigest.
From Coq Require Import Floats QArith.
Local Open Scope Z_scope.

(** Bloom: every item added with a positive count is reported present — for
    every hash function, size, number of hashes, prior state and stream. *)
Theorem c20_bloom_no_false_negative : forall hsh m k, 0 < m -> forall s st x c,
  In (x, c) s -> 0 < c -> b_contains hsh m k (b_sketch hsh m k s st) x = true.
Proof.
  intros hsh m k Hm s st x c Hin Hc. apply b_contains_iff. intros i Hi.
  rewrite (b_sketch_bits hsh m k Hm), (touched_own hsh m k s x c i Hin Hc Hi) by apply (b_idx_range hsh m Hm).
  apply orb_true_r.
Qed.
Print Assumptions c20_bloom_no_false_negative.

(** ... and stays present under later adds and merges on either side. *)
Theorem c20_bloom_present_stays_present : forall hsh m k, 0 < m -> forall a b s x,
  b_contains hsh m k a x = true ->
  b_contains hsh m k (b_sketch hsh m k s a) x = true /\
  b_contains hsh m k (b_merge m a b) x = true /\
  b_contains hsh m k (b_merge m b a) x = true.
Proof.
  intros hsh m k Hm a b s x H. repeat split; (eapply (b_contains_mono hsh m k Hm); [|exact H]); intros j Hj Hb; cbn.
  - rewrite (b_sketch_bits hsh m k Hm), Hb by lia. reflexivity.
  - rewrite Z.lor_spec, Hb. reflexivity.
  - rewrite Z.lor_spec, Hb. apply orb_true_r.
Qed.
Print Assumptions c20_bloom_present_stays_present.

(** Bloom merge = filter of the concatenated streams (bits, _bits_set and
    _total_count), every split point. *)
Theorem c20_bloom_merge_homomorphism : forall hsh m k, 0 < m -> forall s1 s2,
  b_merge m (b_sketch hsh m k s1 bloom_empty) (b_sketch hsh m k s2 bloom_empty) =
  b_sketch hsh m k (s1 ++ s2) bloom_empty.
Proof.
  intros hsh m k Hm s1 s2. rewrite b_sketch_app. apply (b_merge_sketch hsh m k Hm), (b_sketch_inv hsh m k Hm), b_inv_empty.
Qed.
Print Assumptions c20_bloom_merge_homomorphism.

(** Count-Min: the estimate is never below the true count — every row hash,
    width, depth >= 1, stream (weights included). *)
Theorem c20_cms_never_underestimates : forall hc w d, 0 < d -> forall s x,
  true_count x s <= c_est hc w d (c_sketch hc w d s cms_empty) x.
Proof.
  intros hc w d Hd s x. apply c_sketch_est_ge; [exact Hd|]. intros r col. cbn. lia.
Qed.
Print Assumptions c20_cms_never_underestimates.

Theorem c20_cms_merge_homomorphism : forall hc w d s1 s2,
  (forall r col, c_cnt (c_merge (c_sketch hc w d s1 cms_empty) (c_sketch hc w d s2 cms_empty)) r col =
                 c_cnt (c_sketch hc w d (s1 ++ s2) cms_empty) r col) /\
  c_total (c_merge (c_sketch hc w d s1 cms_empty) (c_sketch hc w d s2 cms_empty)) =
  c_total (c_sketch hc w d (s1 ++ s2) cms_empty).
Proof. intros hc w d s1 s2. rewrite c_sketch_app. apply c_merge_sketch. Qed.
Print Assumptions c20_cms_merge_homomorphism.

Theorem c20_cms_merged_never_underestimates : forall hc w d, 0 < d -> forall s1 s2 x,
  true_count x (s1 ++ s2) <=
  c_est hc w d (c_merge (c_sketch hc w d s1 cms_empty) (c_sketch hc w d s2 cms_empty)) x.
Proof.
  intros hc w d Hd s1 s2 x. apply c_est_ge; [exact Hd|]. intros r Hr.
  rewrite (proj1 (c20_cms_merge_homomorphism hc w d s1 s2)), c_sketch_cnt. cbn. apply (contrib_ge_true hc w d _ x r Hr).
Qed.
Print Assumptions c20_cms_merged_never_underestimates.

(** HyperLogLog: merge = sketch of the concatenated streams on every register
    of the array and the total (same hash function, i.e. same seed). *)
Theorem c20_hll_merge_homomorphism : forall hh p s1 s2,
  (forall i, 0 <= i < 2 ^ p ->
     h_reg (h_merge p (h_sketch hh p s1 hll_empty) (h_sketch hh p s2 hll_empty)) i =
     h_reg (h_sketch hh p (s1 ++ s2) hll_empty) i) /\
  h_total (h_merge p (h_sketch hh p s1 hll_empty) (h_sketch hh p s2 hll_empty)) =
  h_total (h_sketch hh p (s1 ++ s2) hll_empty).
Proof.
  intros hh p s1 s2. rewrite h_sketch_app. apply h_merge_sketch. intros i. rewrite h_sketch_reg0. apply hits_nonneg.
Qed.
Print Assumptions c20_hll_merge_homomorphism.

(** TopK (space-saving), every k >= 1 and weighted stream. *)
Theorem c20_topk_tracked_bounds : forall k, 0 < k -> forall s x n e,
  tk_find x (t_cnt (tk_sketch k s topk_empty)) = Some (n, e) ->
  0 <= e /\ n - e <= true_count x s <= n.
Proof. intros k Hk s x n e F. apply tk_find_some in F. exact (i_good _ _ _ (sketch_inv0 k Hk s) _ F). Qed.
Print Assumptions c20_topk_tracked_bounds.

Theorem c20_topk_counts_sum_to_N : forall k, 0 < k -> forall s,
  sumc (t_cnt (tk_sketch k s topk_empty)) = stream_total s /\
  t_total (tk_sketch k s topk_empty) = stream_total s /\
  Z.of_nat (length (t_cnt (tk_sketch k s topk_empty))) <= k.
Proof.
  intros k Hk s. pose proof (sketch_inv0 k Hk s) as H.
  repeat split; [apply H|exact (tk_sketch_total k s topk_empty)|apply H].
Qed.
Print Assumptions c20_topk_counts_sum_to_N.

Theorem c20_topk_heavy_hitters_tracked : forall k, 0 < k -> forall s x,
  tk_threshold k (tk_sketch k s topk_empty) < true_count x s ->
  exists n e, tk_find x (t_cnt (tk_sketch k s topk_empty)) = Some (n, e).
Proof.
  intros k Hk s x Hx. destruct (tk_find x _) as [[n e]|] eqn:F; [eauto|]. exfalso.
  apply tk_find_none in F. pose proof (i_untracked _ _ _ (sketch_inv0 k Hk s) x F) as A.
  pose proof (floor_le_threshold k Hk s) as B. lia.
Qed.
Print Assumptions c20_topk_heavy_hitters_tracked.

Theorem c20_topk_estimate_with_error : forall k, 0 < k -> forall s x,
  let st := tk_sketch k s topk_empty in
  let n := fst (tk_est_err st x) in
  let e := snd (tk_est_err st x) in
  (n - e <= true_count x s) /\
  (tk_find x (t_cnt st) <> None -> true_count x s <= n) /\
  (tk_find x (t_cnt st) = None -> n = 0 /\ true_count x s <= e).
Proof.
  intros k Hk s x st. pose proof (sketch_inv0 k Hk s) as H. fold st in H. unfold tk_est_err.
  destruct (tk_find x (t_cnt st)) as [[n e]|] eqn:F; cbn [fst snd].
  - destruct (c20_topk_tracked_bounds k Hk s x n e F) as [A B]. repeat split; try lia; intros; discriminate.
  - apply tk_find_none in F. pose proof (i_untracked _ _ _ H x F) as U. pose proof (floor_le_max_error k _ _ H).
    pose proof (true_count_nonneg x s). repeat split; try lia; congruence.
Qed.
Print Assumptions c20_topk_estimate_with_error.

(** Reservoir: min(k, n) items, all of them stream items, no stream occurrence
    held twice — every capacity, stream (with counts) and RNG draw sequence. *)
Theorem c20_reservoir_size : forall k, 0 < k -> forall s ds,
  let st := fst (r_stream k s (resv_empty, ds)) in
  Z.of_nat (length (r_items st)) = Z.min k (stream_total s) /\ r_total st = stream_total s.
Proof.
  intros k Hk s ds. destruct (stream_fed k s ds) as (L & T & _). rewrite occs_length in L, T. split; [lia|exact T].
Qed.
Print Assumptions c20_reservoir_size.

Theorem c20_reservoir_holds_stream_items : forall k s ds y,
  In y (r_items (fst (r_stream k s (resv_empty, ds)))) -> exists c, In (y, c) s /\ 0 < c.
Proof. intros k s ds y Hy. destruct (stream_fed k s ds) as (_ & _ & I & _). apply occs_in, I, Hy. Qed.
Print Assumptions c20_reservoir_holds_stream_items.

Theorem c20_reservoir_distinct_occurrences : forall k xs ds,
  NoDup xs -> NoDup (r_items (fst (r_stream k (singles xs) (resv_empty, ds)))).
Proof.
  intros k xs ds H. destruct (stream_fed k (singles xs) ds) as (_ & _ & _ & N). rewrite occs_singles in N. auto.
Qed.
Print Assumptions c20_reservoir_distinct_occurrences.

(** merge: size and membership hold (PARTIAL) ... *)
Theorem c20_reservoir_merge_size_partial : forall k, 0 < k -> forall a b ds,
  rinv k a -> rinv k b -> valid_draws ds ->
  let m := fst (r_merge k a b ds) in
  rinv k m /\ r_total m = r_total a + r_total b /\
  (forall y, In y (r_items m) -> In y (r_items a) \/ In y (r_items b)).
Proof. exact reservoir_merge_size. Qed.
Print Assumptions c20_reservoir_merge_size_partial.

(** ... but the merged reservoir may hold one stream occurrence twice
    (REFUTED; known finding C20-reservoir-merge-with-replacement). *)
Theorem c20_reservoir_merge_distinct_refuted : ~ reservoir_merge_distinct_statement.
Proof. exact reservoir_merge_distinct_refuted. Qed.
Print Assumptions c20_reservoir_merge_distinct_refuted.

(** Merkle tree, for every pair of maps (strictly sorted association lists),
    under injective, domain-separated leaf/inner hashes. *)
Theorem c20_merkle_diff_covers : forall (H : Type) (hl : Z -> Z -> H) (hc : H -> H -> H) (heq : H -> H -> bool),
  (forall k v k' v', hl k v = hl k' v' -> k = k' /\ v = v') ->
  (forall a b a' b', hc a b = hc a' b' -> a = a' /\ b = b') ->
  (forall k v a b, hl k v <> hc a b) ->
  (forall x y, heq x y = true <-> x = y) ->
  forall la lb, ssorted la -> ssorted lb -> forall k,
  d_get k la <> d_get k lb ->
  exists r, In r (mt_diff hl hc heq (m_of la) (m_of lb)) /\ fst r <= k <= snd r.
Proof. exact @merkle_diff_covers. Qed.
Print Assumptions c20_merkle_diff_covers.

Theorem c20_merkle_diff_empty_iff_equal : forall (H : Type) (hl : Z -> Z -> H) (hc : H -> H -> H) (heq : H -> H -> bool),
  (forall k v k' v', hl k v = hl k' v' -> k = k' /\ v = v') ->
  (forall a b a' b', hc a b = hc a' b' -> a = a' /\ b = b') ->
  (forall k v a b, hl k v <> hc a b) ->
  (forall x y, heq x y = true <-> x = y) ->
  forall la lb, ssorted la -> ssorted lb ->
  (mt_diff hl hc heq (m_of la) (m_of lb) = [] <-> la = lb).
Proof. exact @merkle_diff_empty_iff_equal. Qed.
Print Assumptions c20_merkle_diff_empty_iff_equal.

Theorem c20_merkle_sort_sorted : forall d, NoDup (map fst d) ->
  ssorted (m_sort d) /\ forall x, In x (m_sort d) <-> In x d.
Proof. intros d Hnd. split; [apply m_sort_sorted, Hnd|intros x; apply sort_in]. Qed.
Print Assumptions c20_merkle_sort_sorted.

(** T-digest.  On binary64 — the arithmetic the implementation runs on — both
    clauses are REFUTED (known findings C20-tdigest-range-rounding and
    C20-tdigest-monotone-rounding; witness add(2.7, 3), compression 1). *)
Theorem c20_tdigest_float_range_refuted : ~ td_range_statement FA (f_msz 1%float) 2.
Proof.
  intros H. specialize (H w_adds w_q1 w_v1 w_max w_max). cbv zeta in H.
  assert (C : a_leb FA w_v1 w_max = true) by (apply H; [exact w_quantile|vm_compute; reflexivity..]).
  rewrite w_above_max in C. discriminate.
Qed.
Print Assumptions c20_tdigest_float_range_refuted.

Theorem c20_tdigest_float_monotone_refuted : ~ td_monotone_statement FA (f_msz 1%float) 2.
Proof.
  intros H. specialize (H w_adds w_q1 w_q2 w_v1 w_max).
  assert (C : a_leb FA w_v1 w_max = true)
    by (apply H; [vm_compute; reflexivity|exact w_quantile|vm_compute; reflexivity]).
  rewrite w_above_max in C. discriminate.
Qed.
Print Assumptions c20_tdigest_float_monotone_refuted.

(** PARTIAL: the same definitions over exact rationals keep every quantile
    within [min, max], for every digest built by adds, flushes and merges and
    every max-size function / buffer size. *)
Theorem c20_tdigest_exact_range_partial : forall msz bs s q v mn mx, reach msz bs s ->
  snd (td_quantile QA msz s q) = Some v ->
  td_min (fst (td_quantile QA msz s q)) = Some mn -> td_max (fst (td_quantile QA msz s q)) = Some mx ->
  (mn <= v)%Q /\ (v <= mx)%Q.
Proof.
  intros msz bs s q v mn mx R V. destruct (quantile_some msz s q v V) as (-> & _ & _ & lo & hi & E1 & E2 & ->).
  rewrite E1, E2. intros [= <-] [= <-]. apply qval_range; apply (reach_wok msz bs s lo hi R E1 E2).
Qed.
Print Assumptions c20_tdigest_exact_range_partial.

(** PARTIAL: over exact rationals the quantile is non-decreasing in q, for
    every digest built by adds, flushes and merges. *)
Theorem c20_tdigest_exact_monotone_partial : forall msz bs s q1 q2 v1 v2, reach msz bs s -> (q1 <= q2)%Q ->
  snd (td_quantile QA msz s q1) = Some v1 -> snd (td_quantile QA msz s q2) = Some v2 -> (v1 <= v2)%Q.
Proof.
  intros msz bs s q1 q2 v1 v2 R Hq V1 V2.
  destruct (quantile_some msz s q1 v1 V1) as (_ & Q0 & _ & lo & hi & E1 & E2 & ->).
  destruct (quantile_some msz s q2 v2 V2) as (_ & _ & Q1 & lo' & hi' & E1' & E2' & ->).
  rewrite E1 in E1'. rewrite E2 in E2'. injection E1' as <-. injection E2' as <-.
  apply qval_mono; try assumption; apply (reach_wok msz bs s lo hi R E1 E2).
Qed.
Print Assumptions c20_tdigest_exact_monotone_partial.
