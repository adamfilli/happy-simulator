(** C12 — a reported decision is a chosen value: the proposer's Accepted tally
    counts distinct voters of its ballot, and Decided messages carry chosen
    values.  With [chosen_unique_always] this gives agreement between any two
    nodes that report a decision. *)
From HS Require Import Base.Prelude C12.Model C12.PaxosNode C12.PaxosSys C12.PaxosAgree C12.PaxosFull.
Local Open Scope Z_scope.

(** [_proposed_values] is a dict: its keys are unique. *)
Definition keys {V} (l : list (Z * V)) : list Z := map fst l.

Lemma keys_aset {V} k (v : V) l : NoDup (keys l) -> NoDup (keys (aset k v l)) /\ (forall x, In x (keys (aset k v l)) -> x = k \/ In x (keys l)).
Proof.
  induction l as [|[a b] r IH]; cbn; intros N.
  - split; [repeat constructor; auto|intros x [H|[]]; auto].
  - inversion N; subst. destruct (IH H2) as [I1 I2]. destruct (k =? a) eqn:E; cbn.
    + assert (k = a) by lia; subst. split; [constructor; auto|intros x [H|H]; auto].
    + split; [constructor; auto|intros x [H|H]; auto].
      * intros H. destruct (I2 _ H) as [->|H']; [lia|contradiction].
      * destruct (I2 _ H); auto.
Qed.

Lemma keys_adel {V} k (l : list (Z * V)) : NoDup (keys l) -> NoDup (keys (adel k l)) /\ afind k (adel k l) = None /\
  (forall x, In x (keys (adel k l)) -> In x (keys l)).
Proof.
  induction l as [|[a b] r IH]; cbn; intros N; [repeat split; auto; constructor|].
  inversion N; subst. destruct (IH H2) as [I1 [I2 I3]]. destruct (k =? a) eqn:E; cbn.
  - assert (k = a) by lia; subst. split; auto. split; auto.
    destruct (afind a r) eqn:F; auto. exfalso. apply H1. apply afind_In in F. apply in_map_iff. exists (a, v); auto.
  - rewrite E. split; [constructor; auto|split; auto]. intros x [H|H]; auto.
Qed.

Definition pvinv (s : pstate) : Prop := NoDup (keys (pvals s)).

Lemma opens_pvinv s i n fs pv fid : opens s i n fs pv fid -> pvinv s -> NoDup (keys pv).
Proof. intros O PV. destruct O; [|apply keys_adel]; apply keys_aset; exact PV. Qed.

(** a fresh ballot leaves the values stored for the other ballots alone (a
    retry moves the value of its original ballot to the fresh one) *)
Lemma opens_pvals_old s i n fs pv fid k : opens s i n fs pv fid -> pvinv s -> k <> n -> amem k pv = true ->
  amem k (pvals s) = true /\ oget k pv = oget k (pvals s).
Proof.
  intros O PV N AM. destruct O as [v|orig v F].
  - unfold amem, oget in *. rewrite afind_aset_other in * by exact N. auto.
  - destruct (keys_aset (cur s + 1) v (pvals s) PV) as [ND _].
    destruct (keys_adel orig (aset (cur s + 1) v (pvals s)) ND) as [_ [NONE _]].
    destruct (Z.eq_dec k orig) as [->|NJ].
    + unfold amem in AM. rewrite NONE in AM. discriminate.
    + unfold amem, oget in *. rewrite afind_adel_other in * by exact NJ. rewrite afind_aset_other in * by exact N. auto.
Qed.

Lemma pvinv_step {c s i s' outs} : pvinv s -> step c s i = (s', outs) -> pvinv s'.
Proof.
  intros N ST. apply step_graph_eq in ST. destruct ST; subst; try exact N.
  - eapply opens_pvinv; eassumption.
  - apply keys_aset. exact N.
Qed.

Definition quiet_out (o : pout) : Prop :=
  match o with OAccept _ _ _ _ | OAccepted _ _ _ _ | ODecided _ _ => False | _ => True end.

Lemma quiet_not_acd o d k b f : quiet_out o -> o <> OAccepted d k b f.
Proof. intros Q E; subst; exact Q. Qed.

Definition not_acc (o : pout) : Prop :=
  match o with OAccept _ _ _ _ | OAccepted _ _ _ _ => False | _ => True end.

Lemma quiet_not_acc o : quiet_out o -> not_acc o.
Proof. destruct o; cbn; auto. Qed.

Lemma p2v_set s k x j : p2v (set_p2 s (aset k x (p2 s))) j = if j =? k then x else p2v s j.
Proof. unfold p2v. cbn. rewrite afind_aset. destruct (j =? k); reflexivity. Qed.

Lemma phase2_acc_tally c s bn v :
  (forall j, j <> bn -> p2v (phase2_acc c s bn v) j = p2v s j) /\
  (p2v (phase2_acc c s bn v) bn = p2v s bn \/
   (p2v (phase2_acc c s bn v) bn = 1 /\ acc_b (phase2_acc c s bn v) = Some (bn, me c))).
Proof.
  unfold p2v. cbn. destruct (may_promise s (bn, me c)); split; auto.
  - intros j N. rewrite afind_aset_other by exact N. reflexivity.
  - right. rewrite afind_aset_same. auto.
Qed.

(** The four things a handler call can do to phase-2 chains: nothing (a fresh
    ballot starts with tally 0); start phase 2 of a ballot; accept; count an
    Accepted. *)
Lemma step_acc_cases {c s i s' outs} : step c s i = (s', outs) ->
  (Forall quiet_out outs /\ forall j, p2v s' j = p2v s j \/ p2v s' j = 0)
  \/ (exists k rs v o3, afind k (p1 s) = Some rs /\ Z.of_nat (length rs) + 1 = quorum c /\
        outs = map (fun p => OAccept p k (me c) v) (peers c) ++ o3 /\ Forall not_acc o3 /\
        (forall j, j <> k -> p2v s' j = p2v s j) /\ (p2v s' k = p2v s k \/ (p2v s' k = 1 /\ acc_b s' = Some (k, me c))))
  \/ (exists src k b v, i = IAccept src k b v /\ outs = [OAccepted src k b (me c)] /\ p2 s' = p2 s)
  \/ (exists k, i = IAccepted k /\ Forall not_acc outs /\ (forall j, j <> k -> p2v s' j = p2v s j) /\ p2v s' k = p2v s k + 1).
Proof.
  intros ST.
  apply step_graph_eq in ST. destruct ST as [ | | | | | | |bn from ab av rs v s2 dec F LQ AM Ev E2 Ed| |bn dec Ed| ];
    try (left; split; [solve [repeat constructor]|intros j; left; reflexivity]).
  - left. split; [apply Forall_map_all; intros; exact I|]. intros j. unfold p2v. cbn [p2 opened]. rewrite afind_aset.
    destruct (j =? n); [right|left]; reflexivity.
  - right; right; left. exists src, bn, bnode, v. repeat split; reflexivity.
  - destruct (phase2_acc_tally c (set_p1 s (aset bn (rs ++ [(from, ab, av)]) (p1 s))) bn v) as [T1 T2]. subst s2.
    right; left. exists bn, rs, v, (if dec then map (fun p => ODecided p v) (peers c) else []).
    split; [exact F|]. split; [exact LQ|]. split; [reflexivity|].
    split; [destruct dec; [apply Forall_map_all; intros; exact I|constructor]|].
    split; [exact T1|exact T2].
  - left. split; [destruct (amem bn (pvals s)); repeat constructor|intros j; left; reflexivity].
  - right; right; right. exists bn. split; [reflexivity|].
    split; [destruct dec; [apply Forall_map_all; intros; exact I|constructor]|].
    split; [intros j N|]; change (p2v (decided_if _ ?x _ _) ?y) with (p2v x y);
      rewrite p2v_set; [destruct (j =? bn) eqn:X; [lia|reflexivity]|rewrite Z.eqb_refl; reflexivity].
Qed.

Lemma step_pvals_old {c s i s' outs k rs} : ninv c s -> pvinv s -> step c s i = (s', outs) ->
  afind k (p1 s) = Some rs -> quorum c <= Z.of_nat (length rs) -> amem k (pvals s') = true ->
  amem k (pvals s) = true /\ oget k (pvals s') = oget k (pvals s).
Proof.
  intros NI PV ST F L.
  apply step_graph_eq in ST. destruct ST
    as [ | |i n fs pv fid D O LT| | | | |bn from ab av rs0 v s2 dec F0 LQ _ _ E2 _| | | ];
    try (intros AM; split; [exact AM|reflexivity]).
  - apply (opens_pvals_old s i n fs pv fid k O PV). apply afind_amem, (ni_keys c s NI) in F. lia.
  - subst s2. cbn. destruct (Z.eq_dec k bn) as [->|NK]; [exfalso; rewrite F in F0; injection F0 as ->; lia|].
    unfold amem, oget. rewrite afind_aset_other by exact NK. auto.
Qed.

Lemma step_decides {c s i s' outs} : step c s i = (s', outs) -> decided s = false -> decided s' = true ->
  (exists v, i = IDecided v /\ dec_v s' = v) \/
  (exists k, amem k (pvals s') = true /\ dec_v s' = oget k (pvals s') /\ quorum c <= p2v s' k).
Proof.
  intros ST D0.
  apply step_graph_eq in ST. destruct ST as [ | | | | | | |bn from ab av rs v s2 dec F LQ AM Ev E2 Ed| |bn dec Ed|v _];
    cbn; intros D; try congruence.
  - destruct dec; [|subst s2; cbn in D; congruence]. symmetry in Ed. apply andb_prop in Ed as [QL _]. apply Z.leb_le in QL.
    right. exists bn. subst s2. cbn. split; [rewrite amem_aset, Z.eqb_refl; reflexivity|].
    split; [symmetry; apply oget_afind, afind_aset_same|exact QL].
  - destruct dec; [|congruence]. symmetry in Ed. apply andb_prop in Ed as [AM Ed]. apply andb_prop in Ed as [QL _]. apply Z.leb_le in QL.
    right. exists bn. split; [exact AM|]. split; [reflexivity|].
    change (p2v (decided_if _ ?x _ _) ?y) with (p2v x y). rewrite p2v_set, Z.eqb_refl. exact QL.
  - left. exists v. split; reflexivity.
Qed.

(** The phase-2 chain: for ballot (k, p) and acceptor a there is at most one
    token among the Accept to a in flight, a's Accepted in flight, and a's vote
    counted in p's tally. *)
Definition isacc (a k p : Z) (m : Z * pout) : bool :=
  match snd m with OAccept d k' b _ => (d =? a) && (k' =? k) && (b =? p) | _ => false end.
Definition isacd (a k p : Z) (m : Z * pout) : bool :=
  match snd m with OAccepted d k' b f => (d =? p) && (k' =? k) && (b =? p) && (f =? a) | _ => false end.

Lemma isacc_true a k p src m : isacc a k p (src, m) = true -> exists v, m = OAccept a k p v.
Proof. unfold isacc. cbn. destruct m; try discriminate. intros Q. exists v. f_equal; lia. Qed.

Lemma isacd_true a k p src m : isacd a k p (src, m) = true -> m = OAccepted p k p a.
Proof. unfold isacd. cbn. destruct m; try discriminate. intros Q. f_equal; lia. Qed.

Lemma cnt_accepts n i kk v a k p :
  cnt (isacc a k p) (msgs_of i (map (fun d => OAccept d kk i v) (others n i))) =
  if (kk =? k) && (i =? p) then count_occ Z.eq_dec (others n i) a else 0%nat.
Proof.
  apply cnt_bcast; [reflexivity|]. intros d. unfold isacc. cbn. symmetry. apply andb_assoc.
Qed.

Lemma isacd_answers a k p i k' b v : isacd a k p (i, OAccepted b k' b i) = isacc a k p (b, OAccept i k' b v).
Proof. unfold isacd, isacc. cbn. destruct (b =? p), (k' =? k), (i =? a); reflexivity. Qed.

Lemma isacd_recorded a k p src f : isacd a k p (src, OAccepted p k p f) = (f =? a).
Proof. unfold isacd. cbn. rewrite !Z.eqb_refl. reflexivity. Qed.

Lemma not_acc_cnt outs i a k p : Forall not_acc outs ->
  cnt (isacc a k p) (msgs_of i outs) = 0%nat /\ cnt (isacd a k p) (msgs_of i outs) = 0%nat.
Proof.
  intros NA. rewrite Forall_forall in NA.
  split; apply cnt_msgs_zero; intros o Ho; specialize (NA o Ho); destruct o; try reflexivity; destruct NA.
Qed.

Lemma votes_mono n w a x : In x (votes w) -> In x (votes (sys_step n w a)).
Proof.
  intros I. destruct (sys_step_inv n w a); [exact I..|]. cbn [votes]. apply in_or_app. left. exact I.
Qed.

Lemma chosen_mono n w w' b v : (forall x, In x (votes w) -> In x (votes w')) -> chosen n w b v -> chosen n w' b v.
Proof. intros M [Q [IQ VQ]]. exists Q. split; [exact IQ|]. intros a Ha. apply M. exact (VQ a Ha). Qed.

Section Decide.
  Variable n : Z.

  (** [Qc] lists the voters counted in proposer p's tally of ballot (k, p) *)
  Definition tally_ok (w : sys) (p k : Z) (Qc : list Z) : Prop :=
    Z.of_nat (length Qc) = p2v (nodes w p) k /\
    (forall a, In a Qc -> (exists v, voted w a (k, p) v) /\ 0 <= a < n) /\
    (forall a, (cnt (isacc a k p) (net w) + cnt (isacd a k p) (net w) + count_occ Z.eq_dec Qc a <= 1)%nat).

  Lemma tally_NoDup w p k Qc : tally_ok w p k Qc -> NoDup Qc.
  Proof. intros [_ [_ T]]. apply (NoDup_count_occ Z.eq_dec). intros a. specialize (T a). lia. Qed.

  Record dinv (w : sys) : Prop := {
    d_pv : forall i, pvinv (nodes w i);
    d_acd : forall src d k b f, In (src, OAccepted d k b f) (sent w) -> d = b /\ src = f /\ exists v, voted w f (k, b) v;
    d_ack : forall p k, exists Qc, tally_ok w p k Qc;
    d_pvl : forall p k x, prop w (k, p) x -> amem k (pvals (nodes w p)) = true -> oget k (pvals (nodes w p)) = x;
    d_dec : forall i, decided (nodes w i) = true -> exists b, chosen n w b (dec_v (nodes w i));
    d_dmsg : forall src d v, In (src, ODecided d v) (sent w) -> exists b, chosen n w b v;
  }.

  Lemma dinv_init : dinv sys_init.
  Proof.
    split; cbn; try (intros; contradiction); try (intros; discriminate).
    - intros i. constructor.
    - intros p k. exists []. repeat split; intros; try contradiction. cbn. lia.
  Qed.

  Section DinvHandle.
    Context {w i inp net0 tm' pr' s' outs w'} (H : handles n w i inp net0 s' outs w')
            (O : origin n w i inp net0 tm' pr') (AI : ainv n w) (AI' : ainv n w') (DI : dinv w).

    Let NIi : ninv (cfg_of n i) (nodes w i) := ui_ninv n w (a_u n w AI) i.
    Let PVi : pvinv (nodes w i) := d_pv w DI i.
    Let RI : 0 <= i < n := origin_node AI O.

    Lemma chosen_handle b v : chosen n w b v -> chosen n w' b v.
    Proof. apply chosen_mono. exact (h_voted H). Qed.

    Lemma dacd_handle src d k b f :
      In (src, OAccepted d k b f) (sent w') -> d = b /\ src = f /\ exists v, voted w' f (k, b) v.
    Proof.
      intros I. apply (h_sent_In H) in I as [I|I].
      - destruct (d_acd w DI _ _ _ _ _ I) as [A [B [v V]]]. repeat split; auto. exists v. exact (h_voted H _ V).
      - apply In_msgs_of in I as [-> [Io _]].
        destruct (step_emits (h_step H) Io) as [v [EI [_ [_ [EF ES]]]]]. cbn in EF. subst f.
        assert (d = b).
        { pose proof (origin_nth O) as IV. rewrite EI in IV. destruct IV as [k1 [HN _]].
          apply (delivered_sent AI) in HN. exact (proj1 (ui_src n w (a_u n w AI) _ _ _ _ _ HN)). }
        subst d. repeat split; auto. exists (acc_v s').
        pose proof (a_acc n w' AI' i (k, b)) as V. rewrite (h_node_same H) in V. apply V. rewrite ES. reflexivity.
    Qed.

    Lemma tally_keep p k Qc : tally_ok w p k Qc -> p2v (nodes w' p) k = p2v (nodes w p) k ->
      (forall a, (cnt (isacc a k p) (net w') + cnt (isacd a k p) (net w') + count_occ Z.eq_dec Qc a <= 1)%nat) ->
      tally_ok w' p k Qc.
    Proof.
      intros [LN [MEM _]] E T. split; [congruence|]. split; [|exact T].
      intros a Ha. destruct (MEM a Ha) as [[v V] R]. split; [exists v; exact (h_voted H _ V)|exact R].
    Qed.

    Lemma tally_quiet p k Qc : tally_ok w p k Qc ->
      (forall a, cnt (isacc a k p) (msgs_of i outs) = 0%nat /\ cnt (isacd a k p) (msgs_of i outs) = 0%nat) ->
      p2v (nodes w' p) k = p2v (nodes w p) k \/ p2v (nodes w' p) k = 0 ->
      exists Qc', tally_ok w' p k Qc'.
    Proof.
      intros TA Z0 PE.
      assert (T : forall a c', (c' <= count_occ Z.eq_dec Qc a)%nat ->
                (cnt (isacc a k p) (net w') + cnt (isacd a k p) (net w') + c' <= 1)%nat).
      { intros a c' C. rewrite (h_net H). destruct (Z0 a) as [Z1 Z2]. destruct TA as [_ [_ TOK]].
        eapply chain_quiet; [exact (TOK a)|intros P; exact (origin_cnt P O)|exact Z1|exact Z2|exact C]. }
      destruct PE as [E|E].
      - exists Qc. apply tally_keep; [exact TA|exact E|]. intros a. apply T, Nat.le_refl.
      - exists []. split; [rewrite E; reflexivity|]. split; [intros a []|]. intros a. apply T, Nat.le_0_l.
    Qed.

    Lemma unproposed_no_token p k a : (forall x, ~ prop w (k, p) x) ->
      cnt (isacc a k p) (net w) = 0%nat /\ cnt (isacd a k p) (net w) = 0%nat /\ forall v, ~ voted w a (k, p) v.
    Proof.
      intros NP. assert (NV : forall a0 v, ~ voted w a0 (k, p) v) by (intros a0 v V; exact (NP v (a_vprop n w AI _ _ _ V))).
      split; [|split; [|apply NV]]; apply cnt_zero; intros [sr mm] I; apply (a_net n w AI) in I.
      - destruct (isacc a k p (sr, mm)) eqn:Q; [|reflexivity]. apply isacc_true in Q as [v ->].
        exfalso. apply (NP v). exists sr, a. exact I.
      - destruct (isacd a k p (sr, mm)) eqn:Q; [|reflexivity]. apply isacd_true in Q as ->.
        exfalso. destruct (d_acd w DI _ _ _ _ _ I) as [_ [_ [v V]]]. exact (NV _ _ V).
    Qed.

    (** Phase 2 of ballot (k0, i) starts.  Nothing of its chain existed: one
        Accept goes to every other node, and i may count its own vote. *)
    Lemma tally_phase2 k0 rs v o3 p k Qc :
      afind k0 (p1 (nodes w i)) = Some rs -> Z.of_nat (length rs) + 1 = quorum (cfg_of n i) ->
      outs = map (fun d => OAccept d k0 i v) (others n i) ++ o3 -> Forall not_acc o3 ->
      (forall j, j <> k0 -> p2v s' j = p2v (nodes w i) j) ->
      p2v s' k0 = p2v (nodes w i) k0 \/ (p2v s' k0 = 1 /\ acc_b s' = Some (k0, i)) ->
      tally_ok w p k Qc -> exists Qc', tally_ok w' p k Qc'.
    Proof.
      intros F LQ OE NA3 P2o P2k TA.
      assert (MSGS : forall a, cnt (isacc a k p) (msgs_of i outs) =
                               (if (k0 =? k) && (i =? p) then count_occ Z.eq_dec (others n i) a else 0%nat)
                               /\ cnt (isacd a k p) (msgs_of i outs) = 0%nat).
      { intros a. rewrite OE, msgs_of_app, !cnt_app, cnt_accepts. destruct (not_acc_cnt o3 i a k p NA3) as [-> ->].
        split; [apply Nat.add_0_r|]. rewrite Nat.add_0_r. apply cnt_msgs_zero. intros o Ho.
        apply in_map_iff in Ho as [d [<- _]]. reflexivity. }
      destruct ((k0 =? k) && (i =? p)) eqn:KP.
      - assert (k0 = k /\ p = i) as [-> ->] by lia.
        assert (NP : forall x, ~ prop w (k, i) x).
        { intros x [sr [d P]]. cbn in P. destruct (ui_src n w (a_u n w AI) _ _ _ _ _ P) as [_ [rs0 [F0 L0]]].
          rewrite F in F0. inversion F0; subst. lia. }
        assert (Qc = []).
        { destruct Qc as [|q r]; auto. destruct TA as [_ [MEM _]]. destruct (MEM q (or_introl eq_refl)) as [[v0 V0] _].
          exfalso. exact (proj2 (proj2 (unproposed_no_token i k q NP)) _ V0). }
        subst Qc. destruct TA as [LN _].
        assert (OPEN : forall c', (forall a, (count_occ Z.eq_dec (others n i) a + count_occ Z.eq_dec c' a <= 1)%nat) ->
                  forall a, (cnt (isacc a k i) (net w') + cnt (isacd a k i) (net w') + count_occ Z.eq_dec c' a <= 1)%nat).
        { intros c' C a. rewrite (h_net H). destruct (unproposed_no_token i k a NP) as [Z1 [Z2 _]]. destruct (MSGS a) as [M1 M2].
          eapply chain_open; [intros P; exact (origin_cnt P O)|exact Z1|exact Z2|exact M2|].
          rewrite M1. exact (C a). }
        destruct P2k as [E|[E AB]].
        + exists []. split; [rewrite (h_node_same H), E; exact LN|]. split; [intros a []|]. apply OPEN.
          intros a. pose proof (others_count n i a). cbn. lia.
        + exists [i]. split; [rewrite (h_node_same H), E; reflexivity|]. split.
          * intros a [<-|[]]. split; [|exact RI]. exists (acc_v s').
            pose proof (a_acc n w' AI' i (k, i)) as V. rewrite (h_node_same H) in V. exact (V AB).
          * apply OPEN. intros a. exact (others_count n i a).
      - apply (tally_quiet p k Qc TA).
        + intros a. destruct (MSGS a) as [-> ->]. auto.
        + left. apply (h_frame H (fun s => p2v s k)). intros ->. apply P2o. lia.
    Qed.

    Lemma tally_accept src k0 b v p k Qc :
      inp = IAccept src k0 b v -> outs = [OAccepted src k0 b i] -> p2 s' = p2 (nodes w i) ->
      tally_ok w p k Qc -> tally_ok w' p k Qc.
    Proof.
      intros EI OE P2E TA.
      pose proof (origin_nth O) as IV. rewrite EI in IV. destruct IV as [k1 [HN EN]].
      destruct (ui_src n w (a_u n w AI) _ _ _ _ _ (delivered_sent AI HN)) as [-> _].
      apply tally_keep; [exact TA| |].
      - apply (h_frame H (fun s => p2v s k)). intros _. unfold p2v. rewrite P2E. reflexivity.
      - intros a. rewrite (h_net H), EN, OE.
        eapply chain_pass; [exact (proj2 (proj2 TA) a)|exact HN|reflexivity| |apply Nat.le_add_r].
        unfold msgs_of. cbn [filter map is_retry negb]. rewrite cnt_one, (isacd_answers a k p i k0 b v). apply Nat.le_refl.
    Qed.

    Lemma tally_count k0 p k Qc :
      inp = IAccepted k0 -> Forall not_acc outs -> (forall j, j <> k0 -> p2v s' j = p2v (nodes w i) j) ->
      p2v s' k0 = p2v (nodes w i) k0 + 1 -> tally_ok w p k Qc -> exists Qc', tally_ok w' p k Qc'.
    Proof.
      intros EI NA P2o P2k TA.
      pose proof (origin_nth O) as IV. rewrite EI in IV. destruct IV as [k1 [sr [b0 [f0 [HN EN]]]]].
      pose proof (delivered_sent AI HN) as IS. destruct (d_acd w DI _ _ _ _ _ IS) as [<- [<- [v0 V0]]].
      destruct (a_noretry n w AI _ _ IS) as [_ [_ RS]].
      destruct ((k0 =? k) && (i =? p)) eqn:KP.
      - assert (k0 = k /\ p = i) as [-> ->] by lia. destruct TA as [LN [MEM TOK]]. exists (sr :: Qc). split; [|split].
        + rewrite (h_node_same H), P2k. cbn [length]. lia.
        + intros a [<-|Ha]; [split; [exists v0; exact (h_voted H _ V0)|exact RS]|].
          destruct (MEM a Ha) as [[v1 V1] R]. split; [exists v1; exact (h_voted H _ V1)|exact R].
        + intros a. rewrite (h_net H), EN. destruct (not_acc_cnt outs i a k i NA) as [Z1 Z2].
          eapply chain_pass; [exact (TOK a)|exact HN|exact Z1|rewrite Z2; apply Nat.le_0_l|].
          rewrite isacd_recorded, count_occ_cons_eqb. apply Nat.eq_le_incl, Nat.add_comm.
      - apply (tally_quiet p k Qc TA); [intros a; apply not_acc_cnt; exact NA|].
        left. apply (h_frame H (fun s => p2v s k)). intros ->. apply P2o. lia.
    Qed.

    Lemma dack_handle p k : exists Qc, tally_ok w' p k Qc.
    Proof.
      destruct (d_ack w DI p k) as [Qc TA].
      destruct (step_acc_cases (h_step H))
        as [[NA P2]|[(k0 & rs & v & o3 & F & LQ & OE & NA3 & P2o & P2k)
                    |[(src & k0 & b & v & EI & OE & P2E)|(k0 & EI & NA & P2o & P2k)]]].
      - apply (tally_quiet p k Qc TA); [intros a; apply not_acc_cnt; exact (Forall_impl _ quiet_not_acc NA)|].
        apply (h_node_ind H (fun p s => p2v s k = p2v (nodes w p) k \/ p2v s k = 0)); [apply P2|left; reflexivity].
      - exact (tally_phase2 k0 rs v o3 p k Qc F LQ OE NA3 P2o P2k TA).
      - exists Qc. exact (tally_accept src k0 b v p k Qc EI OE P2E TA).
      - exact (tally_count k0 p k Qc EI NA P2o P2k TA).
    Qed.

    Lemma dpvl_handle p k x :
      prop w' (k, p) x -> amem k (pvals (nodes w' p)) = true -> oget k (pvals (nodes w' p)) = x.
    Proof.
      intros [src [d P]]. cbn [fst snd] in P. apply (h_sent_In H) in P as [P|P].
      - (* an older proposal: its ballot has a quorum of responses, phase 2 is past *)
        revert p P. apply (h_node_ind H (fun p s => In (src, OAccept d k p x) (sent w) -> amem k (pvals s) = true -> oget k (pvals s) = x));
          [|intros j _ P; apply (d_pvl w DI); exists src, d; exact P].
        intros P AM. destruct (ui_src n w (a_u n w AI) _ _ _ _ _ P) as [_ [rs [F L]]].
        destruct (step_pvals_old NIi PVi (h_step H) F L AM) as [O1 O2]. rewrite O2. apply (d_pvl w DI i k x); [exists src, d; exact P|exact O1].
      - apply In_msgs_of in P as [-> [Ho _]]. intros _.
        destruct (step_emits (h_step H) Ho) as [_ [E (from & ab & av & rs & _ & _ & _ & _ & _ & _ & V)]].
        cbn in E. subst p. rewrite (h_node_same H). exact V.
    Qed.

    Lemma ddec_handle :
      (forall p k, exists Qc, tally_ok w' p k Qc) ->
      (forall p k x, prop w' (k, p) x -> amem k (pvals (nodes w' p)) = true -> oget k (pvals (nodes w' p)) = x) ->
      forall j, decided (nodes w' j) = true -> exists b, chosen n w' b (dec_v (nodes w' j)).
    Proof.
      intros ACK' PVL'.
      assert (OLD : forall j, decided (nodes w j) = true -> exists b, chosen n w' b (dec_v (nodes w j))).
      { intros j D. destruct (d_dec w DI j D) as [b C]. exists b. exact (chosen_handle _ _ C). }
      apply (h_node_ind H (fun j s => decided s = true -> exists b, chosen n w' b (dec_v s))); [|intros j _; apply OLD].
      intros D. destruct (decided (nodes w i)) eqn:D0.
      - destruct (step_decision_stable (cfg_of n i) (nodes w i) inp D0) as [_ EV]. rewrite (h_step H) in EV.
        cbn [fst] in EV. rewrite EV. apply OLD. exact D0.
      - destruct (step_decides (h_step H) D0 D) as [[v [EI EV]]|[k [AMk [EV QL]]]].
        + rewrite EV. pose proof (origin_nth O) as IV. rewrite EI in IV. destruct IV as [k1 [sr [HN _]]].
          destruct (d_dmsg w DI _ _ _ (delivered_sent AI HN)) as [b C]. exists b. exact (chosen_handle _ _ C).
        + (* the tally of ballot (k, i) has reached the quorum: its voters all voted the value stored for k *)
          destruct (ACK' i k) as [Qc TA]. pose proof (tally_NoDup _ _ _ _ TA) as ND. destruct TA as [LN [MEM _]].
          rewrite (h_node_same H) in LN. rewrite quorum_cfg in QL by exact RI.
          exists (k, i), Qc. split; [split; [exact ND|split; [intros a Ha; apply (MEM a Ha)|lia]]|].
          intros a Ha. destruct (MEM a Ha) as [[v0 V0] _].
          assert (v0 = dec_v s'); [|subst v0; exact V0].
          rewrite EV. symmetry. pose proof (PVL' i k v0 (a_vprop n w' AI' _ _ _ V0)) as E.
          rewrite (h_node_same H) in E. exact (E AMk).
    Qed.

    Lemma ddmsg_handle :
      (forall j, decided (nodes w' j) = true -> exists b, chosen n w' b (dec_v (nodes w' j))) ->
      forall src d v, In (src, ODecided d v) (sent w') -> exists b, chosen n w' b v.
    Proof.
      intros DEC' src d v I. apply (h_sent_In H) in I as [I|I].
      - destruct (d_dmsg w DI _ _ _ I) as [b C]. exists b. exact (chosen_handle _ _ C).
      - apply In_msgs_of in I as [_ [Ho _]].
        destruct (step_emits (h_step H) Ho) as [_ [_ [D EV]]]. specialize (DEC' i). rewrite (h_node_same H) in DEC'.
        rewrite <- EV. exact (DEC' D).
    Qed.

    Lemma dinv_handle : dinv w'.
    Proof.
      pose proof dack_handle as ACK'. pose proof dpvl_handle as PVL'. pose proof (ddec_handle ACK' PVL') as DEC'.
      split; [|exact dacd_handle|exact ACK'|exact PVL'|exact DEC'|exact (ddmsg_handle DEC')].
      apply (h_node_ind H (fun j s => pvinv s)); [|intros j _; apply (d_pv w DI)].
      exact (pvinv_step PVi (h_step H)).
    Qed.
  End DinvHandle.

  Lemma dinv_step w a : ainv n w -> ainv n (sys_step n w a) -> dinv w -> dinv (sys_step n w a).
  Proof.
    intros AI AI' DI. revert AI'. destruct (sys_step_inv n w a) as [|k0|i inp net' tm' pr' s' outs O ST]; intros AI'.
    - exact DI.
    - destruct DI as [PVI ACD ACK PVL DEC DMSG]. split; auto.
      intros p k. destruct (ACK p k) as [Qc [LN [MEM TOK]]]. exists Qc. split; [exact LN|split; [exact MEM|]].
      intros a0. apply chain_drop. exact (TOK a0).
    - exact (dinv_handle (handles_intro net' tm' pr' ST) O AI AI' DI).
  Qed.
End Decide.

Lemma dinv_always n : 2 <= n -> forall sch, dinv n (sys_run n sys_init sch).
Proof.
  intros N sch. refine (proj2 (sys_run_inv n (fun w => (tinv n w /\ ainv n w) /\ dinv n w) _ _ sch)).
  - split; [split; [apply tinv_init|apply ainv_init]|apply dinv_init].
  - intros w a [[TI AI] DI]. pose proof (tainv_step n N w a TI AI) as TA. split; [exact TA|]. apply dinv_step; tauto.
Qed.

(** a node that reports a decision reports a chosen value *)
Theorem decided_is_chosen n : 2 <= n -> forall sch i x,
  report (sys_run n sys_init sch) i = Some x -> exists b, chosen n (sys_run n sys_init sch) b x.
Proof.
  intros N sch i x R. apply report_Some in R as [D ->]. exact (d_dec n _ (dinv_always n N sch) i D).
Qed.

Lemma chosen_run_mono n ext : forall w b v, chosen n w b v -> chosen n (sys_run n w ext) b v.
Proof.
  induction ext as [|e r IH]; cbn; auto. intros w b v C. apply IH. revert C. apply chosen_mono. apply votes_mono.
Qed.

(** AGREEMENT ACROSS TIME: under any message delays, reordering, loss,
    partitions, retry timings and competing proposers, a decision reported
    after [sch] and one reported after any continuation [sch ++ ext] agree
    (with stability, a node's own report never changes, and different nodes
    never disagree at any two moments). *)
Theorem agreement_over_time n : 2 <= n -> forall sch ext i j x y,
  report (sys_run n sys_init sch) i = Some x -> report (sys_run n sys_init (sch ++ ext)) j = Some y -> x = y.
Proof.
  intros N sch ext i j x y RI RJ.
  destruct (decided_is_chosen n N sch i x RI) as [b C]. destruct (decided_is_chosen n N (sch ++ ext) j y RJ) as [b' C'].
  refine (chosen_unique_always n N (sch ++ ext) b x b' y _ C'). rewrite sys_run_app. apply chosen_run_mono. exact C.
Qed.

(** AGREEMENT: any two nodes that report a decided value report the same value. *)
Theorem agreement n : 2 <= n -> forall sch i j x y,
  report (sys_run n sys_init sch) i = Some x -> report (sys_run n sys_init sch) j = Some y -> x = y.
Proof.
  intros N sch i j x y RI RJ. apply (agreement_over_time n N sch [] i j x y RI). rewrite app_nil_r. exact RJ.
Qed.
