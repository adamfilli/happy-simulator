(** C18 — happened-before and the generic causality theorem for any clock
    algorithm whose operations strictly advance the local stamp and dominate
    the received stamp; what its instances need of the hybrid and vector clocks. *)
From HS Require Import Base.Prelude Base.Lists C18.Model.
Local Open Scope Z_scope.

Lemma upd_same {V} (f : Z -> V) k v : upd f k v k = v.
Proof. unfold upd. rewrite Z.eqb_refl. reflexivity. Qed.
Lemma upd_other {V} (f : Z -> V) k v k' : k' <> k -> upd f k v k' = f k'.
Proof. intros H. unfold upd. destruct (Z.eqb_spec k' k); [contradiction|reflexivity]. Qed.


Lemma fold_left_hist {S O} (f : S -> O -> S) (P : list O -> S -> Prop) :
  (forall h s o, P h s -> P (h ++ [o]) (f s o)) ->
  forall l h s, P h s -> P (h ++ l) (fold_left f l s).
Proof.
  intros Hf l; induction l as [|o l IH]; intros h s H; cbn [fold_left].
  - rewrite app_nil_r. exact H.
  - change (h ++ o :: l) with (h ++ [o] ++ l). rewrite app_assoc. apply IH, Hf, H.
Qed.

Lemma fold_left_concat_map {S O X} (f : S -> O -> S) (g : X -> list O) l s :
  fold_left f (concat (map g l)) s = fold_left (fun s x => fold_left f (g x) s) l s.
Proof.
  revert s; induction l as [|x l IH]; intros s; cbn [map concat fold_left]; [reflexivity|].
  rewrite fold_left_app. apply IH.
Qed.

Lemma fold_left_morph {S S' X} (h : S -> S') (F : S -> X -> S) (G : S' -> X -> S') l :
  (forall s x, In x l -> h (F s x) = G (h s) x) -> forall s, h (fold_left F l s) = fold_left G l (h s).
Proof.
  induction l as [|x l IH]; intros HF s; cbn [fold_left]; [reflexivity|].
  rewrite IH, HF; [reflexivity|left; reflexivity|]. intros s0 x0 H0. apply HF. right; exact H0.
Qed.

Section Lists.
  Context {X : Type}.
  Implicit Types l ext : list X.

  Lemma firstn_S_app l ext i : (i < length l)%nat -> firstn (S i) (l ++ ext) = firstn (S i) l.
  Proof.
    intros H. rewrite firstn_app. replace (S i - length l)%nat with 0%nat by lia. cbn. apply app_nil_r.
  Qed.
  Lemma firstn_all_snoc l x : firstn (S (length l)) (l ++ [x]) = l ++ [x].
  Proof. rewrite firstn_all2; [reflexivity|]. rewrite app_length; cbn; lia. Qed.

  Lemma nth_error_ext l ext i x : nth_error l i = Some x -> nth_error (l ++ ext) i = Some x.
  Proof. intros H. rewrite nth_error_app1; [exact H|]. apply nth_error_Some. congruence. Qed.
  Lemma nth_error_snoc l x i y :
    nth_error (l ++ [x]) i = Some y -> nth_error l i = Some y \/ (i = length l /\ y = x).
  Proof.
    intros H. destruct (Nat.lt_ge_cases i (length l)) as [Hlt|Hge].
    - left. rewrite nth_error_app1 in H by exact Hlt. exact H.
    - right. assert (Hi : (i < length (l ++ [x]))%nat) by (apply nth_error_Some; congruence).
      rewrite app_length in Hi; cbn in Hi. assert (i = length l) as -> by lia.
      rewrite nth_error_app_last in H. injection H as <-. auto.
  Qed.
End Lists.

Lemma in_split_last (x : Z) l : In x l -> exists l1 l2, l = l1 ++ x :: l2 /\ ~ In x l2.
Proof.
  induction l as [|y l IH]; intros H; [destruct H|]. destruct (in_dec Z.eq_dec x l) as [Hl|Hl].
  - destruct (IH Hl) as (l1 & l2 & -> & Hn). exists (y :: l1), l2. split; [reflexivity|exact Hn].
  - destruct H as [->|H]; [|contradiction]. exists [], l. split; [reflexivity|exact Hl].
Qed.

Lemma Forall2_nth {X Y} (R : X -> Y -> Prop) la lb : Forall2 R la lb ->
  forall i a, nth_error la i = Some a -> exists b, nth_error lb i = Some b /\ R a b.
Proof.
  induction 1 as [|x y la lb Hxy _ IH]; intros [|i] a Hn; cbn in *; try discriminate.
  - inversion Hn; subst. eauto.
  - apply IH. exact Hn.
Qed.

(** Happened-before on the positions of a history: program order on one node,
    send -> receive of the same message, transitive closure. *)
Inductive hb (tr : list act) : nat -> nat -> Prop :=
| hb_po i j a b :
    (i < j)%nat -> nth_error tr i = Some a -> nth_error tr j = Some b ->
    node_of a = node_of b -> hb tr i j
| hb_msg i j n n' m pt pt' :
    (i < j)%nat -> nth_error tr i = Some (Send n m pt) ->
    nth_error tr j = Some (Recv n' m pt') -> hb tr i j
| hb_trans i j k : hb tr i j -> hb tr j k -> hb tr i k.

Lemma hb_valid tr i j : hb tr i j ->
  (i < j)%nat /\ (exists a, nth_error tr i = Some a) /\ (exists b, nth_error tr j = Some b).
Proof.
  induction 1 as [i j a b Hlt Ha Hb _|i j n n' m pt pt' Hlt Ha Hb|i j k _ [L1 [A1 _]] _ [L2 [_ B2]]].
  - eauto.
  - eauto.
  - split; [lia|]. split; assumption.
Qed.

Section Causal.
  Variable A : clock_alg.
  Variable lt : T A -> T A -> Prop.
  Hypothesis lt_trans : forall a b c, lt a b -> lt b c -> lt a c.
  Hypothesis local_lt : forall n pt c, lt (c_stamp A n c) (c_stamp A n (c_local A n pt c)).
  Hypothesis send_lt : forall n pt c, lt (c_stamp A n c) (c_stamp A n (c_send A n pt c)).
  Hypothesis recv_lt_local : forall n pt c t, lt (c_stamp A n c) (c_stamp A n (c_recv A n pt c t)).
  Hypothesis recv_lt_remote : forall n pt c t, lt t (c_stamp A n (c_recv A n pt c t)).

  Lemma cstep_inv s a s' t : cstep A s a = Some (s', t) ->
    exists c, clk s' = upd (clk s) (node_of a) c /\ t = c_stamp A (node_of a) c /\
      match a with
      | Local n pt => c = c_local A n pt (clk s n) /\ msgs s' = msgs s
      | Send n m pt => c = c_send A n pt (clk s n) /\ msgs s m = None /\ msgs s' = upd (msgs s) m (Some t)
      | Recv n m pt => exists tm, msgs s m = Some tm /\ c = c_recv A n pt (clk s n) tm /\ msgs s' = msgs s
      end.
  Proof.
    destruct a as [n pt|n m pt|n m pt]; cbn [cstep node_of]; [|destruct (msgs s m) as [tm|] eqn:Em..];
      intros E; try discriminate E; injection E as <- <-; eexists; cbn [clk msgs]; eauto 6.
  Qed.

  Lemma cstep_facts s a s' t : cstep A s a = Some (s', t) ->
    lt (c_stamp A (node_of a) (clk s (node_of a))) t /\
    t = c_stamp A (node_of a) (clk s' (node_of a)) /\
    (forall n, n <> node_of a -> clk s' n = clk s n).
  Proof.
    intros H. destruct (cstep_inv _ _ _ _ H) as (c & Hc & -> & Ha). rewrite Hc, upd_same.
    split; [|split; [reflexivity|intros n Hn; apply upd_other, Hn]].
    destruct a as [n pt|n m pt|n m pt]; cbn [node_of].
    - destruct Ha as [-> _]. apply local_lt.
    - destruct Ha as [-> _]. apply send_lt.
    - destruct Ha as (tm & _ & -> & _). apply recv_lt_local.
  Qed.

  (** The message store after a step: as before, except for the fresh id of a send. *)
  Lemma msgs_after s a s' t m : cstep A s a = Some (s', t) ->
    msgs s' m = msgs s m \/ (msgs s m = None /\ msgs s' m = Some t /\ exists n pt, a = Send n m pt).
  Proof.
    intros H. destruct (cstep_inv _ _ _ _ H) as (c & _ & _ & Ha).
    destruct a as [n pt|n m0 pt|n m0 pt].
    - destruct Ha as [_ ->]. left; reflexivity.
    - destruct Ha as (_ & Hn & ->). destruct (Z.eq_dec m m0) as [->|Hne].
      + right. rewrite upd_same. eauto.
      + left. apply upd_other, Hne.
    - destruct Ha as (tm & _ & _ & ->). left; reflexivity.
  Qed.

  Lemma crun_cons s a r s'' ts :
    crun A s (a :: r) = Some (s'', ts) ->
    exists s' t ts', cstep A s a = Some (s', t) /\ crun A s' r = Some (s'', ts') /\ ts = t :: ts'.
  Proof.
    cbn. destruct (cstep A s a) as [[s' t]|] eqn:E1; [|discriminate].
    destruct (crun A s' r) as [[s3 ts']|] eqn:E2; [|discriminate].
    intros H; injection H as <- <-. exists s', t, ts'. auto.
  Qed.

  Lemma crun_length s tr s' ts : crun A s tr = Some (s', ts) -> length ts = length tr.
  Proof.
    revert s s' ts; induction tr as [|a r IH]; intros s s' ts H.
    - cbn in H. injection H as _ <-. reflexivity.
    - apply crun_cons in H as (s1 & t & ts' & _ & Hr & ->). cbn. f_equal. eauto.
  Qed.

  Lemma stamps_Some tr ts : stamps A tr = Some ts -> exists s, crun A (cinit A) tr = Some (s, ts).
  Proof.
    unfold stamps. destruct (crun A (cinit A) tr) as [[s ts0]|]; [|discriminate].
    intros H; injection H as <-. exists s; reflexivity.
  Qed.

  (** Two positions i < j of a run: the step that executes event i, and the rest
      of the run, in which event j sits at some position j'. *)
  Lemma crun_later s tr s' ts i j a ti : crun A s tr = Some (s', ts) -> (i < j)%nat ->
    nth_error tr i = Some a -> nth_error ts i = Some ti ->
    exists s0 s1 r rs j', cstep A s0 a = Some (s1, ti) /\ crun A s1 r = Some (s', rs) /\
      nth_error r j' = nth_error tr j /\ nth_error rs j' = nth_error ts j.
  Proof.
    revert s ts i j; induction tr as [|a0 r IH]; intros s ts i j H Hij Ha Hti; [destruct i; discriminate|].
    apply crun_cons in H as (s1 & t & ts' & Hs & Hr & ->). destruct j as [|j]; [destruct (Nat.nlt_0_r _ Hij)|].
    destruct i as [|i]; cbn in Ha, Hti.
    - injection Ha as <-. injection Hti as <-. exists s, s1, r, ts', j. auto.
    - apply (IH s1 ts' i j Hr); [apply Nat.succ_lt_mono, Hij|assumption..].
  Qed.

  Lemma future_gt s tr s' ts : crun A s tr = Some (s', ts) ->
    forall j a tj, nth_error tr j = Some a -> nth_error ts j = Some tj ->
    lt (c_stamp A (node_of a) (clk s (node_of a))) tj.
  Proof.
    revert s s' ts; induction tr as [|a0 r IH]; intros s s' ts H j a tj Ha Ht.
    - destruct j; discriminate.
    - apply crun_cons in H as (s1 & t & ts' & Hs & Hr & ->).
      destruct (cstep_facts _ _ _ _ Hs) as (Hlt & Heq & Hoth).
      destruct j as [|j]; cbn in Ha, Ht.
      + injection Ha as <-. injection Ht as <-. exact Hlt.
      + specialize (IH _ _ _ Hr j a tj Ha Ht).
        destruct (Z.eq_dec (node_of a) (node_of a0)) as [E|E].
        * rewrite E in *. rewrite <- Heq in IH. eapply lt_trans; eauto.
        * rewrite (Hoth _ E) in IH. exact IH.
  Qed.

  Lemma po_lt s tr s' ts : crun A s tr = Some (s', ts) ->
    forall i j a b ti tj, (i < j)%nat ->
    nth_error tr i = Some a -> nth_error tr j = Some b -> node_of a = node_of b ->
    nth_error ts i = Some ti -> nth_error ts j = Some tj -> lt ti tj.
  Proof.
    intros H i j a b ti tj Hij Ha Hb Hn Hti Htj.
    destruct (crun_later _ _ _ _ i j a ti H Hij Ha Hti) as (s0 & s1 & r & rs & j' & Hs & Hr & Ej & Etj).
    destruct (cstep_facts _ _ _ _ Hs) as (_ & -> & _). rewrite Hn.
    apply (future_gt _ _ _ _ Hr j'); congruence.
  Qed.

  Lemma msg_gt s tr s' ts : crun A s tr = Some (s', ts) ->
    forall m t, msgs s m = Some t ->
    forall j n pt tj, nth_error tr j = Some (Recv n m pt) -> nth_error ts j = Some tj -> lt t tj.
  Proof.
    revert s s' ts; induction tr as [|a0 r IH]; intros s s' ts H m t Hm j n pt tj Ha Ht.
    - destruct j; discriminate.
    - apply crun_cons in H as (s1 & t1 & ts' & Hs & Hr & ->).
      destruct j as [|j]; cbn in Ha, Ht.
      + injection Ha as ->. injection Ht as ->.
        destruct (cstep_inv _ _ _ _ Hs) as (c & _ & -> & tm & Em & -> & _).
        rewrite Hm in Em. injection Em as <-. apply recv_lt_remote.
      + apply (IH _ _ _ Hr m t) with (j := j) (n := n) (pt := pt); [|assumption..].
        destruct (msgs_after _ _ _ _ m Hs) as [E|(E & _)]; [rewrite E; exact Hm|congruence].
  Qed.

  Lemma send_recv_lt s tr s' ts : crun A s tr = Some (s', ts) ->
    forall i j n n' m pt pt' ti tj, (i < j)%nat ->
    nth_error tr i = Some (Send n m pt) -> nth_error tr j = Some (Recv n' m pt') ->
    nth_error ts i = Some ti -> nth_error ts j = Some tj -> lt ti tj.
  Proof.
    intros H i j n n' m pt pt' ti tj Hij Ha Hb Hti Htj.
    destruct (crun_later _ _ _ _ i j _ ti H Hij Ha Hti) as (s0 & s1 & r & rs & j' & Hs & Hr & Ej & Etj).
    destruct (cstep_inv _ _ _ _ Hs) as (c & _ & _ & _ & _ & Hm).
    apply (msg_gt _ _ _ _ Hr m ti) with (j := j') (n := n') (pt := pt'); [|congruence..].
    rewrite Hm. apply upd_same.
  Qed.

  (** The causality theorem: on every well-formed history (the run does not
      fail), happened-before implies strictly smaller timestamps. *)
  Theorem causal tr ts : stamps A tr = Some ts ->
    forall i j, hb tr i j -> forall ti tj,
    nth_error ts i = Some ti -> nth_error ts j = Some tj -> lt ti tj.
  Proof.
    intros H. apply stamps_Some in H as [s' Hrun].
    pose proof (crun_length _ _ _ _ Hrun) as Hlen.
    induction 1 as [i j a b Hlt Ha Hb Hn|i j n n' m pt pt' Hlt Ha Hb|i j k H1 IH1 H2 IH2];
      intros ti tj Hti Htj.
    - eapply po_lt; eauto.
    - eapply send_recv_lt; eauto.
    - destruct (hb_valid _ _ _ H2) as (_ & [b Hb] & _).
      assert (Hj : (j < length ts)%nat) by (rewrite Hlen; apply nth_error_Some; congruence).
      destruct (nth_error ts j) as [tm|] eqn:Etm; [|apply nth_error_None in Etm; lia].
      eapply lt_trans; [eapply IH1|eapply IH2]; eauto.
  Qed.
End Causal.

Lemma hlc_ltb_irrefl a : hlc_ltb a a = false.
Proof. destruct a as [[p l] n]; unfold hlc_ltb; lia. Qed.
Lemma hlc_ltb_trans a b c : hlc_ltb a b = true -> hlc_ltb b c = true -> hlc_ltb a c = true.
Proof. destruct a as [[ap al] an], b as [[bp bl] bn], c as [[cp cl] cn]; unfold hlc_ltb; lia. Qed.
Lemma hlc_total a b : hlc_ltb a b = false -> hlc_ltb b a = false -> a = b.
Proof.
  destruct a as [[p l] n], b as [[p' l'] n']; unfold hlc_ltb; intros H1 H2.
  assert (p = p' /\ l = l' /\ n = n') as (-> & -> & ->) by lia. reflexivity.
Qed.
Lemma hlc_ltb_asym a b : hlc_ltb a b = true -> hlc_ltb b a = false.
Proof.
  intros H. destruct (hlc_ltb b a) eqn:E; [|reflexivity].
  rewrite <- (hlc_ltb_irrefl a). symmetry. exact (hlc_ltb_trans _ _ _ H E).
Qed.
Lemma hlc_negtrans a b c : hlc_ltb a b = false -> hlc_ltb b c = false -> hlc_ltb a c = false.
Proof.
  intros Hab Hbc. destruct (hlc_ltb a c) eqn:Hac; [|reflexivity]. destruct (hlc_ltb b a) eqn:Hba.
  - rewrite <- Hbc. symmetry. exact (hlc_ltb_trans _ _ _ Hba Hac).
  - rewrite (hlc_total _ _ Hab Hba), Hbc in Hac. discriminate.
Qed.
(** [a > b] as [functools.total_ordering] derives it from [__lt__] and [__eq__]. *)
Lemma hlc_gtb_ltb a b : negb (hlc_ltb a b) && negb (hlc_eqb a b) = hlc_ltb b a.
Proof. destruct a as [[p l] n], b as [[p' l'] n']; unfold hlc_ltb, hlc_eqb; lia. Qed.

(** [now] and [receive] strictly advance the node's stamp; [receive] also passes the
    stamp received. *)
Lemma hlc_now_lt n pt c : hlc_ltb (c_stamp hlc n c) (c_stamp hlc n (hlc_now pt c)) = true.
Proof. destruct c as [lp ll]. unfold hlc_now, hlc_ltb. destruct (pt >? lp) eqn:E; cbn; lia. Qed.

Lemma hlc_recv_lt n pt c t :
  hlc_ltb (c_stamp hlc n c) (c_stamp hlc n (hlc_recv pt c t)) = true /\
  hlc_ltb t (c_stamp hlc n (hlc_recv pt c t)) = true.
Proof.
  destruct c as [lp ll], t as [[rp rl] rn]. unfold hlc_recv, hlc_ltb. set (mx := Z.max (Z.max pt lp) rp).
  assert (Hmx : lp <= mx /\ rp <= mx) by lia. clearbody mx.
  destruct ((mx =? lp) && (lp =? rp)) eqn:E1; [cbn; lia|].
  destruct (mx =? lp) eqn:E2; [cbn; lia|]. destruct (mx =? rp) eqn:E3; cbn; lia.
Qed.

Definition vc_lt (a b : vec) : Prop := (forall k, a k <= b k) /\ exists k, a k < b k.

Lemma vc_lt_trans a b c : vc_lt a b -> vc_lt b c -> vc_lt a c.
Proof.
  intros [L1 [k S1]] [L2 _]. split.
  - intros x. specialize (L1 x); specialize (L2 x); lia.
  - exists k. specialize (L2 k); lia.
Qed.

Lemma vc_lt_ext a a' b b' : (forall k, a k = a' k) -> (forall k, b k = b' k) -> vc_lt a b -> vc_lt a' b'.
Proof. intros Ea Eb [L [k S]]. split; [intros x|exists k]; rewrite <- Ea, <- Eb; auto. Qed.

(** Every operation leaves the node with some vector at least its old clock (and the
    received stamp), own entry one up. *)
Lemma vc_bump_lt n v w : (forall k, v k <= w k) -> vc_lt v (upd w n (w n + 1)).
Proof.
  intros H. split.
  - intros k. specialize (H k). destruct (Z.eq_dec k n) as [->|Hk]; [rewrite upd_same|rewrite upd_other by exact Hk]; lia.
  - exists n. specialize (H n). rewrite upd_same. lia.
Qed.

Theorem vector_causal tr ts : stamps vector tr = Some ts ->
  forall i j, hb tr i j -> forall ti tj,
  nth_error ts i = Some ti -> nth_error ts j = Some tj -> vc_lt ti tj.
Proof.
  apply (causal vector vc_lt); [exact vc_lt_trans|..]; intros; apply vc_bump_lt; intros k; cbn; lia.
Qed.

(** The boolean test of the code, [happened_before], decides [vc_lt] whenever
    the key list covers every key on which the two vectors differ. *)
Lemma vc_hbb_spec keys a b :
  (forall k, ~ In k keys -> a k = b k) ->
  vc_hbb keys a b = true <-> vc_lt a b.
Proof.
  intros Hout. unfold vc_hbb, vc_leb, vc_lt. split.
  - intros H. apply andb_true_iff in H as [Hle Hex]. apply existsb_exists in Hex as [k [Hin Hk]].
    pose proof (proj1 (forallb_forall _ _) Hle) as Hle'. split; [|exists k; lia].
    intros x. destruct (in_dec Z.eq_dec x keys) as [I|I]; [specialize (Hle' _ I)|rewrite (Hout _ I)]; lia.
  - intros [Hle [k Hk]]. apply andb_true_iff. split.
    + apply forallb_forall. intros x _. specialize (Hle x). lia.
    + apply existsb_exists. exists k. split; [|lia]. destruct (in_dec Z.eq_dec k keys) as [I|I]; [exact I|].
      rewrite (Hout _ I) in Hk. lia.
Qed.

(** Non-vacuity: a three-node history with a message chain. *)
Example causal_example :
  let tr := [Send 0 100 5; Local 1 2; Recv 1 100 1; Send 1 101 1; Recv 2 101 0] in
  stamps lamport tr = Some [1; 1; 2; 3; 4] /\ hb tr 0 4.
Proof.
  split; [reflexivity|].
  eapply hb_trans; [eapply hb_msg with (i := 0%nat) (j := 2%nat); cbn; eauto|].
  eapply hb_trans; [eapply hb_po with (i := 2%nat) (j := 3%nat); cbn; eauto|].
  eapply hb_msg with (i := 3%nat) (j := 4%nat); cbn; eauto.
Qed.
