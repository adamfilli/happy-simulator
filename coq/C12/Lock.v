(** C12 — DistributedLock: fencing tokens strictly increase across grants, for
    every sequence of acquire / try_acquire / release / lease-expiry calls. *)
From HS Require Import Base.Prelude Base.Lists C12.Model C12.PaxosNode C12.LockModel.
From Coq Require Import Sorted.
Local Open Scope Z_scope.

Definition tok (g : grant) : Z := snd (fst g).

(** The invariant reads four fields only (the counters and the future ids do
    not matter); stated of these fields, it survives an update of the others by
    computation. *)
Record lock_ok (nt : Z) (lk : list (Z * lockst)) (res : list (Z * option grant)) (gl : list grant) : Prop := {
  li_sorted : StronglySorted Z.lt (map tok gl);
  li_below : Forall (fun t => t < nt) (map tok gl);
  li_res : forall f g, In (f, Some g) res -> In g gl;
  li_hold : forall k l h, In (k, l) lk -> holder l = Some h -> In (k, ltoken l, h) gl;
}.

Definition linv (d : dlock) : Prop := lock_ok (next_token d) (locks d) (lresolved d) (glog d).

Lemma linv_init : linv dinit.
Proof. split; cbn; try constructor; intros; contradiction. Qed.

Lemma lget_In k d l : afind k (locks d) = Some l -> In (k, l) (locks d).
Proof. apply afind_In. Qed.

(** [_grant_lock] logs the grant it returns, under the next token. *)
Lemma grant_lock_linv k req d :
  linv d -> linv (fst (grant_lock k req d)) /\ In (snd (grant_lock k req d)) (glog (fst (grant_lock k req d))).
Proof.
  intros [S B R H]. unfold grant_lock. cbn [fst snd glog]. split; [|apply in_or_app; right; left; reflexivity].
  split; cbn [next_token locks lresolved glog]; rewrite ?map_app.
  - apply ss_snoc; assumption.
  - apply Forall_app; split; [|repeat constructor; cbn; lia].
    eapply Forall_impl; [|exact B]. cbn; intros; lia.
  - intros f g I. apply in_or_app; left; eauto.
  - intros k0 l h I E. apply in_or_app. apply In_aset in I as [I|I]; [right|left; eauto].
    inversion I; subst. cbn in E. inversion E; subst. left; reflexivity.
Qed.

Lemma set_lock_linv k l d :
  linv d -> (forall h, holder l = Some h -> In (k, ltoken l, h) (glog d)) -> linv (set_lock k l d).
Proof.
  intros [S B R H] X. split; auto.
  intros k0 l0 h I E. apply In_aset in I as [I|I]; [inversion I; subst; auto|eauto].
Qed.

Lemma lget_hold k d h : linv d -> holder (lget k d) = Some h -> In (k, ltoken (lget k d), h) (glog d).
Proof.
  intros [S B R H]. unfold lget. destruct (afind k (locks d)) eqn:F; cbn; [|discriminate].
  apply afind_In in F. eauto.
Qed.

Lemma set_waiters_linv k ws d : linv d -> linv (set_lock k (mkL (holder (lget k d)) (ltoken (lget k d)) ws) d).
Proof. intros L. apply set_lock_linv; [exact L|]. cbn. intros h E. apply lget_hold; assumption. Qed.

Lemma resolve_linv f v d : linv d -> (forall g, v = Some g -> In g (glog d)) -> linv (resolve f v d).
Proof.
  intros [S B R H] X. split; auto.
  intros f0 g I. apply in_app_or in I as [I|[I|[]]]; [eauto|inversion I; subst; auto].
Qed.

Lemma wake_linv k ws : forall d, linv d -> linv (wake k ws d).
Proof.
  induction ws as [|[req f] r IH]; intros d L; cbn [wake].
  - apply set_waiters_linv, L.
  - set (d0 := set_lock k _ d). assert (L0 : linv d0) by apply set_waiters_linv, L.
    destruct (is_resolved f d0); [apply IH; auto|].
    destruct (grant_lock_linv k req d0 L0) as [L1 I1]. destruct (grant_lock k req d0) as [d1 g].
    apply resolve_linv; auto. intros g0 E; inversion E; subst; auto.
Qed.

Lemma ensure_linv k d : linv d -> linv (ensure k d).
Proof.
  intros L. unfold ensure. destruct (amem k (locks d)); auto. destruct L as [S B R H]. split; auto.
  intros k0 l h I E. apply in_app_or in I as [I|[I|[]]]; [eauto|inversion I; subst; discriminate].
Qed.

Lemma clear_holder_linv k d : linv d -> linv (clear_holder k d).
Proof. intros L. apply set_lock_linv; auto. cbn; discriminate. Qed.

Lemma lstep_linv maxw d o : linv d -> linv (fst (lstep maxw d o)).
Proof.
  intros L. destruct o; cbn [lstep].
  - unfold new_future. set (d1 := ensure lock _). assert (L1 : linv d1) by (apply ensure_linv, L).
    destruct (holder (lget lock d1)) as [h|] eqn:Hh.
    + destruct (Z.eqb_spec h req) as [->|N]; [|destruct ((0 <? maxw) && _)]; cbn [fst].
      * apply resolve_linv; auto. intros g X; inversion X; subst. apply lget_hold; auto.
      * apply resolve_linv; [exact L1|discriminate].
      * rewrite <- Hh. apply set_waiters_linv, L1.
    + destruct (grant_lock_linv lock req d1 L1) as [L2 I2]. destruct (grant_lock lock req d1) as [d2 g].
      apply resolve_linv; auto. intros g0 X; inversion X; subst; auto.
  - set (d1 := ensure lock d). assert (L1 : linv d1) by (apply ensure_linv, L).
    destruct (holder (lget lock d1)) as [h|].
    + destruct (h =? req); exact L1.
    + destruct (grant_lock_linv lock req d1 L1) as [L2 _]. destruct (grant_lock lock req d1); exact L2.
  - destruct (afind lock (locks d)); [|exact L]. destruct (holder l); [|exact L].
    destruct (negb (ltoken l =? tok0)); [exact L|]. apply wake_linv, clear_holder_linv, L.
  - destruct (afind lock (locks d)); [|exact L]. destruct (holder l); [|exact L].
    destruct (negb (ltoken l =? tok0)); [exact L|]. apply wake_linv, clear_holder_linv, L.
Qed.

Lemma lrun_linv maxw ops : forall d, linv d -> linv (lrun maxw d ops).
Proof. induction ops; cbn; auto. intros d L. apply IHops, lstep_linv, L. Qed.

(** FENCING: the tokens handed out by successive calls of [_grant_lock] are
    strictly increasing, whatever the calls. *)
Theorem tokens_strictly_increase maxw ops :
  StronglySorted Z.lt (map tok (glog (lrun maxw dinit ops))).
Proof. apply (lrun_linv maxw ops dinit linv_init). Qed.

(** Distinct grants carry distinct tokens (consequence of strict increase). *)
Theorem tokens_distinct maxw ops : NoDup (map tok (glog (lrun maxw dinit ops))).
Proof. apply (ss_NoDup Z.lt); [intros a; lia|apply tokens_strictly_increase]. Qed.

Example lock_demo :
  map tok (glog (lrun 0 dinit [LAcquire 0 1; LAcquire 0 2; LAcquire 0 1; LRelease 0 1; LTry 1 3; LExpire 0 2])) = [1; 2; 3].
Proof. vm_compute. reflexivity. Qed.
