(** C11 — the submit-future clause, which is FALSE of the faithful model (known
    finding C11-future-keyed-by-index): its statement and a concrete 3-node
    schedule that violates it. *)
From HS Require Import Base.Prelude C11.Model.
Local Open Scope Z_scope.

(** The command passed to the k-th [submit] call (k = 0,1,...) at node i. *)
Fixpoint submitted (acts : list action) (i k : Z) : option Z :=
  match acts with
  | [] => None
  | ASubmit j c :: r =>
      if j =? i then (if k =? 0 then Some c else submitted r i (k - 1)) else submitted r i k
  | _ :: r => submitted r i k
  end.

(** "A client's submit future resolves only with the index at which exactly its
    command was committed": at least, the result it resolves with is the result
    of its own command (the recording state machine returns the command). *)
Definition submit_future_statement : Prop :=
  forall l acts i f idx res, NoDup l -> In i l ->
    In (f, idx, res) (resolved (nodes (net_run (net_init l) acts) i)) ->
    submitted acts i f = Some res.

(** n0 leads term 1 and accepts submit(12) at index 1 (never replicated); n1 is
    elected in term 2 by n2, accepts submit(21) at index 1 and commits it with
    n2; n1's AppendEntries makes n0 replace its entry 1, apply 21 and resolve
    the future of 12 with (1, 21). *)
Definition future_witness : list action :=
  [ATimeout 0; ADeliver 1%nat; ADeliver 1%nat; ADrop 0%nat; ADrop 0%nat; ADrop 0%nat; ASubmit 0 12;
   ATimeout 1; ADrop 0%nat; ADrop 0%nat; ATimeout 1; ADeliver 1%nat; ADeliver 1%nat;
   ADrop 0%nat; ADrop 0%nat; ADrop 0%nat; ASubmit 1 21; AHeartbeat 1; ADeliver 1%nat; ADeliver 1%nat;
   ADrop 0%nat; AHeartbeat 1; ADeliver 0%nat].

Lemma future_witness_resolved :
  resolved (nodes (net_run (net_init [0; 1; 2]) future_witness) 0) = [(0, 1, 21)] /\
  submitted future_witness 0 0 = Some 12.
Proof. vm_compute. split; reflexivity. Qed.
