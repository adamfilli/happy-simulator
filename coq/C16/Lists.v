(** C16 — lemmas about the list / association-list helpers of Model.v.  The
    map laws are proved once, for any value type, and instantiated by conversion. *)
From HS Require Import Base.Prelude Base.Lists C16.Model.
Local Open Scope Z_scope.

(** The model binds the results of a call by [let '(a, b) := ...]: the same in terms of projections. *)
Lemma let_pair {A B C} (x : A * B) (f : A -> B -> C) : (let '(a, b) := x in f a b) = f (fst x) (snd x).
Proof. destruct x. reflexivity. Qed.

Lemma let_triple {A B C D} (x : A * B * C) (f : A -> B -> C -> D) :
  (let '(a, b, c) := x in f a b c) = f (fst (fst x)) (snd (fst x)) (snd x).
Proof. destruct x as [[a b] c]. reflexivity. Qed.

Lemma zmem_In k l : zmem k l = true <-> In k l.
Proof. apply existsb_eqb_In. Qed.

Lemma zmem_false k l : zmem k l = false <-> ~ In k l.
Proof. rewrite <- zmem_In. destruct (zmem k l); split; congruence. Qed.


Lemma In_snoc x k (l : list Z) : In x (l ++ [k]) <-> x = k \/ In x l.
Proof. rewrite in_app_iff. cbn. split; [intros [H|[->|[]]]|intros [->|H]]; auto. Qed.


Lemma In_remove1 k x l : In x (remove1 k l) -> In x l.
Proof.
  induction l as [|y l IH]; cbn; [tauto|]. destruct (y =? k); cbn; tauto.
Qed.

Lemma In_remove1_neq k x l : x <> k -> (In x (remove1 k l) <-> In x l).
Proof.
  intros Hn. induction l as [|y l IH]; cbn; [tauto|].
  destruct (y =? k) eqn:E; cbn.
  - apply Z.eqb_eq in E. subst. split; [tauto|intros [H|H]; [congruence|exact H]].
  - rewrite IH. tauto.
Qed.

Lemma NoDup_remove1 k l : NoDup l -> NoDup (remove1 k l).
Proof.
  induction 1 as [|y l Hn Hd IH]; cbn; [constructor|].
  destruct (y =? k); [exact Hd|]. constructor; [|exact IH].
  intros Hi. apply Hn. eapply In_remove1; eauto.
Qed.

Lemma notin_remove1 k l : NoDup l -> ~ In k (remove1 k l).
Proof.
  induction 1 as [|y l Hn Hd IH]; cbn; [tauto|].
  destruct (y =? k) eqn:E.
  - apply Z.eqb_eq in E. subst. exact Hn.
  - apply Z.eqb_neq in E. intros [H|H]; [congruence|tauto].
Qed.

Lemma In_remove1_iff k x l : NoDup l -> (In x (remove1 k l) <-> In x l /\ x <> k).
Proof.
  intros Hd. split.
  - intros H. split; [eapply In_remove1; eauto|]. intros ->. exact (notin_remove1 _ _ Hd H).
  - intros [H Hn]. apply In_remove1_neq; auto.
Qed.

Lemma remove1_spec k l : NoDup l ->
  NoDup (remove1 k l) /\ (forall x, In x (remove1 k l) <-> In x l /\ x <> k).
Proof. intros H. split; [apply NoDup_remove1; exact H|intros x; apply In_remove1_iff; exact H]. Qed.

Lemma remove1_notin k l : ~ In k l -> remove1 k l = l.
Proof.
  induction l as [|y l IH]; cbn; [reflexivity|]. intros H.
  destruct (y =? k) eqn:E; [apply Z.eqb_eq in E; tauto|]. rewrite IH; tauto.
Qed.

Lemma guard_remove1 k l : (if zmem k l then remove1 k l else l) = remove1 k l.
Proof. destruct (zmem k l) eqn:E; [reflexivity|]. symmetry. apply remove1_notin, zmem_false, E. Qed.

Lemma remove1_head k l : remove1 k (k :: l) = l.
Proof. cbn. rewrite Z.eqb_refl. reflexivity. Qed.

Lemma add_end_in k l : In k l -> add_end k l = l.
Proof. intros H. apply zmem_In in H. unfold add_end. rewrite H. reflexivity. Qed.

Lemma add_end_notin k l : ~ In k l -> add_end k l = l ++ [k].
Proof. intros H. apply zmem_false in H. unfold add_end. rewrite H. reflexivity. Qed.

Lemma In_add_end k x l : In x (add_end k l) <-> x = k \/ In x l.
Proof.
  destruct (in_dec Z.eq_dec k l) as [H|H].
  - rewrite add_end_in by exact H. split; [tauto|intros [->|Hx]; auto].
  - rewrite add_end_notin by exact H. apply In_snoc.
Qed.

Lemma NoDup_add_end k l : NoDup l -> NoDup (add_end k l).
Proof.
  intros Hd. destruct (in_dec Z.eq_dec k l) as [H|H].
  - rewrite add_end_in by exact H. exact Hd.
  - rewrite add_end_notin by exact H. apply NoDup_snoc; assumption.
Qed.

Lemma add_end_spec k l : NoDup l ->
  NoDup (add_end k l) /\ (forall x, In x (add_end k l) <-> x = k \/ In x l).
Proof. intros H. split; [apply NoDup_add_end; exact H|intros x; apply In_add_end]. Qed.

Lemma In_push_end k x l : In x (remove1 k l ++ [k]) <-> x = k \/ In x l.
Proof.
  rewrite In_snoc. destruct (Z.eq_dec x k) as [->|Hn]; [tauto|].
  rewrite In_remove1_neq by exact Hn. tauto.
Qed.

Lemma NoDup_push_end k l : NoDup l -> NoDup (remove1 k l ++ [k]).
Proof. intros H. apply NoDup_snoc; [apply NoDup_remove1|apply notin_remove1]; exact H. Qed.

Lemma In_move_end k x l : In x (move_end k l) <-> In x l.
Proof.
  unfold move_end. destruct (zmem k l) eqn:E; [|tauto]. apply zmem_In in E.
  rewrite In_push_end. split; [intros [->|Hx]; assumption|auto].
Qed.

Lemma NoDup_move_end k l : NoDup l -> NoDup (move_end k l).
Proof. unfold move_end. destruct (zmem k l); [apply NoDup_push_end|tauto]. Qed.

Lemma move_end_spec k l : NoDup l ->
  NoDup (move_end k l) /\ (forall x, In x (move_end k l) <-> In x l).
Proof. intros H. split; [apply NoDup_move_end; exact H|intros x; apply In_move_end]. Qed.

Lemma zlen_nonneg {A} (l : list A) : 0 <= zlen l.
Proof. unfold zlen. lia. Qed.

Lemma zlen_cons {A} (x : A) l : zlen (x :: l) = zlen l + 1.
Proof. unfold zlen. cbn [length]. lia. Qed.

Lemma zlen_app {A} (a b : list A) : zlen (a ++ b) = zlen a + zlen b.
Proof. unfold zlen. rewrite app_length. lia. Qed.

Lemma zlen_map {A B} (f : A -> B) l : zlen (map f l) = zlen l.
Proof. unfold zlen. rewrite map_length. reflexivity. Qed.

Lemma zlen_remove1 k l : In k l -> zlen (remove1 k l) = zlen l - 1.
Proof.
  unfold zlen. induction l as [|y l IH]; cbn [In remove1 length]; [tauto|].
  destruct (y =? k) eqn:E; [lia|]. apply Z.eqb_neq in E. intros [Hc|Hi]; [congruence|].
  specialize (IH Hi). cbn [length]. lia.
Qed.

Lemma zlen_remove1_le k l : zlen (remove1 k l) <= zlen l.
Proof.
  destruct (in_dec Z.eq_dec k l) as [H|H]; [rewrite zlen_remove1 by exact H; lia|].
  rewrite remove1_notin by exact H. lia.
Qed.

Lemma zlen_add_end_le k l : zlen (add_end k l) <= zlen l + 1.
Proof.
  destruct (in_dec Z.eq_dec k l) as [H|H]; [rewrite add_end_in by exact H; lia|].
  rewrite add_end_notin, zlen_app by exact H. cbn. lia.
Qed.

Lemma nodup_same_length (a b : list Z) :
  NoDup a -> NoDup b -> (forall x, In x a <-> In x b) -> length a = length b.
Proof.
  intros Ha Hb H. apply Nat.le_antisymm; apply NoDup_incl_length; auto; intros x Hx; apply H; exact Hx.
Qed.

Section Assoc.
Context {V : Type}.
Implicit Type m : list (Z * V).

Fixpoint gget (k : Z) m : option V :=
  match m with
  | [] => None
  | (k', v) :: r => if k' =? k then Some v else gget k r
  end.

Fixpoint gset (k : Z) (v : V) m : list (Z * V) :=
  match m with
  | [] => [(k, v)]
  | (k', v') :: r => if k' =? k then (k', v) :: r else (k', v') :: gset k v r
  end.

Fixpoint gdel (k : Z) m : list (Z * V) :=
  match m with
  | [] => []
  | (k', v') :: r => if k' =? k then r else (k', v') :: gdel k r
  end.

Definition gkeys m : list Z := map fst m.

Definition gmem (k : Z) m : bool := match gget k m with Some _ => true | None => false end.

Lemma gkeys_gset k v m : gkeys (gset k v m) = add_end k (gkeys m).
Proof.
  unfold add_end, gkeys. induction m as [|[k' v'] m IH]; cbn; [reflexivity|].
  unfold zmem in *. cbn. rewrite (Z.eqb_sym k k'). destruct (k' =? k) eqn:E; cbn; [reflexivity|].
  rewrite IH. destruct (existsb (Z.eqb k) (map fst m)); reflexivity.
Qed.

Lemma gkeys_gdel k m : gkeys (gdel k m) = remove1 k (gkeys m).
Proof.
  unfold gkeys. induction m as [|[k' v'] m IH]; cbn; [reflexivity|].
  destruct (k' =? k); cbn; [reflexivity|]. rewrite IH. reflexivity.
Qed.

Lemma gget_gset_same k v m : gget k (gset k v m) = Some v.
Proof.
  induction m as [|[k' v'] m IH]; cbn; [rewrite Z.eqb_refl; reflexivity|].
  destruct (k' =? k) eqn:E; cbn; rewrite E; auto.
Qed.

Lemma gget_gset_other k k' v m : k' <> k -> gget k' (gset k v m) = gget k' m.
Proof.
  intros Hn. induction m as [|[k2 v2] m IH]; cbn.
  - destruct (k =? k') eqn:E; [apply Z.eqb_eq in E; congruence|reflexivity].
  - destruct (k2 =? k) eqn:E; cbn.
    + apply Z.eqb_eq in E. subst. destruct (k =? k') eqn:E2; [apply Z.eqb_eq in E2; congruence|reflexivity].
    + rewrite IH. reflexivity.
Qed.

Lemma gget_gdel_other k k' m : k' <> k -> gget k' (gdel k m) = gget k' m.
Proof.
  intros Hn. induction m as [|[k2 v2] m IH]; cbn; [reflexivity|].
  destruct (k2 =? k) eqn:E; cbn.
  - apply Z.eqb_eq in E. subst. destruct (k =? k') eqn:E2; [apply Z.eqb_eq in E2; congruence|reflexivity].
  - rewrite IH. reflexivity.
Qed.

Lemma gget_None k m : gget k m = None <-> ~ In k (gkeys m).
Proof.
  unfold gkeys. induction m as [|[k2 v2] m IH]; cbn; [tauto|].
  destruct (k2 =? k) eqn:E.
  - apply Z.eqb_eq in E. split; [discriminate|tauto].
  - apply Z.eqb_neq in E. rewrite IH. tauto.
Qed.

Lemma gget_Some_In k v m : gget k m = Some v -> In k (gkeys m).
Proof.
  intros H. destruct (in_dec Z.eq_dec k (gkeys m)) as [Hi|Hn]; [exact Hi|].
  apply gget_None in Hn. congruence.
Qed.

Lemma gmem_In k m : gmem k m = true <-> In k (gkeys m).
Proof.
  unfold gmem. destruct (gget k m) eqn:E.
  - split; [intros _; eapply gget_Some_In; eauto|reflexivity].
  - split; [discriminate|]. intros H. apply gget_None in E. tauto.
Qed.

Lemma gmem_false k m : gmem k m = false <-> ~ In k (gkeys m).
Proof. rewrite <- gmem_In. destruct (gmem k m); split; congruence. Qed.

Lemma gget_gdel_same k m : NoDup (gkeys m) -> gget k (gdel k m) = None.
Proof. intros H. apply gget_None. rewrite gkeys_gdel. apply notin_remove1. exact H. Qed.

Lemma zlen_gkeys m : zlen (gkeys m) = zlen m.
Proof. apply zlen_map. Qed.

Lemma zlen_gdel k m : In k (gkeys m) -> zlen (gdel k m) = zlen m - 1.
Proof. intros H. rewrite <- !zlen_gkeys, gkeys_gdel. apply zlen_remove1. exact H. Qed.

Lemma zlen_gdel_le k m : zlen (gdel k m) <= zlen m.
Proof. rewrite <- !zlen_gkeys, gkeys_gdel. apply zlen_remove1_le. Qed.

Lemma zlen_gset_in k v m : In k (gkeys m) -> zlen (gset k v m) = zlen m.
Proof. intros H. rewrite <- !zlen_gkeys, gkeys_gset, add_end_in by exact H. reflexivity. Qed.

Lemma zlen_gset_le k v m : zlen (gset k v m) <= zlen m + 1.
Proof. rewrite <- !zlen_gkeys, gkeys_gset. apply zlen_add_end_le. Qed.

End Assoc.

Lemma akeys_aset k v m : akeys (aset k v m) = add_end k (akeys m).
Proof. exact (gkeys_gset k v m). Qed.
Lemma akeys_adel k m : akeys (adel k m) = remove1 k (akeys m).
Proof. exact (gkeys_gdel k m). Qed.
Lemma aget_aset_same k v m : aget k (aset k v m) = Some v.
Proof. exact (gget_gset_same k v m). Qed.
Lemma aget_aset_other k k' v m : k' <> k -> aget k' (aset k v m) = aget k' m.
Proof. exact (gget_gset_other k k' v m). Qed.
Lemma aget_adel_other k k' m : k' <> k -> aget k' (adel k m) = aget k' m.
Proof. exact (gget_gdel_other k k' m). Qed.
Lemma aget_adel_same k m : NoDup (akeys m) -> aget k (adel k m) = None.
Proof. exact (gget_gdel_same k m). Qed.
Lemma aget_None k m : aget k m = None <-> ~ In k (akeys m).
Proof. exact (gget_None k m). Qed.
Lemma aget_Some_In k v m : aget k m = Some v -> In k (akeys m).
Proof. exact (gget_Some_In k v m). Qed.
Lemma amem_In k m : amem k m = true <-> In k (akeys m).
Proof. exact (gmem_In k m). Qed.
Lemma amem_false k m : amem k m = false <-> ~ In k (akeys m).
Proof. exact (gmem_false k m). Qed.
Lemma zlen_adel k m : In k (akeys m) -> zlen (adel k m) = zlen m - 1.
Proof. exact (zlen_gdel k m). Qed.
Lemma zlen_adel_le k m : zlen (adel k m) <= zlen m.
Proof. exact (zlen_gdel_le k m). Qed.
Lemma zlen_aset_in k v m : In k (akeys m) -> zlen (aset k v m) = zlen m.
Proof. exact (zlen_gset_in k v m). Qed.
Lemma zlen_aset_le k v m : zlen (aset k v m) <= zlen m + 1.
Proof. exact (zlen_gset_le k v m). Qed.

Lemma adel_keys_spec k m : NoDup (akeys m) ->
  NoDup (akeys (adel k m)) /\ (forall x, In x (akeys (adel k m)) <-> In x (akeys m) /\ x <> k).
Proof. rewrite akeys_adel. apply remove1_spec. Qed.

Lemma aset_keys_spec k v m : NoDup (akeys m) ->
  NoDup (akeys (aset k v m)) /\ (forall x, In x (akeys (aset k v m)) <-> x = k \/ In x (akeys m)).
Proof. rewrite akeys_aset. apply add_end_spec. Qed.

Lemma aset_keys_same k v m : NoDup (akeys m) -> In k (akeys m) ->
  NoDup (akeys (aset k v m)) /\ (forall x, In x (akeys (aset k v m)) <-> In x (akeys m)).
Proof. intros H Hi. rewrite akeys_aset, add_end_in by exact Hi. split; [exact H|tauto]. Qed.

Lemma argmin_from_In f b l : argmin_from f b l = b \/ In (argmin_from f b l) l.
Proof.
  revert b. induction l as [|x l IH]; intros b; cbn; [auto|].
  destruct (f x <? f b).
  - destruct (IH x) as [->|H]; auto.
  - destruct (IH b) as [->|H]; auto.
Qed.

Lemma argmin_spec f l : l <> [] -> exists k, argmin f l = Some k /\ In k l.
Proof.
  destruct l as [|x l]; [congruence|]. intros _. cbn. eexists. split; [reflexivity|].
  destruct (argmin_from_In f x l) as [->|Hi]; auto.
Qed.
