(** C19 — the OutboxRelay machine of C19/OutboxModel.v: every entry marked
    relayed is emitted or held by a suspended poll ([noloss]; each step extends
    the account, [noloss_grow]); a suspended poll is untouched by operations on
    other handles ([olookup_step]). *)
From HS Require Import Base.Prelude Base.Lists C19.Model C19.Lists C19.OutboxModel.
Local Open Scope Z_scope.

(** Occurrences of entry [id] in the "processed" lists of the suspended polls. *)
Fixpoint held (id : Z) (fr : list (Z * (list Z * list Z))) : Z :=
  match fr with
  | [] => 0
  | (_, (_, done)) :: r => cnt id done + held id r
  end.

Definition flag (s : outbox) (id : Z) : bool := nth (Z.to_nat (id - 1)) (ob_flags s) false.

(** No loss: an entry that is marked relayed either already had its relay event
    returned to the engine, or sits in the processed list of a suspended poll
    (which returns it when it completes, [c19_outbox_poll_completes]). *)
Definition noloss (s : outbox) : Prop :=
  forall id, 1 <= id -> flag s id = true -> 1 <= cnt id (ob_emitted s) + held id (ob_frames s).

Lemma orun_fold cfg ops : forall s, fst (orun_from cfg s ops) = fold_left (fun s o => fst (ostep cfg s o)) ops s.
Proof. apply (run_from_fold (ostep cfg) (orun_from cfg)); reflexivity. Qed.

Lemma nth_set_flag i : forall flags j,
  nth j (set_flag i flags) false = if Nat.eqb i j then Nat.ltb j (length flags) else nth j flags false.
Proof.
  induction i as [|i IH]; intros [|b r] [|j]; cbn; try reflexivity.
  - destruct (Nat.eqb i j); reflexivity.
  - rewrite IH. reflexivity.
Qed.

Lemma flag_mark_same s id : flag (mark s id) id = Nat.ltb (Z.to_nat (id - 1)) (length (ob_flags s)).
Proof. unfold flag, mark. cbn [ob_flags]. rewrite nth_set_flag, Nat.eqb_refl. reflexivity. Qed.

Lemma flag_mark s id0 id : 1 <= id -> 1 <= id0 -> flag (mark s id0) id = true -> In id [id0] \/ flag s id = true.
Proof.
  unfold flag, mark. cbn [ob_flags]. intros H H0. rewrite nth_set_flag.
  destruct (Nat.eqb_spec (Z.to_nat (id0 - 1)) (Z.to_nat (id - 1))); [left; left; lia|right; assumption].
Qed.

Lemma mark_all_flag ids : forall s id, 1 <= id -> (forall x, In x ids -> 1 <= x) ->
  flag (mark_all s ids) id = true -> In id ids \/ flag s id = true.
Proof.
  induction ids as [|a r IH]; intros s id H HA HF; [right; exact HF|]. cbn [mark_all] in HF.
  destruct (IH (mark s a) id H (fun x Hx => HA x (or_intror Hx)) HF) as [HI|HM]; [left; right; exact HI|].
  destruct (flag_mark s a id H (HA a (or_introl eq_refl)) HM) as [[->|[]]|HS]; [left; left; reflexivity|right; exact HS].
Qed.

Lemma mark_all_emitted ids : forall s, ob_emitted (mark_all s ids) = ob_emitted s.
Proof. induction ids as [|a r IH]; intros s; [reflexivity|]. cbn [mark_all]. rewrite IH. reflexivity. Qed.

Lemma mark_all_frames ids : forall s, ob_frames (mark_all s ids) = ob_frames s.
Proof. induction ids as [|a r IH]; intros s; [reflexivity|]. cbn [mark_all]. rewrite IH. reflexivity. Qed.

Lemma flag_app_false s id : 1 <= id ->
  nth (Z.to_nat (id - 1)) (ob_flags s ++ [false]) false = true -> flag s id = true.
Proof.
  unfold flag. intros H. destruct (Nat.ltb_spec (Z.to_nat (id - 1)) (length (ob_flags s))).
  - rewrite app_nth1 by assumption. auto.
  - rewrite app_nth2 by assumption. destruct (_ - _)%nat as [|[|k]]; cbn; discriminate.
Qed.

Lemma pending_ids_ge flags : forall id0 x, In x (pending_ids flags id0) -> id0 <= x.
Proof.
  induction flags as [|b r IH]; intros id0 x; cbn; [tauto|]. destruct b.
  - intros H. specialize (IH _ _ H). lia.
  - intros [<-|H]; [lia|]. specialize (IH _ _ H). lia.
Qed.

Lemma held_nonneg id fr : 0 <= held id fr.
Proof. induction fr as [|[h [rest d]] r IH]; cbn; [lia|]. pose proof (cnt_nonneg id d). lia. Qed.

Lemma held_remkey id h fr rest d :
  lookup h fr = Some (rest, d) -> held id (remkey h fr) <= held id fr /\ held id fr <= held id (remkey h fr) + held id (filter (fun e => Z.eqb h (fst e)) fr).
Proof.
  intros _. induction fr as [|[k [r0 d0]] r IH]; cbn; [lia|].
  destruct (Z.eqb_spec h k); cbn; pose proof (cnt_nonneg id d0); lia.
Qed.

Lemma held_lookup_ge id h fr rest d : lookup h fr = Some (rest, d) -> cnt id d <= held id fr.
Proof.
  induction fr as [|[k [r0 d0]] r IH]; cbn; [discriminate|].
  destruct (Z.eqb_spec h k).
  - intros E. injection E as -> ->. pose proof (held_nonneg id r). lia.
  - intros E. specialize (IH E). pose proof (cnt_nonneg id d0). lia.
Qed.

(** With several frames under one handle, [remkey] drops them all and the two
    bounds of [held_remkey] are all one can say.  The invariant keeps handles unique among
    suspended polls, which makes the arithmetic exact. *)
Definition uniq (fr : list (Z * (list Z * list Z))) : Prop := NoDup (map fst fr).

Lemma held_remkey_exact id h fr rest d :
  uniq fr -> lookup h fr = Some (rest, d) -> held id fr = cnt id d + held id (remkey h fr).
Proof.
  unfold uniq. induction fr as [|[k [r0 d0]] r IH]; cbn; [discriminate|]. intros N. inversion N as [|? ? NI ND]; subst.
  destruct (Z.eqb_spec h k).
  - subst k. intros E. injection E as -> ->. rewrite remkey_notin by exact NI. reflexivity.
  - intros E. cbn. rewrite (IH ND E). lia.
Qed.

Lemma uniq_remkey h fr : uniq fr -> uniq (remkey h fr).
Proof.
  unfold uniq. induction fr as [|[a v] r IH]; cbn; [auto|]. intros N. inversion N as [|? ? NI ND]; subst.
  destruct (Z.eqb_spec h a); [apply IH; exact ND|]. cbn. constructor; [|apply IH; exact ND].
  intros H. apply In_remkey in H. tauto.
Qed.

Lemma uniq_readd h v fr : uniq fr -> uniq ((h, v) :: remkey h fr).
Proof.
  intros U. unfold uniq. cbn. constructor; [|apply uniq_remkey; exact U].
  intros H. apply In_remkey in H. tauto.
Qed.

(** Entry ids waiting in a frame are positive (they index the flag list from 1). *)
Definition frames_ge (fr : list (Z * (list Z * list Z))) : Prop :=
  forall h rest d, lookup h fr = Some (rest, d) -> forall x, In x rest -> 1 <= x.

Lemma frames_ge_remkey h fr : frames_ge fr -> frames_ge (remkey h fr).
Proof.
  intros G k rest d E x Hx. destruct (Z.eq_dec k h) as [->|N].
  - rewrite lookup_remkey_same in E. discriminate.
  - rewrite lookup_remkey_other in E by exact N. apply (G k rest d E x Hx).
Qed.

Lemma frames_ge_add h rest d fr :
  (forall x, In x rest -> 1 <= x) -> frames_ge fr -> frames_ge ((h, (rest, d)) :: fr).
Proof.
  intros HR G k rest' d' E x Hx. cbn [lookup] in E. destruct (Z.eqb_spec k h).
  - injection E as <- <-. apply HR. exact Hx.
  - apply (G k rest' d' E x Hx).
Qed.

(** Well-formed traces: a poll starts with a handle that no suspended poll uses
    (each generator object is its own handle). *)
Definition oop_wf (s : outbox) (o : oop) : Prop :=
  match o with OPollBegin h _ => ~ In h (map fst (ob_frames s)) | _ => True end.

Record obinv (s : outbox) : Prop := { oi_noloss : noloss s; oi_uniq : uniq (ob_frames s); oi_ge : frames_ge (ob_frames s) }.

(** Every step marks some entries [new] and accounts for each of them at once,
    as emitted or as processed by a suspended poll, without forgetting any id
    accounted for before. *)
Lemma noloss_grow s s' new :
  noloss s ->
  (forall x, 1 <= x -> flag s' x = true -> In x new \/ flag s x = true) ->
  (forall x, cnt x (ob_emitted s) + held x (ob_frames s) + cnt x new <= cnt x (ob_emitted s') + held x (ob_frames s')) ->
  noloss s'.
Proof.
  intros NL F C x H HF. specialize (C x). pose proof (cnt_nonneg x new).
  destruct (F x H HF) as [HI|HS].
  - apply cnt_In in HI. pose proof (cnt_nonneg x (ob_emitted s)). pose proof (held_nonneg x (ob_frames s)). lia.
  - specialize (NL x H HS). lia.
Qed.

Lemma obinv_step cfg s o : obinv s -> oop_wf s o -> obinv (fst (ostep cfg s o)).
Proof.
  intros [NL U G] W. destruct o; cbn [ostep oop_wf] in *.
  - constructor; [|exact U|exact G]. apply (noloss_grow s _ [] NL).
    + intros x H HF. right. apply flag_app_false; assumption.
    + intros x. cbn [fst ob_emitted ob_frames cnt]. lia.
  - destruct (ob_sched s); constructor; assumption.
  - constructor; assumption.
  - (* a poll starts: the counter update changes nothing the invariant reads *)
    set (s0 := {| ob_flags := ob_flags s; ob_written := ob_written s; ob_relayedn := ob_relayedn s;
                  ob_cycles := ob_cycles s + 1; ob_sched := false; ob_frames := ob_frames s; ob_emitted := ob_emitted s |}).
    assert (NL0 : noloss s0) by exact NL.
    destruct (firstn _ _) as [|id rest] eqn:EB.
    + constructor; [|exact U|exact G]. apply (noloss_grow s0 _ [] NL0).
      * intros x H HF. right. exact HF.
      * intros x. cbn [fst finish ob_emitted ob_frames cnt]. rewrite app_nil_r. lia.
    + assert (GE : forall x, In x (id :: rest) -> 1 <= x).
      { intros x Hx. rewrite <- EB in Hx. apply In_firstn in Hx. apply (pending_ids_ge _ _ _ Hx). }
      destruct (ob_latpos cfg).
      * constructor.
        -- apply (noloss_grow s0 _ [id] NL0).
           ++ intros x H. apply flag_mark; [exact H|apply GE; left; reflexivity].
           ++ intros x. cbn [fst set_frames ob_emitted ob_frames mark held]. lia.
        -- unfold uniq. cbn. constructor; [exact W|exact U].
        -- apply frames_ge_add; [|exact G]. intros x Hx. apply GE. right. exact Hx.
      * constructor; cbn [fst finish ob_frames]; rewrite ?mark_all_frames; [|exact U|exact G].
        apply (noloss_grow s0 _ (id :: rest) NL0).
        -- intros x H. apply mark_all_flag; assumption.
        -- intros x. cbn [fst finish ob_emitted ob_frames]. rewrite cnt_app, mark_all_emitted. lia.
  - destruct (lookup h (ob_frames s)) as [[rest d]|] eqn:EL; [|constructor; assumption].
    destruct rest as [|id r].
    + constructor; [|apply uniq_remkey; exact U|apply frames_ge_remkey; exact G].
      apply (noloss_grow s _ [] NL).
      * intros x H HF. right. exact HF.
      * intros x. cbn [fst finish set_frames ob_emitted ob_frames cnt]. rewrite cnt_app, (held_remkey_exact x h _ _ _ U EL). lia.
    + assert (GE1 : 1 <= id) by (apply (G h (id :: r) d EL); left; reflexivity).
      constructor; [|apply uniq_readd; exact U|].
      * apply (noloss_grow s _ [id] NL).
        -- intros x H. apply flag_mark; assumption.
        -- intros x. cbn [fst set_frames ob_emitted ob_frames mark held]. rewrite cnt_app, (held_remkey_exact x h _ _ _ U EL). lia.
      * apply frames_ge_add; [|apply frames_ge_remkey; exact G].
        intros x Hx. apply (G h (id :: r) d EL). right. exact Hx.
Qed.

Fixpoint owf_ops (cfg : obcfg) (s : outbox) (ops : list oop) : Prop :=
  match ops with
  | [] => True
  | o :: r => oop_wf s o /\ owf_ops cfg (fst (ostep cfg s o)) r
  end.

Lemma obinv_init : obinv outbox_init.
Proof.
  constructor.
  - intros id H HF. unfold flag in HF. cbn in HF. destruct (Z.to_nat (id - 1)); discriminate.
  - constructor.
  - intros h rest d E. discriminate.
Qed.

Lemma obinv_run_from cfg ops s : obinv s -> owf_ops cfg s ops -> obinv (fst (orun_from cfg s ops)).
Proof.
  intros I W. rewrite orun_fold.
  refine (proj1 (fold_left_inv_rest _ (fun s r => obinv s /\ owf_ops cfg s r) _ ops s (conj I W))).
  intros s0 o r [I0 [W1 W2]]. split; [apply obinv_step; assumption|exact W2].
Qed.

Definition ohandle (o : oop) : option Z :=
  match o with OPollBegin h _ | OPollResume h _ => Some h | _ => None end.

Lemma olookup_step cfg s o h : ohandle o <> Some h -> lookup h (ob_frames (fst (ostep cfg s o))) = lookup h (ob_frames s).
Proof.
  intros N. destruct o; cbn [ostep ohandle] in *; try reflexivity.
  - destruct (ob_sched s); reflexivity.
  - destruct (firstn _ _) as [|id rest]; [reflexivity|]. destruct (ob_latpos cfg).
    + apply lookup_cons_other. congruence.
    + cbn [fst finish ob_frames]. rewrite mark_all_frames. reflexivity.
  - destruct (lookup h0 (ob_frames s)) as [[rest d]|]; [|reflexivity].
    destruct rest as [|id r]; cbn [fst finish set_frames ob_frames].
    + apply lookup_remkey_other. congruence.
    + rewrite lookup_cons_other by congruence. apply lookup_remkey_other. congruence.
Qed.

Lemma olookup_run_from cfg ops s h :
  Forall (fun o => ohandle o <> Some h) ops -> lookup h (ob_frames (fst (orun_from cfg s ops))) = lookup h (ob_frames s).
Proof.
  rewrite orun_fold. apply (fold_left_keeps _ (fun s => lookup h (ob_frames s))).
  intros s0 o. apply olookup_step.
Qed.

Lemma In_finish_relay cfg s d now id t : In (ORelay id t) (snd (finish cfg s d now)) <-> In id d /\ t = now.
Proof.
  cbn [finish snd]. rewrite in_app_iff, in_map_iff. split.
  - intros [(x & E & HI)|H]; [injection E as -> <-; auto|]. destruct (_ || _); [destruct H as [H|[]]; discriminate|destruct H].
  - intros [HI ->]. left. exists id. auto.
Qed.

Example outbox_wf_example :
  let cfg := {| ob_batch := 2; ob_latpos := true; ob_interval := 5 |} in
  let ops := [OWrite; OWrite; OPrimeEvent 0; OPollBegin 1 5; OWrite; OPollResume 1 6; OPollResume 1 7; OPollBegin 2 12] in
  owf_ops cfg outbox_init ops /\ ob_emitted (orun cfg ops) = [1; 2].
Proof.
  cbn zeta. split; [|vm_compute; reflexivity]. cbn [owf_ops oop_wf]. repeat split; vm_compute; tauto.
Qed.
