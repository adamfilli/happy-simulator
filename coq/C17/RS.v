(** C17 — executable model of happysimulator/components/datastore/replicated_store.py
    (ReplicatedStore.put/get over KVStore replicas) and the invariant of its runs
    ([rinv_run]) from which C17/Props.v reads off that an acknowledged put has
    been applied on every replica.

    One step per segment of a client handler that runs [yield from store.put(k, v)]
    or [yield from store.get(k)]: the generators yield the latency of one replica
    at a time and touch that replica when resumed. *)
From HS Require Import Base.Prelude C17.Model C17.ListSurgery.
Local Open Scope Z_scope.

Inductive level := L_ONE | L_QUORUM | L_ALL.

Record rcfg := { rc_n : nat; rc_read : level; rc_write : level; rc_wlat : list Z; rc_rlat : list Z }.

Definition required (n : nat) (l : level) : nat :=
  match l with L_ONE => 1 | L_QUORUM => n / 2 + 1 | L_ALL => n end.

Inductive rpc :=
| RSPut (wid key val : Z) (i : nat)                      (* inside replicas[i].put *)
| RSGet (rid key : Z) (i : nat) (resp : list (option Z)). (* inside replicas[i].get *)

Record rproc := { rp_id : Z; rp_pc : rpc }.

Record rstate := {
  r_rep : nat -> dict;                 (* replica i's KVStore._data *)
  r_log : nat -> list (Z * Z);         (* ghost: completed puts (key, value) of replica i *)
  r_procs : list rproc; r_next : Z;
  r_reads : Z; r_writes : Z; r_rs : Z; r_ws : Z;     (* reads, writes, read_successes, write_successes *)
  r_acked : list (Z * Z * Z);          (* ghost: puts that returned True (wid, key, value) *)
}.

Definition rinit : rstate :=
  {| r_rep := fun _ => []; r_log := fun _ => []; r_procs := []; r_next := 0;
     r_reads := 0; r_writes := 0; r_rs := 0; r_ws := 0; r_acked := [] |}.

Inductive rinp := RPutStart (wid key val : Z) | RGetStart (rid key : Z) | RResume (pid : Z).
Inductive rout := ROPut (wid : Z) (ok : bool) | ROGet (rid : Z) (v : option Z).

Definition nupd {V} (f : nat -> V) (k : nat) (v : V) : nat -> V := fun k' => if Nat.eqb k' k then v else f k'.

Fixpoint rfind (pid : Z) (l : list rproc) : option rproc :=
  match l with [] => None | p :: r => if rp_id p =? pid then Some p else rfind pid r end.
Fixpoint rset (pid : Z) (c : rpc) (l : list rproc) : list rproc :=
  match l with
  | [] => []
  | p :: r => if rp_id p =? pid then {| rp_id := pid; rp_pc := c |} :: r else p :: rset pid c r
  end.
Fixpoint rdel (pid : Z) (l : list rproc) : list rproc :=
  match l with [] => [] | p :: r => if rp_id p =? pid then r else p :: rdel pid r end.

Definition first_some (l : list (option Z)) : option Z :=
  fold_right (fun x acc => match x with Some v => Some v | None => acc end) None l.

Definition mk (s : rstate) rep lg procs next rd wr rs ws acked : rstate :=
  {| r_rep := rep; r_log := lg; r_procs := procs; r_next := next; r_reads := rd; r_writes := wr;
     r_rs := rs; r_ws := ws; r_acked := acked |}.

Definition rstep (c : rcfg) (s : rstate) (i : rinp) : option (rstate * list rout * yld) :=
  match i with
  | RPutStart wid k v =>
      Some (mk s (r_rep s) (r_log s) (r_procs s ++ [{| rp_id := r_next s; rp_pc := RSPut wid k v 0 |}])
               (r_next s + 1) (r_reads s) (r_writes s + 1) (r_rs s) (r_ws s) (r_acked s),
            [], YDelay (nth 0 (rc_wlat c) 0))
  | RGetStart rid k =>
      Some (mk s (r_rep s) (r_log s) (r_procs s ++ [{| rp_id := r_next s; rp_pc := RSGet rid k 0 [] |}])
               (r_next s + 1) (r_reads s + 1) (r_writes s) (r_rs s) (r_ws s) (r_acked s),
            [], YDelay (nth 0 (rc_rlat c) 0))
  | RResume pid =>
      match rfind pid (r_procs s) with
      | None => None
      | Some p =>
          match rp_pc p with
          | RSPut wid k v j =>
              let rep := nupd (r_rep s) j (dput k v (r_rep s j)) in
              let lg := nupd (r_log s) j (r_log s j ++ [(k, v)]) in
              if (S j <? rc_n c)%nat then
                Some (mk s rep lg (rset pid (RSPut wid k v (S j)) (r_procs s)) (r_next s) (r_reads s) (r_writes s)
                         (r_rs s) (r_ws s) (r_acked s), [], YDelay (nth (S j) (rc_wlat c) 0))
              else
                (* acks = number of replicas >= required *)
                Some (mk s rep lg (rdel pid (r_procs s)) (r_next s) (r_reads s) (r_writes s)
                         (r_rs s) (r_ws s + 1) ((wid, k, v) :: r_acked s), [ROPut wid true], YEnd)
          | RSGet rid k j resp =>
              let resp' := resp ++ [dget k (r_rep s j)] in
              let enough := (required (rc_n c) (rc_read c) <=? length resp')%nat in
              match (if enough then first_some resp' else None) with
              | Some v =>
                  Some (mk s (r_rep s) (r_log s) (rdel pid (r_procs s)) (r_next s) (r_reads s) (r_writes s)
                           (r_rs s + 1) (r_ws s) (r_acked s), [ROGet rid (Some v)], YEnd)
              | None =>
                  if (S j <? rc_n c)%nat then
                    Some (mk s (r_rep s) (r_log s) (rset pid (RSGet rid k (S j) resp') (r_procs s)) (r_next s)
                             (r_reads s) (r_writes s) (r_rs s) (r_ws s) (r_acked s), [], YDelay (nth (S j) (rc_rlat c) 0))
                  else
                    Some (mk s (r_rep s) (r_log s) (rdel pid (r_procs s)) (r_next s) (r_reads s) (r_writes s)
                             (r_rs s + 1) (r_ws s) (r_acked s), [ROGet rid None], YEnd)
              end
          end
      end
  end.

Fixpoint rrun (c : rcfg) (s : rstate) (sched : list rinp) : option rstate :=
  match sched with
  | [] => Some s
  | i :: r => match rstep c s i with Some (s', _, _) => rrun c s' r | None => None end
  end.

(** * Comparison with the implementation *)
Definition rout_eqb (a b : rout) : bool :=
  match a, b with
  | ROPut w o, ROPut w' o' => (w =? w') && Bool.eqb o o'
  | ROGet r v, ROGet r' v' => (r =? r') && oz_eqb v v'
  | _, _ => false
  end.

Definition robs (c : rcfg) (s : rstate) : list (list (Z * Z)) * list Z :=
  (map (fun j => r_rep s j) (seq 0 (rc_n c)), [r_reads s; r_writes s; r_rs s; r_ws s]).

Definition rseg : Type := rinp * list rout * yld * (list (list (Z * Z)) * list Z).

Fixpoint rreplay (c : rcfg) (s : rstate) (tr : list rseg) : option rstate :=
  match tr with
  | [] => Some s
  | (i, outs, y, ob) :: r =>
      match rstep c s i with
      | None => None
      | Some (s', outs', y') =>
          if list_eqb rout_eqb outs' outs && yld_eqb y' y
             && list_eqb (list_eqb zz_eqb) (fst (robs c s')) (fst ob) && list_eqb Z.eqb (snd (robs c s')) (snd ob)
          then rreplay c s' r else None
      end
  end.

Definition ok_rs (cs : (nat * level * level * list Z * list Z) * list rseg) : bool :=
  let '((n, rl, wl, wlat, rlat), tr) := cs in
  let c := {| rc_n := n; rc_read := rl; rc_write := wl; rc_wlat := wlat; rc_rlat := rlat |} in
  match rreplay c rinit tr with Some _ => true | None => false end.


Lemma nupd_put_incl (lg : nat -> list (Z * Z)) j e i : incl (lg i) (nupd lg j (lg j ++ [e]) i).
Proof. unfold nupd. destruct (Nat.eqb_spec i j) as [->|]; [apply incl_appl|]; apply incl_refl. Qed.
Lemma nupd_put_in (lg : nat -> list (Z * Z)) j e : In e (nupd lg j (lg j ++ [e]) j).
Proof. unfold nupd. rewrite Nat.eqb_refl. apply in_or_app; right; now left. Qed.

Definition rproc_ok (lg : nat -> list (Z * Z)) (p : rproc) : Prop :=
  match rp_pc p with
  | RSPut _ k v j => forall i, (i < j)%nat -> In (k, v) (lg i)
  | RSGet _ _ _ _ => True
  end.

Lemma rproc_ok_mono lg lg' p : (forall i, incl (lg i) (lg' i)) -> rproc_ok lg p -> rproc_ok lg' p.
Proof. intros M. unfold rproc_ok. destruct (rp_pc p) as [w k v j|]; [|auto]. intros H i0 Hi. apply M, H, Hi. Qed.

Record RInv (c : rcfg) (s : rstate) : Prop := {
  ri_procs : forall p, In p (r_procs s) -> rproc_ok (r_log s) p;
  ri_acked : forall w k v, In (w, k, v) (r_acked s) -> forall i, (i < rc_n c)%nat -> In (k, v) (r_log s i);
}.

Lemma rinv_step c s i : RInv c s -> after (RInv c) (rstep c s i).
Proof.
  intros [Ip Ia]. destruct i as [w k v|r k|pid]; cbn [rstep after fst].
  - split; [|exact Ia]. intros p Hin. apply in_app_or in Hin.
    destruct Hin as [Hin|[<-|[]]]; [exact (Ip p Hin)|]. intros i Hi. lia.
  - split; [|exact Ia]. intros p Hin. apply in_app_or in Hin.
    destruct Hin as [Hin|[<-|[]]]; [exact (Ip p Hin)|exact I].
  - destruct (rfind pid (r_procs s)) as [p|] eqn:F; [|exact I].
    pose proof (Ip p (tfind_in F)) as Hok. unfold rproc_ok in Hok.
    destruct (rp_pc p) as [w k v j|r k j resp].
    + set (lg' := nupd (r_log s) j (r_log s j ++ [(k, v)])).
      assert (M : forall i, incl (r_log s i) (lg' i)) by (intros i; apply nupd_put_incl).
      assert (New : forall i, (i < S j)%nat -> In (k, v) (lg' i)).
      { intros i Hi. destruct (Nat.eq_dec i j) as [->|Hij]; [apply nupd_put_in|apply M, Hok; lia]. }
      assert (Ip' : forall q, In q (r_procs s) -> rproc_ok lg' q).
      { intros q Hq. exact (rproc_ok_mono _ _ q M (Ip q Hq)). }
      assert (Ia' : forall w k v, In (w, k, v) (r_acked s) -> forall i, (i < rc_n c)%nat -> In (k, v) (lg' i)).
      { intros w0 k0 v0 Hin i Hi. exact (M i _ (Ia _ _ _ Hin i Hi)). }
      destruct (S j <? rc_n c)%nat eqn:Lt; split; cbn [fst mk r_procs r_log r_acked].
      * intros q Hin. destruct (in_tset F Hin) as [Hq| ->]; [exact (Ip' q Hq)|exact New].
      * exact Ia'.
      * intros q Hin. exact (Ip' q (in_tdel F Hin)).
      * (* every replica has been written: acks = number of replicas *)
        intros w0 k0 v0 [E|Hin] i Hi; [|exact (Ia' _ _ _ Hin i Hi)].
        injection E as _ <- <-. apply New. apply Nat.ltb_ge in Lt. lia.
    + destruct (if (required (rc_n c) (rc_read c) <=? length (resp ++ [dget k (r_rep s j)]))%nat
                then first_some (resp ++ [dget k (r_rep s j)]) else None);
        [|destruct (S j <? rc_n c)%nat]; (split; [|exact Ia]); intros q Hin.
      * exact (Ip q (in_tdel F Hin)).
      * destruct (in_tset F Hin) as [Hq| ->]; [exact (Ip q Hq)|exact I].
      * exact (Ip q (in_tdel F Hin)).
Qed.

Lemma rinv_run c sched s s' : RInv c s -> rrun c s sched = Some s' -> RInv c s'.
Proof. exact (grun_inv (fun _ _ => true) (fun s i I _ => rinv_step c s i I) sched s s'). Qed.
