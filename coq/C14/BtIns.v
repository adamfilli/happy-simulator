(** C14 — B-tree: insertion (leaf update, split of a full child, descent). *)
From HS Require Import Base.Prelude C14.BtModel C14.LsmProofs C14.BtRep.
Local Open Scope Z_scope.

Lemma insert_at_0 {A} (x : A) l : insert_at 0 x l = x :: l.
Proof. reflexivity. Qed.
Lemma insert_at_S {A} i (x y : A) l : insert_at (S i) x (y :: l) = y :: insert_at i x l.
Proof. reflexivity. Qed.
Lemma set_at_S {A} i (x y : A) l : set_at (S i) x (y :: l) = y :: set_at i x l.
Proof. reflexivity. Qed.
Lemma insert_at_length {A} i (x : A) l : length (insert_at i x l) = S (length l).
Proof. unfold insert_at. rewrite app_length. cbn [length]. pose proof (firstn_skipn i l) as E. apply (f_equal (@length A)) in E. rewrite app_length in E. lia. Qed.

Lemma insert_at_after {A} i (x d : A) l : (i < length l)%nat ->
  insert_at (S i) x l = firstn i l ++ [nth i l d; x] ++ skipn (S i) l.
Proof.
  revert l; induction i as [|i IH]; intros [|y l] H; cbn in H; try lia; [reflexivity|].
  rewrite insert_at_S. cbn [firstn skipn nth app]. f_equal. apply IH. lia.
Qed.

Lemma nth_middle_eq {A} i (d : A) l : (i < length l)%nat -> firstn i l ++ nth i l d :: skipn (S i) l = l.
Proof.
  revert l; induction i as [|i IH]; intros [|y l] H; cbn in H; try lia; [reflexivity|].
  cbn [firstn skipn nth app]. f_equal. apply IH. lia.
Qed.

Lemma in_mid {A} (x : A) a b c : In x (a ++ b ++ c) <-> In x b \/ In x (a ++ c).
Proof. rewrite !in_app_iff. tauto. Qed.

Lemma zlen_app {A} (a b : list A) : zlen (a ++ b) = zlen a + zlen b.
Proof. unfold zlen. rewrite app_length. lia. Qed.

Lemma zlen_combine (ks vs : list Z) : length vs = length ks -> zlen (combine ks vs) = zlen ks.
Proof. intros E. unfold zlen. rewrite combine_length, E. lia. Qed.

(** The leaf step of _insert_non_full. *)
Lemma leaf_upsert ks : forall lo hi (vs : list Z) k v, keys_in lo hi ks -> length vs = length ks -> lo_ok lo k -> hi_ok hi k ->
  let idx := bisect_left ks k in
  if found ks k
  then combine ks (set_at idx v vs) = ainsert k v (combine ks vs) /\ length (set_at idx v vs) = length ks
  else combine (insert_at idx k ks) (insert_at idx v vs) = ainsert k v (combine ks vs) /\
       keys_in lo hi (insert_at idx k ks) /\ length (insert_at idx v vs) = length (insert_at idx k ks).
Proof.
  induction ks as [|x r IH]; intros lo hi vs k v K E L H; cbn zeta.
  - destruct vs; [|discriminate]. cbn. auto.
  - destruct vs as [|y vr]; [discriminate|]. injection E as E. destruct K as (A & B & C).
    cbn [bisect_left combine]. destruct (Z.ltb_spec x k) as [L1|L1].
    + rewrite ainsert_lt by exact L1.
      specialize (IH (Some (x + 1)) hi vr k v C E ltac:(cbn; lia) H). cbn zeta in IH.
      rewrite found_cons_lt by exact L1. destruct (found r k).
      * destruct IH as (I1 & I2). rewrite set_at_S. cbn [combine length]. rewrite I1, I2. auto.
      * destruct IH as (I1 & I2 & I3). rewrite !insert_at_S. cbn [combine length keys_in]. rewrite I1, I3. auto.
    + rewrite found_cons_ge by exact L1. destruct (Z.eqb_spec x k) as [->|N].
      * rewrite ainsert_eq. cbn. auto.
      * rewrite ainsert_gt by lia. rewrite !insert_at_0. cbn [combine length keys_in]. repeat split; auto; cbn; lia.
Qed.

Lemma bisect_right_le ks k : (bisect_right ks k <= length ks)%nat.
Proof. induction ks as [|x r IH]; cbn; [lia|]. destruct (x <=? k); cbn; lia. Qed.

Lemma bisect_right_insert ks k s :
  bisect_right (insert_at (bisect_right ks k) s ks) k = if s <=? k then S (bisect_right ks k) else bisect_right ks k.
Proof.
  induction ks as [|x r IH]; cbn [bisect_right].
  - rewrite insert_at_0. cbn. destruct (s <=? k); reflexivity.
  - destruct (x <=? k) eqn:E.
    + rewrite insert_at_S. cbn [bisect_right]. rewrite E, IH. destruct (s <=? k); reflexivity.
    + rewrite insert_at_0. cbn [bisect_right]. rewrite E. destruct (s <=? k); reflexivity.
Qed.

Lemma nth_insert_at {A} i (x d : A) l : (i <= length l)%nat -> nth i (insert_at i x l) d = x.
Proof. intros H. unfold insert_at. rewrite app_nth2; rewrite firstn_length; [|lia]. replace (i - Nat.min i (length l))%nat with 0%nat by lia. reflexivity. Qed.

(** After child [bisect_right ks k] was split with separator [s], the test of
    _insert_non_full picks the half that owns [k]. *)
Lemma split_target ks k s :
  (if k >=? nth (bisect_right ks k) (insert_at (bisect_right ks k) s ks) 0 then S (bisect_right ks k) else bisect_right ks k) =
  bisect_right (insert_at (bisect_right ks k) s ks) k.
Proof. rewrite nth_insert_at by apply bisect_right_le. rewrite bisect_right_insert. replace (k >=? s) with (s <=? k) by lia. reflexivity. Qed.

Lemma keys_in_split ks : forall lo hi mid, keys_in lo hi ks -> (mid < length ks)%nat ->
  keys_in lo (Some (nth mid ks 0)) (firstn mid ks) /\ keys_in (Some (nth mid ks 0)) hi (skipn mid ks) /\
  lo_ok lo (nth mid ks 0) /\ hi_ok hi (nth mid ks 0).
Proof.
  induction ks as [|x r IH]; intros lo hi mid K Hm; [cbn in Hm; lia|]. destruct K as (A & B & C).
  destruct mid as [|m].
  - cbn. repeat split; auto; lia.
  - cbn [nth firstn skipn keys_in]. destruct (IH (Some (x + 1)) hi m C ltac:(cbn in Hm; lia)) as (I1 & I2 & I3 & I4).
    cbn in I3. repeat split; auto; [cbn; lia|apply (lo_ok_le lo x); [exact A|lia]].
Qed.

Lemma combine_split (ks vs : list Z) mid :
  combine ks vs = combine (firstn mid ks) (firstn mid vs) ++ combine (skipn mid ks) (skipn mid vs).
Proof.
  revert ks vs; induction mid as [|m IH]; intros ks vs; [reflexivity|].
  destruct ks as [|k r]; [reflexivity|]. destruct vs as [|v vr]; [cbn; rewrite combine_nil; reflexivity|].
  cbn. f_equal. apply IH.
Qed.

Lemma reps_split {h d cs ks lo hi kvs fp} : reps h d cs ks lo hi kvs fp -> forall mid, (mid < length ks)%nat ->
  exists kvsL kvsR fpL fpR,
    reps h d (firstn (S mid) cs) (firstn mid ks) lo (Some (nth mid ks 0)) kvsL fpL /\
    reps h d (skipn (S mid) cs) (skipn (S mid) ks) (Some (nth mid ks 0)) hi kvsR fpR /\
    kvs = kvsL ++ kvsR /\ fp = fpL ++ fpR /\ lo_ok lo (nth mid ks 0) /\ hi_le hi (nth mid ks 0) /\ disj fpL fpR.
Proof.
  induction 1 as [d c lo hi kvs fp R|d c cs k ks lo hi kvs1 fp1 kvs2 fp2 R1 R2 IH A B D]; intros mid Hm; [cbn in Hm; lia|].
  destruct mid as [|m]; cbn [firstn skipn nth].
  - exists kvs1, kvs2, fp1, fp2. repeat split; auto. apply reps_one, R1.
  - destruct (IH m ltac:(cbn in Hm; lia)) as (kvsL & kvsR & fpL & fpR & I1 & I2 & -> & -> & I5 & I6 & I7).
    apply disj_app_r in D as [D1 D2].
    exists (kvs1 ++ kvsL), kvsR, (fp1 ++ fpL), fpR.
    split; [apply reps_cons; [exact R1|exact I1|exact A|exact I5|exact D1]|].
    split; [exact I2|]. split; [apply app_assoc|]. split; [apply app_assoc|].
    split; [apply (lo_ok_le lo k); [exact A|exact I5]|]. split; [exact I6|].
    apply disj_app_l. split; [exact D2|exact I7].
Qed.

Lemma reps_app {h d cs1 ks1 lo hm kvs1 fp1} : reps h d cs1 ks1 lo hm kvs1 fp1 ->
  forall k cs2 ks2 hi kvs2 fp2, hm = Some k -> reps h d cs2 ks2 (Some k) hi kvs2 fp2 ->
    lo_ok lo k -> hi_le hi k -> disj fp1 fp2 ->
    reps h d (cs1 ++ cs2) (ks1 ++ k :: ks2) lo hi (kvs1 ++ kvs2) (fp1 ++ fp2).
Proof.
  induction 1 as [d c lo hm kvs fp R|d c cs k0 ks lo hm kvs1 fp1 kvs1' fp1' R1 R1' IH A B D];
    intros k cs2 ks2 hi kvs2 fp2 -> R2 L H Dj.
  - apply reps_cons; assumption.
  - cbn [app]. rewrite <- !app_assoc. apply disj_app_l in Dj as [Dj1 Dj2].
    apply reps_cons; [exact R1| |exact A|apply (hi_le_le hi k0 k); [exact H|exact B]|apply disj_app_r; split; assumption].
    apply IH; [reflexivity|exact R2|exact B|exact H|exact Dj2].
Qed.

Lemma reps_kid_in {h d cs ks lo hi kvs fp} : reps h d cs ks lo hi kvs fp ->
  forall i, (i < length cs)%nat -> In (nth i cs (-1)) fp.
Proof.
  induction 1 as [d c lo hi kvs fp R|d c cs k ks lo hi kvs1 fp1 kvs2 fp2 R1 R2 IH A B D]; intros i Hi.
  - destruct i; [|cbn in Hi; lia]. apply (rep_root_in R).
  - destruct i; cbn [nth]; apply in_or_app; [left; apply (rep_root_in R1)|right; apply IH; cbn in Hi; lia].
Qed.

Definition between (A B : list (Z * Z)) (k : Z) : Prop :=
  (forall y, In y (map fst A) -> y < k) /\ (forall y, In y (map fst B) -> k < y).

(** Child [i] of a chain, with bounds [lo'], [hi'], contents [C] and footprint
    [fpC]; [A], [fpA] and [B], [fpB] belong to the children left and right of it. *)
Record focus h d i cs ks lo hi kvs fp lo' hi' A C B fpA fpC fpB : Prop := {
  foc_rep : rep h d (nth i cs (-1)) lo' hi' C fpC;
  foc_kvs : kvs = A ++ C ++ B;
  foc_fp : fp = fpA ++ fpC ++ fpB;
  foc_disj : disj fpC (fpA ++ fpB);
  (* the child that [bisect_right] picks for [k] is the one whose bounds admit [k] *)
  foc_key : forall k, bisect_right ks k = i -> lo_ok lo k -> hi_ok hi k -> lo_ok lo' k /\ hi_ok hi' k /\ between A B k;
  (* any chain that fits the child's bounds, in a heap that left the other children alone, can take its place *)
  foc_plug : forall h' cs' ks' C' fpC', reps h' d cs' ks' lo' hi' C' fpC' ->
    (forall x, In x (fpA ++ fpB) -> hget x h' = hget x h) -> disj fpC' (fpA ++ fpB) ->
    reps h' d (firstn i cs ++ cs' ++ skipn (S i) cs) (firstn i ks ++ ks' ++ skipn i ks) lo hi
         (A ++ C' ++ B) (fpA ++ fpC' ++ fpB) }.

Lemma reps_focus {h d cs ks lo hi kvs fp} : reps h d cs ks lo hi kvs fp -> forall i, (i < length cs)%nat ->
  exists lo' hi' A C B fpA fpC fpB, focus h d i cs ks lo hi kvs fp lo' hi' A C B fpA fpC fpB.
Proof.
  induction 1 as [d c lo hi kvs fp R|d c cs k0 ks lo hi kvs1 fp1 kvs2 fp2 R1 R2 IH A B D]; intros i Hi.
  - destruct i; [|cbn in Hi; lia].
    exists lo, hi, [], kvs, [], [], fp, []. constructor; cbn [nth app]; rewrite ?app_nil_r.
    + exact R.
    + reflexivity.
    + reflexivity.
    + intros x _ [].
    + intros k _ L H. split; [exact L|]. split; [exact H|]. split; intros y [].
    + intros h' cs' ks' C' fpC' R' _ _. cbn [firstn skipn app]. rewrite !app_nil_r. exact R'.
  - destruct i as [|j].
    + exists lo, (Some k0), [], kvs1, kvs2, [], fp1, fp2. constructor; cbn [nth app].
      * exact R1.
      * reflexivity.
      * reflexivity.
      * exact D.
      * intros k E L H. cbn [bisect_right] in E. destruct (k0 <=? k) eqn:E0; [discriminate|].
        split; [exact L|]. split; [cbn; lia|]. split; [intros y []|].
        intros y Hy. destruct (reps_key_bounds R2 Hy) as [Q _]. cbn in Q. lia.
      * intros h' cs' ks' C' fpC' R' Fr Dj. cbn [firstn skipn app].
        apply (reps_app R' k0 _ _ _ _ _ eq_refl); [|exact A|exact B|exact Dj].
        apply (reps_frame h h'); [exact R2|exact Fr].
    + destruct (IH j (proj2 (Nat.succ_lt_mono _ _) Hi)) as (lo' & hi' & A' & C & B' & fpA & fpC & fpB & [I1 -> -> I4 I5 I6]).
      apply disj_app_r in D as [D1 D2]. apply disj_app_r in D2 as [D2 D3].
      exists lo', hi', (kvs1 ++ A'), C, B', (fp1 ++ fpA), fpC, fpB. constructor; cbn [nth].
      * exact I1.
      * apply app_assoc.
      * apply app_assoc.
      * rewrite <- app_assoc. apply disj_app_r. split; [apply disj_sym, D2|exact I4].
      * intros k E L H. cbn [bisect_right] in E. destruct (k0 <=? k) eqn:E0; [|discriminate]. injection E as E.
        apply Z.leb_le in E0. destruct (I5 k E E0 H) as (Q1 & Q2 & Q3 & Q4). split; [exact Q1|]. split; [exact Q2|]. split; [|exact Q4].
        intros y Hy. rewrite map_app in Hy. apply in_app_or in Hy as [Hy|Hy]; [|apply Q3, Hy].
        destruct (rep_key_bounds R1 Hy) as [_ Q]. exact (Z.lt_le_trans _ _ _ Q E0).
      * intros h' cs' ks' C' fpC' R' Fr Dj. cbn [firstn skipn app]. rewrite <- !app_assoc. rewrite <- app_assoc in Fr, Dj.
        apply disj_app_r in Dj as [Dj1 Dj2].
        apply reps_cons; [| |exact A|exact B|].
        -- apply (rep_frame h h'); [exact R1|]. intros x Hx. apply Fr, in_or_app. left. exact Hx.
        -- apply I6; [exact R'| |exact Dj2]. intros x Hx. apply Fr, in_or_app. right. exact Hx.
        -- apply disj_app_r. split; [exact D1|]. apply disj_app_r. split; [apply disj_sym, Dj1|exact D3].
Qed.

Definition split_mid (c : bnode) : nat := Nat.div (length (b_keys c)) 2.
Definition split_left (c : bnode) : bnode :=
  if b_leaf c then mkNode true (firstn (split_mid c) (b_keys c)) (firstn (split_mid c) (b_vals c)) (b_kids c)
  else mkNode false (firstn (split_mid c) (b_keys c)) (b_vals c) (firstn (S (split_mid c)) (b_kids c)).
Definition split_right (c : bnode) : bnode :=
  if b_leaf c then mkNode true (skipn (split_mid c) (b_keys c)) (skipn (split_mid c) (b_vals c)) []
  else mkNode false (skipn (S (split_mid c)) (b_keys c)) [] (skipn (S (split_mid c)) (b_kids c)).
Definition split_sep (c : bnode) : Z := nth (split_mid c) (b_keys c) 0.

Lemma split_child_eq t pid idx :
  split_child t pid idx =
  (let p := hget pid (heap t) in
   let cid := nth idx (b_kids p) (-1) in
   let c := hget cid (heap t) in
   mkBt (hset pid (mkNode (b_leaf p) (insert_at idx (split_sep c) (b_keys p)) (b_vals p) (insert_at (S idx) (nxt t) (b_kids p)))
           (hset (nxt t) (split_right c) (hset cid (split_left c) (heap t))))
        (root t) (depth t) (total t) (nxt t + 1) (order t)).
Proof.
  unfold split_child, split_left, split_right, split_sep, split_mid. cbv zeta.
  destruct (b_leaf (hget (nth idx (b_kids (hget pid (heap t))) (-1)) (heap t))); reflexivity.
Qed.

(** A leaf keeps the separator as the first key of its right half, an internal
    node gives it up. *)
Lemma split_rep {h d c lo hi kvs fp} nid :
  rep h d c lo hi kvs fp -> (1 <= length (b_keys (hget c h)))%nat -> ~ In nid fp ->
  exists fp',
    reps (hset nid (split_right (hget c h)) (hset c (split_left (hget c h)) h)) d
         [c; nid] [split_sep (hget c h)] lo hi kvs fp' /\
    (forall x, In x fp' -> In x fp \/ x = nid).
Proof.
  intros R Hk Hn.
  assert (Hc : nid <> c) by (intros ->; apply Hn, (rep_root_in R)).
  set (n := hget c h) in *. set (h2 := hset nid _ _).
  assert (G1 : hget c h2 = split_left n) by (unfold h2; rewrite hget_hset_other by congruence; apply hget_hset_same).
  assert (G2 : hget nid h2 = split_right n) by apply hget_hset_same.
  assert (Hmid : (split_mid n < length (b_keys n))%nat) by (apply Nat.div_lt; lia).
  unfold split_left, split_right in G1, G2. unfold split_sep. set (mid := split_mid n) in *.
  destruct (b_leaf n) eqn:L.
  - destruct (rep_leaf_inv R L) as (-> & -> & -> & E & K). fold n in E, K |- *.
    destruct (keys_in_split _ _ _ mid K Hmid) as (S1 & S2 & S3 & S4).
    exists ([c] ++ [nid]). split; [|intros x [<-|[<-|[]]]; [left; left; reflexivity|right; reflexivity]].
    rewrite (combine_split _ _ mid). apply reps_cons; [| |exact S3|apply hi_le_of_ok, S4|].
    + apply (rep_leaf_at G1); [rewrite !firstn_length; lia|exact S1].
    + apply reps_one, (rep_leaf_at G2); [rewrite !skipn_length; lia|exact S2].
    + intros x [<-|[]] [X|[]]. exact (Hc X).
  - destruct (rep_node_inv R L) as (d' & fp0 & -> & -> & N & RS). fold n in RS.
    destruct (reps_split RS mid Hmid) as (kvsL & kvsR & fpL & fpR & I1 & I2 & -> & -> & I5 & I6 & I7).
    assert (Fr : forall x, In x (fpL ++ fpR) -> hget x h2 = hget x h).
    { intros x Hx. unfold h2. rewrite !hget_hset_other; [reflexivity|intros ->; exact (N Hx)|intros ->; apply Hn; right; exact Hx]. }
    exists ((c :: fpL) ++ (nid :: fpR)). split.
    + apply reps_cons; [| |exact I5|exact I6|].
      * apply (rep_node_at G1).
        -- apply (reps_frame h h2); [exact I1|]. intros x Hx. apply Fr, in_or_app. left. exact Hx.
        -- intros X. apply N, in_or_app. left. exact X.
      * apply reps_one, (rep_node_at G2).
        -- apply (reps_frame h h2); [exact I2|]. intros x Hx. apply Fr, in_or_app. right. exact Hx.
        -- intros X. apply Hn. right. apply in_or_app. right. exact X.
      * intros x [<-|Hx] [X|X].
        -- exact (Hc X).
        -- apply N, in_or_app. right. exact X.
        -- subst x. apply Hn. right. apply in_or_app. left. exact Hx.
        -- exact (I7 x Hx X).
    + intros x Hx. apply in_app_or in Hx as [[<-|Hx]|[<-|Hx]].
      * left. left. reflexivity.
      * left. right. apply in_or_app. left. exact Hx.
      * right. reflexivity.
      * left. right. apply in_or_app. right. exact Hx.
Qed.

Lemma reps_split_child {h d} nid {idx c cs ks lo hi kvs fp} :
  reps h d cs ks lo hi kvs fp -> (idx < length cs)%nat -> c = nth idx cs (-1) ->
  (1 <= length (b_keys (hget c h)))%nat -> ~ In nid fp ->
  exists fp',
    reps (hset nid (split_right (hget c h)) (hset c (split_left (hget c h)) h))
         d (insert_at (S idx) nid cs) (insert_at idx (split_sep (hget c h)) ks) lo hi kvs fp' /\
    (forall x, In x fp' -> In x fp \/ x = nid).
Proof.
  intros R Hi -> Hk Hn.
  destruct (reps_focus R idx Hi) as (lo' & hi' & A & C & B & fpA & fpC & fpB & [F1 -> -> F4 _ F6]).
  set (c := nth idx cs (-1)) in *.
  destruct (split_rep nid F1 Hk) as (fpC' & S1 & S2).
  { intros X. apply Hn, in_mid. left. exact X. }
  exists (fpA ++ fpC' ++ fpB). split.
  - rewrite (insert_at_after idx nid (-1) cs Hi). apply (F6 _ _ _ _ _ S1).
    + intros x Hx. rewrite !hget_hset_other; [reflexivity| |].
      * intros ->. exact (F4 c (rep_root_in F1) Hx).
      * intros ->. apply Hn, in_mid. right. exact Hx.
    + intros x Hx Hy. destruct (S2 x Hx) as [Q| ->]; [exact (F4 x Q Hy)|apply Hn, in_mid; right; exact Hy].
  - intros x Hx. apply in_mid in Hx as [Hx|Hx]; [|left; apply in_mid; right; exact Hx].
    destruct (S2 x Hx) as [Q|Q]; [left; apply in_mid; left; exact Q|right; exact Q].
Qed.

Lemma ainsert_app_lt k (v : Z) A R : (forall y, In y (map fst A) -> y < k) -> ainsert k v (A ++ R) = A ++ ainsert k v R.
Proof.
  induction A as [|[k' v'] A IH]; intros H; cbn [app]; [reflexivity|].
  rewrite !ainsert_lt by (apply H; left; reflexivity). f_equal. apply IH. intros y Hy. apply H. right. exact Hy.
Qed.

Lemma ainsert_app_gt k (v : Z) C B : (forall y, In y (map fst B) -> k < y) -> ainsert k v (C ++ B) = ainsert k v C ++ B.
Proof.
  intros H. induction C as [|[k' v'] C IH]; cbn [app].
  - destruct B as [|[k' v'] B]; [reflexivity|]. rewrite ainsert_gt by (apply H; left; reflexivity). reflexivity.
  - cbn [ainsert]. destruct (k <? k'); [reflexivity|]. destruct (k =? k'); [reflexivity|]. cbn [app]. f_equal. exact IH.
Qed.

Lemma ainsert_mid k v A C B : between A B k -> ainsert k v (A ++ C ++ B) = A ++ ainsert k v C ++ B.
Proof. intros [HA HB]. rewrite (ainsert_app_lt k v A _ HA), (ainsert_app_gt k v C B HB). reflexivity. Qed.

Lemma alookup_mid k A C B : between A B k -> alookup k (A ++ C ++ B) = alookup k C.
Proof.
  intros [HA HB]. rewrite !alookup_app, (proj2 (alookup_none_keys k A)), (proj2 (alookup_none_keys k B)).
  - destruct (alookup k C); reflexivity.
  - intros X. specialize (HB k X). lia.
  - intros X. specialize (HA k X). lia.
Qed.

(** From [t] to [t'] only cells of [fp] and cells allocated in between were
    written; what occupied [fp] now occupies [fp']. *)
Record bt_ext (t t' : btree) (fp fp' : list Z) : Prop := {
  ext_nxt : nxt t <= nxt t';
  ext_fp : forall x, In x fp' -> In x fp \/ nxt t <= x < nxt t';
  ext_heap : forall x, ~ In x fp -> x < nxt t -> hget x (heap t') = hget x (heap t);
  ext_root : root t' = root t;
  ext_depth : depth t' = depth t;
  ext_order : order t' = order t }.
Arguments ext_nxt {t t' fp fp'}.
Arguments ext_fp {t t' fp fp'}.
Arguments ext_heap {t t' fp fp'}.
Arguments ext_root {t t' fp fp'}.
Arguments ext_depth {t t' fp fp'}.
Arguments ext_order {t t' fp fp'}.

Lemma bt_ext_trans {t t1 t2 fp fp1 fp2} : bt_ext t t1 fp fp1 -> bt_ext t1 t2 fp1 fp2 -> bt_ext t t2 fp fp2.
Proof.
  intros [N1 F1 H1 R1 D1 O1] [N2 F2 H2 R2 D2 O2]. constructor.
  - exact (Z.le_trans _ _ _ N1 N2).
  - intros x Hx. destruct (F2 x Hx) as [Q|Q]; [destruct (F1 x Q) as [Q1|Q1]; [left; exact Q1|right; lia]|right; lia].
  - intros x Nx Hlt. rewrite H2; [apply H1; assumption| |lia]. intros Q. destruct (F1 x Q) as [Q1|Q1]; [exact (Nx Q1)|lia].
  - exact (eq_trans R2 R1).
  - exact (eq_trans D2 D1).
  - exact (eq_trans O2 O1).
Qed.

Lemma bt_ext_sub {t t' fpC fpC' fp fp'} : bt_ext t t' fpC fpC' ->
  (forall x, In x fpC -> In x fp) -> (forall x, In x fp' -> In x fp \/ In x fpC') -> bt_ext t t' fp fp'.
Proof.
  intros [N1 F1 H1 R1 D1 O1] Sub Sub'. constructor; try assumption.
  - intros x Hx. destruct (Sub' x Hx) as [Q|Q]; [left; exact Q|]. destruct (F1 x Q) as [Q1|Q1]; [left; apply Sub, Q1|right; exact Q1].
  - intros x Nx. apply H1. intros Q. apply Nx, Sub, Q.
Qed.

Lemma bt_ext_below {t t' fp fp'} : bt_ext t t' fp fp' -> (forall x, In x fp -> x < nxt t) -> forall x, In x fp' -> x < nxt t'.
Proof. intros [N1 F1 _ _ _ _] Hx x Q. destruct (F1 x Q) as [Q1|Q1]; [specialize (Hx x Q1); lia|lia]. Qed.

Lemma bt_ext_hset t t' id n fp : heap t' = hset id n (heap t) -> In id fp ->
  nxt t' = nxt t -> root t' = root t -> depth t' = depth t -> order t' = order t -> bt_ext t t' fp fp.
Proof.
  intros Eh Hi En Er Ed Eo. constructor; auto; [lia|].
  intros x Nx _. rewrite Eh. apply hget_hset_other. intros ->. exact (Nx Hi).
Qed.

Lemma split_child_ok {t pid idx d lo hi kvs fp} :
  rep (heap t) d pid lo hi kvs fp -> b_leaf (hget pid (heap t)) = false ->
  (idx < length (b_kids (hget pid (heap t))))%nat ->
  (1 <= length (b_keys (hget (nth idx (b_kids (hget pid (heap t))) (-1)%Z) (heap t))))%nat ->
  (forall x, In x fp -> x < nxt t) ->
  exists fp' sep,
    rep (heap (split_child t pid idx)) d pid lo hi kvs fp' /\ bt_ext t (split_child t pid idx) fp fp' /\
    total (split_child t pid idx) = total t /\
    b_leaf (hget pid (heap (split_child t pid idx))) = false /\
    b_keys (hget pid (heap (split_child t pid idx))) = insert_at idx sep (b_keys (hget pid (heap t))).
Proof.
  intros R L Hi Hk Hf. rewrite split_child_eq. cbv zeta.
  set (p := hget pid (heap t)) in *. set (cid := nth idx (b_kids p) (-1)) in *. set (c := hget cid (heap t)) in *.
  set (nid := nxt t).
  destruct (rep_node_inv R L) as (d' & fp0 & -> & -> & N & RS). fold p in RS.
  assert (Hn : ~ In nid (pid :: fp0)) by (intros X; specialize (Hf nid X); unfold nid in Hf; lia).
  destruct (reps_split_child nid (c := cid) RS Hi eq_refl Hk) as (fp0' & I1 & I2).
  { intros X. apply Hn. right. exact X. }
  fold c in I1. set (h2 := hset nid (split_right c) (hset cid (split_left c) (heap t))) in *.
  rewrite L. set (p' := mkNode false (insert_at idx (split_sep c) (b_keys p)) (b_vals p) (insert_at (S idx) nid (b_kids p))).
  assert (N' : ~ In pid fp0').
  { intros X. destruct (I2 _ X) as [Q|Q]; [exact (N Q)|apply Hn; left; exact Q]. }
  cbn [heap total]. assert (G : hget pid (hset pid p' h2) = p') by apply hget_hset_same.
  exists (pid :: fp0'), (split_sep c). rewrite G.
  split; [|split; [|split; [reflexivity|split; reflexivity]]].
  - apply (rep_node_at G); [|exact N'].
    apply (reps_frame h2); [exact I1|]. intros x Hx. apply hget_hset_other. intros ->. exact (N' Hx).
  - constructor; cbn [heap root depth nxt order]; try reflexivity; [lia| |].
    + intros x [<-|Hx]; [left; left; reflexivity|].
      destruct (I2 x Hx) as [Q|Q]; [left; right; exact Q|right; unfold nid in Q; lia].
    + intros x Nx Hlt. rewrite hget_hset_other by (intros ->; apply Nx; left; reflexivity).
      unfold h2. rewrite hget_hset_other by (unfold nid; lia). apply hget_hset_other.
      intros ->. apply Nx. right. apply (reps_kid_in RS idx Hi).
Qed.

Lemma bisect_right_kid {h d id lo hi kvs fp} k : rep h d id lo hi kvs fp -> b_leaf (hget id h) = false ->
  (bisect_right (b_keys (hget id h)) k < length (b_kids (hget id h)))%nat.
Proof.
  intros R L. destruct (rep_node_inv R L) as (d' & fp' & _ & _ & _ & RS).
  rewrite (reps_length RS). pose proof (bisect_right_le (b_keys (hget id h)) k). lia.
Qed.

(** The contents of the subtree at [nid] went from [kvs] to [op kvs], the key
    count followed, nothing else moved. *)
Definition changed (op : list (Z * Z) -> list (Z * Z)) (t t' : btree) (d : nat) (nid : Z) (lo hi : bnd)
                   (kvs : list (Z * Z)) (fp : list Z) : Prop :=
  exists fp', rep (heap t') d nid lo hi (op kvs) fp' /\ bt_ext t t' fp fp' /\
              total t' - total t = zlen (op kvs) - zlen kvs.

(** One level down and back: the child [kid_for n k] of an internal node that
    owns [k], with height [d'], bounds [lo'], [hi'], contents [C], footprint [fpC]. *)
Record descent t d nid lo hi kvs fp k d' lo' hi' A C B fpC : Prop := {
  desc_height : d = S d';
  desc_rep : rep (heap t) d' (kid_for (hget nid (heap t)) k) lo' hi' C fpC;
  desc_lo : lo_ok lo' k;
  desc_hi : hi_ok hi' k;
  desc_kvs : kvs = A ++ C ++ B;
  desc_between : between A B k;
  desc_fp : forall x, In x fpC -> In x fp;
  (* a change of the child shows as the same change of the node *)
  desc_up : forall op t', op (A ++ C ++ B) = A ++ op C ++ B -> (forall x, In x fp -> x < nxt t) ->
    changed op t t' d' (kid_for (hget nid (heap t)) k) lo' hi' C fpC -> changed op t t' d nid lo hi kvs fp }.

Lemma node_step {t d nid lo hi kvs fp} k :
  rep (heap t) d nid lo hi kvs fp -> b_leaf (hget nid (heap t)) = false -> lo_ok lo k -> hi_ok hi k ->
  exists d' lo' hi' A C B fpC, descent t d nid lo hi kvs fp k d' lo' hi' A C B fpC.
Proof.
  intros R Lf L H. pose proof (bisect_right_kid k R Lf) as Hi. unfold kid_for.
  set (n := hget nid (heap t)) in *. set (idx := bisect_right (b_keys n) k) in *.
  destruct (rep_node_inv R Lf) as (d' & fp0 & -> & -> & N & RS). fold n in RS.
  destruct (reps_focus RS idx Hi) as (lo' & hi' & A & C & B & fpA & fpC & fpB & [F1 -> -> F4 F5 F6]).
  destruct (F5 k eq_refl L H) as (L' & H' & AB).
  exists d', lo', hi', A, C, B, fpC.
  constructor; [reflexivity|exact F1|exact L'|exact H'|reflexivity|exact AB|intros x Hc; right; apply in_mid; left; exact Hc|].
  intros op t' Hop Hx (fpC' & R' & X & T).
  (* the other children are old cells outside the child; what the child now occupies is its own or fresh *)
  assert (Old : forall x, In x (fpA ++ fpB) -> ~ In x fpC /\ x < nxt t).
  { intros x Hy. split; [intros Hc; exact (F4 x Hc Hy)|apply Hx; right; apply in_mid; right; exact Hy]. }
  assert (New : forall x, In x fpC' -> ~ In x (nid :: fpA ++ fpB)).
  { intros x Hc Hy. destruct (ext_fp X x Hc) as [Q|Q].
    - destruct Hy as [<-|Hy]; [apply N, in_mid; left; exact Q|exact (F4 x Q Hy)].
    - apply (Z.lt_irrefl x), (Z.lt_le_trans _ (nxt t)); [|exact (proj1 Q)].
      apply Hx. destruct Hy as [<-|Hy]; [left; reflexivity|right; apply in_mid; right; exact Hy]. }
  assert (Gn : hget nid (heap t') = n).
  { apply (ext_heap X); [intros Q; apply N, in_mid; left; exact Q|apply Hx; left; reflexivity]. }
  pose proof (F6 (heap t') [nth idx (b_kids n) (-1)] [] (op C) fpC' (reps_one _ _ _ _ _ _ _ R')) as P.
  cbn [app] in P. rewrite firstn_skipn, (nth_middle_eq idx (-1) (b_kids n) Hi) in P.
  exists (nid :: fpA ++ fpC' ++ fpB). rewrite Hop. split; [|split].
  - apply rep_node; [rewrite Gn; exact Lf|rewrite Gn; apply P|].
    + intros x Hy. destruct (Old x Hy). apply (ext_heap X); assumption.
    + intros x Hc Hy. apply (New x Hc). right. exact Hy.
    + intros Q. apply in_mid in Q as [Q|Q]; [exact (New nid Q (or_introl eq_refl))|apply N, in_mid; right; exact Q].
  - apply (bt_ext_sub X).
    + intros x Hc. right. apply in_mid. left. exact Hc.
    + intros x [<-|Q]; [left; left; reflexivity|].
      apply in_mid in Q as [Q|Q]; [right; exact Q|left; right; apply in_mid; right; exact Q].
  - rewrite T, !zlen_app. ring.
Qed.

Definition insert_ok_at (f : nat) : Prop := forall t d nid lo hi kvs fp k v,
  rep (heap t) d nid lo hi kvs fp -> lo_ok lo k -> hi_ok hi k -> (d <= f)%nat ->
  (forall x, In x fp -> x < nxt t) -> 2 <= order t ->
  changed (ainsert k v) t (insert_non_full f t nid k v) d nid lo hi kvs fp.

(** the recursive call of _insert_non_full on the child that owns [k] *)
Lemma insert_descend f : insert_ok_at f -> forall t d nid lo hi kvs fp k v,
  rep (heap t) d nid lo hi kvs fp -> b_leaf (hget nid (heap t)) = false -> lo_ok lo k -> hi_ok hi k -> (d <= S f)%nat ->
  (forall x, In x fp -> x < nxt t) -> 2 <= order t ->
  changed (ainsert k v) t (insert_non_full f t (kid_for (hget nid (heap t)) k) k v) d nid lo hi kvs fp.
Proof.
  intros IH t d nid lo hi kvs fp k v R Lf L H Hf Hx Ho.
  destruct (node_step k R Lf L H) as (d' & lo' & hi' & A & C & B & fpC & [-> R' L' H' E AB Sub Up]).
  apply (Up _ _ (ainsert_mid k v A C B AB) Hx).
  exact (IH t d' _ lo' hi' C fpC k v R' L' H' (le_S_n _ _ Hf) (fun x Q => Hx x (Sub x Q)) Ho).
Qed.

Lemma insert_ok f : insert_ok_at f.
Proof.
  induction f as [|f IH]; intros t d nid lo hi kvs fp k v R L H Hf Hx Ho; [destruct R; inversion Hf|].
  cbn [insert_non_full]. cbv zeta. destruct (b_leaf (hget nid (heap t))) eqn:Lf.
  - destruct (rep_leaf_inv R Lf) as (-> & -> & -> & E & K). set (n := hget nid (heap t)) in *.
    pose proof (leaf_upsert (b_keys n) lo hi (b_vals n) k v K E L H) as LU. cbv zeta in LU. fold (found (b_keys n) k).
    destruct (found (b_keys n) k); unfold with_heap; exists [nid]; cbn [heap total].
    + destruct LU as (U1 & U2). rewrite <- U1. split; [|split].
      * apply (rep_leaf_at (kids := b_kids n)); [apply hget_hset_same|exact U2|exact K].
      * eapply bt_ext_hset; [reflexivity|left|..]; reflexivity.
      * rewrite !zlen_combine by assumption. ring.
    + destruct LU as (U1 & U2 & U3). rewrite <- U1. split; [|split].
      * apply (rep_leaf_at (kids := b_kids n)); [apply hget_hset_same|exact U3|exact U2].
      * eapply bt_ext_hset; [reflexivity|left|..]; reflexivity.
      * rewrite !zlen_combine by assumption. unfold zlen. rewrite insert_at_length, Nat2Z.inj_succ. unfold Z.succ. ring.
  - set (n := hget nid (heap t)) in *. set (idx := bisect_right (b_keys n) k).
    destruct (zlen (b_keys (hget (nth idx (b_kids n) (-1)) (heap t))) >=? order t - 1) eqn:Efull.
    + (* the child is full: descend from the tree [t0] after the split *)
      destruct (split_child_ok (idx := idx) R Lf (bisect_right_kid k R Lf)) as (fp1 & sep & S1 & S2 & S3 & S4 & S5);
        [fold n; clear - Efull Ho; unfold zlen in Efull; lia|exact Hx|].
      set (t0 := split_child t nid idx) in *.
      assert (Etgt : (if k >=? nth idx (b_keys (hget nid (heap t0))) 0 then S idx else idx) =
                     bisect_right (b_keys (hget nid (heap t0))) k) by (rewrite S5; apply split_target).
      rewrite Etgt.
      destruct (insert_descend f IH t0 d nid lo hi kvs fp1 k v S1 S4 L H Hf (bt_ext_below S2 Hx)) as (fp' & C1 & C2 & C3);
        [rewrite (ext_order S2); exact Ho|].
      exists fp'. split; [exact C1|]. split; [exact (bt_ext_trans S2 C2)|]. rewrite <- S3. exact C3.
    + apply (insert_descend f IH); assumption.
Qed.
