(** C17 — chain replication convergence, the part that does hold: when every
    link i -> i+1 delivers Propagate messages in send order and every store
    completes its puts in arrival order, all nodes hold exactly the head's store
    once the system is quiescent (any writes, repeated keys, CRAQ or not, any
    chain length, any interleaving otherwise). *)
From HS Require Import Base.Prelude C17.Model C17.ListSurgery C17.PBProofs C17.PBFifo C17.Chain C17.ChainProofs C17.ChainConv.
Local Open Scope Z_scope.

Definition ce_proc (p : cproc) : list entry :=
  match cp_pc p with PPut k v sq => [(sq, k, v)] | _ => [] end.
Definition cputq (n : Z) (l : list cproc) : list entry :=
  flat_map (fun p => if cp_node p =? n then ce_proc p else []) l.
Definition ce_msg (d : Z) (m : cmsg) : list entry :=
  match m with CProp d' k v sq => if d' =? d then [(sq, k, v)] else [] | _ => [] end.
Definition clink (d : Z) (net : list cmsg) : list entry := flat_map (ce_msg d) net.

Fixpoint cfirst_link (d : Z) (net : list cmsg) : option cmsg :=
  match net with
  | [] => None
  | m :: r => match ce_msg d m with [] => cfirst_link d r | _ => Some m end
  end.
Fixpoint cfirst_put (n : Z) (l : list cproc) : option Z :=
  match l with
  | [] => None
  | p :: r => match (if cp_node p =? n then ce_proc p else []) with [] => cfirst_put n r | _ => Some (cp_id p) end
  end.

Definition cfifo_ok (s : cstate) (i : cinp) : bool :=
  match i with
  | CStart _ (CProp d k v sq) =>
      match cfirst_link d (k_net s) with Some m => cmsg_eqb (CProp d k v sq) m | None => false end
  | CStart _ _ => true
  | CResume pid =>
      match cfind pid (k_procs s) with
      | Some p => match ce_proc p with
                  | [] => true
                  | _ => match cfirst_put (cp_node p) (k_procs s) with Some q => q =? pid | None => false end
                  end
      | None => true
      end
  end.

Fixpoint crun_fifo (c : ccfg) (s : cstate) (sched : list cinp) : option cstate :=
  match sched with
  | [] => Some s
  | i :: r => if cfifo_ok s i then
                match cstep c s i with Some (s', _, _) => crun_fifo c s' r | None => None end
              else None
  end.

(** The pipeline into node [d]: what it has applied, what its store is putting,
    what is in flight to it are together, in this order, its predecessor's log. *)
Definition CJ (c : ccfg) (s : cstate) : Prop :=
  forall d, 1 <= d < cn c ->
    n_log (k_node s d) ++ cputq d (k_procs s) ++ clink d (k_net s) = n_log (k_node s (d - 1)).

Lemma cputq_app n l1 l2 : cputq n (l1 ++ l2) = cputq n l1 ++ cputq n l2.
Proof. apply flat_map_app. Qed.
Lemma clink_app b l1 l2 : clink b (l1 ++ l2) = clink b l1 ++ clink b l2.
Proof. apply flat_map_app. Qed.

Definition ce_put (n : Z) (p : cproc) : list entry := if cp_node p =? n then ce_proc p else [].

Lemma cputq_one n p : cputq n [p] = ce_put n p.
Proof. apply app_nil_r. Qed.

Lemma ce_put_nil n p : ce_proc p = [] -> ce_put n p = [].
Proof. intros E. unfold ce_put. rewrite E. destruct (cp_node p =? n); reflexivity. Qed.

Lemma ce_put_other n p : cp_node p <> n -> ce_put n p = [].
Proof. intros H. unfold ce_put. apply Z.eqb_neq in H. rewrite H. reflexivity. Qed.

Lemma cputq_set_same n pid c l p :
  cfind pid l = Some p -> ce_put n {| cp_id := pid; cp_node := cp_node p; cp_pc := c |} = ce_put n p ->
  cputq n (cset pid c l) = cputq n l.
Proof. exact tset_proj_same. Qed.

Lemma cputq_set_first n pid c l p :
  cfind pid l = Some p -> ce_proc {| cp_id := pid; cp_node := cp_node p; cp_pc := c |} = [] ->
  (match cfirst_put n l with Some q => q =? pid | None => false end) = true ->
  cputq n l = ce_put n p ++ cputq n (cset pid c l).
Proof. intros F E. exact (tset_proj_first F (ce_put_nil n _ E)). Qed.

Lemma cj_init c : CJ c cinit.
Proof. intros d _. reflexivity. Qed.

(** [CJ] looks at the logs, the put queues and the links only. *)
Lemma cj_frame c s s' :
  CJ c s -> (forall i, n_log (k_node s' i) = n_log (k_node s i)) ->
  (forall d, cputq d (k_procs s') = cputq d (k_procs s)) -> (forall d, clink d (k_net s') = clink d (k_net s)) ->
  CJ c s'.
Proof. intros Jn En Eq El d Hd. rewrite !En, Eq, El. exact (Jn d Hd). Qed.

Lemma cj_node c s i nd : CJ c s -> n_log nd = n_log (k_node s i) -> CJ c (set_node s i nd).
Proof.
  intros Jn H. apply (cj_frame c s _ Jn); try reflexivity. intros j. exact (upd_proj_same n_log _ _ _ _ H).
Qed.

Lemma cj_reply c s w sq rf : CJ c s -> CJ c (c_reply s w sq rf).
Proof. destruct rf; intros Jn; exact Jn. Qed.

Lemma cj_spawn c s n pcv :
  CJ c s -> ce_proc {| cp_id := k_next s; cp_node := n; cp_pc := pcv |} = [] -> CJ c (cspawn s n pcv).
Proof.
  intros Jn E. apply (cj_frame c s _ Jn); try reflexivity. intros d. cbn [cspawn cbump set_procs k_procs].
  rewrite cputq_app, cputq_one, (ce_put_nil d _ E). apply app_nil_r.
Qed.

Lemma cj_del c s pid p :
  CJ c s -> cfind pid (k_procs s) = Some p -> ce_proc p = [] -> CJ c (set_procs s (cdel pid (k_procs s))).
Proof. intros Jn F E. apply (cj_frame c s _ Jn); try reflexivity. intros d. exact (tdel_proj_nil F (ce_put_nil d p E)). Qed.

Lemma cj_set c s pid p pcv :
  CJ c s -> cfind pid (k_procs s) = Some p -> ce_proc p = [] ->
  ce_proc {| cp_id := pid; cp_node := cp_node p; cp_pc := pcv |} = [] ->
  CJ c (set_procs s (cset pid pcv (k_procs s))).
Proof.
  intros Jn F E E'. apply (cj_frame c s _ Jn); try reflexivity. intros d. apply (cputq_set_same d _ _ _ _ F).
  rewrite (ce_put_nil d p E). exact (ce_put_nil d _ E').
Qed.

Lemma cj_take c s m l :
  CJ c s -> ctake m (k_net s) = Some l -> (forall d, ce_msg d m = []) -> CJ c (set_net s l).
Proof. intros Jn T E. apply (cj_frame c s _ Jn); try reflexivity. intros d. exact (take_proj_nil cmsg_eqb_eq T (E d)). Qed.

Lemma cj_send c s l : CJ c s -> (forall d, clink d l = []) -> CJ c (set_net s (k_net s ++ l)).
Proof.
  intros Jn E. apply (cj_frame c s _ Jn); try reflexivity. intros d. cbn [set_net k_net].
  rewrite clink_app, E. apply app_nil_r.
Qed.

(** a put completes at node [i] (head write or propagated write): the entry joins
    log i and, unless i is the tail, the link to i+1 *)
Lemma cj_apply c s i sq k v nd' net' procs' :
  CJ c s -> n_log nd' = n_log (k_node s i) ++ [(sq, k, v)] ->
  (forall d, 1 <= d < cn c -> clink d net' = clink d (k_net s) ++ (if d =? i + 1 then [(sq, k, v)] else [])) ->
  (forall d, 1 <= d -> cputq d (k_procs s) = (if d =? i then [(sq, k, v)] else []) ++ cputq d procs') ->
  CJ c (set_procs (set_net (set_node s i nd') net') procs').
Proof.
  intros Jo Hlog Hl Hq d Hd. cbn [k_node k_procs k_net set_procs set_net set_node].
  pose proof (Jo d Hd) as Jd. rewrite (Hq d (proj1 Hd)) in Jd. rewrite (Hl d Hd). clear Jo Hl Hq.
  destruct (Z.eq_dec d i) as [->|Hdi].
  - (* out of the queue of [i], into its log *)
    rewrite Z.eqb_refl in Jd. rewrite upd_same, upd_other by lia. replace (i =? i + 1) with false by lia.
    rewrite Hlog, app_nil_r, <- Jd, <- !app_assoc. reflexivity.
  - rewrite (upd_other _ _ _ _ Hdi). apply Z.eqb_neq in Hdi. rewrite Hdi in Jd. cbn [app] in Jd.
    destruct (Z.eq_dec (d - 1) i) as [E|E].
    + (* [d = i + 1]: into log [i] and onto the link to [d] *)
      rewrite E in *. rewrite upd_same, Hlog, <- Jd. replace (d =? i + 1) with true by lia.
      rewrite <- !app_assoc. reflexivity.
    + rewrite upd_other by exact E. replace (d =? i + 1) with false by lia. rewrite app_nil_r. exact Jd.
Qed.

Lemma cj_deliver c s n k v sq net' nd' :
  CJ c s -> ctake (CProp n k v sq) (k_net s) = Some net' ->
  (match cfirst_link n (k_net s) with Some x => cmsg_eqb (CProp n k v sq) x | None => false end) = true ->
  n_log nd' = n_log (k_node s n) ->
  CJ c (cspawn (set_node (set_net s net') n nd') n (PPut k v sq)).
Proof.
  intros Jn T FL Hnd d Hd. cbn [cspawn cbump set_procs set_net set_node k_node k_procs k_net].
  rewrite !(upd_proj_same n_log _ _ _ _ Hnd), cputq_app, cputq_one, <- (Jn d Hd).
  unfold ce_put. cbn [cp_node ce_proc cp_pc].
  destruct (Z.eq_dec n d) as [->|Hne].
  - rewrite (take_proj_first cmsg_eqb_eq T FL : clink d _ = _). cbn [ce_msg]. rewrite Z.eqb_refl, <- !app_assoc. reflexivity.
  - apply Z.eqb_neq in Hne. rewrite Hne, app_nil_r, (take_proj_nil cmsg_eqb_eq T : _ -> clink d _ = _); [reflexivity|].
    cbn [ce_msg]. rewrite Hne. reflexivity.
Qed.

Lemma cj_read_start c s i r k rf : CJ c s -> CJ c (fst (fst (c_read_start c s i r k rf))).
Proof.
  intros Jn. unfold c_read_start.
  destruct (cc_craq c && negb (is_tail c i) && zmem k (n_dirty (k_node s i)));
    (apply cj_spawn; [|reflexivity]).
  - apply cj_send; [exact Jn|reflexivity].
  - apply cj_node; [exact Jn|reflexivity].
Qed.

Lemma cj_start c s n m : CJ c s -> cfifo_ok s (CStart n m) = true -> after (CJ c) (cstart c s n m).
Proof.
  intros Jn FO. unfold cstart. destruct (is_node c n); [|exact I].
  destruct m as [w k v rf|r k rf|r k rf|d k v sq|k sq|d k sq|].
  - unfold c_write_start. destruct (n =? 0); [|exact Jn].
    apply cj_spawn; [|reflexivity]. apply (cj_node c s 0); [exact Jn|reflexivity].
  - apply cj_read_start, Jn.
  - destruct (is_tail c n); [|exact I].
    destruct (ctake (CFwdRead r k rf) (k_net s)) as [net'|] eqn:T; [|exact I].
    apply cj_read_start. exact (cj_take _ _ _ _ Jn T (fun _ => eq_refl)).
  - destruct (d =? n) eqn:Ed; [|exact I]. apply Z.eqb_eq in Ed; subst d.
    destruct (ctake (CProp n k v sq) (k_net s)) as [net'|] eqn:T; [|exact I].
    apply (cj_deliver c s n k v sq net' _ Jn T FO). reflexivity.
  - destruct (n =? 0); [|exact I].
    destruct (ctake (CAck k sq) (k_net s)) as [net'|] eqn:T; [|exact I].
    unfold c_ack.
    destruct (zmem sq (n_pending (k_node (set_net s net') n)) && negb (zmem sq (k_res (set_net s net'))));
      exact (cj_take _ _ _ _ Jn T (fun _ => eq_refl)).
  - destruct (d =? n); [|exact I].
    destruct (ctake (CCommit d k sq) (k_net s)) as [net'|] eqn:T; [|exact I].
    unfold c_commit. pose proof (cj_take _ _ _ _ Jn T (fun _ => eq_refl)) as J1.
    destruct (cc_craq c); [|exact J1]. apply (cj_node c _ n); [exact J1|reflexivity].
  - exact Jn.
Qed.

Lemma cj_t_acked c s pid p k sq :
  CJ c s -> cfind pid (k_procs s) = Some p -> ce_proc p = [] ->
  CJ c (fst (fst (t_acked c s pid (cp_node p) k sq))).
Proof.
  intros Jn F E. unfold t_acked. destruct (cc_craq c); [|exact (cj_del c s pid p Jn F E)]. cbv zeta.
  set (nd' := nd_upd _ _ _ _ _ _ _ _ _ _ _). set (ms := map _ _).
  assert (J1 : CJ c (set_net (set_node s (cp_node p) nd') (k_net s ++ ms))).
  { apply (cj_send c (set_node s (cp_node p) nd')); [exact (cj_node c s _ nd' Jn eq_refl)|].
    intros d. subst ms. induction (upstream (cp_node p)); [reflexivity|assumption]. }
  clearbody ms. destruct ms.
  - exact (cj_del c _ pid p J1 F E).
  - exact (cj_set c _ pid p PNotified J1 F E eq_refl).
Qed.

Lemma cj_p_put_done c s pid p k v sq :
  CJ c s -> cfind pid (k_procs s) = Some p -> ce_proc p = [(sq, k, v)] ->
  (match cfirst_put (cp_node p) (k_procs s) with Some q => q =? pid | None => false end) = true ->
  CJ c (fst (fst (p_put_done c s pid (cp_node p) k v sq))).
Proof.
  intros Jn F E FP. set (i := cp_node p) in *.
  assert (Hq : forall X, ce_proc {| cp_id := pid; cp_node := i; cp_pc := X |} = [] ->
            forall d, 1 <= d -> cputq d (k_procs s) = (if d =? i then [(sq, k, v)] else []) ++ cputq d (cset pid X (k_procs s))).
  { intros X HX d Hd. destruct (Z.eqb_spec d i) as [->|Hdi].
    - rewrite (cputq_set_first i pid X _ p F HX FP). unfold ce_put. fold i. rewrite Z.eqb_refl, E. reflexivity.
    - symmetry. apply (cputq_set_same d pid X _ p F).
      rewrite (ce_put_other d p) by (fold i; congruence). apply ce_put_other. cbn [cp_node]. fold i. congruence. }
  unfold p_put_done. cbv zeta. destruct (is_tail c i) eqn:Et.
  - apply (cj_apply c s i sq k v); [exact Jn|reflexivity| |exact (Hq (PAcked k sq) eq_refl)].
    intros d Hd. cbn [k_net set_net set_node]. rewrite clink_app. cbn.
    apply Z.eqb_eq in Et. unfold tail_of in Et. replace (d =? i + 1) with false by lia. reflexivity.
  - apply (cj_apply c s i sq k v); [exact Jn|reflexivity| |exact (Hq PFwd eq_refl)].
    intros d Hd. cbn [k_net set_net set_node]. rewrite clink_app. unfold clink at 2. cbn [flat_map ce_msg].
    rewrite app_nil_r, (Z.eqb_sym (i + 1) d). reflexivity.
Qed.

Lemma cj_resume c s pid : CJ c s -> cfifo_ok s (CResume pid) = true -> after (CJ c) (cresume c s pid).
Proof.
  intros Jn FO. unfold cresume. cbn [cfifo_ok] in FO.
  destruct (cfind pid (k_procs s)) as [p|] eqn:F; [|exact I].
  pose proof (eq_refl : ce_proc p = match cp_pc p with PPut k v sq => [(sq, k, v)] | _ => [] end) as E.
  (* [PFwd], [PNotified], [RFwd] only end; so does [RGet] as far as logs, queues and links go *)
  destruct (cp_pc p) as [w k v sq rf|w k sq rf|w k sq rf|k v sq| |k sq| |r k rf| ]; rewrite E in FO;
    try exact (cj_del c s pid p Jn F E).
  - unfold h_put_done. cbv zeta.
    apply (cj_apply c s 0 sq k v); [exact Jn|reflexivity| |].
    + intros d Hd. cbn [k_net set_net set_node]. rewrite clink_app. unfold clink at 2. cbn [flat_map ce_msg].
      rewrite app_nil_r, (Z.eqb_sym 1 d). reflexivity.
    + intros d Hd. replace (d =? 0) with false by lia. cbn [app k_procs set_net set_node].
      symmetry. apply (cputq_set_same d _ _ _ _ F). rewrite (ce_put_nil d p E). apply ce_put_nil. reflexivity.
  - exact (cj_set c s pid p (HWWait w k sq rf) Jn F E eq_refl).
  - destruct (zmem sq (k_res s)); [|exact I].
    unfold h_acked. cbv zeta. apply cj_reply.
    apply (cj_del c (set_node s 0 _) pid p); [|exact F|exact E]. apply cj_node; [exact Jn|reflexivity].
  - exact (cj_p_put_done c s pid p k v sq Jn F E FO).
  - exact (cj_t_acked c s pid p k sq Jn F E).
Qed.

Lemma cj_step c s i : CJ c s -> cfifo_ok s i = true -> after (CJ c) (cstep c s i).
Proof. destruct i; [apply cj_start|apply cj_resume]. Qed.

Theorem chain_convergence_fifo c sched s :
  crun_fifo c cinit sched = Some s -> cquiescent s ->
  forall i, 0 <= i < cn c ->
    n_log (k_node s i) = n_log (k_node s 0) /\ n_store (k_node s i) = n_store (k_node s 0).
Proof.
  intros H [Qn Qp] i Hi. pose proof (grun_inv cfifo_ok (cj_step c) sched _ _ (cj_init c) H) as Jo.
  (* at quiescence every log equals its predecessor's, hence the head's *)
  assert (Hl : forall j, 0 <= j -> j < cn c -> n_log (k_node s j) = n_log (k_node s 0)).
  { apply (natlike_ind (fun j => j < cn c -> n_log (k_node s j) = n_log (k_node s 0))); [reflexivity|].
    intros j Hj IH Hlt.
    specialize (Jo (Z.succ j) ltac:(lia)). rewrite Qn, Qp in Jo. cbn [cputq clink flat_map] in Jo.
    rewrite !app_nil_r in Jo. rewrite Jo. replace (Z.succ j - 1) with j by lia. apply IH. lia. }
  pose proof (Hl i (proj1 Hi) (proj2 Hi)) as E.
  split; [exact E|].
  (* the stores are the replays of the logs, on every run *)
  pose proof (cinv_run c sched _ _ (cinv_init c) (grun_permitted cfifo_ok c sched _ _ H)) as I.
  rewrite (ci_coh c s I i : n_store _ = _), (ci_coh c s I 0 : n_store _ = _). cbn [fst ndata]. rewrite E.
  reflexivity.
Qed.

(** the hypotheses are satisfiable (in-order delivery of the refutation witness's two writes) *)
Definition cfifo_sched : list cinp :=
  [ CStart 0 (CWrite 101 0 101 true); CStart 0 (CWrite 102 0 102 true);
    CResume 0; CResume 1; CResume 0; CResume 1;
    CStart 1 (CProp 1 0 101 1); CStart 1 (CProp 1 0 102 2);
    CResume 2; CResume 3; CResume 2; CResume 3;
    CStart 0 (CAck 0 1); CStart 0 (CAck 0 2); CResume 0; CResume 1 ].

Example cfifo_example :
  match crun_fifo cwit_cfg cinit cfifo_sched with
  | Some s => cquiescent_b s && negb (cdiverged_b cwit_cfg s)
  | None => false
  end = true.
Proof. vm_compute. reflexivity. Qed.

Example cwit_not_fifo : crun_fifo cwit_cfg cinit cwit_sched = None.
Proof. vm_compute. reflexivity. Qed.
