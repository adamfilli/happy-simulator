From HS Require Import Base.Prelude C09.Model.
Local Open Scope Z_scope.
(** Fewer than [max 1 parties] processes are ever blocked at the barrier. *)
Definition br_inv (parties : Z) (s : brstate) : Prop :=
  br_parties s = parties /\ Z.of_nat (length (br_waiters s)) < Z.max 1 parties.

Lemma br_inv_step parties s o : br_inv parties s -> br_inv parties (fst (br_step s o)).
Proof.
  intros I. pose proof I as [P W]. destruct o as [c now|c now| |]; cbn [br_step]; try (split; cbn; [exact P|lia]).
  - destruct (br_broken s); [exact I|].
    destruct (Z.of_nat (length (br_waiters s)) + 1 >=? br_parties s) eqn:E; (split; cbn; [exact P|]); [lia|].
    rewrite app_length; cbn. lia.
  - destruct (assoc_find c (br_released s)); [split; [exact P|exact W]|exact I].
Qed.

Lemma br_inv_run parties ops : forall s, br_inv parties s -> br_inv parties (br_run s ops).
Proof. induction ops; cbn; intros; auto. apply IHops, br_inv_step; auto. Qed.
