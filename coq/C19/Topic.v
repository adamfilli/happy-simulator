(** C19 — the Topic machine of C19/TopicModel.v: subscriber ids stay distinct,
    so the snapshot a publish takes has no duplicates; a suspended publish is
    untouched by operations on other handles ([tlookup_step]). *)
From HS Require Import Base.Prelude Base.Lists C19.Model C19.Lists C19.TopicModel.
Local Open Scope Z_scope.

Definition ids (subs : list tsub) : list Z := map ts_id subs.

Lemma ids_set_active c b subs : ids (set_active c b subs) = ids subs.
Proof. induction subs as [|x r IH]; [reflexivity|]. cbn. destruct (c =? ts_id x); cbn; [reflexivity|]. f_equal. exact IH. Qed.

Lemma ids_bump c subs : ids (bump_recv c subs) = ids subs.
Proof. induction subs as [|x r IH]; [reflexivity|]. cbn. destruct (c =? ts_id x); cbn; [reflexivity|]. f_equal. exact IH. Qed.

Lemma ids_bump_fold act : forall subs, ids (fold_left (fun subs c => bump_recv c subs) act subs) = ids subs.
Proof. induction act as [|c r IH]; intros subs; [reflexivity|]. cbn. rewrite IH. apply ids_bump. Qed.

Lemma has_sub_false c subs : has_sub c subs = false -> ~ In c (ids subs).
Proof.
  induction subs as [|x r IH]; cbn; [tauto|]. destruct (Z.eqb_spec c (ts_id x)); [discriminate|].
  intros H [E|HI]; [congruence|]. exact (IH H HI).
Qed.

Lemma tstep_ids_nodup mx s o : NoDup (ids (t_subs s)) -> NoDup (ids (t_subs (fst (tstep mx s o)))).
Proof.
  intros N. destruct o; cbn [tstep].
  - destruct (match mx with None => false | Some m => m <=? zlen (actives (t_subs s)) end); [exact N|].
    destruct (has_sub c (t_subs s)) eqn:E; cbn [fst t_subs].
    + rewrite ids_set_active. exact N.
    + unfold ids. rewrite map_app. apply (NoDup_Add (Add_app _ _ [])). rewrite app_nil_r.
      split; [exact N|apply has_sub_false, E].
  - destruct (has_sub c (t_subs s)); cbn [fst t_subs]; [rewrite ids_set_active|]; exact N.
  - destruct (actives (t_subs s)); exact N.
  - destruct (lookup h (t_frames s)) as [[[m act] i]|]; [|exact N].
    destruct (i + 1 <? zlen act); cbn [fst t_subs]; rewrite ids_bump; exact N.
  - cbn [fst t_subs]. rewrite ids_bump_fold. exact N.
Qed.

Lemma trun_fold mx ops : forall s, fst (trun_from mx s ops) = fold_left (fun s o => fst (tstep mx s o)) ops s.
Proof. apply (run_from_fold (tstep mx) (trun_from mx)); reflexivity. Qed.

Lemma actives_nodup subs : NoDup (ids subs) -> NoDup (actives subs).
Proof.
  unfold actives, ids. induction subs as [|x r IH]; cbn; [constructor|].
  intros N. inversion N as [|? ? NI ND]; subst. destruct (ts_active x); cbn; [|apply IH; exact ND].
  constructor; [|apply IH; exact ND]. intros HI. apply NI. apply in_map_iff in HI.
  destruct HI as (y & E & HF). apply filter_In in HF. apply in_map_iff. exists y. tauto.
Qed.

Lemma trun_actives_nodup mx ops : NoDup (actives (t_subs (trun mx ops))).
Proof.
  apply actives_nodup. unfold trun. rewrite trun_fold.
  apply (fold_left_inv _ (fun s => NoDup (ids (t_subs s)))); [|constructor].
  intros s o. apply tstep_ids_nodup.
Qed.

Lemma actives_spec subs c : In c (actives subs) <-> exists x, In x subs /\ ts_id x = c /\ ts_active x = true.
Proof.
  unfold actives. rewrite in_map_iff. split.
  - intros (x & E & HF). apply filter_In in HF. exists x. tauto.
  - intros (x & HI & E & A). exists x. split; [exact E|]. apply filter_In. tauto.
Qed.

Definition thandle (o : top) : option Z :=
  match o with TPublishBegin h _ | TPublishResume h _ => Some h | _ => None end.

Lemma tlookup_step mx s o h : thandle o <> Some h ->
  lookup h (t_frames (fst (tstep mx s o))) = lookup h (t_frames s).
Proof.
  intros N. destruct o; cbn [tstep thandle] in *.
  - destruct (match mx with None => false | Some m => m <=? zlen (actives (t_subs s)) end); [reflexivity|].
    destruct (has_sub c (t_subs s)); reflexivity.
  - destruct (has_sub c (t_subs s)); reflexivity.
  - destruct (actives (t_subs s)); [reflexivity|]. apply lookup_cons_other. congruence.
  - destruct (lookup h0 (t_frames s)) as [[[m act] i]|]; [|reflexivity].
    destruct (i + 1 <? zlen act); cbn [fst t_frames].
    + rewrite lookup_cons_other by congruence. apply lookup_remkey_other. congruence.
    + apply lookup_remkey_other. congruence.
  - reflexivity.
Qed.

Lemma tlookup_run_from mx ops s h :
  Forall (fun o => thandle o <> Some h) ops ->
  lookup h (t_frames (fst (trun_from mx s ops))) = lookup h (t_frames s).
Proof.
  rewrite trun_fold. apply (fold_left_keeps _ (fun s => lookup h (t_frames s))).
  intros s0 o. apply tlookup_step.
Qed.

(** The hypotheses of [c19_topic_exactly_once] are satisfiable: two subscribers,
    one publish in progress, a later unsubscribe does not disturb it. *)
Example topic_hypotheses_satisfiable :
  let s := trun None [TSubscribe 1; TSubscribe 2; TPublishBegin 9 0] in
  lookup 9 (t_frames s) = Some (0, [1; 2], 0) /\
  Forall (fun o => thandle o <> Some 9) [TUnsubscribe 2; TPublishBegin 10 1] /\
  snd (tstep None (fst (trun_from None s [TUnsubscribe 2; TPublishBegin 10 1; TPublishResume 9 5])) (TPublishResume 9 7))
    = [TDelivery 1 0 7; TDelivery 2 0 7].
Proof.
  cbn zeta. split; [vm_compute; reflexivity|]. split; [|vm_compute; reflexivity].
  repeat constructor; discriminate.
Qed.
