(** Property C01 — every live event is delivered exactly once, in time order
    with FIFO ties.  Statements over ALL scripts (programs), pre-run schedules,
    end_time choices and fuel, read off the engine invariant ([script_run_inv]). *)
From HS Require Import Base.Prelude Base.PyLib Engine.Engine Engine.Script Engine.EngineProofs Engine.ScriptProofs Gen.EventGen C01.GenTie C01.HeapTie Gen.TemporalGen C01.TimeTie.
From Coq Require Import Sorting.Sorted Permutation.
Local Open Scope Z_scope.

Definition final fuel start end_ns p pre : sst := out_state (script_run fuel start end_ns p pre).

(** Of any two deliveries, the earlier one has the smaller timestamp, or the
    same timestamp and the smaller sort index (= earlier creation, next theorem):
    non-decreasing time order and FIFO among simultaneous events, whether they
    were scheduled before the run or during it. *)
Theorem c01_time_order_fifo_ties : forall fuel start end_ns p pre l1 a l2 b l3,
  delivered (final fuel start end_ns p pre) = l1 ++ a :: l2 ++ b :: l3 ->
  ev_time a < ev_time b \/ (ev_time a = ev_time b /\ ev_sort a < ev_sort b).
Proof. intros. eapply delivered_order; [apply script_run_inv|eassumption]. Qed.
Print Assumptions c01_time_order_fifo_ties.

(** Sort indices follow creation order: whatever an invocation creates is
    numbered above every event pushed before it (pre-run events included). *)
Theorem c01_sort_index_is_creation_order : forall (s : sst) now e r x y at_,
  Inv pay ustate s -> invoke_script (user s) now e (ctr s) = Some r ->
  In x (r_new r) -> In (y, at_) (pushed s) -> ev_sort y < ev_sort x.
Proof.
  intros s now e r x y a I Hr Hx Hy.
  destruct (invoke_script_ok _ _ _ _ _ Hr) as (_ & Hnew & _). specialize (Hnew x Hx).
  assert (ev_sort y < ctr s); [|lia]. apply (i_fresh _ _ _ I). apply in_map_iff. exists (y, a). auto.
Qed.
Print Assumptions c01_sort_index_is_creation_order.

Theorem c01_delivered_at_most_once : forall fuel start end_ns p pre,
  NoDup (delivered (final fuel start end_ns p pre)).
Proof. intros. apply delivered_once, script_run_inv. Qed.
Print Assumptions c01_delivered_at_most_once.

Theorem c01_clock_equals_timestamp : forall fuel start end_ns p pre e c,
  In (e, c, Delivered) (log (final fuel start end_ns p pre)) -> c = ev_time e.
Proof. intros. eapply delivered_clock; [apply script_run_inv|eassumption]. Qed.
Print Assumptions c01_clock_equals_timestamp.

(** When a run with an end_time ends, every event scheduled not earlier than
    the clock of its scheduling and not later than end_time was delivered, or
    was found cancelled when popped: none lost, none discarded as past. *)
Theorem c01_live_events_delivered : forall fuel start end_ns p pre s',
  script_run fuel start (Some end_ns) p pre = Stopped s' ->
  forall x at_, In (x, at_) (pushed s') -> at_ <= ev_time x -> ev_time x <= end_ns ->
  exists c, In (x, c, Delivered) (log s') \/
            (In (x, c, SkippedCancelled) (log s') /\ is_cancelled s' x = true).
Proof.
  intros fuel start end_ns p pre s' H. eapply live_events_handled; [exact invoke_script_ok|apply script_init_inv|exact H].
Qed.
Print Assumptions c01_live_events_delivered.

Theorem c01_only_events_scheduled_in_the_past_are_discarded : forall fuel start end_ns p pre e c,
  In (e, c, SkippedPast) (log (final fuel start end_ns p pre)) ->
  exists at_, In (e, at_) (pushed (final fuel start end_ns p pre)) /\ ev_time e < at_.
Proof. intros. eapply past_only_if_scheduled_in_past; [apply script_run_inv|eassumption]. Qed.
Print Assumptions c01_only_events_scheduled_in_the_past_are_discarded.

(** A cancelled event is never delivered (from any reachable state on). *)
Theorem c01_cancelled_never_delivered : forall fuel end_ns id (s : sst),
  undelivered pay ustate id s -> undelivered pay ustate id (out_state (run invoke_script fuel end_ns s)).
Proof. intros. apply cancelled_never_delivered. assumption. Qed.
Print Assumptions c01_cancelled_never_delivered.

(** With no end_time the run stops exactly when no non-daemon event is pending. *)
Theorem c01_auto_termination : forall (s : sst), Inv pay ustate s ->
  (count_primary (heap s) = 0 -> step_slow invoke_script None s = Stopped s) /\
  (0 < count_primary (heap s) -> forall s', step_slow invoke_script None s <> Stopped s').
Proof.
  intros s I. split; [apply auto_stops_without_primary|apply auto_continues_with_primary]; exact I.
Qed.
Print Assumptions c01_auto_termination.

Theorem c01_auto_final_state : forall fuel start p pre s',
  script_run fuel start None p pre = Stopped s' -> heap s' = [] \/ count_primary (heap s') = 0.
Proof.
  intros fuel start p pre s' H. eapply auto_final_state; [exact invoke_script_ok|apply script_init_inv|exact H].
Qed.
Print Assumptions c01_auto_final_state.

Theorem c01_primary_count_exact : forall fuel start end_ns p pre,
  primary (final fuel start end_ns p pre) = count_primary (heap (final fuel start end_ns p pre)).
Proof. intros. apply primary_count_exact, script_run_inv. Qed.
Print Assumptions c01_primary_count_exact.

(** Non-vacuity: a script with a pre-run tie, a generator, a cancellation. *)
Example c01_example :
  let p := [[(0, BImm [AEmit (mkEmit (mkEmit0 500000000 0 1 false) (-1) [])]); (1, BGen [GYield 1000 []] [])]] in
  let pre := [mkPre 500000000 (mkEmit (mkEmit0 0 0 0 false) (-1) []) false;
              mkPre 1000000000 (mkEmit (mkEmit0 0 0 1 false) 0 []) false;
              mkPre 1000000000 (mkEmit (mkEmit0 0 0 1 false) (-1) []) true] in
  map (fun e => (ev_time e, ev_sort e)) (delivered (final 50 0 (Some 2000000000) p pre))
  = [(500000000, 0); (1000000000, 1); (1000000000, 3); (1000001000, 5); (1000001000, 7)].
Proof. vm_compute. reflexivity. Qed.

(** The heap order key of the CODE: [Event.__lt__], regenerated from core/event.py on every run
    (Gen/EventGen.v), is the model's [ev_ltb] and a strict total order on (time, creation index). *)
Theorem c01_code_event_order : forall (a b c : Event),
  (forall P da db (pa pb : P), Event___lt__ a b = ev_ltb (ev_of a da pa) (ev_of b db pb))
  /\ Event___lt__ a a = false
  /\ (Event___lt__ a b = true -> Event___lt__ b c = true -> Event___lt__ a c = true)
  /\ (Event___lt__ a b = true \/ Event___lt__ b a = true
      \/ (Event_time a = Event_time b /\ Event__sort_index a = Event__sort_index b))
  /\ (Event___lt__ a b = true <->
      (Event_time a < Event_time b \/ (Event_time a = Event_time b /\ Event__sort_index a < Event__sort_index b))%Z).
Proof.
  intros a b c. split; [intros; apply tie_event_lt|].
  split; [apply Bool.not_true_iff_false; rewrite event_lt_spec; lia|].
  split; [rewrite !event_lt_spec; lia|]. split; [rewrite !event_lt_spec; lia|apply event_lt_spec].
Qed.
Print Assumptions c01_code_event_order.

(** The event heap of the CODE: EventHeap._push_single / pop / peek / has_events /
    has_primary_events / size / set_current_time, regenerated from core/event_heap.py on every run
    (Gen/EventGen.v; tracing and debug logging off), are the heap bookkeeping of the engine model —
    [insert] into the list sorted by [ev_ltb], the [primary] counter and clock updates of [push_all]
    and [pop_and_handle] — on the code object [hobj] of a model heap (any payload type). *)
Theorem c01_code_event_heap_refines_model : forall (P : Type) prim cur (h : list (ev P)) mx e es t,
  EventHeap__push_single (hobj P prim cur h mx) (encv P e)
    = (hobj P (prim + (if ev_daemon e then 0 else 1)) cur (insert e h) (Z.max mx (ev_sort e)), tt)
  /\ EventHeap_pop (hobj P prim cur h mx)
    = match h with
      | [] => None
      | e :: r => Some (hobj P (if ev_daemon e then prim else prim - 1) (ev_time e) r mx, encv P e)
      end
  /\ (EventHeap_peek (hobj P prim cur h mx) = option_map (encv P) (hd_error h)
      /\ EventHeap_has_events (hobj P prim cur h mx) = match h with [] => false | _ => true end
      /\ EventHeap_has_primary_events (hobj P prim cur h mx) = (0 <? prim)
      /\ EventHeap_size (hobj P prim cur h mx) = Z.of_nat (length h)
      /\ EventHeap_set_current_time (hobj P prim cur h mx) t = (hobj P prim t h mx, tt))
  /\ (exists mx', fold_left (fun q e => fst (EventHeap__push_single q (encv P e))) es (hobj P prim cur h mx)
                  = hobj P (prim + count_primary es) cur (insert_all es h) mx').
Proof.
  intros P prim cur h mx e es t. split; [apply tie_push_single|].
  split; [rewrite pop_eq; destruct h; reflexivity|]. split; [|apply tie_push_all].
  unfold EventHeap_peek, EventHeap_has_events, EventHeap_has_primary_events, EventHeap_size, EventHeap_set_current_time, hobj. cbn.
  rewrite map_length. repeat split; try (destruct h; reflexivity). lia.
Qed.
Print Assumptions c01_code_event_heap_refines_model.

(** EventHeap AS TRANSLATED, started empty, for EVERY sequence of pushes and pops that never pops
    an empty heap: the primary counter equals the number of non-daemon events held, so
    [has_primary_events] — what auto-termination reads — is true exactly when a non-daemon event is
    pending; the events pushed are exactly the events popped plus the events held (nothing lost or
    duplicated by the heap); every pop returned an event that nothing then in the heap preceded in
    (time, sort index) order and set the heap's time reference to its timestamp. *)
Theorem c01_code_event_heap : forall ops t0 mx0 q popped,
  heap_run (mkEventHeap 0 t0 [] mx0) ops = Some (q, popped) ->
  EventHeap__primary_event_count q = nprimary (EventHeap__heap q)
  /\ (EventHeap_has_primary_events q = true <-> exists e, In e (EventHeap__heap q) /\ Event_daemon e = false)
  /\ Permutation (pushed_of ops) (popped ++ EventHeap__heap q)
  /\ pops_minimal (mkEventHeap 0 t0 [] mx0) ops.
Proof.
  intros ops t0 mx0 q popped Hr.
  assert (Hi : heap_inv (mkEventHeap 0 t0 [] mx0)) by (split; cbn; auto).
  destruct (heap_run_inv ops _ _ _ Hi Hr) as ([Hc Hs] & B & C).
  split; [exact Hc|]. split; [|split; [exact B|exact C]].
  unfold EventHeap_has_primary_events. rewrite Hc, <- nprimary_pos. lia.
Qed.
Print Assumptions c01_code_event_heap.

Example c01_code_event_heap_example :
  option_map snd (heap_run (mkEventHeap 0 0 [] (-1))
    [HPush (mkEvent 5 0 false); HPush (mkEvent 3 1 true); HPush (mkEvent 5 2 false); HPush (mkEvent 3 3 false); HPop; HPop; HPop])
  = Some [mkEvent 3 1 true; mkEvent 3 3 false; mkEvent 5 0 false].
Proof. vm_compute. reflexivity. Qed.

(** Simulation time of the CODE: Instant / Duration arithmetic and comparisons of core/temporal.py
    (finite instants; Duration, Instant and whole-second operands) and Clock of core/clock.py,
    regenerated on every run (Gen/TemporalGen.v), are integer arithmetic / comparisons on nanosecond
    counts; shifting forth and back is the identity, the order is strict, total and compatible with
    shifting; the clock returns the instant it was last given.  This is the reading of time used by
    the engine model ("clock = timestamp at every delivery", "time order") and by the idiom table of
    every other translation. *)
Theorem c01_code_time_is_integer_nanoseconds : forall (t u : Instant) (d e : Duration) (k : Z) (c : Clock),
  (ins (Instant___add___dur t d) = ins t + dns d
   /\ ins (Instant___add___int t k) = ins t + k * 1000000000
   /\ dns (Instant___sub___inst t u) = ins t - ins u
   /\ ins (Instant___sub___dur t d) = ins t - dns d
   /\ ins (Instant___sub___int t k) = ins t - k * 1000000000)
  /\ (dns (Duration___add___dur d e) = dns d + dns e
      /\ dns (Duration___add___int d k) = dns d + k * 1000000000
      /\ dns (Duration___sub___dur d e) = dns d - dns e
      /\ dns (Duration___sub___int d k) = dns d - k * 1000000000)
  /\ (Instant___eq__ t u = (ins t =? ins u) /\ Instant___lt__ t u = (ins t <? ins u) /\ Instant___le__ t u = (ins t <=? ins u)
      /\ Instant___gt__ t u = (ins u <? ins t) /\ Instant___ge__ t u = (ins u <=? ins t))
  /\ (Duration___eq__ d e = (dns d =? dns e) /\ Duration___lt__ d e = (dns d <? dns e) /\ Duration___le__ d e = (dns d <=? dns e)
      /\ Duration___gt__ d e = (dns e <? dns d) /\ Duration___ge__ d e = (dns e <=? dns d))
  /\ (Instant___sub___dur (Instant___add___dur t d) d = t
      /\ Instant___add___dur u (Instant___sub___inst t u) = t
      /\ (Instant___eq__ t u = true <-> t = u)
      /\ (Instant___lt__ t u = true -> Instant___lt__ u t = false)
      /\ (Instant___lt__ t u = true \/ Instant___lt__ u t = true \/ t = u)
      /\ (Instant___lt__ (Instant___add___dur t d) (Instant___add___dur u d) = Instant___lt__ t u)
      /\ (0 <= dns d -> Instant___le__ t (Instant___add___dur t d) = true))
  /\ Clock_now (fst (Clock_update c t)) = t.
Proof.
  intros t u d e k c.
  split; [repeat split|]. split; [repeat split|].
  split; [unfold Instant___eq__, Instant___lt__, Instant___le__, Instant___gt__, Instant___ge__, ins; repeat split; lia|].
  split; [unfold Duration___eq__, Duration___lt__, Duration___le__, Duration___gt__, Duration___ge__, dns; repeat split; lia|].
  split; [apply instant_laws|reflexivity].
Qed.
Print Assumptions c01_code_time_is_integer_nanoseconds.
