(** C13 — checker (and soundness) that a recorded run with a member stopped by the harness
    is a path of the relation [NetCrash.cstep].  The checker of NetCheck.v for runs without
    stops is this one on a trace without [CCrash]; its soundness is read off at the end. *)
From HS Require Import Base.Prelude Base.Lists C13.Model C13.Net C13.NetCheck C13.NetCrash.
Local Open Scope Z_scope.

Inductive cgstep := CG (g : gstep) | CCrash (n : Z).

Definition zmem (x : Z) (l : list Z) : bool := existsb (Z.eqb x) l.

Lemma zmem_iff x l : zmem x l = true <-> In x l.
Proof. apply existsb_eqb_In. Qed.

Lemma upd_eqb_iff a b : upd_eqb a b = true <-> a = b.
Proof.
  destruct a as [m k i], b as [m' k' i']; unfold upd_eqb; cbn. split.
  - intros H. apply andb_true_iff in H as [H H3]. apply andb_true_iff in H as [H1 H2].
    f_equal; apply Z.eqb_eq; assumption.
  - intros [= -> -> ->]. rewrite !Z.eqb_refl. reflexivity.
Qed.

Lemma upds_eqb_eq a b : upds_eqb a b = true -> a = b.
Proof. apply list_eqb_spec. exact upd_eqb_iff. Qed.

Lemma kind_matches_sound k i : kind_matches k i = true -> input_matches k i.
Proof.
  assert (Hmsg : forall f f' us us', (f =? f') && upds_eqb us us' = true -> f = f' /\ us = us').
  { intros f f' us us' H. apply andb_true_iff in H as [H1 H2].
    split; [apply Z.eqb_eq, H1|apply upds_eqb_eq, H2]. }
  destruct k, i as [? ?|[?|] ?|[?|] ?|[?|] ?|[?|]|]; cbn; try discriminate;
    [intros _; exact I|apply Z.eqb_eq|apply Z.eqb_eq|apply Hmsg|apply Hmsg].
Qed.

Lemma extract_spec p : forall l l1 x l2,
  extract p l = Some (l1, x, l2) -> l = l1 ++ x :: l2 /\ p x = true.
Proof.
  induction l as [|y r IH]; intros l1 x l2; cbn; [discriminate|].
  destruct (p y) eqn:E.
  - intros [= <- <- <-]. split; [reflexivity|exact E].
  - destruct (extract p r) as [[[a b] c]|]; [|discriminate].
    intros [= <- <- <-]. destruct (IH a b c eq_refl) as [-> Hp]. split; [reflexivity|exact Hp].
Qed.

Section Check.
  Variable cfgs : Z -> cfg.
  Variable d : Z.

  (** events that may be removed before the next delivery at [now]: cancelled timers that are
      due, and everything addressed to a stopped member *)
  Definition removable (w : world) (cr : list Z) (now : Z) (y : pev) : bool :=
    stale w now y || zmem (p_node y) cr.

  Definition ccheck_step (c : world * list Z) (g : cgstep) : option (world * list Z) :=
    let (w, cr) := c in
    match g with
    | CCrash n => Some (w, n :: cr)
    | CG (n, now, i, delays) =>
      let pool1 := filter (fun y => negb (removable w cr now y)) (pool w) in
      match extract (fun y => (p_node y =? n) && (p_time y =? now) && kind_matches (p_kind y) i
                              && negb (is_cancelled w y)) pool1 with
      | None => None
      | Some (l1, x, l2) =>
        if negb (zmem n cr)
           && forallb (fun y => now <=? p_time y) (l1 ++ l2)
           && oracle_ok (nodes w n) i
           && forallb (fun dl => (0 <=? dl) && (dl <=? d)) delays
        then
          let (st', outs) := step (cfgs n) now (nodes w n) i in
          Some (mkWorld (set_node (nodes w) n st')
                        (l1 ++ l2 ++ emit n now outs delays)
                        (cancels n outs ++ cancelled w), cr)
        else None
      end
    end.

  Fixpoint ccheck (c : world * list Z) (gs : list cgstep) : option (world * list Z) :=
    match gs with
    | [] => Some c
    | g :: r => match ccheck_step c g with Some c' => ccheck c' r | None => None end
    end.

  Variable w0 : world.

  Lemma remove_many now nd canc cr : forall rest pre,
    creach cfgs d w0 (mkWorld nd (pre ++ rest) canc, cr) ->
    creach cfgs d w0 (mkWorld nd (pre ++ filter (fun y => negb (removable (mkWorld nd [] canc) cr now y)) rest) canc, cr).
  Proof.
    induction rest as [|h r IH]; intros pre Hr; cbn [filter]; [exact Hr|].
    destruct (negb (removable (mkWorld nd [] canc) cr now h)) eqn:E.
    - replace (pre ++ h :: filter _ r)
        with ((pre ++ [h]) ++ filter (fun y => negb (removable (mkWorld nd [] canc) cr now y)) r)
        by (rewrite <- app_assoc; reflexivity).
      apply IH. rewrite <- app_assoc. exact Hr.
    - apply IH. apply negb_false_iff in E. unfold removable in E. apply orb_true_iff in E as [E|E].
      + unfold stale in E. apply andb_true_iff in E as [_ E].
        eapply creach_step; [exact Hr|].
        apply (cs_skip cfgs d (mkWorld nd (pre ++ h :: r) canc) cr pre h r); [reflexivity|exact E].
      + eapply creach_step; [exact Hr|].
        apply (cs_drop cfgs d (mkWorld nd (pre ++ h :: r) canc) cr pre h r); [reflexivity|apply zmem_iff, E].
  Qed.

  Lemma ccheck_step_sound c g c' :
    ccheck_step c g = Some c' -> creach cfgs d w0 c -> creach cfgs d w0 c'.
  Proof.
    destruct c as [w cr]. destruct g as [[[[n now] i] delays]|n]; cbn [ccheck_step].
    2: { intros [= <-] Hr. eapply creach_step; [exact Hr|apply cs_crash]. }
    intros H Hr.
    set (pool1 := filter (fun y => negb (removable w cr now y)) (pool w)) in *.
    assert (Hr1 : creach cfgs d w0 (mkWorld (nodes w) pool1 (cancelled w), cr)).
    { destruct w as [nd pl canc]. cbn [pool nodes cancelled] in *.
      apply (remove_many now nd canc cr pl []). exact Hr. }
    destruct (extract _ pool1) as [[[l1 x] l2]|] eqn:EX; [|discriminate].
    apply extract_spec in EX as [Hp Hx].
    apply andb_true_iff in Hx as [Hx Hnc]. apply andb_true_iff in Hx as [Hx Hk].
    apply andb_true_iff in Hx as [Hn Ht].
    apply Z.eqb_eq in Hn as En. apply Z.eqb_eq in Ht as Et.
    destruct (negb (zmem n cr) && _ && _ && _) eqn:C; [|discriminate].
    apply andb_true_iff in C as [C Hdl]. apply andb_true_iff in C as [C Hor].
    apply andb_true_iff in C as [Hlive Hmin].
    destruct (step (cfgs n) now (nodes w n) i) as [st' outs] eqn:ST.
    injection H as <-.
    eapply creach_step; [exact Hr1|].
    rewrite <- En, <- Et.
    apply (cs_deliver cfgs d (mkWorld (nodes w) pool1 (cancelled w)) cr l1 x l2 i delays st' outs).
    - exact Hp.
    - intros y Hy. rewrite forallb_forall in Hmin. rewrite Et. apply Z.leb_le, Hmin, Hy.
    - rewrite En, <- zmem_iff. apply negb_true_iff in Hlive. rewrite Hlive. discriminate.
    - apply negb_true_iff in Hnc. exact Hnc.
    - apply kind_matches_sound, Hk.
    - cbn [nodes]. rewrite En. exact Hor.
    - apply Forall_forall. intros dl Hd. rewrite forallb_forall in Hdl.
      destruct (proj1 (andb_true_iff _ _) (Hdl dl Hd)) as [H1 H2]. split; [apply Z.leb_le, H1|apply Z.leb_le, H2].
    - cbn [nodes]. rewrite En, Et. exact ST.
  Qed.

  Lemma ccheck_sound gs : forall c c',
    ccheck c gs = Some c' -> creach cfgs d w0 c -> creach cfgs d w0 c'.
  Proof.
    induction gs as [|g r IH]; intros c c'; cbn; [intros [= <-]; auto|].
    destruct (ccheck_step c g) as [c1|] eqn:E; [|discriminate].
    intros H Hr. eapply IH; [exact H|]. eapply ccheck_step_sound; eauto.
  Qed.
End Check.

Definition ok_cworld (case : list cfg * Z * Z * Z * list (list Z) * list cgstep) : bool :=
  let '(cl, d, n, probe, ords, gs) := case in
  let cfgs := fun i => nth (Z.to_nat i) cl (mkCfg i 0 0 0 0 true) in
  let ord := fun i => nth (Z.to_nat i) ords [] in
  match ccheck cfgs d (mesh_world n probe ord, []) gs with Some _ => true | None => false end.

Lemma ok_cworld_sound cl d n probe ords gs :
  ok_cworld (cl, d, n, probe, ords, gs) = true ->
  exists c, creach (fun i => nth (Z.to_nat i) cl (mkCfg i 0 0 0 0 true)) d
                   (mesh_world n probe (fun i => nth (Z.to_nat i) ords [])) c
            /\ ccheck (fun i => nth (Z.to_nat i) cl (mkCfg i 0 0 0 0 true)) d
                      (mesh_world n probe (fun i => nth (Z.to_nat i) ords []), []) gs = Some c.
Proof.
  unfold ok_cworld. destruct (ccheck _ d (mesh_world n probe _, []) gs) as [c|] eqn:E; [|discriminate].
  intros _. exists c. split; [|reflexivity].
  eapply ccheck_sound; [exact E|apply creach_refl].
Qed.

Lemma ccheck_step_nil cfgs d w g :
  ccheck_step cfgs d (w, []) (CG g) = option_map (fun w' => (w', [])) (wcheck_step cfgs d w g).
Proof.
  destruct g as [[[n now] i] delays]. cbn [ccheck_step]. unfold wcheck_step.
  rewrite (filter_ext (fun y => negb (removable w [] now y)) (fun y => negb (stale w now y)))
    by (intros y; unfold removable; cbn; now rewrite orb_false_r).
  destruct (extract _ _) as [[[l1 x] l2]|]; [|reflexivity]. cbn [zmem existsb negb andb].
  destruct (forallb _ _ && _ && _); [|reflexivity].
  destruct (step (cfgs n) now (nodes w n) i); reflexivity.
Qed.

Lemma wcheck_ccheck cfgs d gs : forall w w',
  wcheck cfgs d w gs = Some w' -> ccheck cfgs d (w, []) (map CG gs) = Some (w', []).
Proof.
  induction gs as [|g r IH]; intros w w'; cbn [wcheck ccheck map]; [intros [= ->]; reflexivity|].
  rewrite ccheck_step_nil. destruct (wcheck_step cfgs d w g) as [w1|]; cbn; [apply IH|discriminate].
Qed.

Lemma ok_world_sound cl d n probe ords gs :
  ok_world (cl, d, n, probe, ords, gs) = true ->
  exists w, reach (fun i => nth (Z.to_nat i) cl (mkCfg i 0 0 0 0 true)) d
                  (mesh_world n probe (fun i => nth (Z.to_nat i) ords []))  w
            /\ wcheck (fun i => nth (Z.to_nat i) cl (mkCfg i 0 0 0 0 true)) d
                      (mesh_world n probe (fun i => nth (Z.to_nat i) ords [])) gs = Some w.
Proof.
  unfold ok_world. destruct (wcheck _ d (mesh_world n probe _) gs) as [w|] eqn:E; [|discriminate].
  intros _. exists w. split; [|reflexivity].
  apply (creach_nil _ _ _ (w, [])); [|reflexivity].
  eapply ccheck_sound; [apply wcheck_ccheck, E|apply creach_refl].
Qed.
