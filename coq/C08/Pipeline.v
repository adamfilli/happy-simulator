(** The pipeline world over ALL schedules (any pending event may fire next,
    arrivals at any moment).  The first part (bags of pending events, runs of a
    partial step function, the exactly-once ledger) is shared with the
    industrial components of C08/IndThms.v. *)
From HS Require Import Base.Prelude C08.Model C08.Policies.
Local Open Scope Z_scope.

Section RemoveBy.
  Context {A : Type} (eqb : A -> A -> bool) (eqb_eq : forall a b, eqb a b = true -> a = b).

  (** [remove_one], [pc_remove], [b_remove] and [z_remove] are this function at
      their [eqb] (by conversion). *)
  Fixpoint remove_by (e : A) (l : list A) : option (list A) :=
    match l with
    | [] => None
    | f :: r => if eqb e f then Some r
                else match remove_by e r with Some r' => Some (f :: r') | None => None end
    end.

  Lemma remove_by_split e : forall l rest, remove_by e l = Some rest ->
    exists a b, l = a ++ e :: b /\ rest = a ++ b.
  Proof.
    induction l as [|f l IH]; cbn [remove_by]; intros rest H; [discriminate|].
    destruct (eqb e f) eqn:E.
    - apply eqb_eq in E as ->. injection H as <-. now exists [], l.
    - destruct (remove_by e l) as [r'|]; [|discriminate]. injection H as <-.
      destruct (IH _ eq_refl) as (a & b & -> & ->). now exists (f :: a), b.
  Qed.
End RemoveBy.

Section OptionRun.
  Context {W L O : Type} (step : W -> L -> option (W * O)).

  (** [wrun], [pcw_run], [cvw_run] and [bw_run] are this function at their step. *)
  Fixpoint orun (w : W) (ls : list L) : option W :=
    match ls with
    | [] => Some w
    | l :: r => match step w l with Some (w', _) => orun w' r | None => None end
    end.

  Lemma orun_inv (ok : L -> Prop) (P : W -> Prop) :
    (forall w l w' o, step w l = Some (w', o) -> ok l -> P w -> P w') ->
    forall ls w w', orun w ls = Some w' -> (forall l, In l ls -> ok l) -> P w -> P w'.
  Proof.
    intros Hstep. induction ls as [|l ls IH]; cbn [orun]; intros w w' H Hok HP.
    - now injection H as <-.
    - destruct (step w l) as [[w1 o]|] eqn:E; [|discriminate].
      apply (IH _ _ H); [intros; apply Hok; now right|].
      apply (Hstep _ _ _ _ E); [apply Hok; now left|exact HP].
  Qed.

  Lemma orun_count (f : W -> Z) (g : L -> list Z) x :
    (forall w l w' o, step w l = Some (w', o) -> f w' = f w + cnt x (g l)) ->
    forall ls w w', orun w ls = Some w' -> f w' = f w + cnt x (flat_map g ls).
  Proof.
    intros Hstep. induction ls as [|l ls IH]; cbn [orun flat_map]; intros w w' H.
    - injection H as <-. cbn [cnt]. lia.
    - destruct (step w l) as [[w1 o]|] eqn:E; [|discriminate].
      rewrite (IH _ _ H), (Hstep _ _ _ _ E), cnt_app. lia.
  Qed.
End OptionRun.

Lemma ledger_once x l : NoDup l -> (In x l -> cnt x l = 1) /\ (~ In x l -> cnt x l = 0).
Proof.
  intros Hnd. pose proof (cnt_nodup x _ Hnd) as H1. pose proof (cnt_in x l) as Hin. pose proof (cnt_nonneg x l) as H0.
  split; intros H; [apply Hin in H|assert (~ 0 < cnt x l) by tauto]; lia.
Qed.

Lemma pev_eqb_eq a b : pev_eqb a b = true -> a = b.
Proof.
  destruct a, b; cbn; intros H; try discriminate; try reflexivity;
    apply Z.eqb_eq in H; now subst.
Qed.

Lemma remove_one_split e l rest : remove_one e l = Some rest -> exists a b, l = a ++ e :: b /\ rest = a ++ b.
Proof. exact (remove_by_split pev_eqb pev_eqb_eq e l rest). Qed.

Lemma remove_one_in e : forall l rest, remove_one e l = Some rest -> In e l.
Proof. intros l rest H. apply remove_one_split in H as (a & b & -> & _). apply in_elt. Qed.

Lemma remove_one_incl e : forall l rest, remove_one e l = Some rest -> forall f, In f rest -> In f l.
Proof.
  intros l rest H f Hf. apply remove_one_split in H as (a & b & -> & ->).
  apply in_app_iff in Hf. apply in_app_iff. cbn [In]. tauto.
Qed.

Lemma transit_ids_app a b : transit_ids (a ++ b) = transit_ids a ++ transit_ids b.
Proof. induction a as [|[] a IH]; cbn [transit_ids app]; congruence. Qed.

Lemma service_ids_app a b : service_ids (a ++ b) = service_ids a ++ service_ids b.
Proof. induction a as [|[] a IH]; cbn [service_ids app]; congruence. Qed.

Definition arrival (l : wlabel) : list Z :=
  match l with LArrive _ it => [iid it] | _ => [] end.

Fixpoint arrivals (ls : list wlabel) : list Z :=
  match ls with
  | [] => []
  | LArrive _ it :: r => iid it :: arrivals r
  | _ :: r => arrivals r
  end.

Lemma arrivals_flat_map ls : arrivals ls = flat_map arrival ls.
Proof. induction ls as [|[] ls IH]; cbn [arrivals flat_map arrival app]; congruence. Qed.

Fixpoint no_setlimit (ls : list wlabel) : Prop :=
  match ls with
  | [] => True
  | LSetLimit _ :: _ => False
  | _ :: r => no_setlimit r
  end.

Definition keeps_limit (l : wlabel) : Prop := match l with LSetLimit _ => False | _ => True end.

Lemma no_setlimit_In ls : no_setlimit ls -> forall l, In l ls -> keeps_limit l.
Proof.
  induction ls as [|l' ls IH]; [intros _ l []|]. intros Hn l Hin.
  destruct l'; cbn [no_setlimit] in Hn; [| |contradiction];
    (destruct Hin as [<-|Hin]; [exact I|now apply IH]).
Qed.

Definition counted (w : world) : Prop :=
  let s := ps w in
  acc s = zlen (l_off w) - zlen (l_drop w) /\ drp s = zlen (l_drop w) /\
  fin s = zlen (l_done w) /\ rej s = zlen (l_disc w) /\
  act s = zlen (service_ids (pend w)).

(** The guarded worker (Server + FixedConcurrency) keeps its limit and never
    has more than that many items in service. *)
Definition bounded (limit : Z) (w : world) : Prop :=
  kind (ps w) = WServer /\ lim (ps w) = limit /\ act (ps w) <= limit.

Definition busy_or_pending (w : world) : Prop :=
  0 < pol_len (q (ps w)) -> 1 <= act (ps w) \/ exists e, In e (pend w) /\ is_cont e = false.

Definition live_inv (w : world) : Prop :=
  pol_wf (q (ps w)) /\ 1 <= lim (ps w) /\ busy_or_pending w.

(** What a notification or a completion hook emits: a poll if a slot is free. *)
Definition poll_if_free (n m : Z) : list pev := if n <? m then [PPoll] else [].

Lemma poll_if_free_ids n m : transit_ids (poll_if_free n m) = [] /\ service_ids (poll_if_free n m) = [].
Proof. unfold poll_if_free. now destruct (n <? m). Qed.

Lemma pending_last rest e : is_cont e = false -> exists e', In e' (rest ++ [e]) /\ is_cont e' = false.
Proof. intros He. exists e. split; [apply in_elt|exact He]. Qed.

(** After a completion hook either a poll is pending or every slot is taken. *)
Lemma hook_live n m rest : 1 <= m ->
  1 <= n \/ exists e, In e (rest ++ poll_if_free n m) /\ is_cont e = false.
Proof.
  intros Hm. unfold poll_if_free. destruct (n <? m) eqn:E; [right; now apply pending_last|].
  apply Z.ltb_ge in E. left. lia.
Qed.

(** The worker's generator up to the service yield: it takes a slot, or
    returns at once and the item counts as discarded. *)
Lemma pstep_start k p ac dr n m fi rj dl now x :
  let s := MkPS k p ac dr n m fi rj dl in
  pstep s (IStart now x) = (MkPS k p ac dr (n + 1) m fi rj dl, [PCont x], []) /\ (k = WServer -> n < m)
  \/ pstep s (IStart now x) = (MkPS k p ac dr n m fi (rj + 1) dl, [], []).
Proof.
  cbn. destruct k; [destruct (m <=? n) eqn:E| |destruct (zget x dl <? now)]; auto.
  - left. split; [reflexivity|]. intros _. now apply Z.leb_gt.
  - left. split; [reflexivity|discriminate].
  - left. split; [reflexivity|discriminate].
Qed.

Section Step.
  (** The world taken apart: [n] items in service, limit [m], pending bag [pd]. *)
  Variables (k : wkind) (p : pol) (ac dr n m fi rj : Z) (dl : list (Z * Z)).
  Variables (pd : list pev) (off drop exp done disc : list Z).
  Let w := MkW (MkPS k p ac dr n m fi rj dl) pd off drop exp done disc.

  (** [wstep] in case form: the label, the world after it, the events emitted.
      A fired event is located by splitting the pending bag around it. *)
  Inductive wcase : wlabel -> world -> list pev -> Prop :=
  | WAccept balk it p' : pol_push balk it p = (p', true) ->
      let out := if pol_len p =? 0 then [PNotify] else [] in
      wcase (LArrive balk it)
        (MkW (MkPS k p' (ac + 1) dr n m fi rj ((iid it, idl it) :: dl)) (pd ++ out) (iid it :: off) drop exp done disc) out
  | WRefuse balk it p' : pol_push balk it p = (p', false) ->
      wcase (LArrive balk it)
        (MkW (MkPS k p' ac (dr + 1) n m fi rj dl) pd (iid it :: off) (iid it :: drop) exp done disc) []
  | WNotify now a b : pd = a ++ PNotify :: b ->
      let out := poll_if_free n m in
      wcase (LFire now PNotify) (MkW (MkPS k p ac dr n m fi rj dl) ((a ++ b) ++ out) off drop exp done disc) out
  | WPoll now a b p' r ex : pd = a ++ PPoll :: b -> pol_pop now p = (p', r, ex) ->
      let out := match r with Some it => [PDeliver (iid it)] | None => [] end in
      wcase (LFire now PPoll)
        (MkW (MkPS k p' ac dr n m fi rj dl) ((a ++ b) ++ out) off drop (map iid ex ++ exp) done disc) out
  | WDeliver now x a b : pd = a ++ PDeliver x :: b ->
      wcase (LFire now (PDeliver x))
        (MkW (MkPS k p ac dr n m fi rj dl) ((a ++ b) ++ [PPayload x]) off drop exp done disc) [PPayload x]
  | WStart now x a b : pd = a ++ PPayload x :: b -> (k = WServer -> n < m) ->
      wcase (LFire now (PPayload x))
        (MkW (MkPS k p ac dr (n + 1) m fi rj dl) ((a ++ b) ++ [PCont x]) off drop exp done disc) [PCont x]
  | WDiscard now x a b : pd = a ++ PPayload x :: b ->
      let out := poll_if_free n m in
      wcase (LFire now (PPayload x))
        (MkW (MkPS k p ac dr n m fi (rj + 1) dl) ((a ++ b) ++ out) off drop exp done (x :: disc)) out
  | WCont now x a b n' : pd = a ++ PCont x :: b ->
      n' = match k with WServer => Z.max 0 (n - 1) | _ => n - 1 end ->
      let out := poll_if_free n' m in
      wcase (LFire now (PCont x))
        (MkW (MkPS k p ac dr n' m (fi + 1) rj dl) ((a ++ b) ++ out) off drop exp (x :: done) disc) out
  | WSetLimit m' :
      wcase (LSetLimit m') (MkW (MkPS k p ac dr n m' fi rj dl) pd off drop exp done disc) [].

  Lemma wstep_cases l w' out : wstep w l = Some (w', out) -> wcase l w' out.
  Proof.
    unfold wstep, w. cbn [ps pend l_off l_drop l_exp l_done l_disc]. destruct l as [balk it|now e|m'].
    - cbn [pstep q drp]. destruct (pol_push balk it p) as [p' [|]] eqn:Ep; cbn [drp]; intros [= <- <-].
      + rewrite eqb_succ. now apply WAccept.
      + rewrite Z.eqb_refl, app_nil_r. now apply WRefuse.
    - destruct (remove_one e pd) as [rest|] eqn:Er; [|discriminate].
      apply remove_one_split in Er as (a & b & Hpd & ->).
      destruct e as [| |x|x|x].
      + cbn [pstep]. unfold has_capacity. cbn [act lim]. intros [= <- <-]. now apply WNotify.
      + cbn [pstep q]. destruct (pol_pop now p) as [[p' r] ex] eqn:Ep. intros [= <- <-]. now apply WPoll.
      + intros [= <- <-]. now apply WDeliver.
      + destruct (pstep_start k p ac dr n m fi rj dl now x) as [[-> Hg]| ->];
          cbn [existsb is_cont orb app pstep]; unfold has_capacity; cbn [act lim]; intros [= <- <-];
          [now apply WStart|now apply WDiscard].
      + cbn [pstep app kind act]. unfold has_capacity. cbn [act lim]. intros [= <- <-]. now apply WCont.
    - cbn [pstep]. intros [= <- <-]. apply WSetLimit.
  Qed.

  Lemma places_step x l w' out : wstep w l = Some (w', out) -> places w' x = places w x + cnt x (arrival l).
  Proof.
    intros H. apply wstep_cases in H.
    destruct H as [balk it p' Ep|balk it p' Ep|now a b ->|now a b p' r ex -> Ep|now y a b ->|now y a b -> _
                  |now y a b ->|now y a b n' -> _|m'];
      unfold places, w; cbn [ps q pend l_drop l_exp l_done l_disc arrival];
      rewrite ?transit_ids_app, ?service_ids_app, ?cnt_app; cbn [transit_ids service_ids cnt app].
    - destruct (push_effect_of _ _ _ _ _ Ep) as (Hi & _). rewrite (Hi _ (cnt_app x)). subst out.
      destruct (pol_len p =? 0); cbn; lia.
    - destruct (push_effect_of _ _ _ _ _ Ep) as (Hi & _). rewrite (Hi _ (cnt_app x)). lia.
    - subst out. destruct (poll_if_free_ids n m) as [-> ->]. cbn [cnt]. lia.
    - destruct (pop_effect_of _ _ _ _ _ Ep) as (Hp & _). specialize (Hp _ (cnt_app x)). subst out.
      destruct r; cbn in Hp |- *; lia.
    - lia.
    - lia.
    - subst out. destruct (poll_if_free_ids n m) as [-> ->]. cbn [cnt]. lia.
    - subst out. destruct (poll_if_free_ids n' m) as [-> ->]. cbn [cnt]. lia.
    - lia.
  Qed.

  Lemma counted_step l w' out : wstep w l = Some (w', out) -> counted w -> counted w'.
  Proof.
    intros H. apply wstep_cases in H.
    destruct H as [balk it p' Ep|balk it p' Ep|now a b ->|now a b p' r ex -> Ep|now y a b ->|now y a b -> _
                  |now y a b ->|now y a b n' -> Hn'|m'];
      unfold counted, w, zlen; cbn [ps acc drp fin rej act pend l_off l_drop l_done l_disc];
      rewrite ?service_ids_app, ?app_length; cbn [service_ids length].
    - subst out. destruct (pol_len p =? 0); cbn [service_ids length]; lia.
    - lia.
    - subst out. destruct (poll_if_free_ids n m) as [_ ->]. cbn [length]. lia.
    - subst out. destruct r; cbn [service_ids length]; lia.
    - lia.
    - lia.
    - subst out. destruct (poll_if_free_ids n m) as [_ ->]. cbn [length]. lia.
    - (* a completion was pending, so [1 <= n] and every worker kind leaves [n - 1] *)
      subst out. destruct (poll_if_free_ids n' m) as [_ ->]. cbn [length]. destruct k; lia.
    - tauto.
  Qed.

  Lemma bounded_step limit l w' out :
    0 <= limit -> wstep w l = Some (w', out) -> keeps_limit l -> bounded limit w -> bounded limit w'.
  Proof.
    intros Hl H Hok. apply wstep_cases in H.
    destruct H as [balk it p' Ep|balk it p' Ep|now a b _|now a b p' r ex _ Ep|now y a b _|now y a b _ Hg
                  |now y a b _|now y a b n' _ Hn'|m'];
      unfold bounded, w; cbn [ps kind lim act]; intros (Hk & Hm & Hn); try (repeat split; assumption).
    - specialize (Hg Hk). repeat split; auto; lia.
    - rewrite Hk in Hn'. repeat split; auto; lia.
    - contradiction.
  Qed.

  Lemma live_step l w' out :
    wstep w l = Some (w', out) -> keeps_limit l -> counted w -> live_inv w -> live_inv w'.
  Proof.
    intros H Hok (_ & _ & _ & _ & Hn) (Hwf & Hm & Hb). apply wstep_cases in H.
    cbn in Hn. pose proof (zlen_nonneg (service_ids pd)).
    destruct H as [balk it p' Ep|balk it p' Ep|now a b ->|now a b p' r ex -> Ep|now y a b ->|now y a b -> _
                  |now y a b ->|now y a b n' -> _|m'];
      unfold live_inv, busy_or_pending, w in *; cbn [ps q lim act pend] in *.
    - destruct (push_effect_of _ _ _ _ _ Ep) as (_ & _ & Hw). refine (conj (Hw Hwf) (conj Hm _)). intros _. subst out.
      destruct (pol_len p =? 0) eqn:E0; [right; now apply pending_last|].
      apply Z.eqb_neq in E0. pose proof (len_nonneg _ Hwf). rewrite app_nil_r. apply Hb. lia.
    - destruct (push_effect_of _ _ _ _ _ Ep) as (_ & Hl & Hw). rewrite Z.add_0_r in Hl. rewrite Hl.
      exact (conj (Hw Hwf) (conj Hm Hb)).
    - refine (conj Hwf (conj Hm _)). intros _. now apply hook_live.
    - destruct (pop_effect_of _ _ _ _ _ Ep) as (_ & _ & Hw). destruct (Hw Hwf) as [Hwf' Hnone].
      refine (conj Hwf' (conj Hm _)). intros Hq. subst out.
      destruct r as [it|]; [right; now apply pending_last|].
      rewrite (Hnone eq_refl) in Hq. lia.
    - refine (conj Hwf (conj Hm _)). intros _. right. now apply pending_last.
    - refine (conj Hwf (conj Hm _)). intros _. left. lia.
    - refine (conj Hwf (conj Hm _)). intros _. now apply hook_live.
    - refine (conj Hwf (conj Hm _)). intros _. now apply hook_live.
    - contradiction.
  Qed.
End Step.

Lemma wrun_places x ls w w' : wrun w ls = Some w' -> places w' x = places w x + cnt x (arrivals ls).
Proof.
  intros H. rewrite arrivals_flat_map.
  refine (orun_count wstep (fun w => places w x) arrival x _ ls w w' H).
  intros [[]] l w1 out. apply places_step.
Qed.

Lemma places_w0 k p limit x : places (w0 k p limit) x = cnt x (pol_ids p).
Proof. unfold places, w0, ps0. cbn. lia. Qed.

(** Conservation: from an empty policy, after ANY schedule, every offered id is
    in exactly one class of the ledger, exactly once; an id that was never
    offered is nowhere. *)
Theorem conservation : forall k p limit ls w x,
  pol_ids p = [] -> wrun (w0 k p limit) ls = Some w -> NoDup (arrivals ls) ->
  (In x (arrivals ls) -> places w x = 1) /\ (~ In x (arrivals ls) -> places w x = 0).
Proof.
  intros k p limit ls w x Hp Hr Hnd.
  rewrite (wrun_places x _ _ _ Hr), places_w0, Hp. cbn [cnt]. rewrite Z.add_0_l. now apply ledger_once.
Qed.

Lemma counted_w0 k p limit : counted (w0 k p limit).
Proof. unfold counted, w0, ps0. cbn. repeat split; reflexivity. Qed.

Lemma wrun_counted : forall ls w w', wrun w ls = Some w' -> counted w -> counted w'.
Proof.
  intros ls w w' H. refine (orun_inv wstep (fun _ => True) counted _ ls w w' H (fun _ _ => I)).
  intros [[]] l w1 out Hs _. now apply counted_step with (l := l) (out := out).
Qed.

Lemma wrun_bounded limit ls w w' :
  0 <= limit -> wrun w ls = Some w' -> no_setlimit ls -> bounded limit w -> bounded limit w'.
Proof.
  intros Hl H Hn. refine (orun_inv wstep keeps_limit (bounded limit) _ ls w w' H (no_setlimit_In ls Hn)).
  intros [[]] l w1 out Hs. now apply bounded_step with (out := out).
Qed.

Theorem concurrency_bound : forall p limit ls w,
  0 <= limit -> no_setlimit ls -> wrun (w0 WServer p limit) ls = Some w ->
  zlen (service_ids (pend w)) <= limit /\ act (ps w) = zlen (service_ids (pend w)) /\ lim (ps w) = limit.
Proof.
  intros p limit ls w Hl Hn Hr.
  pose proof (wrun_counted _ _ _ Hr (counted_w0 _ _ _)) as (_ & _ & _ & _ & Ha).
  assert (Hb : bounded limit (w0 WServer p limit)) by (unfold bounded; cbn; auto).
  destruct (wrun_bounded _ _ _ _ Hl Hr Hn Hb) as (_ & Hm & Hb'). lia.
Qed.

(** The witness schedules below were recorded from real Simulation runs
    (corpus/C08/pipeline.overpoll_discard.json, pipeline.strand_partial.json). *)
Definition it0 (i : Z) : item := MkItem i 0 100 0 1.

(** "Accepted work is never discarded": FALSE.  Two polls (one from the
    completion hook of the previous item, one from a pending notify) are in
    flight while the single slot is free; both dequeue; the second payload
    finds the slot taken and Server.handle_queued_event drops it. *)
Definition no_discard_statement : Prop :=
  forall limit ls w, 1 <= limit -> no_setlimit ls ->
    wrun (w0 WServer (PFifo None []) limit) ls = Some w -> l_disc w = [].

Definition overpoll_witness : list wlabel :=
  [LArrive false (it0 2); LFire 0 PNotify; LFire 0 PPoll; LFire 0 (PDeliver 2); LFire 0 (PPayload 2);
   LArrive false (it0 0); LArrive false (it0 1); LFire 10 (PCont 2); LFire 10 PNotify;
   LFire 10 PPoll; LFire 10 PPoll; LFire 10 (PDeliver 0); LFire 10 (PPayload 0);
   LFire 10 (PDeliver 1); LFire 10 (PPayload 1)].

(** The witness run satisfies the hypotheses of [conservation], and ends with
    item 1 discarded. *)
Example conservation_hyps : exists w,
  pol_ids (PFifo None []) = [] /\ wrun (w0 WServer (PFifo None []) 1) overpoll_witness = Some w /\
  NoDup (arrivals overpoll_witness) /\ places w 1 = 1 /\ l_disc w = [1].
Proof.
  eexists. split; [reflexivity|]. split; [vm_compute; reflexivity|]. split.
  - cbn. repeat constructor; cbn; intuition discriminate.
  - vm_compute. split; reflexivity.
Qed.

(** "No simulated time passes while an item waits and the worker has free
    capacity": FALSE with 2 slots — two arrivals at the same instant, only the
    first notifies, one poll, one dispatch; the second waits with a slot free
    until the first completes. *)
Definition no_stranding_statement : Prop :=
  forall limit ls w, 1 <= limit -> no_setlimit ls ->
    wrun (w0 WServer (PFifo None []) limit) ls = Some w ->
    quiescent w = true -> 0 < pol_len (q (ps w)) -> lim (ps w) <= act (ps w).

Definition strand_witness : list wlabel :=
  [LArrive false (it0 0); LArrive false (it0 1); LFire 0 PNotify; LFire 0 PPoll;
   LFire 0 (PDeliver 0); LFire 0 (PPayload 0)].

(** The witness run satisfies the hypotheses of [no_stranding_partial] below,
    and ends quiescent with an item waiting and one of the two slots taken. *)
Example stranding_hyps : exists w,
  pol_wf (PFifo None []) /\ pol_len (PFifo None []) = 0 /\ no_setlimit strand_witness /\
  wrun (w0 WServer (PFifo None []) 2) strand_witness = Some w /\
  quiescent w = true /\ 0 < pol_len (q (ps w)) /\ act (ps w) = 1.
Proof.
  eexists. split; [exact I|]. split; [reflexivity|]. split; [cbn; exact I|].
  split; [vm_compute; reflexivity|]. vm_compute. repeat split; congruence.
Qed.

Lemma wrun_live ls w w' :
  wrun w ls = Some w' -> no_setlimit ls -> counted w -> live_inv w -> live_inv w'.
Proof.
  intros H Hn Hc Hv.
  refine (proj2 (orun_inv wstep keeps_limit (fun w => counted w /\ live_inv w) _ ls w w' H
                          (no_setlimit_In ls Hn) (conj Hc Hv))).
  intros [[]] l w1 out Hs Hok [Hc1 Hv1].
  split; [eapply counted_step|eapply live_step]; eassumption.
Qed.

Lemma quiescent_no_pending w e : quiescent w = true -> In e (pend w) -> is_cont e = true.
Proof. unfold quiescent. rewrite forallb_forall. auto. Qed.

(** PARTIAL no-stranding, every policy, every worker kind, every schedule that
    leaves the limit alone: when
    nothing of the pipeline is pending at the current instant (only service
    completions are outstanding) and an item waits, at least one item is in
    service — so the next completion polls.  With one slot this is the full
    clause. *)
Theorem no_stranding_partial : forall k p limit ls w,
  pol_wf p -> pol_len p = 0 -> 1 <= limit -> no_setlimit ls -> wrun (w0 k p limit) ls = Some w ->
  quiescent w = true -> 0 < pol_len (q (ps w)) -> 1 <= act (ps w).
Proof.
  intros k p limit ls w Hwf Hp Hl Hn Hr Hq Hd.
  assert (H0 : live_inv (w0 k p limit)).
  { refine (conj Hwf (conj Hl _)). unfold busy_or_pending. cbn. lia. }
  destruct (wrun_live _ _ _ Hr Hn (counted_w0 _ _ _) H0) as (_ & _ & Hb).
  destruct (Hb Hd) as [Ha|(e & Hin & He)]; [exact Ha|].
  rewrite (quiescent_no_pending _ _ Hq Hin) in He. discriminate.
Qed.

(** "Work in service never exceeds the concurrency limit" for EVERY worker
    kind: FALSE for the unguarded workers (ShiftedServer increments [_active]
    without a check), by the same double poll
    (corpus/C08/pipeline.unguarded_over_dispatch.json). *)
Definition unguarded_bound_statement : Prop :=
  forall k limit ls w, 1 <= limit -> no_setlimit ls ->
    wrun (w0 k (PFifo None []) limit) ls = Some w -> act (ps w) <= lim (ps w).

(** The partial no-stranding theorem does NOT extend to schedules that change
    the limit: an item that arrived while the capacity was 0 stays in the queue
    with an idle worker after the capacity is raised — nothing polls
    (corpus/C08/pipeline.strand_capacity_raised.json). *)
Definition capacity_change_statement : Prop :=
  forall limit ls w, 0 <= limit -> wrun (w0 WShift (PFifo None []) limit) ls = Some w ->
    quiescent w = true -> 0 < pol_len (q (ps w)) -> 1 <= lim (ps w) -> 1 <= act (ps w).

Definition raise_witness : list wlabel := [LArrive false (it0 0); LFire 0 PNotify; LSetLimit 2].

