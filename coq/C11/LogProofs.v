(** C11 — the log under one handler invocation, on the repaired model.  The
    follower's append loop is read as a function [alogs] of the log alone, and
    what it keeps of a log that agrees with the sender's is proved here.
    Theorems: a successful AppendEntries reply reports exactly the prefix that
    was checked against the request, and on that prefix the follower's log
    agrees (index by index, term by term) with what the leader sent, entries
    before prev_log_index untouched; a leader never removes or overwrites
    entries of its own log. *)
From HS Require Import Base.Prelude Base.Lists C11.Model C11.NodeProofs.
Local Open Scope Z_scope.

(** append_one on the log alone, positions as [nat] (index = position + 1). *)
Definition alog (L : list entry) (c : nat) (t cmd : Z) : list entry :=
  match nth_error L c with
  | Some ex => if fst ex =? t then L else firstn c L ++ [(t, cmd)]
  | None => L ++ [(t, cmd)]
  end.

Lemma log_get_nat L c : log_get L (Z.of_nat c + 1) = nth_error L c.
Proof.
  unfold log_get, zlen. destruct (Z.of_nat c + 1 >? Z.of_nat (length L)) eqn:E.
  - replace (Z.of_nat c + 1 <? 1) with false by lia. cbn.
    symmetry. apply nth_error_None. lia.
  - replace (Z.of_nat c + 1 <? 1) with false by lia. cbn. f_equal. lia.
Qed.

Lemma append_one_log n c t cmd :
  log (append_one n (Z.of_nat c + 1, t, cmd)) = alog (log n) c t cmd.
Proof.
  unfold append_one, alog. rewrite log_get_nat.
  destruct (nth_error (log n) c) as [ex|] eqn:E; [|reflexivity].
  destruct (fst ex =? t); cbn [negb]; [reflexivity|].
  unfold truncate_from.
  assert (c < length (log n))%nat by (apply nth_error_Some; congruence).
  replace ((Z.of_nat c + 1 <? 1) || (Z.of_nat c + 1 >? zlen (log n))) with false by (unfold zlen; lia).
  cbn [log set_log]. do 2 f_equal. lia.
Qed.

Fixpoint alogs (L : list entry) (c : nat) (l : list entry) : list entry :=
  match l with
  | [] => L
  | (t, cmd) :: r => alogs (alog L c t cmd) (S c) r
  end.

Lemma fold_append_log l : forall n c,
  log (fold_left append_one (with_index (Z.of_nat c) l) n) = alogs (log n) c l.
Proof.
  induction l as [|[t cmd] l IH]; intros n c; cbn [with_index fold_left alogs]; [reflexivity|].
  replace (with_index (Z.of_nat c + 1) l) with (with_index (Z.of_nat (S c)) l) by (f_equal; lia).
  rewrite IH, append_one_log. reflexivity.
Qed.

(** Position [c] either holds an entry of term [t] already and nothing changes,
    or the log is cut at [c] and the new entry put there. *)
Lemma alog_cases (L : list entry) c t cmd : (c <= length L)%nat ->
  (exists ex, nth_error L c = Some ex /\ fst ex = t /\ alog L c t cmd = L) \/
  alog L c t cmd = firstn c L ++ [(t, cmd)].
Proof.
  intros Hc. unfold alog. destruct (nth_error L c) as [ex|] eqn:E.
  - destruct (fst ex =? t) eqn:Et; [left; exists ex; apply Z.eqb_eq in Et; auto|right; reflexivity].
  - right. apply nth_error_None in E. rewrite firstn_all2 by lia. reflexivity.
Qed.

Lemma alog_spec (L : list entry) c t cmd : (c <= length L)%nat ->
  firstn c (alog L c t cmd) = firstn c L /\ (S c <= length (alog L c t cmd))%nat /\
  map fst (firstn (S c) (alog L c t cmd)) = map fst (firstn c L) ++ [t].
Proof.
  intros Hc. destruct (alog_cases L c t cmd Hc) as [(ex & E & Et & ->)| ->].
  - split; [reflexivity|]. split; [apply nth_error_Some; congruence|].
    rewrite (firstn_S_nth L c ex E), map_app, <- Et. reflexivity.
  - assert (Hl : length (firstn c L) = c) by (rewrite firstn_length; lia).
    pose proof (firstn_app_2 0 (firstn c L) [(t, cmd)]) as F0. pose proof (firstn_app_2 1 (firstn c L) [(t, cmd)]) as F1.
    rewrite Hl, Nat.add_0_r, app_nil_r in F0. rewrite Hl, Nat.add_1_r in F1.
    rewrite F0, F1, app_length, Hl, map_app. cbn [length]. repeat split. lia.
Qed.

Lemma alog_length L c t cmd : (c <= length L)%nat -> (S c <= length (alog L c t cmd))%nat.
Proof. intros H. apply (alog_spec L c t cmd H). Qed.

Lemma alogs_spec l : forall L c, (c <= length L)%nat ->
  firstn c (alogs L c l) = firstn c L /\ (c + length l <= length (alogs L c l))%nat /\
  map fst (firstn (c + length l) (alogs L c l)) = map fst (firstn c L) ++ map fst l.
Proof.
  induction l as [|[t cmd] l IH]; intros L c Hc; cbn [alogs length map].
  - rewrite Nat.add_0_r, app_nil_r. repeat split; lia.
  - destruct (alog_spec L c t cmd Hc) as (A1 & A2 & A3).
    destruct (IH (alog L c t cmd) (S c) A2) as (B1 & B2 & B3).
    split; [|split].
    + rewrite <- A1. apply (firstn_le_eq _ _ (S c)); [lia|exact B1].
    + lia.
    + replace (c + S (length l))%nat with (S c + length l)%nat by lia.
      rewrite B3, A3, <- app_assoc. reflexivity.
Qed.

(** The entries a leader sends from position [p] of its log [G]: the head is
    the entry at [p], the rest is what it sends from [p + 1]. *)
Lemma sent_cons {A} (G : list A) p x l :
  x :: l = firstn (length (x :: l)) (skipn p G) -> nth_error G p = Some x /\ l = firstn (length l) (skipn (S p) G).
Proof.
  cbn [length]. destruct (skipn p G) as [|y r] eqn:Es; [discriminate|]. cbn [firstn]. intros H.
  injection H as <- Hr. destruct (skipn_nth_cons G p _ _ Es) as [HG ->]. auto.
Qed.

(** The follower's append loop leaves alone every prefix on which the follower agrees with the sender's log [G]. *)
Lemma alog_keep G (L : list entry) p c t cmd :
  firstn c L = firstn c G -> nth_error G p = Some (t, cmd) -> (p <= length L)%nat ->
  firstn c (alog L p t cmd) = firstn c L.
Proof.
  intros Hc HG Hp. destruct (Nat.lt_ge_cases p c) as [Hlt|Hge].
  - (* inside the agreed prefix: the entry is kept *)
    assert (E : nth_error L p = Some (t, cmd)) by (rewrite (firstn_nth_eq L G c p Hlt Hc); exact HG).
    unfold alog. rewrite E. cbn [fst]. rewrite Z.eqb_refl. reflexivity.
  - apply (firstn_le_eq _ _ p c Hge). apply (alog_spec L p t cmd Hp).
Qed.

Lemma alogs_keep G l : forall L p c,
  firstn c L = firstn c G -> (c <= length L)%nat -> (p <= length L)%nat ->
  l = firstn (length l) (skipn p G) ->
  firstn c (alogs L p l) = firstn c L.
Proof.
  induction l as [|[t cmd] l IH]; intros L p c Hc Hcl Hp Hl; cbn [alogs]; [reflexivity|].
  destruct (sent_cons G p _ _ Hl) as [HG Hl'].
  pose proof (alog_keep G L p c t cmd Hc HG Hp) as K.
  rewrite <- K. apply IH; [rewrite K; exact Hc|exact (firstn_eq_length _ _ c K Hcl)|apply alog_length, Hp|exact Hl'].
Qed.

(** The commit index survives the loop when the committed prefix agrees with [G]
    (an entry is only ever cut off where the terms differ). *)
Lemma append_one_commit n k t cmd :
  (commit n <= Z.of_nat k \/ exists ex, nth_error (log n) k = Some ex /\ fst ex = t) ->
  commit (append_one n (Z.of_nat k + 1, t, cmd)) = commit n.
Proof.
  intros H. unfold append_one. rewrite log_get_nat.
  destruct (nth_error (log n) k) as [ex|] eqn:E; [|reflexivity].
  destruct (fst ex =? t) eqn:Et; cbn [negb]; [reflexivity|].
  destruct H as [H|(ex' & E' & F)]; [|inversion E'; subst; lia].
  unfold truncate_from.
  assert (k < length (log n))%nat by (apply nth_error_Some; congruence).
  replace ((Z.of_nat k + 1 <? 1) || (Z.of_nat k + 1 >? zlen (log n))) with false by (unfold zlen; lia).
  replace (commit n >=? Z.of_nat k + 1) with false by lia. reflexivity.
Qed.

Lemma fold_append_commit G l : forall n p (c : nat),
  commit n = Z.of_nat c -> firstn c (log n) = firstn c G -> (c <= length (log n))%nat -> (p <= length (log n))%nat ->
  l = firstn (length l) (skipn p G) ->
  commit (fold_left append_one (with_index (Z.of_nat p) l) n) = commit n.
Proof.
  induction l as [|[t cmd] l IH]; intros n p c Hcm Hc Hcl Hp Hl; cbn [with_index fold_left]; [reflexivity|].
  destruct (sent_cons G p _ _ Hl) as [HG Hl'].
  replace (with_index (Z.of_nat p + 1) l) with (with_index (Z.of_nat (S p)) l) by (f_equal; lia).
  assert (C1 : commit (append_one n (Z.of_nat p + 1, t, cmd)) = commit n).
  { apply append_one_commit. destruct (Nat.lt_ge_cases p c) as [Hlt|Hge]; [right|left; lia].
    exists (t, cmd). split; [|reflexivity]. rewrite (firstn_nth_eq _ G c p Hlt Hc). exact HG. }
  pose proof (append_one_log n p t cmd) as L1.
  pose proof (alog_keep G (log n) p c t cmd Hc HG Hp) as K.
  rewrite <- C1. apply (IH _ (S p) c).
  - congruence.
  - rewrite L1, K. exact Hc.
  - rewrite L1. exact (firstn_eq_length _ _ c K Hcl).
  - rewrite L1. apply alog_length, Hp.
  - exact Hl'.
Qed.

Lemma alog_in L p t cmd e : In e (alog L p t cmd) -> In e L \/ e = (t, cmd).
Proof.
  unfold alog. destruct (nth_error L p) as [ex|].
  - destruct (fst ex =? t); [auto|]. intros H. apply in_app_or in H as [H|[H|[]]]; [left; eapply In_firstn; exact H|auto].
  - intros H. apply in_app_or in H as [H|[H|[]]]; auto.
Qed.

Lemma alogs_in l : forall L p e, In e (alogs L p l) -> In e L \/ In e l.
Proof.
  induction l as [|[t cmd] l IH]; intros L p e H; cbn [alogs] in H; [auto|].
  destruct (IH _ _ _ H) as [H1|H1]; [|right; right; exact H1].
  destruct (alog_in _ _ _ _ _ H1) as [H2|H2]; [auto|right; left; auto].
Qed.

Lemma step_down_log n t : log (step_down n t) = log n.
Proof. rewrite step_down_eq. reflexivity. Qed.

(** The consistency check of the AppendEntries handler, read as positions. *)
Lemma ae_consistent_prev L pli plt : ae_consistent L pli plt = true -> 0 < pli ->
  exists e, nth_error L (Z.to_nat pli - 1) = Some e /\ fst e = plt.
Proof.
  unfold ae_consistent. intros C Hp. replace (pli >? 0) with true in C by lia.
  destruct (log_get L pli) as [e|] eqn:G; [|discriminate]. apply log_get_iff in G as [_ G].
  exists e. split; [replace (Z.to_nat pli - 1)%nat with (Z.to_nat (pli - 1)) by lia; exact G|lia].
Qed.

Lemma ae_consistent_bound L pli plt : ae_consistent L pli plt = true -> (Z.to_nat pli <= length L)%nat.
Proof.
  intros C. destruct (Z_lt_le_dec 0 pli) as [Hp|Hp]; [|lia].
  destruct (ae_consistent_prev L pli plt C Hp) as (e & E & _).
  assert (Z.to_nat pli - 1 < length L)%nat by (apply nth_error_Some; congruence). lia.
Qed.

Lemma accepted_log n t lead p l lc :
  log (ae_commit (fold_left append_one (with_index (Z.of_nat p) l) (demote n t lead)) lc) = alogs (log n) p l.
Proof.
  transitivity (log (fold_left append_one (with_index (Z.of_nat p) l) (demote n t lead)));
    [rewrite ae_commit_frame; reflexivity|].
  rewrite fold_append_log, demote_eq. reflexivity.
Qed.

(** What one handler invocation does to the log: nothing, or a leader appends
    one entry of its term, or an AppendEntries is accepted. *)
Definition accepts (n : node) (inp : input) (n' : node) : Prop :=
  exists src t lead pli plt ents lc,
    inp = IMsg src (AppendEntries t lead pli plt ents lc) /\ zmem src (peers n) = true /\ term n <= t /\
    role n' = Follower /\ term n' = t /\
    (0 < pli -> exists e, nth_error (log n) (Z.to_nat pli - 1) = Some e /\ fst e = plt) /\
    (forall l, ents = with_index (Z.of_nat (Z.to_nat pli)) l -> log n' = alogs (log n) (Z.to_nat pli) l).

Lemma nstep_log n inp n' o : nstep n inp n' o ->
  log n' = log n
  \/ (role n = Leader /\ role n' = Leader /\ term n' = term n /\ exists c, log n' = log n ++ [(term n, c)])
  \/ accepts n inp n'.
Proof.
  intros S. destruct S; try (left; reflexivity).
  - left. apply step_down_log.
  - left. rewrite elect_frame. reflexivity.
  - left. unfold catch_up. destruct (t >? term n); [apply step_down_log|reflexivity].
  - left. unfold catch_up. destruct (t >? term n); [apply step_down_log|reflexivity].
  - left. destruct g; reflexivity.
  - left. rewrite elect_frame. destruct g; reflexivity.
  - left. rewrite demote_eq. reflexivity.
  - right. right. exists src, t, lead, pli, plt, ents, lc.
    destruct (accepted_fields n t lead ents lc) as (_ & _ & T & _ & _ & RF & _).
    split; [reflexivity|]. split; [assumption|]. split; [assumption|]. split; [exact RF|]. split; [exact T|].
    split; [apply ae_consistent_prev; assumption|]. intros l ->. apply accepted_log.
  - left. unfold try_advance_commit. rewrite try_commit_frame. reflexivity.
  - destruct (role_eqb (role n) Leader) eqn:R.
    + apply role_eqb_true in R. right. left. rewrite (submit_leader n cmd R). split; [exact R|]. split; [exact R|].
      split; [reflexivity|]. exists cmd. reflexivity.
    + left. rewrite submit_other by (apply role_eqb_false, R). reflexivity.
Qed.

(** A successful AppendEntries reply (repaired code): the reported match_index
    is prev_log_index + len(entries); up to that index the follower's log now
    agrees term-for-term with what the leader sent, entries up to
    prev_log_index are untouched. *)
Theorem append_entries_reply_verified n src t lead (pli : nat) plt l lc t' f mi :
  let r := handle_append_entries n src t lead (Z.of_nat pli) plt (with_index (Z.of_nat pli) l) lc in
  In (OSend src (AppendResponse t' true f mi)) (snd r) ->
  mi = Z.of_nat pli + zlen l /\
  (pli + length l <= length (log (fst r)))%nat /\
  map fst (firstn (pli + length l) (log (fst r))) = map fst (firstn pli (log n)) ++ map fst l /\
  firstn pli (log (fst r)) = firstn pli (log n).
Proof.
  cbv zeta. rewrite handle_append_entries_eq.
  destruct (negb (zmem src (peers n))); [intros []|].
  destruct (t <? term n); [intros [H|[]]; discriminate|].
  destruct (ae_consistent (log n) (Z.of_nat pli) plt) eqn:C; cbn [fst snd]; [|intros [H|[H|[]]]; discriminate].
  intros [H|[H|[]]]; [discriminate|]. inversion H; subst. rewrite accepted_log.
  pose proof (ae_consistent_bound _ _ _ C) as Hp. rewrite Nat2Z.id in Hp.
  destruct (alogs_spec l (log n) pli Hp) as (A & B & C').
  split; [unfold zlen; rewrite with_index_length; reflexivity|auto].
Qed.

(** The cluster-level statements of the remaining safety clauses, proved in
    LogMatching.v ([log_matching]) and Completeness.v (the other two); they
    are also evaluated by the property oracle on the implementation in every
    explored schedule (harness/props/c11.py, class Oracle). *)
Definition log_matching_statement : Prop :=
  forall l acts, NoDup l ->
    let w := net_run (net_init l) acts in
    forall a b i e e', In a l -> In b l ->
      log_get (log (nodes w a)) i = Some e -> log_get (log (nodes w b)) i = Some e' -> fst e = fst e' ->
      firstn (Z.to_nat i) (log (nodes w a)) = firstn (Z.to_nat i) (log (nodes w b)).

Definition leader_completeness_statement : Prop :=
  forall l acts1 acts2, NoDup l ->
    let w1 := net_run (net_init l) acts1 in
    let w2 := net_run w1 acts2 in
    forall a b i e, In a l -> In b l ->
      i <= commit (nodes w1 a) -> log_get (log (nodes w1 a)) i = Some e ->
      role (nodes w2 b) = Leader -> term (nodes w1 a) < term (nodes w2 b) ->
      log_get (log (nodes w2 b)) i = Some e.

Definition state_machine_safety_statement : Prop :=
  forall l acts, NoDup l ->
    let w := net_run (net_init l) acts in
    forall a b i c c', In a l -> In b l ->
      In (i, c) (applied (nodes w a)) -> In (i, c') (applied (nodes w b)) -> c = c'.

(** The hypotheses of the conditional theorems are satisfiable. *)
Example reply_verified_satisfiable :
  In (OSend 0 (AppendResponse 1 true 1 1))
     (snd (handle_append_entries (init_node [0; 1; 2] 1) 0 1 0 (Z.of_nat 0) 0 (with_index (Z.of_nat 0) [(1, 7)]) 0)).
Proof. vm_compute. right. left. reflexivity. Qed.

Example leader_append_only_satisfiable :
  let n := node_run (init_node [0; 1; 2] 0) [ITimeout false; IMsg 1 (VoteResponse 1 true 1)] in
  role n = Leader /\ role (fst (node_step n (ISubmit 5))) = Leader /\
  term (fst (node_step n (ISubmit 5))) = term n /\ log (fst (node_step n (ISubmit 5))) = log n ++ [(1, 5)].
Proof. vm_compute. auto. Qed.
