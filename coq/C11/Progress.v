(** C11 — the first hop of the liveness clause, at node level: ONE delivered
    AppendEntries brings a follower whose log is the leader's log up to
    next_index-1 completely up to date, and it answers success with
    match_index = the leader's last index.  No invariant of either node is needed. *)
From HS Require Import Base.Prelude C11.Model C11.NodeProofs C11.LogProofs.
Local Open Scope Z_scope.

Definition ae_msg (n : node) (p : Z) : msg :=
  let prev := aget p 1 (next_index n) - 1 in
  AppendEntries (term n) (nid n) prev (prev_term_of n prev) (entries_after (log n) prev) (commit n).

Lemma append_entries_for_msg n p : append_entries_for n p = OSend p (ae_msg n p).
Proof. reflexivity. Qed.

Lemma entries_after_nat L (p : nat) : entries_after L (Z.of_nat p) = with_index (Z.of_nat p) (skipn p L).
Proof. unfold entries_after. replace (Z.of_nat p <? 0) with false by lia. rewrite Nat2Z.id. reflexivity. Qed.

Lemma insync_prev n f (p : nat) : (p <= length (log n))%nat -> log f = firstn p (log n) ->
  ae_consistent (log f) (Z.of_nat p) (prev_term_of n (Z.of_nat p)) = true.
Proof.
  intros Hlen Hlog. unfold ae_consistent, prev_term_of. destruct (Z.of_nat p >? 0) eqn:Hp; [|reflexivity].
  replace (Z.of_nat p) with (Z.of_nat (p - 1) + 1) by lia. rewrite !log_get_nat, Hlog, nth_error_firstn by lia.
  destruct (nth_error (log n) (p - 1)) as [e|] eqn:E; [apply Z.eqb_refl|]. apply nth_error_None in E. lia.
Qed.

Lemma fold_append_at_end l : forall n, fold_left append_one (with_index (zlen (log n)) l) n = set_log n (log n ++ l).
Proof.
  induction l as [|[t c] l IH]; intros n; cbn [with_index fold_left]; [rewrite app_nil_r; destruct n; reflexivity|].
  assert (E : append_one n (zlen (log n) + 1, t, c) = set_log n (log n ++ [(t, c)])).
  { unfold append_one, log_get. replace (zlen (log n) + 1 >? zlen (log n)) with true by lia. rewrite orb_true_r. reflexivity. }
  rewrite E. replace (zlen (log n) + 1) with (zlen (log (set_log n (log n ++ [(t, c)])))) by (cbn [log set_log]; unfold zlen; rewrite app_length; cbn [length]; lia).
  rewrite IH. cbn [log set_log]. rewrite <- app_assoc. reflexivity.
Qed.

Lemma caught_up_fields f t lead lg lc :
  let m := ae_commit (set_log (demote f t lead) lg) lc in
  log m = lg /\ term m = t /\ role m = Follower /\ leader m = Some lead.
Proof.
  cbv zeta. rewrite ae_commit_frame. generalize (ae_commit (set_log (demote f t lead) lg) lc). intros x.
  rewrite demote_eq. repeat split.
Qed.

(** The accepting branch of [handle_append_entries] for a follower in sync up to its next index: the
    entries start right after the end of its log, so the append loop just appends them. *)
Lemma insync_accept n f (p : nat) :
  Z.of_nat p = aget (nid f) 1 (next_index n) - 1 -> (p <= length (log n))%nat -> log f = firstn p (log n) ->
  term f <= term n -> zmem (nid n) (peers f) = true ->
  node_step f (IMsg (nid n) (ae_msg n (nid f))) =
  (ae_commit (set_log (demote f (term n) (nid n)) (log n)) (commit n),
   [OElectionTimer; OSend (nid n) (AppendResponse (term n) true (nid f) (zlen (log n)))]).
Proof.
  intros Hp Hlen Hlog Hterm Hpeer. unfold ae_msg. rewrite <- Hp, entries_after_nat. cbn [node_step handle_msg].
  rewrite handle_append_entries_eq, Hpeer, (insync_prev n f p Hlen Hlog). cbn [negb]. replace (term n <? term f) with false by lia.
  assert (L1 : log (demote f (term n) (nid n)) = log f) by (rewrite demote_eq; reflexivity).
  set (f1 := demote f (term n) (nid n)) in *.
  assert (Ez : Z.of_nat p = zlen (log f1)) by (rewrite L1, Hlog; unfold zlen; rewrite firstn_length_le by exact Hlen; reflexivity).
  rewrite Ez, fold_append_at_end, L1, Hlog, firstn_skipn.
  replace (zlen (firstn p (log n)) + zlen (with_index (zlen (firstn p (log n))) (skipn p (log n)))) with (zlen (log n));
    [reflexivity|].
  unfold zlen. rewrite with_index_length, skipn_length, firstn_length_le by exact Hlen. lia.
Qed.

(** The hypotheses of [insync_accept] are satisfiable: a fresh leader of a 3-node cluster after one submit, and a fresh follower. *)
Example replication_round_satisfiable :
  let n := node_run (init_node [0; 1; 2] 0) [ITimeout false; IMsg 1 (VoteResponse 1 true 1); ISubmit 5;
                                             IMsg 1 (AppendResponse 1 false 1 0)] in
  let f := init_node [0; 1; 2] 1 in
  Z.of_nat 0 = aget (nid f) 1 (next_index n) - 1 /\ (0 <= length (log n))%nat /\ log f = firstn 0 (log n) /\
  term f <= term n /\ zmem (nid n) (peers f) = true /\ log n = [(1, 5)].
Proof. vm_compute. repeat split; try reflexivity; try discriminate; auto with arith. Qed.
