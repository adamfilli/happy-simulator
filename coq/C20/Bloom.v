(** C20 — Bloom filter: no false negatives, merge = union of streams. *)
From HS Require Import Base.Prelude Base.Lists C20.Model C20.Counting.
Local Open Scope Z_scope.

Lemma testbit_setbit b i j : 0 <= i -> 0 <= j ->
  Z.testbit (Z.lor b (Z.shiftl 1 i)) j = Z.testbit b j || (i =? j).
Proof.
  intros Hi Hj. rewrite Z.lor_spec, Z.shiftl_1_l, Z.pow2_bits_eqb by lia. reflexivity.
Qed.

Lemma popc_ext n a b : (forall j, 0 <= j < Z.of_nat n -> Z.testbit a j = Z.testbit b j) ->
  popc n a = popc n b.
Proof.
  induction n as [|n IH]; intros H; cbn [popc]; [reflexivity|].
  rewrite H by lia. rewrite IH; [reflexivity|]. intros j Hj. apply H. lia.
Qed.

Lemma popc_setbit n b i : 0 <= i < Z.of_nat n -> Z.testbit b i = false ->
  popc n (Z.lor b (Z.shiftl 1 i)) = popc n b + 1.
Proof.
  induction n as [|n IH]; intros Hi Hb; [lia|]. cbn [popc].
  rewrite testbit_setbit by lia.
  destruct (Z.eq_dec i (Z.of_nat n)) as [->|Hne].
  - rewrite Hb, Z.eqb_refl. cbn [orb].
    rewrite (popc_ext n _ b); [lia|]. intros j Hj. rewrite testbit_setbit by lia.
    replace (Z.of_nat n =? j) with false by lia. apply orb_false_r.
  - replace (i =? Z.of_nat n) with false by lia. rewrite orb_false_r. rewrite IH; [|lia|exact Hb].
    destruct (Z.testbit b (Z.of_nat n)); lia.
Qed.

(** [_bits_set] counts the set bits among the [nbits] bits of the words. *)
Definition NB (m : Z) := Z.to_nat (b_nbits m).
Definition b_inv (m : Z) (st : bloom) : Prop := b_set st = popc (NB m) (b_bits st).

Lemma m_le_nbits m : 0 < m -> m <= Z.of_nat (NB m).
Proof.
  intros Hm. unfold NB, b_nbits. assert (0 <= (m + 63) / 64) by (apply Z.div_pos; lia).
  pose proof (Z.div_mod (m + 63) 64). pose proof (Z.mod_pos_bound (m + 63) 64). lia.
Qed.

Lemma set_bit_inv m bits n idx : 0 <= idx < m -> n = popc (NB m) bits ->
  snd (b_set_bit (bits, n) idx) = popc (NB m) (fst (b_set_bit (bits, n) idx)).
Proof.
  intros Hi ->. pose proof (m_le_nbits m ltac:(lia)). cbn. destruct (Z.testbit bits idx) eqn:E.
  - apply popc_ext. intros j Hj. rewrite testbit_setbit by lia.
    destruct (idx =? j) eqn:E2; [|now rewrite orb_false_r].
    assert (idx = j) by lia. subst. now rewrite E.
  - symmetry. apply popc_setbit; [lia|exact E].
Qed.

Lemma b_inv_empty m : b_inv m bloom_empty.
Proof.
  unfold b_inv. cbn. induction (NB m) as [|n IH]; cbn; [reflexivity|]. rewrite Z.testbit_0_l. lia.
Qed.

Section Bloom.
Variable hsh : Z -> Z -> Z * Z.
Variables m k : Z.
Hypothesis Hm : 0 < m.

Lemma b_idx_range x i : 0 <= b_idx hsh m x i < m.
Proof. unfold b_idx. destruct (hsh x i). apply Z.mod_pos_bound; lia. Qed.

(** Bits touched by the adds of a stream. *)
Definition touched_by (x : Z) (j : Z) : bool := existsb (fun i => b_idx hsh m x i =? j) (zrange k).
Fixpoint touched (s : list (Z * Z)) (j : Z) : bool :=
  match s with
  | [] => false
  | (x, c) :: r => ((0 <? c) && touched_by x j) || touched r j
  end.

Lemma fold_setbits_testbit x l st j : 0 <= j ->
  Z.testbit (fst (fold_left (fun s i => b_set_bit s (b_idx hsh m x i)) l st)) j =
  Z.testbit (fst st) j || existsb (fun i => b_idx hsh m x i =? j) l.
Proof.
  intros Hj. revert st. induction l as [|i l IH]; intros [bits n]; cbn.
  - now rewrite orb_false_r.
  - rewrite IH. cbn. rewrite testbit_setbit by (pose proof (b_idx_range x i); lia).
    now rewrite orb_assoc.
Qed.

Lemma b_add_fst st x c : fst (b_add hsh m k st x c) =
  if 0 <? c then
    let p := fold_left (fun s i => b_set_bit s (b_idx hsh m x i)) (zrange k) (b_bits st, b_set st) in
    {| b_bits := fst p; b_set := snd p; b_total := b_total st + c |}
  else st.
Proof.
  unfold b_add. destruct (fold_left _ _ _). apply guard_fst.
Qed.

Lemma b_sketch_cons x c s st : b_sketch hsh m k ((x, c) :: s) st = b_sketch hsh m k s (fst (b_add hsh m k st x c)).
Proof. reflexivity. Qed.
Lemma b_sketch_app s1 s2 st : b_sketch hsh m k (s1 ++ s2) st = b_sketch hsh m k s2 (b_sketch hsh m k s1 st).
Proof. apply fold_left_app. Qed.

Lemma b_add_bits st x c j : 0 <= j ->
  Z.testbit (b_bits (fst (b_add hsh m k st x c))) j =
  Z.testbit (b_bits st) j || ((0 <? c) && touched_by x j).
Proof.
  intros Hj. rewrite b_add_fst. destruct (0 <? c); [|now rewrite orb_false_r].
  apply (fold_setbits_testbit x (zrange k) (b_bits st, b_set st) j Hj).
Qed.

Lemma b_sketch_bits s st j : 0 <= j ->
  Z.testbit (b_bits (b_sketch hsh m k s st)) j = Z.testbit (b_bits st) j || touched s j.
Proof.
  intros Hj. revert st. induction s as [|[x c] s IH]; intros st.
  - cbn. now rewrite orb_false_r.
  - rewrite b_sketch_cons, IH, b_add_bits by lia. cbn [touched]. now rewrite orb_assoc.
Qed.

Lemma b_add_total st x c : b_total (fst (b_add hsh m k st x c)) = b_total st + (if 0 <? c then c else 0).
Proof. rewrite b_add_fst. destruct (0 <? c); cbn; lia. Qed.

Lemma b_sketch_total s st : b_total (b_sketch hsh m k s st) = b_total st + stream_total s.
Proof. apply (fold_total (fun st x c => fst (b_add hsh m k st x c)) b_total b_add_total). Qed.

(** A stream touches all [k] bits of each item it adds. *)
Lemma touched_own s x c i : In (x, c) s -> 0 < c -> 0 <= i < k -> touched s (b_idx hsh m x i) = true.
Proof.
  intros Hin Hc Hi. assert (Ht : touched_by x (b_idx hsh m x i) = true).
  { apply existsb_exists. exists i. split; [now apply zrange_In|lia]. }
  induction s as [|[y d] s IH]; cbn; [destruct Hin|]. destruct Hin as [E|E].
  - inversion E; subst. replace (0 <? c) with true by lia. now rewrite Ht.
  - rewrite (IH E). apply orb_true_r.
Qed.

Lemma b_contains_iff st x :
  b_contains hsh m k st x = true <-> forall i, 0 <= i < k -> Z.testbit (b_bits st) (b_idx hsh m x i) = true.
Proof. unfold b_contains. rewrite forallb_forall. split; intros H i Hi; apply H, zrange_In, Hi. Qed.

(** Containment only grows with the set bits. *)
Lemma b_contains_mono a b x :
  (forall j, 0 <= j -> Z.testbit (b_bits a) j = true -> Z.testbit (b_bits b) j = true) ->
  b_contains hsh m k a x = true -> b_contains hsh m k b x = true.
Proof. rewrite !b_contains_iff. intros H Ha i Hi. apply H; [apply b_idx_range|auto]. Qed.

Lemma b_add_inv st x c : b_inv m st -> b_inv m (fst (b_add hsh m k st x c)).
Proof.
  unfold b_inv. intros H. rewrite b_add_fst. destruct (0 <? c); [|exact H]. cbn [b_bits b_set].
  apply (fold_left_inv _ (fun p => snd p = popc (NB m) (fst p))); [|exact H].
  intros [bits n] i Hp. apply set_bit_inv; [apply b_idx_range|exact Hp].
Qed.

Lemma b_sketch_inv s st : b_inv m st -> b_inv m (b_sketch hsh m k s st).
Proof. intros H. unfold b_sketch. apply fold_left_inv; [|exact H]. intros st' xc. apply b_add_inv. Qed.

Lemma bloom_eq a b : b_bits a = b_bits b -> b_set a = b_set b -> b_total a = b_total b -> a = b.
Proof. destruct a, b; cbn; intros; subst; reflexivity. Qed.

(** Merging the filter of a stream into [a] is feeding [a] the stream. *)
Lemma b_merge_sketch a s : b_inv m a -> b_merge m a (b_sketch hsh m k s bloom_empty) = b_sketch hsh m k s a.
Proof.
  intros Ha.
  assert (Hbits : Z.lor (b_bits a) (b_bits (b_sketch hsh m k s bloom_empty)) = b_bits (b_sketch hsh m k s a)).
  { apply Z.bits_inj'. intros j Hj. rewrite Z.lor_spec, !b_sketch_bits by lia.
    cbn [b_bits bloom_empty]. rewrite Z.testbit_0_l. reflexivity. }
  apply bloom_eq; cbn [b_merge b_bits b_set b_total].
  - exact Hbits.
  - rewrite Hbits. symmetry. apply (b_sketch_inv s a Ha).
  - rewrite !b_sketch_total. cbn. lia.
Qed.

End Bloom.

(** The hypotheses of the Bloom theorems are satisfiable (and the conclusion
    is not vacuous): a concrete hash, 8 bits, 3 hashes. *)
Example bloom_hypotheses_satisfiable :
  let hsh := fun x i : Z => (x * 5 + 1, i + 2) in
  0 < 8 /\ In (1, 1) [(1, 1); (2, 0)] /\
  b_contains hsh 8 3 (b_sketch hsh 8 3 [(1, 1); (2, 0)] bloom_empty) 1 = true /\
  b_contains hsh 8 3 (b_sketch hsh 8 3 [(1, 1); (2, 0)] bloom_empty) 2 = false.
Proof. cbv zeta. repeat split; try lia; try (now left); vm_compute; reflexivity. Qed.
