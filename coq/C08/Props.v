(** Property C08 — the theorems the check counts as obligations, each followed
    by the few lines that derive it from the lemmas of the other files of C08
    and by its [Print Assumptions]. *)
From HS Require Import Base.Prelude Base.PyLib C08.Model C08.Policies C08.PolicyThms C08.Pipeline C08.IndModel C08.IndThms
  Gen.QueuePolicyGen C08.GenTie Gen.ConcurrencyGen C08.ConcTie Gen.DeadlineGen C08.DeadlineTie.
Local Open Scope Z_scope.

(** Conservation, every policy, every worker kind, EVERY schedule (any pending
    event may fire next; arrivals at any moment): each offered item is in
    exactly one of {refused and counted, expired in the policy and counted,
    waiting in the policy, dequeued and on its way to the worker, in service,
    completed, discarded by the worker and counted}, exactly once. *)
Theorem c08_conservation : forall k p limit ls w x,
  pol_ids p = [] -> wrun (w0 k p limit) ls = Some w -> NoDup (arrivals ls) ->
  (In x (arrivals ls) -> places w x = 1) /\ (~ In x (arrivals ls) -> places w x = 0).
Proof. exact conservation. Qed.
Print Assumptions c08_conservation.

(** Every counter of the pipeline equals the size of its ledger class. *)
Theorem c08_counters : forall k p limit ls w,
  wrun (w0 k p limit) ls = Some w -> counted w.
Proof. intros k p limit ls w H. exact (wrun_counted _ _ _ H (counted_w0 _ _ _)). Qed.
Print Assumptions c08_counters.

(** Work in service never exceeds the concurrency limit (Server with a fixed limit). *)
Theorem c08_concurrency_bound : forall p limit ls w,
  0 <= limit -> no_setlimit ls -> wrun (w0 WServer p limit) ls = Some w ->
  zlen (service_ids (pend w)) <= limit /\ act (ps w) = zlen (service_ids (pend w)) /\ lim (ps w) = limit.
Proof. exact concurrency_bound. Qed.
Print Assumptions c08_concurrency_bound.

(** REFUTED on the faithful model (known finding C08-overpoll-discard). *)
Theorem c08_no_discard_refuted : ~ no_discard_statement.
Proof.
  intros H. destruct conservation_hyps as (w & _ & Hr & _ & _ & Hd).
  rewrite (H 1 overpoll_witness w ltac:(lia) I Hr) in Hd. discriminate Hd.
Qed.
Print Assumptions c08_no_discard_refuted.

(** REFUTED on the faithful model (known finding C08-strand-partial-capacity). *)
Theorem c08_no_stranding_refuted : ~ no_stranding_statement.
Proof.
  intros H. destruct stranding_hyps as (w & _ & _ & Hn & Hr & Hq & Hd & Ha).
  specialize (H 2 _ w ltac:(lia) Hn Hr Hq Hd).
  destruct (concurrency_bound _ 2 _ w ltac:(lia) Hn Hr) as (_ & _ & Hm). lia.
Qed.
Print Assumptions c08_no_stranding_refuted.

(** PARTIAL no-stranding (every policy, every worker kind, every schedule that
    leaves the limit alone; see [c08_capacity_change_refuted] for the others): when
    only service completions are pending and an item waits, at least one item is
    in service. With a single slot this is the full clause. *)
Theorem c08_no_stranding_partial : forall k p limit ls w,
  pol_wf p -> pol_len p = 0 -> 1 <= limit -> no_setlimit ls -> wrun (w0 k p limit) ls = Some w ->
  quiescent w = true -> 0 < pol_len (q (ps w)) -> 1 <= act (ps w).
Proof. exact no_stranding_partial. Qed.
Print Assumptions c08_no_stranding_partial.

(** One slot (Server): the full no-stranding clause holds. *)
Theorem c08_no_stranding_single_slot : forall p ls w,
  pol_wf p -> pol_len p = 0 -> no_setlimit ls -> wrun (w0 WServer p 1) ls = Some w ->
  quiescent w = true -> 0 < pol_len (q (ps w)) -> lim (ps w) <= act (ps w).
Proof.
  intros p ls w Hwf Hp Hn Hr Hq Hd.
  pose proof (no_stranding_partial WServer p 1 ls w Hwf Hp ltac:(lia) Hn Hr Hq Hd).
  destruct (concurrency_bound p 1 ls w ltac:(lia) Hn Hr) as (_ & _ & Hlim). lia.
Qed.
Print Assumptions c08_no_stranding_single_slot.

(** enqueued = dequeued + dropped + held at all times (ledger of the observed run). *)
Theorem c08_policy_conservation : forall ops s s' obs,
  pol_run s ops = (s', obs) ->
  n_accepted ops obs + pol_len s = n_popped ops obs + n_expired ops obs + pol_len s'.
Proof. exact policy_conservation. Qed.
Print Assumptions c08_policy_conservation.

(** ... and the same equation for the statistics the policies keep themselves. *)
Theorem c08_policy_stats_conservation : forall ops s s' obs,
  stats_ok s -> pol_run s ops = (s', obs) -> stats_ok s'.
Proof. apply pol_run_inv; intros; [now apply pol_push_inv|now apply pol_pop_inv]. Qed.
Print Assumptions c08_policy_stats_conservation.

(** A policy never holds more than its capacity (per-flow and flow-count limits for the fair queues). *)
Theorem c08_policy_capacity : forall ops s s' obs,
  within_cap s -> pol_run s ops = (s', obs) -> within_cap s'.
Proof. exact policy_capacity. Qed.
Print Assumptions c08_policy_capacity.

(** Fair queue: at most max_flows flows of at most per_flow_capacity items. *)
Theorem c08_fair_capacity : forall m c fl total st,
  within_cap (PFair (Some m) (Some c) fl total st) -> pol_wf (PFair (Some m) (Some c) fl total st) ->
  total <= Z.max 0 m * Z.max 0 c.
Proof.
  cbn. intros m c fl total st [Hm Hall] ->.
  assert (zlen (fids fl) <= zlen fl * Z.max 0 c) by (apply fids_bound; [lia|exact Hall]).
  pose proof (zlen_nonneg fl). nia.
Qed.
Print Assumptions c08_fair_capacity.

(** FIFO: the accepted items are exactly the popped items followed by the held ones, in order. *)
Theorem c08_fifo_order : forall ops cap l s' obs,
  pol_run (PFifo cap l) ops = (s', obs) ->
  map iid l ++ accepted_ids ops obs = popped_ids ops obs ++ pol_ids s'.
Proof. exact fifo_order. Qed.
Print Assumptions c08_fifo_order.

(** LIFO: every pop returns the most recently accepted item not yet popped. *)
Theorem c08_lifo_order : forall ops cap l s' obs,
  pol_run (PLifo cap l) ops = (s', obs) -> lifo_ok ops obs (map iid l).
Proof. exact lifo_order. Qed.
Print Assumptions c08_lifo_order.

(** Stable priority: pop returns the held item with the least (priority,
    insertion number); equal priorities leave in insertion order. *)
Theorem c08_priority_order : forall ops cap ctr h obs now it s2 ex,
  pol_run (PPrio cap 0 []) ops = (PPrio cap ctr h, obs) ->
  pol_pop now (PPrio cap ctr h) = (s2, Some it, ex) ->
  exists o h', h = (iprio it, o, it) :: h' /\ s2 = PPrio cap ctr h' /\ ex = [] /\
    Forall (fun e => iprio it < iprio (snd e) \/ (iprio it = iprio (snd e) /\ o < eord e)) h'.
Proof.
  intros ops cap ctr h obs now it s2 ex Hr. apply prio_pop_least.
  exact (heap_order_inv _ _ _ _ (heap_inv_nil iprio : prio_inv (PPrio cap 0 [])) Hr).
Qed.
Print Assumptions c08_priority_order.

(** Deadline: every item a pop drops has its deadline before the clock; the item it
    returns has not, and has the least (deadline, insertion number) of those held after
    the pop; when it returns none the queue is left empty. *)
Theorem c08_deadline_order : forall ops cap ctr h st obs now s2 r ex,
  pol_run (PDead cap 0 [] ds0) ops = (PDead cap ctr h st, obs) ->
  pol_pop now (PDead cap ctr h st) = (s2, r, ex) ->
  Forall (fun it => idl it < now) ex /\
  match r with
  | Some it => now <= idl it /\
      exists o h' st', s2 = PDead cap ctr h' st' /\
        Forall (fun e => idl it < idl (snd e) \/ (idl it = idl (snd e) /\ o < eord e)) h'
  | None => pol_len s2 = 0
  end.
Proof.
  intros ops cap ctr h st obs now s2 r ex Hr. apply dead_pop_least.
  exact (heap_order_inv _ _ _ _ (heap_inv_nil idl : prio_inv (PDead cap 0 [] ds0)) Hr).
Qed.
Print Assumptions c08_deadline_order.

(** Fair share (round robin over flows): a pop serves the first flow that has
    items, takes its oldest item, moves the flow behind all others (or removes
    it when emptied); the relative order of the other flows is unchanged. *)
Theorem c08_fair_round_robin : forall fl rm fl' it rm',
  fair_pop fl rm = (fl', Some it, rm') ->
  exists pre g l post,
    fl = pre ++ (g, it :: l) :: post /\ Forall (fun p => snd p = []) pre /\
    fl' = post ++ (match l with [] => [] | _ => [(g, l)] end).
Proof.
  intros fl rm fl' it rm' H. pose proof (fair_pop_split fl rm) as S. rewrite H in S.
  destruct S as (pre & Hpre & g & l & post & -> & ->). exists pre, g, l, post. repeat split. exact Hpre.
Qed.
Print Assumptions c08_fair_round_robin.

(** REFUTED for the unguarded workers (known finding C08-unguarded-over-dispatch). *)
Theorem c08_unguarded_bound_refuted : ~ unguarded_bound_statement.
Proof.
  intros H.
  eassert (Hr : wrun (w0 WShift (PFifo None []) 1) overpoll_witness = Some _) by (vm_compute; reflexivity).
  apply H in Hr; [|lia|exact I]. cbn in Hr. lia.
Qed.
Print Assumptions c08_unguarded_bound_refuted.

(** REFUTED: raising the capacity does not poll the queue (known finding C08-strand-capacity-raised). *)
Theorem c08_capacity_change_refuted : ~ capacity_change_statement.
Proof.
  intros H.
  eassert (Hr : wrun (w0 WShift (PFifo None []) 0) raise_witness = Some _) by (vm_compute; reflexivity).
  apply H in Hr; [|lia]. cbn in Hr. specialize (Hr eq_refl ltac:(lia) ltac:(lia)). lia.
Qed.
Print Assumptions c08_capacity_change_refuted.

(** PooledCycleResource (industrial/pooled_cycle.py), every schedule of its own pending
    events: each arrival is in exactly one of {rejected, queued, re-emitted, in a cycle,
    completed}, exactly once. *)
Theorem c08_pooled_conservation : forall size cap ls w x,
  pcw_run (pcw0 size cap) ls = Some w -> NoDup (pc_arrivals ls) ->
  (In x (pc_arrivals ls) -> pc_places w x = 1) /\ (~ In x (pc_arrivals ls) -> pc_places w x = 0).
Proof.
  intros size cap ls w x Hr Hnd.
  rewrite (pcw_run_places x _ _ _ Hr). now apply ledger_once.
Qed.
Print Assumptions c08_pooled_conservation.

(** ... never more than [size] cycles run, and when no re-emitted item is in flight and
    an item waits, no unit is free. *)
Theorem c08_pooled_bound_no_stranding : forall size cap ls w,
  0 <= size -> pcw_run (pcw0 size cap) ls = Some w ->
  pc_act (pw_s w) <= size /\ 0 <= pc_avail (pw_s w) /\
  (zl_retry (pw_pend w) = 0 -> pc_q (pw_s w) <> [] -> pc_avail (pw_s w) = 0).
Proof.
  intros size cap ls w Hs Hr.
  assert (H0 : pc_inv size (pcw0 size cap)).
  { unfold pc_inv, pcw0. cbn. repeat split; try lia. intros C. now elim C. }
  destruct (orun_inv pcw_step (fun _ => True) (pc_inv size) (fun w l w' o H _ => pcw_step_inv size w l w' o H)
                     ls _ w Hr (fun _ _ => I) H0) as (Hsum & Hnn & Hq).
  rewrite zl_retry_len. repeat split; try lia. intros Z0 Q. specialize (Hq Q). lia.
Qed.
Print Assumptions c08_pooled_bound_no_stranding.

(** REFUTED (known finding C08-pooled-retry-loses-slot). *)
Theorem c08_pooled_fifo_refuted : ~ pooled_fifo_statement.
Proof.
  intros H. destruct pooled_hyps as (w & Hr & Hnd & _ & Hq & _).
  specialize (H 1 0 _ w Hr Hnd). rewrite Hq in H. discriminate H.
Qed.
Print Assumptions c08_pooled_fifo_refuted.

(** GateController (industrial/gate_controller.py): what was forwarded, followed by what
    is queued, is the sequence of accepted arrivals in arrival order; the queue keeps its
    capacity (0 = unlimited) and is empty while the gate is open. *)
Theorem c08_gate_fifo_conservation : forall cap opened ins s' outs rejs accs,
  g_run (g0 cap opened) ins = (s', outs, rejs, accs) ->
  outs ++ g_q s' = accs /\ (0 < cap -> zlen (g_q s') <= cap) /\ (g_open s' = true -> g_q s' = []).
Proof.
  intros cap opened ins s' outs rejs accs H.
  assert (Hi : g_inv cap (g0 cap opened)).
  { unfold g_inv, g0. cbn. repeat split; auto. lia. }
  destruct (gate_fifo_gen cap _ _ _ _ _ _ Hi H) as [Heq (_ & Ho & Hb)]. auto.
Qed.
Print Assumptions c08_gate_fifo_conservation.

(** ConveyorBelt (industrial/conveyor.py): each arrival is exactly one of {rejected, in
    transit, delivered}; the transit counter is the number of pending deliveries and keeps
    the capacity (0 = unlimited). *)
Theorem c08_conveyor_conservation_bound : forall cap ins w x,
  cvw_run (cvw0 cap) ins = Some w -> NoDup (cv_arrivals ins) ->
  ((In x (cv_arrivals ins) -> cv_places w x = 1) /\ (~ In x (cv_arrivals ins) -> cv_places w x = 0)) /\
  cv_transit (vw_s w) = zlen (vw_pend w) /\ (0 < cap -> cv_transit (vw_s w) <= cap).
Proof.
  intros cap ins w x Hr Hnd.
  assert (H0 : cv_inv cap (cvw0 cap)) by (unfold cv_inv, cvw0; cbn; repeat split; auto; lia).
  destruct (orun_inv cvw_step (fun _ => True) (cv_inv cap)
              (fun w i w' o E _ => proj2 (cvw_step_spec x w i w' o E) cap) ins _ w Hr (fun _ _ => I) H0)
    as (_ & Ht & Hb).
  rewrite (cvw_run_places x _ _ _ Hr). split; [now apply ledger_once|auto].
Qed.
Print Assumptions c08_conveyor_conservation_bound.

(** BatchProcessor (industrial/batch_processor.py): each arrival is exactly one of
    {buffered, in a batch being processed, forwarded}; a full batch never waits. *)
Theorem c08_batch_conservation_no_full_wait : forall size ton ins w x,
  bw_run (bw0 size ton) ins = Some w -> NoDup (b_arrivals ins) ->
  ((In x (b_arrivals ins) -> b_places w x = 1) /\ (~ In x (b_arrivals ins) -> b_places w x = 0)) /\
  (1 <= size -> zlen (b_buf (bw_s w)) < size).
Proof. exact batch_conservation_no_full_wait. Qed.
Print Assumptions c08_batch_conservation_no_full_wait.

(** The models of server/concurrency.py (Fixed, Dynamic, Weighted): 0 <= active <= limit
    is kept by every sequence of acquire / release / has_capacity. *)
Theorem c08_concurrency_models_bound : forall ops m,
  Forall (fun o => match o with CSetLimit _ => False | _ => True end) ops ->
  cm_ok m -> cm_ok (cm_run m ops).
Proof. exact concurrency_models_bound. Qed.
Print Assumptions c08_concurrency_models_bound.

(** ... and across limit changes: a successful acquire never takes the count above the
    limit in force and strictly increases it, a refused one changes nothing, and
    has_capacity(w) answers exactly whether acquire(w) would succeed. *)
Theorem c08_acquire_respects_limit : forall m w m' r,
  cm_step m (CAcquire w) = (m', r) ->
  (r = 1 -> cm_active m' <= cm_limit m' /\ cm_active m < cm_active m') /\
  (r <> 1 -> m' = m) /\
  (1 <= w -> (snd (cm_step m (CHasCap w)) = 1 <-> r = 1)).
Proof. exact acquire_respects_limit. Qed.
Print Assumptions c08_acquire_respects_limit.

(** FIFOQueue / LIFOQueue / PriorityQueue of components/queue_policy.py, as
    REGENERATED from the source on every run (Gen/QueuePolicyGen.v), refine the
    policy model: on the code object of a model state ([fifo_obj], [lifo_obj]:
    the held ids, LIFO newest last; [prio_obj]: heap entries (priority, insert
    order, id) with the insert counter), every operation returns what the
    model returns, leaves the object of the model's next state, and does not
    raise; the order @dataclass(order=True) gives _PriorityEntry is the model's
    heap order, and heappush keeps the model's sorted list. *)
Theorem c08_code_policies_refine_model : forall cap l ctr h it balk now,
  (let '(s', ok) := pol_push balk it (PFifo cap l) in
   exists l', s' = PFifo cap l' /\ FIFOQueue_push (fifo_obj cap l) (iid it) = (fifo_obj cap l', ok))
  /\ (let '(s', r, ex) := pol_pop now (PFifo cap l) in
      ex = [] /\ exists l', s' = PFifo cap l' /\ FIFOQueue_pop (fifo_obj cap l) = Some (fifo_obj cap l', option_map iid r))
  /\ (FIFOQueue_peek (fifo_obj cap l) = Some (option_map iid (hd_error l))
      /\ FIFOQueue___len__ (fifo_obj cap l) = pol_len (PFifo cap l)
      /\ FIFOQueue_is_empty (fifo_obj cap l) = (pol_len (PFifo cap l) =? 0)
      /\ FIFOQueue_capacity (fifo_obj cap l) = cap)
  /\ (let '(s', ok) := pol_push balk it (PLifo cap l) in
      exists l', s' = PLifo cap l' /\ LIFOQueue_push (lifo_obj cap l) (iid it) = (lifo_obj cap l', ok))
  /\ (let '(s', r, ex) := pol_pop now (PLifo cap l) in
      ex = [] /\ exists l', s' = PLifo cap l' /\ LIFOQueue_pop (lifo_obj cap l) = Some (lifo_obj cap l', option_map iid r))
  /\ (LIFOQueue_peek (lifo_obj cap l) = Some (option_map iid (hd_error l))
      /\ LIFOQueue___len__ (lifo_obj cap l) = pol_len (PLifo cap l)
      /\ LIFOQueue_is_empty (lifo_obj cap l) = (pol_len (PLifo cap l) =? 0)
      /\ LIFOQueue_capacity (lifo_obj cap l) = cap)
  /\ (forall k o e, _PriorityEntry___lt__ (enc (k, o, it)) (enc e) = entry_ltb k o e)
  /\ (let '(s', ok) := pol_push balk it (PPrio cap ctr h) in
      exists ctr' h', s' = PPrio cap ctr' h' /\
      PriorityQueue_push (prio_obj cap ctr h) (iid it) (iprio it) = (prio_obj cap ctr' h', ok))
  /\ (let '(s', r, ex) := pol_pop now (PPrio cap ctr h) in
      ex = [] /\ exists h', s' = PPrio cap ctr h' /\
      PriorityQueue_pop (prio_obj cap ctr h) = Some (prio_obj cap ctr h', option_map iid r))
  /\ (PriorityQueue_peek (prio_obj cap ctr h) = Some (option_map (fun e : entry => iid (snd e)) (hd_error h))
      /\ PriorityQueue___len__ (prio_obj cap ctr h) = pol_len (PPrio cap ctr h)
      /\ PriorityQueue_is_empty (prio_obj cap ctr h) = (pol_len (PPrio cap ctr h) =? 0)
      /\ PriorityQueue_capacity (prio_obj cap ctr h) = cap).
Proof.
  intros cap l ctr h it balk now.
  exact (conj (tie_fifo_push cap l it balk) (conj (tie_fifo_pop cap l now) (conj (tie_fifo_read cap l)
        (conj (tie_lifo_push cap l it balk) (conj (tie_lifo_pop cap l now) (conj (tie_lifo_read cap l)
        (conj (fun k o e => tie_entry_lt k o it e)
        (conj (tie_prio_push cap ctr h it balk) (conj (tie_prio_pop cap ctr h now) (tie_prio_read cap ctr h)))))))))).
Qed.
Print Assumptions c08_code_policies_refine_model.

(** FIFOQueue AS TRANSLATED, from any object (any capacity, any held ids), for
    EVERY sequence of push / pop: nothing raises; the ids held at the start
    followed by the accepted ones are exactly the popped ones followed by the
    ones still held, in that order (no loss, no duplication, arrival order);
    the capacity field is never written and a capacity respected at the start
    is respected at the end. *)
Theorem c08_code_fifo_order : forall ops cap ids,
  exists q' obs, code_run fifo_code_step (mkFIFOQueue cap ids) ops = Some (q', obs)
  /\ ids ++ accepted_ids ops obs = popped_ids ops obs ++ FIFOQueue__queue q'
  /\ FIFOQueue__capacity q' = cap
  /\ (le_cap (zlen ids) cap -> le_cap (FIFOQueue___len__ q') cap).
Proof. exact code_fifo_order. Qed.
Print Assumptions c08_code_fifo_order.

(** LIFOQueue AS TRANSLATED: every pop returns the most recently accepted id
    not yet popped ([None] exactly when nothing is held). *)
Theorem c08_code_lifo_order : forall ops cap ids,
  exists q' obs, code_run lifo_code_step (mkLIFOQueue cap ids) ops = Some (q', obs)
  /\ lifo_ok ops obs (rev ids)
  /\ LIFOQueue__capacity q' = cap
  /\ (le_cap (zlen ids) cap -> le_cap (LIFOQueue___len__ q') cap).
Proof. exact code_lifo_order. Qed.
Print Assumptions c08_code_lifo_order.

(** PriorityQueue AS TRANSLATED, started empty, for every operation sequence
    and every priority [_get_priority] reports: a successful pop returns the
    item of the entry that the generated dataclass order puts strictly before
    every entry left in the heap — lowest priority value first, insertion order
    among equal priorities (stable). *)
Theorem c08_code_priority_order : forall ops cap,
  exists q' obs, code_run prio_code_step (mkPriorityQueue cap [] 0) ops = Some (q', obs)
  /\ PriorityQueue__capacity q' = cap
  /\ (le_cap 0 cap -> le_cap (PriorityQueue___len__ q') cap)
  /\ forall q'' x, PriorityQueue_pop q' = Some (q'', Some x) ->
       exists e, PriorityQueue__heap q' = e :: PriorityQueue__heap q'' /\ _PriorityEntry_item e = x
         /\ Forall (fun e' => _PriorityEntry___lt__ e e' = true) (PriorityQueue__heap q'').
Proof. exact code_priority_order. Qed.
Print Assumptions c08_code_priority_order.

(** The premises are satisfiable and the statements not vacuous: a concrete run. *)
Example c08_code_fifo_example :
  code_run fifo_code_step (mkFIFOQueue (Some 2) []) [OPush false (mkit 7); OPush false (mkit 8); OPush false (mkit 9); OPop 0; OPop 0; OPop 0]
  = Some (mkFIFOQueue (Some 2) [], [(true, None, []); (true, None, []); (false, None, []); (true, Some 7, []); (true, Some 8, []); (true, None, [])]).
Proof. vm_compute. reflexivity. Qed.
Example c08_code_priority_example :
  option_map snd (code_run prio_code_step (mkPriorityQueue None [] 0)
    [OPush false (MkItem 1 5 0 0 0); OPush false (MkItem 2 3 0 0 0); OPush false (MkItem 3 5 0 0 0); OPush false (MkItem 4 3 0 0 0); OPop 0; OPop 0; OPop 0; OPop 0])
  = Some [(true, None, []); (true, None, []); (true, None, []); (true, None, []); (true, Some 2, []); (true, Some 4, []); (true, Some 1, []); (true, Some 3, [])].
Proof. vm_compute. reflexivity. Qed.

(** FixedConcurrency, DynamicConcurrency and WeightedConcurrency of
    components/server/concurrency.py, as REGENERATED from the source on every run
    (Gen/ConcurrencyGen.v): every operation (acquire / release / has_capacity with any
    weight, set_limit; scale_up / scale_down as set_limit) acts on the object exactly as
    the model's [cm_step] acts on its abstraction [cm_of], with the same result (1 = True,
    0 = False/None, 2 = ValueError). *)
Theorem c08_code_concurrency_refines_model : forall c o cd k,
  (cm_of (fst (code_cm_step c o)) = fst (cm_step (cm_of c) o) /\ snd (code_cm_step c o) = snd (cm_step (cm_of c) o))
  /\ (cm_of (ODyn (fst (DynamicConcurrency_scale_up cd k)))
        = fst (cm_step (cm_of (ODyn cd)) (CSetLimit (DynamicConcurrency__current_limit cd + k)))
      /\ cm_of (ODyn (fst (DynamicConcurrency_scale_down cd k)))
        = fst (cm_step (cm_of (ODyn cd)) (CSetLimit (DynamicConcurrency__current_limit cd - k)))).
Proof. intros c o cd k. exact (conj (tie_cm_step c o) (tie_cm_scale cd k)). Qed.
Print Assumptions c08_code_concurrency_refines_model.

(** Work in service never exceeds the concurrency limit — for the classes AS TRANSLATED,
    every sequence of acquire / release / has_capacity with any weights. *)
Theorem c08_code_concurrency_bound : forall ops c,
  Forall (fun o => match o with CSetLimit _ => False | _ => True end) ops ->
  cm_ok (cm_of c) -> cm_ok (cm_of (code_cm_run c ops)).
Proof. exact code_concurrency_bound. Qed.
Print Assumptions c08_code_concurrency_bound.

(** ... and across limit changes: a successful acquire of the translated classes never takes
    the count above the limit in force and strictly increases it, a refused acquire changes
    nothing, and has_capacity(w) answers exactly whether acquire(w) would succeed. *)
Theorem c08_code_acquire_respects_limit : forall c w,
  let '(c', r) := code_cm_step c (CAcquire w) in
  (r = 1 -> cm_active (cm_of c') <= cm_limit (cm_of c') /\ cm_active (cm_of c) < cm_active (cm_of c')) /\
  (r <> 1 -> cm_of c' = cm_of c) /\
  (1 <= w -> (snd (code_cm_step c (CHasCap w)) = 1 <-> r = 1)).
Proof. exact code_acquire_respects_limit. Qed.
Print Assumptions c08_code_acquire_respects_limit.

(** DeadlineQueue.push / pop / is_empty / __len__, regenerated from the source on every run
    (Gen/DeadlineGen.v; pop's `while heap: entry = heappop(heap)` drain loop with continue / return is a
    fold over the current heap), on the code object of a model state: push is the model's push
    (_get_deadline(item) = the item's deadline), pop at clock t drops exactly what the model's [dl_pop]
    drops, returns what it returns, and leaves the model's heap and counters (enqueued, dequeued,
    expired, rejected).  One operation at a time: no theorem about runs of the translated DeadlineQueue. *)
Theorem c08_code_deadline_refines_model : forall cap ctr h st it balk t,
  (let '(s', ok) := pol_push balk it (PDead cap ctr h st) in
   exists ctr' h' st', s' = PDead cap ctr' h' st' /\
   DeadlineQueue_push (dq_obj cap ctr h st) (iid it) (idl it) = (dq_obj cap ctr' h' st', ok))
  /\ (let '(s', r, ex) := pol_pop t (PDead cap ctr h st) in
      exists h' st', s' = PDead cap ctr h' st' /\
      DeadlineQueue_pop (dq_obj cap ctr h st) (Some t) = (dq_obj cap ctr h' st', option_map iid r))
  /\ (DeadlineQueue___len__ (dq_obj cap ctr h st) = pol_len (PDead cap ctr h st)
      /\ DeadlineQueue_is_empty (dq_obj cap ctr h st) = (pol_len (PDead cap ctr h st) =? 0))
  /\ (forall k o e, _DeadlineEntry___lt__ (denc (k, o, it)) (denc e) = entry_ltb k o e).
Proof.
  intros cap ctr h st it balk t.
  exact (conj (tie_dq_push cap ctr h st it balk) (conj (tie_dq_pop cap ctr h st t) (conj (tie_dq_reads cap ctr h st)
        (fun k o e => tie_dentry_lt k o it e)))).
Qed.
Print Assumptions c08_code_deadline_refines_model.
