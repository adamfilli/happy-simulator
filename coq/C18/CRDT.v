(** C18 — CRDT merge laws, counter value specification, LWW greatest-timestamp,
    OR-set: what holds (no add is lost; merge laws of the tag map) and what is
    refuted (the observed-remove specification). *)
From HS Require Import Base.Prelude Base.Lists C18.Model C18.Causal.
Local Open Scope Z_scope.

(** Merge laws are stated pointwise: that is dict equality, since the code never
    stores a zero count. *)

Lemma gc_merge_comm a b k : gc_merge a b k = gc_merge b a k.
Proof. apply Z.max_comm. Qed.
Lemma gc_merge_assoc a b c k : gc_merge (gc_merge a b) c k = gc_merge a (gc_merge b c) k.
Proof. symmetry. apply Z.max_assoc. Qed.
Lemma gc_merge_idem a k : gc_merge a a k = a k.
Proof. apply Z.max_id. Qed.

Definition pn_eq (a b : pn) : Prop := (forall k, fst a k = fst b k) /\ (forall k, snd a k = snd b k).

Lemma pn_eq_refl a : pn_eq a a.
Proof. split; reflexivity. Qed.
Lemma pn_merge_comm a b : pn_eq (pn_merge a b) (pn_merge b a).
Proof. split; intros k; apply gc_merge_comm. Qed.
Lemma pn_merge_assoc a b c : pn_eq (pn_merge (pn_merge a b) c) (pn_merge a (pn_merge b c)).
Proof. split; intros k; apply gc_merge_assoc. Qed.
Lemma pn_merge_idem a : pn_eq (pn_merge a a) a.
Proof. split; intros k; apply gc_merge_idem. Qed.

Lemma zsum_ext (f g : Z -> Z) l : (forall k, In k l -> f k = g k) -> zsum (map f l) = zsum (map g l).
Proof.
  induction l as [|x l IH]; intros H; cbn; [reflexivity|].
  rewrite (H x (or_introl eq_refl)), IH; auto. intros k Hk; apply H; right; exact Hk.
Qed.

Lemma pn_value_ext nodes a b : pn_eq a b -> pn_value nodes a = pn_value nodes b.
Proof.
  intros [H1 H2]. unfold pn_value, gc_value.
  rewrite (zsum_ext (fst a) (fst b)), (zsum_ext (snd a) (snd b)); auto.
Qed.

(** One half of a system of counters (increments or decrements): [V r k] is what
    replica [r] holds for node [k], [B m k] what the state in flight in slot [m]
    holds, [I k] the total node [k] has issued.  Nobody knows more about [k] than
    [k] itself, and [k] knows exactly [I k]. *)

Definition gsound (V B : Z -> gc) (I : gc) : Prop :=
  forall r k, 0 <= V r k <= I k /\ V k k = I k /\ 0 <= B r k <= I k.

Lemma gsound_ext V B I V' B' I' :
  (forall r k, V' r k = V r k) -> (forall m k, B' m k = B m k) -> (forall k, I' k = I k) ->
  gsound V B I -> gsound V' B' I'.
Proof. intros EV EB EI H r k. rewrite !EV, EB, EI. apply H. Qed.

(** What [increment(n)] at replica [r] adds to node [k]'s total (n < 1 is rejected). *)
Definition credit (r n k : Z) : Z := if (r =? k) && negb (n <? 1) then n else 0.

Lemma credit_nonneg r n k : 0 <= credit r n k.
Proof. unfold credit. destruct ((r =? k) && negb (n <? 1)) eqn:E; lia. Qed.
Lemma credit_other r n k : k <> r -> credit r n k = 0.
Proof. intros H. unfold credit. destruct (Z.eqb_spec r k); [congruence|reflexivity]. Qed.

Lemma gc_inc_spec me n c k : gc_inc me n c k = c k + credit me n k.
Proof.
  unfold gc_inc, credit, upd. rewrite (Z.eqb_sym me k).
  destruct (n <? 1), (Z.eqb_spec k me) as [->|]; cbn [andb negb]; lia.
Qed.

(** The three ways a step acts on the half [p] of a system: replica [r0] is
    credited; it merges a state [W] that knows no more than the totals (its own
    state, when the step leaves this half alone); slot [m0] takes such a state. *)
Section Half.
  Variables (p : pn -> gc) (s : cnt_sys) (I : gc).
  Hypothesis H : gsound (fun r => p (reps s r)) (fun m => p (box s m)) I.

  Lemma half_inc r0 n c : (forall k, p c k = gc_inc r0 n (p (reps s r0)) k) ->
    gsound (fun r => p (upd (reps s) r0 c r)) (fun m => p (box s m)) (fun k => I k + credit r0 n k).
  Proof.
    intros E r k. unfold upd. pose proof (credit_nonneg r0 n k). pose proof (credit_other r0 n k).
    destruct (H r k) as (P1 & P2 & P3), (H r0 k) as (Q1 & Q2 & _). split; [|split; [|lia]].
    - destruct (r =? r0); [rewrite E, gc_inc_spec|]; lia.
    - destruct (Z.eqb_spec k r0) as [->|]; [rewrite E, gc_inc_spec|]; lia.
  Qed.

  Lemma half_merge r0 c W : (forall k, p c k = gc_merge (p (reps s r0)) W k) -> (forall k, 0 <= W k <= I k) ->
    gsound (fun r => p (upd (reps s) r0 c r)) (fun m => p (box s m)) (fun k => I k + 0).
  Proof.
    intros E HW r k. unfold upd. specialize (HW k). unfold gc_merge in E.
    destruct (H r k) as (P1 & P2 & P3), (H r0 k) as (Q1 & Q2 & _). split; [|split; [|lia]].
    - destruct (r =? r0); [rewrite E|]; lia.
    - destruct (Z.eqb_spec k r0) as [->|]; [rewrite E|]; lia.
  Qed.

  Lemma half_snap m0 c : (forall k, 0 <= p c k <= I k) ->
    gsound (fun r => p (reps s r)) (fun m => p (upd (box s) m0 c m)) (fun k => I k + 0).
  Proof.
    intros HW r k. unfold upd. specialize (HW k). destruct (H r k) as (P1 & P2 & P3). destruct (r =? m0); lia.
  Qed.

  Lemma half_reach r x k : k = x \/ p (reps s r) k = I k -> gc_merge (p (reps s r)) (p (reps s x)) k = I k.
  Proof.
    intros Hk. unfold gc_merge. destruct (H r k) as (P1 & _), (H x k) as (Q1 & Q2 & _).
    destruct Hk as [->|E]; lia.
  Qed.
End Half.

Definition cnt_sound (s : cnt_sys) (I D : gc) : Prop :=
  gsound (fun r => fst (reps s r)) (fun m => fst (box s m)) I /\
  gsound (fun r => snd (reps s r)) (fun m => snd (box s m)) D.

Definition cnt_inv (s : cnt_sys) (I D : Z -> Z) : Prop :=
  forall r k,
    (fst (reps s r) k <= I k /\ fst (reps s k) k = I k /\ fst (box s r) k <= I k) /\
    (snd (reps s r) k <= D k /\ snd (reps s k) k = D k /\ snd (box s r) k <= D k).

Lemma cnt_sound_inv s I D : cnt_sound s I D -> cnt_inv s I D.
Proof.
  intros [HP HN] r k.
  split; [destruct (HP r k) as ((_ & P1) & P2 & (_ & P3))|destruct (HN r k) as ((_ & P1) & P2 & (_ & P3))]; auto.
Qed.

Definition cnt_eqv (a b : cnt_sys) : Prop :=
  forall r, pn_eq (reps a r) (reps b r) /\ pn_eq (box a r) (box b r).

Lemma cnt_eqv_refl s : cnt_eqv s s.
Proof. intros r. split; apply pn_eq_refl. Qed.

Lemma cnt_sound_ext a b I D I' D' :
  cnt_eqv a b -> (forall k, I' k = I k) -> (forall k, D' k = D k) ->
  cnt_sound b I D -> cnt_sound a I' D'.
Proof.
  intros E EI ED [HP HN].
  split; [apply gsound_ext with (4 := HP)|apply gsound_ext with (4 := HN)]; try assumption; intros r k; apply E.
Qed.

Definition inc_contrib (o : cnt_op) (k : Z) : Z :=
  match o with CInc r n => credit r n k | _ => 0 end.
Definition dec_contrib (o : cnt_op) (k : Z) : Z :=
  match o with CDec r n => credit r n k | _ => 0 end.

Lemma cnt_step_sound s I D o : cnt_sound s I D ->
  cnt_sound (cnt_step s o) (fun k => I k + inc_contrib o k) (fun k => D k + dec_contrib o k).
Proof.
  intros [HP HN].
  destruct o as [r0 n|r0 n|r0 r1|m0 r0|r0 m0]; split; cbn [cnt_step inc_contrib dec_contrib reps box].
  - apply (half_inc fst); [exact HP|reflexivity].
  - eapply (half_merge snd); [exact HN|intros k; symmetry; apply gc_merge_idem|intros k; apply HN].
  - eapply (half_merge fst); [exact HP|intros k; symmetry; apply gc_merge_idem|intros k; apply HP].
  - apply (half_inc snd); [exact HN|reflexivity].
  - eapply (half_merge fst); [exact HP|reflexivity|intros k; apply HP].
  - eapply (half_merge snd); [exact HN|reflexivity|intros k; apply HN].
  - apply (half_snap fst); [exact HP|intros k; apply HP].
  - apply (half_snap snd); [exact HN|intros k; apply HN].
  - eapply (half_merge fst); [exact HP|reflexivity|intros k; apply (HP m0)].
  - eapply (half_merge snd); [exact HN|reflexivity|intros k; apply (HN m0)].
Qed.

Lemma cnt_gossip_sound s I D o :
  (forall k, inc_contrib o k = 0) -> (forall k, dec_contrib o k = 0) ->
  cnt_sound s I D -> cnt_sound (cnt_step s o) I D.
Proof.
  intros EI ED H. apply cnt_sound_ext with (4 := cnt_step_sound _ _ _ o H); [apply cnt_eqv_refl|..];
    intros k; [rewrite EI|rewrite ED]; symmetry; apply Z.add_0_r.
Qed.

Lemma incs_of_snoc k h o : incs_of k (h ++ [o]) = incs_of k h + inc_contrib o k.
Proof.
  induction h as [|[] h IH]; cbn [app incs_of];
    [destruct o; try reflexivity; apply Z.add_comm|rewrite IH; apply Z.add_assoc|exact IH..].
Qed.
Lemma decs_of_snoc k h o : decs_of k (h ++ [o]) = decs_of k h + dec_contrib o k.
Proof.
  induction h as [|[] h IH]; cbn [app decs_of];
    [destruct o; try reflexivity; apply Z.add_comm|exact IH|rewrite IH; apply Z.add_assoc|exact IH..].
Qed.

Lemma cnt_init_sound : cnt_sound cnt_init (fun _ => 0) (fun _ => 0).
Proof. split; intros r k; cbn; unfold gc_empty; lia. Qed.

Lemma cnt_run_sound ops : cnt_sound (cnt_run ops) (fun k => incs_of k ops) (fun k => decs_of k ops).
Proof.
  apply (fold_left_hist cnt_step (fun h s => cnt_sound s (fun k => incs_of k h) (fun k => decs_of k h))) with (h := []).
  - intros h s o H. apply cnt_sound_ext with (4 := cnt_step_sound _ _ _ o H); [apply cnt_eqv_refl|..];
      intros k; [apply incs_of_snoc|apply decs_of_snoc].
  - exact cnt_init_sound.
Qed.

Definition caught (c : pn) (I D : gc) (k : Z) : Prop := fst c k = I k /\ snd c k = D k.

Lemma caught_value nodes c I D :
  (forall k, In k nodes -> caught c I D k) -> pn_value nodes c = zsum (map I nodes) - zsum (map D nodes).
Proof. intros H. unfold pn_value, gc_value. f_equal; apply zsum_ext; intros k Hk; apply (H k Hk). Qed.

(** A replica whose entries agree with every node's own entry (it has received
    every update) has the specified value: increments minus decrements. *)
Lemma own_entries_value s I D nodes r : cnt_sound s I D ->
  (forall k, In k nodes -> fst (reps s r) k = fst (reps s k) k /\ snd (reps s r) k = snd (reps s k) k) ->
  pn_value nodes (reps s r) = zsum (map I nodes) - zsum (map D nodes).
Proof.
  intros [HP HN] H. apply caught_value. intros k Hk. destruct (H k Hk) as [E1 E2].
  split; [rewrite E1; apply (HP r k)|rewrite E2; apply (HN r k)].
Qed.

Theorem counter_value_spec ops nodes r :
  let s := cnt_run ops in
  (forall k, In k nodes -> fst (reps s r) k = fst (reps s k) k /\ snd (reps s r) k = snd (reps s k) k) ->
  pn_value nodes (reps s r) =
    zsum (map (fun k => incs_of k ops) nodes) - zsum (map (fun k => decs_of k ops) nodes).
Proof. intros s. apply own_entries_value, cnt_run_sound. Qed.

Lemma merge_caught s I D r x k : cnt_sound s I D ->
  k = x \/ caught (reps s r) I D k -> caught (pn_merge (reps s r) (reps s x)) I D k.
Proof.
  intros [HP HN] Hk.
  split; [apply (half_reach fst s I HP)|apply (half_reach snd s D HN)];
    (destruct Hk as [->|E]; [left; reflexivity|right; apply E]).
Qed.

Lemma merge_all_reaches s I D r l : cnt_sound s I D ->
  forall k, In k l \/ caught (reps s r) I D k ->
  caught (reps (fold_left cnt_step (map (CMerge r) l) s) r) I D k.
Proof.
  revert s; induction l as [|x l IH]; intros s H k Hk; cbn [map fold_left].
  - destruct Hk as [[]|E]; exact E.
  - apply IH; [apply cnt_gossip_sound; [reflexivity..|exact H]|].
    cbn [cnt_step reps]. rewrite upd_same.
    destruct Hk as [[->|Hin]|E]; [right|left; exact Hin|right]; apply (merge_caught _ _ _ _ _ _ H); auto.
Qed.

(** From any sound state, a replica that merges every node's state holds the totals. *)
Lemma merge_all_value s I D r nodes : cnt_sound s I D ->
  pn_value nodes (reps (fold_left cnt_step (map (CMerge r) nodes) s) r) = zsum (map I nodes) - zsum (map D nodes).
Proof. intros H. apply caught_value. intros k Hk. apply (merge_all_reaches s I D r nodes H). left; exact Hk. Qed.

Lemma lww_merge_idem a : lww_merge a a = a.
Proof. destruct a as [[t v]|]; cbn; [rewrite hlc_ltb_irrefl|]; reflexivity. Qed.

(** Associativity holds outright ("first maximal element" is associative). *)
Lemma lww_merge_assoc a b c : lww_merge (lww_merge a b) c = lww_merge a (lww_merge b c).
Proof.
  destruct a as [[ta va]|], b as [[tb vb]|], c as [[tc vc]|]; cbn; try reflexivity.
  - destruct (hlc_ltb ta tb) eqn:Eab, (hlc_ltb tb tc) eqn:Ebc; cbn; rewrite ?Eab, ?Ebc;
      first [ reflexivity
            | rewrite (hlc_ltb_trans _ _ _ Eab Ebc); reflexivity
            | rewrite (hlc_negtrans _ _ _ Eab Ebc); reflexivity ].
  - destruct (hlc_ltb tb tc); reflexivity.
Qed.

(** Commutativity needs timestamps to identify writes (they carry the node id
    and each node's HLC is strictly increasing — [c18_hlc_causal]). *)
Definition lww_consistent (a b : lww) : Prop :=
  match a, b with Some (ta, va), Some (tb, vb) => ta = tb -> va = vb | _, _ => True end.

Lemma lww_merge_comm a b : lww_consistent a b -> lww_merge a b = lww_merge b a.
Proof.
  destruct a as [[ta va]|], b as [[tb vb]|]; cbn; try reflexivity. intros Hc.
  destruct (hlc_ltb ta tb) eqn:E1, (hlc_ltb tb ta) eqn:E2; try reflexivity.
  - rewrite (hlc_ltb_asym _ _ E1) in E2. discriminate.
  - pose proof (hlc_total _ _ E1 E2) as ->. rewrite (Hc eq_refl). reflexivity.
Qed.

Definition lww_apply (r : lww) (w : Z * hlc_ts) : lww := lww_set (fst w) (snd w) r.

Lemma lww_set_spec v t r :
  exists t' v', lww_set v t r = Some (t', v') /\ (r = Some (t', v') \/ (t', v') = (t, v)) /\
    hlc_ltb t' t = false /\ (forall t0 v0, r = Some (t0, v0) -> hlc_ltb t' t0 = false).
Proof.
  destruct r as [[t0 v0]|]; cbn; [destruct (hlc_ltb t0 t) eqn:E|]; eexists _, _; (split; [reflexivity|]).
  - split; [right; reflexivity|]. split; [apply hlc_ltb_irrefl|].
    intros t1 v1 E1. injection E1 as <- <-. apply hlc_ltb_asym, E.
  - split; [left; reflexivity|]. split; [exact E|]. intros t1 v1 E1. injection E1 as <- <-. apply hlc_ltb_irrefl.
  - split; [right; reflexivity|]. split; [apply hlc_ltb_irrefl|discriminate].
Qed.

(** The register holds a write (or its initial content) whose timestamp no set
    applied to it exceeds. *)
Theorem lww_holds_greatest ws r0 :
  match fold_left lww_apply ws r0 with
  | None => ws = [] /\ r0 = None
  | Some (t, v) =>
      (r0 = Some (t, v) \/ In (v, t) ws) /\
      (forall v' t', In (v', t') ws -> hlc_ltb t t' = false) /\
      (forall t0 v0, r0 = Some (t0, v0) -> hlc_ltb t t0 = false)
  end.
Proof.
  revert r0; induction ws as [|[v1 t1] ws IH]; intros r0; cbn [fold_left].
  - destruct r0 as [[t v]|]; [|auto]. split; [auto|]. split; [intros ? ? []|].
    intros t0 v0 E; inversion E; subst. apply hlc_ltb_irrefl.
  - specialize (IH (lww_apply r0 (v1, t1))). change (lww_apply r0 (v1, t1)) with (lww_set v1 t1 r0) in *.
    destruct (lww_set_spec v1 t1 r0) as (t' & v' & E & Hsrc' & Hnew & Hold). rewrite E in *.
    destruct (fold_left lww_apply ws (Some (t', v'))) as [[t v]|]; [|destruct IH as [_ IH]; discriminate].
    (* [t] is not below [t'], which is below neither [t1] nor the initial stamp *)
    destruct IH as (Hsrc & Hmax & Hinit). specialize (Hinit _ _ eq_refl). split; [|split].
    + destruct Hsrc as [Hs|Hs]; [|right; right; exact Hs]. injection Hs as <- <-.
      destruct Hsrc' as [Hs'|Hs']; [left; exact Hs'|right; left; injection Hs' as -> ->; reflexivity].
    + intros v2 t2 [Hin|Hin]; [injection Hin as <- <-; exact (hlc_negtrans _ _ _ Hinit Hnew)|exact (Hmax _ _ Hin)].
    + intros t0 v0 E0. exact (hlc_negtrans _ _ _ Hinit (Hold _ _ E0)).
Qed.

Lemma ent_eqb_spec p q : ent_eqb p q = true <-> p = q.
Proof.
  destruct p as [e [n s]], q as [e' [n' s']]; unfold ent_eqb, tag_eqb; cbn. split.
  - intros H. assert (e = e' /\ n = n' /\ s = s') as (-> & -> & ->) by lia. reflexivity.
  - intros H; inversion H; subst. lia.
Qed.
Lemma ent_mem_spec p l : ent_mem p l = true <-> In p l.
Proof.
  unfold ent_mem. split.
  - intros H. apply existsb_exists in H as [q [Hin Heq]]. apply ent_eqb_spec in Heq. subst; exact Hin.
  - intros Hin. apply existsb_exists. exists p. split; [exact Hin|apply ent_eqb_spec; reflexivity].
Qed.

(** Merge laws of the structure the code implements (a grow-only map from
    element to tag set): as sets of (element, tag) pairs. *)
Lemma os_merge_comm a b p : In p (os_ent (os_merge a b)) <-> In p (os_ent (os_merge b a)).
Proof. cbn. split; intros H; apply in_or_app; apply in_app_or in H; tauto. Qed.
Lemma os_merge_assoc a b c p :
  In p (os_ent (os_merge (os_merge a b) c)) <-> In p (os_ent (os_merge a (os_merge b c))).
Proof. cbn. rewrite app_assoc. reflexivity. Qed.
Lemma os_merge_idem a p : In p (os_ent (os_merge a a)) <-> In p (os_ent a).
Proof. cbn. split; intros H; [apply in_app_or in H; tauto|apply in_or_app; auto]. Qed.

Lemma os_contains_spec e s : os_contains e s = true <-> exists t, In (e, t) (os_ent s).
Proof.
  unfold os_contains. split.
  - intros H. apply existsb_exists in H as [[e' t] [Hin Heq]]. cbn in Heq. apply Z.eqb_eq in Heq. subst. eauto.
  - intros [t Hin]. apply existsb_exists. exists (e, t). split; [exact Hin|cbn; apply Z.eqb_refl].
Qed.

(** Invariant relating the code's state with the specification state. *)
Definition os_rel (o : orset) (sp : spec_rep) : Prop :=
  (forall p, In p (os_ent o) -> In p (sp_obs sp)) /\
  (forall p, In p (sp_obs sp) -> ~ In p (sp_rem sp) -> In p (os_ent o)).

Definition os_sys_inv (s : os_sys) : Prop :=
  forall r, os_rel (oreps s r) (sreps s r) /\ os_rel (obox s r) (sbox s r).

Lemma os_rel_merge a sa b sb : os_rel a sa -> os_rel b sb -> os_rel (os_merge a b) (sp_merge sa sb).
Proof.
  intros [A1 A2] [B1 B2]. split; cbn; intros p H; apply in_app_or in H.
  - apply in_or_app. destruct H as [H|H]; [left; apply A1|right; apply B1]; exact H.
  - intros Hn. apply in_or_app. destruct H as [H|H]; [left; apply A2|right; apply B2]; try exact H;
      intros Hr; apply Hn, in_or_app; auto.
Qed.

Lemma os_rel_add e a sa : os_rel a sa ->
  os_rel (os_add e a) {| sp_obs := (e, (os_node a, os_seq a)) :: sp_obs sa; sp_rem := sp_rem sa |}.
Proof.
  intros [A1 A2]. split; cbn; intros p.
  - intros [E|Hin]; [left; exact E|right; apply A1; exact Hin].
  - intros [E|Hin] Hn; [left; exact E|right; apply A2; auto].
Qed.

Lemma os_rel_remove e a sa : os_rel a sa ->
  os_rel (os_remove e a) {| sp_obs := sp_obs sa; sp_rem := filter (fun p => fst p =? e) (sp_obs sa) ++ sp_rem sa |}.
Proof.
  intros [A1 A2]. split; cbn; intros p.
  - intros H. apply filter_In in H. apply A1, H.
  - intros Hin Hn. apply filter_In. split.
    + apply A2; [exact Hin|]. intros Hr. apply Hn, in_or_app. right; exact Hr.
    + destruct (fst p =? e) eqn:E; [|reflexivity]. exfalso. apply Hn, in_or_app. left. apply filter_In. auto.
Qed.

Lemma os_inv_rep s r0 c sp : os_sys_inv s -> os_rel c sp ->
  os_sys_inv {| oreps := upd (oreps s) r0 c; obox := obox s; sreps := upd (sreps s) r0 sp; sbox := sbox s |}.
Proof. intros H Hc r. split; [|apply H]. cbn. unfold upd. destruct (r =? r0); [exact Hc|apply H]. Qed.

Lemma os_inv_box s k c sp : os_sys_inv s -> os_rel c sp ->
  os_sys_inv {| oreps := oreps s; obox := upd (obox s) k c; sreps := sreps s; sbox := upd (sbox s) k sp |}.
Proof. intros H Hc r. split; [apply H|]. cbn. unfold upd. destruct (r =? k); [exact Hc|apply H]. Qed.

Lemma os_step_inv s o : os_sys_inv s -> os_sys_inv (os_step s o).
Proof.
  intros H. destruct o as [r0 e|r0 e|r0 r1|k r0|r0 k]; cbn [os_step].
  - apply os_inv_rep, os_rel_add, H; exact H.
  - apply os_inv_rep, os_rel_remove, H; exact H.
  - apply os_inv_rep, os_rel_merge; [exact H|apply H..].
  - apply os_inv_box, H; exact H.
  - apply os_inv_rep, os_rel_merge; [exact H|apply H..].
Qed.

Lemma os_run_inv ops : os_sys_inv (os_run ops).
Proof.
  unfold os_run. apply fold_left_inv; [exact os_step_inv|]. intros r; cbn. split; split; cbn; tauto.
Qed.

(** FULL STATEMENT (property C18, OR-set clause): the set contains an element
    exactly when some add of it was not observed by a remove. *)
Definition orset_add_wins_statement : Prop :=
  forall ops r e, os_contains e (oreps (os_run ops) r) = sp_contains e (sreps (os_run ops) r).

(** The history that refutes it on the faithful model ([c18_orset_add_wins_refuted]):
    A adds x; B merges A; A removes x; A merges B — x is back at A although its
    only add was observed by the remove. *)
Definition orset_witness : list os_op := [OAdd 0 7; OMerge 1 0; ORem 0 7; OMerge 0 1].

(** Non-vacuity of [c18_orset_no_lost_add_partial] (C18/Props.v): a history where the premise holds. *)
Example orset_partial_nonvacuous :
  sp_contains 7 (sreps (os_run [OAdd 0 7; OMerge 1 0; ORem 0 7; OAdd 1 7; OMerge 0 1]) 0) = true.
Proof. reflexivity. Qed.

Example counter_example_nonvacuous :
  pn_value [0; 1; 2] (reps (cnt_run ([CInc 0 5; CInc 1 3; CDec 2 4; CSnap 9 1; CInc 1 1; CMergeSnap 0 9]
                                      ++ map (CMerge 0) [0; 1; 2])) 0) = 5.
Proof. reflexivity. Qed.
