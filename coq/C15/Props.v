(** Property C15 — the theorems the check counts as obligations. *)
From HS Require Import Base.Prelude Base.Lists Base.PyLib C14.Model C14.LsmProofs C15.Model C15.Proofs C15.RestProofs Gen.WalGen C15.GenTie.
Local Open Scope Z_scope.

(** After a crash the log is exactly the entries with seq <= synced_up_to. *)
Theorem c15_wal_prefix_durable : forall w e,
  In e (w_entries (wal_crash w)) <-> In e (w_entries w) /\ e_seq e <= w_synced w.
Proof. intros w e. unfold wal_crash. cbn. rewrite filter_In. split; intros [A B]; (split; [assumption|lia]). Qed.
Print Assumptions c15_wal_prefix_durable.

(** Recovering twice gives the same state as recovering once (any state whose
    memtable is a sorted dict; in particular right after a crash). *)
Theorem c15_recover_idempotent : forall d, ssorted (c_mem (d_lsm d)) -> d_recover (d_recover d) = d_recover d.
Proof.
  intros d H. unfold d_recover. cbn [d_lsm d_wal c_mem c_mid c_imm c_levels c_ncomp c_nflush c_next].
  rewrite (replay_idem _ _ H). reflexivity.
Qed.
Print Assumptions c15_recover_idempotent.

Theorem c15_recover_after_crash_idempotent : forall d, d_recover (d_recover (d_crash d)) = d_recover (d_crash d).
Proof. intros d. apply c15_recover_idempotent. exact I. Qed.
Print Assumptions c15_recover_after_crash_idempotent.

(** Durability at rest (crash between operations of a sequential workload
    through the generator API, SyncEveryWrite): the recovered tree reads exactly
    the reference map, for every configuration and compaction strategy. *)
Theorem c15_durable_at_rest : forall bl, (forall ks x, In x ks -> bl ks x = true) ->
  forall c fuel nows ws d', (nlev c >= 1)%nat ->
  d_seq_exec fuel c SyncEvery bl nows (d_init c) ws = Some d' ->
  forall k, d_get bl (d_recover (d_crash d')) k = spec_of (map to_op ws) k.
Proof.
  intros bl Hb c fuel nows ws d' Hn H k.
  destruct (crash_at_rest bl Hb c SyncEvery fuel nows ws d' Hn H) as (j & _ & _ & E & C).
  rewrite C, (E eq_refl), <- (map_length to_op ws). rewrite firstn_all. reflexivity.
Qed.
Print Assumptions c15_durable_at_rest.

(** Crash at rest, ANY sync policy (every write, batch, periodic), any clock:
    the recovered tree reads as the reference map after a prefix of the workload
    of length [j] with synced_up_to <= [j]. *)
Theorem c15_durable_at_rest_prefix : forall bl, (forall ks x, In x ks -> bl ks x = true) ->
  forall c p fuel nows ws d', (nlev c >= 1)%nat ->
  d_seq_exec fuel c p bl nows (d_init c) ws = Some d' ->
  exists j : nat, w_synced (d_wal d') <= Z.of_nat j /\ (j <= length ws)%nat /\
    forall k, d_get bl (d_recover (d_crash d')) k = spec_of (firstn j (map to_op ws)) k.
Proof.
  intros bl Hb c p fuel nows ws d' Hn H.
  destruct (crash_at_rest bl Hb c p fuel nows ws d' Hn H) as (j & A & B & _ & C). exists j. auto.
Qed.
Print Assumptions c15_durable_at_rest_prefix.

(** Durability at ANY crash point: REFUTED on the faithful model (known finding
    C15-wal-truncated-past-unflushed). *)
Theorem c15_durable_any_crash_point_refuted : ~ durable_statement.
Proof. exact durable_any_crash_point_refuted. Qed.
Print Assumptions c15_durable_any_crash_point_refuted.

(** WriteAheadLog.crash / truncate / recover / synced_up_to / size and the two integer
    sync policies of components/storage/wal.py, as REGENERATED from the source on every
    run (Gen/WalGen.v), refine the WAL model, for ANY encoding [venc] of stored values and
    any timestamps [ts] (the WAL never looks at either): on the code object of a model WAL
    each method leaves the object of the model's next WAL and returns the model's result;
    [recover()] (Python's stable sort by sequence number) is the model's sort whenever
    sequence numbers are distinct. *)
Theorem c15_code_wal_refines_model : forall (venc : sval -> Z) (ts : wentry -> Z) w rec up n ws t,
  WriteAheadLog_crash (wal_obj venc ts w rec)
    = (wal_obj venc ts (wal_crash w) rec, zlen (w_entries w) - zlen (w_entries (wal_crash w)))
  /\ WriteAheadLog_truncate (wal_obj venc ts w rec) up = (wal_obj venc ts (wal_truncate w up) rec, tt)
  /\ (WriteAheadLog_synced_up_to (wal_obj venc ts w rec) = w_synced w
      /\ WriteAheadLog_size (wal_obj venc ts w rec) = zlen (w_entries w))
  /\ (NoDup (map e_seq (w_entries w)) ->
      WriteAheadLog_recover (wal_obj venc ts w rec)
      = (wal_obj venc ts w (zlen (w_entries w)), map (eenc venc ts) (sort_seq (w_entries w))))
  /\ (SyncEveryWrite_should_sync mkSyncEveryWrite ws t = should_sync SyncEvery ws t
      /\ SyncOnBatch_should_sync (mkSyncOnBatch n) ws t = should_sync (SyncBatch n) ws t).
Proof.
  intros venc ts w rec up n ws t.
  exact (conj (tie_wal_crash venc ts w rec) (conj (tie_wal_truncate venc ts w rec up) (conj (tie_wal_read venc ts w rec)
        (conj (tie_wal_recover venc ts w rec) (tie_should_sync n ws t))))).
Qed.
Print Assumptions c15_code_wal_refines_model.

(** WriteAheadLog.crash AS TRANSLATED, for any log object: afterwards the log holds
    exactly the entries numbered up to [synced_up_to], in their old order (the durable
    prefix: nothing synced is lost, nothing unsynced survives); the synced mark is
    unchanged; the returned count is the number of entries lost; crashing again changes
    nothing more. *)
Theorem c15_code_wal_crash_keeps_exactly_the_synced_entries : forall L : WriteAheadLog,
  let '(L', lost) := WriteAheadLog_crash L in
  WriteAheadLog__entries L' = filter (fun e => WALEntry_sequence_number e <=? WriteAheadLog_synced_up_to L) (WriteAheadLog__entries L)
  /\ (forall e, In e (WriteAheadLog__entries L') <->
        In e (WriteAheadLog__entries L) /\ WALEntry_sequence_number e <= WriteAheadLog_synced_up_to L)
  /\ WriteAheadLog_synced_up_to L' = WriteAheadLog_synced_up_to L
  /\ lost = WriteAheadLog_size L - WriteAheadLog_size L' /\ 0 <= lost
  /\ WriteAheadLog__entries (fst (WriteAheadLog_crash L')) = WriteAheadLog__entries L'.
Proof.
  intros L. unfold WriteAheadLog_crash, WriteAheadLog_synced_up_to, WriteAheadLog_size. cbn.
  set (p := fun e => WALEntry_sequence_number e <=? WriteAheadLog__synced_up_to_sequence L).
  pose proof (filter_length_le p (WriteAheadLog__entries L)).
  split; [reflexivity|]. split; [intros e; unfold p; rewrite filter_In; split; intros [A B]; (split; [exact A|lia])|].
  split; [reflexivity|]. split; [reflexivity|]. split; [lia|apply filter_idem].
Qed.
Print Assumptions c15_code_wal_crash_keeps_exactly_the_synced_entries.

(** WriteAheadLog.truncate AS TRANSLATED removes exactly the entries numbered up to its argument. *)
Theorem c15_code_wal_truncate : forall (L : WriteAheadLog) n e,
  In e (WriteAheadLog__entries (fst (WriteAheadLog_truncate L n))) <->
  In e (WriteAheadLog__entries L) /\ n < WALEntry_sequence_number e.
Proof.
  intros L n e. unfold WriteAheadLog_truncate. cbn. rewrite filter_In. split; intros [A B]; (split; [exact A|lia]).
Qed.
Print Assumptions c15_code_wal_truncate.
