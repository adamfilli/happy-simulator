From HS Require Import Base.Prelude C09.Model.
Local Open Scope Z_scope.
Definition zlen {A} (l : list A) : Z := Z.of_nat (length l).
Arguments zlen : simpl never.

Lemma zlen_snoc {A} (l : list A) x : zlen (l ++ [x]) = zlen l + 1.
Proof. unfold zlen. rewrite app_length. cbn. lia. Qed.
Lemma zlen_cons {A} (x : A) l : zlen (x :: l) = 1 + zlen l.
Proof. unfold zlen. cbn [length]. lia. Qed.
Lemma zlen_nonneg {A} (l : list A) : 0 <= zlen l.
Proof. unfold zlen. lia. Qed.

Lemma assoc_remove_len c l v : assoc_find c l = Some v -> zlen (assoc_remove c l) = zlen l - 1.
Proof.
  unfold zlen. induction l as [|[i w] r IH]; cbn [assoc_find assoc_remove]; [discriminate|].
  destruct (i =? c); intros F; cbn [length]; [lia|]. specialize (IH F). lia.
Qed.

Lemma q_remove_len req q : q_mem req q = true -> zlen (q_remove req q) = zlen q - 1.
Proof.
  unfold zlen, q_mem. induction q as [|[[r e] i] rest IH]; cbn [existsb q_remove fst]; [discriminate|].
  destruct (r =? req) eqn:E; cbn [orb length]; intros M; [lia|]. specialize (IH M). lia.
Qed.

(** active <= max_concurrent counts the requests in flight, the queue is bounded,
    every request is in exactly one of {forwarded, rejected, timed out, queued},
    and nobody is queued while a slot is free. *)
Record binv (mx mq : Z) (s : bstate) : Prop := {
  bi_mx : b_max s = mx;
  bi_mq : b_maxq s = mq;
  bi_act : b_active s = zlen (b_inflight s);
  bi_le : b_active s <= mx;
  bi_q : zlen (b_queue s) <= mq;
  bi_cons : b_total s = b_accepted s + b_rejected s + b_timedout s + zlen (b_queue s);
  bi_strand : b_queue s = [] \/ b_active s >= mx;
}.

Lemma binv_init mx mq mw : 0 <= mx -> 0 <= mq -> binv mx mq (b_init mx mq mw).
Proof. intros; constructor; unfold zlen; cbn; auto; lia. Qed.

(** The drain loop on the rest [q] of the queue, [k] expired heads already skipped. *)
Lemma b_drain_inv mx mq now : forall q s k,
  b_max s = mx -> b_maxq s = mq -> b_active s = zlen (b_inflight s) -> b_active s <= mx ->
  zlen q <= mq -> b_total s = b_accepted s + b_rejected s + b_timedout s + k + zlen q ->
  q = [] \/ b_active s + 1 >= mx -> binv mx mq (fst (b_drain s now q k)).
Proof.
  induction q as [|[[req enq] item] rest IH]; intros s k Em Eq Ha Hle Hq Hc Hs; cbn [b_drain].
  - constructor; cbn; auto; lia.
  - rewrite zlen_cons in *. destruct Hs as [Hs|Hs]; [discriminate|].
    destruct (b_active s >=? b_max s) eqn:E.
    + constructor; cbn; auto; rewrite ?zlen_cons; lia.
    + destruct (b_expired s now enq).
      * apply IH; auto; lia.
      * constructor; cbn; auto; rewrite ?zlen_snoc; lia.
Qed.

Lemma binv_step mx mq s o : binv mx mq s -> binv mx mq (fst (b_step s o)).
Proof.
  intros I. pose proof I as [Em Eq Ha Hle Hq Hc Hs]. destruct o as [item now|req now|req now]; cbn [b_step].
  - destruct (b_active s <? b_max s) eqn:E1.
    + constructor; cbn; auto; rewrite ?zlen_snoc; try lia. destruct Hs; [left; assumption|lia].
    + destruct (Z.of_nat (length (b_queue s)) <? b_maxq s) eqn:E2; constructor; cbn; auto; rewrite ?zlen_snoc; unfold zlen in *; lia.
  - destruct (assoc_find req (b_inflight s)) as [it|] eqn:F; [|exact I].
    pose proof (assoc_remove_len _ _ _ F). pose proof (zlen_nonneg (assoc_remove req (b_inflight s))).
    apply b_drain_inv; cbn; auto; try lia. destruct Hs; [left; assumption|lia].
  - destruct (q_mem req (b_queue s)) eqn:M; [|exact I].
    pose proof (q_remove_len _ _ M). pose proof (zlen_nonneg (q_remove req (b_queue s))).
    constructor; cbn; auto; try lia. destruct Hs as [Hs|Hs]; [rewrite Hs in M; discriminate|right; exact Hs].
Qed.

Lemma binv_run mx mq ops : forall s, binv mx mq s -> binv mx mq (b_run s ops).
Proof. induction ops; cbn; intros; auto. apply IHops, binv_step; auto. Qed.

Lemma binv_reach mx mq mw ops : 0 <= mx -> 0 <= mq -> binv mx mq (b_run (b_init mx mq mw) ops).
Proof. intros H1 H2. apply binv_run, binv_init; assumption. Qed.
