(** C17 — chain replication: an acknowledged write is applied at every node; a
    read served by the tail returns a value applied at every node (invariant over
    every schedule of the step machine of Chain.v). *)
From HS Require Import Base.Prelude Base.Lists C17.Model C17.ListSurgery C17.PBProofs C17.Chain.
Local Open Scope Z_scope.

Lemma cmsg_eqb_eq a b : cmsg_eqb a b = true -> a = b.
Proof.
  destruct a, b; cbn; try discriminate; intros H;
    repeat (apply andb_true_iff in H; destruct H as [H ?]);
    repeat match goal with
           | H : (_ =? _) = true |- _ => apply Z.eqb_eq in H
           | H : Bool.eqb _ _ = true |- _ => apply eqb_prop in H
           end; subst; reflexivity.
Qed.

Lemma zmem_in k l : zmem k l = true <-> In k l.
Proof. apply existsb_eqb_In. Qed.

Notation cacc s := (k_accepted s).
Notation clog s i := (n_log (k_node s i)).
Definition ndata (nd : cnode) : data := (n_log nd, n_store nd).

(** (sq,k,v) has been applied at nodes 0 .. d-1 *)
Definition prefix (s : cstate) (d sq k v : Z) : Prop :=
  forall i, 0 <= i < d -> In (sq, k, v) (clog s i).

Definition cproc_ok (s : cstate) (p : cproc) : Prop :=
  match cp_pc p with
  | HWPut w k v sq _ => In (w, sq, k, v) (cacc s)
  | HWSent w k sq _ | HWWait w k sq _ => exists v, In (w, sq, k, v) (cacc s) /\ In (sq, k, v) (clog s 0)
  | PPut k v sq => 1 <= cp_node p /\ (exists w, In (w, sq, k, v) (cacc s)) /\ prefix s (cp_node p) sq k v
  | _ => True
  end.

Definition cmsg_ok (c : ccfg) (s : cstate) (m : cmsg) : Prop :=
  match m with
  | CProp d k v sq => 1 <= d /\ (exists w, In (w, sq, k, v) (cacc s)) /\ prefix s d sq k v
  | CAck k sq => exists w v, In (w, sq, k, v) (cacc s) /\ prefix s (cn c) sq k v
  | _ => True
  end.

Definition everywhere (c : ccfg) (s : cstate) (w sq : Z) : Prop :=
  exists k v, In (w, sq, k, v) (cacc s) /\ prefix s (cn c) sq k v.

Record CInv (c : ccfg) (s : cstate) : Prop := {
  ci_acc : acc_ok (n_seq (k_node s 0)) (cacc s);
  ci_net : forall m, In m (k_net s) -> cmsg_ok c s m;
  ci_procs : forall p, In p (k_procs s) -> cproc_ok s p;
  ci_res : forall sq, In sq (k_res s) -> exists w, everywhere c s w sq;
  ci_rep : forall w sq, In (w, sq) (k_replies s) -> everywhere c s w sq;
  ci_tail : forall sq k v, In (sq, k, v) (clog s (tail_of c)) -> prefix s (cn c) sq k v;
  ci_coh : forall i, coh (ndata (k_node s i));
  ci_reads : forall rid i k v, In (rid, i, k, Some v) (k_reads s) -> exists sq, In (sq, k, v) (clog s i);
}.

Definition cmono (s s' : cstate) : Prop :=
  incl (cacc s) (cacc s') /\ forall i, incl (clog s i) (clog s' i).

Lemma prefix_mono s s' d sq k v : cmono s s' -> prefix s d sq k v -> prefix s' d sq k v.
Proof. intros [_ Hl] H i Hi. apply Hl. auto. Qed.

Lemma cproc_ok_mono s s' p : cmono s s' -> cproc_ok s p -> cproc_ok s' p.
Proof.
  intros Hm. pose proof Hm as [Ha Hl]. unfold cproc_ok. destruct (cp_pc p); auto.
  - intros (v & H1 & H2). exists v; split; [auto|apply Hl; auto].
  - intros (v & H1 & H2). exists v; split; [auto|apply Hl; auto].
  - intros (H1 & (w & H2) & H3). split; [auto|]. split; [eauto|]. eapply prefix_mono; eauto.
Qed.

Lemma cmsg_ok_mono c s s' m : cmono s s' -> cmsg_ok c s m -> cmsg_ok c s' m.
Proof.
  intros Hm. pose proof Hm as [Ha Hl]. unfold cmsg_ok. destruct m; auto.
  - intros (H1 & (w & H2) & H3). split; [auto|]. split; [eauto|]. eapply prefix_mono; eauto.
  - intros (w & v & H1 & H2). exists w, v. split; [auto|]. eapply prefix_mono; eauto.
Qed.

Lemma everywhere_mono c s s' w sq : cmono s s' -> everywhere c s w sq -> everywhere c s' w sq.
Proof. intros Hm (k & v & H1 & H2). exists k, v. split; [apply Hm; exact H1|eapply prefix_mono; eauto]. Qed.

Lemma cinv_init c : CInv c cinit.
Proof.
  split; cbn; intros; try contradiction; try reflexivity; try discriminate. split; intros; contradiction.
Qed.

Lemma cinv_mono c s s' :
  CInv c s -> cmono s s' -> acc_ok (n_seq (k_node s' 0)) (cacc s') ->
  k_net s' = k_net s -> k_procs s' = k_procs s -> k_res s' = k_res s -> k_replies s' = k_replies s ->
  k_reads s' = k_reads s ->
  (forall sq k v, In (sq, k, v) (clog s' (tail_of c)) -> prefix s' (cn c) sq k v) ->
  (forall i, coh (ndata (k_node s' i))) -> CInv c s'.
Proof.
  intros [] M A En Ep Er Ey Ed T Ch. split; auto.
  - rewrite En. intros m H. apply (cmsg_ok_mono c s); auto.
  - rewrite Ep. intros p H. apply (cproc_ok_mono s); auto.
  - rewrite Er. intros sq H. destruct (ci_res0 sq H) as [w ?]. exists w. apply (everywhere_mono c s); auto.
  - rewrite Ey. intros w sq H. apply (everywhere_mono c s); auto.
  - rewrite Ed. intros rid i k v H. destruct (ci_reads0 _ _ _ _ H) as [sq ?]. exists sq. apply M. assumption.
Qed.

Lemma cmono_node s i nd : grows (ndata (k_node s i)) (ndata nd) -> cmono s (set_node s i nd).
Proof.
  intros G. split; [apply incl_refl|]. intros j. cbn [k_node set_node].
  destruct (Z.eq_dec j i) as [->|Hj]; [rewrite upd_same; exact (grows_incl _ _ G)|].
  rewrite upd_other by exact Hj. apply incl_refl.
Qed.

Lemma prefix_put s i nd sq k v :
  ndata nd = put (sq, k, v) (ndata (k_node s i)) -> prefix s i sq k v ->
  prefix (set_node s i nd) (i + 1) sq k v.
Proof.
  intros D Hp j Hj. cbn [k_node set_node]. destruct (Z.eq_dec j i) as [->|Hji].
  - rewrite upd_same. change (In (sq, k, v) (fst (ndata nd))). rewrite D. apply in_or_app; right; now left.
  - rewrite upd_other by exact Hji. apply Hp. lia.
Qed.

(** node [i] keeps its data, or completes the put of a write that every node
    before it has applied (so that the tail's log holds only writes applied everywhere) *)
Lemma cinv_node c s i nd :
  CInv c s -> n_seq (k_node s i) <= n_seq nd ->
  ndata nd = ndata (k_node s i) \/
  (exists sq k v, ndata nd = put (sq, k, v) (ndata (k_node s i)) /\ prefix s i sq k v) ->
  CInv c (set_node s i nd).
Proof.
  intros I Hs D.
  assert (G : grows (ndata (k_node s i)) (ndata nd)).
  { destruct D as [D|(sq & k & v & D & _)]; [left|right; exists (sq, k, v)]; exact D. }
  pose proof (cmono_node s i nd G) as M.
  apply (cinv_mono c s _ I M); try reflexivity; cbn [k_node set_node k_accepted].
  - destruct (Z.eq_dec 0 i) as [<-|H0]; [rewrite upd_same; exact (acc_ok_le _ _ _ (ci_acc c s I) Hs)|].
    rewrite upd_other by exact H0. apply I.
  - intros sq k v Hin.
    assert (Old : In (sq, k, v) (clog s (tail_of c)) -> prefix (set_node s i nd) (cn c) sq k v).
    { intros H. exact (prefix_mono s _ _ _ _ _ M (ci_tail c s I _ _ _ H)). }
    destruct (Z.eq_dec (tail_of c) i) as [E|E]; [|rewrite upd_other in Hin by exact E; exact (Old Hin)].
    rewrite E in Old. rewrite E, upd_same in Hin. change (In (sq, k, v) (fst (ndata nd))) in Hin.
    destruct D as [D|(sq0 & k0 & v0 & D & Hp)]; rewrite D in Hin; [exact (Old Hin)|].
    apply in_app_or in Hin. destruct Hin as [Hin|[Hin|[]]]; [exact (Old Hin)|]. injection Hin as <- <- <-.
    replace (cn c) with (i + 1) by (unfold tail_of in E; lia). exact (prefix_put s i nd _ _ _ D Hp).
  - intros j. destruct (Z.eq_dec j i) as [->|Hj]; [rewrite upd_same; exact (grows_coh _ _ G (ci_coh c s I i))|].
    rewrite upd_other by exact Hj. apply I.
Qed.

Lemma cinv_accepted c s x :
  CInv c s -> acc_ok (n_seq (k_node s 0)) (x :: cacc s) -> CInv c (set_accepted s (x :: cacc s)).
Proof.
  intros I A. apply (cinv_mono c s _ I); try reflexivity; try apply I; [|exact A].
  split; [apply incl_tl, incl_refl|intros i; apply incl_refl].
Qed.

Lemma cinv_bump c s : CInv c s -> CInv c (cbump s).
Proof. intros []; split; assumption. Qed.

Lemma cinv_procs c s l : CInv c s -> (forall p, In p l -> cproc_ok s p) -> CInv c (set_procs s l).
Proof. intros [] H; split; assumption. Qed.

Lemma cinv_net c s l : CInv c s -> (forall m, In m l -> cmsg_ok c s m) -> CInv c (set_net s l).
Proof. intros [] H; split; assumption. Qed.

Lemma cinv_resolve c s w sq : CInv c s -> everywhere c s w sq -> CInv c (set_res s (sq :: k_res s)).
Proof.
  intros [] R; split; try assumption. intros sq0 [<-|H]; [exists w; exact R|exact (ci_res0 _ H)].
Qed.

Lemma cinv_reply c s w sq rf : CInv c s -> everywhere c s w sq -> CInv c (c_reply s w sq rf).
Proof.
  intros I R. destruct rf; [|exact I]. destruct I. split; try assumption.
  intros w0 sq0 [E|H]; [injection E as <- <-; exact R|exact (ci_rep0 _ _ H)].
Qed.

Lemma cinv_read c s rid i k :
  CInv c s -> CInv c (set_reads s ((rid, i, k, dget k (n_store (k_node s i))) :: k_reads s)).
Proof.
  intros I. pose proof (ci_coh c s I i : n_store _ = _) as Ch. destruct I. split; try assumption.
  intros rid0 i0 k0 v0 [E|H]; [|exact (ci_reads0 _ _ _ _ H)].
  (* a stored value was put: the store is the replay of the log *)
  injection E as _ <- <- E. rewrite Ch in E. exact (replay_log_get _ _ _ E).
Qed.

Lemma cinv_spawn c s n pcv :
  CInv c s -> cproc_ok s {| cp_id := k_next s; cp_node := n; cp_pc := pcv |} -> CInv c (cspawn s n pcv).
Proof.
  intros I H. apply cinv_bump, cinv_procs; [exact I|].
  intros p Hin. apply in_app_or in Hin. destruct Hin as [Hin|[<-|[]]]; [exact (ci_procs c s I p Hin)|exact H].
Qed.

Lemma cinv_del c s pid p :
  CInv c s -> cfind pid (k_procs s) = Some p -> CInv c (set_procs s (cdel pid (k_procs s))).
Proof. intros I F. apply cinv_procs; [exact I|]. intros q Hin. apply I. exact (in_tdel F Hin). Qed.

Lemma cinv_set c s pid p pcv :
  CInv c s -> cfind pid (k_procs s) = Some p ->
  cproc_ok s {| cp_id := pid; cp_node := cp_node p; cp_pc := pcv |} ->
  CInv c (set_procs s (cset pid pcv (k_procs s))).
Proof.
  intros I F H. apply cinv_procs; [exact I|].
  intros q Hin. destruct (in_tset F Hin) as [Hq| ->]; [apply I; exact Hq|exact H].
Qed.

Lemma cinv_take c s m l : CInv c s -> ctake m (k_net s) = Some l -> CInv c (set_net s l).
Proof. intros I T. apply cinv_net; [exact I|]. intros x Hx. apply I. exact (proj2 (gtake_in cmsg_eqb_eq T) x Hx). Qed.

Lemma cinv_send c s l : CInv c s -> (forall m, In m l -> cmsg_ok c s m) -> CInv c (set_net s (k_net s ++ l)).
Proof.
  intros I H. apply cinv_net; [exact I|]. intros m Hin. apply in_app_or in Hin. destruct Hin; [apply I|]; auto.
Qed.

Lemma cinv_read_start c s i r k rf : CInv c s -> CInv c (fst (fst (c_read_start c s i r k rf))).
Proof.
  intros I. unfold c_read_start.
  destruct (cc_craq c && negb (is_tail c i) && zmem k (n_dirty (k_node s i))).
  - apply cinv_spawn; [|exact Logic.I]. apply cinv_send; [exact I|intros m [<-|[]]; exact Logic.I].
  - apply cinv_spawn; [|exact Logic.I]. apply cinv_node; [exact I|apply Z.le_refl|left; reflexivity].
Qed.

Lemma cinv_start c s n m : CInv c s -> after (CInv c) (cstart c s n m).
Proof.
  intros I. unfold cstart. destruct (is_node c n); [|exact Logic.I].
  destruct m as [w k v rf|r k rf|r k rf|d k v sq|k sq|d k sq|].
  - unfold c_write_start. destruct (n =? 0); [|apply cinv_bump, I].
    apply cinv_spawn; [|cbn; now left]. apply (cinv_accepted c (set_node s 0 _)).
    + apply cinv_node; [exact I|cbn; lia|left; reflexivity].
    + cbn [k_node set_node]. rewrite upd_same. exact (acc_ok_cons _ _ w k v (ci_acc c s I)).
  - apply cinv_read_start, I.
  - destruct (is_tail c n); [|exact Logic.I].
    destruct (ctake (CFwdRead r k rf) (k_net s)) as [net'|] eqn:T; [|exact Logic.I].
    apply cinv_read_start. exact (cinv_take _ _ _ _ I T).
  - destruct (d =? n) eqn:Ed; [|exact Logic.I]. apply Z.eqb_eq in Ed; subst d.
    destruct (ctake (CProp n k v sq) (k_net s)) as [net'|] eqn:T; [|exact Logic.I].
    unfold c_prop_start.
    pose proof (ci_net c s I _ (proj1 (gtake_in cmsg_eqb_eq T))) as Hok.
    apply cinv_spawn; [apply cinv_node; [exact (cinv_take _ _ _ _ I T)|apply Z.le_refl|left; reflexivity]|].
    apply (cproc_ok_mono (set_net s net')); [apply cmono_node; left; reflexivity|exact Hok].
  - destruct (n =? 0); [|exact Logic.I].
    destruct (ctake (CAck k sq) (k_net s)) as [net'|] eqn:T; [|exact Logic.I].
    unfold c_ack.
    pose proof (cinv_take _ _ _ _ I T) as I1.
    destruct (zmem sq (n_pending (k_node (set_net s net') n)) && negb (zmem sq (k_res (set_net s net'))));
      apply cinv_bump; [|exact I1].
    destruct (ci_net c s I _ (proj1 (gtake_in cmsg_eqb_eq T))) as (w & v & Hok).
    apply (cinv_resolve c _ w); [exact I1|]. exists k, v. exact Hok.
  - destruct (d =? n); [|exact Logic.I].
    destruct (ctake (CCommit d k sq) (k_net s)) as [net'|] eqn:T; [|exact Logic.I].
    unfold c_commit. pose proof (cinv_take _ _ _ _ I T) as I1.
    destruct (cc_craq c); apply cinv_bump; [|exact I1].
    apply cinv_node; [exact I1|apply Z.le_refl|left; reflexivity].
  - apply cinv_bump, I.
Qed.

(** a put completes at node [i] (head write or propagated write), one message
    goes out and the handler moves on *)
Lemma cinv_put_send c s pid p i nd' sq k v m pcv :
  CInv c s -> cfind pid (k_procs s) = Some p ->
  ndata nd' = put (sq, k, v) (ndata (k_node s i)) -> n_seq (k_node s i) <= n_seq nd' -> prefix s i sq k v ->
  (prefix (set_node s i nd') (i + 1) sq k v ->
   cmsg_ok c (set_node s i nd') m /\ cproc_ok (set_node s i nd') {| cp_id := pid; cp_node := cp_node p; cp_pc := pcv |}) ->
  CInv c (set_procs (set_net (set_node s i nd') (k_net s ++ [m]))
            (cset pid pcv (k_procs (set_net (set_node s i nd') (k_net s ++ [m]))))).
Proof.
  intros I F D Hs Hp H. destruct (H (prefix_put s i nd' sq k v D Hp)) as [Hm Hq].
  apply (cinv_set c _ pid p); [|exact F|exact Hq].
  apply (cinv_send c (set_node s i nd')); [|intros x [<-|[]]; exact Hm].
  apply cinv_node; [exact I|exact Hs|right; exists sq, k, v; split; assumption].
Qed.

Lemma cinv_h_put_done c s pid p w k v sq rf :
  CInv c s -> cfind pid (k_procs s) = Some p -> In (w, sq, k, v) (cacc s) ->
  CInv c (fst (fst (h_put_done c s pid w k v sq rf))).
Proof.
  intros I F Ha. unfold h_put_done. cbv zeta.
  apply (cinv_put_send c s pid p 0 _ sq k v); [exact I|exact F|reflexivity|apply Z.le_refl| |].
  - intros j Hj. lia.
  - intros P1. split.
    + split; [lia|]. split; [exists w; exact Ha|exact P1].
    + exists v. split; [exact Ha|apply P1; lia].
Qed.

Lemma cinv_h_acked c s pid p w k sq rf :
  CInv c s -> cfind pid (k_procs s) = Some p -> everywhere c s w sq ->
  CInv c (fst (fst (h_acked c s pid w k sq rf))).
Proof.
  intros I F R. unfold h_acked. cbv zeta. set (nd' := nd_upd _ _ _ _ _ _ _ _ _ _ _).
  assert (I1 : CInv c (set_node s 0 nd')) by (apply cinv_node; [exact I|apply Z.le_refl|left; reflexivity]).
  apply cinv_reply; [exact (cinv_del c _ pid p I1 F)|].
  exact (everywhere_mono c s _ w sq (cmono_node s 0 nd' (or_introl eq_refl)) R).
Qed.

(** the tail acknowledges to the head, another node passes the write on *)
Lemma cinv_p_put_done c s pid p k v sq :
  CInv c s -> cfind pid (k_procs s) = Some p -> cp_pc p = PPut k v sq ->
  CInv c (fst (fst (p_put_done c s pid (cp_node p) k v sq))).
Proof.
  intros I F Epc. pose proof (ci_procs c s I p (tfind_in F)) as Hok.
  unfold cproc_ok in Hok. rewrite Epc in Hok. destruct Hok as (Hge & (w & Ha) & Hp).
  set (i := cp_node p) in *. unfold p_put_done. cbv zeta.
  destruct (is_tail c i) eqn:Et;
    (apply (cinv_put_send c s pid p i _ sq k v); [exact I|exact F|reflexivity|apply Z.le_refl|exact Hp|]);
    intros P1; (split; [|exact Logic.I]).
  - exists w, v. split; [exact Ha|]. apply Z.eqb_eq in Et. unfold tail_of in Et.
    replace (cn c) with (i + 1) by lia. exact P1.
  - split; [lia|]. split; [exists w; exact Ha|exact P1].
Qed.

Lemma cinv_t_acked c s pid p k sq :
  CInv c s -> cfind pid (k_procs s) = Some p -> CInv c (fst (fst (t_acked c s pid (cp_node p) k sq))).
Proof.
  intros I F. unfold t_acked. destruct (cc_craq c); [|exact (cinv_del c s pid p I F)]. cbv zeta.
  set (nd' := nd_upd _ _ _ _ _ _ _ _ _ _ _). set (ms := map _ _).
  assert (I1 : CInv c (set_net (set_node s (cp_node p) nd') (k_net s ++ ms))).
  { apply (cinv_send c (set_node s (cp_node p) nd')).
    - apply cinv_node; [exact I|apply Z.le_refl|left; reflexivity].
    - intros m Hin. apply in_map_iff in Hin. destruct Hin as (j & <- & _). exact Logic.I. }
  clearbody ms. destruct ms.
  - exact (cinv_del c _ pid p I1 F).
  - exact (cinv_set c _ pid p PNotified I1 F Logic.I).
Qed.

Lemma cinv_resume c s pid : CInv c s -> after (CInv c) (cresume c s pid).
Proof.
  intros I. unfold cresume.
  destruct (cfind pid (k_procs s)) as [p|] eqn:F; [|exact Logic.I].
  pose proof (ci_procs c s I p (tfind_in F)) as Hok. unfold cproc_ok in Hok.
  (* [PFwd], [PNotified], [RFwd] only end *)
  destruct (cp_pc p) as [w k v sq rf|w k sq rf|w k sq rf|k v sq| |k sq| |r k rf| ] eqn:Epc;
    try exact (cinv_del c s pid p I F).
  - exact (cinv_h_put_done c s pid p w k v sq rf I F Hok).
  - exact (cinv_set c s pid p (HWWait w k sq rf) I F Hok).
  - destruct (zmem sq (k_res s)) eqn:R; [|exact Logic.I]. apply zmem_in in R.
    apply (cinv_h_acked c s pid p w k sq rf I F).
    (* the resolved future and the waiting handler speak of the same accepted write *)
    destruct (ci_res c s I _ R) as (w' & k' & v' & Ha & Hp). destruct Hok as (v & Hacc & _).
    destruct (proj2 (ci_acc c s I) _ _ _ _ _ _ _ Hacc Ha) as (-> & _). exists k', v'. auto.
  - exact (cinv_p_put_done c s pid p k v sq I F Epc).
  - exact (cinv_t_acked c s pid p k sq I F).
  - exact (cinv_read c _ r (cp_node p) k (cinv_del c s pid p I F)).
Qed.

Lemma cinv_step c s i : CInv c s -> after (CInv c) (cstep c s i).
Proof. destruct i; [apply cinv_start|apply cinv_resume]. Qed.

Lemma cinv_run c sched s s' : CInv c s -> crun c s sched = Some s' -> CInv c s'.
Proof. exact (grun_inv (fun _ _ => true) (fun s i I _ => cinv_step c s i I) sched s s'). Qed.
