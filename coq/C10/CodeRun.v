(** C10 — the REGENERATED policy code ([Gen/PolicyGen.v]), driven through any
    sequence of try_acquire / time_until_available calls, produces exactly the
    grants of the hand-written models, so that the models' rate bounds hold for the
    translated code itself ([c10_code_*] in C10/Props.v). *)
From HS Require Import Base.Prelude C10.Model C10.QFacts Gen.PolicyGen C10.GenTie.
Local Open Scope Z_scope.

Section StepSim.
  Variables SA SB : Type.
  Variable stepA : SA -> pop -> SA * Z.
  Variable stepB : SB -> pop -> SB * Z.
  Variable R : SA -> SB -> Prop.
  Hypothesis step_ok : forall a b o, R a b ->
    R (fst (stepA a o)) (fst (stepB b o)) /\ snd (stepA a o) = snd (stepB b o).

  Lemma run_count_sim ops : forall a b, R a b ->
    R (fst (run_count granted stepA a ops)) (fst (run_count granted stepB b ops))
    /\ snd (run_count granted stepA a ops) = snd (run_count granted stepB b ops).
  Proof.
    induction ops as [|o r IH]; intros a b H; [split; [exact H|reflexivity]|].
    destruct (step_ok a b o H) as [H1 H2]. destruct (IH _ _ H1) as [H3 H4].
    rewrite !run_count_fst, !run_count_snd, H2, H4. split; [exact H3|reflexivity].
  Qed.

  Lemma run_times_sim ops : forall a b, R a b -> run_times stepA a ops = run_times stepB b ops.
  Proof.
    induction ops as [|o r IH]; intros a b H; [reflexivity|].
    destruct (step_ok a b o H) as [H1 H2]. rewrite !run_times_cons, H2, (IH _ _ H1). reflexivity.
  Qed.
End StepSim.
Arguments run_count_sim {SA SB stepA stepB R} step_ok ops a b _.
Arguments run_times_sim {SA SB stepA stepB R} step_ok ops a b _.

(** A tie lemma of C10/GenTie.v has the form [(abs (fst r), snd r) = m /\ cfg (fst r) = cfg a] for the result [r] of
    a method on the object [a] and the result [m] of the model function: the call keeps "[abs] of the object is the
    model state and [cfg] of it the parameters" and gives the model's answer ([f]: what the step makes of the answer). *)
Lemma tie_rel {SA SB C X} (abs : SA -> SB) (cfg : SA -> C) (f : X -> Z) (a : SA) (r : SA * X) (m : SB * X) :
  (abs (fst r), snd r) = m /\ cfg (fst r) = cfg a ->
  let step (S : Type) (r : S * X) : S * Z := let '(s, x) := r in (s, f x) in
  (abs (fst (step _ r)) = fst (step _ m) /\ cfg (fst (step _ r)) = cfg a) /\ snd (step _ r) = snd (step _ m).
Proof. intros [<- H]. destruct r. cbn. auto. Qed.

Lemma tie_rel_id {SA SB C} (abs : SA -> SB) (cfg : SA -> C) (a : SA) (r : SA * Z) (m : SB * Z) :
  (abs (fst r), snd r) = m /\ cfg (fst r) = cfg a -> (abs (fst r) = fst m /\ cfg (fst r) = cfg a) /\ snd r = snd m.
Proof. intros [<- H]. auto. Qed.

Section Code.
  Variable O : numops.

  Definition tb_code_step (s : TokenBucketPolicy O) (o : pop) : TokenBucketPolicy O * Z :=
    match o with
    | Acq t => let '(s', b) := TokenBucketPolicy_try_acquire O s t in (s', b2z b)
    | Tua t => TokenBucketPolicy_time_until_available O s t
    end.

  Definition tb_rel (p : tbp O) (a : TokenBucketPolicy O) (b : tbs O) : Prop := tb_abs O a = b /\ tb_par O a = p.

  Lemma tb_code_step_ok p a b o : tb_rel p a b ->
    tb_rel p (fst (tb_code_step a o)) (fst (tb_step O p b o))
    /\ snd (tb_code_step a o) = snd (tb_step O p b o).
  Proof.
    intros [<- <-]. destruct o as [t|t].
    - exact (tie_rel (tb_abs O) (tb_par O) b2z a _ _ (tie_tb_acquire O a t)).
    - exact (tie_rel_id (tb_abs O) (tb_par O) a _ _ (tie_tb_tua O a t)).
  Qed.

  Definition lk_code_step (s : LeakyBucketPolicy O) (o : pop) : LeakyBucketPolicy O * Z :=
    match o with
    | Acq t => let '(s', b) := LeakyBucketPolicy_try_acquire O s t in (s', b2z b)
    | Tua t => (s, LeakyBucketPolicy_time_until_available O s t)
    end.

  Definition lk_rel (iv : Model.num O) (a : LeakyBucketPolicy O) (b : option Z) : Prop :=
    LeakyBucketPolicy__last_leak_time O a = b /\ LeakyBucketPolicy__leak_interval O a = iv.

  Lemma lk_code_step_ok iv a b o : lk_rel iv a b ->
    lk_rel iv (fst (lk_code_step a o)) (fst (lk_step O iv b o))
    /\ snd (lk_code_step a o) = snd (lk_step O iv b o).
  Proof.
    intros [<- <-]. destruct o as [t|t].
    - exact (tie_rel _ (LeakyBucketPolicy__leak_interval O) b2z a _ _ (tie_lk_acquire O a t)).
    - cbn. rewrite tie_lk_tua. repeat split; reflexivity.
  Qed.

  Definition sw_code_step (s : SlidingWindowPolicy O) (o : pop) : SlidingWindowPolicy O * Z :=
    match o with
    | Acq t => let '(s', b) := SlidingWindowPolicy_try_acquire O s t in (s', b2z b)
    | Tua t => match SlidingWindowPolicy_time_until_available O s t with
               | Some r => r
               | None => (s, -1)              (* IndexError: empty log with max_requests <= 0 *)
               end
    end.

  Definition sw_rel (wn n : Z) (a : SlidingWindowPolicy O) (b : list Z) : Prop :=
    SlidingWindowPolicy__request_log O a = b /\ sw_cfg O a = (wn, n).

  Lemma sw_code_step_ok wn n a b o : 0 < n -> sw_rel wn n a b ->
    sw_rel wn n (fst (sw_code_step a o)) (fst (sw_step O wn n b o))
    /\ snd (sw_code_step a o) = snd (sw_step O wn n b o).
  Proof.
    intros Hn [<- Hc]. injection Hc as <- <-. destruct o as [t|t].
    - exact (tie_rel _ (sw_cfg O) b2z a _ _ (tie_sw_acquire O a t)).
    - cbn [sw_code_step]. destruct (tie_sw_tua O a t Hn) as (r & -> & T). exact (tie_rel_id _ (sw_cfg O) a _ _ T).
  Qed.

  Definition fw_code_step (s : FixedWindowPolicy O) (o : pop) : FixedWindowPolicy O * Z :=
    match o with
    | Acq t => let '(s', b) := FixedWindowPolicy_try_acquire O s t in (s', b2z b)
    | Tua t => FixedWindowPolicy_time_until_available O s t
    end.

  Definition fw_rel (wn n : Z) (a : FixedWindowPolicy O) (b : fws) : Prop := fw_abs O a = b /\ fw_cfg O a = (wn, n).

  Lemma fw_code_step_ok wn n a b o : fw_rel wn n a b ->
    fw_rel wn n (fst (fw_code_step a o)) (fst (fw_step O wn n b o))
    /\ snd (fw_code_step a o) = snd (fw_step O wn n b o).
  Proof.
    intros [<- Hc]. injection Hc as <- <-. destruct o as [t|t].
    - exact (tie_rel (fw_abs O) (fw_cfg O) b2z a _ _ (tie_fw_acquire O a t)).
    - exact (tie_rel_id (fw_abs O) (fw_cfg O) a _ _ (tie_fw_tua O a t)).
  Qed.
End Code.
