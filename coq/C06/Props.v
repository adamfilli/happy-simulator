(** Property C06 — injected faults act exactly during their windows and
    isolate only their target.

    [write] ranges over the activation closures of the register faults:
    [crash_write] (CrashNode/PauseNode), [lat_write] (InjectLatency),
    [loss_write] (InjectPacketLoss), [capv_write] (ReduceCapacity's capacity). *)
From HS Require Import Base.Prelude C06.Model C06.Registers C06.Partition C06.Capacity C06.Dispatch.
Local Open Scope Z_scope.

(** Outside every window the target has its configured setting — for EVERY
    schedule in which no window ends before it starts ([wf]), overlapping or
    not, with cancels and permanent crashes ("once every window has ended the
    system is back to its configured state"; "processing resumes from the
    restart time"). *)
Theorem c06_back_to_configured : forall write cfg sched, wf sched ->
  forall x t, active sched x t = false -> reg_at write cfg sched t x = cfg x.
Proof.
  intros write cfg sched Hwf x t Hact. rewrite reg_at_last.
  destruct (last_rel (rel_tgt x) (upto t (delivered sched))) as [e|] eqn:L; [|reflexivity].
  unfold wr. now rewrite (last_is_off (relw_tgt x) (rel_tgt x) (fun _ _ => eq_refl) (fun _ _ _ => eq_refl) sched t Hwf Hact e L).
Qed.
Print Assumptions c06_back_to_configured.

(** An effect is only ever present while a window on that target is active. *)
Theorem c06_effect_only_while_active : forall write cfg sched, wf sched ->
  forall x t, reg_at write cfg sched t x <> cfg x -> active sched x t = true.
Proof.
  intros write cfg sched Hwf x t H. destruct (active sched x t) eqn:A; [reflexivity|].
  exfalso. apply H. now apply c06_back_to_configured.
Qed.
Print Assumptions c06_effect_only_while_active.

(** PARTIAL (windows on the target strictly separated): the fault is in effect
    during the whole window. *)
Theorem c06_effect_while_active_partial : forall write cfg sched x, wf sched -> separated sched x ->
  forall w t, In w sched -> w_tgt w = x -> covers w t = true ->
  reg_at write cfg sched t x = write (cfg x) (w_p w).
Proof.
  intros write cfg sched x Hwf Hsep w t Hw Htgt Hcov.
  assert (Hrel : relw_tgt x w = true) by (unfold relw_tgt; lia).
  destruct (last_is_own_on (relw_tgt x) (rel_tgt x) (fun _ _ => eq_refl) (fun _ _ _ => eq_refl)
              sched Hwf Hsep w t Hw Hrel Hcov) as (k & _ & L).
  rewrite reg_at_last, L. reflexivity.
Qed.
Print Assumptions c06_effect_while_active_partial.

(** The full clause ("whatever other faults overlap it") is REFUTED on the
    faithful model, for each register kind (known findings C06-overlap-crash, -lat, -loss, -cap). *)
Theorem c06_crash_overlap_refuted : ~ effect_while_active_statement crash_write.
Proof. apply (overlap_refutes _ 0 0 0); discriminate. Qed.
Print Assumptions c06_crash_overlap_refuted.

Theorem c06_latency_overlap_refuted : ~ effect_while_active_statement lat_write.
Proof. apply (overlap_refutes _ 0 5 7); discriminate. Qed.
Print Assumptions c06_latency_overlap_refuted.

Theorem c06_loss_overlap_refuted : ~ effect_while_active_statement loss_write.
Proof. (* configured 0, windows of +5/16 and +7/16 *) apply (overlap_refutes _ 0 5 7); discriminate. Qed.
Print Assumptions c06_loss_overlap_refuted.

Theorem c06_capacity_overlap_refuted : ~ effect_while_active_statement capv_write.
Proof. (* configured 10 (40 quarter units), two halvings *) apply (overlap_refutes _ 40 2 2); discriminate. Qed.
Print Assumptions c06_capacity_overlap_refuted.

(** A handle cancelled before activation: none of the fault's closures ever runs. *)
Theorem c06_cancel_before_activation : forall sched (k : nat) w tc,
  wf sched -> nth_error sched k = Some w -> w_c w = Some tc -> tc < w_s w ->
  forall e, In e (delivered sched) -> fe_fid e <> Z.of_nat k.
Proof.
  intros sched k w tc Hwf Hk Hc Hlt e Hin Hfid.
  assert (Hin' : In e (upto (fe_time e) (delivered sched))) by (apply In_upto; split; [exact Hin|lia]).
  destruct (stream_event _ _ _ Hwf Hin') as (j & w' & Hj & A & _ & _ & Hform).
  (* the event's window is [w], whose activation is not delivered *)
  assert (j = k) by (destruct Hform as [->|(te & _ & _ & ->)]; cbn in Hfid; lia). subst j.
  rewrite Hk in Hj. injection Hj as <-. unfold act_delivered in A. rewrite Hc in A. lia.
Qed.
Print Assumptions c06_cancel_before_activation.

(** Targets no fault names keep their configured setting at all times. *)
Theorem c06_untargeted_unchanged : forall write cfg sched y,
  (forall w, In w sched -> w_tgt w <> y) -> forall t, reg_at write cfg sched t y = cfg y.
Proof.
  intros write cfg sched y Hno t. rewrite reg_at_last.
  destruct (last_rel (rel_tgt y) (upto t (delivered sched))) as [e|] eqn:L; [|reflexivity].
  exfalso. destruct (last_rel_some _ _ _ L) as (Hin & Htgt).
  apply In_stream in Hin. destruct Hin as (_ & _ & k & w & Hn & Hform).
  apply (Hno w (nth_error_In _ _ Hn)). unfold rel_tgt in Htgt.
  destruct Hform as [->|(te & _ & ->)]; cbn in Htgt; lia.
Qed.
Print Assumptions c06_untargeted_unchanged.

(** A pair is partitioned only while a partition window separating it is in
    force; once every window has ended the network is whole.  EVERY schedule. *)
Theorem c06_partition_only_while_active : forall sched, wf sched ->
  forall a b t, part_active sched a b t = false -> is_partitioned (part_at sched t) a b = false.
Proof.
  intros sched Hwf a b t H. rewrite (is_partitioned_last _ _ _ _ Hwf).
  rewrite (last_on_inactive (relw_bi (norm_pair a b)) _ (fun _ _ => eq_refl) (fun _ _ _ => eq_refl) sched t Hwf)
    by (revert H; apply activeG_mono, relw_bi_separates).
  rewrite (last_on_inactive (relw_di (a, b)) _ (fun _ _ => eq_refl) (fun _ _ _ => eq_refl) sched t Hwf)
    by (revert H; apply activeG_mono, relw_di_separates).
  reflexivity.
Qed.
Print Assumptions c06_partition_only_while_active.

(** PARTIAL (windows separating the pair strictly separated in time). *)
Theorem c06_partition_while_active_partial : forall sched a b, wf sched ->
  separatedG (fun w => separates w a b) sched ->
  forall w t, In w sched -> separates w a b = true -> covers w t = true ->
  is_partitioned (part_at sched t) a b = true.
Proof.
  intros sched a b Hwf Hsep w t Hw Hs Hc. rewrite (is_partitioned_last _ _ _ _ Hwf).
  apply orb_prop in Hs. apply orb_true_iff. destruct Hs as [Hs|Hs]; [left|right].
  - apply (last_on_covered (relw_bi (norm_pair a b)) _ (fun _ _ => eq_refl) (fun _ _ _ => eq_refl) sched Hwf) with (w := w); auto.
    revert Hsep. apply separatedG_mono, relw_bi_separates.
  - apply (last_on_covered (relw_di (a, b)) _ (fun _ _ => eq_refl) (fun _ _ _ => eq_refl) sched Hwf) with (w := w); auto.
    revert Hsep. apply separatedG_mono, relw_di_separates.
Qed.
Print Assumptions c06_partition_while_active_partial.

(** REFUTED in full: the heal of one partition unblocks a pair another active
    partition shares (known finding C06-overlap-part). *)
Theorem c06_partition_overlap_refuted : ~ partition_while_active_statement.
Proof.
  intros H. specialize (H part_overlap_witness).
  specialize (H (wfb_wf part_overlap_witness eq_refl) 0 1 4 eq_refl). vm_compute in H. discriminate.
Qed.
Print Assumptions c06_partition_overlap_refuted.

(** For every fault schedule and workload: 0 <= available <= capacity <= configured. *)
Theorem c06_capacity_available_bounded : forall orig, 0 <= orig -> forall ops s,
  Forall factor_ok ops -> cap_inv orig s -> cap_inv orig (cap_final orig s ops).
Proof. intros orig _ ops. apply cap_final_inv. Qed.
Print Assumptions c06_capacity_available_bounded.

(** The capacity value is written by the last fault closure only (so the
    register theorems above apply to it with [capv_write]). *)
Theorem c06_capacity_is_last_writer : forall orig ops s,
  c_cap (cap_final orig s ops) =
  match last_fault ops with
  | Some e => if fe_on e then capv_write orig (fe_p e) else orig
  | None => c_cap s
  end.
Proof. exact capacity_is_last_writer. Qed.
Print Assumptions c06_capacity_is_last_writer.

(** REFUTED: available + held = capacity, already with ONE window when something
    is held at activation (known finding C06-capacity-held-ignored). *)
Theorem c06_capacity_conservation_refuted : ~ conservation_statement.
Proof.
  intros H. specialize (H 40 conservation_witness).
  assert (Hf : Forall factor_ok conservation_witness) by (repeat constructor; cbn; lia).
  specialize (H ltac:(lia) Hf). vm_compute in H. discriminate.
Qed.
Print Assumptions c06_capacity_conservation_refuted.

(** PARTIAL: exact accounting when every activation finds nothing held and does
    not raise the capacity. *)
Theorem c06_capacity_conservation_partial : forall orig ops s h,
  conserved s h -> acts_idle orig s h ops ->
  conserved (cap_final orig s ops) (held_after orig s h ops).
Proof. exact conservation_partial. Qed.
Print Assumptions c06_capacity_conservation_partial.

(** PARTIAL: no handler is entered while the crash flag is set. *)
Theorem c06_no_handler_entry_while_crashed_partial : forall sched x arrs t pid,
  In (t, pid, 0) (plain_activity sched x arrs) -> crashed_at sched t x = false.
Proof.
  intros sched x arrs t pid H. apply In_plain in H. destruct H as (t' & pid' & ds & _ & Hc & [E|Hr]).
  - injection E as -> _. exact Hc.
  - apply proc_steps_ge in Hr. cbn in Hr. lia.
Qed.
Print Assumptions c06_no_handler_entry_while_crashed_partial.

(** REFUTED: "while crashed it executes nothing" — a process in flight at the
    crash instant keeps advancing (known finding C06-inflight-process-runs-while-crashed). *)
Theorem c06_crashed_executes_nothing_refuted : ~ crashed_executes_nothing_statement.
Proof.
  intros H.
  specialize (H [W 0 2 (Some 10) 0 None] 0 [(1, 7, [3])]).
  specialize (H ltac:(apply wfb_wf; reflexivity) 4 7 1). vm_compute in H. discriminate H. right. now left.
Qed.
Print Assumptions c06_crashed_executes_nothing_refuted.

(** Outside every crash/pause window arrivals are processed in full. EVERY schedule. *)
Theorem c06_processing_resumes : forall sched x arrs t pid ds, wf sched ->
  In (t, pid, ds) arrs -> active sched x t = false ->
  forall r, r = (t, pid, 0) \/ In r (proc_steps t pid 1 ds) -> In r (plain_activity sched x arrs).
Proof.
  intros sched x arrs t pid ds Hwf Hi Ha r Hr. apply In_plain. exists t, pid, ds. split; [exact Hi|]. split; [|exact Hr].
  unfold crashed_at. rewrite (c06_back_to_configured crash_write (fun _ => 0) sched Hwf x t Ha). reflexivity.
Qed.
Print Assumptions c06_processing_resumes.

(** Entities no fault names run exactly as in the fault-free simulation. *)
Theorem c06_bystander_unaffected : forall sched y arrs,
  (forall w, In w sched -> w_tgt w <> y) -> plain_activity sched y arrs = plain_activity [] y arrs.
Proof.
  intros sched y arrs Hno. apply flat_map_ext. intros [[t pid] ds].
  unfold crashed_at. now rewrite (c06_untargeted_unchanged crash_write (fun _ => 0) sched y Hno t).
Qed.
Print Assumptions c06_bystander_unaffected.

(** Queue-fronted target. PARTIAL: only work that arrived while the flag was
    clear is executed; REFUTED: queued work is started during the crash
    (known finding C06-queued-work-starts-while-crashed). *)
Theorem c06_queue_accepts_only_while_up_partial : forall sched x arrs r,
  In r (qr_activity sched x arrs) ->
  exists t d, In (t, snd (fst r), d) arrs /\ crashed_at sched t x = false.
Proof.
  unfold qr_activity. intros sched x arrs r H. apply In_qr_serve in H. destruct H as (t & d & Hi).
  apply filter_In in Hi. destruct Hi as (Hi & Hc). exists t, d. split; [exact Hi|].
  cbn in Hc. now destruct (crashed_at sched t x).
Qed.
Print Assumptions c06_queue_accepts_only_while_up_partial.

Theorem c06_queued_entry_while_crashed_refuted : ~ queued_no_entry_while_crashed_statement.
Proof.
  intros H.
  specialize (H [W 0 2 (Some 10) 0 None] 0 [(0, 1, 3); (1, 2, 3)]).
  specialize (H ltac:(apply wfb_wf; reflexivity) 3 2). vm_compute in H. discriminate H. right. right. now left.
Qed.
Print Assumptions c06_queued_entry_while_crashed_refuted.
