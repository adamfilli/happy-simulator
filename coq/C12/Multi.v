(** C12 — Multi-Paxos / Flexible Paxos: what holds of the code as written
    (commands are applied in slot order without gaps, the commit index stays
    inside the log) and concrete schedules on which per-slot agreement and the
    leader-liveness clause fail. *)
From HS Require Import Base.Prelude C12.Model C12.MultiModel.
Local Open Scope Z_scope.

Lemma zlen_cons {A} (x : A) l : zlen (x :: l) = zlen l + 1.
Proof. unfold zlen. cbn [length]. lia. Qed.

Lemma zlen_app {A} (l l' : list A) : zlen (l ++ l') = zlen l + zlen l'.
Proof. unfold zlen. rewrite app_length. lia. Qed.

Lemma zlen_firstn {A} k (l : list A) : 0 <= k -> zlen (firstn (Z.to_nat k) l) = Z.min k (zlen l).
Proof. intros K. unfold zlen. rewrite firstn_length. lia. Qed.

Lemma zlen_skipn {A} k (l : list A) : 0 <= k <= zlen l -> zlen (skipn (Z.to_nat k) l) = zlen l - k.
Proof. unfold zlen. intros K. rewrite skipn_length. lia. Qed.

(** indices of the applied list are 1, 2, ..., _last_applied *)
Fixpoint consecutive (from : Z) (l : list (Z * Z)) : Prop :=
  match l with
  | [] => True
  | (i, _) :: r => i = from /\ consecutive (from + 1) r
  end.

Lemma consecutive_snoc l : forall from i c, consecutive from l -> i = from + zlen l -> consecutive from (l ++ [(i, c)]).
Proof.
  induction l as [|[j d] r IH]; cbn [consecutive app]; intros from i c H E.
  - split; [|exact Logic.I]. rewrite E. apply Z.add_0_r.
  - destruct H as [-> H]. split; [reflexivity|]. apply IH; [exact H|]. rewrite zlen_cons in E. lia.
Qed.

(** The invariant reads four fields only: the log, the commit index,
    _last_applied and the applied list.  It is stated of these fields, so an
    update of any of the other nine preserves it by computation. *)
Definition applied_ok (ap : Z) (app : list (Z * Z)) : Prop := ap = zlen app /\ consecutive 1 app.

Record core_ok (lg : list (Z * Z)) (cm ap : Z) (app : list (Z * Z)) : Prop := {
  co_commit_lo : 0 <= cm;
  co_commit_hi : cm <= zlen lg;
  co_commit_app : cm <= ap;
  co_applied : applied_ok ap app;
}.

Definition minv (s : mstate) : Prop := core_ok (mlog s) (mcommit s) (mapplied s) (mapp s).

Lemma minv_init me : minv (minit me).
Proof. repeat split; cbn; reflexivity || discriminate. Qed.

Lemma core_ok_grow lg ext cm ap app : core_ok lg cm ap app -> core_ok (lg ++ ext) cm ap app.
Proof. intros [A B C D]. split; auto. rewrite zlen_app. unfold zlen at 2. lia. Qed.

Lemma append_entry_minv s t cmd : minv s -> minv (append_entry s t cmd).
Proof. apply core_ok_grow. Qed.

Lemma assign_slot_minv s cmd f : minv s -> minv (assign_slot s cmd f).
Proof. apply core_ok_grow. Qed.

Lemma apply_range_frame es : forall s idx,
  mlog (apply_range s idx es) = mlog s /\ mcommit (apply_range s idx es) = mcommit s /\ misl (apply_range s idx es) = misl s.
Proof.
  induction es as [|[t cmd] r IH]; intros s idx; cbn [apply_range]; [auto|].
  set (s' := if mapplied s <? idx then _ else s). destruct (IH s' (idx + 1)) as [A [B C]]. rewrite A, B, C.
  unfold s'. destruct (mapplied s <? idx); auto.
Qed.

Lemma apply_range_applied es : forall s idx, applied_ok (mapplied s) (mapp s) -> idx <= mapplied s + 1 ->
  let s' := apply_range s idx es in applied_ok (mapplied s') (mapp s') /\ idx + zlen es - 1 <= mapplied s'.
Proof.
  induction es as [|[t cmd] r IH]; intros s idx [L C] I; cbn [apply_range].
  - split; [split; assumption|]. unfold zlen; cbn [length]. lia.
  - rewrite zlen_cons. destruct (Z.ltb_spec (mapplied s) idx) as [E|E].
    + assert (idx = mapplied s + 1) by lia. subst idx.
      set (s1 := mkM _ _ _ _ _ _ _ _ _ _ _ _ _). destruct (IH s1 (mapplied s + 1 + 1)) as [A H].
      * unfold s1. split; cbn [mapplied mapp]; [rewrite zlen_app, <- L; reflexivity|apply consecutive_snoc; [exact C|lia]].
      * unfold s1. cbn [mapplied]. lia.
      * split; [exact A|lia].
    + destruct (IH s (idx + 1) (conj L C) ltac:(lia)) as [A H]. split; [exact A|lia].
Qed.

Lemma advance_minv s new : minv s -> minv (advance s new).
Proof.
  intros [A B C D]. unfold advance. destruct (Z.leb_spec new (mcommit s)) as [N|N]; [split; assumption|].
  set (c := Z.min new (zlen (mlog s))). set (s1 := mkM _ c _ _ _ _ _ _ _ _ _ _ _). set (es := firstn _ _).
  assert (Les : zlen es = c - mcommit s).
  { unfold es. rewrite zlen_firstn, zlen_skipn by (unfold c; lia). unfold c. lia. }
  destruct (apply_range_frame es s1 (mcommit s + 1)) as [FL [FC _]].
  destruct (apply_range_applied es s1 (mcommit s + 1) D ltac:(cbn [mapplied s1]; lia)) as [D1 H1].
  rewrite Les in H1.
  split; rewrite ?FL, ?FC; cbn [mlog mcommit s1]; [clear - A B N|apply Z.le_min_r|clear - H1|exact D1]; lia.
Qed.

Lemma advance_misl s new : misl (advance s new) = misl s.
Proof. unfold advance. destruct (new <=? mcommit s); [reflexivity|]. exact (proj2 (proj2 (apply_range_frame _ _ _))). Qed.

Lemma truncate_minv s idx : minv s -> minv (truncate s idx).
Proof.
  intros [A B C D]. unfold truncate. destruct ((idx <? 1) || (zlen (mlog s) <? idx)) eqn:G; [split; assumption|].
  apply orb_false_elim in G as [G1 G2].
  assert (L : zlen (firstn (Z.to_nat (idx - 1)) (mlog s)) = idx - 1) by (rewrite zlen_firstn; lia).
  split; cbn [mlog mcommit mapplied]; rewrite ?L; [..|exact D]; destruct (Z.leb_spec idx (mcommit s)); lia.
Qed.

Lemma assign_all_minv l : forall s, minv s -> minv (fold_left (fun st cf => assign_slot st (fst cf) (snd cf)) l s).
Proof. induction l; cbn; auto. intros s H. apply IHl, assign_slot_minv, H. Qed.

Lemma become_leader_minv c s : minv s -> minv (fst (become_leader c s)).
Proof. intros I. unfold become_leader. cbn [fst]. apply assign_all_minv, I. Qed.

Lemma fst_let {A B C} (p : A * B) (f : B -> C) : fst (let '(a, b) := p in (a, f b)) = fst p.
Proof. destruct p; reflexivity. Qed.

Lemma mstep_minv c s i : minv s -> minv (fst (mstep c s i)).
Proof.
  intros I. destruct i; cbn [mstep].
  - destruct (mq1 c <=? 1); [|exact I]. rewrite fst_let. apply become_leader_minv, I.
  - destruct (misl s); [apply assign_slot_minv|]; exact I.
  - destruct (negb _); [exact I|]. destruct (bal_ltb _ _); exact I.
  - destruct (afind bn (mp1 s)); [|exact I]. destruct (mq1 c <=? z + 1); [|exact I]. apply become_leader_minv, I.
  - destruct (negb _); [exact I|]. destruct (bal_ltb _ _); [exact I|]. cbn [fst].
    set (s1 := set_bal s _ _ _). set (s2 := if zlen (mlog s1) <? slot then _ else _).
    assert (I2 : minv s2).
    { unfold s2. destruct (zlen (mlog s1) <? slot); [apply append_entry_minv, I|].
      destruct (lget1 (mlog s1) slot) as [[t x]|]; [|exact I]. destruct (negb (t =? bn)); [|exact I].
      apply append_entry_minv, truncate_minv, I. }
    destruct (mcommit s2 <? commit); [apply advance_minv|]; exact I2.
  - destruct ((mq2 c <=? _) && _); [apply advance_minv|]; exact I.
  - destruct (mflex c && self); [destruct (misl s); exact I|].
    destruct (bal_leb _ _); [|exact I]. cbn [fst]. destruct (mcommit _ <? commit); [apply advance_minv|]; exact I.
  - destruct (bal_ltb _ _); exact I.
Qed.

Fixpoint mrun (c : mcfg) (s : mstate) (l : list min) : mstate :=
  match l with [] => s | i :: r => mrun c (fst (mstep c s i)) r end.

Lemma mrun_minv c l : forall s, minv s -> minv (mrun c s l).
Proof. induction l; cbn; auto. intros s H. apply IHl, mstep_minv, H. Qed.

(** The C12 statement for the slots of Multi-Paxos / Flexible Paxos: whatever
    the schedule, two nodes that report a decided command for the same slot
    report the same command. *)
Definition slot_agreement_statement (flex : bool) : Prop :=
  forall n q1 q2 sch i j s x y, 3 <= n <= 5 -> q1 + q2 > n ->
  decided_slot (msys_run n q1 q2 flex sch) i s = Some x ->
  decided_slot (msys_run n q1 q2 flex sch) j s = Some y -> x = y.

(** It is refuted by any run on which two nodes report different commands for one slot. *)
Lemma slot_agreement_refuted_by {flex n q1 q2 sch i j s x y} :
  3 <= n <= 5 -> q1 + q2 > n -> x <> y ->
  (let w := msys_run n q1 q2 flex sch in decided_slot w i s = Some x /\ decided_slot w j s = Some y) ->
  ~ slot_agreement_statement flex.
Proof. intros N Q D [A B] H. exact (D (H n q1 q2 sch i j s x y N Q A B)). Qed.

(** Witness 1 (takeover, MultiPaxosNode, 3 nodes): node 0 leads ballot (1,0),
    commits command 10 in slot 1 with node 1; node 2 then wins ballot (1,2)
    with node 1's promise — [_become_leader] ignores the promised log — and
    commits its own command 20 in slot 1. *)
Definition takeover_sch : list maction :=
  [MAStart 0; MASubmit 0 10; MADeliver 0; MADeliver 1; MADeliver 3; MADeliver 4;
   MASubmit 2 20; MAStart 2; MADeliver 5; MADeliver 5; MADeliver 8; MADeliver 8].

Lemma takeover_witness :
  let w := msys_run 3 2 2 false takeover_sch in decided_slot w 0 1 = Some 10 /\ decided_slot w 2 1 = Some 20.
Proof. vm_compute. auto. Qed.

(** Witness 2 (reordering, FlexiblePaxosNode, 3 nodes, ONE leader, no loss):
    the Accept for slot 2 overtakes the Accept for slot 1; [_handle_accept]
    appends it at index 1; after the commit index spreads, node 1 reports
    command 20 for slot 1 while the leader reports 10. *)
Definition reorder_sch : list maction :=
  [MAStart 0; MASubmit 0 10; MASubmit 0 20; MADeliver 0; MADeliver 1; MADeliver 5; MADeliver 6; MATick 0; MADeliver 6].

Lemma reorder_witness :
  let w := msys_run 3 2 2 true reorder_sch in decided_slot w 0 1 = Some 10 /\ decided_slot w 1 1 = Some 20.
Proof. vm_compute. auto. Qed.

(** The liveness clause: once the network is quiet, a command in the log of a
    node that is leader has been applied at every node. *)
Definition leader_liveness_statement (flex : bool) : Prop :=
  forall n q1 q2 sch i cmd t, 3 <= n <= 5 -> q1 + q2 > n ->
  let w := msys_run n q1 q2 flex sch in
  mnet w = [] -> misl (mnodes w i) = true -> In (t, cmd) (mlog (mnodes w i)) ->
  forall j, 0 <= j < n -> In cmd (map snd (mapp (mnodes w j))).

(** It is refuted by any run that ends with a quiet network, a leader holding a
    command in its log and a node that has not applied it. *)
Lemma leader_liveness_refuted_by {flex n q1 q2 sch i j t cmd} :
  3 <= n <= 5 -> q1 + q2 > n -> 0 <= j < n ->
  (let w := msys_run n q1 q2 flex sch in
   mnet w = [] /\ misl (mnodes w i) = true /\ In (t, cmd) (mlog (mnodes w i)) /\ ~ In cmd (map snd (mapp (mnodes w j)))) ->
  ~ leader_liveness_statement flex.
Proof. intros N Q J [A [B [C D]]] H. exact (D (H n q1 q2 sch i cmd t N Q A B C j J)). Qed.

(** Witness: 3 nodes, fault-free, every message delivered; node 0 is the
    established leader, then a client submits 10; two heartbeat rounds later
    the network is quiet and nobody has applied (or even received) it. *)
Definition quiet_sch : list maction :=
  [MAStart 0; MADeliver 0; MADeliver 0; MADeliver 0; MADeliver 0; MADeliver 0; MADeliver 0; MADeliver 0; MADeliver 0;
   MASubmit 0 10; MATick 0; MADeliver 0; MADeliver 0; MATick 0; MADeliver 0; MADeliver 0].

Lemma quiet_witness :
  let w := msys_run 3 2 2 true quiet_sch in
  mnet w = [] /\ misl (mnodes w 0) = true /\ In (1, 10) (mlog (mnodes w 0)) /\ ~ In 10 (map snd (mapp (mnodes w 1))).
Proof. vm_compute. auto. Qed.

(** MultiPaxosNode: the leader's own heartbeat tick makes it step down. *)
Theorem multipaxos_own_tick_demotes c s bn bnode commit :
  mflex c = false -> bal_leb (mbal s) (bn, bnode) = true ->
  misl (fst (mstep c s (MHeartbeat bn bnode commit true))) = false.
Proof.
  intros F L. cbn [mstep]. rewrite F. cbn [andb]. rewrite L. cbn [fst].
  destruct (mcommit _ <? commit); [rewrite advance_misl|]; reflexivity.
Qed.

(** Hence the witness for MultiPaxosNode stops at the submit (the network is
    quiet already): the pending tick would make node 0 step down. *)
Definition multi_quiet_sch : list maction :=
  [MAStart 0; MADeliver 0; MADeliver 0; MADeliver 0; MADeliver 0; MADeliver 0; MADeliver 0; MADeliver 0; MADeliver 0;
   MASubmit 0 10].

Lemma multi_quiet_witness :
  let w := msys_run 3 2 2 false multi_quiet_sch in
  mnet w = [] /\ misl (mnodes w 0) = true /\ In (1, 10) (mlog (mnodes w 0)) /\ ~ In 10 (map snd (mapp (mnodes w 1))).
Proof. vm_compute. auto. Qed.
