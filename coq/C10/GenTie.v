(** C10 — tie between policy.py and the hand-written policy models, through
    the REGENERATED translation [Gen/PolicyGen.v] (py2coq).  Generic over the
    arithmetic [O : numops], so each lemma holds both for the exact-rational
    instance the theorems are about and for the binary64 instance the
    correspondence uses.  Constructors are not translated: the configuration
    fields ([_capacity], [_refill_rate], [_leak_interval], [_window_size],
    [_max_requests], [_requests_per_window]) are read-only in every translated
    method, which the lemmas state. *)
From HS Require Import Base.Prelude Base.PyLib C10.Model Gen.PolicyGen.
Local Open Scope Z_scope.

Section Tie.
  Variable O : numops.

  Definition tb_par (s : TokenBucketPolicy O) : tbp O :=
    {| tb_cap := TokenBucketPolicy__capacity O s; tb_rate := TokenBucketPolicy__refill_rate O s |}.
  Definition tb_abs (s : TokenBucketPolicy O) : tbs O :=
    {| tb_tokens := TokenBucketPolicy__tokens O s; tb_last := TokenBucketPolicy__last_refill_time O s |}.

  Lemma tie_tb_refill s now :
    let s' := fst (TokenBucketPolicy__refill O s now) in
    tb_abs s' = tb_refill O (tb_par s) (tb_abs s) now /\ tb_par s' = tb_par s.
  Proof.
    unfold TokenBucketPolicy__refill, tb_refill, tb_abs, tb_par. destruct s as [cap rate tok [l|]]; cbn.
    - destruct (nle O (secs O (now - l)) (n0 O)); cbn; split; reflexivity.
    - split; reflexivity.
  Qed.

  Lemma tie_tb_acquire s now :
    let r := TokenBucketPolicy_try_acquire O s now in
    (tb_abs (fst r), snd r) = tb_acquire O (tb_par s) (tb_abs s) now /\ tb_par (fst r) = tb_par s.
  Proof.
    unfold TokenBucketPolicy_try_acquire, tb_acquire. destruct (tie_tb_refill s now) as [H1 H2].
    destruct (TokenBucketPolicy__refill O s now) as [s1 u]; cbn [fst snd] in *. rewrite <- H1, <- H2.
    cbn [tb_abs tb_tokens]. destruct (nle O _ _); split; reflexivity.
  Qed.

  Lemma tie_tb_tua s now :
    let r := TokenBucketPolicy_time_until_available O s now in
    (tb_abs (fst r), snd r) = tb_tua O (tb_par s) (tb_abs s) now /\ tb_par (fst r) = tb_par s.
  Proof.
    unfold TokenBucketPolicy_time_until_available, tb_tua, guard. destruct (tie_tb_refill s now) as [H1 H2].
    destruct (TokenBucketPolicy__refill O s now) as [s1 u]; cbn [fst snd] in *. rewrite <- H1, <- H2.
    cbn [tb_abs tb_par tb_tokens tb_rate]. destruct (nle O _ _); [|destruct (_ =? 0)]; split; reflexivity.
  Qed.

  (** LeakyBucketPolicy: the model's state is [_last_leak_time], its
      parameter the interval [_leak_interval] (= [1.0 / leak_rate], constructor). *)
  Lemma tie_lk_acquire s now :
    let r := LeakyBucketPolicy_try_acquire O s now in
    (LeakyBucketPolicy__last_leak_time O (fst r), snd r)
      = lk_acquire O (LeakyBucketPolicy__leak_interval O s) (LeakyBucketPolicy__last_leak_time O s) now
    /\ LeakyBucketPolicy__leak_interval O (fst r) = LeakyBucketPolicy__leak_interval O s.
  Proof.
    unfold LeakyBucketPolicy_try_acquire, lk_acquire. destruct s as [rate iv [l|]]; cbn; [|split; reflexivity].
    destruct (nle O iv (secs O (now - l))); cbn; split; reflexivity.
  Qed.

  Lemma tie_lk_tua s now :
    LeakyBucketPolicy_time_until_available O s now
      = lk_tua O (LeakyBucketPolicy__leak_interval O s) (LeakyBucketPolicy__last_leak_time O s) now.
  Proof.
    unfold LeakyBucketPolicy_time_until_available, lk_tua, guard. destruct s as [rate iv [l|]]; cbn; [|reflexivity].
    destruct (nle O (nsub O iv (secs O (now - l))) (n0 O)); reflexivity.
  Qed.

  (** SlidingWindowPolicy: [wn] = [nanos window_size] is what [Instant -/+ float] moves by. *)
  Lemma dropwhile_prune c l : py_dropwhile (fun x => x <? c) l = sw_prune c l.
  Proof. induction l as [|x r IH]; cbn; [reflexivity|]. destruct (x <? c); [exact IH|reflexivity]. Qed.

  Definition sw_wn (s : SlidingWindowPolicy O) : Z := nanos O (SlidingWindowPolicy__window_size O s).

  Definition sw_cfg (s : SlidingWindowPolicy O) := (sw_wn s, SlidingWindowPolicy__max_requests O s).

  Lemma tie_sw_acquire s now :
    let r := SlidingWindowPolicy_try_acquire O s now in
    (SlidingWindowPolicy__request_log O (fst r), snd r)
      = sw_acquire (sw_wn s) (SlidingWindowPolicy__max_requests O s) (SlidingWindowPolicy__request_log O s) now
    /\ sw_cfg (fst r) = sw_cfg s.
  Proof.
    unfold SlidingWindowPolicy_try_acquire, SlidingWindowPolicy__prune, sw_acquire, sw_cfg, sw_wn.
    destruct s as [ws n log]; cbn. rewrite dropwhile_prune.
    tie_split; tie_close.
  Qed.

  (** [time_until_available]: reading [self._request_log[0]] raises IndexError on an empty log
      (only possible with [max_requests <= 0]): the translation returns [None] there, the model [-1]. *)
  Lemma tie_sw_tua s now : 0 < SlidingWindowPolicy__max_requests O s ->
    exists r, SlidingWindowPolicy_time_until_available O s now = Some r /\
    (SlidingWindowPolicy__request_log O (fst r), snd r)
      = sw_tua O (sw_wn s) (SlidingWindowPolicy__max_requests O s) (SlidingWindowPolicy__request_log O s) now
    /\ sw_cfg (fst r) = sw_cfg s.
  Proof.
    unfold SlidingWindowPolicy_time_until_available, SlidingWindowPolicy__prune, sw_tua, sw_cfg, sw_wn, guard.
    destruct s as [ws n log]; cbn. intros Hn. rewrite dropwhile_prune.
    destruct (sw_prune (now - nanos O ws) log) as [|oldest rest] eqn:El; cbn in *;
      tie_split; try (exfalso; lia); cbn; eexists; repeat split; first [reflexivity | (exfalso; lia) | lia].
  Qed.

  Definition fw_wn (s : FixedWindowPolicy O) : Z := nanos O (FixedWindowPolicy__window_size O s).
  Definition fw_abs (s : FixedWindowPolicy O) : fws :=
    {| fw_start := FixedWindowPolicy__current_window_start O s; fw_count := FixedWindowPolicy__current_window_count O s |}.
  Definition fw_cfg (s : FixedWindowPolicy O) := (fw_wn s, FixedWindowPolicy__requests_per_window O s).

  Lemma tie_fw_window_start s now :
    FixedWindowPolicy__get_window_start O s now = fw_window_start (fw_wn s) now.
  Proof.
    first [reflexivity
          | unfold FixedWindowPolicy__get_window_start, fw_window_start, fw_wn; cbv beta zeta; tie_split;
            first [rewrite Z.max_l by lia | rewrite Z.max_r by lia | idtac]; ring].
  Qed.

  Lemma tie_fw_reset s now :
    let s' := fst (FixedWindowPolicy__maybe_reset O s now) in
    fw_abs s' = fw_reset (fw_wn s) (fw_abs s) now /\ fw_cfg s' = fw_cfg s.
  Proof.
    destruct s as [n ws [c|] cnt];
      match goal with |- context [FixedWindowPolicy__maybe_reset O ?s0 now] => pose proof (tie_fw_window_start s0 now) as Hws end;
      unfold FixedWindowPolicy__maybe_reset, fw_reset, fw_abs, fw_cfg; cbv beta zeta; rewrite Hws;
      unfold fw_wn; cbn -[fw_window_start]; [|split; reflexivity].
    tie_split; tie_close.
  Qed.

  Lemma fw_cfg_eq s1 s : fw_cfg s1 = fw_cfg s ->
    fw_wn s1 = fw_wn s /\ FixedWindowPolicy__requests_per_window O s1 = FixedWindowPolicy__requests_per_window O s.
  Proof. intros H. exact (conj (f_equal fst H) (f_equal snd H)). Qed.

  Lemma tie_fw_acquire s now :
    let r := FixedWindowPolicy_try_acquire O s now in
    (fw_abs (fst r), snd r) = fw_acquire (fw_wn s) (FixedWindowPolicy__requests_per_window O s) (fw_abs s) now
    /\ fw_cfg (fst r) = fw_cfg s.
  Proof.
    unfold FixedWindowPolicy_try_acquire, fw_acquire. destruct (tie_fw_reset s now) as [H1 H2].
    destruct (FixedWindowPolicy__maybe_reset O s now) as [s1 u]; cbn [fst snd] in *.
    destruct (fw_cfg_eq s1 s H2) as [_ Hn]. rewrite <- H1, <- Hn.
    cbn [fw_abs fw_count]. destruct (_ <? _); (split; [reflexivity|exact H2]).
  Qed.

  Lemma tie_fw_tua s now :
    let r := FixedWindowPolicy_time_until_available O s now in
    (fw_abs (fst r), snd r) = fw_tua O (fw_wn s) (FixedWindowPolicy__requests_per_window O s) (fw_abs s) now
    /\ fw_cfg (fst r) = fw_cfg s.
  Proof.
    unfold FixedWindowPolicy_time_until_available, fw_tua, guard. destruct (tie_fw_reset s now) as [H1 H2].
    destruct (FixedWindowPolicy__maybe_reset O s now) as [s1 u]; cbn [fst snd] in *.
    destruct (fw_cfg_eq s1 s H2) as [Hw Hn]. rewrite <- H1, <- Hw, <- Hn.
    cbn [fw_abs fw_count fw_start]. destruct (_ <? _); [split; [reflexivity|exact H2]|].
    destruct (FixedWindowPolicy__current_window_start O s1) as [c|]; [|split; [reflexivity|exact H2]].
    destruct (nle O _ _); [|destruct (_ =? 0)]; (split; [reflexivity|exact H2]).
  Qed.

  (** AdaptivePolicy: the token part ([_refill] / [try_acquire] / [time_until_available]). *)
  Definition ad_abs (s : AdaptivePolicy O) : ads O :=
    {| ad_rate := AdaptivePolicy__current_rate O s; ad_tokens := AdaptivePolicy__tokens O s;
       ad_last := AdaptivePolicy__last_refill_time O s |}.

  Lemma tie_ad_refill (p : adp O) s now : ad_win p = AdaptivePolicy__window_size O s ->
    let s' := fst (AdaptivePolicy__refill O s now) in
    ad_abs s' = ad_refill O p (ad_abs s) now /\ AdaptivePolicy__window_size O s' = AdaptivePolicy__window_size O s.
  Proof.
    intros Hw. unfold AdaptivePolicy__refill, ad_refill, ad_abs. destruct s as [rate win tok [l|]]; cbn in *.
    - destruct (nle O (secs O (now - l)) (n0 O)); cbn; split; try reflexivity. now rewrite Hw.
    - split; reflexivity.
  Qed.

  Lemma tie_ad_acquire (p : adp O) s now : ad_win p = AdaptivePolicy__window_size O s ->
    let r := AdaptivePolicy_try_acquire O s now in
    (ad_abs (fst r), snd r) = ad_acquire O p (ad_abs s) now
    /\ AdaptivePolicy__window_size O (fst r) = AdaptivePolicy__window_size O s.
  Proof.
    intros Hw. unfold AdaptivePolicy_try_acquire, ad_acquire. destruct (tie_ad_refill p s now Hw) as [H1 H2].
    destruct (AdaptivePolicy__refill O s now) as [s1 u]; cbn [fst snd] in *. rewrite <- H1, <- H2.
    cbn [ad_abs ad_tokens]. destruct (nle O _ _); split; reflexivity.
  Qed.

  (** [time_until_available]: the code divides by the rate only when it is positive and otherwise uses
      float("inf") (the extra parameter [inf]); the constructor guarantees min_rate > 0 and every rate
      adjustment stays >= min_rate, so under a positive rate after the refill the value of [inf] is irrelevant. *)
  Lemma tie_ad_tua (p : adp O) s now inf : ad_win p = AdaptivePolicy__window_size O s ->
    nlt O (n0 O) (AdaptivePolicy__current_rate O s) = true ->
    let r := AdaptivePolicy_time_until_available O s now inf in
    (ad_abs (fst r), snd r) = ad_tua O p (ad_abs s) now
    /\ AdaptivePolicy__window_size O (fst r) = AdaptivePolicy__window_size O s.
  Proof.
    intros Hw Hr. unfold AdaptivePolicy_time_until_available, ad_tua, guard. destruct (tie_ad_refill p s now Hw) as [H1 H2].
    assert (Hrate : AdaptivePolicy__current_rate O (fst (AdaptivePolicy__refill O s now)) = AdaptivePolicy__current_rate O s).
    { unfold AdaptivePolicy__refill. destruct s as [rate win tok [l|]]; cbn; [destruct (nle O _ _); reflexivity|reflexivity]. }
    destruct (AdaptivePolicy__refill O s now) as [s1 u]; cbn [fst snd] in *. rewrite <- H1, <- H2.
    cbn [ad_abs ad_tokens ad_rate]. destruct (nle O _ _); [split; reflexivity|].
    rewrite Hrate, Hr. destruct (_ =? 0); split; reflexivity.
  Qed.

End Tie.
