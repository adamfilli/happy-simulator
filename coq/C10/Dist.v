(** DistributedRateLimiter: every request received by a limiter instance is forwarded,
    dropped, or still suspended at a store access — for every interleaving of handler
    starts and resumptions, any number of instances, any limit. *)
From HS Require Import Base.Prelude C10.Model.
Local Open Scope Z_scope.

Definition lim_of (x : Z * Z * option Z) : Z := fst (fst x).
Definition cnt (l : Z) (ps : list dproc) : Z :=
  Z.of_nat (length (filter (fun p => lim_of (snd p) =? l) ps)).
Definition inflight (w : dworld) (l : Z) : Z := cnt l (w_procs w).

Definition dinv (w : dworld) : Prop :=
  forall l, d_recv (w_lims w l) = d_fwd (w_lims w l) + d_drop (w_lims w l) + inflight w l.

Lemma cnt_cons l r x ps : cnt l ((r, x) :: ps) = cnt l ps + (if l =? lim_of x then 1 else 0).
Proof. unfold cnt. cbn [filter snd]. rewrite (Z.eqb_sym l). destruct (lim_of x =? l); cbn [length]; lia. Qed.

Lemma cnt_add l ps req x : cnt l (ps ++ [(req, x)]) = cnt l ps + (if l =? lim_of x then 1 else 0).
Proof. induction ps as [|[r y] ps IH]; cbn [app]; rewrite !cnt_cons; [reflexivity|lia]. Qed.

Lemma cnt_remove l req ps x : dfind req ps = Some x ->
  cnt l (dremove req ps) = cnt l ps + (if l =? lim_of x then -1 else 0).
Proof.
  induction ps as [|[r y] rest IH]; cbn [dfind dremove]; [discriminate|].
  destruct (r =? req); intros E; rewrite !cnt_cons.
  - inversion E; subst. destruct (l =? lim_of x); lia.
  - rewrite (IH E). lia.
Qed.

Lemma cnt_set l req ps x x' : dfind req ps = Some x -> lim_of x' = lim_of x ->
  cnt l (dset req x' ps) = cnt l ps.
Proof.
  induction ps as [|[r y] rest IH]; cbn [dfind dset]; [discriminate|].
  destruct (r =? req); intros E H; rewrite !cnt_cons.
  - inversion E; subst. rewrite H. reflexivity.
  - rewrite (IH E H). reflexivity.
Qed.

Definition owed (L : dls) : Z := d_recv L - d_fwd L - d_drop L.

(** A step rewrites one limiter and the suspended handlers: the invariant is kept when what the limiter
    owes and its suspended handlers move by the same [d]. *)
Lemma dinv_upd w st lim L' ps' d :
  dinv w -> owed L' = owed (w_lims w lim) + d ->
  (forall l, cnt l ps' = cnt l (w_procs w) + (if l =? lim then d else 0)) ->
  dinv {| w_store := st; w_lims := dupd (w_lims w) lim L'; w_procs := ps' |}.
Proof.
  intros I HL HC l. specialize (I l). specialize (HC l). unfold inflight, dupd, owed in *. cbn [w_lims w_procs].
  destruct (Z.eqb_spec l lim); [subst l|]; lia.
Qed.

Lemma dist_step_inv limit w e : dinv w -> dinv (fst (dist_step limit w e)).
Proof.
  intros I. destruct e as [lim req wid|req now]; cbn [dist_step].
  - destruct (match d_win (w_lims w lim) with
              | Some k => if k =? wid then (d_local (w_lims w lim), d_known (w_lims w lim)) else (0, 0)
              | None => (0, 0) end) as [lc kn].
    destruct (limit <=? kn); cbn [fst].
    + apply (dinv_upd w _ lim _ _ 0 I); [unfold owed; cbn; lia|]. intros l. destruct (l =? lim); lia.
    + apply (dinv_upd w _ lim _ _ 1 I); [unfold owed; cbn; lia|]. intros l. apply cnt_add.
  - destruct (dfind req (w_procs w)) as [[[lim wid] [newc|]]|] eqn:EF; [| |exact I].
    + cbn [fst]. apply (dinv_upd w _ lim _ _ (-1) I); [unfold owed; cbn; lia|].
      intros l. exact (cnt_remove l req _ _ EF).
    + destruct (limit <=? zget wid (w_store w)); cbn [fst].
      * apply (dinv_upd w _ lim _ _ (-1) I); [unfold owed; cbn; lia|].
        intros l. exact (cnt_remove l req _ _ EF).
      * apply (dinv_upd w _ lim _ _ 0 I); [unfold owed; cbn; lia|].
        intros l. rewrite (cnt_set l req _ _ _ EF) by reflexivity. destruct (l =? lim); lia.
Qed.

Theorem dist_conservation limit es : forall w, dinv w -> dinv (fst (dist_run limit w es)).
Proof.
  induction es as [|e r IH]; intros w I; cbn [dist_run]; [exact I|].
  pose proof (dist_step_inv limit w e I) as I1. destruct (dist_step limit w e) as [w1 o]. cbn [fst] in I1.
  specialize (IH w1 I1). destruct (dist_run limit w1 r) as [w2 os]. exact IH.
Qed.

Lemma dinv_init : dinv dworld_init.
Proof. intros l. reflexivity. Qed.

(** Two requests race on one limiter with limit 1: both read 0, both are forwarded (the shared
    counter is not updated atomically — by design of the component); conservation holds. *)
Example dist_example :
  let '(w, outs) := dist_run 1 dworld_init [DStart 0 0 0; DStart 0 1 0; DResume 0 5; DResume 1 5; DResume 0 9; DResume 1 9; DStart 0 2 0] in
  outs = [DWait; DWait; DWait; DWait; DFwd 0 9; DFwd 1 9; DDrop 2] /\
  d_recv (w_lims w 0) = 3 /\ d_fwd (w_lims w 0) = 2 /\ d_drop (w_lims w 0) = 1 /\ inflight w 0 = 0.
Proof. vm_compute. repeat split; congruence. Qed.
