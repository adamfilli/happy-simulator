From HS Require Import Base.Prelude C09.Model C09.Resource.
Local Open Scope Z_scope.
(** Clients use the lock properly: only a client inside the critical section
    releases. *)
Definition m_legit (s : mstate) (o : mop) : Prop :=
  match o with MRelease c _ => In c (m_cs s) | _ => True end.
Fixpoint m_legit_run (s : mstate) (ops : list mop) : Prop :=
  match ops with [] => True | o :: r => m_legit s o /\ m_legit_run (fst (m_step s o)) r end.

(** Exactly one holder while locked: a client in its critical section, or the
    waiter the lock was handed to and who has not resumed yet. *)
Definition m_inv (s : mstate) : Prop :=
  if m_locked s then (exists c, m_cs s = [c] /\ m_woken s = []) \/ (m_cs s = [] /\ exists w, m_woken s = [w])
  else m_cs s = [] /\ m_woken s = [] /\ m_waiters s = [].

Lemma assoc_find_single c l e : assoc_find c l = Some e -> (length l <= 1)%nat -> assoc_remove c l = [].
Proof.
  destruct l as [|[i v] [|x r]]; cbn; try discriminate; try lia.
  destruct (i =? c); [auto|discriminate].
Qed.

Lemma zremove_single c l : In c l -> (length l <= 1)%nat -> zremove c l = [].
Proof.
  destruct l as [|i [|x r]]; cbn; try tauto; try lia.
  intros [->|[]] _. rewrite Z.eqb_refl. auto.
Qed.

Lemma m_inv_step s o : m_inv s -> m_legit s o -> m_inv (fst (m_step s o)).
Proof.
  intros I L. pose proof I as J. unfold m_inv in J.
  destruct o as [c|c now|c now|c now]; cbn [m_step]; unfold m_try.
  - destruct (m_locked s); [exact I|]. destruct J as (Hc & Hw & _). unfold m_inv; cbn. rewrite Hc, Hw. left. eauto.
  - destruct (m_locked s); [exact J|]. destruct J as (Hc & Hw & _). unfold m_inv; cbn. rewrite Hc, Hw. left. eauto.
  - destruct (assoc_find c (m_woken s)) as [enq|] eqn:F; [|exact I].
    destruct (m_locked s); [|destruct J as (_ & W & _); rewrite W in F; discriminate].
    destruct J as [(c0 & _ & W)|(Hc & w & W)]; [rewrite W in F; discriminate|].
    unfold m_inv; cbn. rewrite Hc, (assoc_find_single _ _ _ F) by (rewrite W; cbn; lia). left; eauto.
  - cbn in L. destruct (m_locked s); cbn [negb]; [|exact I].
    destruct J as [(c0 & Hc & W)|(Hc & _)]; [|rewrite Hc in L; destruct L].
    assert (R : zremove c (m_cs s) = []) by (apply zremove_single; [exact L|rewrite Hc; cbn; lia]).
    destruct (m_waiters s) as [|[w enq] rest]; unfold m_inv; cbn; rewrite R, W; cbn; eauto.
Qed.

Lemma m_inv_run ops : forall s, m_inv s -> m_legit_run s ops -> m_inv (m_run s ops).
Proof.
  induction ops as [|o r IH]; cbn; intros s I L; auto. destruct L as [L1 L2].
  apply IH; auto. apply m_inv_step; auto.
Qed.

Definition sinv (cap : Z) (s : sstate) : Prop :=
  s_cap s = cap /\ 0 <= s_count s <= cap /\ Forall (fun w => 0 < wamt w) (s_waiters s) /\
  head_blocked (s_count s) (s_waiters s).

(** Clients release only permits they were given. *)
Definition s_legit (s : sstate) (o : sop) : Prop :=
  match o with SRelease k _ => k <= s_out s | _ => True end.
Fixpoint s_legit_run (s : sstate) (ops : list sop) : Prop :=
  match ops with [] => True | o :: r => s_legit s o /\ s_legit_run (fst (s_step s o)) r end.

Definition s_conserved (cap : Z) (s : sstate) : Prop := s_count s + s_out s = cap /\ 0 <= s_out s.

Lemma sinv_init cap : 0 < cap -> sinv cap (s_init cap) /\ s_conserved cap (s_init cap).
Proof. intros H. repeat split; cbn; auto; lia. Qed.

Lemma s_try_spec cap s k : sinv cap s ->
  match s_try s k with
  | None => k < 1
  | Some (s', true) => sinv cap s' /\ (s_conserved cap s -> s_conserved cap s')
  | Some (s', false) => s' = s /\ 1 <= k /\ s_count s < k
  end.
Proof.
  intros (Hc & Hb & Hw & Hh). unfold s_try. destruct (k <? 1) eqn:E1; [lia|].
  destruct (s_count s >=? k) eqn:E2; [|repeat split; lia]. split.
  - repeat split; cbn; auto; try lia. apply (head_blocked_le (s_count s)); [lia|exact Hh].
  - intros [C P]. split; cbn; lia.
Qed.

(** The bounds hold whatever the clients do; conservation needs legitimate releases. *)
Lemma sinv_step cap s o : sinv cap s ->
  sinv cap (fst (s_step s o)) /\ (s_legit s o -> s_conserved cap s -> s_conserved cap (fst (s_step s o))).
Proof.
  intros I. pose proof I as (Hc & Hb & Hw & Hh). pose proof (s_try_spec cap s) as T.
  assert (Same : forall P : Prop, sinv cap s /\ (P -> s_conserved cap s -> s_conserved cap s))
    by (intros P; exact (conj I (fun _ C => C))).
  destruct o as [c k|c k now|c now|k now]; cbn [s_step].
  - specialize (T k I). destruct (s_try s k) as [[s' [|]]|]; cbn [fst];
      [exact (conj (proj1 T) (fun _ => proj2 T))|destruct T as [-> _]; apply Same|apply Same].
  - destruct (k <? 1) eqn:E1; [apply Same|]. destruct (k >? s_cap s) eqn:E0; [apply Same|].
    specialize (T k I). destruct (s_try s k) as [[s' [|]]|]; cbn [fst];
      [exact (conj (proj1 T) (fun _ => proj2 T))| |apply Same].
    destruct T as (_ & Hk & Hlt). split; [|intros _ C; exact C]. repeat split; cbn; [exact Hc|apply Hb..| |].
    + apply Forall_app; split; [exact Hw|]. constructor; [cbn; lia|constructor].
    + destruct (s_waiters s); [cbn; lia|exact Hh].
  - destruct (w_find c (s_woken s)) as [[k enq]|]; [|apply Same]. exact (conj I (fun _ C => C)).
  - destruct (k <? 1) eqn:E1; [apply Same|]. destruct (s_count s + k >? s_cap s) eqn:E2; [apply Same|].
    pose proof (q_wake_spec (s_waiters s) (s_count s + k)) as Q.
    destruct (q_wake (s_count s + k) (s_waiters s)) as [[a1 pre] ws1]. destruct Q as (Hws & -> & Hlo & Hh1).
    rewrite Hws in Hw. apply Forall_app in Hw as [F1 F2].
    assert (0 <= zsum (map wamt pre)) by (apply zsum_pos, Forall_map, F1).
    cbn [fst]. split; [repeat split; cbn; [exact Hc|lia|lia|exact F2|exact Hh1]|].
    intros L [C P]. cbn in L. split; cbn; change (map (fun w : Z * Z * Z => snd (fst w)) pre) with (map wamt pre); lia.
Qed.

Lemma sinv_run cap ops : forall s, sinv cap s -> sinv cap (s_run s ops).
Proof. induction ops; cbn; intros; auto. apply IHops, sinv_step; auto. Qed.

Lemma sinv_reach cap ops : 0 < cap -> sinv cap (s_run (s_init cap) ops).
Proof. intros Hc. apply sinv_run, sinv_init, Hc. Qed.

Lemma s_conserved_run cap ops : forall s, sinv cap s -> s_conserved cap s -> s_legit_run s ops ->
  s_conserved cap (s_run s ops).
Proof.
  induction ops as [|o r IH]; cbn; intros s I C L; auto. destruct L as [L1 L2].
  destruct (sinv_step cap s o I) as [I' C']. apply IH; auto.
Qed.

Lemma s_acq_start_out s c k now : snd (s_step s (SAcqStart c k now)) =
  if (k <? 1) || (k >? s_cap s) then YErr else if s_count s >=? k then YDelay0 else YPark.
Proof.
  cbn. unfold s_try. destruct (k <? 1); [reflexivity|]. destruct (k >? s_cap s); [reflexivity|].
  destruct (s_count s >=? k); reflexivity.
Qed.

(** Arrival order across all acquirers (refuted in Props.v by a two-step run). *)
Definition s_no_overtaking : Prop :=
  forall cap ops c k now, 0 < cap ->
    snd (s_step (s_run (s_init cap) ops) (SAcqStart c k now)) = YDelay0 ->
    s_waiters (s_run (s_init cap) ops) = [].

(** ... but an acquire that needs at least as much as the head waiter never overtakes. *)
Lemma s_no_overtaking_partial s c k now w rest : head_blocked (s_count s) (s_waiters s) ->
  s_waiters s = w :: rest -> wamt w <= k -> snd (s_step s (SAcqStart c k now)) <> YDelay0.
Proof.
  intros Hh Hw Hle. rewrite Hw in Hh. cbn in Hh. rewrite s_acq_start_out.
  destruct (_ || _); [discriminate|]. destruct (s_count s >=? k) eqn:E; [lia|discriminate].
Qed.

Definition wclient (w : rw_waiter) : Z := fst (fst w).

Definition max_ok (mx : option Z) : Prop := match mx with None => True | Some m => 1 <= m end.
Definition le_max (mx : option Z) (n : Z) : Prop := match mx with None => True | Some m => n <= m end.

Record rw_core (mx : option Z) (s : rwstate) : Prop := {
  rc_max : rw_max s = mx;
  rc_readers : 0 <= rw_readers s;
  rc_excl : rw_wlocked s = true -> rw_readers s = 0;
  rc_le : le_max mx (rw_readers s);
}.

(** why the lock does not admit a reader / a writer right now (the two branches of [rw_head]) *)
Definition rw_blocked (s : rwstate) (wr : bool) : Prop :=
  if wr then rw_wlocked s = true \/ 0 < rw_readers s
  else rw_wlocked s = true \/ readers_full (rw_max s) (rw_readers s) = true.

(** the head waiter is really blocked (nobody waits while the lock allows it in) *)
Definition rw_head (s : rwstate) : Prop :=
  match rw_waiters s with
  | [] => True
  | w :: _ => if is_writer w then rw_wlocked s = true \/ 0 < rw_readers s
              else rw_wlocked s = true \/ readers_full (rw_max s) (rw_readers s) = true
  end.

Definition rw_inv (mx : option Z) (s : rwstate) : Prop := rw_core mx s /\ rw_head s.

Definition rw_ghost (s : rwstate) : Prop :=
  Z.of_nat (length (rw_rd s)) = rw_readers s /\
  length (rw_wr s) = (if rw_wlocked s then 1 else 0)%nat.

Definition rw_legit (s : rwstate) (o : rwop) : Prop :=
  match o with RWRelR c _ => In c (rw_rd s) | RWRelW c _ => In c (rw_wr s) | _ => True end.
Fixpoint rw_legit_run (s : rwstate) (ops : list rwop) : Prop :=
  match ops with [] => True | o :: r => rw_legit s o /\ rw_legit_run (fst (rw_step s o)) r end.

Lemma rw_inv_init mx : max_ok mx -> rw_inv mx (rw_init mx) /\ rw_ghost (rw_init mx).
Proof.
  intros H. split; [split; [constructor|exact I]|split]; cbn; auto; try lia; try discriminate.
  destruct mx; cbn in *; lia.
Qed.

Lemma readers_full_false mx n : max_ok mx -> readers_full mx n = false -> le_max mx n -> le_max mx (n + 1).
Proof.
  destruct mx as [m|]; cbn; auto. intros Hm H Hle.
  destruct (m =? 0) eqn:E; cbn in H; lia.
Qed.

Lemma rw_wake_readers_spec mx : forall ws readers peak,
  let '(n, pre, ws', _) := rw_wake_readers mx readers peak ws in
  ws = pre ++ ws' /\ n = readers + Z.of_nat (length pre) /\
  (max_ok mx -> le_max mx readers -> le_max mx n) /\
  match ws' with
  | [] => True
  | w :: _ => is_writer w = true \/ readers_full mx n = true
  end.
Proof.
  induction ws as [|w rest IH]; intros readers peak; cbn.
  - repeat split; auto; lia.
  - destruct (is_writer w) eqn:Ew; [cbn; repeat split; auto; lia|].
    destruct (readers_full mx readers) eqn:Ef; [cbn; repeat split; auto; lia|].
    specialize (IH (readers + 1) (Z.max peak (readers + 1))).
    destruct (rw_wake_readers mx (readers + 1) (Z.max peak (readers + 1)) rest) as [[[n1 pre1] ws1] pk1].
    destruct IH as (-> & -> & Hl & Hh). cbn [length]. repeat split; auto; try lia.
    intros Hm Hle. apply Hl; [exact Hm|]. apply readers_full_false; assumption.
Qed.

Lemma rw_wake_prefix s :
  exists pre, rw_waiters s = pre ++ rw_waiters (fst (rw_wake s)) /\ snd (rw_wake s) = map wclient pre.
Proof.
  unfold rw_wake. destruct (rw_waiters s) as [|front rest] eqn:Ws; [exists []; cbn; auto|].
  destruct (rw_wlocked s); [exists []; cbn; auto|].
  destruct (is_writer front).
  - destruct (rw_readers s =? 0); [exists [front]|exists []]; cbn; auto.
  - pose proof (rw_wake_readers_spec (rw_max s) (front :: rest) (rw_readers s) (rw_peak s)) as Q.
    destruct (rw_wake_readers (rw_max s) (rw_readers s) (rw_peak s) (front :: rest)) as [[[n pre] ws'] pk].
    exists pre. cbn. split; [apply Q|reflexivity].
Qed.

(** [g]: whatever makes the holder sets match the counters (the release was legitimate). *)
Lemma rw_wake_inv mx s (g : Prop) : max_ok mx -> rw_core mx s -> (g -> rw_ghost s) ->
  rw_inv mx (fst (rw_wake s)) /\ (g -> rw_ghost (fst (rw_wake s))).
Proof.
  intros Hm C G. pose proof C as [<- Hr Hw Hle].
  assert (Same : rw_head s -> rw_inv (rw_max s) s /\ (g -> rw_ghost s)) by (intros H; exact (conj (conj C H) G)).
  unfold rw_wake. destruct (rw_waiters s) as [|front rest] eqn:Ws.
  { apply Same. unfold rw_head. rewrite Ws. exact I. }
  destruct (rw_wlocked s) eqn:El.
  { apply Same. unfold rw_head. rewrite Ws, El. destruct (is_writer front); auto. }
  destruct (is_writer front) eqn:Ef.
  - destruct (rw_readers s =? 0) eqn:E0.
    + assert (Hz : rw_readers s = 0) by lia. cbn. split; [split|].
      * constructor; cbn; auto.
      * unfold rw_head; cbn. destruct rest as [|w r]; auto. destruct (is_writer w); auto.
      * intros Hg. destruct (G Hg) as [G1 G2]. rewrite El in G2. split; cbn; [exact G1|lia].
    + apply Same. unfold rw_head. rewrite Ws, El, Ef. right. lia.
  - pose proof (rw_wake_readers_spec (rw_max s) (front :: rest) (rw_readers s) (rw_peak s)) as Q.
    destruct (rw_wake_readers (rw_max s) (rw_readers s) (rw_peak s) (front :: rest)) as [[[n pre] ws'] pk].
    destruct Q as (Hws & -> & Hl & Hh). cbn. split; [split|].
    + constructor; cbn; auto; [lia|discriminate].
    + (* a writer at the new head waits for the readers just admitted *)
      unfold rw_head; cbn. destruct ws' as [|w r]; auto. destruct (is_writer w) eqn:Ew.
      * right. destruct pre as [|p pre]; cbn [length] in *; [|lia]. inversion Hws; subst. congruence.
      * destruct Hh as [Hh|Hh]; [congruence|auto].
    + intros Hg. destruct (G Hg) as [G1 G2]. rewrite El in G2. split; cbn; [|exact G2].
      rewrite app_length, map_length. unfold rw_waiter in *. lia.
Qed.

(** A try either fails and changes nothing, or succeeds, and then nobody was
    waiting (the head would not have been blocked). *)
Record try_post (mx : option Z) (wr : bool) (s s' : rwstate) (b : bool) : Prop := {
  tp_inv : rw_inv mx s';
  tp_ghost : rw_ghost s -> rw_ghost s';
  tp_won : b = true -> rw_waiters s = [];
  tp_lost : b = false -> s' = s /\ (rw_waiters s <> [] \/ rw_blocked s wr);
}.

Lemma try_lost mx wr s : rw_inv mx s -> rw_waiters s <> [] \/ rw_blocked s wr -> try_post mx wr s s false.
Proof. intros I W. constructor; auto. discriminate. Qed.

Lemma rw_try_read_post mx s c s' b : max_ok mx -> rw_inv mx s ->
  rw_try_read s c = (s', b) -> try_post mx false s s' b.
Proof.
  unfold rw_try_read. intros Hm I H. pose proof I as [[<- Hr Hw Hle] Hh].
  destruct (rw_wlocked s) eqn:El; [inversion H; subst; apply try_lost; [exact I|right; left; exact El]|].
  destruct (has_waiting_writer s) eqn:Ew.
  { inversion H; subst; apply try_lost; [exact I|left]. unfold has_waiting_writer in Ew.
    intros E. rewrite E in Ew. discriminate. }
  destruct (readers_full (rw_max s) (rw_readers s)) eqn:Ef; [inversion H; subst; apply try_lost; [exact I|right; right; exact Ef]|].
  inversion H; subst; clear H.
  assert (Hq : rw_waiters s = []).
  { destruct (rw_waiters s) as [|w r] eqn:Ws; auto. unfold has_waiting_writer in Ew. rewrite Ws in Ew. cbn in Ew.
    unfold rw_head in Hh. rewrite Ws in Hh.
    destruct (is_writer w) eqn:E; cbn in Ew; [discriminate|]. destruct Hh as [Hh|Hh]; congruence. }
  constructor; [split| | |discriminate]; cbn.
  - constructor; cbn; auto; [lia|discriminate|apply readers_full_false; auto].
  - unfold rw_head; cbn. rewrite Hq. exact Logic.I.
  - intros [G1 G2]. rewrite El in G2. split; cbn; [lia|exact G2].
  - auto.
Qed.

Lemma rw_try_write_post mx s c s' b : max_ok mx -> rw_inv mx s ->
  rw_try_write s c = (s', b) -> try_post mx true s s' b.
Proof.
  unfold rw_try_write. intros Hm I H. pose proof I as [[<- Hr Hw Hle] Hh].
  destruct (rw_wlocked s) eqn:El; cbn in H; [inversion H; subst; apply try_lost; [exact I|right; left; exact El]|].
  destruct (rw_readers s >? 0) eqn:Er; [inversion H; subst; apply try_lost; [exact I|right; right; lia]|].
  inversion H; subst; clear H.
  assert (Hz : rw_readers s = 0) by lia.
  assert (Hq : rw_waiters s = []).
  { destruct (rw_waiters s) as [|w r] eqn:Ws; auto. unfold rw_head in Hh. rewrite Ws in Hh.
    destruct (is_writer w); destruct Hh as [Hh|Hh]; try congruence; try lia.
    (* a waiting reader with no reader inside: the limit would be 0 *)
    destruct (rw_max s) as [m|]; cbn in *; [|discriminate]. destruct (m =? 0) eqn:E; cbn in Hh; lia. }
  constructor; [split| | |discriminate]; cbn.
  - constructor; cbn; auto.
  - unfold rw_head; cbn. rewrite Hq. exact Logic.I.
  - intros [G1 G2]. rewrite El in G2. split; cbn; [exact G1|lia].
  - auto.
Qed.

(** A refused acquire joins the tail; if it is alone there, the refusal is why it is blocked. *)
Lemma rw_inv_enqueue mx s s' w : rw_inv mx s -> rw_waiters s <> [] \/ rw_blocked s (is_writer w) ->
  rw_max s' = rw_max s -> rw_readers s' = rw_readers s -> rw_wlocked s' = rw_wlocked s ->
  rw_waiters s' = rw_waiters s ++ [w] -> rw_inv mx s'.
Proof.
  intros [[] Hh] Why Em Er El Ew. split; [constructor; rewrite ?Em, ?Er, ?El; assumption|].
  unfold rw_head in *. rewrite Em, Er, El, Ew. destruct (rw_waiters s); [|exact Hh].
  destruct Why as [W|W]; [now destruct W|exact W].
Qed.

Lemma fst_let {A B C} (p : A * B) (f : B -> C) : fst (let '(a, b) := p in (a, f b)) = fst p.
Proof. destruct p; reflexivity. Qed.

(** The two releases end alike: the lock is given back (state [x]), then the wake runs. *)
Lemma rw_release_woken x wk : snd (let '(s2, w) := rw_wake x in (s2, YWoken w)) = YWoken wk ->
  exists pre, rw_waiters x = pre ++ rw_waiters (fst (let '(s2, w) := rw_wake x in (s2, YWoken w))) /\ wk = map wclient pre.
Proof.
  destruct (rw_wake_prefix x) as (pre & P1 & P2). destruct (rw_wake x) as [s2 w].
  intros E; injection E as <-. exists pre. exact (conj P1 P2).
Qed.

Lemma rw_step_woken s o wk : snd (rw_step s o) = YWoken wk ->
  exists pre, rw_waiters s = pre ++ rw_waiters (fst (rw_step s o)) /\ wk = map wclient pre.
Proof.
  destruct o as [c|c|c now|c now|c now|c now|c now]; cbn [rw_step].
  - destruct (rw_try_read s c) as [s' []]; discriminate.
  - destruct (rw_try_write s c) as [s' []]; discriminate.
  - destruct (rw_try_read s c) as [s' []]; discriminate.
  - destruct (rw_try_write s c) as [s' []]; discriminate.
  - destruct (rww_find c (rw_woken s)) as [[wr enq]|]; discriminate.
  - destruct (rw_readers s <? 1); [discriminate|].
    exact (rw_release_woken _ wk).
  - destruct (rw_wlocked s); cbn [negb]; [|discriminate].
    exact (rw_release_woken _ wk).
Qed.

(** The lock part and the blocked head are kept whatever the clients do; the
    holder sets match the counters when clients release only what they hold. *)
Lemma rw_inv_step mx s o : max_ok mx -> rw_inv mx s ->
  rw_inv mx (fst (rw_step s o)) /\ (rw_legit s o /\ rw_ghost s -> rw_ghost (fst (rw_step s o))).
Proof.
  intros Hm I. pose proof I as [C Hh].
  assert (Same : rw_inv mx s /\ (rw_legit s o /\ rw_ghost s -> rw_ghost s)) by (split; [exact I|tauto]).
  destruct o as [c|c|c now|c now|c now|c now|c now]; cbn [rw_step].
  - destruct (rw_try_read s c) as [s' b] eqn:T. destruct (rw_try_read_post _ _ _ _ _ Hm I T). exact (conj tp_inv0 (fun H => tp_ghost0 (proj2 H))).
  - destruct (rw_try_write s c) as [s' b] eqn:T. destruct (rw_try_write_post _ _ _ _ _ Hm I T). exact (conj tp_inv0 (fun H => tp_ghost0 (proj2 H))).
  - destruct (rw_try_read s c) as [s' b] eqn:T. destruct (rw_try_read_post _ _ _ _ _ Hm I T).
    destruct b; cbn [fst]; [exact (conj tp_inv0 (fun H => tp_ghost0 (proj2 H)))|]. destruct (tp_lost0 eq_refl) as [_ Why].
    split; [apply (rw_inv_enqueue mx s _ (c, false, now)); [exact I|exact Why|reflexivity..]|intros [_ G]; exact G].
  - destruct (rw_try_write s c) as [s' b] eqn:T. destruct (rw_try_write_post _ _ _ _ _ Hm I T).
    destruct b; cbn [fst]; [exact (conj tp_inv0 (fun H => tp_ghost0 (proj2 H)))|]. destruct (tp_lost0 eq_refl) as [_ Why].
    split; [apply (rw_inv_enqueue mx s _ (c, true, now)); [exact I|exact Why|reflexivity..]|intros [_ G]; exact G].
  - destruct (rww_find c (rw_woken s)) as [[wr enq]|]; [|exact Same].
    destruct C. split; [split; [constructor; assumption|exact Hh]|intros [_ G]; exact G].
  - destruct (rw_readers s <? 1) eqn:E1; [exact Same|]. rewrite (fst_let (rw_wake _) YWoken). destruct C.
    apply rw_wake_inv; [exact Hm| |].
    + constructor; cbn; auto; [lia|intros El; specialize (rc_excl0 El); lia|].
      destruct mx; cbn in *; auto. lia.
    + intros [L [G1 G2]]. cbn in L. apply zremove_perm, Permutation.Permutation_length in L. cbn [length] in L.
      split; cbn; [lia|exact G2].
  - destruct (rw_wlocked s) eqn:El; cbn [negb]; [|exact Same]. rewrite (fst_let (rw_wake _) YWoken). destruct C.
    apply rw_wake_inv; [exact Hm| |].
    + constructor; cbn; auto.
    + intros [L [G1 G2]]. cbn in L. apply zremove_perm, Permutation.Permutation_length in L. cbn [length] in L.
      rewrite El in G2. rewrite G2 in L. split; cbn; [exact G1|injection L; auto].
Qed.

Lemma rw_no_overtaking mx s c now : max_ok mx -> rw_inv mx s ->
  (snd (rw_step s (RWAcqRStart c now)) = YDelay0 \/ snd (rw_step s (RWAcqWStart c now)) = YDelay0) ->
  rw_waiters s = [].
Proof.
  intros Hm I. cbn.
  destruct (rw_try_read s c) as [s1 b1] eqn:T1. destruct (rw_try_write s c) as [s2 b2] eqn:T2.
  destruct (rw_try_read_post _ _ _ _ _ Hm I T1) as [_ _ R _]. destruct (rw_try_write_post _ _ _ _ _ Hm I T2) as [_ _ W _].
  intros [E|E]; [destruct b1|destruct b2]; try discriminate; auto.
Qed.

Lemma rw_inv_run mx ops : max_ok mx -> forall s, rw_inv mx s -> rw_inv mx (rw_run s ops).
Proof.
  intros Hm. induction ops as [|o r IH]; cbn; intros s I; auto.
  apply IH, rw_inv_step; assumption.
Qed.

Lemma rw_inv_reach mx ops : max_ok mx -> rw_inv mx (rw_run (rw_init mx) ops).
Proof. intros Hm. apply (rw_inv_run mx ops Hm), rw_inv_init, Hm. Qed.

Lemma rw_ghost_run mx ops : max_ok mx -> forall s, rw_inv mx s -> rw_ghost s -> rw_legit_run s ops ->
  rw_ghost (rw_run s ops).
Proof.
  intros Hm. induction ops as [|o r IH]; cbn; intros s I G L; auto. destruct L as [L1 L2].
  destruct (rw_inv_step mx s o Hm I) as [I' G']. apply IH; auto.
Qed.
