(** RateLimitedEntity over ANY policy (arbitrary [pacq]/[ptua], any queue capacity):
    conservation and exactly-once; arrival order is refuted (known finding
    C10-entity-arrival-overtakes-queue) with the partial theorem that holds. *)
From HS Require Import Base.Prelude Base.Lists C10.Model.
From Coq Require Import QArith Permutation.
Local Open Scope Z_scope.

(** strictly increasing above [lo] *)
Fixpoint incr (lo : Z) (l : list Z) : Prop :=
  match l with [] => True | x :: r => lo < x /\ incr x r end.
Definition hi (lo : Z) (l : list Z) : Z := last l lo.

Lemma last_cons (x : Z) a d : last (x :: a) d = last a x.
Proof.
  revert x d; induction a as [|y a IH]; intros x d; [reflexivity|].
  change (last (x :: y :: a) d) with (last (y :: a) d). rewrite (IH y d), (IH y x). reflexivity.
Qed.
Lemma incr_app lo a b : incr lo (a ++ b) <-> incr lo a /\ incr (hi lo a) b.
Proof.
  revert lo; induction a as [|x a IH]; intros lo; [cbn; tauto|].
  cbn [app incr]. rewrite IH. unfold hi. rewrite last_cons. tauto.
Qed.
Lemma hi_app_app lo a b : hi lo (a ++ b) = hi (hi lo a) b.
Proof.
  unfold hi. revert lo; induction a as [|x a IH]; intros lo; [reflexivity|].
  rewrite <- app_comm_cons, !last_cons. apply IH.
Qed.
Lemma incr_weaken lo lo' l : lo' <= lo -> incr lo l -> incr lo' l.
Proof. destruct l; cbn; auto. intros ? [? ?]; split; [lia|auto]. Qed.
Lemma incr_hi lo l : incr lo l -> lo <= hi lo l.
Proof.
  revert lo; induction l as [|x r IH]; intros lo; [unfold hi; cbn; lia|].
  intros [H1 H2]. specialize (IH _ H2). unfold hi in *. rewrite last_cons. lia.
Qed.


Definition conserves {PS} (e : ent PS) (ids : list Z) (e' : ent PS) (outs : list eout) (dr : list Z) : Prop :=
  Permutation (e_queue e ++ ids) (fwd_ids outs ++ e_queue e' ++ dr) /\
  e_recv e' = e_recv e + Z.of_nat (length ids) /\
  e_fwd e' = e_fwd e + Z.of_nat (length (fwd_ids outs)) /\
  e_drop e' = e_drop e + Z.of_nat (length dr).

Lemma fwd_ids_app a b : fwd_ids (a ++ b) = fwd_ids a ++ fwd_ids b.
Proof. unfold fwd_ids. apply flat_map_app. Qed.

Lemma conserves_nil {PS} (e : ent PS) : conserves e [] e [] [].
Proof. unfold conserves. cbn. rewrite !app_nil_r. split; [apply Permutation_refl|lia]. Qed.

Lemma conserves_trans {PS} (e e1 e2 : ent PS) i1 o1 d1 i2 o2 d2 :
  conserves e i1 e1 o1 d1 -> conserves e1 i2 e2 o2 d2 -> conserves e (i1 ++ i2) e2 (o1 ++ o2) (d1 ++ d2).
Proof.
  intros (P1 & R1 & F1 & D1) (P2 & R2 & F2 & D2). unfold conserves.
  rewrite fwd_ids_app, !app_length, !Nat2Z.inj_add. split; [|lia].
  rewrite app_assoc. eapply Permutation_trans; [apply Permutation_app_tail; exact P1|].
  (* (F1 ++ Q1 ++ d1) ++ i2  ~  (F1 ++ F2) ++ Q2 ++ d1 ++ d2 *)
  rewrite <- !app_assoc. apply Permutation_app_head.
  eapply Permutation_trans; [apply Permutation_app_head, Permutation_app_comm|].
  rewrite app_assoc. eapply Permutation_trans; [apply Permutation_app_tail; exact P2|].
  rewrite <- !app_assoc. apply Permutation_app_head, Permutation_app_head, Permutation_app_comm.
Qed.

(** What one [handle_event] does to the queue [q] given the ids it brings (one for a request, none for a poll):
    admit on arrival ([ok]: the policy said yes), append, drop (nothing, for an idle poll), forward the head. *)
Inductive move (ok : Prop) (q ids q' f d : list Z) : Prop :=
| m_admit id : ok -> ids = [id] -> q' = q -> f = [id] -> d = [] -> move ok q ids q' f d
| m_queue : q' = q ++ ids -> f = [] -> d = [] -> move ok q ids q' f d
| m_keep : q' = q -> f = [] -> d = ids -> move ok q ids q' f d
| m_pop x : ids = [] -> q = x :: q' -> f = [x] -> d = [] -> move ok q ids q' f d.

Lemma move_perm ok q ids q' f d : move ok q ids q' f d -> Permutation (q ++ ids) (f ++ q' ++ d).
Proof.
  intros [id _ -> -> -> ->| -> -> ->| -> -> ->|x -> -> -> ->]; cbn [app]; rewrite ?app_nil_r.
  - apply Permutation_sym, Permutation_cons_append.
  - apply Permutation_refl.
  - apply Permutation_refl.
  - apply Permutation_refl.
Qed.

Lemma move_incr ok q ids q' f d lo F rest :
  move ok q ids q' f d -> (ids <> [] -> ok -> q = []) ->
  incr lo (F ++ q) -> incr (hi lo (F ++ q)) (ids ++ rest) ->
  incr lo ((F ++ f) ++ q') /\ incr (hi lo ((F ++ f) ++ q')) rest.
Proof.
  intros M HE HI HA. apply incr_app in HA. destruct HA as [HA1 HA2].
  destruct M as [id OK -> -> -> _| -> -> _| -> -> _|x -> -> -> _]; rewrite ?app_nil_r in *.
  - rewrite (HE ltac:(discriminate) OK), app_nil_r in *. rewrite hi_app_app. cbn [hi last] in *.
    split; [apply incr_app; split; assumption|exact HA2].
  - rewrite app_assoc, hi_app_app. split; [apply incr_app; split; assumption|exact HA2].
  - split; [exact HI|]. eapply incr_weaken; [apply incr_hi; exact HA1|exact HA2].
  - rewrite <- app_assoc. split; [exact HI|exact HA2].
Qed.

(** [ent_run] is [grun] at [ent_step] (convertible). *)
Section Conserve.
  Context {PS In : Type} (step : ent PS -> In -> ent PS * list eout * list Z) (ids : In -> list Z).
  Hypothesis step_ok : forall e i, let '(e1, o, d) := step e i in conserves e (ids i) e1 o d.

  Fixpoint grun (e : ent PS) (ins : list In) : ent PS * list eout * list Z :=
    match ins with
    | [] => (e, [], [])
    | i :: r => let '(e1, o1, d1) := step e i in
                let '(e2, o2, d2) := grun e1 r in (e2, o1 ++ o2, d1 ++ d2)
    end.

  Lemma grun_conserves ins : forall e,
    let '(e', outs, dr) := grun e ins in conserves e (flat_map ids ins) e' outs dr.
  Proof.
    induction ins as [|i r IH]; intros e; cbn [grun flat_map]; [apply conserves_nil|].
    pose proof (step_ok e i) as S1. destruct (step e i) as [[e1 o1] d1].
    specialize (IH e1). destruct (grun e1 r) as [[e2 o2] d2]. exact (conserves_trans _ _ _ _ _ _ _ _ _ S1 IH).
  Qed.
End Conserve.

Section Ent.
  Variable PS : Type.
  Variable pacq : PS -> Z -> PS * bool.
  Variable ptua : PS -> Z -> PS * Z.
  Variable cap : Z.
  Notation ent := (ent PS).
  Notation step := (ent_step PS pacq ptua cap).
  Notation run := (ent_run PS pacq ptua cap).
  Notation ensure := (ensure_poll PS ptua).

  Definition ids_of (i : ein) : list Z := match i with EReq id _ => [id] | EPoll _ => [] end.

  Lemma ensure_spec (e : ent) now : exists ps pf o,
    ensure e now = ({| e_pol := ps; e_queue := e_queue e; e_poll := pf; e_recv := e_recv e; e_fwd := e_fwd e;
                       e_queued := e_queued e; e_drop := e_drop e |}, o) /\ fwd_ids o = [].
  Proof.
    unfold ensure_poll. destruct (e_poll e) eqn:EP.
    - exists (e_pol e), true, []. destruct e; cbn in *; subst; auto.
    - destruct (ptua (e_pol e) now) as [ps w]. exists ps, true, [OPoll (now + w)]. auto.
  Qed.

  Lemma step_facts (e : ent) i :
    let '(e1, o, d) := step e i in
    move (snd (pacq (e_pol e) (ein_time i)) = true) (e_queue e) (ids_of i) (e_queue e1) (fwd_ids o) d /\
    e_recv e1 = e_recv e + Z.of_nat (length (ids_of i)) /\
    e_fwd e1 = e_fwd e + Z.of_nat (length (fwd_ids o)) /\
    e_drop e1 = e_drop e + Z.of_nat (length d).
  Proof.
    destruct i as [id now|now]; cbn [ent_step ids_of ein_time].
    - unfold ent_request. destruct (pacq (e_pol e) now) as [ps [|]].
      + split; [eapply m_admit; reflexivity|cbn; lia].
      + destruct (Z.of_nat (length (e_queue e)) <? cap).
        * unfold ensure_poll. cbn [e_poll e_pol]. destruct (e_poll e); [|destruct (ptua ps now)];
            (split; [apply m_queue; reflexivity|cbn; lia]).
        * split; [apply m_keep; reflexivity|cbn; lia].
    - unfold ent_poll. destruct (e_queue e) as [|q rest] eqn:EQ.
      + split; [apply m_keep; reflexivity|cbn; lia].
      + destruct (pacq (e_pol e) now) as [ps [|]].
        * destruct rest as [|q2 rest2]; [|unfold ensure_poll; cbn [e_poll e_pol]; destruct (ptua ps now)];
            (split; [apply (m_pop _ _ _ _ _ _ q); reflexivity|cbn; lia]).
        * unfold ensure_poll. cbn [e_poll e_pol]. destruct (ptua ps now).
          split; [apply m_keep; reflexivity|cbn; lia].
  Qed.

  Lemma step_conserves (e : ent) i : let '(e1, o, d) := step e i in conserves e (ids_of i) e1 o d.
  Proof.
    pose proof (step_facts e i) as H. destruct (step e i) as [[e1 o] d]. destruct H as [M C].
    split; [exact (move_perm _ _ _ _ _ _ M)|exact C].
  Qed.

  Lemma req_ids_cons i r : req_ids (i :: r) = ids_of i ++ req_ids r.
  Proof. destruct i; reflexivity. Qed.

  Theorem ent_conservation ins : forall e : ent,
    let '(e', outs, dr) := run e ins in conserves e (req_ids ins) e' outs dr.
  Proof. exact (grun_conserves step ids_of step_conserves ins). Qed.

  Corollary ent_exactly_once ps ins :
    let '(e', outs, dr) := run (ent_init PS ps) ins in
    Permutation (req_ids ins) (fwd_ids outs ++ e_queue e' ++ dr) /\
    e_recv e' = e_fwd e' + Z.of_nat (length (e_queue e')) + e_drop e' /\
    (NoDup (req_ids ins) -> NoDup (fwd_ids outs)).
  Proof.
    pose proof (ent_conservation ins (ent_init PS ps)) as C. destruct (run (ent_init PS ps) ins) as [[e' outs] dr].
    unfold conserves in C. cbn [ent_init e_queue e_recv e_fwd e_drop app] in C. destruct C as (P & R & F & D).
    split; [exact P|]. split.
    - apply Permutation_length in P. rewrite !app_length in P. lia.
    - intros ND. eapply Permutation_NoDup in ND; [|exact P]. apply NoDup_app_iff in ND. apply ND.
  Qed.

  (** Arrival order, PARTIAL: it holds for every run in which no request is admitted on
      arrival while earlier requests are still queued. *)
  Fixpoint no_overtake (e : ent) (ins : list ein) : Prop :=
    match ins with
    | [] => True
    | i :: r =>
        (match i with
         | EReq _ now => snd (pacq (e_pol e) now) = true -> e_queue e = []
         | EPoll _ => True
         end) /\ no_overtake (fst (fst (step e i))) r
    end.

  Lemma fifo_inv ins : forall (e : ent) lo F,
    incr lo (F ++ e_queue e) -> incr (hi lo (F ++ e_queue e)) (req_ids ins) -> no_overtake e ins ->
    incr lo (F ++ fwd_ids (snd (fst (run e ins)))).
  Proof.
    induction ins as [|i r IH]; intros e lo F HI HA HN; cbn [ent_run].
    - cbn. rewrite app_nil_r. apply incr_app in HI. tauto.
    - destruct HN as [HN1 HN2]. pose proof (step_facts e i) as SF. destruct (step e i) as [[e1 o1] d1].
      cbn [fst] in HN2. destruct SF as [M _]. rewrite req_ids_cons in HA.
      destruct (move_incr _ _ _ _ _ _ lo F (req_ids r) M) as [HI1 HA1]; [|exact HI|exact HA|].
      { destruct i as [id now|now]; [intros _; exact HN1|intros C; contradiction C; reflexivity]. }
      specialize (IH e1 lo (F ++ fwd_ids o1) HI1 HA1 HN2).
      destruct (run e1 r) as [[e2 o2] d2]. cbn [fst snd] in *. rewrite fwd_ids_app, app_assoc. exact IH.
  Qed.
End Ent.

(** Inductor: a step is a step of the entity after the EWMA update (any weights, any tau). *)
Section Ind.
  Variable NO : numops.
  Variable dflt : Model.num NO.
  Variable cap : Z.
  Notation istep := (ind_step NO dflt cap).

  Definition iids_of (i : iin NO) : list Z := match i with IReq id _ _ => [id] | IPoll _ => [] end.

  Lemma ind_step_conserves (e : ent (ips NO)) i :
    let '(e1, o, d) := istep e i in conserves e (iids_of i) e1 o d.
  Proof.
    destruct i as [id now a|now]; cbn [ind_step iids_of].
    - exact (step_conserves (ips NO) (ind_acq NO) (ind_tua NO dflt) cap (set_pol NO e (ind_update NO (e_pol e) now a)) (EReq id now)).
    - exact (step_conserves (ips NO) (ind_acq NO) (ind_tua NO dflt) cap e (EPoll now)).
  Qed.

End Ind.

(** Arrival order, full statement: REFUTED on the faithful model.  Token bucket with
    capacity 1, 1 token/s; requests 0 and 1 arrive at t = 0 (1 is queued, poll at 1 s);
    request 2 arrives at exactly 1 s and is delivered before the poll of the same instant
    (it was created earlier): it takes the token and overtakes request 1. *)
Definition fifo_statement : Prop :=
  forall (c : pol_cfg Qops) (s0 : pol_st Qops) (cap : Z) (ins : list ein),
    incr (-1) (req_ids ins) ->
    sched_ok _ (pol_acq Qops c) (pol_tua Qops c) cap (ent_init _ s0) 0 None ins = true ->
    incr (-1) (fwd_ids (snd (fst (ent_run _ (pol_acq Qops c) (pol_tua Qops c) cap (ent_init _ s0) ins)))).

Definition fifo_witness : list ein := [EReq 0 0; EReq 1 0; EReq 2 1000000000; EPoll 1000000000; EPoll 2000000000].

Example fifo_witness_forwards :
  fwd_ids (snd (fst (ent_run _ (pol_acq Qops (CTb (Build_tbp Qops 1%Q 1%Q))) (pol_tua Qops (CTb (Build_tbp Qops 1%Q 1%Q))) 10
                        (ent_init _ (STb (Build_tbs Qops 1%Q None))) fifo_witness))) = [0; 2; 1].
Proof. vm_compute. reflexivity. Qed.

Theorem ent_fifo_refuted : ~ fifo_statement.
Proof.
  intros H.
  specialize (H (CTb (Build_tbp Qops 1%Q 1%Q)) (STb (Build_tbs Qops 1%Q None)) 10 fifo_witness).
  assert (A : incr (-1) (req_ids fifo_witness)) by (cbn; lia).
  assert (B : sched_ok _ (pol_acq Qops (CTb (Build_tbp Qops 1%Q 1%Q))) (pol_tua Qops (CTb (Build_tbp Qops 1%Q 1%Q))) 10
                (ent_init _ (STb (Build_tbs Qops 1%Q None))) 0 None fifo_witness = true) by (vm_compute; reflexivity).
  specialize (H A B). rewrite fifo_witness_forwards in H. cbn in H. lia.
Qed.

(** [no_overtake] is satisfiable by a run that queues and drains (so the partial theorem is not
    vacuous): same bucket, request 2 arrives after the poll instead of before it. *)
Example fifo_partial_example :
  let ins := [EReq 0 0; EReq 1 0; EPoll 1000000000; EReq 2 1000000000; EPoll 2000000000] in
  let acq := pol_acq Qops (CTb (Build_tbp Qops 1%Q 1%Q)) in
  let tua := pol_tua Qops (CTb (Build_tbp Qops 1%Q 1%Q)) in
  let e0 := ent_init _ (STb (Build_tbs Qops 1%Q None)) in
  no_overtake _ acq tua 10 e0 ins /\
  fwd_ids (snd (fst (ent_run _ acq tua 10 e0 ins))) = [0; 1; 2].
Proof. vm_compute. repeat split; congruence. Qed.
