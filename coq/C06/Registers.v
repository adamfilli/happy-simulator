(** C06 — proofs about the fault-event stream and the register faults
    (crash/pause flag, link latency, link loss rate, capacity value). *)
From HS Require Import Base.Prelude C06.Model.
From Coq Require Import Sorting.Sorted Sorting.Permutation.
Local Open Scope Z_scope.

Definition kle (a b : fev) : Prop := is_true (FevOrder.leb a b).

Lemma kle_iff a b :
  kle a b <-> fe_time a < fe_time b \/ (fe_time a = fe_time b /\ fe_idx a <= fe_idx b).
Proof. unfold kle, is_true, FevOrder.leb. lia. Qed.

Lemma kle_trans : RelationClasses.Transitive kle.
Proof. intros a b c; rewrite !kle_iff; lia. Qed.

Lemma delivered_sorted sched : StronglySorted kle (delivered sched).
Proof. apply FevSort.StronglySorted_sort. exact kle_trans. Qed.

Lemma In_delivered sched e :
  In e (delivered sched) <-> In e (events_from 0 sched) /\ kept e = true.
Proof.
  unfold delivered. rewrite <- filter_In. split; intros H.
  - eapply Permutation_in; [apply Permutation_sym, FevSort.Permuted_sort|exact H].
  - eapply Permutation_in; [apply FevSort.Permuted_sort|exact H].
Qed.

Lemma In_win_events i w e :
  In e (win_events i w) <-> e = ev_on i w \/ exists t, w_e w = Some t /\ e = ev_off i w t.
Proof.
  unfold win_events. destruct (w_e w) as [t|]; cbn; split.
  - intros [<-|[<-|[]]]; [now left|right; now exists t].
  - intros [->|(t' & [= <-] & ->)]; auto.
  - intros [<-|[]]; now left.
  - intros [->|(t' & [=] & _)]; now left.
Qed.

Lemma In_events_from ws : forall i e,
  In e (events_from i ws) <->
  exists (k : nat) w, nth_error ws k = Some w /\
    (e = ev_on (i + Z.of_nat k) w \/ exists t, w_e w = Some t /\ e = ev_off (i + Z.of_nat k) w t).
Proof.
  induction ws as [|w r IH]; intros i e; cbn [events_from].
  - split; [intros []|intros ([|k] & w & [=] & _)].
  - assert (E : forall k, i + 1 + Z.of_nat k = i + Z.of_nat (S k)) by (intros; lia).
    rewrite in_app_iff, IH, In_win_events. split.
    + intros [H|(k & w' & Hn & H)]; [exists O, w; rewrite Z.add_0_r; auto|exists (S k), w'; rewrite <- E; auto].
    + intros ([|k] & w' & Hn & H); [left; injection Hn as <-; rewrite Z.add_0_r in H; exact H|].
      right. exists k, w'. rewrite E. auto.
Qed.

Lemma SS_filter {A} (R : A -> A -> Prop) f l : StronglySorted R l -> StronglySorted R (filter f l).
Proof.
  induction 1 as [|a l Hs IH Hf]; cbn; [constructor|].
  destruct (f a); [|exact IH]. constructor; [exact IH|].
  rewrite Forall_forall in *. intros x Hx. apply filter_In in Hx. apply Hf, Hx.
Qed.

Lemma In_upto t l e : In e (upto t l) <-> In e l /\ fe_time e <= t.
Proof. unfold upto. rewrite filter_In. intuition lia. Qed.

Section LastWriter.
  Context {A B : Type} (sel : A -> option B).

  Fixpoint last_some (l : list A) : option B :=
    match l with
    | [] => None
    | a :: r => match last_some r with Some b => Some b | None => sel a end
    end.

  (** [ok s l]: what the step equation needs of the state [s] in front of the
      remaining elements [l]. *)
  Context {St V : Type} (step : St -> A -> St) (obs : St -> V) (val : B -> V) (ok : St -> list A -> Prop).
  Hypothesis ok_step : forall s a r, ok s (a :: r) -> ok (step s a) r.
  Hypothesis obs_step : forall s a r, ok s (a :: r) ->
    obs (step s a) = match sel a with Some b => val b | None => obs s end.

  Lemma fold_last_writer : forall l s, ok s l ->
    obs (fold_left step l s) = match last_some l with Some b => val b | None => obs s end.
  Proof.
    induction l as [|a r IH]; intros s H; cbn; [reflexivity|].
    rewrite (IH _ (ok_step _ _ _ H)). destruct (last_some r); [reflexivity|]. exact (obs_step _ _ _ H).
  Qed.
End LastWriter.

Definition last_rel {A} (rel : A -> bool) : list A -> option A :=
  last_some (fun a => if rel a then Some a else None).

Lemma last_rel_cons {A} (rel : A -> bool) a r :
  last_rel rel (a :: r) = match last_rel rel r with Some e => Some e | None => if rel a then Some a else None end.
Proof. reflexivity. Qed.

Lemma last_rel_none {A} (rel : A -> bool) l : last_rel rel l = None -> forall e, In e l -> rel e = false.
Proof.
  induction l as [|a r IH]; [intros _ e []|]. rewrite last_rel_cons. intros H e.
  destruct (last_rel rel r); [discriminate|]. destruct (rel a) eqn:E; [discriminate|].
  intros [<-|Hi]; [exact E|]. now apply IH.
Qed.

Lemma last_rel_some {A} (rel : A -> bool) l e : last_rel rel l = Some e -> In e l /\ rel e = true.
Proof.
  induction l as [|a r IH]; [discriminate|]. rewrite last_rel_cons.
  destruct (last_rel rel r) as [e0|].
  - intros [= <-]. destruct (IH eq_refl). split; [now right|assumption].
  - destruct (rel a) eqn:E; [|discriminate]. intros [= <-]. split; [now left|exact E].
Qed.

Lemma last_rel_max rel l : StronglySorted kle l -> forall e, last_rel rel l = Some e ->
  forall e', In e' l -> rel e' = true -> kle e' e.
Proof.
  induction 1 as [|a r Hs IH Hf]; [discriminate|]. rewrite last_rel_cons. intros e H.
  rewrite Forall_forall in Hf.
  destruct (last_rel rel r) as [e0|] eqn:L.
  - injection H as <-. intros e' [<-|Hi'] Hx; [apply Hf, (last_rel_some _ _ _ L)|now apply (IH e0)].
  - destruct (rel a); [|discriminate]. injection H as <-. intros e' [<-|Hi'] Hx.
    + apply kle_iff; lia.
    + rewrite (last_rel_none _ _ L _ Hi') in Hx. discriminate.
Qed.

Definition wf_win (w : win) : Prop := match w_e w with Some e => w_s w <= e | None => True end.
Definition wf (sched : list win) : Prop := forall w, In w sched -> wf_win w.

(** Literal schedules are checked by evaluation. *)
Definition wfb (sched : list win) : bool :=
  forallb (fun w => match w_e w with Some e => w_s w <=? e | None => true end) sched.

Lemma wfb_wf sched : wfb sched = true -> wf sched.
Proof.
  intros H w Hw. apply (proj1 (forallb_forall _ _) H) in Hw. unfold wf_win. destruct (w_e w); [lia|exact I].
Qed.

Lemma kept_off k w te : w_e w = Some te -> kept (ev_off k w te) = deact_delivered w.
Proof. intros H. unfold kept, deact_delivered. rewrite H. reflexivity. Qed.

Lemma deact_act w : wf_win w -> deact_delivered w = true -> act_delivered w = true.
Proof.
  unfold wf_win, deact_delivered, act_delivered.
  destruct (w_e w), (w_c w); intros W D; (discriminate || reflexivity || lia).
Qed.

Lemma covers_true w t : covers w t = true ->
  act_delivered w = true /\ w_s w <= t /\ forall te, w_e w = Some te -> deact_delivered w = true -> t < te.
Proof.
  unfold covers. intros H. apply andb_prop in H as [H H3]. apply andb_prop in H as [H1 H2].
  split; [exact H1|]. split; [lia|]. intros te E D. rewrite E, D in H3. lia.
Qed.

Lemma covers_false w t : covers w t = false -> act_delivered w = true -> w_s w <= t ->
  exists te, w_e w = Some te /\ deact_delivered w = true /\ te <= t.
Proof.
  unfold covers. intros H A Hs. rewrite A in H. destruct (w_e w) as [te|]; [|lia].
  destruct (deact_delivered w); [|lia]. exists te. repeat split. lia.
Qed.

Lemma In_stream sched t e : In e (upto t (delivered sched)) <->
  fe_time e <= t /\ kept e = true /\
  exists (k : nat) w, nth_error sched k = Some w /\
    (e = ev_on (Z.of_nat k) w \/ exists te, w_e w = Some te /\ e = ev_off (Z.of_nat k) w te).
Proof.
  rewrite In_upto, In_delivered, In_events_from. cbn. tauto.
Qed.

Lemma stream_event sched t e : wf sched -> In e (upto t (delivered sched)) ->
  exists (k : nat) w, nth_error sched k = Some w /\ act_delivered w = true /\
    w_s w <= fe_time e <= t /\ (forall ee, w_e w = Some ee -> fe_time e <= ee) /\
    (e = ev_on (Z.of_nat k) w \/
     exists te, w_e w = Some te /\ deact_delivered w = true /\ e = ev_off (Z.of_nat k) w te).
Proof.
  intros Hwf H. apply In_stream in H as (Ht & Hk & k & w & Hn & Hform).
  pose proof (Hwf w (nth_error_In _ _ Hn)) as W.
  exists k, w. split; [exact Hn|]. destruct Hform as [->|(te & He & ->)].
  - split; [exact Hk|]. split; [split; [apply Z.le_refl|exact Ht]|]. split; [|now left].
    intros ee E. unfold wf_win in W. rewrite E in W. exact W.
  - rewrite (kept_off _ _ _ He) in Hk. split; [exact (deact_act w W Hk)|].
    unfold wf_win in W. rewrite He in W. split; [split; [exact W|exact Ht]|]. split; [|right; now exists te].
    intros ee E. rewrite He in E. injection E as <-. apply Z.le_refl.
Qed.

Lemma on_in_stream sched t (k : nat) w : nth_error sched k = Some w ->
  act_delivered w = true -> w_s w <= t -> In (ev_on (Z.of_nat k) w) (upto t (delivered sched)).
Proof.
  intros Hn A Hs. apply In_stream. split; [exact Hs|]. split; [exact A|]. exists k, w. split; [exact Hn|now left].
Qed.

Lemma off_in_stream sched t (k : nat) w te : nth_error sched k = Some w ->
  w_e w = Some te -> deact_delivered w = true -> te <= t -> In (ev_off (Z.of_nat k) w te) (upto t (delivered sched)).
Proof.
  intros Hn He D T. apply In_stream. split; [exact T|]. split; [now rewrite kept_off|].
  exists k, w. split; [exact Hn|]. right. now exists te.
Qed.

Lemma stream_sorted sched t : StronglySorted kle (upto t (delivered sched)).
Proof. apply SS_filter, delivered_sorted. Qed.

Definition activeG (relw : win -> bool) (sched : list win) (t : Z) : bool :=
  existsb (fun w => relw w && covers w t) sched.

Lemma activeG_false relw sched t : activeG relw sched t = false ->
  forall w, In w sched -> relw w = true -> covers w t = false.
Proof.
  unfold activeG. intros H w Hi Hx.
  destruct (covers w t) eqn:C; [|reflexivity].
  assert (existsb (fun w => relw w && covers w t) sched = true); [|congruence].
  apply existsb_exists. exists w. split; [exact Hi|]. now rewrite C, Hx.
Qed.

Lemma activeG_mono (relw relw' : win -> bool) sched t : (forall w, relw' w = true -> relw w = true) ->
  activeG relw sched t = false -> activeG relw' sched t = false.
Proof.
  intros Hsub H. destruct (activeG relw' sched t) eqn:E; [|reflexivity].
  apply existsb_exists in E as (w & Hi & Hw). apply andb_prop in Hw as (R & C).
  rewrite (activeG_false _ _ _ H w Hi (Hsub w R)) in C. discriminate.
Qed.

Definition ends_before (a b : win) : Prop :=
  exists e, w_e a = Some e /\ deact_delivered a = true /\ e < w_s b.

(** Relevant windows whose activation is delivered are pairwise strictly separated. *)
Definition separatedG (relw : win -> bool) (sched : list win) : Prop :=
  forall (i j : nat) a b, i <> j -> nth_error sched i = Some a -> nth_error sched j = Some b ->
    relw a = true -> relw b = true -> act_delivered a = true -> act_delivered b = true ->
    ends_before a b \/ ends_before b a.

Lemma separatedG_mono (relw relw' : win -> bool) sched : (forall w, relw' w = true -> relw w = true) ->
  separatedG relw sched -> separatedG relw' sched.
Proof. intros Hsub H i j a b Hij Hi Hj Ra Rb. apply (H i j a b Hij Hi Hj); apply Hsub; assumption. Qed.

Lemma separatedG_cons relw a l :
  (forall b, In b l -> relw a = true -> relw b = true -> ends_before a b \/ ends_before b a) ->
  separatedG relw l -> separatedG relw (a :: l).
Proof.
  intros Ha Hl [|i] [|j] x y Hij Hi Hj Rx Ry Ax Ay; cbn in Hi, Hj.
  - congruence.
  - injection Hi as <-. apply (Ha y (nth_error_In _ _ Hj) Rx Ry).
  - injection Hj as <-. apply or_comm, (Ha x (nth_error_In _ _ Hi) Ry Rx).
  - apply (Hl i j x y); auto.
Qed.

Lemma separatedG_nil relw : separatedG relw [].
Proof. intros [|i] j a b _ Hi; discriminate. Qed.

Section Generic.
  (** [rele] selects the events that write the observed location; it depends
      only on the window the event was generated from. *)
  Variable relw : win -> bool.
  Variable rele : fev -> bool.
  Hypothesis rele_on : forall k w, rele (ev_on k w) = relw w.
  Hypothesis rele_off : forall k w te, rele (ev_off k w te) = relw w.

  Lemma rele_of k w e :
    e = ev_on k w \/ (exists te, w_e w = Some te /\ deact_delivered w = true /\ e = ev_off k w te) ->
    rele e = relw w.
  Proof. intros [->|(te & _ & _ & ->)]; [apply rele_on|apply rele_off]. Qed.

  Lemma last_is_off sched t : wf sched -> activeG relw sched t = false ->
    forall e, last_rel rele (upto t (delivered sched)) = Some e -> fe_on e = false.
  Proof.
    intros Hwf Hact e L.
    destruct (last_rel_some _ _ _ L) as (Hin & Hrel).
    destruct (stream_event _ _ _ Hwf Hin) as (k & w & Hn & A & (_ & T) & Hend & Hform).
    rewrite (rele_of _ _ _ Hform) in Hrel.
    destruct Hform as [->|(te & _ & _ & ->)]; [|reflexivity]. exfalso.
    (* an activation of a window that is not in force: the window's own
       deactivation was delivered by [t], and it runs after the activation *)
    pose proof (activeG_false _ _ _ Hact w (nth_error_In _ _ Hn) Hrel) as C.
    destruct (covers_false _ _ C A T) as (te & He & D & Hte).
    pose proof (last_rel_max _ _ (stream_sorted sched t) _ L _ (off_in_stream _ _ _ _ _ Hn He D Hte)) as M.
    rewrite rele_off in M. apply M, kle_iff in Hrel. specialize (Hend _ He). cbn in Hrel, Hend. lia.
  Qed.

  Lemma last_is_own_on sched : wf sched -> separatedG relw sched ->
    forall w t, In w sched -> relw w = true -> covers w t = true ->
    exists k : nat, nth_error sched k = Some w /\
      last_rel rele (upto t (delivered sched)) = Some (ev_on (Z.of_nat k) w).
  Proof.
    intros Hwf Hsep w t Hw Hrel Hcov.
    destruct (In_nth_error _ _ Hw) as (k & Hk). exists k. split; [exact Hk|].
    destruct (covers_true _ _ Hcov) as (A & Hs & Hopen).
    pose proof (on_in_stream sched t k w Hk A Hs) as Hon.
    destruct (last_rel rele (upto t (delivered sched))) as [e|] eqn:L.
    2:{ pose proof (last_rel_none _ _ L _ Hon) as X. rewrite rele_on, Hrel in X. discriminate. }
    pose proof (last_rel_max _ _ (stream_sorted sched t) _ L _ Hon) as Hmax.
    rewrite rele_on in Hmax. pose proof (proj1 (kle_iff _ _) (Hmax Hrel)) as Hle. cbn [fe_time fe_idx ev_on] in Hle.
    destruct (last_rel_some _ _ _ L) as (Hin & Het).
    destruct (stream_event _ _ _ Hwf Hin) as (j & w' & Hj & A' & (Hs' & Ht') & Hend' & Hform).
    rewrite (rele_of _ _ _ Hform) in Het.
    destruct (Nat.eq_dec j k) as [->|Hjk].
    - (* an event of [w] itself: its deactivation has not run yet *)
      rewrite Hk in Hj. injection Hj as <-.
      destruct Hform as [->|(te & He & D & ->)]; [reflexivity|].
      specialize (Hopen te He D). cbn in Ht'. clear - Hopen Ht'. lia.
    - (* an event of another relevant window [w']: excluded by separation,
         [w] still open at [t] resp. [w'] closed before [w] starts *)
      exfalso.
      destruct (Hsep k j w w' (fun E => Hjk (eq_sym E)) Hk Hj Hrel Het A A') as [(ee & He & D & Hlt)|(ee & He & D & Hlt)].
      + specialize (Hopen ee He D). clear - Hopen Hlt Hs' Ht'. lia.
      + specialize (Hend' ee He). clear - Hend' Hlt Hle. lia.
  Qed.

  Definition last_on (l : list fev) : bool :=
    match last_rel rele l with Some e => fe_on e | None => false end.

  Corollary last_on_inactive sched t : wf sched -> activeG relw sched t = false ->
    last_on (upto t (delivered sched)) = false.
  Proof.
    intros Hwf Hact. unfold last_on. destruct (last_rel rele _) as [e|] eqn:L; [|reflexivity].
    exact (last_is_off sched t Hwf Hact e L).
  Qed.

  Corollary last_on_covered sched : wf sched -> separatedG relw sched ->
    forall w t, In w sched -> relw w = true -> covers w t = true -> last_on (upto t (delivered sched)) = true.
  Proof.
    intros Hwf Hsep w t Hw Hrel Hcov. unfold last_on.
    destruct (last_is_own_on sched Hwf Hsep w t Hw Hrel Hcov) as (k & _ & ->). reflexivity.
  Qed.
End Generic.

Definition wr (write : Z -> Z -> Z) (cfg : Z -> Z) (x : Z) (e : fev) : Z :=
  if fe_on e then write (cfg x) (fe_p e) else cfg x.

Definition rel_tgt (x : Z) (e : fev) : bool := fe_tgt e =? x.
Definition relw_tgt (x : Z) (w : win) : bool := w_tgt w =? x.

Lemma reg_at_last write cfg sched t x :
  reg_at write cfg sched t x =
  match last_rel (rel_tgt x) (upto t (delivered sched)) with Some e => wr write cfg x e | None => cfg x end.
Proof.
  unfold reg_at, reg_run.
  apply (fold_last_writer (fun e => if rel_tgt x e then Some e else None) (reg_step write cfg)
           (fun st => st x) (wr write cfg x) (fun _ _ => True)); [trivial| |exact I].
  intros st e _ _. unfold reg_step, upd, wr, rel_tgt. rewrite (Z.eqb_sym x).
  destruct (fe_tgt e =? x) eqn:E; [|reflexivity]. apply Z.eqb_eq in E. now rewrite E.
Qed.

Definition separated (sched : list win) (x : Z) : Prop := separatedG (relw_tgt x) sched.

(** The full statement ("whatever other faults overlap it") is false. *)
Definition effect_while_active_statement (write : Z -> Z -> Z) : Prop :=
  forall cfg sched, wf sched ->
  forall x t, active sched x t = true ->
  exists w, In w sched /\ w_tgt w = x /\ covers w t = true /\
            reg_at write cfg sched t x = write (cfg x) (w_p w).

(** Windows [1,5) and [3,4) on the same entity: at t = 4 the register is back
    at its configured value (a crashed entity runs) although the first window
    lasts until 5. *)
Definition overlap_witness (p1 p2 : Z) : list win :=
  [W 0 1 (Some 5) p1 None; W 0 3 (Some 4) p2 None].

Lemma overlap_refutes write c p1 p2 : write c p1 <> c -> write c p2 <> c -> ~ effect_while_active_statement write.
Proof.
  intros H1 H2 H.
  destruct (H (fun _ => c) (overlap_witness p1 p2) (wfb_wf (overlap_witness p1 p2) eq_refl) 0 4 eq_refl) as (w & Hin & _ & _ & Hv).
  change (reg_at write (fun _ => c) (overlap_witness p1 p2) 4 0) with c in Hv.
  destruct Hin as [<-|[<-|[]]]; symmetry in Hv; contradiction.
Qed.

(** Abutting windows listed in reverse chronological order are already enough:
    B = [5,9) is added before A = [1,5); at t = 5 A's deactivation (created
    later) runs after B's activation. *)
Definition abut_witness : list win := [W 0 5 (Some 9) 0 None; W 0 1 (Some 5) 0 None].
Lemma abutting_reverse_order_uncrashed :
  active abut_witness 0 6 = true /\ crashed_at abut_witness 6 0 = false.
Proof. split; reflexivity. Qed.

(** A handle cancelled before activation counts for nothing in the specification
    either (none of its closures runs: [c06_cancel_before_activation]). *)
Lemma cancelled_never_covers w tc t : w_c w = Some tc -> tc < w_s w -> covers w t = false.
Proof. intros Hc Hlt. unfold covers, act_delivered. rewrite Hc. destruct (w_s w <=? tc) eqn:E; [lia|reflexivity]. Qed.

Example separated_example :
  wf [W 0 1 (Some 3) 5 None; W 0 4 (Some 6) 7 None; W 1 2 (Some 5) 1 None] /\
  separated [W 0 1 (Some 3) 5 None; W 0 4 (Some 6) 7 None; W 1 2 (Some 5) 1 None] 0.
Proof.
  split; [apply wfb_wf; reflexivity|].
  apply separatedG_cons.
  - (* the window [1,3) ends before the other window on entity 0 starts; the third is on entity 1 *)
    intros b [<-|[<-|[]]] _ Rb; [|discriminate Rb]. left. exists 3. cbn. repeat split; lia.
  - apply separatedG_cons; [intros b [<-|[]] _ Rb; discriminate Rb|].
    apply separatedG_cons; [intros b []|apply separatedG_nil].
Qed.
