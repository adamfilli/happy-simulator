(** C13 — one node: what the primitives of [step] do to the member list (one equation or case
    lemma each), and the per-record relations that every handler, hence every input trace,
    respects ([keeps], [step_members]). *)
From HS Require Import Base.Prelude C13.Model.
Local Open Scope Z_scope.

Lemma find_upd n n' f ms :
  (forall m, m_name (f m) = m_name m) ->
  find_member n (upd_member n' f ms) =
  if n =? n' then option_map f (find_member n ms) else find_member n ms.
Proof.
  intros Hf. induction ms as [|m r IH]; cbn.
  - destruct (n =? n'); reflexivity.
  - destruct (m_name m =? n') eqn:E1.
    + rewrite Hf. destruct (m_name m =? n) eqn:E2.
      * apply Z.eqb_eq in E1, E2. rewrite <- E1, E2, Z.eqb_refl. reflexivity.
      * exact IH.
    + destruct (m_name m =? n) eqn:E2.
      * assert (n =? n' = false) as -> by lia. reflexivity.
      * exact IH.
Qed.

Lemma find_name n ms m : find_member n ms = Some m -> m_name m = n.
Proof.
  induction ms as [|x r IH]; cbn; [discriminate|].
  destruct (m_name x =? n) eqn:E; [intros [= <-]; lia|exact IH].
Qed.

Lemma mstate_eqb_eq a b : mstate_eqb a b = true <-> a = b.
Proof. destruct a, b; cbn; split; congruence. Qed.
Lemma mstate_eqb_neq a b : mstate_eqb a b = false <-> a <> b.
Proof. destruct a, b; cbn; split; congruence. Qed.

(** what the update [u] can make of the record [m]: a state [s] that its kind allows, an
    incarnation [i] not below [m]'s *)
Definition upd_sets (u : upd) (m : member) (s : mstate) (i : Z) : Prop :=
  m_inc m <= i /\
  ((s = Suspect /\ u_kind u = 0 /\ m_state m = Alive) \/
   (s = Dead /\ u_kind u = 1 /\ m_state m <> Dead) \/
   (s = Alive /\ u_kind u = 2 /\ m_inc m < i)).

Lemma apply_update_cases ms u :
  apply_update ms u = ms \/
  exists info s i, find_member (u_member u) ms = Some info /\ upd_sets u info s i /\
    apply_update ms u = upd_member (u_member u) (set_state_inc s i) ms.
Proof.
  unfold apply_update. destruct (find_member (u_member u) ms) as [info|]; [|now left].
  destruct (u_inc u <? m_inc info); [now left|].
  destruct ((u_kind u =? 0) && mstate_eqb (m_state info) Alive) eqn:E1.
  { apply andb_true_iff in E1 as [K E1]. apply Z.eqb_eq in K. apply mstate_eqb_eq in E1.
    right. exists info, Suspect, (Z.max (m_inc info) (u_inc u)).
    split; [reflexivity|]. split; [|reflexivity]. split; [apply Z.le_max_l|auto]. }
  destruct ((u_kind u =? 1) && negb (mstate_eqb (m_state info) Dead)) eqn:E2.
  { apply andb_true_iff in E2 as [K E2]. apply Z.eqb_eq in K. apply negb_true_iff, mstate_eqb_neq in E2.
    right. exists info, Dead, (Z.max (m_inc info) (u_inc u)).
    split; [reflexivity|]. split; [|reflexivity]. split; [apply Z.le_max_l|auto]. }
  destruct ((u_kind u =? 2) && (m_inc info <? u_inc u)) eqn:E3; [|now left].
  apply andb_true_iff in E3 as [K E3]. apply Z.eqb_eq in K. apply Z.ltb_lt in E3.
  right. exists info, Alive, (u_inc u).
  split; [reflexivity|]. split; [|reflexivity]. split; [apply Z.lt_le_incl, E3|auto].
Qed.

Lemma suspect_member_cases t ms :
  (suspect_member t ms = (ms, []) /\ forall info, find_member t ms = Some info -> m_state info <> Alive) \/
  exists info, find_member t ms = Some info /\ m_state info = Alive /\
    suspect_member t ms = (upd_member t (set_state Suspect) ms, [mkUpd t 0 (m_inc info)]).
Proof.
  unfold suspect_member. destruct (find_member t ms) as [info|]; [|left; split; [reflexivity|discriminate]].
  destruct (mstate_eqb (m_state info) Alive) eqn:E.
  - right. exists info. apply mstate_eqb_eq in E. auto.
  - left. split; [reflexivity|]. intros ? [= <-]. apply mstate_eqb_neq, E.
Qed.

(** the [is_available] result the tick uses for (the first record of) member [T] *)
Fixpoint avail_at (ms : list member) (avail : list bool) (T : Z) : bool :=
  match ms with
  | [] => true
  | m :: r => if m_name m =? T then match avail with [] => true | a :: _ => a end
              else avail_at r (tl avail) T
  end.

Lemma find_phi_pass c n : forall ms avail,
  find_member n (fst (phi_pass c ms avail)) =
  option_map (fun m => if mstate_eqb (m_state m) Alive && negb (available c m (avail_at ms avail n))
                       then set_state Suspect m else m)
             (find_member n ms).
Proof.
  induction ms as [|x r IH]; intros avail; cbn; [reflexivity|].
  specialize (IH (tl avail)). destruct (phi_pass c r (tl avail)) as [r' us]; cbn in IH.
  destruct (m_name x =? n) eqn:E; cbn [option_map].
  - destruct (mstate_eqb (m_state x) Alive && _); cbn; rewrite E; reflexivity.
  - destruct (mstate_eqb (m_state x) Alive && _); cbn; rewrite E; exact IH.
Qed.

Lemma tick_members c now st avail shuf :
  members (fst (step c now st (ITick avail shuf))) = fst (phi_pass c (members st) avail).
Proof.
  cbn [step]. destruct (phi_pass c (members st) avail) as [ms1 sus].
  destruct (next_probe_target ms1 (order st) (pidx st) shuf) as [[[t|] ord'] idx']; reflexivity.
Qed.

(** [keeps P ms ms']: every member of [ms] is still a member of [ms'], its record changed in
    a way [P], a preorder for each name, allows.  (Only the first record under a name
    counts: the one a Python dict would hold.) *)
Section Keeps.
  Variable P : Z -> member -> member -> Prop.
  Hypothesis P_refl : forall n m, P n m m.
  Hypothesis P_trans : forall n a b c, P n a b -> P n b c -> P n a c.

  Definition keeps (ms ms' : list member) : Prop :=
    forall n m, find_member n ms = Some m -> exists m', find_member n ms' = Some m' /\ P n m m'.

  Lemma keeps_refl ms : keeps ms ms.
  Proof using P_refl. intros n m H. exists m. split; [exact H|apply P_refl]. Qed.

  Lemma keeps_trans a b c : keeps a b -> keeps b c -> keeps a c.
  Proof using P_trans.
    intros H1 H2 n m Hm. destruct (H1 _ _ Hm) as (m' & Hm' & R1).
    destruct (H2 _ _ Hm') as (m'' & Hm'' & R2). exists m''. split; [exact Hm''|exact (P_trans _ _ _ _ R1 R2)].
  Qed.

  Lemma keeps_upd n f ms :
    (forall m, m_name (f m) = m_name m) ->
    (forall m, find_member n ms = Some m -> P n m (f m)) ->
    keeps ms (upd_member n f ms).
  Proof using P_refl.
    intros Hf HR k m Hm. rewrite find_upd by assumption.
    destruct (k =? n) eqn:E; [|exists m; split; [exact Hm|apply P_refl]].
    apply Z.eqb_eq in E; subst k. rewrite Hm; cbn. exists (f m). split; [reflexivity|apply HR, Hm].
  Qed.

  Lemma keeps_apply_update ms u :
    (forall m s i, upd_sets u m s i -> P (u_member u) m (set_state_inc s i m)) ->
    keeps ms (apply_update ms u).
  Proof using P_refl.
    intros HP. destruct (apply_update_cases ms u) as [->|(info & s & i & F & Hu & ->)]; [apply keeps_refl|].
    apply keeps_upd; [reflexivity|]. intros m Hm. rewrite F in Hm; injection Hm as <-. apply HP, Hu.
  Qed.

  Lemma keeps_apply_updates us :
    (forall u m s i, In u us -> upd_sets u m s i -> P (u_member u) m (set_state_inc s i m)) ->
    forall ms, keeps ms (apply_updates ms us).
  Proof using P_refl P_trans.
    unfold apply_updates. induction us as [|u r IH]; intros HP ms; cbn; [apply keeps_refl|].
    apply keeps_trans with (apply_update ms u).
    - apply keeps_apply_update. intros m s i. apply HP. now left.
    - apply IH. intros u' m s i Hin. apply HP. now right.
  Qed.

  Hypothesis P_suspect : forall n m, m_state m = Alive -> P n m (set_state Suspect m).

  Lemma keeps_phi_pass c ms avail : keeps ms (fst (phi_pass c ms avail)).
  Proof using P_refl P_suspect.
    intros n m Hm. rewrite find_phi_pass, Hm. eexists; split; [reflexivity|].
    destruct (mstate_eqb (m_state m) Alive) eqn:E; [|apply P_refl].
    destruct (negb _); [apply P_suspect, mstate_eqb_eq, E|apply P_refl].
  Qed.

  Lemma keeps_suspect t ms : keeps ms (fst (suspect_member t ms)).
  Proof using P_refl P_suspect.
    destruct (suspect_member_cases t ms) as [[-> _]|(info & F & Ha & ->)]; [apply keeps_refl|].
    apply keeps_upd; [reflexivity|]. intros m Hm. rewrite F in Hm; injection Hm as <-. apply P_suspect, Ha.
  Qed.
End Keeps.

Lemma step_members (Q : list member -> list member -> Prop) c now st i :
  (forall ms, Q ms ms) -> (forall a b c, Q a b -> Q b c -> Q a c) ->
  (forall avail ms, Q ms (fst (phi_pass c ms avail))) ->
  (forall f us, i = IPing f us \/ i = IAck f us -> forall ms, Q ms (apply_updates ms us)) ->
  (forall s us, i = IPing (Some s) us \/ i = IAck (Some s) us ->
     forall ms, Q ms (upd_member s (heartbeat now) ms)) ->
  (forall t ms, Q ms (fst (suspect_member t ms))) ->
  (forall t, i = ISusp (Some t) -> forall ms, Q ms (upd_member t (set_state Dead) ms)) ->
  Q (members st) (members (fst (step c now st i))).
Proof.
  intros Qr Qt Hphi Hupd Hbeat Hsus Hdead.
  destruct i as [avail shuf|from us|from us|target shuf|suspect|]; [rewrite tick_members; apply Hphi|cbn [step]..].
  - pose proof (Hupd from us (or_introl eq_refl) (members st)) as H.
    destruct from as [s|]; cbn; [|exact H].
    destruct (is_member s (apply_updates (members st) us)); [|exact H].
    eapply Qt; [exact H|]. apply (Hbeat s us). now left.
  - pose proof (Hupd from us (or_intror eq_refl) (members st)) as H.
    destruct from as [s|]; cbn; [|exact H].
    destruct (is_member s (apply_updates (members st) us)); cbn; [|exact H].
    eapply Qt; [exact H|]. apply (Hbeat s us). now right.
  - destruct target as [t|]; [|apply Qr].
    destruct (negb (is_member t (members st))); [apply Qr|].
    destruct (packs_get t (packs st)); [|apply Qr].
    pose proof (Hsus t (members st)) as H.
    destruct (suspect_member t (members st)) as [ms1 sus]; exact H.
  - destruct suspect as [t|]; [|apply Qr].
    destruct (find_member t (members st)) as [info|]; [|apply Qr].
    destruct (mstate_eqb (m_state info) Suspect); cbn; [apply (Hdead t eq_refl)|apply Qr].
  - apply Qr.
Qed.

(** What one handler may do to the record of one member:
    the incarnation never decreases, and a DEAD record stays DEAD with the same
    incarnation unless the incarnation strictly grows. *)
Definition R (m m' : member) : Prop :=
  m_inc m <= m_inc m' /\
  (m_state m = Dead -> (m_state m' = Dead /\ m_inc m' = m_inc m) \/ m_inc m < m_inc m').

Lemma R_refl m : R m m.
Proof. unfold R. split; [apply Z.le_refl|]. intros H. left. split; [exact H|reflexivity]. Qed.

Lemma R_trans a b c : R a b -> R b c -> R a c.
Proof.
  unfold R. intros (I1 & D1) (I2 & D2). split; [lia|].
  intros Hd. destruct (D1 Hd) as [[Hb Eb]|Hlt]; [|right; lia].
  destruct (D2 Hb) as [[Hc Ec]|Hlt]; [left; split; [assumption|lia]|right; lia].
Qed.

Lemma R_alive m s : m_state m = Alive -> R m (set_state s m).
Proof. intros H. unfold R; cbn. split; [apply Z.le_refl|congruence]. Qed.

Lemma R_upd_sets u m s i : upd_sets u m s i -> R m (set_state_inc s i m).
Proof.
  intros (Hi & [(-> & _ & H)|[(-> & _ & H)|(-> & _ & H)]]); unfold R; cbn; (split; [exact Hi|]);
    try congruence. intros _. now right.
Qed.

Lemma R_heartbeat now m : R m (heartbeat now m).
Proof. unfold R, heartbeat; cbn. split; [apply Z.le_refl|]. intros Hd; rewrite Hd; cbn. left; auto. Qed.

Definition LR : list member -> list member -> Prop := keeps (fun _ => R).

Lemma LR_refl ms : LR ms ms.
Proof. apply keeps_refl. intros _; apply R_refl. Qed.

Lemma LR_trans a b c : LR a b -> LR b c -> LR a c.
Proof. apply keeps_trans. intros _; apply R_trans. Qed.

Lemma step_LR c now st i : LR (members st) (members (fst (step c now st i))).
Proof.
  apply step_members; intros.
  - apply LR_refl.
  - eapply LR_trans; eassumption.
  - apply (keeps_phi_pass _ (fun _ => R_refl)); intros; apply R_alive; assumption.
  - apply (keeps_apply_updates _ (fun _ => R_refl) (fun _ => R_trans)); intros; eapply R_upd_sets; eassumption.
  - apply (keeps_upd _ (fun _ => R_refl)); [reflexivity|]. intros; apply R_heartbeat.
  - apply (keeps_suspect _ (fun _ => R_refl)); intros; apply R_alive; assumption.
  - apply (keeps_upd _ (fun _ => R_refl)); [reflexivity|]. intros m _. unfold R; cbn. split; [apply Z.le_refl|]. now left.
Qed.

Lemma run_LR c tr : forall st, LR (members st) (members (run c st tr)).
Proof.
  induction tr as [|[now i] r IH]; intros st; cbn; [apply LR_refl|].
  eapply LR_trans; [apply step_LR|apply IH].
Qed.

Definition upd_silent (T : Z) (u : upd) : Prop := ~ (u_member u = T /\ u_kind u = 2).

Definition silent (T : Z) (i : input) : Prop :=
  match i with
  | IPing from us | IAck from us => from <> Some T /\ Forall (upd_silent T) us
  | _ => True
  end.

Definition NA (T n : Z) (m m' : member) : Prop :=
  n = T -> m_state m <> Alive -> m_state m' <> Alive.

Lemma NA_refl T n m : NA T n m m.
Proof. intros _ H; exact H. Qed.

Lemma NA_trans T n a b c : NA T n a b -> NA T n b c -> NA T n a c.
Proof. unfold NA. auto. Qed.

Lemma NA_set T n m s : s <> Alive -> NA T n m (set_state s m).
Proof. intros H _ _. exact H. Qed.

Lemma step_NA T c now st i :
  silent T i -> keeps (NA T) (members st) (members (fst (step c now st i))).
Proof.
  intros Hs. apply step_members.
  - intros. apply keeps_refl, NA_refl.
  - intros a b c0. apply (keeps_trans _ (NA_trans T)).
  - intros. apply (keeps_phi_pass _ (NA_refl T)); intros; apply NA_set; discriminate.
  - (* no update announces [T] alive *)
    intros f us Hi. assert (Hu : Forall (upd_silent T) us) by (destruct Hi as [->| ->]; apply Hs).
    apply (keeps_apply_updates _ (NA_refl T) (NA_trans T)).
    intros u m s k Hin (_ & [(-> & _)|[(-> & _)|(-> & K & _)]]) E _; cbn; try discriminate.
    rewrite Forall_forall in Hu. destruct (Hu u Hin). split; assumption.
  - (* no heartbeat comes from [T] *)
    intros s us Hi ms. assert (Hne : s <> T) by (destruct Hi as [->| ->]; destruct Hs as [Hs _]; congruence).
    apply (keeps_upd _ (NA_refl T)); [reflexivity|]. intros m _ E. contradiction.
  - intros. apply (keeps_suspect _ (NA_refl T)); intros; apply NA_set; discriminate.
  - intros. apply (keeps_upd _ (NA_refl T)); [reflexivity|]. intros; apply NA_set; discriminate.
Qed.
