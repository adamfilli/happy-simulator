(** ControlProofs — a run driven through the control surface visits exactly the
    states of the uninterrupted loop (pausing only cuts the iteration), with an end time one
    iteration of that loop is one of the fast loop, and a step budget of n is
    used up by at most n deliveries, by exactly n if no breakpoint is registered. *)
From HS Require Import Base.Prelude Engine.Engine Engine.EngineProofs Engine.Control.
Local Open Scope Z_scope.

Section CP.
  Variables P U : Type.
  Variable invoke : U -> Z -> @ev P -> Z -> option (@inv_result P U).
  Variable etype : P -> Z.
  Variable metric : U -> Z -> option Z.
  Notation st := (@st P U).
  Notation cstep := (cstep invoke etype metric).
  Notation citerate := (citerate invoke etype metric).
  Notation coutcome := (@coutcome P U).
  Notation session := (@session P U).

  Inductive steps_to (end_ns : option Z) : st -> st -> Prop :=
  | st_refl s : steps_to end_ns s s
  | st_step s s1 s' : step_slow invoke end_ns s = Running s1 -> steps_to end_ns s1 s' -> steps_to end_ns s s'.

  Lemma steps_to_trans end_ns a b c : steps_to end_ns a b -> steps_to end_ns b c -> steps_to end_ns a c.
  Proof. induction 1; [auto|]. intros H2. econstructor; eauto. Qed.

  Lemma steps_to_snoc end_ns a b c : steps_to end_ns a b -> step_slow invoke end_ns b = Running c -> steps_to end_ns a c.
  Proof. intros H1 H2. eapply steps_to_trans; [exact H1|]. econstructor; [exact H2|constructor]. Qed.

  Theorem step_slow_eq_fast t s : step_slow invoke (Some t) s = step_fast invoke t s.
  Proof.
    unfold step_slow, step_fast. destruct (heap s) as [|e h]; [reflexivity|].
    rewrite Z.geb_leb. destruct (clock s <=? t); reflexivity.
  Qed.

  Lemma cstep_cases end_ns c s :
    match cstep end_ns c s with
    | CRunning c' s' => step_slow invoke end_ns s = Running s'
    | CPaused c' s' => s' = s \/ step_slow invoke end_ns s = Running s'
    | CStopped c' s' => step_slow invoke end_ns s = Stopped s' /\ s' = s
    | CRaised c' s' => step_slow invoke end_ns s = Raised s'
    end.
  Proof.
    unfold Control.cstep, step_slow. destruct (heap s) as [|e h] eqn:Hh; [auto|].
    destruct (negb _) eqn:Eg; [auto|].
    destruct (should_pause c); [left; reflexivity|].
    destruct (_ && negb (0 <? primary s)) eqn:Ea; [auto|].
    destruct (pop_and_handle invoke s e h) as [s'|s'|s'] eqn:Ep.
    - destruct (is_cancelled s e || (ev_time e <? clock s)); [reflexivity|].
      destruct (existsb _ _); [right; reflexivity|reflexivity].
    - destruct (pop_and_handle_not_stopped _ _ _ _ _ _ _ Ep).
    - reflexivity.
  Qed.

  (** What an outcome of the controlled loop started in [s] says about the uninterrupted loop. *)
  Definition oc_ok (end_ns : option Z) (s : st) (o : coutcome) : Prop :=
    match o with
    | CRaised _ s' => exists s1, steps_to end_ns s s1 /\ step_slow invoke end_ns s1 = Raised s'
    | CStopped _ s' => steps_to end_ns s s' /\ step_slow invoke end_ns s' = Stopped s'
    | CRunning _ s' | CPaused _ s' => steps_to end_ns s s'
    end.

  Lemma oc_ok_trans end_ns s0 s o : steps_to end_ns s0 s -> oc_ok end_ns s o -> oc_ok end_ns s0 o.
  Proof.
    intros H0. destruct o as [c s'|c s'|c s'|c s']; cbn; [apply steps_to_trans, H0..| |].
    - intros [H1 H2]. split; [eapply steps_to_trans; eauto|exact H2].
    - intros [s1 [H1 H2]]. exists s1. split; [eapply steps_to_trans; eauto|exact H2].
  Qed.

  Lemma citerate_path fuel end_ns : forall c s, oc_ok end_ns s (citerate fuel end_ns c s).
  Proof.
    induction fuel as [|f IH]; intros c s; cbn; [constructor|].
    pose proof (cstep_cases end_ns c s) as Hc.
    destruct (cstep end_ns c s) as [c1 s1|c1 s1|c1 s1|c1 s1]; cbn.
    - eapply oc_ok_trans; [|apply IH]. econstructor; [exact Hc|constructor].
    - destruct Hc as [->|Hc]; [constructor|econstructor; [exact Hc|constructor]].
    - destruct Hc as [Hc ->]. split; [constructor|exact Hc].
    - exists s. split; [constructor|exact Hc].
  Qed.

  (** Every state reached by any control session is a state of the
      uninterrupted run; a completed session ends where the loop stops. *)
  Definition sess_ok (end_ns : option Z) (s0 : st) (x : session) : Prop :=
    match s_phase x with
    | Failed => exists s1, steps_to end_ns s0 s1 /\ step_slow invoke end_ns s1 = Raised (s_st x)
    | Done => steps_to end_ns s0 (s_st x) /\ step_slow invoke end_ns (s_st x) = Stopped (s_st x)
    | _ => steps_to end_ns s0 (s_st x)
    end.

  Lemma sess_ok_ctl end_ns s0 x c' : sess_ok end_ns s0 x -> sess_ok end_ns s0 (mkSess (s_phase x) c' (s_st x)).
  Proof. intros H; exact H. Qed.

  Lemma sess_ok_path end_ns s0 x : s_phase x <> Failed -> sess_ok end_ns s0 x -> steps_to end_ns s0 (s_st x).
  Proof. unfold sess_ok. destruct (s_phase x); intros N H; [exact H..|apply H|congruence|exact H]. Qed.

  Lemma after_run_ok end_ns s0 fuel c x :
    s_phase x <> Failed -> sess_ok end_ns s0 x -> sess_ok end_ns s0 (after_run (citerate fuel end_ns c (s_st x))).
  Proof.
    intros N H. pose proof (oc_ok_trans _ _ _ _ (sess_ok_path _ _ _ N H) (citerate_path fuel end_ns c (s_st x))) as Hp.
    destruct (citerate fuel end_ns c (s_st x)); exact Hp.
  Qed.

  Lemma do_cmd_ok fuel end_ns s0 x k :
    sess_ok end_ns s0 x -> sess_ok end_ns s0 (do_cmd invoke etype metric fuel end_ns x k).
  Proof.
    intros H. destruct k as [| |n| |b|]; unfold do_cmd.
    - apply sess_ok_ctl, H.
    - destruct (s_phase x) eqn:E; try exact H. apply after_run_ok; [rewrite E; discriminate|exact H].
    - destruct (s_phase x) eqn:E; try exact H. destruct (n <? 1); [exact H|].
      apply after_run_ok; [rewrite E; discriminate|exact H].
    - destruct (s_phase x) eqn:E; try exact H. apply after_run_ok; [rewrite E; discriminate|exact H].
    - apply sess_ok_ctl, H.
    - apply sess_ok_ctl, H.
  Qed.

  Theorem session_ok fuel end_ns s0 ks : sess_ok end_ns s0 (run_session invoke etype metric fuel end_ns s0 ks).
  Proof.
    unfold run_session.
    assert (H0 : sess_ok end_ns s0 (mkSess NotStarted (mkCtl false None []) s0)) by (unfold sess_ok; cbn; constructor).
    revert H0. generalize (mkSess NotStarted (mkCtl false None []) s0) as x.
    induction ks as [|k ks IH]; intros x H; cbn; [exact H|]. apply IH. apply do_cmd_ok. exact H.
  Qed.

  (** What popping keeps, every session keeps: also a failed one, which stands
      where the handler raised, one step past a state of the uninterrupted run. *)
  Lemma step_slow_preserves Q end_ns s o :
    kept_by_pop P U invoke Q -> Q s -> step_slow invoke end_ns s = o -> Q (out_state o).
  Proof. intros Hpop H <-. exact (pops_preserves P U invoke Q _ Hpop (step_slow_pops P U invoke end_ns) s H). Qed.

  Lemma steps_to_preserves Q end_ns s s' :
    kept_by_pop P U invoke Q -> steps_to end_ns s s' -> Q s -> Q s'.
  Proof.
    intros Hpop. induction 1 as [s|s s1 s' Hs _ IH]; intros H; [exact H|].
    exact (IH (step_slow_preserves Q _ _ _ Hpop H Hs)).
  Qed.

  Theorem sess_ok_preserves Q end_ns s0 x : kept_by_pop P U invoke Q -> Q s0 -> sess_ok end_ns s0 x -> Q (s_st x).
  Proof.
    intros Hpop H0. pose proof (fun s H => steps_to_preserves Q end_ns s0 s Hpop H H0) as Hpath.
    unfold sess_ok. destruct (s_phase x); try exact (Hpath _).
    - intros [H _]. exact (Hpath _ H).
    - intros (s1 & H1 & H2). exact (step_slow_preserves Q _ _ _ Hpop (Hpath _ H1) H2).
  Qed.

  Lemma path_stopped_run end_ns s s' :
    steps_to end_ns s s' -> step_slow invoke end_ns s' = Stopped s' ->
    exists n, forall fuel, (n <= fuel)%nat -> run_slow invoke fuel end_ns s = Stopped s'.
  Proof.
    unfold run_slow. induction 1 as [s|s s1 s' Hs _ IH]; intros Hstop.
    - exists 1%nat. intros [|f] Hf; [lia|]. cbn. rewrite Hstop. reflexivity.
    - destruct (IH Hstop) as [n Hn]. exists (S n). intros [|f] Hf; [lia|]. cbn. rewrite Hs. apply Hn. lia.
  Qed.

  Lemma pop_and_handle_processed s e h :
    processed (out_state (pop_and_handle invoke s e h)) =
    processed s + (if is_cancelled s e || (ev_time e <? clock s) then 0 else 1).
  Proof.
    unfold pop_and_handle. destruct (is_cancelled s e); cbn; [lia|].
    destruct (ev_time e <? clock s); cbn; [lia|]. destruct (invoke _ _ _ _); cbn; lia.
  Qed.

  (** One iteration under a step budget [k > 0] with no pause requested uses up
      as much of the budget as it delivers; it pauses only on a breakpoint. *)
  Lemma cstep_budget end_ns k b s : 0 < k ->
    match cstep end_ns (mkCtl false (Some k) b) s with
    | CRunning c' s' => exists j b', c' = mkCtl false (Some (k - j)) b' /\ (b = [] -> b' = []) /\
                                     0 <= j <= 1 /\ processed s' = processed s + j
    | CPaused _ s' => b <> [] /\ processed s' = processed s + 1
    | CStopped _ s' => s' = s
    | CRaised _ _ => True
    end.
  Proof.
    intros Hk. unfold Control.cstep. destruct (heap s) as [|e h]; [reflexivity|].
    destruct (negb _); [reflexivity|].
    unfold should_pause; cbn [pause_req steps orb]. destruct (Z.leb_spec k 0); [lia|].
    destruct (_ && negb (0 <? primary s)); [reflexivity|].
    pose proof (pop_and_handle_processed s e h) as Hpr.
    destruct (pop_and_handle invoke s e h) as [s1|s1|s1] eqn:Ep; [|destruct (pop_and_handle_not_stopped _ _ _ _ _ _ _ Ep)|exact I].
    cbn [out_state] in Hpr. destruct (is_cancelled s e || (ev_time e <? clock s)); cbn [bps].
    - exists 0, b. rewrite Z.sub_0_r. auto with zarith.
    - destruct (existsb _ b) eqn:Eb.
      + split; [intros ->; discriminate Eb|exact Hpr].
      + exists 1, (filter (fun x => negb (should_break etype metric s1 e x && bp_one x)) b).
        split; [reflexivity|]. split; [intros ->; reflexivity|auto with zarith].
  Qed.

  (** step(n), no pause requested: a pause or the end of the run comes after at
      most n deliveries, whatever the breakpoints; with none registered a pause
      comes after exactly n. *)
  Theorem step_n_bounded fuel end_ns : forall k b s, 0 <= k ->
    match citerate fuel end_ns (mkCtl false (Some k) b) s with
    | CPaused c' s' => exists j, 0 <= j <= k /\ processed s' = processed s + (k - j) /\ (b = [] -> j = 0)
    | CStopped c' s' => exists j, 0 <= j <= k /\ processed s' = processed s + (k - j)
    | _ => True
    end.
  Proof.
    induction fuel as [|f IH]; intros k b s Hk; cbn; [exact I|].
    destruct (Z.eq_dec k 0) as [->|Hk0].
    - unfold Control.cstep. destruct (heap s); [exists 0; lia|]. destruct (negb _); [exists 0; lia|]. cbn. exists 0. lia.
    - pose proof (cstep_budget end_ns k b s ltac:(lia)) as H1.
      destruct (cstep end_ns _ s) as [c1 s1|c1 s1|c1 s1|c1 s1]; [| |subst s1; exists k; lia|exact I].
      + destruct H1 as (j & b' & -> & Hb & Hj & Hpr). specialize (IH (k - j) b' s1 ltac:(lia)).
        destruct (citerate f end_ns _ s1) as [c2 s2|c2 s2|c2 s2|c2 s2]; [exact I| | |exact I].
        * destruct IH as (i & Hi & E & H0). exists i. split; [lia|]. split; [lia|]. intros Eb. exact (H0 (Hb Eb)).
        * destruct IH as (i & Hi & E). exists i. lia.
      + destruct H1 as [Hb Hpr]. exists (k - 1). split; [lia|]. split; [lia|]. intros Eb. destruct (Hb Eb).
  Qed.
End CP.
