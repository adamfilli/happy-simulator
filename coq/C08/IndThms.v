(** C08 — theorems about the self-contained industrial components, over all
    schedules of their own pending events; at the end, about the models of
    server/concurrency.py ([cm_ok]). *)
From HS Require Import Base.Prelude C08.Model C08.Policies C08.Pipeline C08.IndModel.
Local Open Scope Z_scope.

Lemma pcev_eqb_eq a b : pcev_eqb a b = true -> a = b.
Proof. destruct a, b; cbn; intros H; try discriminate; apply Z.eqb_eq in H; now subst. Qed.

Lemma pc_remove_split e l rest : pc_remove e l = Some rest -> exists a b, l = a ++ e :: b /\ rest = a ++ b.
Proof. exact (remove_by_split pcev_eqb pcev_eqb_eq e l rest). Qed.

Lemma pc_retry_app a b : pc_retry (a ++ b) = pc_retry a ++ pc_retry b.
Proof. induction a as [|[] a IH]; cbn [pc_retry app]; congruence. Qed.

Lemma pc_service_app a b : pc_service (a ++ b) = pc_service a ++ pc_service b.
Proof. induction a as [|[] a IH]; cbn [pc_service app]; congruence. Qed.

Definition pc_arrival (l : pclabel) : list Z := match l with CArrive y => [y] | _ => [] end.

Lemma pc_arrivals_flat_map ls : pc_arrivals ls = flat_map pc_arrival ls.
Proof. induction ls as [|[] ls IH]; cbn [pc_arrivals flat_map pc_arrival app]; congruence. Qed.

(** [pc_arrive] puts the item in exactly one of: service, queue, rejected
    ([rej] is the ledger of rejected ids kept by the world). *)
Lemma pc_arrive_ledger x s y s' out rej : pc_arrive s y = (s', out) ->
  cnt x (if pc_rejected s s' then y :: rej else rej) + cnt x (pc_q s') + cnt x (pc_retry out) + cnt x (pc_service out)
  = cnt x rej + cnt x (pc_q s) + cnt x [y].
Proof.
  unfold pc_arrive, pc_rejected. destruct (0 <? pc_avail s).
  - intros [= <- <-]. cbn. rewrite eqb_succ. lia.
  - destruct ((0 <? pc_cap s) && (pc_cap s <=? zlen (pc_q s))); intros [= <- <-]; cbn [pc_rej pc_q pc_retry pc_service].
    + rewrite Z.eqb_refl. cbn. lia.
    + rewrite eqb_succ. rewrite cnt_app. cbn. lia.
Qed.

Lemma pc_resume_ledger x s s' out : pc_resume s = (s', out) ->
  cnt x (pc_q s') + cnt x (pc_retry out) = cnt x (pc_q s) /\ cnt x (pc_service out) = 0.
Proof.
  unfold pc_resume. destruct (pc_q s) as [|y r] eqn:Eq.
  - intros [= <- <-]. cbn. lia.
  - destruct (0 <? pc_avail s + 1); intros [= <- <-]; cbn; rewrite ?Eq; cbn; lia.
Qed.

Lemma pcw_step_places x w l w' out :
  pcw_step w l = Some (w', out) -> pc_places w' x = pc_places w x + cnt x (pc_arrival l).
Proof.
  unfold pcw_step, pc_places. destruct l as [y|e].
  - destruct (pc_arrive (pw_s w) y) as [s' o] eqn:E. intros [= <- <-]. cbn [pw_s pw_pend pw_rej pw_done pc_arrival].
    pose proof (pc_arrive_ledger x _ _ _ _ (pw_rej w) E). rewrite pc_retry_app, pc_service_app, !cnt_app. lia.
  - destruct (pc_remove e (pw_pend w)) as [rest|] eqn:Er; [|discriminate].
    apply pc_remove_split in Er as (a & b & -> & ->). destruct e as [y|y].
    + destruct (pc_resume (pw_s w)) as [s' o] eqn:E. intros [= <- <-]. cbn [pw_s pw_pend pw_rej pw_done pc_arrival].
      destruct (pc_resume_ledger x _ _ _ E).
      rewrite !pc_retry_app, !pc_service_app, !cnt_app. cbn [pc_retry pc_service cnt]. lia.
    + destruct (pc_arrive (pw_s w) y) as [s' o] eqn:E. intros [= <- <-]. cbn [pw_s pw_pend pw_rej pw_done pc_arrival].
      pose proof (pc_arrive_ledger x _ _ _ _ (pw_rej w) E).
      rewrite !pc_retry_app, !pc_service_app, !cnt_app. cbn [pc_retry pc_service cnt] in *. lia.
Qed.

Lemma pcw_run_places x ls w w' :
  pcw_run w ls = Some w' -> pc_places w' x = pc_places w x + cnt x (pc_arrivals ls).
Proof.
  intros H. rewrite pc_arrivals_flat_map.
  exact (orun_count pcw_step (fun w => pc_places w x) pc_arrival x (pcw_step_places x) ls w w' H).
Qed.

Fixpoint zl_retry (l : list pcev) : Z :=
  match l with [] => 0 | CRetry _ :: r => 1 + zl_retry r | _ :: r => zl_retry r end.

Lemma zl_retry_len l : zl_retry l = zlen (pc_retry l).
Proof. induction l as [|[] l IH]; [reflexivity|..]; cbn [zl_retry pc_retry]; rewrite ?zlen_cons; congruence. Qed.

(** Units: active + available = pool size, available never negative, and an
    item waits only while every unit is busy or promised to a re-emitted item. *)
Definition pc_inv (size : Z) (w : pcw) : Prop :=
  let s := pw_s w in
  pc_act s + pc_avail s = size /\ 0 <= pc_avail s /\
  (pc_q s <> [] -> pc_avail s <= zlen (pc_retry (pw_pend w))).

(** A fresh arrival and a re-emitted item take the same path; [n] counts the
    re-emitted items still pending besides the one being handled, if any. *)
Lemma pc_arrive_units s y s' out n : pc_arrive s y = (s', out) ->
  0 <= n -> 0 <= pc_avail s -> (pc_q s <> [] -> pc_avail s <= n + 1) ->
  pc_act s' + pc_avail s' = pc_act s + pc_avail s /\ 0 <= pc_avail s' /\
  (pc_q s' <> [] -> pc_avail s' <= n + zlen (pc_retry out)).
Proof.
  unfold pc_arrive. intros H Hn Ha Hq. destruct (0 <? pc_avail s) eqn:E.
  - injection H as <- <-. cbn. repeat split; try lia. intros Q. specialize (Hq Q). lia.
  - destruct ((0 <? pc_cap s) && (pc_cap s <=? zlen (pc_q s))); injection H as <- <-; cbn; repeat split; lia.
Qed.

Lemma pc_resume_units s s' out n : pc_resume s = (s', out) ->
  0 <= pc_avail s -> (pc_q s <> [] -> pc_avail s <= n) ->
  pc_act s' + pc_avail s' = pc_act s + pc_avail s /\ 0 <= pc_avail s' /\
  (pc_q s' <> [] -> pc_avail s' <= n + zlen (pc_retry out)).
Proof.
  unfold pc_resume. intros H Ha Hq. destruct (pc_q s) as [|z r].
  - injection H as <- <-. cbn. repeat split; try lia. intros C. now elim C.
  - assert (pc_avail s <= n) by (apply Hq; discriminate).
    destruct (0 <? pc_avail s + 1) eqn:E; injection H as <- <-; cbn; repeat split; lia.
Qed.

Lemma pcw_step_inv size w l w' out : pcw_step w l = Some (w', out) -> pc_inv size w -> pc_inv size w'.
Proof.
  unfold pcw_step, pc_inv. intros H (Hsum & Hnn & Hq). destruct l as [y|e].
  - destruct (pc_arrive (pw_s w) y) as [s' o] eqn:E. injection H as <- <-. cbn [pw_s pw_pend].
    rewrite pc_retry_app, zlen_app, <- Hsum. apply (pc_arrive_units _ _ _ _ _ E); [apply zlen_nonneg|exact Hnn|intros Q; specialize (Hq Q); lia].
  - destruct (pc_remove e (pw_pend w)) as [rest|] eqn:Er; [|discriminate].
    apply pc_remove_split in Er as (a & b & Hp & ->). rewrite Hp, pc_retry_app, zlen_app in Hq.
    pose proof (zlen_nonneg (pc_retry a)). pose proof (zlen_nonneg (pc_retry b)).
    destruct e as [y|y]; cbn [pc_retry] in Hq; rewrite ?zlen_cons in Hq.
    + destruct (pc_resume (pw_s w)) as [s' o] eqn:E. injection H as <- <-. cbn [pw_s pw_pend].
      rewrite !pc_retry_app, !zlen_app, <- Hsum. apply (pc_resume_units _ _ _ _ E); [exact Hnn|intros Q; specialize (Hq Q); lia].
    + destruct (pc_arrive (pw_s w) y) as [s' o] eqn:E. injection H as <- <-. cbn [pw_s pw_pend].
      rewrite !pc_retry_app, !zlen_app, <- Hsum. apply (pc_arrive_units _ _ _ _ _ E); [lia|exact Hnn|intros Q; specialize (Hq Q); lia].
Qed.

Fixpoint subseqb (a b : list Z) : bool :=
  match a, b with
  | [], _ => true
  | _ :: _, [] => false
  | x :: a', y :: b' => if x =? y then subseqb a' b' else subseqb a b'
  end.

(** The waiting line is NOT first-come-first-served: a dequeued item travels
    as a new event; an arrival handled before it takes the freed unit and the
    dequeued item is re-queued BEHIND items that arrived after it (or rejected
    when the queue is full).  Witness recorded from a real run
    (corpus/C08/industrial.pooled_retry_loses_slot.json). *)
Definition pooled_fifo_statement : Prop :=
  forall size cap ls w, pcw_run (pcw0 size cap) ls = Some w -> NoDup (pc_arrivals ls) ->
    subseqb (pc_q (pw_s w)) (pc_arrivals ls) = true.

Definition pooled_witness : list pclabel :=
  [CArrive 0; CArrive 1; CArrive 2; CFire (CCont 0); CArrive 3; CFire (CRetry 1)].

Example pooled_hyps : exists w,
  pcw_run (pcw0 1 0) pooled_witness = Some w /\ NoDup (pc_arrivals pooled_witness) /\
  zl_retry (pw_pend w) = 0 /\ pc_q (pw_s w) = [2; 1] /\ pc_avail (pw_s w) = 0.
Proof.
  eexists. split; [vm_compute; reflexivity|]. split; [cbn; repeat constructor; cbn; intuition discriminate|].
  vm_compute. repeat split; reflexivity.
Qed.

Definition g_inv (cap : Z) (s : gts) : Prop :=
  g_cap s = cap /\ (g_open s = true -> g_q s = []) /\ (0 < cap -> zlen (g_q s) <= cap).

Definition g_accepted (s : gts) (i : gin) (s' : gts) : list Z :=
  match i with GArr x => if g_rejected s s' then [] else [x] | _ => [] end.

(** One step keeps the invariant; what it forwards followed by what it then
    holds is what it held followed by the arrival it accepted. *)
Lemma g_step_spec cap s i s' out : g_step s i = (s', out) -> g_inv cap s ->
  g_inv cap s' /\ out ++ g_q s' = g_q s ++ g_accepted s i s'.
Proof.
  unfold g_step, g_inv, g_accepted, g_rejected. intros H (Hc & Ho & Hb). destruct i as [x| |].
  - destruct (g_open s) eqn:Eo.
    + injection H as <- <-. cbn. rewrite eqb_succ. repeat split; auto. now rewrite (Ho eq_refl).
    + destruct ((0 <? g_cap s) && (g_cap s <=? zlen (g_q s))) eqn:Ec; injection H as <- <-; cbn.
      * rewrite Z.eqb_refl, app_nil_r. repeat split; auto; discriminate.
      * rewrite eqb_succ. repeat split; auto; try discriminate.
        rewrite zlen_snoc. lia.
  - destruct (g_open s) eqn:Eo; injection H as <- <-; cbn; rewrite ?app_nil_r.
    + auto.
    + repeat split; auto. lia.
  - destruct (g_open s) eqn:Eo; injection H as <- <-; cbn; rewrite ?app_nil_r; repeat split; auto; try discriminate.
    rewrite Eo. discriminate.
Qed.

(** Conservation and FIFO in one: what was forwarded, followed by what is
    queued, is exactly the sequence of non-rejected arrivals, in arrival order. *)
Lemma gate_fifo_gen cap : forall ins s s' outs rejs accs,
  g_inv cap s -> g_run s ins = (s', outs, rejs, accs) ->
  outs ++ g_q s' = g_q s ++ accs /\ g_inv cap s'.
Proof.
  induction ins as [|i ins IH]; cbn [g_run]; intros s s' outs rejs accs Hi H.
  - injection H as <- <- <- <-. rewrite app_nil_r. auto.
  - destruct (g_step s i) as [s1 out] eqn:E1. destruct (g_run s1 ins) as [[[s2 o2] r2] a2] eqn:E2.
    destruct (g_step_spec _ _ _ _ _ E1 Hi) as [Hi1 Hq]. destruct (IH _ _ _ _ _ Hi1 E2) as [Heq Hi2].
    assert (outs = out ++ o2 /\ accs = g_accepted s i s1 ++ a2 /\ s' = s2) as (-> & -> & ->).
    { unfold g_accepted. destruct i; [destruct (g_rejected s s1)| |]; injection H as <- <- <- <-; auto. }
    split; [|exact Hi2]. now rewrite <- app_assoc, Heq, !app_assoc, Hq.
Qed.

(** Every arrival is either rejected (and counted) or accepted. *)
Lemma gate_split : forall ins s s' outs rejs accs x,
  g_run s ins = (s', outs, rejs, accs) -> cnt x rejs + cnt x accs = cnt x (g_arrivals ins).
Proof.
  induction ins as [|i ins IH]; cbn [g_run]; intros s s' outs rejs accs x H.
  - now injection H as <- <- <- <-.
  - destruct (g_step s i) as [s1 out]. destruct (g_run s1 ins) as [[[s2 o2] r2] a2] eqn:E2.
    specialize (IH _ _ _ _ _ x E2).
    destruct i; [destruct (g_rejected s s1)| |]; injection H as <- <- <- <-; cbn [g_arrivals cnt]; lia.
Qed.

Lemma z_remove_split y l rest : z_remove y l = Some rest -> exists a b, l = a ++ y :: b /\ rest = a ++ b.
Proof. exact (remove_by_split Z.eqb (fun a b => proj1 (Z.eqb_eq a b)) y l rest). Qed.

Definition cv_arrival (i : cvin) : list Z := match i with VArr y => [y] | _ => [] end.

Lemma cv_arrivals_flat_map ins : cv_arrivals ins = flat_map cv_arrival ins.
Proof. induction ins as [|[] ins IH]; cbn [cv_arrivals flat_map cv_arrival app]; congruence. Qed.

Definition cv_inv (cap : Z) (w : cvw) : Prop :=
  cv_cap (vw_s w) = cap /\ cv_transit (vw_s w) = zlen (vw_pend w) /\ (0 < cap -> cv_transit (vw_s w) <= cap).

Lemma cvw_step_spec x w i w' out : cvw_step w i = Some (w', out) ->
  cv_places w' x = cv_places w x + cnt x (cv_arrival i) /\ (forall cap, cv_inv cap w -> cv_inv cap w').
Proof.
  unfold cvw_step, cv_step, cv_places, cv_inv, zlen. destruct i as [y|y].
  - destruct ((0 <? cv_cap (vw_s w)) && (cv_cap (vw_s w) <=? cv_transit (vw_s w))) eqn:Ec;
      intros [= <- <-]; cbn [vw_s vw_pend vw_rej vw_done cv_transit cv_cap cv_arrival cnt length];
      rewrite ?cnt_app, ?app_length; cbn [cnt length]; (split; [|intros cap]); lia.
  - destruct (z_remove y (vw_pend w)) as [rest|] eqn:Er; [|discriminate].
    apply z_remove_split in Er as (a & b & -> & ->).
    intros [= <- <-]; cbn [vw_s vw_pend vw_rej vw_done cv_transit cv_cap cv_arrival].
    rewrite !cnt_app, !app_length. cbn [cnt length]. split; [|intros cap]; lia.
Qed.

Lemma cvw_run_places x ins w w' :
  cvw_run w ins = Some w' -> cv_places w' x = cv_places w x + cnt x (cv_arrivals ins).
Proof.
  intros H. rewrite cv_arrivals_flat_map.
  exact (orun_count cvw_step (fun w => cv_places w x) cv_arrival x
           (fun w i w' o E => proj1 (cvw_step_spec x w i w' o E)) ins w w' H).
Qed.

Lemma bev_eqb_eq a b : bev_eqb a b = true -> a = b.
Proof.
  destruct a, b; cbn; intros H; try discriminate; [reflexivity|].
  f_equal. apply (list_eqb_spec Z.eqb); [apply Z.eqb_eq|exact H].
Qed.

Lemma b_remove_split e l rest : b_remove e l = Some rest -> exists a b, l = a ++ e :: b /\ rest = a ++ b.
Proof. exact (remove_by_split bev_eqb bev_eqb_eq e l rest). Qed.

Lemma b_inbatch_app a b : b_inbatch (a ++ b) = b_inbatch a ++ b_inbatch b.
Proof. induction a as [|[] a IH]; cbn [b_inbatch app]; rewrite ?IH, ?app_assoc; reflexivity. Qed.

Definition b_arrival (i : bin) : list Z := match i with BArr y => [y] | _ => [] end.

Lemma b_arrivals_flat_map ins : b_arrivals ins = flat_map b_arrival ins.
Proof. induction ins as [|[] ins IH]; cbn [b_arrivals flat_map b_arrival app]; congruence. Qed.

Definition scheduled (outs : list bout) : list bev :=
  flat_map (fun o => match o with BSched e => [e] | _ => [] end) outs.

(** Applying a handler's outputs adds the batches it schedules to those in
    process; cancelling the timeout and forwarding change nothing there. *)
Lemma b_apply_inbatch : forall outs pend,
  b_inbatch (b_apply pend outs) = b_inbatch pend ++ b_inbatch (scheduled outs).
Proof.
  induction outs as [|[e| |y] outs IH]; intros pend; cbn [b_apply scheduled flat_map]; rewrite ?IH.
  - now rewrite app_nil_r.
  - now rewrite !b_inbatch_app, app_assoc.
  - f_equal. destruct (b_remove BTimeout pend) as [rest|] eqn:Er; [|reflexivity].
    apply b_remove_split in Er as (a & b & -> & ->). now rewrite !b_inbatch_app.
  - reflexivity.
Qed.

Lemma fwd_ids_map b : fwd_ids (map BFwd b) = b.
Proof. induction b as [|y b IH]; cbn; congruence. Qed.

Lemma scheduled_map_fwd b : scheduled (map BFwd b) = [].
Proof. induction b as [|y b IH]; cbn; auto. Qed.

Lemma b_step_ledger x s i s' out : b_step s i = (s', out) ->
  cnt x (b_buf s') + cnt x (b_inbatch (scheduled out)) = cnt x (b_buf s) + cnt x (b_arrival i)
  /\ fwd_ids out = match i with BRes batch => batch | _ => [] end.
Proof.
  unfold b_step, b_process. destruct i as [y| |batch]; cbn [b_buf b_tpending b_arrival].
  - destruct (b_size s <=? zlen (b_buf s ++ [y])); [|destruct ((zlen (b_buf s ++ [y]) =? 1) && b_timeout_on s)];
      intros [= <- <-]; cbn [b_buf]; [destruct (b_tpending s)|..]; cbn; rewrite ?app_nil_r, ?cnt_app; cbn;
      (split; [lia|reflexivity]).
  - destruct (b_buf s) eqn:Eb; intros [= <- <-]; cbn [b_buf]; cbn; rewrite ?app_nil_r, ?Eb; cbn; (split; [lia|reflexivity]).
  - intros [= <- <-]. cbn [b_buf]. rewrite scheduled_map_fwd, fwd_ids_map. cbn. split; [lia|reflexivity].
Qed.

Lemma bw_step_places x w i w' out : bw_step w i = Some (w', out) ->
  b_places w' x = b_places w x + cnt x (b_arrival i).
Proof.
  unfold bw_step, b_places. destruct i as [y| |batch].
  - destruct (b_step (bw_s w) (BArr y)) as [s' o] eqn:E. intros [= <- <-]. cbn [bw_s bw_pend bw_done].
    destruct (b_step_ledger x _ _ _ _ E) as [Hl _]. rewrite b_apply_inbatch, cnt_app. lia.
  - destruct (b_remove BTimeout (bw_pend w)) as [rest|] eqn:Er; [|discriminate].
    apply b_remove_split in Er as (a & b & -> & ->).
    destruct (b_step (bw_s w) BFireTimeout) as [s' o] eqn:E. intros [= <- <-]. cbn [bw_s bw_pend bw_done].
    destruct (b_step_ledger x _ _ _ _ E) as [Hl _]. rewrite b_apply_inbatch, !b_inbatch_app, !cnt_app. cbn [b_inbatch]. lia.
  - destruct (b_remove (BCont batch) (bw_pend w)) as [rest|] eqn:Er; [|discriminate].
    apply b_remove_split in Er as (a & b & -> & ->).
    destruct (b_step (bw_s w) (BRes batch)) as [s' o] eqn:E. intros [= <- <-]. cbn [bw_s bw_pend bw_done].
    destruct (b_step_ledger x _ _ _ _ E) as [Hl ->]. rewrite b_apply_inbatch, !b_inbatch_app, !cnt_app. cbn [b_inbatch].
    rewrite cnt_app. lia.
Qed.

Lemma bw_run_places x ins w w' :
  bw_run w ins = Some w' -> b_places w' x = b_places w x + cnt x (b_arrivals ins).
Proof.
  intros H. rewrite b_arrivals_flat_map.
  exact (orun_count bw_step (fun w => b_places w x) b_arrival x (bw_step_places x) ins w w' H).
Qed.

Definition b_inv (size : Z) (s : bts) : Prop :=
  b_size s = size /\ (1 <= size -> zlen (b_buf s) < size).

Lemma b_step_inv size s i s' out : b_step s i = (s', out) -> b_inv size s -> b_inv size s'.
Proof.
  unfold b_step, b_process, b_inv. intros H [<- Hb]. destruct i as [y| |batch].
  - destruct (b_size s <=? zlen (b_buf s ++ [y])) eqn:Es; [|destruct ((zlen (b_buf s ++ [y]) =? 1) && b_timeout_on s)];
      injection H as <- _; cbn; split; auto; lia.
  - destruct (b_buf s); injection H as <- _; cbn; split; auto; lia.
  - injection H as <- _. cbn. auto.
Qed.

Lemma bw_step_state w i w' out : bw_step w i = Some (w', out) -> b_step (bw_s w) i = (bw_s w', out).
Proof.
  unfold bw_step. destruct i as [y| |batch]; [|destruct (b_remove _ _); [|discriminate]..];
    destruct (b_step _ _) as [s' o]; now intros [= <- <-].
Qed.

(** Conservation (buffered / in a batch being processed / forwarded) and: a
    full batch never waits (after the fix of BatchProcessor.handle_event). *)
Theorem batch_conservation_no_full_wait : forall size ton ins w x,
  bw_run (bw0 size ton) ins = Some w -> NoDup (b_arrivals ins) ->
  ((In x (b_arrivals ins) -> b_places w x = 1) /\ (~ In x (b_arrivals ins) -> b_places w x = 0)) /\
  (1 <= size -> zlen (b_buf (bw_s w)) < size).
Proof.
  intros size ton ins w x Hr Hnd.
  assert (H0 : b_inv size (bw_s (bw0 size ton))) by (unfold b_inv; cbn; split; auto; lia).
  destruct (orun_inv bw_step (fun _ => True) (fun w => b_inv size (bw_s w))
              (fun w i w' o H _ => b_step_inv size _ i _ o (bw_step_state w i w' o H)) ins _ w Hr (fun _ _ => I) H0)
    as [_ Hb].
  rewrite (bw_run_places x _ _ _ Hr). split; [now apply ledger_once|exact Hb].
Qed.

(** The invariant "0 <= active <= limit" (Fixed, Weighted; Dynamic as long as
    the limit is not lowered below the active count — a scale-down lets running
    requests finish, which is intended). *)
Definition cm_ok (m : cmodel) : Prop := 0 <= cm_active m <= cm_limit m.

Lemma cm_step_bound m o m' r : cm_step m o = (m', r) ->
  (match o with CSetLimit _ => False | _ => True end) -> cm_ok m -> cm_ok m'.
Proof.
  unfold cm_ok. intros H Ho Hm.
  destruct o as [w|w|w|n]; [| | |contradiction]; destruct m as [mx a|cur mn mx a|t u]; cbn in *.
  - destruct (mx <=? a) eqn:E; injection H as <- <-; cbn; lia.
  - destruct (cur <=? a) eqn:E; injection H as <- <-; cbn; lia.
  - destruct (w <? 1) eqn:E0; [|destruct (t <? u + w) eqn:E]; injection H as <- <-; cbn; lia.
  - injection H as <- <-. cbn. lia.
  - injection H as <- <-. cbn. lia.
  - destruct (w <? 1) eqn:E; injection H as <- <-; cbn; lia.
  - now injection H as <- <-.
  - now injection H as <- <-.
  - now injection H as <- <-.
Qed.

Theorem concurrency_models_bound : forall ops m,
  Forall (fun o => match o with CSetLimit _ => False | _ => True end) ops ->
  cm_ok m -> cm_ok (cm_run m ops).
Proof.
  induction ops as [|o ops IH]; intros m Hall Hm; [exact Hm|].
  inversion Hall; subst. cbn [cm_run]. destruct (cm_step m o) as [m' r] eqn:E. cbn [fst].
  apply IH; [assumption|]. eapply cm_step_bound; eauto.
Qed.

Lemma flag_one (b : bool) : (if b then 1 else 0) = 1 <-> b = true.
Proof. destruct b; split; (reflexivity || discriminate). Qed.

(** For every model, also across limit changes: a successful acquire never
    takes the active count above the limit in force, has_capacity(w) answers
    exactly whether acquire(w) would succeed, and a failed acquire changes
    nothing. *)
Theorem acquire_respects_limit : forall m w m' r,
  cm_step m (CAcquire w) = (m', r) ->
  (r = 1 -> cm_active m' <= cm_limit m' /\ cm_active m < cm_active m') /\
  (r <> 1 -> m' = m) /\
  (1 <= w -> (snd (cm_step m (CHasCap w)) = 1 <-> r = 1)).
Proof.
  (* has_capacity tests the negation of the guard acquire branches on *)
  intros m w m' r H. destruct m as [mx a|cur mn mx a|t u]; cbn in *; rewrite flag_one.
  - destruct (mx <=? a) eqn:E; injection H as <- <-; cbn; (split; [lia|split; [intros Hr; (reflexivity || lia)|lia]]).
  - destruct (cur <=? a) eqn:E; injection H as <- <-; cbn; (split; [lia|split; [intros Hr; (reflexivity || lia)|lia]]).
  - destruct (w <? 1) eqn:E0; [|destruct (t <? u + w) eqn:E]; injection H as <- <-; cbn;
      (split; [lia|split; [intros Hr; (reflexivity || lia)|lia]]).
Qed.

Example gate_hyps : exists s' outs rejs accs,
  g_run (g0 1 false) [GArr 0; GArr 1; GOpen; GArr 2; GClose; GArr 3] = (s', outs, rejs, accs) /\
  outs = [0; 2] /\ rejs = [1] /\ g_q s' = [3].
Proof. do 4 eexists. split; [vm_compute; reflexivity|]. repeat split; reflexivity. Qed.

Example conveyor_hyps : exists w,
  cvw_run (cvw0 1) [VArr 0; VArr 1; VRes 0; VArr 2] = Some w /\ NoDup (cv_arrivals [VArr 0; VArr 1; VRes 0; VArr 2])
  /\ vw_rej w = [1] /\ vw_done w = [0] /\ vw_pend w = [2].
Proof.
  eexists. split; [vm_compute; reflexivity|]. split; [cbn; repeat constructor; cbn; intuition discriminate|].
  vm_compute. repeat split; reflexivity.
Qed.

Example batch_hyps : exists w,
  bw_run (bw0 2 true) [BArr 0; BArr 1; BArr 2; BFireTimeout; BRes [0; 1]] = Some w /\
  bw_done w = [0; 1] /\ b_inbatch (bw_pend w) = [2].
Proof. eexists. split; [vm_compute; reflexivity|]. vm_compute. split; reflexivity. Qed.

Example conc_hyps : cm_ok (CFixed 2 0) /\ cm_ok (CWeighted 5 0) /\ cm_ok (CDyn 2 1 (Some 4) 0).
Proof. unfold cm_ok. cbn. lia. Qed.
