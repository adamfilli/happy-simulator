(** C20 — Merkle tree: diff is empty exactly when the maps are equal, and
    otherwise its ranges cover every key whose value differs (hash functions
    injective and domain-separated: section hypotheses = sha256 collision
    freedom). *)
From HS Require Import Base.Prelude Base.Lists C20.Model C20.Counting.
From Coq Require Import Sorting.Sorted.
Local Open Scope Z_scope.

Definition klt (a b : Z * Z) : Prop := fst a < fst b.
Definition ssorted (l : list (Z * Z)) : Prop := StronglySorted klt l.

Fixpoint leaves (t : mtree) : list (Z * Z) :=
  match t with MLeaf k v => [(k, v)] | MNode l r => leaves l ++ leaves r end.

Lemma ssorted_inv a l : ssorted (a :: l) -> ssorted l /\ forall b, In b l -> fst a < fst b.
Proof. exact (ss_cons klt a l). Qed.

Lemma start_in t : exists v, In (m_start t, v) (leaves t).
Proof. induction t as [k v|l [v IHl] r _]; cbn; [exists v; now left|exists v; apply in_app_iff; now left]. Qed.
Lemma end_in t : exists v, In (m_end t, v) (leaves t).
Proof. induction t as [k v|l _ r [v IHr]]; cbn; [exists v; now left|exists v; apply in_app_iff; now right]. Qed.

Lemma range t : ssorted (leaves t) -> forall k v, In (k, v) (leaves t) -> m_start t <= k <= m_end t.
Proof.
  induction t as [k0 v0|l IHl r IHr]; cbn; intros Hs k v Hin.
  - destruct Hin as [[= <- _]|[]]. lia.
  - destruct (proj1 (ss_app klt _ _) Hs) as (Sl & Sr & Cross). destruct (start_in l) as [vl El], (end_in r) as [vr Er].
    apply in_app_iff in Hin. destruct Hin as [Hin|Hin].
    + specialize (IHl Sl k v Hin). specialize (Cross _ _ Hin Er). unfold klt in Cross. cbn in Cross. lia.
    + specialize (IHr Sr k v Hin). specialize (Cross _ _ El Hin). unfold klt in Cross. cbn in Cross. lia.
Qed.

Lemma d_get_in k l v : d_get k l = Some v -> In (k, v) l.
Proof.
  induction l as [|[k' v'] l IH]; cbn; [discriminate|]. destruct (k' =? k) eqn:E; intros H.
  - injection H as <-. left. f_equal. lia.
  - right. auto.
Qed.

Lemma d_get_none k l v : d_get k l = None -> ~ In (k, v) l.
Proof.
  induction l as [|[k' v'] l IH]; cbn; [tauto|]. destruct (k' =? k) eqn:E; [discriminate|].
  intros H [H1|H1]; [inversion H1; lia|]. now apply IH.
Qed.

Lemma in_d_get k v l : ssorted l -> In (k, v) l -> d_get k l = Some v.
Proof.
  induction l as [|[k' v'] l IH]; cbn [d_get In]; [tauto|]. intros Hs [[= -> ->]|H].
  - now rewrite Z.eqb_refl.
  - apply ssorted_inv in Hs. destruct Hs as [Hs Hf]. specialize (Hf _ H). cbn [fst] in Hf.
    destruct (Z.eqb_spec k' k); [lia|auto].
Qed.

Lemma d_get_iff k v l : ssorted l -> (In (k, v) l <-> d_get k l = Some v).
Proof. intros S. split; [apply in_d_get, S|apply d_get_in]. Qed.

(** Strictly sorted lists with the same members are equal: each head is the least member. *)
Lemma sorted_ext la : forall lb, ssorted la -> ssorted lb -> (forall p, In p la <-> In p lb) -> la = lb.
Proof.
  induction la as [|a ta IH]; intros [|b tb] Sa Sb E.
  - reflexivity.
  - destruct (proj2 (E b) (or_introl eq_refl)).
  - destruct (proj1 (E a) (or_introl eq_refl)).
  - destruct (ssorted_inv _ _ Sa) as [Sa' Fa], (ssorted_inv _ _ Sb) as [Sb' Fb].
    assert (a = b).
    { destruct (proj1 (E a) (or_introl eq_refl)) as [->|Ha]; [reflexivity|].
      destruct (proj2 (E b) (or_introl eq_refl)) as [->|Hb]; [reflexivity|].
      specialize (Fb _ Ha). specialize (Fa _ Hb). lia. }
    subst b. f_equal. apply IH; [assumption..|]. intros p. split; intros Hp.
    + destruct (proj1 (E p) (or_intror Hp)) as [<-|I]; [|exact I]. specialize (Fa _ Hp). lia.
    + destruct (proj2 (E p) (or_intror Hp)) as [<-|I]; [|exact I]. specialize (Fb _ Hp). lia.
Qed.

Lemma m_build_spec fuel : forall items, items <> [] -> (length items <= fuel)%nat ->
  exists t, m_build fuel items = Some t /\ leaves t = items.
Proof.
  induction fuel as [|f IH]; intros items Hne Hlen.
  - destruct items; [congruence|cbn in Hlen; lia].
  - cbn [m_build]. destruct items as [|[k v] [|e2 rest]]; [congruence|eauto|].
    set (items := (k, v) :: e2 :: rest) in *. set (mid := Nat.div (length items) 2).
    assert (Hmid : (1 <= mid /\ mid < length items)%nat).
    { unfold mid. split; [apply (Nat.div_le_lower_bound _ 2 1); cbn; lia|apply Nat.div_lt; cbn; lia]. }
    (* both halves are non-empty and shorter *)
    destruct (IH (firstn mid items)) as (l & El & Ll).
    { intros E. apply (f_equal (@length _)) in E. rewrite firstn_length in E. cbn [length] in E. lia. }
    { rewrite firstn_length. lia. }
    destruct (IH (skipn mid items)) as (r & Er & Lr).
    { intros E. apply (f_equal (@length _)) in E. rewrite skipn_length in E. cbn [length] in E. lia. }
    { rewrite skipn_length. lia. }
    rewrite El, Er. exists (MNode l r). split; [reflexivity|]. cbn [leaves]. rewrite Ll, Lr. apply firstn_skipn.
Qed.

Definition oleaves (o : option mtree) : list (Z * Z) := match o with None => [] | Some t => leaves t end.

Lemma oleaves_of items : oleaves (m_of items) = items.
Proof.
  destruct items as [|a items]; [reflexivity|].
  destruct (m_build_spec (length (a :: items)) (a :: items)) as (t & E & L); [discriminate|apply le_n|].
  unfold m_of. rewrite E. exact L.
Qed.

Definition only_one (p : Z * Z) (l1 l2 : list (Z * Z)) : Prop :=
  (In p l1 /\ ~ In p l2) \/ (In p l2 /\ ~ In p l1).

Lemma only_one_app p a1 a2 b1 b2 : only_one p (a1 ++ a2) (b1 ++ b2) -> only_one p a1 b1 \/ only_one p a2 b2.
Proof.
  unfold only_one. rewrite !in_app_iff.
  intros [[[H|H] N]|[[H|H] N]]; [left; left|right; left|left; right|right; right]; (split; [exact H|]); auto.
Qed.

Lemma range2 a b k v : ssorted (leaves a) -> ssorted (leaves b) -> only_one (k, v) (leaves a) (leaves b) ->
  Z.min (m_start a) (m_start b) <= k <= Z.max (m_end a) (m_end b).
Proof. intros Sa Sb [[D _]|[D _]]; [apply (range a Sa) in D|apply (range b Sb) in D]; lia. Qed.

Section Merkle.
Context {H : Type}.
Variable hl : Z -> Z -> H.
Variable hc : H -> H -> H.
Variable heq : H -> H -> bool.
Hypothesis hl_inj : forall k v k' v', hl k v = hl k' v' -> k = k' /\ v = v'.
Hypothesis hc_inj : forall a b a' b', hc a b = hc a' b' -> a = a' /\ b = b'.
Hypothesis hl_hc : forall k v a b, hl k v <> hc a b.
Hypothesis heq_spec : forall x y, heq x y = true <-> x = y.

Lemma hash_inj a : forall b, m_hash hl hc a = m_hash hl hc b -> a = b.
Proof.
  induction a as [k v|l IHl r IHr]; intros [k' v'|l' r']; cbn; intros E.
  - destruct (hl_inj _ _ _ _ E). now subst.
  - exfalso. eapply hl_hc; exact E.
  - exfalso. eapply hl_hc; symmetry; exact E.
  - destruct (hc_inj _ _ _ _ E) as [E1 E2]. now rewrite (IHl _ E1), (IHr _ E2).
Qed.

Notation diff := (m_diff hl hc heq).
Notation tdiff := (mt_diff hl hc heq).

Lemma m_diff_eq a b : diff a b =
  if heq (m_hash hl hc a) (m_hash hl hc b) then []
  else match a, b with
       | MNode al ar, MNode bl br => diff al bl ++ diff ar br
       | _, _ => [(Z.min (m_start a) (m_start b), Z.max (m_end a) (m_end b))]
       end.
Proof. destruct a; reflexivity. Qed.

Lemma only_one_neq a b p : only_one p (leaves a) (leaves b) -> heq (m_hash hl hc a) (m_hash hl hc b) = false.
Proof.
  intros D. destruct (heq _ _) eqn:E; [|reflexivity]. apply heq_spec, hash_inj in E. subst b.
  destruct D as [[I N]|[I N]]; destruct (N I).
Qed.

Lemma cover a : forall b, ssorted (leaves a) -> ssorted (leaves b) -> forall k v,
  only_one (k, v) (leaves a) (leaves b) -> exists r, In r (diff a b) /\ fst r <= k <= snd r.
Proof.
  induction a as [k0 v0|al IHl ar IHr]; intros b Sa Sb k v D; rewrite m_diff_eq, (only_one_neq _ _ _ D);
    [destruct b|destruct b as [k1 v1|bl br]];
    try (eexists; split; [now left|]; apply (range2 _ _ k v Sa Sb D)).
  cbn [leaves] in *. destruct (proj1 (ss_app klt _ _) Sa) as (Sal & Sar & _), (proj1 (ss_app klt _ _) Sb) as (Sbl & Sbr & _).
  destruct (only_one_app _ _ _ _ _ D) as [C|C].
  - destruct (IHl bl Sal Sbl k v C) as (r & Hr & Hk). exists r. split; [apply in_app_iff; now left|exact Hk].
  - destruct (IHr br Sar Sbr k v C) as (r & Hr & Hk). exists r. split; [apply in_app_iff; now right|exact Hk].
Qed.

(** Every key whose value differs between the two maps (present in one only,
    or present in both with different values) lies in a reported range. *)
Theorem merkle_diff_covers : forall la lb, ssorted la -> ssorted lb -> forall k,
  d_get k la <> d_get k lb ->
  exists r, In r (tdiff (m_of la) (m_of lb)) /\ fst r <= k <= snd r.
Proof.
  intros la lb Sa Sb k D.
  assert (P : exists v, only_one (k, v) la lb).
  { destruct (d_get k la) as [v|] eqn:Ga.
    - exists v. left. split; [now apply d_get_in|]. intros Hin. apply (in_d_get _ _ _ Sb) in Hin. congruence.
    - destruct (d_get k lb) as [v|] eqn:Gb; [|congruence]. exists v. right.
      split; [now apply d_get_in|now apply d_get_none]. }
  destruct P as [v P]. rewrite <- (oleaves_of la) in Sa, P. rewrite <- (oleaves_of lb) in Sb, P.
  destruct (m_of la) as [ta|], (m_of lb) as [tb|]; cbn [mt_diff oleaves] in *.
  - rewrite (only_one_neq _ _ _ P). apply (cover ta tb Sa Sb k v P).
  - eexists; split; [now left|]. destruct P as [[P _]|[[] _]]. apply (range ta Sa k v P).
  - eexists; split; [now left|]. destruct P as [[[] _]|[P _]]. apply (range tb Sb k v P).
  - destruct P as [[[] _]|[[] _]].
Qed.

Theorem merkle_diff_empty_iff_equal : forall la lb, ssorted la -> ssorted lb ->
  (tdiff (m_of la) (m_of lb) = [] <-> la = lb).
Proof.
  intros la lb Sa Sb. split.
  - intros E. apply sorted_ext; [assumption|assumption|]. intros [k v]. rewrite !d_get_iff by assumption.
    assert (Dec : {d_get k la = d_get k lb} + {d_get k la <> d_get k lb}) by (repeat decide equality).
    destruct Dec as [e|n]; [now rewrite e|].
    destruct (merkle_diff_covers la lb Sa Sb k n) as (r & Hr & _). rewrite E in Hr. destruct Hr.
  - intros <-. destruct (m_of la) as [t|]; cbn; [|reflexivity].
    replace (heq (m_hash hl hc t) (m_hash hl hc t)) with true; [reflexivity|].
    symmetry. now apply heq_spec.
Qed.

End Merkle.

Lemma mtree_eqb_spec a : forall b, mtree_eqb a b = true <-> a = b.
Proof.
  induction a as [k v|l IHl r IHr]; intros [k' v'|l' r']; cbn; try (split; [discriminate|congruence]).
  - rewrite andb_true_iff, !Z.eqb_eq. split; [intros [-> ->]; reflexivity|intros E; inversion E; auto].
  - rewrite andb_true_iff, IHl, IHr. split; [intros [-> ->]; reflexivity|intros E; inversion E; auto].
Qed.

(** The hypotheses are satisfiable: the ideal hash (the subtree itself). *)
Example merkle_hypotheses_satisfiable :
  (forall k v k' v', MLeaf k v = MLeaf k' v' -> k = k' /\ v = v') /\
  (forall a b a' b', MNode a b = MNode a' b' -> a = a' /\ b = b') /\
  (forall k v a b, MLeaf k v <> MNode a b) /\
  (forall x y, mtree_eqb x y = true <-> x = y).
Proof.
  repeat split; try (intros; congruence); try (inversion H; auto); apply mtree_eqb_spec.
Qed.

(** [m_sort] is [sorted(data.items())]: insertion keeps the members, and the strict order
    if the new key is not there yet. *)
Lemma insert_in e l x : In x (m_insert e l) <-> In x (e :: l).
Proof.
  induction l as [|a l IH]; cbn [m_insert]; [reflexivity|]. destruct (fst e <? fst a); [reflexivity|].
  cbn [In]. rewrite IH. cbn [In]. split; intros [H|[H|H]]; auto.
Qed.

Lemma insert_sorted e l : ssorted l -> (forall x, In x l -> fst x <> fst e) -> ssorted (m_insert e l).
Proof.
  induction l as [|a l IH]; cbn [m_insert]; intros Hs Hne.
  - constructor; constructor.
  - destruct (ssorted_inv _ _ Hs) as [Hs' Hf]. pose proof (Hne a (or_introl eq_refl)).
    destruct (Z.ltb_spec (fst e) (fst a)).
    + constructor; [exact Hs|]. apply Forall_forall. intros x [<-|Hx]; [|specialize (Hf x Hx)]; unfold klt; lia.
    + constructor; [apply IH; [exact Hs'|intros x Hx; apply Hne; now right]|].
      apply Forall_forall. intros x Hx. apply insert_in in Hx. destruct Hx as [<-|Hx]; [unfold klt; lia|apply Hf, Hx].
Qed.

Lemma sort_in d x : In x (m_sort d) <-> In x d.
Proof.
  induction d as [|e d IH]; [reflexivity|]. change (m_sort (e :: d)) with (m_insert e (m_sort d)).
  rewrite insert_in. cbn [In]. now rewrite IH.
Qed.

Lemma m_sort_sorted d : NoDup (map fst d) -> ssorted (m_sort d).
Proof.
  induction d as [|e d IH]; intros Hnd; [constructor|]. cbn [map] in Hnd. apply NoDup_cons_iff in Hnd. destruct Hnd as [Hn Hnd].
  change (m_sort (e :: d)) with (m_insert e (m_sort d)). apply insert_sorted; [apply IH, Hnd|].
  intros x Hx E. apply Hn. rewrite <- E. apply in_map, sort_in, Hx.
Qed.

(** Sorted maps exist, differ, and the ideal-hash diff reports the range. *)
Example merkle_example :
  ssorted [(1, 0); (2, 5); (4, 1)] /\ ssorted [(1, 0); (2, 6); (4, 1)] /\
  d_get 2 [(1, 0); (2, 5); (4, 1)] <> d_get 2 [(1, 0); (2, 6); (4, 1)] /\
  mi_diff (m_of [(1, 0); (2, 5); (4, 1)]) (m_of [(1, 0); (2, 6); (4, 1)]) = [(2, 2)].
Proof.
  repeat split; try (vm_compute; congruence); try (vm_compute; reflexivity);
    repeat (constructor; try (unfold klt; cbn; lia)).
Qed.
