(** C15 — crash at rest for ANY sync policy: after a sequential workload
    through the generator API, crash + recovery yields exactly the state after
    a PREFIX of the workload, and that prefix contains every synced write. *)
From HS Require Import Base.Prelude C14.Model C14.LsmProofs C14.SeqProofs C15.Model C15.Proofs.
Local Open Scope Z_scope.

Lemma lsm_get_ext bl a b k : mem a = mem b -> levels a = levels b -> lsm_get bl a k = lsm_get bl b k.
Proof. intros H1 H2. unfold lsm_get, raw_get. now rewrite H1, H2. Qed.

Lemma zlen_snoc {A} (l : list A) x : zlen (l ++ [x]) = zlen l + 1.
Proof. unfold zlen. rewrite app_length. cbn [length]. lia. Qed.

Definition marks_ok (p : policy) (w : wal) (n : Z) : Prop :=
  w_next w = n + 1 /\ w_synced w <= n /\ (p = SyncEvery -> w_synced w = n).

Lemma marks_ok_write p w w' n t : marks_ok p w n ->
  w_next w' = w_next w + 1 ->
  w_synced w' = (if should_sync p (w_since w + 1) t then w_next w else w_synced w) ->
  marks_ok p w' (n + 1).
Proof.
  intros (A & B & C) N Y. unfold marks_ok. rewrite N, Y, A. split; [reflexivity|]. split.
  - destruct (should_sync _ _ _); lia.
  - intros ->. reflexivity.
Qed.

(** [ops] are the writes executed so far.  The entries [es] still in the log
    are those written since the last flush, the write number [lo]; cut at any
    later write number [j], they replay to the memtable the sequential model
    had after its first [j] operations, and the levels have not changed since. *)
Definition cuts_ok (c : cfg) (ops : list op) (es : list wentry) (lo : nat) : Prop :=
  (lo <= length ops)%nat /\ (forall e, In e es -> Z.of_nat lo < e_seq e) /\
  forall j, (lo <= j <= length ops)%nat ->
    mem (run c (firstn j ops)) = replay [] (filter (fun e => e_seq e <=? Z.of_nat j) es) /\
    levels (run c (firstn j ops)) = levels (run c ops).

Lemma cuts_ok_mem c ops es lo : cuts_ok c ops es lo -> seq_sorted es (zlen ops + 1) ->
  mem (run c ops) = replay [] es.
Proof.
  intros (Hlo & _ & Hj) Hs. destruct (Hj (length ops)) as [Hm _]; [lia|].
  rewrite firstn_all, (filter_synced_all _ _ _ Hs) in Hm by (unfold zlen; lia). exact Hm.
Qed.

Lemma cuts_ok_flush c ops o : mem (run c (ops ++ [o])) = [] -> cuts_ok c (ops ++ [o]) [] (length (ops ++ [o])).
Proof.
  intros Hm. split; [lia|]. split; [intros ? []|]. intros j Hj.
  rewrite firstn_all2 by lia. split; [exact Hm|reflexivity].
Qed.

Lemma cuts_ok_snoc c ops o es e lo :
  cuts_ok c ops es lo -> seq_sorted es (zlen ops + 1) -> e_seq e = zlen ops + 1 ->
  mem (run c (ops ++ [o])) = sset (e_key e) (e_val e) (mem (run c ops)) ->
  levels (run c (ops ++ [o])) = levels (run c ops) ->
  cuts_ok c (ops ++ [o]) (es ++ [e]) lo.
Proof.
  intros R Hs He Hm Hl. pose proof (cuts_ok_mem _ _ _ _ R Hs) as Hm0. destruct R as (Hlo & Hgt & Hj).
  unfold zlen in *. unfold cuts_ok. rewrite app_length. cbn [length]. split; [lia|]. split.
  { intros x Hx. apply in_app_iff in Hx. destruct Hx as [Hx|[<-|[]]]; [apply Hgt, Hx|lia]. }
  intros j Hjj. rewrite Hl, filter_app. cbn [filter].
  destruct (Nat.eq_dec j (length ops + 1)) as [->|Hne].
  - assert (e_seq e <=? Z.of_nat (length ops + 1) = true /\ Z.of_nat (length ops) + 1 - 1 <= Z.of_nat (length ops + 1))
      as [-> Hle] by lia.
    rewrite firstn_all2, (filter_synced_all _ _ _ Hs Hle) by (rewrite app_length; reflexivity).
    rewrite replay_snoc, <- Hm0. split; [exact Hm|exact Hl].
  - (* a cut in the past: the new entry is beyond it *)
    assert (e_seq e <=? Z.of_nat j = false /\ (j - length ops = 0)%nat /\ (lo <= j <= length ops)%nat)
      as (-> & E0 & Hj') by lia.
    rewrite firstn_app, E0, !app_nil_r. exact (Hj j Hj').
Qed.

(** A crash cuts the log at the synced mark [s]: the state recovered is that
    after the later of the synced write and the last flush. *)
Lemma cuts_ok_crash c ops es lo b s : cuts_ok c ops es lo -> seq_sorted es b -> s <= zlen ops ->
  exists j : nat, s <= Z.of_nat j /\ (j <= length ops)%nat /\ (s = zlen ops -> j = length ops) /\
    mem (run c (firstn j ops)) = replay [] (sort_seq (filter (fun e => e_seq e <=? s) es)) /\
    levels (run c (firstn j ops)) = levels (run c ops).
Proof.
  intros (Hlo & Hgt & Hj) Hs Hy. unfold zlen in *. set (j := Nat.max lo (Z.to_nat s)).
  assert ((lo <= j <= length ops)%nat /\ s <= Z.of_nat j /\ (s = Z.of_nat (length ops) -> j = length ops))
    as (Hjj & A & B) by lia.
  exists j. split; [exact A|]. split; [apply Hjj|]. split; [exact B|]. destruct (Hj j Hjj) as [Hm Hl].
  split; [|exact Hl]. rewrite Hm, (sort_seq_sorted _ _ (seq_sorted_filter _ _ _ Hs)). f_equal.
  (* no logged entry lies between the synced mark and an earlier flush *)
  apply filter_ext_in. intros e Hin. specialize (Hgt e Hin). lia.
Qed.

Definition log_inv (c : cfg) (p : policy) (d : dstate) (ops : list op) : Prop :=
  quiet (d_lsm d) /\ abs (d_lsm d) = run c ops /\
  seq_sorted (w_entries (d_wal d)) (w_next (d_wal d)) /\ marks_ok p (d_wal d) (zlen ops) /\
  exists lo, cuts_ok c ops (w_entries (d_wal d)) lo.

Lemma log_inv_init c p : log_inv c p (d_init c) [].
Proof.
  split; [apply init_quiet|]. split; [apply abs_init|]. split; [exact I|].
  split; [split; [|split]; reflexivity|]. exists O. split; [reflexivity|]. split; [intros ? []|].
  intros j Hj. rewrite firstn_nil. split; reflexivity.
Qed.

Lemma log_inv_write c p bl nows fuel d ops k v d' :
  log_inv c p d ops -> d_write_alone fuel c p bl nows d k v = Some d' ->
  log_inv c p d' (ops ++ [to_op (k, v)]).
Proof.
  intros (Q & Ha & Hs & Hk & lo & Hc) H. destruct d as [st w]. cbn [d_lsm d_wal] in *.
  pose proof (seq_sorted_app _ (w_next w, k, v) _ Hs eq_refl) as Hs1.
  apply d_write_alone_wal in H as (f & t & since & last & H).
  eapply mem_put_alone in H as (Q' & A & N' & Y' & E'); [|exact Q|exact Hs1].
  cbn [w_entries w_next w_synced] in N', Y', E'.
  assert (run c (ops ++ [to_op (k, v)]) = write c (run c ops) k v) as Hrun
    by (unfold run; rewrite fold_left_app; apply apply_to_op).
  assert (mem (run c ops) = c_mem st) as Hmem by (rewrite <- Ha; reflexivity).
  rewrite Ha, <- Hrun in A. pose proof (marks_ok_write _ _ _ _ _ Hk N' Y') as Hk'.
  split; [exact Q'|]. split; [exact A|]. rewrite zlen_snoc, E', N'.
  destruct Hk as (Hn & _). rewrite Hn in Hs.
  destruct (zlen (sset k v (c_mem st)) >=? thr c) eqn:Ef.
  - split; [exact I|]. split; [exact Hk'|]. eexists. apply cuts_ok_flush.
    rewrite Hrun, mem_write, Hmem, Ef. reflexivity.
  - split; [exact Hs1|]. split; [exact Hk'|]. exists lo.
    apply cuts_ok_snoc; [exact Hc|exact Hs|exact Hn| |].
    + rewrite Hrun, mem_write, Hmem, Ef. reflexivity.
    + rewrite Hrun. apply levels_write_small. rewrite Hmem. exact Ef.
Qed.

Lemma log_inv_seq c p bl nows fuel : forall ws d ops d',
  log_inv c p d ops -> d_seq_exec fuel c p bl nows d ws = Some d' -> log_inv c p d' (ops ++ map to_op ws).
Proof.
  induction ws as [|[k v] r IH]; intros d ops d' R H; cbn [d_seq_exec map] in *.
  - injection H as <-. rewrite app_nil_r. exact R.
  - destruct (d_write_alone fuel c p bl nows d k v) as [d1|] eqn:E; [|discriminate].
    change (to_op (k, v) :: map to_op r) with ([to_op (k, v)] ++ map to_op r). rewrite app_assoc.
    eapply IH; [|exact H]. eapply log_inv_write; eassumption.
Qed.

(** Both at-rest theorems of Props.v: [j] is the later of the synced mark and
    the last flush; with SyncEveryWrite that is the whole workload. *)
Theorem crash_at_rest : forall bl, (forall ks x, In x ks -> bl ks x = true) ->
  forall c p fuel nows ws d', (nlev c >= 1)%nat ->
  d_seq_exec fuel c p bl nows (d_init c) ws = Some d' ->
  exists j : nat, w_synced (d_wal d') <= Z.of_nat j /\ (j <= length ws)%nat /\ (p = SyncEvery -> j = length ws) /\
    forall k, d_get bl (d_recover (d_crash d')) k = spec_of (firstn j (map to_op ws)) k.
Proof.
  intros bl Hb c p fuel nows ws d' Hn H.
  destruct (log_inv_seq c p bl nows fuel ws (d_init c) [] d' (log_inv_init c p) H)
    as (Q & Ha & Hs & (_ & Hy & He) & lo & Hc). cbn [app] in *.
  destruct (cuts_ok_crash _ _ _ _ _ _ Hc Hs Hy) as (j & A & B & C & Hm & Hl).
  rewrite map_length in B, C. exists j. split; [exact A|]. split; [exact B|].
  split; [intros E; exact (C (He E))|]. intros k.
  rewrite <- (lsm_get_refines_map bl Hb c _ k Hn).
  transitivity (lsm_get bl {| mem := replay [] (sort_seq (w_entries (wal_crash (d_wal d'))));
                              levels := levels (abs (d_lsm d')); ncomp := 0; nflush := 0 |} k); [reflexivity|].
  apply lsm_get_ext; cbn [mem levels]; [rewrite Hm|rewrite Hl, Ha]; reflexivity.
Qed.
