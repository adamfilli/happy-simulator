(** C13 — every non-DEAD member is probed within two rounds, whatever the shuffles.

    [probes ms ord idx shufs] is the sequence of probe targets chosen by successive probe
    ticks ([_next_probe_target]), the k-th tick using the k-th element of [shufs] as the result
    of [random.shuffle] if it reshuffles.  The set of non-DEAD members is fixed ([ms] is used
    only through [not_dead]); ALIVE/SUSPECT changes in between do not matter. *)
From HS Require Import Base.Prelude Base.Lists C13.Model C13.NetProofs.
Local Open Scope Z_scope.

Fixpoint probes (ms : list member) (ord : list Z) (idx : Z) (shufs : list (list Z)) : list Z :=
  match shufs with
  | [] => []
  | s :: r =>
    match next_probe_target ms ord idx s with
    | (Some t, ord', idx') => t :: probes ms ord' idx' r
    | (None, _, _) => []
    end
  end.

Lemma skipn_nth {A} (d : A) (l : list A) : forall i, (i < length l)%nat -> skipn i l = nth i l d :: skipn (S i) l.
Proof.
  induction l as [|x r IH]; intros i Hi; [inversion Hi|].
  destruct i; [reflexivity|]. cbn [skipn nth]. apply IH, Nat.succ_lt_mono, Hi.
Qed.

(** The index is a natural number as long as a round lasts; [i] stands for [idx = Z.of_nat i]. *)
Lemma npt_in_round ms ord i shuf :
  (i < length (filter (not_dead ms) ord))%nat ->
  next_probe_target ms ord (Z.of_nat i) shuf =
  (Some (nth i (filter (not_dead ms) ord) (-1)), ord, Z.of_nat (S i)).
Proof.
  intros H. unfold next_probe_target, znth, zlen.
  destruct (filter (not_dead ms) ord) as [|a0 ar]; [inversion H|].
  apply Nat2Z.inj_lt in H.
  rewrite (proj2 (Z.leb_gt _ _) H), Z.mod_small by (split; [apply Nat2Z.is_nonneg|exact H]).
  rewrite Nat2Z.id, Nat2Z.inj_succ, Z.add_1_r. reflexivity.
Qed.

Lemma npt_reshuffle ms ord idx s0 sr :
  filter (not_dead ms) ord <> [] -> zlen (filter (not_dead ms) ord) <= idx ->
  next_probe_target ms ord idx (s0 :: sr) = (Some s0, s0 :: sr, 1).
Proof.
  intros Hne H. unfold next_probe_target. destruct (filter (not_dead ms) ord) as [|a0 ar]; [now destruct Hne|].
  rewrite (proj2 (Z.leb_le _ _) H). reflexivity.
Qed.

Lemma probes_round ms ord : forall pre rest i,
  (i + length pre <= length (filter (not_dead ms) ord))%nat ->
  probes ms ord (Z.of_nat i) (pre ++ rest) =
  firstn (length pre) (skipn i (filter (not_dead ms) ord))
  ++ probes ms ord (Z.of_nat (i + length pre)) rest.
Proof.
  induction pre as [|s pre IH]; intros rest i Hk; cbn [app probes length firstn].
  - now rewrite Nat.add_0_r.
  - cbn [length] in Hk. rewrite <- plus_n_Sm in *.
    rewrite npt_in_round, (skipn_nth (-1) _ i) by (eapply Nat.lt_le_trans; [apply Nat.lt_succ_r, Nat.le_add_r|exact Hk]).
    rewrite (IH rest (S i)) by exact Hk. reflexivity.
Qed.


Lemma count_app y : forall l1 l2, count_occ_z y (l1 ++ l2) = (count_occ_z y l1 + count_occ_z y l2)%nat.
Proof. induction l1; intros; cbn; [reflexivity|]. rewrite IHl1. lia. Qed.

Lemma is_perm_in_rev : forall s alive T, is_perm s alive = true -> In T alive -> In T s.
Proof.
  induction s as [|x r IH]; intros alive T Hs HT.
  - apply is_perm_length in Hs. destruct alive; [destruct HT|discriminate].
  - destruct (Z.eq_dec x T) as [->|Hne]; [now left|right].
    pose proof (is_perm_length _ _ Hs) as HL.
    unfold is_perm in Hs. apply andb_true_iff in Hs as [_ Hc].
    cbn [forallb] in Hc. apply andb_true_iff in Hc as [Hx Hc].
    assert (Hxa : In x alive).
    { apply count_pos_iff. apply Nat.eqb_eq in Hx. rewrite <- Hx. cbn. rewrite Z.eqb_refl. lia. }
    destruct (in_split _ _ Hxa) as (a1 & a2 & ->).
    apply (IH (a1 ++ a2)).
    + unfold is_perm. apply andb_true_iff. split.
      * rewrite app_length in *. cbn [length] in *. apply Nat.eqb_eq. clear - HL. lia.
      * apply forallb_forall. intros y Hy. rewrite forallb_forall in Hc. specialize (Hc y Hy).
        apply Nat.eqb_eq in Hc. apply Nat.eqb_eq. rewrite count_app in *. cbn in Hc.
        clear - Hc. destruct (y =? x); lia.
    + apply in_app_or in HT as [HT|[HT|HT]]; [apply in_or_app; now left|congruence|apply in_or_app; now right].
Qed.

Lemma probes_reshuffle ms ord idx s post :
  filter (not_dead ms) ord <> [] -> zlen (filter (not_dead ms) ord) <= idx ->
  is_perm s (filter (not_dead ms) ord) = true ->
  (length s <= S (length post))%nat ->
  exists tail, probes ms ord idx (s :: post) = s ++ tail.
Proof.
  intros Hne Hi Hs Hpost. pose proof (is_perm_length _ _ Hs) as HL.
  destruct s as [|s0 sr] eqn:ES; [destruct (filter (not_dead ms) ord); [now destruct Hne|discriminate]|].
  cbn [probes]. rewrite npt_reshuffle by assumption. rewrite <- ES in *.
  assert (Hfs : filter (not_dead ms) s = s).
  { apply filter_all_true. intros x Hx. pose proof (is_perm_in _ _ _ Hs Hx) as Hx'.
    apply filter_In in Hx'. tauto. }
  (* the rest of the round: [sr], probed by the next [length sr] ticks *)
  rewrite <- (firstn_skipn (length sr) post).
  assert (Hfl : length (firstn (length sr) post) = length sr).
  { apply firstn_length_le. rewrite ES in Hpost. apply le_S_n, Hpost. }
  rewrite (probes_round ms s _ _ 1); rewrite Hfs, Hfl; [|rewrite ES; apply Nat.le_refl].
  rewrite ES. cbn [skipn]. rewrite firstn_all. eexists. reflexivity.
Qed.

Lemma probes_finish_round ms ord i shufs :
  (length (filter (not_dead ms) ord) - i <= length shufs)%nat ->
  probes ms ord (Z.of_nat i) shufs =
  skipn i (filter (not_dead ms) ord)
  ++ probes ms ord (Z.of_nat (Nat.max i (length (filter (not_dead ms) ord))))
            (skipn (length (filter (not_dead ms) ord) - i) shufs).
Proof.
  intros Hlen. set (alive := filter (not_dead ms) ord) in *.
  destruct (Nat.le_gt_cases i (length alive)) as [Hle|Hgt].
  - rewrite <- (firstn_skipn (length alive - i) shufs) at 1.
    rewrite probes_round; fold alive; rewrite (firstn_length_le _ Hlen).
    + rewrite firstn_all2 by (rewrite skipn_length; apply Nat.le_refl).
      rewrite Nat.max_r, (Nat.add_comm i), Nat.sub_add by exact Hle. reflexivity.
    + rewrite (Nat.add_comm i), Nat.sub_add by exact Hle. apply Nat.le_refl.
  - apply Nat.lt_le_incl in Hgt.
    rewrite (proj2 (Nat.sub_0_le _ _) Hgt), (skipn_all2 alive Hgt), Nat.max_l by exact Hgt. reflexivity.
Qed.

Lemma in_firstn_app {A} (x : A) l r n : In x l -> (length l <= n)%nat -> In x (firstn n (l ++ r)).
Proof. intros H Hn. rewrite firstn_app. apply in_or_app. left. rewrite firstn_all2 by exact Hn. exact H. Qed.

(** [T] is not DEAD and in the probe order: it is among the next [2 m] probe targets
    ([m] = number of non-DEAD members in the order), for all shuffles: at most [m] ticks
    finish the current round, and the round after the reshuffle probes everybody. *)
Lemma probed_within_two_rounds ms ord idx shufs T :
  0 <= idx -> In T (filter (not_dead ms) ord) ->
  Forall (fun s => is_perm s (filter (not_dead ms) ord) = true) shufs ->
  (2 * length (filter (not_dead ms) ord) <= length shufs)%nat ->
  In T (firstn (2 * length (filter (not_dead ms) ord)) (probes ms ord idx shufs)).
Proof.
  intros H0 HT Hperm Hlen. rewrite <- (Z2Nat.id idx H0). generalize (Z.to_nat idx) as i. clear idx H0. intros i.
  set (alive := filter (not_dead ms) ord) in *.
  assert (Hne : alive <> []) by (intros E; rewrite E in HT; destruct HT).
  assert (Hm : (0 < length alive)%nat) by (destruct alive; [now destruct Hne|apply Nat.lt_0_succ]).
  rewrite probes_finish_round by (fold alive; clear - Hlen; lia). fold alive.
  pose proof (skipn_length (length alive - i) shufs) as Hsk.
  destruct (skipn (length alive - i) shufs) as [|s post] eqn:E; cbn [length] in Hsk; [clear - Hsk Hlen Hm; lia|].
  assert (Hs : is_perm s alive = true).
  { rewrite Forall_forall in Hperm. apply Hperm.
    rewrite <- (firstn_skipn (length alive - i) shufs), E. apply in_or_app; right; now left. }
  pose proof (is_perm_length _ _ Hs) as HLs.
  destruct (probes_reshuffle ms ord (Z.of_nat (Nat.max i (length alive))) s post Hne) as [tail ->];
    [apply Nat2Z.inj_le, Nat.le_max_r|exact Hs|clear - Hsk Hlen HLs; lia|].
  rewrite app_assoc. apply in_firstn_app.
  - apply in_or_app; right. exact (is_perm_in_rev _ _ _ Hs HT).
  - rewrite app_length, skipn_length. clear - HLs. lia.
Qed.
