(** C13 — membership: no false deaths on a healthy network, real failures are detected.
    The statements; proofs of more than a few lines are in the files imported below. *)
From HS Require Import Base.Prelude C13.Model C13.PhiModel C13.Net C13.NetCheck C13.NodeProofs C13.PhiProofs
  C13.NetProofs C13.ProbeOrder C13.NetCrash C13.NetCrashCheck.
From Coq Require Import QArith Lqa.
Local Open Scope Z_scope.

(** A member reported DEAD is not reported ALIVE again without a higher incarnation:
    any node, any state, any sequence of handler inputs (forged updates included). *)
Theorem c13_dead_needs_higher_incarnation :
  forall c st tr T m1 m2,
    find_member T (members st) = Some m1 -> m_state m1 = Dead ->
    find_member T (members (run c st tr)) = Some m2 -> m_state m2 = Alive ->
    m_inc m1 < m_inc m2.
Proof.
  intros c st tr T m1 m2 F1 D1 F2 A2. destruct (run_LR c tr st T m1 F1) as (m' & F' & (_ & HD)).
  rewrite F2 in F'; injection F' as <-.
  destruct (HD D1) as [[Hd _]|Hlt]; [congruence|exact Hlt].
Qed.
Print Assumptions c13_dead_needs_higher_incarnation.

Theorem c13_incarnation_monotone :
  forall c st tr T m1, find_member T (members st) = Some m1 ->
    exists m2, find_member T (members (run c st tr)) = Some m2 /\ m_inc m1 <= m_inc m2.
Proof.
  intros c st tr T m1 F1. destruct (run_LR c tr st T m1 F1) as (m' & F' & (HI & _)). exists m'. split; assumption.
Qed.
Print Assumptions c13_incarnation_monotone.

(** Detection, node level: when the direct probe of T times out, T is not reported ALIVE ... *)
Theorem c13_timeout_suspects :
  forall c now st T shuf old,
    is_member T (members st) = true -> packs_get T (packs st) = Some old ->
    exists m', find_member T (members (fst (step c now st (IIndirect (Some T) shuf)))) = Some m'
               /\ m_state m' <> Alive.
Proof.
  intros c now st T shuf old Hm Hp. cbn [step]. rewrite Hm, Hp; cbn [negb].
  unfold is_member in Hm. destruct (find_member T (members st)) as [info|] eqn:F; [|discriminate].
  destruct (suspect_member_cases T (members st)) as [[-> Hn]|(i' & _ & _ & ->)]; cbn [members fst].
  - exists info. split; [exact F|exact (Hn info F)].
  - rewrite find_upd, Z.eqb_refl, F by reflexivity. eexists; split; [reflexivity|]. cbn; discriminate.
Qed.
Print Assumptions c13_timeout_suspects.

(** ... and as long as nothing from T is handled (it stopped for good) and nobody announces
    it alive, it is never reported ALIVE again. *)
Theorem c13_silent_stays_non_alive :
  forall T c tr st m,
    Forall (fun x => silent T (snd x)) tr ->
    find_member T (members st) = Some m -> m_state m <> Alive ->
    exists m', find_member T (members (run c st tr)) = Some m' /\ m_state m' <> Alive.
Proof.
  intros T c. induction tr as [|[now i] r IH]; intros st m Hs F H; cbn; [exists m; split; assumption|].
  inversion Hs as [|x l Hx Hl]; subst. cbn in Hx.
  destruct (step_NA T c now st i Hx T m F) as (m' & F' & H'). exact (IH _ m' Hl F' (H' eq_refl H)).
Qed.
Print Assumptions c13_silent_stays_non_alive.

(** The suspicion level never decreases while no heartbeat arrives (erfc antitone, log10
    monotone on positives: properties of the mathematical functions, hypotheses here). *)
Theorem c13_phi_monotone :
  forall (erfc log10 sqrt : Q -> Q) (sqrt2 : Q),
    (forall x y, (x <= y)%Q -> (erfc y <= erfc x)%Q) ->
    (forall x y, (0 < x)%Q -> (x <= y)%Q -> (log10 x <= log10 y)%Q) ->
    (0 < sqrt2)%Q ->
    forall d t1 t2,
      (0 < d_min_std d)%Q -> (forall l, d_last d = Some l -> (l <= t1)%Q) -> (t1 <= t2)%Q ->
      ext_le (phi erfc log10 sqrt sqrt2 d t1) (phi erfc log10 sqrt sqrt2 d t2).
Proof. exact phi_monotone. Qed.
Print Assumptions c13_phi_monotone.

Theorem c13_unavailable_stays :
  forall (erfc log10 sqrt : Q -> Q) (sqrt2 : Q),
    (forall x y, (x <= y)%Q -> (erfc y <= erfc x)%Q) ->
    (forall x y, (0 < x)%Q -> (x <= y)%Q -> (log10 x <= log10 y)%Q) ->
    (0 < sqrt2)%Q ->
    forall thr d t1 t2,
      (0 < d_min_std d)%Q -> (forall l, d_last d = Some l -> (l <= t1)%Q) -> (t1 <= t2)%Q ->
      is_available erfc log10 sqrt sqrt2 thr d t1 = false ->
      is_available erfc log10 sqrt sqrt2 thr d t2 = false.
Proof.
  intros erfc log10 sqrt sqrt2 He Hl Hs thr d t1 t2 Hms Hlast Ht.
  pose proof (phi_monotone erfc log10 sqrt sqrt2 He Hl Hs d t1 t2 Hms Hlast Ht) as H.
  unfold is_available. destruct (phi erfc log10 sqrt sqrt2 d t1) as [x|], (phi erfc log10 sqrt sqrt2 d t2) as [y|]; cbn in H; try tauto.
  destruct (Qlt_le_dec x thr); [discriminate|]. destruct (Qlt_le_dec y thr); [lra|reflexivity].
Qed.
Print Assumptions c13_unavailable_stays.

(** Accuracy.  In a cluster whose network delivers every message within [d] with [2 d] below
    the ack timeout ([cfg_ok]), started as start() leaves it ([init_ok]: nobody DEAD, symmetric
    membership, only probe ticks scheduled), along every schedule of [Net.wstep] — every
    interleaving of same-time events, every per-message delay in [0, d], every shuffle, every
    phi decision — no member is ever marked DEAD, no "dead" update is queued or in flight and
    no suspicion timeout is ever scheduled. *)
Theorem c13_no_false_dead_healthy :
  forall (cfgs : Z -> cfg) (d : Z), cfg_ok cfgs d ->
  forall w0 w : world, init_ok w0 -> reach cfgs d w0 w ->
    (forall n m, In m (members (nodes w n)) -> m_state m <> Dead) /\
    (forall n u, In u (pend (nodes w n)) -> u_kind u <> 1) /\
    (forall e, In e (pool w) ->
       match p_kind e with
       | PSusp _ => False
       | PPing _ us | PAck _ us => forall u, In u us -> u_kind u <> 1
       | _ => True
       end).
Proof.
  (* a run of [Net.wstep] is a run of [cstep] in which nobody stops *)
  intros cfgs d Hcfg w0 w H0 Hr.
  destruct (only_stopped_members_dead cfgs d Hcfg w0 w [] H0 (reach_creach _ _ _ _ Hr)) as (Hm & Hu & He).
  split; [exact Hm|]. split; [exact Hu|].
  intros e Hin. specialize (He e Hin). destruct (p_kind e); try exact He; intros u Hi Hk; exact (He u Hi Hk).
Qed.
Print Assumptions c13_no_false_dead_healthy.

(** ... in particular from the start configuration of an n-member full mesh, for every n,
    every time [probe] of the first probe ticks and every initial probe order (the probe
    intervals are those of [cfgs], arbitrary as well). *)
Theorem c13_no_false_dead_mesh :
  forall (cfgs : Z -> cfg) (d : Z), cfg_ok cfgs d ->
  forall (n probe : Z) (ord : Z -> list Z) (w : world),
    reach cfgs d (mesh_world n probe ord) w ->
    forall i m, In m (members (nodes w i)) -> m_state m <> Dead.
Proof.
  intros cfgs d Hc n probe ord w Hr.
  exact (proj1 (c13_no_false_dead_healthy cfgs d Hc _ _ (mesh_init_ok n probe ord) Hr)).
Qed.
Print Assumptions c13_no_false_dead_mesh.

(** the hypotheses are satisfiable: probe interval 1 s, ack timeout 0.5 s, delays up to 0.2 s *)
Example cfg_ok_satisfiable :
  cfg_ok (fun i => mkCfg i 1000000000 500000000 5000000000 3 true) 200000000.
Proof. split; [lia|]. intros n; cbn. lia. Qed.

(** Tie of the cluster relation to the implementation: a recorded run of a real cluster (the
    handler calls of all nodes in engine order with the observed message delays) that the
    checker [ok_world] accepts is a path of [Net.wstep] from the mesh start configuration. *)
Theorem c13_recorded_run_is_path :
  forall cl d n probe ords gs,
    ok_world (cl, d, n, probe, ords, gs) = true ->
    exists w, reach (fun i => nth (Z.to_nat i) cl (mkCfg i 0 0 0 0 true)) d
                    (mesh_world n probe (fun i => nth (Z.to_nat i) ords [])) w
              /\ wcheck (fun i => nth (Z.to_nat i) cl (mkCfg i 0 0 0 0 true)) d
                        (mesh_world n probe (fun i => nth (Z.to_nat i) ords [])) gs = Some w.
Proof. exact ok_world_sound. Qed.
Print Assumptions c13_recorded_run_is_path.

(** Detection, probe order: whatever the shuffles, a member that is not DEAD in a node's view
    is the probe target of one of that node's next 2 m probe ticks (m = number of non-DEAD
    members in its probe order).  Not composed with [c13_timeout_suspects] into a statement
    about runs. *)
Theorem c13_probed_within_two_rounds :
  forall ms ord idx shufs T,
    0 <= idx -> In T (filter (not_dead ms) ord) ->
    Forall (fun s => is_perm s (filter (not_dead ms) ord) = true) shufs ->
    (2 * length (filter (not_dead ms) ord) <= length shufs)%nat ->
    In T (firstn (2 * length (filter (not_dead ms) ord)) (probes ms ord idx shufs)).
Proof. exact probed_within_two_rounds. Qed.
Print Assumptions c13_probed_within_two_rounds.

(** the bound 2 m - 1 is reached in a concrete run (m = 3): T = 1 was just probed, the
    reshuffle at the third tick puts it last, the fifth tick probes it *)
Example probed_example :
  let ms := members (init_state [1; 2; 3] [1; 2; 3]) in
  probes ms [1; 2; 3] 1 [[]; []; [3; 2; 1]; []; []] = [2; 3; 3; 2; 1].
Proof. vm_compute. reflexivity. Qed.

(** Detection through phi: at a probe tick, an ALIVE member for which [is_available] is false
    (or that was never heard of while the threshold is not positive) is SUSPECT afterwards. *)
Theorem c13_tick_phi_suspects :
  forall c now st avail shuf T m,
    find_member T (members st) = Some m -> m_state m = Alive ->
    available c m (avail_at (members st) avail T) = false ->
    find_member T (members (fst (step c now st (ITick avail shuf)))) = Some (set_state Suspect m).
Proof.
  intros c now st avail shuf T m F Ha Hav. rewrite tick_members, find_phi_pass, F. cbn. now rewrite Ha, Hav.
Qed.
Print Assumptions c13_tick_phi_suspects.

(** Accuracy with stopping members.  Members may stop for good at arbitrary moments
    ([cs_crash], any set, any timing); every message is still delivered within [d] (to a
    stopped member it is dropped).  In every reachable configuration, whoever is DEAD in
    anybody's view has stopped: no member ever marks a live member DEAD.  The same for "dead"
    updates (queued or in flight) and for suspicion timeouts. *)
Theorem c13_only_stopped_members_dead :
  forall (cfgs : Z -> cfg) (d : Z), cfg_ok cfgs d ->
  forall (w0 w : world) (cr : list Z), init_ok w0 -> creach cfgs d w0 (w, cr) ->
    (forall n m, In m (members (nodes w n)) -> m_state m = Dead -> In (m_name m) cr) /\
    (forall n u, In u (pend (nodes w n)) -> u_kind u = 1 -> In (u_member u) cr) /\
    (forall e, In e (pool w) ->
       match p_kind e with
       | PSusp t => In t cr
       | PPing _ us | PAck _ us => forall u, In u us -> u_kind u = 1 -> In (u_member u) cr
       | _ => True
       end).
Proof. exact only_stopped_members_dead. Qed.
Print Assumptions c13_only_stopped_members_dead.

(** ... and the tie of that relation to runs in which the harness stops a member. *)
Theorem c13_recorded_crash_run_is_path :
  forall cl d n probe ords gs,
    ok_cworld (cl, d, n, probe, ords, gs) = true ->
    exists c, creach (fun i => nth (Z.to_nat i) cl (mkCfg i 0 0 0 0 true)) d
                     (mesh_world n probe (fun i => nth (Z.to_nat i) ords [])) c
              /\ ccheck (fun i => nth (Z.to_nat i) cl (mkCfg i 0 0 0 0 true)) d
                        (mesh_world n probe (fun i => nth (Z.to_nat i) ords []), []) gs = Some c.
Proof. exact ok_cworld_sound. Qed.
Print Assumptions c13_recorded_crash_run_is_path.

(** the hypotheses of the node-level detection theorems are satisfiable: probe 1, no ack,
    ack timeout => SUSPECT, suspicion timeout => DEAD, a late ping from 1 does not revive it *)
Example detection_example :
  let c := mkCfg 0 1000000000 500000000 5000000000 3 true in
  let s0 := init_state [1; 2] [1; 2] in
  let s1 := fst (step c 1000000000 s0 (ITick [true; true] [])) in
  let s2 := fst (step c 1500000000 s1 (IIndirect (Some 1) [2])) in
  let s3 := fst (step c 6500000000 s2 (ISusp (Some 1))) in
  let s4 := fst (step c 7000000000 s3 (IPing (Some 1) [])) in
  (is_member 1 (members s1), packs_get 1 (packs s1),
   option_map m_state (find_member 1 (members s2)),
   option_map m_state (find_member 1 (members s3)),
   option_map m_state (find_member 1 (members s4)))
  = (true, Some 0, Some Suspect, Some Dead, Some Dead).
Proof. vm_compute. reflexivity. Qed.

(** phi at two arbitrary instants (also before the last heartbeat, where the code returns 0.0):
    never decreasing, using additionally erfc <= 2 and log10 1 <= 0, which make phi non-negative
    ([PhiProofs.phi_nonneg]). *)
Theorem c13_phi_monotone_all :
  forall (erfc log10 sqrt : Q -> Q) (sqrt2 : Q),
    (forall x y, (x <= y)%Q -> (erfc y <= erfc x)%Q) ->
    (forall x y, (0 < x)%Q -> (x <= y)%Q -> (log10 x <= log10 y)%Q) ->
    (0 < sqrt2)%Q ->
    forall d t1 t2,
      (forall x, (erfc x <= 2)%Q) -> (log10 1 <= 0)%Q ->
      (0 < d_min_std d)%Q -> (t1 <= t2)%Q ->
      ext_le (phi erfc log10 sqrt sqrt2 d t1) (phi erfc log10 sqrt sqrt2 d t2).
Proof.
  (* an instant before the last heartbeat has phi 0, which is below every later value *)
  intros erfc log10 sqrt sqrt2 He Hl Hs d t1 t2 He2 Hl1 Hms Ht.
  destruct (d_last d) as [l|] eqn:EL; [destruct (Qlt_le_dec (t1 - l) 0) as [N1|N1]|].
  - rewrite (phi_before erfc log10 sqrt sqrt2 d l t1 EL N1). apply phi_nonneg; assumption.
  - apply phi_monotone; try assumption. intros l' E. rewrite EL in E. injection E as <-. lra.
  - apply phi_monotone; try assumption. intros l' E. rewrite EL in E. discriminate.
Qed.
Print Assumptions c13_phi_monotone_all.
