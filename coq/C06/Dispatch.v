(** C06 — what a crashed entity executes (Event.invoke, ProcessContinuation.invoke,
    QueuedResource worker adapter). *)
From HS Require Import Base.Prelude C06.Model C06.Registers.
Local Open Scope Z_scope.

Lemma proc_steps_ge t pid : forall ds k r, In r (proc_steps t pid k ds) -> k <= snd r.
Proof.
  intros ds; revert t. induction ds as [|d ds IH]; intros t k r; cbn; [intros []|].
  intros [<-|H]; [cbn; lia|]. apply IH in H. lia.
Qed.

Lemma In_plain sched x arrs r : In r (plain_activity sched x arrs) <->
  exists t pid ds, In (t, pid, ds) arrs /\ crashed_at sched t x = false /\
                   (r = (t, pid, 0) \/ In r (proc_steps t pid 1 ds)).
Proof.
  unfold plain_activity. rewrite in_flat_map. split.
  - intros (((t & pid) & ds) & Hi & Hr). exists t, pid, ds. split; [exact Hi|].
    destruct (crashed_at sched t x); [destruct Hr|]. split; [reflexivity|].
    destruct Hr as [<-|Hr]; auto.
  - intros (t & pid & ds & Hi & Hc & Hr). exists (t, pid, ds). split; [exact Hi|].
    rewrite Hc. destruct Hr as [->|Hr]; [now left|now right].
Qed.

(** The full clause is false — a process in flight at the crash instant
    keeps running.  Crash [2,10), one arrival at 1 whose handler yields 3 ns. *)
Definition crashed_executes_nothing_statement : Prop :=
  forall sched x arrs, wf sched -> forall t pid k,
  In (t, pid, k) (plain_activity sched x arrs) -> active sched x t = false.

Lemma In_qr_serve r : forall arrs free, In r (qr_serve free arrs) ->
  exists t d, In (t, snd (fst r), d) arrs.
Proof.
  induction arrs as [|((t & pid) & d) l IH]; intros free; cbn; [intros []|].
  intros [<-|[<-|H]]; [exists t, d; now left|exists t, d; now left|].
  destruct (IH _ H) as (t' & d' & Hi). exists t', d'. now right.
Qed.

(** But queued work is STARTED while the resource is crashed (the worker
    adapter carries no crash flag).  Crash [2,10); arrivals at 0 and 1, 3 ns each:
    the second handler is entered at 3. *)
Definition queued_no_entry_while_crashed_statement : Prop :=
  forall sched x arrs, wf sched -> forall t pid,
  In (t, pid, 0) (qr_activity sched x arrs) -> active sched x t = false.
