(** C16 — PageCache: capacity holds for non-overlapping operations and is
    violated (as is write-back safety) when operations overlap. *)
From HS Require Import Base.Prelude C16.Model C16.Lists C16.Policies C16.ModelPC.
Local Open Scope Z_scope.

(** [cfind] is the association-list lookup at [V := bool]. *)
Lemma cfind_In p d m : cfind p m = Some d -> In p (ckeys m).
Proof. exact (gget_Some_In p d m). Qed.

Lemma zlen_pins p d m : zlen (pins p d m) <= zlen m + 1.
Proof.
  unfold pins. destruct (cmem p m); [rewrite zlen_cset; lia|]. rewrite zlen_app. cbn. lia.
Qed.

Lemma zlen_ptouch p d m : In p (ckeys m) -> zlen (ptouch p d m) = zlen m.
Proof. intros H. unfold ptouch. rewrite zlen_app, zlen_cdel by exact H. cbn. lia. Qed.

Lemma perr_pupd s m d : perr (pupd s m d false) = perr s.
Proof. apply orb_false_r. Qed.

Section PC.
Variable c : pcfg.
Hypothesis Hcap : 1 <= pcap c.

(** the state a single running operation may be suspended in *)
Definition cont_ok (s : pst) (k : pcont) : Prop :=
  match k with
  | PKEvict v _ => cmem v (pages s) = true /\ zlen (pages s) <= pcap c
  | PKLoad _ _ => zlen (pages s) < pcap c
  | PKFlush _ _ _ => zlen (pages s) <= pcap c
  end.

Definition res_ok (x : pst * pres) : Prop :=
  perr (fst x) = false /\
  match snd x with
  | PYield _ k => cont_ok (fst x) k
  | PRet _ => zlen (pages (fst x)) <= pcap c
  | PRaise => False
  end.

Lemma pafter_ok s a : perr s = false -> zlen (pages s) < pcap c -> res_ok (pafter c s a).
Proof.
  intros He Hl. destruct a as [p i|p]; cbn [pafter]; split; cbn [fst snd pupd pages cont_ok]; auto.
  - rewrite perr_pupd. exact He.
  - pose proof (zlen_pins p true (pages s)). lia.
Qed.

(** Each iteration of [_ensure_space] that continues drops a clean page: [fuel]
    of them make room in a cache less than [fuel] over its capacity. *)
Lemma pensure_ok fuel : forall s a, perr s = false -> zlen (pages s) <= pcap c ->
  zlen (pages s) < pcap c + Z.of_nat fuel -> res_ok (pensure fuel c s a).
Proof.
  induction fuel as [|f IH]; intros s a He Hl Hf; cbn [pensure]; [apply pafter_ok; [exact He|lia]|].
  destruct (zlen (pages s) >=? pcap c) eqn:E; [|apply pafter_ok; [exact He|lia]].
  destruct (pages s) as [|[v b] r] eqn:Ep; [unfold zlen in E; cbn in E; lia|].
  rewrite zlen_cons in *. destruct b.
  - split; [exact He|]. cbn [fst snd cont_ok]. rewrite Ep, zlen_cons.
    split; [apply cmem_In; left; reflexivity|exact Hl].
  - apply IH; cbn [pupd pages]; [rewrite perr_pupd; exact He|lia|lia].
Qed.

Lemma pahead_ok fuel : forall s p i, perr s = false -> zlen (pages s) <= pcap c -> res_ok (pahead fuel c s p i).
Proof.
  induction fuel as [|f IH]; intros s p i He Hl; cbn [pahead]; [split; [exact He|exact Hl]|].
  destruct (i >? pra c); [split; [exact He|exact Hl]|].
  destruct (negb (cmem (p + i) (pages s)) && (zlen (pages s) <? pcap c)) eqn:E; [|apply IH; assumption].
  apply andb_true_iff in E as [_ E]. split; [exact He|]. cbn [snd fst cont_ok]. lia.
Qed.

Lemma pflush_next_ok s l n : perr s = false -> zlen (pages s) <= pcap c -> res_ok (pflush_next c s l n).
Proof.
  intros He Hl. unfold pflush_next. destruct (next_dirty s l) as [[k r]|]; split; cbn [fst snd cont_ok]; auto.
Qed.

Lemma ptouch_ok s p d d' : perr s = false -> zlen (pages s) <= pcap c -> cfind p (pages s) = Some d' ->
  res_ok (pupd s (ptouch p d (pages s)) [1] false, PRet None).
Proof.
  intros He Hl E. split; cbn [fst snd pupd pages]; [rewrite perr_pupd; exact He|].
  rewrite zlen_ptouch by exact (cfind_In _ _ _ E). exact Hl.
Qed.

Lemma pstart_ok s o : perr s = false -> zlen (pages s) <= pcap c -> res_ok (pstart c s o).
Proof.
  intros He Hl. destruct o as [p|p|]; cbn [pstart]; [| |apply pflush_next_ok; assumption].
  all: destruct (cfind p (pages s)) as [d|] eqn:E; [exact (ptouch_ok s p _ d He Hl E)|].
  all: apply pensure_ok; cbn [pupd pages]; [rewrite perr_pupd; exact He|exact Hl|lia].
Qed.

Lemma presume_ok s k : perr s = false -> cont_ok s k -> res_ok (presume c s k).
Proof.
  intros He Hk. destruct k as [v a|p i|key rest n]; cbn [presume cont_ok] in *.
  - destruct Hk as [Hm Hl]. rewrite Hm. pose proof (zlen_cdel v _ (proj1 (cmem_In _ _) Hm)) as Hd.
    apply pensure_ok; cbn [pupd pages]; [rewrite perr_pupd; exact He|lia|lia].
  - apply pahead_ok; cbn [pupd pages]; [rewrite perr_pupd; exact He|].
    pose proof (zlen_pins (p + i) false (pages s)). lia.
  - apply pflush_next_ok; cbn [pupd pages]; [rewrite perr_pupd; exact He|]. rewrite zlen_cset. exact Hk.
Qed.

(** a schedule without overlap: an operation starts only when none is running *)
Fixpoint sequential (y : psys) (l : list pact) : Prop :=
  match l with
  | [] => True
  | a :: r =>
      match a with
      | PStart _ _ => ppending y = []
      | PResume id => exists k, ppending y = [(id, k)]
      end /\ sequential (fst (pstep c y a)) r
  end.

Definition sys_ok (y : psys) : Prop :=
  perr (pstt y) = false /\
  match ppending y with
  | [] => zlen (pages (pstt y)) <= pcap c
  | [(_, k)] => cont_ok (pstt y) k
  | _ => False
  end.

Lemma settle_ok id x : res_ok x -> sys_ok (fst (psettle id [] x)).
Proof.
  destruct x as [s r]. intros [He Hr]. cbn [fst snd] in *. unfold psettle.
  destruct r; cbn [fst]; split; cbn [pstt ppending app]; auto. destruct Hr.
Qed.

Lemma prun_ok l : forall y, sys_ok y -> sequential y l ->
  sys_ok (prun c y l) /\ zlen (pages (pstt (prun c y l))) <= pcap c.
Proof.
  induction l as [|a l IH]; intros y Hy Hs; cbn [prun].
  - split; [exact Hy|]. destruct Hy as [He Hp]. destruct (ppending y) as [|[id k] [|? ?]]; [exact Hp| |destruct Hp].
    destruct k; cbn [cont_ok] in Hp; lia.
  - destruct Hs as [Ha Hs]. apply IH; [|exact Hs]. destruct Hy as [He Hp].
    destruct a as [id o|id]; cbn [pstep].
    + rewrite Ha in *. apply settle_ok. apply pstart_ok; assumption.
    + destruct Ha as [k Ha]. rewrite Ha in *. cbn [ppfind ppdel]. rewrite Z.eqb_refl.
      apply settle_ok. apply presume_ok; assumption.
Qed.

End PC.

Lemma sys_ok_init c : 1 <= pcap c -> sys_ok c psinit.
Proof. intros Hcap. split; [reflexivity|]. cbn. unfold zlen. cbn. lia. Qed.

Definition pagecache_capacity_statement : Prop :=
  forall c l, 1 <= pcap c -> zlen (pages (pstt (prun c psinit l))) <= pcap c.

(** Witness: capacity 1; read(1) and read(2) both find room, both wait for the
    disk, both insert. *)
Theorem pagecache_overlap_capacity_refuted : ~ pagecache_capacity_statement.
Proof.
  intros Hs.
  specialize (Hs {| pcap := 1; pra := 0; plat_r := 4; plat_w := 6 |}
                 [PStart 0 (PRead 1); PStart 1 (PRead 2); PResume 0; PResume 1] ltac:(cbn; lia)).
  vm_compute in Hs. apply Hs. reflexivity.
Qed.

Definition pagecache_dirty_statement : Prop :=
  forall c l a p, 1 <= pcap c ->
    let y := prun c psinit l in
    cfind p (pages (pstt y)) = Some true ->
    let y' := fst (pstep c y a) in
    cfind p (pages (pstt y')) = Some true \/ p_wb (pstt y') > p_wb (pstt y).

(** Witness: read(5) misses and waits for the disk; write(5) inserts a dirty
    page; the read then stores a clean page object over it: the dirty data is
    dropped without a write-back. *)
Theorem pagecache_load_overwrites_dirty_refuted : ~ pagecache_dirty_statement.
Proof.
  intros Hs.
  specialize (Hs {| pcap := 3; pra := 0; plat_r := 4; plat_w := 6 |}
                 [PStart 0 (PRead 5); PStart 1 (PWrite 5)] (PResume 0) 5 ltac:(cbn; lia)).
  cbn zeta in Hs. specialize (Hs ltac:(vm_compute; reflexivity)).
  vm_compute in Hs. destruct Hs as [Hs|Hs]; discriminate.
Qed.
