(** C02 — the script interpreter (Engine/Script.v) in normal form: what
    [run_hooks] does to the hook table, and [resume] / [resolve] / one [all_of]
    callback as equations between states, for every state. *)
From HS Require Import Base.Prelude Engine.Engine Engine.Script.
Local Open Scope Z_scope.

Lemma aget_aset_same {V} (d : V) k v m : aget d k (aset k v m) = v.
Proof.
  induction m as [|[k' v'] r IH]; cbn; [rewrite Z.eqb_refl; reflexivity|].
  destruct (k =? k') eqn:E; cbn; [rewrite Z.eqb_refl; reflexivity|]. rewrite E. exact IH.
Qed.

Lemma aget_aset_other {V} (d : V) k k2 v m : k2 <> k -> aget d k2 (aset k v m) = aget d k2 m.
Proof.
  intros Hne. induction m as [|[k' v'] r IH]; cbn.
  - destruct (Z.eqb_spec k2 k); [congruence|reflexivity].
  - destruct (Z.eqb_spec k k'); cbn.
    + subst. destruct (Z.eqb_spec k2 k'); [congruence|reflexivity].
    + destruct (k2 =? k'); [reflexivity|exact IH].
Qed.

Lemma aset_aset {V} k (v v' : V) m : aset k v (aset k v' m) = aset k v m.
Proof.
  induction m as [|[k' w] r IH]; cbn; [rewrite Z.eqb_refl; reflexivity|].
  destruct (k =? k') eqn:E; cbn; [rewrite Z.eqb_refl; reflexivity|]. rewrite E, IH. reflexivity.
Qed.

Lemma alookup_aset_same {V} k (v : V) m : alookup k (aset k v m) = Some v.
Proof.
  induction m as [|[k' w] r IH]; cbn; [rewrite Z.eqb_refl; reflexivity|].
  destruct (k =? k') eqn:E; cbn; [rewrite Z.eqb_refl; reflexivity|]. rewrite E. exact IH.
Qed.

Lemma create_emit_nohooks_hooks now e0 c :
  hooks (ix_u (fst (create_emit now (mkEmit e0 (-1) []) c))) = hooks (ix_u c) /\
  ulog (ix_u (fst (create_emit now (mkEmit e0 (-1) []) c))) = ulog (ix_u c).
Proof. unfold create_emit; cbn. split; reflexivity. Qed.

Lemma emit0_all_hooks now es : forall c,
  hooks (ix_u (emit0_all now es c)) = hooks (ix_u c) /\ ulog (ix_u (emit0_all now es c)) = ulog (ix_u c).
Proof.
  unfold emit0_all. induction es as [|e r IH]; intros c; cbn [map emit_all]; [split; reflexivity|].
  pose proof (create_emit_nohooks_hooks now e c) as H.
  destruct (create_emit now (mkEmit e (-1) []) c) as [c1 x]. destruct (IH (push_ev x c1)) as [-> ->]. exact H.
Qed.

(** Running the completion hooks of list [hid] changes the hook table in one
    place only: the list is emptied first, and the hooks' own events carry none. *)
Lemma run_hooks_table now hid c : 0 <= hid ->
  hooks (ix_u (run_hooks now hid c)) = aset hid [] (hooks (ix_u c)).
Proof.
  intros Hh. unfold run_hooks. destruct (hid <? 0) eqn:E; [lia|].
  set (c0 := set_u c _). change (aset hid [] (hooks (ix_u c))) with (hooks (ix_u c0)).
  clearbody c0. generalize 0 as i. revert c0.
  induction (aget [] hid (hooks (ix_u c))) as [|h hs IH]; intros c0 i; cbn; [reflexivity|].
  rewrite IH. destruct (emit0_all_hooks now h (set_u c0 (add_log (ix_u c0) (UHook now hid i)))) as [-> _].
  reflexivity.
Qed.

Theorem hooks_second_run_is_identity now now' hid c :
  run_hooks now' hid (run_hooks now hid c) = run_hooks now hid c.
Proof.
  destruct (hid <? 0) eqn:E; [unfold run_hooks; rewrite E; reflexivity|].
  pose proof (run_hooks_table now hid c ltac:(lia)) as T. set (c1 := run_hooks now hid c) in *.
  unfold run_hooks. rewrite E, T, aget_aset_same, aset_aset, <- T. destruct c1 as [[] ? ? ?]. reflexivity.
Qed.

(** The three writes out of which [resume], [park] and [resolve] are built: one
    future, one all_of record, one continuation event allocated and pushed. *)
Definition set_fut (c : ictx) (f : Z) (x : fut) : ictx :=
  set_u c (with_futs (ix_u c) (aset f x (futs (ix_u c)))).
Definition set_all (c : ictx) (comp : Z) (x : list val * Z) : ictx :=
  set_u c (with_alls (ix_u c) (aset comp x (alls (ix_u c)))).
Definition wake (now pid : Z) (v : val) (p : proc) (c : ictx) : ictx :=
  let '(c1, k) := new_ev now (pr_daemon p) (mkPay (pr_type p) (pr_target p) (pr_hid p) (KCont pid v)) c in
  push_ev k c1.

Lemma set_fut_eq c f x : set_u c (with_futs (ix_u c) (aset f x (futs (ix_u c)))) = set_fut c f x.
Proof. reflexivity. Qed.

Lemma ix_u_wake now pid v p c : ix_u (wake now pid v p c) = ix_u c.
Proof. reflexivity. Qed.

Lemma futs_set_fut_same c f x : aget fut0 f (futs (ix_u (set_fut c f x))) = x.
Proof. apply aget_aset_same. Qed.

Lemma futs_set_fut_other c f x g : g <> f ->
  aget fut0 g (futs (ix_u (set_fut c f x))) = aget fut0 g (futs (ix_u c)).
Proof. apply aget_aset_other. Qed.

Lemma set_fut_twice c f x y : set_fut (set_fut c f x) f y = set_fut c f y.
Proof. unfold set_fut. cbn. rewrite aset_aset. reflexivity. Qed.

Lemma resume_eq now f pid v c p : alookup pid (procs (ix_u c)) = Some p ->
  resume now f pid v c =
  wake now pid v p
    (set_fut c f (mkFut (f_resolved (aget fut0 f (futs (ix_u c)))) (f_value (aget fut0 f (futs (ix_u c)))) None
                        (f_cbs (aget fut0 f (futs (ix_u c)))))).
Proof. intros Hp. unfold resume. rewrite Hp. reflexivity. Qed.

Theorem resume_spec now f pid v c p :
  alookup pid (procs (ix_u c)) = Some p ->
  let c' := resume now f pid v c in
  exists k, ix_new c' = k :: ix_new c /\ ev_time k = now /\ ev_sort k = ix_ctr c /\
            p_kind (ev_pay k) = KCont pid v /\ p_target (ev_pay k) = pr_target p /\
            ix_ctr c' = ix_ctr c + 1 /\
            f_parked (aget fut0 f (futs (ix_u c'))) = None.
Proof.
  intros Hp c'. subst c'. rewrite (resume_eq _ _ _ _ _ p Hp). eexists. repeat split.
  rewrite ix_u_wake, futs_set_fut_same. reflexivity.
Qed.

Lemma resolve_input fuel now f v c :
  f_resolved (aget fut0 f (futs (ix_u c))) = false ->
  f_parked (aget fut0 f (futs (ix_u c))) = None ->
  resolve (S fuel) now f v c =
  fold_left (fire_cb (resolve fuel now) v) (f_cbs (aget fut0 f (futs (ix_u c))))
            (Some (set_fut c f (mkFut true v None []))).
Proof.
  intros Hr Hk. cbn [resolve]. rewrite Hr, Hk, !set_fut_eq, futs_set_fut_same, set_fut_twice. reflexivity.
Qed.

Lemma resolve_waited fuel now f v c pid p :
  f_resolved (aget fut0 f (futs (ix_u c))) = false ->
  f_parked (aget fut0 f (futs (ix_u c))) = Some pid ->
  alookup pid (procs (ix_u c)) = Some p ->
  resolve (S fuel) now f v c =
  fold_left (fire_cb (resolve fuel now) v) (f_cbs (aget fut0 f (futs (ix_u c))))
            (Some (wake now pid v p (set_fut c f (mkFut true v None [])))).
Proof.
  intros Hr Hk Hp. cbn [resolve]. rewrite Hr, Hk, !set_fut_eq.
  rewrite (resume_eq _ _ _ _ _ p) by exact Hp. rewrite futs_set_fut_same, set_fut_twice.
  cbn [f_resolved f_value f_cbs].
  rewrite ix_u_wake, futs_set_fut_same.
  unfold wake, set_fut. cbn. rewrite aset_aset. reflexivity.
Qed.

(** One [all_of] callback: a resolved composite ignores it; otherwise slot
    [idx] receives the value, and the composite resolves with all the values in
    argument order exactly when the last missing input settles. *)
Theorem all_of_callback_spec rec v c comp idx res rem :
  f_resolved (aget fut0 comp (futs (ix_u c))) = false ->
  aget ([], 0) comp (alls (ix_u c)) = (res, rem) ->
  let res' := set_nth (Z.to_nat idx) v res in
  let c' := set_all c comp (res', rem - 1) in
  fire_cb rec v (Some c) (CbAll comp idx) =
    if rem - 1 =? 0 then rec comp (VList res') c' else Some c'.
Proof. intros Hr Ha. cbn. rewrite Hr, Ha. reflexivity. Qed.

Theorem all_of_callback_ignored_when_resolved rec v c comp idx :
  f_resolved (aget fut0 comp (futs (ix_u c))) = true ->
  fire_cb rec v (Some c) (CbAll comp idx) = Some c.
Proof. intros Hr. cbn. rewrite Hr. reflexivity. Qed.
