(** ScriptProofs — the script interpreter satisfies the engine's handler
    interface ([invoke_ok]: every event it creates takes a fresh sort index from
    the counter), and a scripted simulation starts in a state satisfying the
    engine invariant.  Hence every theorem of EngineProofs.v holds for every
    script (every program, pre-run schedule, end_time and fuel). *)
From HS Require Import Base.Prelude Engine.Engine Engine.Script Engine.EngineProofs.
Local Open Scope Z_scope.

(** [good b c]: relative to the counter value [b] at the start of the
    invocation, all events accumulated so far carry distinct indices in
    [b, ix_ctr c). *)
Definition good (b : Z) (c : ictx) : Prop :=
  b <= ix_ctr c /\
  (forall x, In x (ix_new c) -> b <= ev_sort x < ix_ctr c) /\
  NoDup (map ev_sort (ix_new c)).

Lemma good_start b u : good b (mkI u b [] []).
Proof. unfold good; cbn. split; [lia|]. split; [intros x []|constructor]. Qed.

Lemma good_set_u b c u : good b c -> good b (set_u c u).
Proof. intros H; exact H. Qed.

Lemma good_cancel b c l : good b c -> good b (mkI (ix_u c) (ix_ctr c) (ix_new c) l).
Proof. intros H; exact H. Qed.

Lemma good_new b t d p c : good b c -> good b (fst (new_ev t d p c)).
Proof.
  intros (H1 & H2 & H3). unfold new_ev, good; cbn. split; [lia|]. split; [|exact H3].
  intros x Hx. specialize (H2 x Hx). lia.
Qed.

Lemma good_new_push b t d p c : good b c ->
  good b (push_ev (snd (new_ev t d p c)) (fst (new_ev t d p c))).
Proof.
  intros (H1 & H2 & H3). unfold new_ev, push_ev, good; cbn. split; [lia|]. split.
  - intros x [<-|Hx]; cbn; [lia|]. specialize (H2 x Hx). lia.
  - constructor; [|exact H3]. intros Hin. apply in_map_iff in Hin as [y [E Hy]]. specialize (H2 y Hy). lia.
Qed.

Definition hook_u (e : emit) (u : ustate) : ustate :=
  match e_hooks e with
  | [] => u
  | hs => mkU (prog u) (procs u) (next_pid u) (futs u) (next_fid u) (alls u) (aset (next_hid u) hs (hooks u))
              (next_hid u + 1) (labels u) (crashed u) (ulog u)
  end.
Definition hook_id (e : emit) (u : ustate) : Z := match e_hooks e with [] => -1 | _ => next_hid u end.
Definition label_u (e : emit) (id : Z) (u : ustate) : ustate :=
  if e_label e <? 0 then u else with_labels u (aset (e_label e) id (labels u)).

Lemma create_emit_eq now e c :
  create_emit now e c =
  (mkI (label_u e (ix_ctr c) (hook_u e (ix_u c))) (ix_ctr c + 1) (ix_new c) (ix_cancel c),
   mkEv (now + e_dt (em e)) (ix_ctr c) (e_daemon (em e))
        (mkPay (e_type (em e)) (e_target (em e)) (hook_id e (ix_u c)) KPlain)).
Proof. unfold create_emit, hook_u, hook_id, label_u. destruct (e_hooks e); reflexivity. Qed.

Lemma create_emit_good b now e c : good b c ->
  good b (push_ev (snd (create_emit now e c)) (fst (create_emit now e c))).
Proof. intros H. rewrite create_emit_eq. exact (good_new_push b _ _ _ c H). Qed.

Lemma emit_all_good b now es c : good b c -> good b (emit_all now es c).
Proof.
  revert c; induction es as [|e r IH]; intros c H; cbn; [exact H|].
  pose proof (create_emit_good b now e c H) as Hp.
  destruct (create_emit now e c) as [c1 x]; cbn [fst snd] in *. apply IH. exact Hp.
Qed.

Lemma run_hooks_good b now hid c : good b c -> good b (run_hooks now hid c).
Proof.
  intros H. unfold run_hooks. destruct (hid <? 0); [exact H|].
  set (c0 := set_u c _). assert (H0 : good b c0) by exact H. clearbody c0.
  generalize 0 as i. revert c0 H0.
  induction (aget [] hid (hooks (ix_u c))) as [|h hs IH]; intros c0 H0 i; cbn; [exact H0|].
  apply IH. unfold emit0_all. apply emit_all_good. exact H0.
Qed.

Lemma resume_good b now f pid v c : good b c -> good b (resume now f pid v c).
Proof.
  intros H. unfold resume. destruct (alookup pid (procs (ix_u c))) as [p|]; [|exact H].
  pose proof (good_new_push b now (pr_daemon p) (mkPay (pr_type p) (pr_target p) (pr_hid p) (KCont pid v)) c H) as Hp.
  destruct (new_ev _ _ _ c) as [c1 x]; cbn [fst snd] in *. exact Hp.
Qed.

Definition preserves (b : Z) (f : ictx -> option ictx) : Prop :=
  forall c c', f c = Some c' -> good b c -> good b c'.

Lemma fire_cb_good b rec v acc k c' :
  (forall f w, preserves b (rec f w)) ->
  fire_cb rec v acc k = Some c' -> (forall c, acc = Some c -> good b c) -> good b c'.
Proof.
  intros Hrec H Hacc. unfold fire_cb in H. destruct acc as [c|]; [|discriminate].
  specialize (Hacc c eq_refl). destruct k as [comp idx|comp idx].
  - eapply Hrec; eauto.
  - destruct (f_resolved _); [inversion H; subst; exact Hacc|].
    destruct (aget _ comp _) as [res rem].
    destruct (rem - 1 =? 0); [eapply Hrec; eauto|inversion H; subst; exact Hacc].
Qed.

Lemma fold_fire_good b rec v l acc c' :
  (forall f w, preserves b (rec f w)) ->
  fold_left (fire_cb rec v) l acc = Some c' -> (forall c, acc = Some c -> good b c) -> good b c'.
Proof.
  intros Hrec. revert acc; induction l as [|k l IH]; intros acc H Hacc; cbn in H.
  - apply Hacc; exact H.
  - eapply IH; [exact H|]. intros c E. eapply fire_cb_good; eauto.
Qed.

(** [resolve] on an unresolved future, up to the point where the callbacks fire. *)
Definition settled (now f : Z) (v : val) (c : ictx) : ictx :=
  let ft := aget fut0 f (futs (ix_u c)) in
  let c1 := set_u c (with_futs (ix_u c) (aset f (mkFut true v (f_parked ft) (f_cbs ft)) (futs (ix_u c)))) in
  let c2 := match f_parked ft with Some pid => resume now f pid v c1 | None => c1 end in
  let ft2 := aget fut0 f (futs (ix_u c2)) in
  set_u c2 (with_futs (ix_u c2) (aset f (mkFut true v (f_parked ft2) []) (futs (ix_u c2)))).

Lemma resolve_S fuel now f v c :
  resolve (S fuel) now f v c =
  if f_resolved (aget fut0 f (futs (ix_u c))) then Some c
  else fold_left (fire_cb (resolve fuel now) v) (f_cbs (aget fut0 f (futs (ix_u c)))) (Some (settled now f v c)).
Proof. reflexivity. Qed.

Lemma settled_good b now f v c : good b c -> good b (settled now f v c).
Proof.
  intros G. unfold settled. apply good_set_u.
  destruct (f_parked _); [apply resume_good|]; apply good_set_u; exact G.
Qed.

Lemma resolve_good b fuel now : forall f v, preserves b (resolve fuel now f v).
Proof.
  induction fuel as [|fuel IH]; intros f v c c' H G; [discriminate|]. rewrite resolve_S in H.
  destruct (f_resolved _); [inversion H; subst; exact G|].
  eapply fold_fire_good; [exact IH|exact H|].
  intros c0 E. inversion E; subst. apply settled_good, G.
Qed.

Lemma add_cb_good b fuel now f k : preserves b (add_cb fuel now f k).
Proof.
  intros c c' H G. unfold add_cb in H. destruct (f_resolved _).
  - eapply fire_cb_good; [apply resolve_good|exact H|]. intros c0 E; inversion E; subst; exact G.
  - inversion H; subst. exact G.
Qed.

Lemma add_cbs_good b fuel now mk : forall ids i, preserves b (add_cbs fuel now mk i ids).
Proof.
  induction ids as [|f r IH]; intros i c c' H G; cbn in H; [inversion H; subst; exact G|].
  destruct (add_cb fuel now f (mk i) c) as [c1|] eqn:E; [|discriminate].
  eapply IH; [exact H|]. eapply add_cb_good; eauto.
Qed.

Lemma fresh_fut_good b c : good b c -> good b (fst (fresh_fut c)).
Proof. intros H; exact H. Qed.

Section FexprInd.
  Variable Q : fexpr -> Prop.
  Hypothesis Hid : forall f, Q (FId f).
  Hypothesis Hany : forall l, Forall Q l -> Q (FAny l).
  Hypothesis Hall : forall l, Forall Q l -> Q (FAll l).
  Fixpoint fexpr_ind' (fe : fexpr) : Q fe :=
    let go := fix go (l : list fexpr) : Forall Q l :=
                match l with
                | [] => Forall_nil Q
                | x :: r => Forall_cons x (fexpr_ind' x) (go r)
                end in
    match fe with
    | FId f => Hid f
    | FAny l => Hany l (go l)
    | FAll l => Hall l (go l)
    end.
End FexprInd.

(** The argument loop of [eval_f] (written there as an inline [fix]). *)
Section EvalFs.
  Variables (fuel : nat) (now : Z).
  Fixpoint eval_fs (l : list fexpr) (c : ictx) : option (ictx * list Z) :=
    match l with
    | [] => Some (c, [])
    | x :: r => match eval_f fuel now x c with
                | None => None
                | Some (c1, f) => match eval_fs r c1 with
                                  | None => None
                                  | Some (c2, fs) => Some (c2, f :: fs)
                                  end
                end
    end.
End EvalFs.

(** The common shape of [any_of] and [all_of] ([prep]: the result slots of [all_of]). *)
Definition composite fuel now (mk : Z -> Z -> cb) (prep : ictx -> Z -> list Z -> ictx) l c : option (ictx * Z) :=
  match eval_fs fuel now l c with
  | None => None
  | Some (c1, ids) =>
      if (Z.of_nat (length ids) <? 2) then None else
      let '(c2, comp) := fresh_fut c1 in
      match add_cbs fuel now (mk comp) 0 ids (prep c2 comp ids) with
      | None => None
      | Some c3 => Some (c3, comp)
      end
  end.

Definition prep_all (c2 : ictx) (comp : Z) (ids : list Z) : ictx :=
  set_u c2 (with_alls (ix_u c2) (aset comp (map (fun _ => VNone) ids, Z.of_nat (length ids)) (alls (ix_u c2)))).

Lemma eval_f_any fuel now l c : eval_f fuel now (FAny l) c = composite fuel now CbAny (fun c2 _ _ => c2) l c.
Proof. reflexivity. Qed.

Lemma eval_f_all fuel now l c : eval_f fuel now (FAll l) c = composite fuel now CbAll prep_all l c.
Proof. reflexivity. Qed.

Lemma eval_fs_good b fuel now l :
  Forall (fun fe => forall c c' f, eval_f fuel now fe c = Some (c', f) -> good b c -> good b c') l ->
  forall c c' ids, eval_fs fuel now l c = Some (c', ids) -> good b c -> good b c'.
Proof.
  induction 1 as [|x r Hx _ IH]; intros c c' ids E G; cbn in E; [inversion E; subst; exact G|].
  destruct (eval_f fuel now x c) as [[cx fx]|] eqn:Ex; [|discriminate].
  destruct (eval_fs fuel now r cx) as [[c2 fs]|] eqn:E2; [|discriminate].
  inversion E; subst. eapply IH; [exact E2|]. eapply Hx; eauto.
Qed.

Lemma composite_good b fuel now mk prep l c c' f :
  (forall c2 comp ids, good b c2 -> good b (prep c2 comp ids)) ->
  Forall (fun fe => forall c c' f, eval_f fuel now fe c = Some (c', f) -> good b c -> good b c') l ->
  composite fuel now mk prep l c = Some (c', f) -> good b c -> good b c'.
Proof.
  intros Hprep Hl H G. unfold composite in H.
  destruct (eval_fs fuel now l c) as [[c1 ids]|] eqn:E1; [|discriminate].
  destruct (Z.of_nat (length ids) <? 2); [discriminate|]. cbn [fresh_fut] in H.
  destruct (add_cbs _ _ _ _ _ _) as [c3|] eqn:E3; [|discriminate]. inversion H; subst.
  eapply add_cbs_good; [exact E3|]. apply Hprep. exact (eval_fs_good b fuel now l Hl _ _ _ E1 G).
Qed.

Lemma eval_f_good b fuel now : forall fe c c' f, eval_f fuel now fe c = Some (c', f) -> good b c -> good b c'.
Proof.
  intros fe. induction fe as [f0|l Hl|l Hl] using fexpr_ind'; intros c c' f H G.
  - inversion H; subst; exact G.
  - rewrite eval_f_any in H. eapply composite_good; [|exact Hl|exact H|exact G]. auto.
  - rewrite eval_f_all in H. eapply composite_good; [|exact Hl|exact H|exact G]. auto.
Qed.

Lemma park_good b now f pid : preserves b (park now f pid).
Proof.
  intros c c' H G. unfold park in H. destruct (f_parked _); [destruct (f_resolved _); discriminate|].
  destruct (f_resolved _); inversion H; subst; [apply resume_good|]; apply good_set_u; exact G.
Qed.

Lemma do_eff_good b fuel now x : preserves b (do_eff fuel now x).
Proof.
  intros c c' H G. destruct x as [l|f v|ent bb]; cbn in H.
  - destruct (alookup l _); inversion H; subst; [apply good_cancel|]; exact G.
  - eapply resolve_good; eauto.
  - inversion H; subst. apply good_set_u; exact G.
Qed.

Lemma advance_good b fuel now e pid p : forall steps, preserves b (advance fuel now e pid p steps).
Proof.
  induction steps as [|s r IH]; intros c c' H G; cbn in H.
  - inversion H; subst. apply run_hooks_good. apply good_set_u. apply emit_all_good. exact G.
  - destruct s as [dt effs|fe|x].
    + pose proof (good_new_push b (ev_time e + dt) (pr_daemon p)
                                (mkPay (pr_type p) (pr_target p) (pr_hid p) (KCont pid VNone))
                                (emit_all now effs c) (emit_all_good _ _ _ _ G)) as Hp.
      inversion H; subst. unfold good, push_ev, new_ev, set_u in *; cbn in *. exact Hp.
    + destruct (eval_f fuel now fe c) as [[c1 f]|] eqn:E; [|discriminate].
      eapply park_good; [exact H|]. apply good_set_u. eapply eval_f_good; eauto.
    + destruct (do_eff fuel now x c) as [c1|] eqn:E; [|discriminate].
      eapply IH; [exact H|]. eapply do_eff_good; eauto.
Qed.

Lemma do_actions_good b fuel now : forall acts, preserves b (do_actions fuel now acts).
Proof.
  induction acts as [|a r IH]; intros c c' H G; cbn in H; [inversion H; subst; exact G|].
  destruct a as [e|x].
  - pose proof (create_emit_good b now e c G) as Hp.
    destruct (create_emit now e c) as [c1 y]; cbn [fst snd] in *. eapply IH; eauto.
  - destruct (do_eff fuel now x c) as [c1|] eqn:E; [|discriminate]. eapply IH; eauto. eapply do_eff_good; eauto.
Qed.

Lemma good_result b c : good b c ->
  b <= ix_ctr c /\ (forall x, In x (rev (ix_new c)) -> b <= ev_sort x < ix_ctr c) /\
  NoDup (map ev_sort (rev (ix_new c))).
Proof.
  intros (H1 & H2 & H3). split; [exact H1|]. split.
  - intros x Hx. apply H2. apply in_rev. exact Hx.
  - rewrite map_rev. apply NoDup_rev. exact H3.
Qed.

Lemma invoke_ctx_good u now e c c' : invoke_ctx u now e c = Some c' -> good c c'.
Proof.
  pose proof (good_start c) as G0.
  unfold invoke_ctx. destruct (p_kind (ev_pay e)) as [|pid v].
  - destruct (existsb _ (crashed u)); [intros H; inversion H; subst; apply G0|].
    destruct (behaviour_of _ _ _) as [[acts|steps ret]|].
    + destruct (do_actions _ _ _ _) as [c1|] eqn:E1; [|discriminate].
      intros H; inversion H; subst. apply run_hooks_good.
      eapply do_actions_good; [exact E1|]. apply good_set_u, G0.
    + intros H. unfold start_process in H. eapply advance_good; [exact H|]. apply good_set_u.
      apply good_new. apply good_set_u. apply good_set_u, G0.
    + intros H; inversion H; subst. apply run_hooks_good. apply good_set_u, G0.
  - destruct (alookup pid (procs u)) as [pr|].
    + intros H. eapply advance_good; [exact H|]. apply good_set_u, G0.
    + intros H; inversion H; subst. apply G0.
Qed.

Theorem invoke_script_ok : invoke_ok pay ustate invoke_script.
Proof.
  intros u now e c r H. unfold invoke_script, finish in H.
  destruct (invoke_ctx u now e c) as [c0|] eqn:E; [|discriminate].
  inversion H; subst; cbn. apply good_result. eapply invoke_ctx_good; eauto.
Qed.

Lemma script_init_clock start p pre : clock (script_init start p pre) = start.
Proof. reflexivity. Qed.

Lemma script_init_inv start p pre : Inv pay ustate (script_init start p pre).
Proof.
  unfold script_init.
  set (F := fun c ps => _).
  assert (Hg : forall l c, good 0 c -> good 0 (fold_left F l c)).
  { induction l as [|ps l IH]; intros c G; cbn [fold_left]; [exact G|]. apply IH. unfold F.
    set (e := mkEmit _ _ _). pose proof (create_emit_good 0 0 e c G) as Hp.
    destruct (create_emit 0 e c) as [c1 x]. destruct (ps_cancel ps); exact Hp. }
  specialize (Hg pre _ (good_start 0 (u_init p))). set (c := fold_left F pre _) in *. clearbody c.
  destruct (good_result _ _ Hg) as (H1 & H2 & H3).
  apply init_inv; [exact H3|]. intros x Hx. specialize (H2 x Hx). lia.
Qed.

Theorem script_run_inv fuel start end_ns p pre :
  Inv pay ustate (out_state (script_run fuel start end_ns p pre)).
Proof. apply run_inv; [exact invoke_script_ok|apply script_init_inv]. Qed.
