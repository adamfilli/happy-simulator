(** C12 — LeaderElection with the Bully / Ring / Randomized strategies: when all
    nodes have the same member map, every leader any node ever reports is the
    greatest member; hence no two different leaders are ever reported (for the
    same term or otherwise), under any delays, reordering, loss, timeout
    timing and random draws. *)
From HS Require Import Base.Prelude C12.Model C12.PaxosNode C12.ElectionModel.
From Coq Require Import Sorted Permutation.
Local Open Scope Z_scope.

(** Python's [sorted]: [isort l] is [l] rearranged in ascending order. *)
Lemma insert_perm y l : Permutation (insert y l) (y :: l).
Proof.
  induction l as [|z r IH]; cbn; [reflexivity|].
  destruct (y <=? z); [reflexivity|]. rewrite IH. apply perm_swap.
Qed.

Lemma isort_perm l : Permutation (isort l) l.
Proof.
  induction l as [|y r IH]; [constructor|].
  change (isort (y :: r)) with (insert y (isort r)). rewrite insert_perm, IH. reflexivity.
Qed.

Lemma insert_sorted y l : StronglySorted Z.le l -> StronglySorted Z.le (insert y l).
Proof.
  induction 1 as [|z r S IH F]; cbn; [repeat constructor|].
  destruct (Z.leb_spec y z) as [L|L].
  - repeat constructor; auto. eapply Forall_impl; [|exact F]. cbn; intros; lia.
  - constructor; [exact IH|]. apply (Permutation_Forall (Permutation_sym (insert_perm y r))).
    constructor; [lia|exact F].
Qed.

Lemma isort_sorted l : StronglySorted Z.le (isort l).
Proof. induction l; cbn; [constructor|apply insert_sorted; auto]. Qed.

(** In a sorted list in which [x] occurs exactly once, the element after [x]
    is greater than [x]; if there is none, [x] is the greatest element. *)
Lemma next_in_sorted l x d : StronglySorted Z.le l -> count_occ Z.eq_dec l x = 1%nat ->
  (S (index_of x l) < length l)%nat /\ x < nth (S (index_of x l)) l d
  \/ (S (index_of x l) = length l /\ forall y, In y l -> y <= x).
Proof.
  induction 1 as [|z r S IH F]; [discriminate|].
  cbn [index_of length]. destruct (Z.eqb_spec x z) as [<-|N].
  - rewrite count_occ_cons_eq by reflexivity. intros C.
    assert (NI : ~ In x r) by (apply (count_occ_not_In Z.eq_dec); congruence).
    destruct r as [|y r']; [right|left].
    + split; [reflexivity|]. intros y [<-|[]]. apply Z.le_refl.
    + split; [apply -> Nat.succ_lt_mono; apply Nat.lt_0_succ|].
      cbn [nth]. apply Z.le_neq. split; [exact (Forall_inv F)|]. intros <-. apply NI. left. reflexivity.
  - rewrite count_occ_cons_neq by congruence. intros C.
    destruct (IH C) as [[L G]|[L G]]; [left|right].
    + split; [apply -> Nat.succ_lt_mono; exact L|exact G].
    + split; [f_equal; exact L|]. intros y [<-|H]; [|exact (G y H)].
      rewrite Forall_forall in F. apply F, (count_occ_In Z.eq_dec). rewrite C. constructor.
Qed.

Lemma fold_max_le m l : (forall x, In x l -> x <= m) -> forall d, d <= m -> fold_right Z.max d l <= m.
Proof.
  induction l as [|a r IH]; cbn; intros B d D; [exact D|].
  specialize (IH (fun x H => B x (or_intror H)) d D). specialize (B a (or_introl eq_refl)). lia.
Qed.

Lemma fold_max_ge m d l : In m l -> m <= fold_right Z.max d l.
Proof. induction l as [|a r IH]; cbn; [tauto|]. intros [->|H]; [|specialize (IH H)]; lia. Qed.

Lemma zmax_list_is l m : In m l -> (forall x, In x l -> x <= m) -> zmax_list l = m.
Proof.
  intros I B. unfold zmax_list. apply Z.le_antisymm; [|apply fold_max_ge, I].
  apply fold_max_le; [exact B|]. destruct l; [contradiction|]. apply B. left. reflexivity.
Qed.

Section Uniform.
  (** All nodes share the member list; [mx] is its greatest element. *)
  Variable members : list Z.
  Variable mx : Z.
  Hypothesis mx_in : In mx members.
  Hypothesis mx_max : forall m, In m members -> m <= mx.
  Variable strat : strategy.
  Variable tmo hb : Z.

  Definition cf (i : Z) : ecfg := mkEC i members strat tmo hb.

  Lemma filter_nil_mx p : filter p members = [] -> p mx = false.
  Proof.
    intros F. destruct (p mx) eqn:E; [|reflexivity].
    assert (H : In mx (filter p members)) by (apply filter_In; auto). rewrite F in H. contradiction.
  Qed.

  Lemma ring_perm me : Permutation (ring_of me members) (me :: filter (fun m => negb (m =? me)) members).
  Proof. unfold ring_of. rewrite isort_perm. symmetry. apply Permutation_cons_append. Qed.

  Lemma ring_next_gt me : In me members -> me <> mx -> me < ring_next me members.
  Proof.
    intros I N. unfold ring_next. set (ring := ring_of me members).
    assert (C : count_occ Z.eq_dec ring me = 1%nat).
    { rewrite (proj1 (Permutation_count_occ Z.eq_dec _ _) (ring_perm me)), count_occ_cons_eq by reflexivity.
      f_equal. apply count_occ_not_In. intros H. apply filter_In in H as [_ H]. lia. }
    destruct (next_in_sorted ring me me (isort_sorted _) C) as [[L G]|[L G]].
    - rewrite Nat.mod_small by lia. exact G.
    - (* [me] is last in its ring, which contains [mx] *)
      exfalso. pose proof (mx_max me I). enough (mx <= me) by lia.
      apply G, (Permutation_in _ (Permutation_sym (ring_perm me))). right. apply filter_In. split; [exact mx_in|lia].
  Qed.

  Definition lgood (l : option Z) : Prop := l = None \/ l = Some mx.

  Definition good_msg (dst : Z) (m : emsg) : Prop :=
    match m with
    | KVictory l _ => l = mx
    | KToken init cands _ => (forall x, In x cands -> In x members) /\ (In mx cands \/ init < dst)
    | _ => True
    end.

  Definition good_to (dm : Z * emsg) : Prop := good_msg (fst dm) (snd dm).

  Definition good_out (o : eout) : Prop :=
    match o with
    | OEMsg d m => In d members /\ good_msg d m
    | OEHeartbeat d l _ => In d members /\ l = mx
    | OETimer _ => True
    end.

  Definition good_in (me : Z) (i : ein) : Prop :=
    match i with
    | EMsg _ _ m => good_msg me m
    | EHeartbeat _ l _ => l = mx
    | _ => True
    end.

  Definition good_res (r : estate * list eout) : Prop := lgood (eleader (fst r)) /\ Forall good_out (snd r).

  Lemma is_member_In me x : is_member (cf me) x = true -> In x members.
  Proof. intros H. apply existsb_exists in H as [y [I Q]]. assert (x = y) by lia; subst; auto. Qed.

  Lemma send_all_good me msgs : Forall good_to msgs -> Forall good_out (send_all (cf me) msgs).
  Proof.
    intros H. apply Forall_map, Forall_forall. intros [d m] I. apply filter_In in I as [I M].
    rewrite Forall_forall in H. split; [exact (is_member_In me d M)|exact (H _ I)].
  Qed.

  (** Passing the Ring token on from [me]: once [mx] has signed it stays signed;
      until then the initiator is below the next holder, because the ring
      ascends from every member but [mx]. *)
  Lemma token_pass me init cands t : In me members ->
    (forall x, In x cands -> In x members) -> In mx cands \/ init <= me ->
    good_msg (ring_next me members) (KToken init (cands ++ [me]) t).
  Proof.
    intros I Sub Or. split.
    - intros x H. apply in_app_or in H as [H|[<-|[]]]; auto.
    - destruct (Z.eq_dec me mx) as [->|N]; [left; apply in_or_app; right; left; reflexivity|].
      destruct Or as [Or|Or]; [left; apply in_or_app; auto|].
      right. pose proof (ring_next_gt me I N). lia.
  Qed.

  (** The token is back at its initiator: [mx] has signed it. *)
  Lemma token_home me cands t : good_msg me (KToken me cands t) -> zmax_list cands = mx.
  Proof. intros [Sub [H|H]]; [|lia]. apply zmax_list_is; auto. Qed.

  (** messages produced by [get_election_messages] are good, and when they are
      all Victory announcements (or there is none) the node is the greatest member. *)
  Lemma get_msgs_good me term rnd : In me members ->
    Forall good_to (get_msgs (cf me) term rnd) /\
    (all_victory (get_msgs (cf me) term rnd) = true -> me = mx).
  Proof.
    intros I. unfold get_msgs. cbn [eme emembers estrat cf]. destruct strat.
    - destruct (filter (fun m => me <? m) members) as [|h r] eqn:F.
      + apply filter_nil_mx in F. pose proof (mx_max me I). assert (E : me = mx) by lia.
        split; [|auto]. apply Forall_map_all. intros x. exact E.
      + split; [apply Forall_map_all; intros x; exact Logic.I|discriminate].
    - split; [|discriminate]. constructor; [|constructor].
      apply (token_pass me me [] term I); [intros x []|right; lia].
    - split; [apply Forall_map_all; intros x; exact Logic.I|].
      destruct (filter (fun m => negb (m =? me)) members) as [|h r] eqn:F; [|discriminate].
      intros _. apply filter_nil_mx in F. lia.
  Qed.

  Lemma start_election_good me s rnd : In me members -> lgood (eleader s) -> good_res (start_election (cf me) s rnd).
  Proof.
    intros I G. unfold start_election. destruct (get_msgs_good me (eterm s + 1) rnd I) as [A B].
    split; [|apply send_all_good, A]. cbn [fst].
    destruct (get_msgs (cf me) (eterm s + 1) rnd) as [|x r] eqn:E.
    - right. cbn. rewrite (B eq_refl). reflexivity.
    - destruct (all_victory (x :: r)) eqn:V; [|exact G]. right. cbn. rewrite (B eq_refl). reflexivity.
  Qed.

  Lemma handle_msg_good me rnd m : In me members -> good_msg me m ->
    let '(resp, ld, _, _) := handle_msg (cf me) rnd m in Forall good_to resp /\ lgood ld.
  Proof.
    intros I G. unfold handle_msg. cbn [eme emembers estrat cf].
    assert (Q : Forall good_to [] /\ lgood None) by (split; [constructor|left; reflexivity]).
    assert (One : forall d x, good_msg d x -> Forall good_to [(d, x)] /\ lgood None).
    { intros d x H. split; [repeat constructor; exact H|left; reflexivity]. }
    destruct m; cbn in G.
    - destruct strat; try exact Q. destruct (challenger <? me); [apply One|]; auto.
    - destruct strat; exact Q.
    - subst leader. destruct strat; (split; [constructor|right; reflexivity]).
    - destruct strat; try exact Q. destruct (Z.eqb_spec initiator me) as [->|N].
      + rewrite (token_home me cands term G). split; [|right; reflexivity].
        apply Forall_map_all. intros x. reflexivity.
      + destruct G as [Sub Or]. apply One, token_pass; auto. destruct Or; [auto|right; lia].
    - destruct strat; try exact Q. apply One. exact Logic.I.
    - destruct strat; exact Q.
  Qed.

  Lemma leader_is_mx me s : lgood (eleader s) -> e_is_leader (cf me) s = true -> me = mx.
  Proof.
    unfold e_is_leader. intros [G|G]; rewrite G; [discriminate|]. cbn. lia.
  Qed.

  Lemma timeout_good me s now rnd : In me members -> lgood (eleader s) -> good_res (estep (cf me) s (ETimeout now rnd)).
  Proof.
    intros I G. cbn [estep]. set (r := if e_is_leader (cf me) s then _ else _).
    assert (R : good_res r).
    { unfold r. destruct (e_is_leader (cf me) s) eqn:L.
      - split; [exact G|]. apply Forall_map, Forall_forall. intros x H. apply filter_In in H as [H _].
        split; [exact H|exact (leader_is_mx me s G L)].
      - destruct (_ && _); [apply start_election_good; auto|split; [exact G|constructor]]. }
    destruct R as [A B]. destruct r as [s1 evs].
    split; [exact A|]. apply Forall_app. split; [exact B|repeat constructor].
  Qed.

  Lemma msg_good me s now rnd m : In me members -> lgood (eleader s) -> good_msg me m ->
    good_res (estep (cf me) s (EMsg now rnd m)).
  Proof.
    intros I G GM. cbn [estep]. pose proof (handle_msg_good me rnd m I GM) as H.
    destruct (handle_msg (cf me) rnd m) as [[[resp ld] suppress] own]. destruct H as [HR HL].
    set (s0 := mkE _ _ _ _ _ _ (epart s + 1)).
    set (s1 := match ld with Some l => _ | None => s0 end).
    assert (G1 : lgood (eleader s1)) by (unfold s1; destruct ld; [exact HL|exact G]).
    set (r := if own && negb (einprog s1) then _ else _).
    assert (R : good_res r).
    { unfold r. destruct (_ && _); [apply start_election_good; auto|split; [exact G1|constructor]]. }
    destruct R as [A B]. destruct r as [s2 evs2].
    split; [destruct suppress; exact A|]. apply Forall_app. split; [apply send_all_good, HR|exact B].
  Qed.

  Lemma estep_good me s i : In me members -> lgood (eleader s) -> good_in me i -> good_res (estep (cf me) s i).
  Proof.
    intros I G GI. destruct i.
    - split; [exact G|repeat constructor].
    - apply timeout_good; auto.
    - cbn in GI. subst leader. cbn [estep]. destruct (eterm s <=? term); (split; [|constructor]); [right; reflexivity|exact G].
    - apply msg_good; auto.
  Qed.

  Record einv (w : esys) : Prop := {
    ei_nodes : forall i, lgood (eleader (enodes w i));
    ei_net : Forall good_out (enet w);
  }.

  (** schedules whose timeout / start actions address members *)
  Definition act_ok (a : eaction) : Prop :=
    match a with EATimeout i _ _ | EAStart i _ => In i members | _ => True end.

  Lemma esys_handle_inv w i inp net' : einv w -> In i members -> good_in i inp -> Forall good_out net' ->
    einv (esys_handle cf w i inp net').
  Proof.
    intros [N M] I GI F. unfold esys_handle.
    destruct (estep_good i (enodes w i) inp I (N i) GI) as [A B].
    destruct (estep (cf i) (enodes w i) inp) as [s' outs]. cbn [fst snd] in *. split; cbn.
    - intros j. destruct (j =? i); auto.
    - apply Forall_app. split; [exact F|exact (incl_Forall (incl_filter _ _) B)].
  Qed.

  Lemma esys_step_inv w a : einv w -> act_ok a -> einv (esys_step cf w a).
  Proof.
    intros I A. pose proof I as [N M].
    assert (R : forall k, Forall good_out (remove_nth k (enet w))) by (intros k; exact (incl_Forall (remove_nth_incl k _) M)).
    destruct a; cbn [esys_step].
    - destruct (nth_error (enet w) k) as [o|] eqn:E; [|exact I].
      assert (G : good_out o) by (rewrite Forall_forall in M; exact (M o (nth_error_In _ _ E))).
      destruct o; [..|exact I]; destruct G as [G1 G2]; apply esys_handle_inv; auto.
    - split; [exact N|exact (R k)].
    - apply esys_handle_inv; auto. exact Logic.I.
    - apply esys_handle_inv; auto. exact Logic.I.
  Qed.

  Lemma esys_run_inv sch : Forall act_ok sch -> einv (esys_run cf sch).
  Proof.
    intros F. apply (fold_left_inv_Forall (esys_step cf) einv act_ok esys_step_inv _ _ F).
    split; [left; reflexivity|constructor].
  Qed.

  (** Whoever is reported as leader, at any moment of any run, is the greatest member. *)
  Theorem leader_is_greatest sch i a :
    Forall act_ok sch -> eleader (enodes (esys_run cf sch) i) = Some a -> a = mx.
  Proof. intros F A. destruct (ei_nodes _ (esys_run_inv sch F) i) as [N|N]; congruence. Qed.
End Uniform.

(** The hypotheses are satisfiable and a leader does get elected: Bully, three
    members, the greatest one times out and announces victory. *)
Example election_demo :
  let w := esys_run (cf [3; 1; 2] Bully 10 5) [EAStart 3 0; EATimeout 3 11 0; EADeliver 0 12 0; EADeliver 0 12 0] in
  eleader (enodes w 1) = Some 3 /\ eleader (enodes w 2) = Some 3 /\ eleader (enodes w 3) = Some 3.
Proof. vm_compute. auto. Qed.
