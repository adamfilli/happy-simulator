(** C14 — the generator API of the LSM tree, operations that run alone:
    an operation whose segments are not interleaved with any other operation
    has exactly the effect and the result of the sequential model, hence (by
    LsmProofs) of the reference map.  This is the [_partial] counterpart of the
    refuted overlap clause. *)
From HS Require Import Base.Prelude Base.Lists C14.Model C14.LsmProofs.
Local Open Scope Z_scope.

Definition abs_levels (ls : list (list tbl)) : list level := map (map tdata) ls.

Definition abs (st : cstate) : lsm :=
  {| mem := c_mem st; levels := abs_levels (c_levels st); ncomp := c_ncomp st; nflush := c_nflush st |}.

Definition uniq_level (l : list tbl) : Prop := NoDup (map tid l).
Definition bounded (n : Z) (l : list tbl) : Prop := uniq_level l /\ forall x, In x l -> tid x < n.
Definition uniq (st : cstate) : Prop := forall l, In l (c_levels st) -> bounded (c_next st) l.

Lemma uniq_level_inj l : uniq_level l -> forall t u, In t l -> In u l -> tid t = tid u -> t = u.
Proof.
  unfold uniq_level. induction l as [|x r IH]; cbn; intros Hu t u Ht Hu' E; [destruct Ht|].
  inversion Hu as [|? ? Hx Hr]; subst. destruct Ht as [->|Ht], Hu' as [->|Hu'].
  - reflexivity.
  - exfalso. apply Hx. rewrite E. apply in_map. assumption.
  - exfalso. apply Hx. rewrite <- E. apply in_map. assumption.
  - auto.
Qed.

Lemma remove_all_ids l : remove_ids (map tid l) l = [].
Proof.
  unfold remove_ids.
  assert (forall ids, incl (map tid l) ids -> filter (fun t => negb (existsb (Z.eqb (tid t)) ids)) l = []) as H.
  { induction l as [|x r IH]; cbn; intros ids Hi; [reflexivity|].
    assert (existsb (Z.eqb (tid x)) ids = true) as ->
      by (apply existsb_exists; exists (tid x); split; [apply Hi; left; reflexivity|apply Z.eqb_refl]).
    apply IH. intros y Hy. apply Hi. right. exact Hy. }
  apply H, incl_refl.
Qed.

Lemma remove_selected p l : uniq_level l ->
  map tdata (remove_ids (map tid (filter p l)) l) = map tdata (filter (fun t => negb (p t)) l).
Proof.
  unfold remove_ids. intros Hu. f_equal. apply filter_ext_in. intros t Ht. f_equal.
  destruct (p t) eqn:Ep.
  - apply existsb_exists. exists (tid t). split; [|apply Z.eqb_refl]. apply in_map. apply filter_In. tauto.
  - destruct (existsb (Z.eqb (tid t)) (map tid (filter p l))) eqn:E; [|reflexivity]. exfalso.
    apply existsb_exists in E. destruct E as [i [Hi Heq]]. apply Z.eqb_eq in Heq. subst i.
    apply in_map_iff in Hi. destruct Hi as [u [Hid Hu']]. apply filter_In in Hu'. destruct Hu' as [Hu' Hpu].
    rewrite (uniq_level_inj l Hu u t Hu' Ht Hid) in Hpu. congruence.
Qed.

Lemma map_filter_proj {A B} (p : A -> B) (f : B -> bool) l :
  map p (filter (fun x => f (p x)) l) = filter f (map p l).
Proof. induction l as [|t r IH]; cbn; [reflexivity|]. destruct (f (p t)); cbn; now rewrite IH. Qed.

Lemma bounded_le n n' l : n <= n' -> bounded n l -> bounded n' l.
Proof. intros Hn [A B]. split; [assumption|]. intros x Hx. specialize (B x Hx). lia. Qed.

Lemma bounded_remove n ids l : bounded n l -> bounded n (remove_ids ids l).
Proof.
  unfold bounded, uniq_level, remove_ids. intros [A B]. split.
  - rewrite (map_filter_proj tid (fun i => negb (existsb (Z.eqb i) ids))). apply NoDup_filter, A.
  - intros x Hx. apply filter_In in Hx. apply B, Hx.
Qed.

Lemma bounded_append n l m : bounded n l -> bounded (n + 1) (l ++ [mkTbl n m]).
Proof.
  unfold bounded, uniq_level. intros [A B]. split.
  - rewrite map_app. cbn [map tid]. apply (NoDup_Add (Add_app n (map tid l) [])). rewrite app_nil_r.
    split; [exact A|]. intros Hin. apply in_map_iff in Hin. destruct Hin as [x [E Hx]]. specialize (B x Hx). lia.
  - intros x Hx. apply in_app_iff in Hx. destruct Hx as [Hx|[<-|[]]]; [specialize (B x Hx); lia|cbn; lia].
Qed.

Lemma in_upd_nth {A} (f : A -> A) ls : forall n x, In x (upd_nth n f ls) -> exists y, In y ls /\ (x = y \/ x = f y).
Proof.
  induction ls as [|l r IH]; intros n x H.
  - destruct n; cbn in H; destruct H.
  - destruct n; cbn in H.
    + destruct H as [H|H]; [exists l; split; [left; reflexivity|right; auto]|exists x; split; [right; assumption|left; reflexivity]].
    + destruct H as [H|H]; [exists l; split; [left; reflexivity|left; auto]|].
      destruct (IH _ _ H) as [y [Hy Hx]]. exists y. split; [right; assumption|assumption].
Qed.

Lemma bounded_upd_nth n n' i f (ls : list (list tbl)) :
  (forall l, bounded n l -> bounded n' (f l)) -> n <= n' ->
  (forall l, In l ls -> bounded n l) -> forall l, In l (upd_nth i f ls) -> bounded n' l.
Proof.
  intros Hf Hn H l Hl. apply in_upd_nth in Hl. destruct Hl as [y [Hy [->| ->]]].
  - apply (bounded_le n); auto.
  - auto.
Qed.

Lemma uniq_compact_end st s t a b m : uniq st -> uniq (compact_end st s t a b m).
Proof.
  unfold uniq, compact_end. cbn [c_levels c_next]. intros H.
  apply (bounded_upd_nth (c_next st)); [intros l; apply bounded_append|clear; lia|].
  apply (bounded_upd_nth (c_next st)); [intros l; apply bounded_remove|apply Z.le_refl|].
  apply (bounded_upd_nth (c_next st)); [intros l; apply bounded_remove|apply Z.le_refl|exact H].
Qed.

Lemma upd_nth_mid {A} (f : A -> A) pre x l : upd_nth (length pre) f (pre ++ x :: l) = pre ++ f x :: l.
Proof. induction pre as [|a pre IH]; [reflexivity|exact (f_equal (cons a) IH)]. Qed.

Lemma upd_nth_mid_S {A} (f : A -> A) pre x y l :
  upd_nth (S (length pre)) f (pre ++ x :: y :: l) = pre ++ x :: f y :: l.
Proof. induction pre as [|a pre IH]; [reflexivity|exact (f_equal (cons a) IH)]. Qed.

Lemma nth_middle_S {A} pre (x y : A) l d : nth (S (length pre)) (pre ++ x :: y :: l) d = y.
Proof. induction pre as [|a pre IH]; [reflexivity|exact IH]. Qed.

Lemma nth_nonempty_split {A} s (ls : list (list A)) : nth s ls [] <> [] ->
  exists pre rest, ls = pre ++ nth s ls [] :: rest /\ length pre = s.
Proof.
  intros H. destruct (Nat.lt_ge_cases s (length ls)) as [L|L].
  - destruct (@nth_split _ s ls [] L) as (l1 & l2 & E & El). eauto.
  - rewrite nth_overflow in H by assumption. congruence.
Qed.

(** what [compact_begin] computes from the source index [s]: the target
    index, the overlapping tables of the target level, the merged table *)
Definition tgt_index (s : nat) (ls : list (list tbl)) : nat := Nat.min (S s) (pred (length ls)).

Definition ov_tables (s : nat) (ls : list (list tbl)) : list tbl :=
  if Nat.eqb (tgt_index s ls) s then []
  else filter (fun x => is_overlapping (map tdata (nth s ls [])) (tdata x)) (nth (tgt_index s ls) ls []).

Definition new_table (s : nat) (ls : list (list tbl)) : table :=
  let m0 := fold_left add_absent (map tdata (ov_tables s ls)) (merge_src (map tdata (nth s ls []))) in
  if Nat.eqb (tgt_index s ls) (pred (length ls)) then drop_tombs m0 else m0.

Lemma tgt_index_at pre (srcs : list tbl) rest :
  tgt_index (length pre) (pre ++ srcs :: rest) =
    match rest with [] => length pre | _ :: _ => S (length pre) end.
Proof. unfold tgt_index. rewrite app_length. destruct rest; cbn [length]; lia. Qed.

Lemma ov_tables_at pre srcs rest :
  ov_tables (length pre) (pre ++ srcs :: rest) =
    match rest with
    | [] => []
    | tgt :: _ => filter (fun x => is_overlapping (map tdata srcs) (tdata x)) tgt
    end.
Proof.
  unfold ov_tables. rewrite tgt_index_at, nth_middle. destruct rest as [|tgt rest'].
  - now rewrite Nat.eqb_refl.
  - rewrite nth_middle_S. destruct (Nat.eqb_spec (S (length pre)) (length pre)); [lia|reflexivity].
Qed.

Lemma new_table_at pre srcs rest :
  new_table (length pre) (pre ++ srcs :: rest) = merged (map tdata srcs) (abs_levels rest).
Proof.
  unfold new_table. rewrite tgt_index_at, ov_tables_at, nth_middle, app_length.
  destruct rest as [|tgt [|l rest']]; cbn [length abs_levels map merged].
  - replace (pred (length pre + 1)) with (length pre) by lia. now rewrite Nat.eqb_refl.
  - replace (pred (length pre + 2)) with (S (length pre)) by lia. rewrite Nat.eqb_refl.
    now rewrite (map_filter_proj tdata (is_overlapping (map tdata srcs))).
  - destruct (Nat.eqb_spec (S (length pre)) (pred (length pre + S (S (S (length rest')))))); [lia|].
    now rewrite (map_filter_proj tdata (is_overlapping (map tdata srcs))).
Qed.

Lemma install_at pre srcs rest newid m : (forall l, In l rest -> uniq_level l) ->
  let ls := pre ++ srcs :: rest in
  let t := tgt_index (length pre) ls in
  abs_levels (upd_nth t (fun l => l ++ [mkTbl newid m])
               (upd_nth t (remove_ids (map tid (ov_tables (length pre) ls)))
                 (upd_nth (length pre) (remove_ids (map tid srcs)) ls)))
  = abs_levels pre ++ install (map tdata srcs) (abs_levels rest) m.
Proof.
  intros Hu. cbv zeta. rewrite tgt_index_at, ov_tables_at, upd_nth_mid, remove_all_ids.
  unfold abs_levels. destruct rest as [|tgt rest'].
  - rewrite !upd_nth_mid, map_app. reflexivity.
  - rewrite !upd_nth_mid_S, map_app. cbn [map install]. rewrite map_app.
    rewrite remove_selected by (apply Hu; left; reflexivity).
    now rewrite (map_filter_proj tdata (fun d => negb (is_overlapping (map tdata srcs) d))).
Qed.

Lemma compact_index_struct s ls newid :
  (forall l, In l ls -> uniq_level l) -> nth s ls [] <> [] ->
  compact_levels s (abs_levels ls) =
    match new_table s ls with
    | [] => abs_levels ls
    | m => abs_levels (upd_nth (tgt_index s ls) (fun l => l ++ [mkTbl newid m])
                        (upd_nth (tgt_index s ls) (remove_ids (map tid (ov_tables s ls)))
                          (upd_nth s (remove_ids (map tid (nth s ls []))) ls)))
    end.
Proof.
  intros Hu Hne. destruct (nth_nonempty_split s ls Hne) as (pre & rest & E & <-).
  remember (nth (length pre) ls []) as srcs eqn:Es. clear Es. subst ls.
  rewrite new_table_at.
  assert (compact_levels (length pre) (abs_levels (pre ++ srcs :: rest)) =
          abs_levels pre ++ compact_levels 0 (map tdata srcs :: abs_levels rest)) as ->.
  { unfold abs_levels. rewrite map_app. cbn [map].
    rewrite <- (map_length (map tdata) pre). apply compact_levels_app. }
  rewrite compact_levels_0. destruct srcs as [|t0 srcs']; [congruence|]. cbn [map].
  destruct (merged (tdata t0 :: map tdata srcs') (abs_levels rest)) eqn:Em.
  - unfold abs_levels. rewrite map_app. reflexivity.
  - rewrite <- Em. symmetry. apply (install_at pre (t0 :: srcs') rest).
    intros l Hl. apply Hu, in_app_iff. right. right. exact Hl.
Qed.

Lemma selection_nonempty_nth s (ls : list (list tbl)) :
  selection_nonempty s (abs_levels ls) = match nth s ls [] with [] => false | _ => true end.
Proof.
  unfold selection_nonempty, abs_levels. revert s. induction ls as [|l r IH]; intros s.
  - destruct s; reflexivity.
  - destruct s; cbn; [destruct l; reflexivity|apply IH].
Qed.

(** the segments of one operation executed back to back *)
Fixpoint run_alone (fuel : nat) (c : cfg) (bl : list Z -> Z -> bool) (st : cstate) (a : action) : option (cstate * out) :=
  match fuel with
  | O => None
  | S f => match seg c bl st a with
           | (st', RDone r) => Some (st', r)
           | (st', RYield _ k) => run_alone f c bl st' (AResume k)
           end
  end.

Fixpoint seq_exec (fuel : nat) (c : cfg) (bl : list Z -> Z -> bool) (st : cstate) (ops : list op) : option (cstate * list out) :=
  match ops with
  | [] => Some (st, [])
  | o :: r =>
      match run_alone fuel c bl st (AStart o) with
      | None => None
      | Some (st', x) =>
          match seq_exec fuel c bl st' r with
          | None => None
          | Some (st'', xs) => Some (st'', x :: xs)
          end
      end
  end.

Definition finish (fuel : nat) (c : cfg) (bl : list Z -> Z -> bool) (p : cstate * result) : option (cstate * out) :=
  match p with
  | (st, RDone r) => Some (st, r)
  | (st, RYield _ k) => run_alone fuel c bl st (AResume k)
  end.

Lemma run_alone_S fuel c bl st a : run_alone (S fuel) c bl st a = finish fuel c bl (seg c bl st a).
Proof. reflexivity. Qed.

Lemma compact_alone c bl fuel st st' r : uniq st ->
  finish fuel c bl (compact_begin c st) = Some (st', r) ->
  r = ONone /\ abs st' = maybe_compact c (abs st) /\ uniq st' /\ c_imm st' = c_imm st.
Proof.
  intros Hu. unfold compact_begin, maybe_compact. cbn [abs levels]. fold (abs_levels (c_levels st)).
  destruct (pick (strat c) (abs_levels (c_levels st))) as [s|]; [|intros H; injection H as <- <-; auto].
  rewrite selection_nonempty_nth. cbv zeta.
  fold (tgt_index s (c_levels st)). fold (ov_tables s (c_levels st)). fold (new_table s (c_levels st)).
  destruct (nth s (c_levels st) []) as [|t0 srcs'] eqn:Es; [intros H; injection H as <- <-; auto|].
  assert (nth s (c_levels st) [] <> []) as Hne by (rewrite Es; discriminate).
  pose proof (compact_index_struct s (c_levels st) (c_next st) (fun l Hl => proj1 (Hu l Hl)) Hne) as E.
  rewrite Es in E.
  destruct (new_table s (c_levels st)) as [|p m'] eqn:Em; cbn [finish].
  - intros H. injection H as <- <-. split; [reflexivity|]. split; [|split; [exact Hu|reflexivity]].
    unfold abs. cbn. now rewrite E.
  - destruct fuel as [|fuel]; [discriminate|]. cbn [run_alone seg]. intros H. injection H as <- <-.
    split; [reflexivity|]. split; [|split; [apply uniq_compact_end, Hu|reflexivity]].
    unfold abs, compact_end. cbn. now rewrite E.
Qed.

Definition compaction_result (r : result) : Prop :=
  match r with RDone ONone | RYield _ (KCompactWait _ _ _ _ _) => True | _ => False end.

Lemma compact_begin_shape c st : compaction_result (snd (compact_begin c st)).
Proof.
  unfold compact_begin. case (pick (strat c) _); [intros s|exact I].
  case (nth s (c_levels st) []); [exact I|intros t0 r0]. cbv beta iota zeta.
  match goal with |- context [match ?m with [] => _ | _ :: _ => _ end] => case m end; intros; exact I.
Qed.

Lemma flush_begin_yields st : c_mem st <> [] ->
  exists st' ns, flush_begin st = (st', RYield ns (KFlushWait (c_next st) (c_mem st))).
Proof. unfold flush_begin. destruct (c_mem st); [congruence|]. eauto. Qed.

Definition quiet (st : cstate) : Prop := uniq st /\ c_imm st = [].

Lemma sset_nonempty k v t : sset k v t <> [].
Proof. destruct t as [|[a b] r]; cbn; [discriminate|]. destruct (k <? a); [discriminate|]. destruct (k =? a); discriminate. Qed.

Lemma abs_levels_upd0 t ls : abs_levels (upd_nth 0 (fun l => l ++ [t]) ls) = push_l0 (tdata t) (abs_levels ls).
Proof. destruct ls as [|l r]; cbn; [reflexivity|]. now rewrite map_app. Qed.

Lemma flush_alone c bl fuel st st' r : quiet st -> c_mem st <> [] ->
  finish fuel c bl (flush_begin st) = Some (st', r) ->
  r = ONone /\ abs st' = flush c (abs st) /\ quiet st'.
Proof.
  intros [Hu Hi] Hm. unfold flush_begin, flush. cbn [abs mem].
  destruct (c_mem st) as [|p m'] eqn:Em; [congruence|]. rewrite <- Em. cbn [finish].
  destruct fuel as [|fuel]; [discriminate|]. rewrite run_alone_S. cbn [seg]. unfold flush_end.
  cbn [c_mem c_mid c_imm c_levels c_ncomp c_nflush c_next]. rewrite Hi. cbn [app filter fst].
  rewrite Z.eqb_refl. cbn [negb].
  intros H. apply compact_alone in H.
  - destruct H as (-> & A & Hu' & Hi'). split; [reflexivity|]. split; [|split; [exact Hu'|exact Hi']].
    rewrite A. unfold abs. cbn [c_mem c_levels c_ncomp c_nflush mem levels ncomp nflush]. now rewrite abs_levels_upd0.
  - unfold uniq. cbn [c_levels c_next].
    apply (bounded_upd_nth (c_next st + 2)); [intros l; apply bounded_append|clear; lia|].
    intros l Hl. apply (bounded_le (c_next st)); [clear; lia|apply Hu, Hl].
Qed.

Lemma put_resume_alone c bl fuel st st' r : quiet st -> c_mem st <> [] ->
  run_alone fuel c bl st (AResume (KPutWait (c_mid st))) = Some (st', r) ->
  r = ONone /\ abs st' = (if zlen (c_mem st) >=? thr c then flush c (abs st) else abs st) /\ quiet st'.
Proof.
  intros Q Hm. destruct fuel as [|fuel]; [discriminate|]. rewrite run_alone_S. cbn [seg].
  rewrite Z.eqb_refl. destruct (zlen (c_mem st) >=? thr c).
  - apply flush_alone; assumption.
  - cbn [finish]. intros H. injection H as <- <-. auto.
Qed.

Lemma write_alone c bl st k v fuel st' r (o : op) :
  seg c bl st (AStart o) =
    (mkC (sset k v (c_mem st)) (c_mid st) (c_imm st) (c_levels st) (c_ncomp st) (c_nflush st) (c_next st),
     RYield MEM_NS (KPutWait (c_mid st))) ->
  quiet st ->
  run_alone fuel c bl st (AStart o) = Some (st', r) ->
  r = ONone /\ abs st' = write c (abs st) k v /\ quiet st'.
Proof.
  intros E1 Q H. destruct fuel as [|fuel]; [discriminate|]. rewrite run_alone_S, E1 in H. cbn [finish] in H.
  set (st1 := mkC (sset k v (c_mem st)) _ _ _ _ _ _) in H.
  exact (put_resume_alone c bl fuel st1 st' r Q (sset_nonempty k v (c_mem st)) H).
Qed.


Lemma skipn_plus {A} (l : list A) : forall a b, skipn a (skipn b l) = skipn (b + a) l.
Proof.
  intros a b. revert l. induction b as [|b IH]; intros l; [reflexivity|].
  destruct l as [|x r]; cbn [skipn Nat.add]; [destruct a; reflexivity|apply IH].
Qed.

Section GetAlone.
Variable bl : list Z -> Z -> bool.
Hypothesis bl_no_false_negative : forall ks k, In k ks -> bl ks k = true.

(** what is still to be searched from iterator position (level suffix, n) *)
Fixpoint rest_level (k : Z) (l : list tbl) (n : nat) : option sval :=
  match n with
  | O => None
  | S n' => match nth_error l n' with
            | None => None
            | Some t => match assoc k (tdata t) with Some v => Some v | None => rest_level k l n' end
            end
  end.

Fixpoint rest_levels (k : Z) (ls : list (list tbl)) (n : nat) : option sval :=
  match ls with
  | [] => None
  | l :: r => match rest_level k l n with
              | Some v => Some v
              | None => rest_levels k r (match r with [] => O | l' :: _ => length l' end)
              end
  end.

Lemma get_level_spec k l n :
  match get_level bl k l n with
  | None => rest_level k l n = None
  | Some (n', t) => rest_level k l n = match assoc k t with Some v => Some v | None => rest_level k l n' end
  end.
Proof.
  induction n as [|n IH]; cbn; [reflexivity|].
  destruct (nth_error l n) as [t|]; [|reflexivity].
  destruct (bl (keys (tdata t)) k) eqn:Eb; cbn.
  - destruct (tdata t) as [|p r] eqn:Et; cbn.
    + exact IH.
    + reflexivity.
  - assert (assoc k (tdata t) = None) as ->.
    { destruct (assoc k (tdata t)) eqn:Ea; [|reflexivity]. apply assoc_some_keys in Ea.
      rewrite bl_no_false_negative in Eb by assumption. discriminate. }
    exact IH.
Qed.

Lemma get_levels_spec k : forall ls li n,
  match get_levels bl k ls li n with
  | RDone x => x = OGet None /\ rest_levels k ls n = None
  | RYield _ kk =>
      exists d n' t, kk = KGetWait k (li + d) n' t /\
        rest_levels k ls n = match assoc k t with Some v => Some v | None => rest_levels k (skipn d ls) n' end
  end.
Proof.
  induction ls as [|l r IH]; intros li n; cbn [get_levels].
  - split; reflexivity.
  - pose proof (get_level_spec k l n) as G. destruct (get_level bl k l n) as [[n' t]|].
    + exists 0%nat, n', t. rewrite Nat.add_0_r. split; [reflexivity|]. cbn [skipn rest_levels].
      rewrite G. destruct (assoc k t); [reflexivity|]. reflexivity.
    + specialize (IH (S li) (match r with [] => 0%nat | l' :: _ => length l' end)).
      destruct (get_levels bl k r (S li) _) as [ns kk|x].
      * destruct IH as (d & n' & t & -> & E). exists (S d), n', t. split; [now rewrite Nat.add_succ_r|].
        cbn [rest_levels skipn]. rewrite G. exact E.
      * destruct IH as [-> E]. split; [reflexivity|]. cbn [rest_levels]. rewrite G. exact E.
Qed.

Lemma get_resume_alone c fuel : forall st k li n held st' r,
  run_alone fuel c bl st (AResume (KGetWait k li n held)) = Some (st', r) ->
  st' = st /\
  r = OGet (ext (match assoc k held with Some v => Some v | None => rest_levels k (skipn li (c_levels st)) n end)).
Proof.
  induction fuel as [|fuel IH]; intros st k li n held st' r H; [discriminate|].
  cbn [run_alone seg] in H. rewrite (tbl_get_assoc bl bl_no_false_negative) in H.
  destruct (assoc k held) as [v|]; [injection H as <- <-; split; reflexivity|].
  unfold get_from in H.
  pose proof (get_levels_spec k (skipn li (c_levels st)) li n) as G.
  destruct (get_levels bl k (skipn li (c_levels st)) li n) as [ns kk|x].
  - destruct G as (d & n' & t & -> & E). apply IH in H. destruct H as [-> ->]. split; [reflexivity|].
    rewrite E. rewrite skipn_plus. reflexivity.
  - destruct G as [-> E]. injection H as <- <-. rewrite E. split; reflexivity.
Qed.

Lemma rest_level_lget k l : forall n, (n <= length l)%nat ->
  rest_level k l n = lget k (map tdata (firstn n l)).
Proof.
  induction n as [|n IH]; intros Hn; [reflexivity|]. cbn [rest_level].
  destruct (nth_error l n) as [t|] eqn:Et.
  - rewrite (firstn_S_nth l n t Et), map_app, lget_app. cbn [map lget]. now rewrite IH by apply Nat.lt_le_incl, Hn.
  - apply nth_error_None in Et. destruct (Nat.lt_irrefl n). exact (Nat.lt_le_trans _ _ _ Hn Et).
Qed.

Lemma rest_levels_lsget k : forall ls,
  rest_levels k ls (match ls with [] => O | l :: _ => length l end) = lsget k (abs_levels ls).
Proof.
  induction ls as [|l r IH]; [reflexivity|]. cbn [rest_levels abs_levels map lsget].
  rewrite rest_level_lget by apply le_n. rewrite firstn_all. fold (abs_levels r). rewrite IH. reflexivity.
Qed.

Lemma get_alone c fuel st k st' r : c_imm st = [] ->
  run_alone fuel c bl st (AStart (Get k)) = Some (st', r) ->
  st' = st /\ r = OGet (lsm_get bl (abs st) k).
Proof.
  intros Hi H. unfold lsm_get. rewrite (raw_get_raw bl bl_no_false_negative). unfold raw. cbn [abs mem levels].
  destruct fuel as [|fuel]; [discriminate|]. cbn [run_alone seg] in H.
  destruct (assoc k (c_mem st)) as [v|]; [injection H as <- <-; split; reflexivity|].
  rewrite Hi in H. cbn [imm_get] in H.
  (* what is left is a get resumed at the top of L0 after an empty table *)
  assert (run_alone (S fuel) c bl st (AResume (KGetWait k 0 (l0_len st) [])) = Some (st', r)) as H'
    by (cbn [run_alone seg]; rewrite (tbl_get_assoc bl bl_no_false_negative); exact H).
  apply get_resume_alone in H'. destruct H' as [-> ->]. split; [reflexivity|].
  cbn [assoc skipn]. unfold l0_len. now rewrite rest_levels_lsget.
Qed.

Definition fr (lo hi : Z) (t : table) : table := filter (in_range lo hi) t.

Fixpoint srest_level (lo hi : Z) (m : table) (l : list tbl) (n : nat) : table :=
  match n with
  | O => m
  | S n' => match nth_error l n' with
            | None => m
            | Some t => srest_level lo hi (add_absent m (fr lo hi (tdata t))) l n'
            end
  end.

Fixpoint srest_levels (lo hi : Z) (m : table) (ls : list (list tbl)) (n : nat) : table :=
  match ls with
  | [] => m
  | l :: r => srest_levels lo hi (srest_level lo hi m l n) r (match r with [] => O | l' :: _ => length l' end)
  end.

Lemma scan_level_c_spec lo hi l : forall n m,
  match scan_level_c lo hi m l n with
  | (m', None) => m' = srest_level lo hi m l n
  | (m', Some (n', t)) => srest_level lo hi m l n = srest_level lo hi (add_absent m' (fr lo hi t)) l n'
  end.
Proof.
  induction n as [|n IH]; intros m; cbn [scan_level_c srest_level]; [reflexivity|].
  destruct (nth_error l n) as [t|]; [|reflexivity].
  destruct (scan_pages lo hi (tdata t) >? 0); [reflexivity|]. apply IH.
Qed.

Lemma scan_levels_c_spec lo hi : forall ls m li n,
  match scan_levels_c lo hi m ls li n with
  | RDone x => x = OScan (live (srest_levels lo hi m ls n))
  | RYield _ kk =>
      exists d n' t m', kk = KScanWait lo hi m' (li + d) n' t /\
        srest_levels lo hi m ls n = srest_levels lo hi (add_absent m' (fr lo hi t)) (skipn d ls) n'
  end.
Proof.
  induction ls as [|l r IH]; intros m li n; cbn [scan_levels_c srest_levels]; [reflexivity|].
  pose proof (scan_level_c_spec lo hi l n m) as G. destruct (scan_level_c lo hi m l n) as [m' [[n' t]|]].
  - exists 0%nat, n', t, m'. rewrite Nat.add_0_r. split; [reflexivity|]. cbn [skipn srest_levels]. now rewrite G.
  - subst m'. specialize (IH (srest_level lo hi m l n) (S li) (match r with [] => 0%nat | l' :: _ => length l' end)).
    destruct (scan_levels_c lo hi _ r (S li) _) as [ns kk|x]; [|exact IH].
    destruct IH as (d & n' & t & m' & -> & E). exists (S d), n', t, m'. split; [now rewrite Nat.add_succ_r|]. exact E.
Qed.

Lemma scan_resume_alone c fuel : forall st lo hi m li n held st' r,
  run_alone fuel c bl st (AResume (KScanWait lo hi m li n held)) = Some (st', r) ->
  st' = st /\ r = OScan (live (srest_levels lo hi (add_absent m (fr lo hi held)) (skipn li (c_levels st)) n)).
Proof.
  induction fuel as [|fuel IH]; intros st lo hi m li n held st' r H; [discriminate|].
  cbn [run_alone seg] in H. fold (fr lo hi held) in H.
  pose proof (scan_levels_c_spec lo hi (skipn li (c_levels st)) (add_absent m (fr lo hi held)) li n) as G.
  destruct (scan_levels_c lo hi _ (skipn li (c_levels st)) li n) as [ns kk|x].
  - destruct G as (d & n' & t & m' & -> & E). apply IH in H. destruct H as [-> ->]. split; [reflexivity|].
    rewrite E, skipn_plus. reflexivity.
  - subst x. injection H as <- <-. split; reflexivity.
Qed.

Lemma srest_level_scan lo hi l : forall n m, (n <= length l)%nat ->
  srest_level lo hi m l n = fold_left (fun m t => add_absent m (fr lo hi t)) (rev (map tdata (firstn n l))) m.
Proof.
  induction n as [|n IH]; intros m Hn; [reflexivity|]. cbn [srest_level].
  destruct (nth_error l n) as [t|] eqn:Et.
  - rewrite (firstn_S_nth l n t Et), map_app, rev_app_distr. cbn [map rev app fold_left].
    apply IH, Nat.lt_le_incl, Hn.
  - apply nth_error_None in Et. destruct (Nat.lt_irrefl n). exact (Nat.lt_le_trans _ _ _ Hn Et).
Qed.

Lemma srest_levels_scan lo hi : forall ls m,
  srest_levels lo hi m ls (match ls with [] => O | l :: _ => length l end) =
  fold_left (scan_level lo hi) (abs_levels ls) m.
Proof.
  induction ls as [|l r IH]; intros m; [reflexivity|]. cbn [srest_levels abs_levels map fold_left].
  rewrite srest_level_scan by apply le_n. rewrite firstn_all. fold (abs_levels r). rewrite IH. reflexivity.
Qed.

Lemma scan_alone c fuel st lo hi st' r : c_imm st = [] ->
  run_alone fuel c bl st (AStart (Scan lo hi)) = Some (st', r) ->
  st' = st /\ r = OScan (lsm_scan lo hi (abs st)).
Proof.
  intros Hi H. set (m0 := set_all [] (filter (in_range lo hi) (c_mem st))).
  (* the first segment is a scan resumed at the top of L0 after an empty table *)
  assert (run_alone fuel c bl st (AResume (KScanWait lo hi m0 0 (l0_len st) [])) = Some (st', r)) as H'
    by (destruct fuel; [discriminate|]; cbn [run_alone seg] in H |- *; rewrite Hi in H; exact H).
  apply scan_resume_alone in H'. destruct H' as [-> ->]. split; [reflexivity|].
  exact (f_equal (fun m => OScan (live m)) (srest_levels_scan lo hi (c_levels st) m0)).
Qed.

Lemma op_alone c fuel st o st' r : quiet st ->
  run_alone fuel c bl st (AStart o) = Some (st', r) ->
  quiet st' /\ abs st' = apply c (abs st) o /\ r = op_out bl (abs st) o.
Proof.
  intros Q H. destruct o as [k v|k|k|lo hi].
  - destruct (write_alone c bl st k (Val v) fuel st' r (Put k v) eq_refl Q H) as (-> & A & Q'). auto.
  - destruct (write_alone c bl st k Tomb fuel st' r (Del k) eq_refl Q H) as (-> & A & Q'). auto.
  - destruct (get_alone c fuel st k st' r (proj2 Q) H) as [-> ->]. auto.
  - destruct (scan_alone c fuel st lo hi st' r (proj2 Q) H) as [-> ->]. auto.
Qed.

Lemma seq_exec_ok c fuel : forall ops st st' outs, quiet st ->
  seq_exec fuel c bl st ops = Some (st', outs) ->
  abs st' = fold_left (apply c) ops (abs st) /\
  forall i o, nth_error ops i = Some o ->
    nth_error outs i = Some (op_out bl (fold_left (apply c) (firstn i ops) (abs st)) o).
Proof.
  induction ops as [|o r IH]; intros st st' outs Q H; cbn [seq_exec] in H.
  - injection H as <- <-. split; [reflexivity|]. intros [|i] o Hi; discriminate.
  - destruct (run_alone fuel c bl st (AStart o)) as [[st1 x]|] eqn:E1; [|discriminate].
    destruct (op_alone c fuel st o st1 x Q E1) as (Q1 & A1 & ->).
    destruct (seq_exec fuel c bl st1 r) as [[st2 xs]|] eqn:E2; [|discriminate]. injection H as <- <-.
    destruct (IH st1 st2 xs Q1 E2) as [A2 O2]. cbn [fold_left firstn]. split; [rewrite <- A1; exact A2|].
    intros [|i] o' Hi; cbn in Hi |- *; [injection Hi as <-; reflexivity|].
    rewrite <- A1. apply O2, Hi.
Qed.

End GetAlone.

Lemma init_quiet c : quiet (c_init c).
Proof.
  split; [|reflexivity]. intros l Hl. cbn in Hl. apply repeat_spec in Hl. subst.
  split; [constructor|intros ? []].
Qed.

Lemma abs_init c : abs (c_init c) = lsm_init c.
Proof. unfold abs, c_init, lsm_init, abs_levels. cbn. f_equal. induction (nlev c); cbn; [reflexivity|]. f_equal. assumption. Qed.

Lemma seq_exec_out bl : (forall ks k, In k ks -> bl ks k = true) ->
  forall c fuel ops st' outs, seq_exec fuel c bl (c_init c) ops = Some (st', outs) ->
  forall i o, nth_error ops i = Some o -> nth_error outs i = Some (op_out bl (run c (firstn i ops)) o).
Proof.
  intros Hb c fuel ops st' outs H i o Hi.
  destruct (seq_exec_ok bl Hb c fuel ops (c_init c) st' outs (init_quiet c) H) as [_ O].
  rewrite (O i o Hi), abs_init. reflexivity.
Qed.

(** the hypothesis is satisfiable: enough fuel lets every operation finish *)
Example lsm_alone_example :
  option_map snd (seq_exec 8 (mkCfg 1 2 (SizeTiered 2)) bl_exact (c_init (mkCfg 1 2 (SizeTiered 2)))
    [Put 1 10; Put 2 20; Del 1; Put 3 30; Get 1; Get 2; Scan 0 9])
  = Some [ONone; ONone; ONone; ONone; OGet None; OGet (Some 20); OScan [(2, 20); (3, 30)]].
Proof. vm_compute. reflexivity. Qed.
