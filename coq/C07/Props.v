(** Property C07 — no library component emits an event into the past or spins
    at a frozen clock.

    Proved here:
    (1) [c07_stale_sites_classified]: every site of the CURRENT source tree that
        matches a stale-clock / zero-delay-spin pattern (regenerated on every
        run into Gen/StaleSites.v: a name bound from `.now` before a `yield` and
        used as an Event time after it; an Event built before a later non-zero
        yield; `while cond: yield 0`; `Event(time=now - ...)`) has a settled row
        in the hand-maintained table C07/SiteClass.v.
    (2) Engine side (all scripts, schedules, end times): an event is discarded
        as being in the past ONLY if it was scheduled earlier than the clock at
        the moment of its scheduling — so "never emits into the past" is exactly
        "the engine never has to discard", and every event scheduled at or after
        the clock is delivered (C01).
    The library-wide quantifier ("every component, every workload") is reached
    by the per-component theorems of C08-C19 for the modelled components and,
    for the rest, by monitored scenario runs (harness/props/c07.py: a push
    monitor, a frozen-clock watchdog and the engine's own time-travel warning) —
    that part is exploration, which is why C07 is claimed as proof, partial. *)
From HS Require Import Base.Prelude Base.Sites C07.SiteClass Gen.StaleSites
  Engine.Engine Engine.Script Engine.EngineProofs Engine.ScriptProofs.
From Coq Require Import String.
Local Open Scope Z_scope.

Theorem c07_stale_sites_classified : all_classified known_stale_sites stale_sites = true.
Proof. rewrite <- all_classified_fast_eq. vm_compute. reflexivity. Qed.
Print Assumptions c07_stale_sites_classified.

Theorem c07_every_stale_site_has_a_settled_row :
  forall s, In s stale_sites -> exists c, In (s, c) known_stale_sites /\ is_settled c = true.
Proof. exact (all_classified_spec known_stale_sites stale_sites c07_stale_sites_classified). Qed.
Print Assumptions c07_every_stale_site_has_a_settled_row.

Theorem c07_engine_discards_only_events_emitted_into_the_past : forall fuel start end_ns p pre e c,
  In (e, c, SkippedPast) (log (out_state (script_run fuel start end_ns p pre))) ->
  exists at_, In (e, at_) (pushed (out_state (script_run fuel start end_ns p pre))) /\ ev_time e < at_.
Proof. intros. eapply past_only_if_scheduled_in_past; [apply script_run_inv|eassumption]. Qed.
Print Assumptions c07_engine_discards_only_events_emitted_into_the_past.

(** The clock is never behind a delivery: in whatever state a run stands (any
    fuel), the clock is at or above the timestamp of every event delivered so
    far.  This is about one state; it does not compare the clocks of two. *)
Theorem c07_clock_never_moves_backwards : forall fuel start end_ns p pre x,
  In x (dlog pay ustate (out_state (script_run fuel start end_ns p pre))) ->
  ev_time x <= clock (out_state (script_run fuel start end_ns p pre)).
Proof. intros. eapply i_dclock; [apply script_run_inv|eassumption]. Qed.
Print Assumptions c07_clock_never_moves_backwards.
