(** Token bucket (exact-rational instance): never over-admits; time_until_available is truthful. *)
From HS Require Import Base.Prelude C10.Model C10.QFacts.
From Coq Require Import QArith Lqa.
Local Open Scope Q_scope.

(** The counting argument for any step function that behaves like a bucket of level at most [B] refilled at a
    rate of at most [R]; a step may also leave tokens and refill time alone and admit nothing. *)
Section Bucket.
  Context {S Op : Type} (time : Op -> Z) (adm : Op -> Z -> Z) (step : S -> Op -> S * Z).
  Context (tokens : S -> Q) (last : S -> option Z) (wf : S -> Z -> Prop) (R B : Q).
  Hypothesis R_nonneg : 0 <= R.
  Hypothesis wf_level : forall s lo, wf s lo ->
    0 <= tokens s /\ tokens s <= B /\ match last s with None => True | Some l => (l <= lo)%Z end.
  Hypothesis wf_mono : forall s lo lo', wf s lo -> (lo <= lo')%Z -> wf s lo'.
  Hypothesis step_bound : forall s lo o, wf s lo -> (lo <= time o)%Z ->
    let s1 := fst (step s o) in let a := inject_Z (adm o (snd (step s o))) in
    wf s1 (time o) /\ a + tokens s1 <= B /\
    (forall l, last s = Some l -> a + tokens s1 <= tokens s + R * qsecs (time o - l)) /\
    (last s1 = Some (time o) \/ (a == 0 /\ tokens s1 == tokens s /\ last s1 = last s)).

  Notation run := (run_count adm step).

  Lemma bucket_wf_run ops s lo : wf s lo -> chain time lo ops -> wf (fst (run s ops)) (chain_last time lo ops).
  Proof.
    apply (run_count_inv_clock adm step time wf). intros s' lo' o W H. exact (proj1 (step_bound s' lo' o W H)).
  Qed.

  (** [M] bounds what the bucket can hold at time [lo].  A step lowers the bound by what it admits; the time it
      lets pass raises it by [R] per second. *)
  Definition level (s : S) (lo : Z) (M : Q) : Prop :=
    wf s lo /\ (B <= M \/ exists l, last s = Some l /\ tokens s + R * qsecs (lo - l) <= M).

  Lemma level_nonneg s lo M : level s lo M -> 0 <= M.
  Proof.
    intros [W HM]. destruct (wf_level s lo W) as (T0 & TB & L). destruct HM as [H|(l & E & H)]; [lra|].
    rewrite E in L. pose proof (rate_secs_nonneg R (lo - l) R_nonneg ltac:(lia)). lra.
  Qed.

  Lemma level_step s lo o M : level s lo M -> (lo <= time o)%Z ->
    level (fst (step s o)) (time o) (M + R * qsecs (time o - lo) - inject_Z (adm o (snd (step s o)))).
  Proof.
    intros [W HM] Hlo. destruct (step_bound s lo o W Hlo) as (W1 & SB & SR & SL). cbv zeta in *.
    split; [exact W1|].
    pose proof (rate_secs_nonneg R (time o - lo) R_nonneg ltac:(lia)) as D.
    destruct SL as [L1|(A0 & T0 & L1)].
    - right. exists (time o). split; [exact L1|]. pose proof (qsecs_diag_mul R (time o)).
      destruct HM as [HB|(l & E & H0)]; [lra|].
      specialize (SR l E). pose proof (qsecs_split_mul R l lo (time o)). lra.
    - destruct HM as [HB|(l & E & H0)]; [left; lra|].
      right. exists l. split; [congruence|]. pose proof (qsecs_split_mul R l lo (time o)). lra.
  Qed.

  Lemma bucket_run ops : forall s lo M, level s lo M -> chain time lo ops ->
    inject_Z (snd (run s ops)) <= M + R * qsecs (chain_last time lo ops - lo).
  Proof.
    induction ops as [|o r IH]; intros s lo M HL Hc; cbn [chain_last].
    - pose proof (level_nonneg _ _ _ HL). pose proof (qsecs_diag_mul R lo). cbn [run_count snd]. change (inject_Z 0) with 0. lra.
    - destruct Hc as [Hlo Hc]. specialize (IH _ _ _ (level_step s lo o M HL Hlo) Hc).
      rewrite run_count_snd, inject_Z_plus.
      pose proof (qsecs_split_mul R lo (time o) (chain_last time (time o) r)). lra.
  Qed.

  Theorem bucket_stretch s0 pre mid : (forall lo, wf s0 lo) -> chain_sorted time (pre ++ mid) ->
    inject_Z (snd (run (fst (run s0 pre)) mid)) <=
      B + R * qsecs (match mid with [] => 0 | o :: r => chain_last time (time o) r - time o end).
  Proof.
    intros W0 Hs. destruct mid as [|o r].
    - destruct (wf_level s0 0%Z (W0 0%Z)) as (? & ? & _). pose proof (qsecs_diag_mul R 0) as D. rewrite Z.sub_diag in D.
      cbn [run_count snd]. change (inject_Z 0) with 0. lra.
    - destruct (chain_sorted_app time pre o r Hs) as (lo & Hp & Hlo & Hr).
      apply (bucket_run (o :: r) _ (time o) B); [|cbn; split; [lia|exact Hr]].
      split; [|left; lra]. exact (wf_mono _ _ _ (bucket_wf_run pre s0 lo (W0 lo) Hp) Hlo).
  Qed.
End Bucket.

Section TB.
  Variable p : tbp Qops.
  Notation cap := (tb_cap p).
  Notation rate := (tb_rate p).
  Hypothesis rate_pos : 0 < rate.
  Hypothesis cap_nonneg : 0 <= cap.

  Implicit Types s : tbs Qops.
  Notation refill := (tb_refill Qops p).
  Notation acquire := (tb_acquire Qops p).
  Notation tua := (tb_tua Qops p).
  Notation step := (tb_step Qops p).

  (** Well-formed states: tokens in [0, B]; the refill time is not after [lo]
      (the earliest time of any later operation). *)
  Definition tb_wf (B : Q) (s : tbs Qops) (lo : Z) : Prop :=
    0 <= tb_tokens s /\ tb_tokens s <= B /\
    match tb_last s with None => True | Some l => (l <= lo)%Z end.

  Definition tb_ready s (now : Z) : Prop :=
    0 <= tb_tokens s /\ match tb_last s with None => True | Some l => (l <= now)%Z end.

  Lemma tb_wf_ready B s lo now : tb_wf B s lo -> (lo <= now)%Z -> tb_ready s now.
  Proof. intros (H0 & _ & Hl) H. split; [exact H0|]. destruct (tb_last s); [lia|exact I]. Qed.

  Lemma tb_wf_mono B s lo lo' : tb_wf B s lo -> (lo <= lo')%Z -> tb_wf B s lo'.
  Proof. intros (H0 & H1 & Hl) H. split; [exact H0|]. split; [exact H1|]. destruct (tb_last s); [lia|exact I]. Qed.

  Lemma refill_none s now : tb_last s = None ->
    refill s now = {| tb_tokens := tb_tokens s; tb_last := Some now |}.
  Proof. intros H. unfold tb_refill. rewrite H. reflexivity. Qed.

  Lemma refill_old s l now : tb_last s = Some l -> (now <= l)%Z -> refill s now = s.
  Proof.
    intros Hl H. unfold tb_refill. rewrite Hl. qsimp.
    assert (E : qsecs (now - l) <= 0) by (apply qsecs_le0; lia). apply Qle_bool_iff in E. rewrite E. reflexivity.
  Qed.

  Lemma refill_some s l now : tb_last s = Some l -> (l <= now)%Z -> 0 <= tb_tokens s ->
    let s' := refill s now in
    tb_last s' = Some now /\ 0 <= tb_tokens s' /\
    tb_tokens s' <= tb_tokens s + rate * qsecs (now - l) /\
    (forall B, cap <= B -> tb_tokens s <= B -> tb_tokens s' <= B) /\
    (forall m, m <= cap -> m <= tb_tokens s + rate * qsecs (now - l) -> m <= tb_tokens s').
  Proof.
    intros Hl Hle H0. unfold tb_refill. rewrite Hl. qsimp.
    qcase (qsecs (now - l)) 0; cbv zeta.
    - apply (proj1 (qsecs_le0 _)) in E. assert (now = l) by lia. subst now.
      pose proof (qsecs_diag_mul rate l). rewrite Hl. repeat split; auto; intros; lra.
    - cbn [tb_last tb_tokens]. pose proof (Qmult_le_0_compat _ _ (Qlt_le_weak _ _ rate_pos) (Qlt_le_weak _ _ E)).
      destruct (nmin_q cap (tb_tokens s + qsecs (now - l) * rate)) as [[A ->]|[A ->]];
        repeat split; auto; intros; lra.
  Qed.

  Lemma refill_ready s now : tb_ready s now ->
    let r := refill s now in
    tb_last r = Some now /\ 0 <= tb_tokens r /\
    (forall B, cap <= B -> tb_tokens s <= B -> tb_tokens r <= B) /\
    (forall l, tb_last s = Some l -> tb_tokens r <= tb_tokens s + rate * qsecs (now - l)).
  Proof.
    intros [H0 Hl]. destruct (tb_last s) as [l|] eqn:E.
    - destruct (refill_some s l now E Hl H0) as (A1 & A2 & A3 & A4 & _). repeat split; auto.
      intros l' E'. inversion E'; subst l'. exact A3.
    - rewrite (refill_none s now E). cbn. repeat split; auto. discriminate.
  Qed.

  Lemma refill_idem s now : refill (refill s now) now = refill s now.
  Proof.
    assert (H : exists l, tb_last (refill s now) = Some l /\ (now <= l)%Z).
    { unfold tb_refill. destruct (tb_last s) as [l|] eqn:Hl; qsimp; [|exists now; split; [reflexivity|lia]].
      qcase (qsecs (now - l)) 0; cbv zeta; [|exists now; split; [reflexivity|lia]].
      exists l. split; [exact Hl|]. apply (proj1 (qsecs_le0 _)) in E. lia. }
    destruct H as (l & Hl & H). exact (refill_old _ l now Hl H).
  Qed.

  (** What is granted is taken from the refilled level. *)
  Lemma step_spec s o :
    let r := refill s (time_of o) in let s1 := fst (step s o) in let x := snd (step s o) in
    tb_last s1 = tb_last r /\ inject_Z (granted o x) + tb_tokens s1 == tb_tokens r /\
    (granted o x = 1%Z /\ 1 <= tb_tokens r \/ granted o x = 0%Z).
  Proof.
    destruct o as [t|t]; cbn [tb_step time_of granted].
    - unfold tb_acquire. qsimp. qcase 1 (tb_tokens (refill s t)); cbn [fst snd b2z tb_last tb_tokens].
      + change (inject_Z 1) with 1. split; [reflexivity|]. split; [lra|left; auto].
      + change (inject_Z 0) with 0. split; [reflexivity|]. split; [lra|right; reflexivity].
    - change (inject_Z 0) with 0. unfold tb_tua. qsimp.
      qcase 1 (tb_tokens (refill s t)); cbn [fst snd]; (split; [reflexivity|]; split; [lra|right; reflexivity]).
  Qed.

  Lemma tb_step_bound B s lo o : cap <= B -> tb_wf B s lo -> (lo <= time_of o)%Z ->
    let s1 := fst (step s o) in let a := inject_Z (granted o (snd (step s o))) in
    tb_wf B s1 (time_of o) /\ a + tb_tokens s1 <= B /\
    (forall l, tb_last s = Some l -> a + tb_tokens s1 <= tb_tokens s + rate * qsecs (time_of o - l)) /\
    (tb_last s1 = Some (time_of o) \/ (a == 0 /\ tb_tokens s1 == tb_tokens s /\ tb_last s1 = tb_last s)).
  Proof.
    intros HB Hwf Hlo. pose proof Hwf as (_ & H1 & _).
    destruct (refill_ready s _ (tb_wf_ready B s lo _ Hwf Hlo)) as (RL & R0 & RB & RA). specialize (RB B HB H1).
    destruct (step_spec s o) as (SL & T & G). cbv zeta in *. rewrite RL in SL.
    assert (A : 0 <= inject_Z (granted o (snd (step s o))) <= tb_tokens (refill s (time_of o))).
    { destruct G as [[-> ?]| ->]; [change (inject_Z 1) with 1|change (inject_Z 0) with 0]; lra. }
    split; [|split; [lra|split; [|left; exact SL]]].
    - unfold tb_wf. rewrite SL. repeat split; [lra|lra|lia].
    - intros l El. specialize (RA l El). lra.
  Qed.

  Notation count := (run_count granted step).

  Lemma wf_run ops B s lo : cap <= B -> tb_wf B s lo -> nondecr lo ops ->
    tb_wf B (fst (count s ops)) (last_time lo ops).
  Proof.
    intros HB. apply (run_count_inv_clock granted step time_of (tb_wf B)).
    intros s' lo' o W H. exact (proj1 (tb_step_bound B s' lo' o HB W H)).
  Qed.

  Theorem tb_ready_reachable ops B s lo : cap <= B -> tb_wf B s lo -> nondecr lo ops ->
    forall now, (last_time lo ops <= now)%Z -> tb_ready (fst (count s ops)) now.
  Proof. intros HB W Hnd now H. exact (tb_wf_ready B _ _ now (wf_run ops B s lo HB W Hnd) H). Qed.

  Theorem tb_never_over_admits init pre mid B :
    0 <= init -> init <= B -> cap <= B -> sorted (pre ++ mid) ->
    let s0 := Build_tbs Qops init None in
    let s1 := fst (count s0 pre) in
    inject_Z (snd (count s1 mid)) <=
      B + rate * qsecs (match mid with [] => 0 | o :: r => last_time (time_of o) r - time_of o end).
  Proof.
    intros H0 HiB HB Hs.
    apply (bucket_stretch time_of granted step (@tb_tokens Qops) (@tb_last Qops) (tb_wf B) rate B).
    - lra.
    - intros s lo W. exact W.
    - exact (tb_wf_mono B).
    - intros s lo o. exact (tb_step_bound B s lo o HB).
    - intros lo. repeat split; assumption.
    - exact Hs.
  Qed.

  (** Seconds until a state just refilled holds a whole token. *)
  Definition need s : Q := (1 - tb_tokens s) / rate.

  Lemma need_pos s : tb_tokens s < 1 -> 0 < need s.
  Proof. intros H. apply Qlt_shift_div_l; [exact rate_pos|lra]. Qed.
  Lemma need_spec s : rate * need s == 1 - tb_tokens s.
  Proof. unfold need. field. lra. Qed.
  Lemma need_lt s x : x < need s -> tb_tokens s + rate * x < 1.
  Proof. intros H. pose proof (need_spec s). apply (Qmult_lt_l _ _ rate rate_pos) in H. lra. Qed.
  Lemma need_le s x : need s <= x -> 1 <= tb_tokens s + rate * x.
  Proof. intros H. pose proof (need_spec s). apply (Qmult_le_l _ _ rate rate_pos) in H. lra. Qed.

  Lemma tua_cases s now :
    let r := refill s now in
    (1 <= tb_tokens r /\ tua s now = (r, 0%Z)) \/
    (tb_tokens r < 1 /\ tua s now = (r, guard (qnanos (need r)))).
  Proof.
    unfold tb_tua. qsimp. qcase 1 (tb_tokens (refill s now)); auto.
  Qed.

  Lemma acquire_cases s now :
    let r := refill s now in
    (1 <= tb_tokens r /\ snd (acquire s now) = true) \/
    (tb_tokens r < 1 /\ acquire s now = (r, false)).
  Proof.
    unfold tb_acquire. qsimp. qcase 1 (tb_tokens (refill s now)); cbn; auto.
  Qed.

  Theorem tb_tua_zero_acquires s now s1 : tua s now = (s1, 0%Z) ->
    snd (acquire s now) = true /\ snd (acquire s1 now) = true.
  Proof.
    intros H. destruct (tua_cases s now) as [[A E]|[A E]]; rewrite E in H; inversion H.
    - split.
      + destruct (acquire_cases s now) as [[_ ?]|[? _]]; [auto|lra].
      + destruct (acquire_cases (refill s now) now) as [[_ ?]|[C _]]; [auto|]. rewrite refill_idem in C. lra.
    - exfalso. pose proof (wait_pos _ (need_pos _ A)). lia.
  Qed.

  Definition blocked s (D : Z) : Prop :=
    exists l, tb_last s = Some l /\ (l < D)%Z /\ 0 <= tb_tokens s /\
              tb_tokens s + rate * qsecs (D - 1 - l) < 1.

  Lemma blocked_refill s D now : blocked s D -> (now < D)%Z -> blocked (refill s now) D.
  Proof.
    intros (l & Hl & HlD & H0 & Hb) HD. destruct (Z_le_gt_dec now l) as [Old|New].
    - rewrite (refill_old s l now Hl Old). exists l. auto.
    - destruct (refill_some s l now Hl ltac:(lia) H0) as (A1 & A2 & A3 & _).
      exists now. repeat split; auto. pose proof (qsecs_split_mul rate l now (D - 1)). lra.
  Qed.

  Lemma blocked_step s D o : blocked s D -> (time_of o < D)%Z ->
    blocked (fst (step s o)) D /\ granted o (snd (step s o)) = 0%Z.
  Proof.
    intros Hb HD. destruct (blocked_refill s D _ Hb HD) as (l & Hl & HlD & H0 & Hlt).
    pose proof (rate_secs_nonneg rate (D - 1 - l) (Qlt_le_weak _ _ rate_pos) ltac:(lia)).
    destruct (step_spec s o) as (SL & T & [[_ C]|G]); cbv zeta in *; [lra|].
    rewrite G in T. change (inject_Z 0) with 0 in T.
    split; [|exact G]. exists l. rewrite SL. repeat split; auto; lra.
  Qed.

  Lemma tua_blocks s now : tb_ready s now -> (0 < snd (tua s now))%Z ->
    blocked (fst (tua s now)) (now + snd (tua s now)).
  Proof.
    intros Hr Hw. destruct (refill_ready s now Hr) as (RL & R0 & _).
    destruct (tua_cases s now) as [[A E]|[A E]]; rewrite E in *; cbn [fst snd] in *; [lia|].
    exists now. repeat split; auto; [lia|].
    apply need_lt, wait_floor; [exact (need_pos _ A)|lia].
  Qed.

  (** tua = w > 0: no acquire before now + w is granted, whatever calls are made, in whatever order. *)
  Theorem tb_tua_blocks_any_order s now ops : tb_ready s now -> (0 < snd (tua s now))%Z ->
    Forall (fun o => (time_of o < now + snd (tua s now))%Z) ops ->
    snd (count (fst (tua s now)) ops) = 0%Z.
  Proof.
    intros Hr Hw. apply (run_count_zero granted step time_of (fun st => blocked st (now + snd (tua s now)))).
    - intros s' o. apply blocked_step.
    - exact (tua_blocks s now Hr Hw).
  Qed.

  Theorem tb_tua_positive_blocks s now s1 w ops :
    tb_ready s now -> tua s now = (s1, w) -> (0 < w)%Z ->
    nondecr now ops -> (last_time now ops < now + w)%Z ->
    snd (count s1 ops) = 0%Z.
  Proof.
    intros Hr H Hw Hnd HD. pose proof (tb_tua_blocks_any_order s now ops Hr) as A. rewrite H in A.
    exact (A Hw (chain_below time_of now ops _ Hnd HD)).
  Qed.

  Hypothesis cap_ge1 : 1 <= cap.

  Lemma refill_level s l t : tb_last s = Some l -> (l <= t)%Z -> 0 <= tb_tokens s ->
    (1 <= tb_tokens s + rate * qsecs (t - l) -> 1 <= tb_tokens (refill s t)) /\
    (tb_tokens (refill s t) < 1 -> tb_tokens (refill s t) == tb_tokens s + rate * qsecs (t - l)).
  Proof.
    intros Hl Hle H0. destruct (refill_some s l t Hl Hle H0) as (_ & _ & A3 & _ & A5). split.
    - intros H. apply A5; auto.
    - intros H. destruct (Qlt_le_dec (tb_tokens s + rate * qsecs (t - l)) 1) as [S1|S1].
      + apply Qle_antisym; [exact A3|]. apply A5; lra.
      + pose proof (A5 1 cap_ge1 S1). lra.
  Qed.

  Lemma tua_ready s t : tb_last s = Some t -> 1 <= tb_tokens s -> tua s t = (s, 0%Z).
  Proof.
    intros Hl H. unfold tb_tua. rewrite (refill_old s t t Hl ltac:(lia)). qsimp.
    apply Qle_bool_iff in H. rewrite H. reflexivity.
  Qed.

  Lemma tua_wait s l : tb_last s = Some l -> 0 <= tb_tokens s -> tb_tokens s < 1 ->
    let w := guard (qnanos (need s)) in let r := refill s (l + w) in
    (0 < w)%Z /\ tb_last r = Some (l + w)%Z /\ 0 <= tb_tokens r /\
    (tb_tokens r < 1 -> need r * G < 1).
  Proof.
    intros Hl H0 H1 w r. pose proof (need_pos s H1) as NP.
    pose proof (wait_pos _ NP : (0 < w)%Z) as W.
    destruct (refill_some s l (l + w) Hl ltac:(lia) H0) as (L & P & _).
    destruct (refill_level s l (l + w) Hl ltac:(lia) H0) as [_ LV].
    split; [exact W|]. split; [exact L|]. split; [exact P|]. intros Hr. specialize (LV Hr). fold r in LV.
    replace (l + w - l)%Z with w in LV by lia.
    assert (E : need r == need s - qsecs w).
    { apply (Qmult_inj_l _ _ rate); [lra|]. pose proof (need_spec r). pose proof (need_spec s). lra. }
    pose proof (wait_rest (need s) NP) as RS. fold w in RS. unfold G in *. lra.
  Qed.

  Lemma last_ns s l : tb_last s = Some l -> 0 <= tb_tokens s -> need s * G < 1 ->
    1 <= tb_tokens (refill s (l + 1)).
  Proof.
    intros Hl H0 Hx. destruct (refill_level s l (l + 1) Hl ltac:(lia) H0) as [A _]. apply A.
    replace (l + 1 - l)%Z with 1%Z by lia. apply need_le, Qlt_le_weak, below_ns, Hx.
  Qed.

  Theorem tb_tua_progress s now : tb_ready s now ->
    let '(s1, w1) := tua s now in
    let '(s2, w2) := tua s1 (now + w1) in
    let '(s3, w3) := tua s2 (now + w1 + w2) in
    w3 = 0%Z /\ (0 <= w1)%Z /\ (0 <= w2)%Z.
  Proof.
    intros Hr. destruct (refill_ready s now Hr) as (RL & R0 & _).
    destruct (tua_cases s now) as [[A ->]|[A ->]]; cbv beta iota.
    - rewrite Z.add_0_r, (tua_ready _ now RL A). cbv beta iota. rewrite Z.add_0_r, (tua_ready _ now RL A). lia.
    - destruct (tua_wait _ now RL R0 A) as (W1 & L2 & P2 & T). cbv zeta in *.
      set (w1 := guard (qnanos (need (refill s now)))) in *.
      destruct (tua_cases (refill s now) (now + w1)) as [[A2 ->]|[A2 ->]]; cbv beta iota.
      + rewrite Z.add_0_r, (tua_ready _ _ L2 A2). lia.
      + (* the wait was the floor of the need: less than 1 ns is missing, the second wait is 1 ns *)
        specialize (T A2). rewrite (wait_last _ (need_pos _ A2) T). pose proof (last_ns _ _ L2 P2 T) as L3.
        destruct (tua_cases (refill (refill s now) (now + w1)) (now + w1 + 1)) as [[_ ->]|[A3 _]]; [lia|cbv zeta in A3; lra].
  Qed.
End TB.

(** The hypotheses are satisfiable, and the theorems say something on a concrete run:
    capacity 2, rate 1/s, four acquires at t = 0, 0, 0, 1 s. *)
Example tb_example :
  let p := Build_tbp Qops 2 1 in
  0 < tb_rate p /\ 1 <= tb_cap p /\
  snd (run_count granted (tb_step Qops p) (Build_tbs Qops 2 None)
         [Acq 0; Acq 0; Acq 0; Tua 0; Acq 1000000000]) = 3%Z /\
  snd (tb_tua Qops p (Build_tbs Qops 0 (Some 0%Z)) 0) = 1000000000%Z.
Proof. vm_compute. repeat split; congruence. Qed.
