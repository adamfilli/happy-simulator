(** C18 — the converse for vector clocks: VC(a) < VC(b) implies a -> b.
    Together with [vector_causal] this is "exactly when".

    Invariant carried along the run (history extended one action at a time):
    a node's own component counts its own events; every stamp, every clock and
    every message in flight records only events that exist and lie in the causal
    past of the event it belongs to. *)
From HS Require Import Base.Prelude Base.Lists C18.Model C18.Causal.
Local Open Scope Z_scope.

Fixpoint count_at (p : Z) (tr : list act) : Z :=
  match tr with
  | [] => 0
  | a :: r => (if node_of a =? p then 1 else 0) + count_at p r
  end.

Lemma count_at_app p a b : count_at p (a ++ b) = count_at p a + count_at p b.
Proof. induction a as [|x a IH]; cbn; [reflexivity|rewrite IH; apply Z.add_assoc]. Qed.
Lemma count_at_snoc p tr a : count_at p (tr ++ [a]) = count_at p tr + (if node_of a =? p then 1 else 0).
Proof. rewrite count_at_app. cbn. rewrite Z.add_0_r. reflexivity. Qed.
Lemma count_at_nonneg p tr : 0 <= count_at p tr.
Proof. induction tr as [|x tr IH]; cbn; [lia|]. destruct (node_of x =? p); lia. Qed.
Lemma count_firstn_le p k tr : count_at p (firstn k tr) <= count_at p tr.
Proof.
  rewrite <- (firstn_skipn k tr) at 2. rewrite count_at_app. pose proof (count_at_nonneg p (skipn k tr)). lia.
Qed.

(** [evt tr p r i]: event [i] is the [r]-th event of node [p]. *)
Definition evt (tr : list act) (p r : Z) (i : nat) : Prop :=
  exists a, nth_error tr i = Some a /\ node_of a = p /\ count_at p (firstn (S i) tr) = r.

Lemma evt_app tr ext p r i : evt tr p r i -> evt (tr ++ ext) p r i.
Proof.
  intros (b & Hb & Hn & Hr). assert (Hlt : (i < length tr)%nat) by (apply nth_error_Some; congruence).
  exists b. rewrite nth_error_app1, firstn_S_app by exact Hlt. auto.
Qed.
Lemma evt_extend tr a p r i : evt tr p r i -> evt (tr ++ [a]) p r i.
Proof. apply evt_app. Qed.

Lemma evt_last tr a : evt (tr ++ [a]) (node_of a) (count_at (node_of a) tr + 1) (length tr).
Proof. exists a. rewrite nth_error_app_last, firstn_all_snoc, count_at_snoc, Z.eqb_refl. auto. Qed.

Lemma rank_succ tr i a : nth_error tr i = Some a ->
  count_at (node_of a) (firstn (S i) tr) = count_at (node_of a) (firstn i tr) + 1.
Proof. intros Ha. rewrite (firstn_S_nth _ _ _ Ha), count_at_snoc, Z.eqb_refl. reflexivity. Qed.

Lemma evt_le tr p r i : evt tr p r i -> 1 <= r <= count_at p tr.
Proof.
  intros (a & Ha & <- & <-). pose proof (count_firstn_le (node_of a) (S i) tr).
  rewrite (rank_succ tr i a Ha) in *. pose proof (count_at_nonneg (node_of a) (firstn i tr)). lia.
Qed.

Lemma evt_lt tr p r r' i i' : evt tr p r i -> evt tr p r' i' -> (i < i')%nat -> r < r'.
Proof.
  intros (a & _ & _ & <-) (a' & Ha' & <- & <-) Hlt. rewrite (rank_succ tr i' a' Ha').
  rewrite <- (Nat.min_l (S i) i') by lia. rewrite <- firstn_firstn.
  pose proof (count_firstn_le (node_of a') (S i) (firstn i' tr)). lia.
Qed.

Lemma evt_inj tr p r i i' : evt tr p r i -> evt tr p r i' -> i = i'.
Proof.
  intros H H'. destruct (lt_eq_lt_dec i i') as [[Hlt|E]|Hlt]; [|exact E|].
  - pose proof (evt_lt _ _ _ _ _ _ H H' Hlt). lia.
  - pose proof (evt_lt _ _ _ _ _ _ H' H Hlt). lia.
Qed.

Lemma hb_extend tr ext i j : hb tr i j -> hb (tr ++ ext) i j.
Proof.
  induction 1 as [i j a b Hlt Ha Hb Hn|i j n n' m pt pt' Hlt Ha Hb|i j k _ IH1 _ IH2].
  - eapply hb_po; eauto using nth_error_ext.
  - eapply hb_msg; eauto using nth_error_ext.
  - eapply hb_trans; eauto.
Qed.

Definition hbeq (tr : list act) (i j : nat) : Prop := i = j \/ hb tr i j.

(** [past tr v Q]: whatever the vector [v] records - the [r]-th event of node [p],
    for every [1 <= r <= v p] - exists and lies in the causal past (inclusive) of
    an event satisfying [Q]. *)
Definition past (tr : list act) (v : vec) (Q : nat -> Prop) : Prop :=
  forall p r, 1 <= r <= v p -> exists i l, evt tr p r i /\ hbeq tr i l /\ Q l.

Lemma past_weaken tr v (Q Q' : nat -> Prop) : (forall l, Q l -> Q' l) -> past tr v Q -> past tr v Q'.
Proof. intros HQ H p r Hr. destruct (H p r Hr) as (i & l & He & Hb & Hl). exists i, l. auto. Qed.

Lemma past_extend tr ext v Q : past tr v Q -> past (tr ++ ext) v Q.
Proof.
  intros H p r Hr. destruct (H p r Hr) as (i & l & He & Hb & Hl). exists i, l.
  split; [apply evt_app, He|]. split; [|exact Hl].
  destruct Hb as [->|Hb]; [left; reflexivity|right; apply hb_extend, Hb].
Qed.

Lemma past_last tr a v (Q : nat -> Prop) :
  (forall l, Q l -> hb (tr ++ [a]) l (length tr)) -> past tr v Q -> past (tr ++ [a]) v (eq (length tr)).
Proof.
  intros HQ H p r Hr. destruct (past_extend tr [a] v Q H p r Hr) as (i & l & He & Hb & Hl).
  exists i, (length tr). split; [exact He|]. split; [right|reflexivity].
  destruct Hb as [->|Hb]; [apply HQ, Hl|eapply hb_trans; [exact Hb|apply HQ, Hl]].
Qed.

Lemma past_bound tr v Q p : past tr v Q -> v p <= count_at p tr.
Proof.
  intros H. destruct (Z_lt_le_dec (v p) 1) as [Hlt|Hge]; [pose proof (count_at_nonneg p tr); lia|].
  destruct (H p (v p)) as (i & _ & He & _); [lia|]. apply (evt_le _ _ _ _ He).
Qed.

Definition at_node (tr : list act) (n : Z) (l : nat) : Prop :=
  exists a, nth_error tr l = Some a /\ node_of a = n.
Definition sends (tr : list act) (m : Z) (l : nat) : Prop :=
  exists n pt, nth_error tr l = Some (Send n m pt).

Lemma at_node_hb tr a l : at_node tr (node_of a) l -> hb (tr ++ [a]) l (length tr).
Proof.
  intros (b & Hb & Hn).
  apply (hb_po _ _ _ b a); [apply nth_error_Some; congruence|apply nth_error_ext, Hb|apply nth_error_app_last|exact Hn].
Qed.

Record VInv (tr : list act) (s : cstate vector) (ts : list vec) : Prop := {
  v_len : length ts = length tr;
  v_own : forall n, clk s n n = count_at n tr;
  v_rank : forall j t, nth_error ts j = Some t -> exists p, evt tr p (t p) j;
  v_ts : forall j t, nth_error ts j = Some t -> past tr t (eq j);
  v_clk : forall n, past tr (clk s n) (at_node tr n);
  v_msg : forall m t, msgs s m = Some t -> past tr t (sends tr m);
}.

Lemma vinv_init : VInv [] (cinit vector) [].
Proof.
  constructor.
  - reflexivity.
  - intros n; reflexivity.
  - intros [|j] t H; discriminate.
  - intros [|j] t H; discriminate.
  - intros n p r Hr. cbn in Hr. lia.
  - intros m t H; discriminate.
Qed.

(** The common part of the three step cases: the new stamp [t] is the acting
    node's new clock; it counts the new event and records only its causal past. *)
Lemma vinv_snoc tr s ts a s' t :
  VInv tr s ts -> cstep vector s a = Some (s', t) ->
  let n := node_of a in
  let L := length tr in
  t n = count_at n tr + 1 /\ past (tr ++ [a]) t (eq L) ->
  VInv (tr ++ [a]) s' (ts ++ [t]).
Proof.
  intros I Hs n L [Hown Hpast].
  destruct (cstep_inv _ _ _ _ _ Hs) as (c & Hclk & Ht & _). cbn in Ht. subst c. fold n in Hclk.
  assert (Hn : at_node (tr ++ [a]) n L) by (exists a; split; [apply nth_error_app_last|reflexivity]).
  constructor; rewrite ?Hclk.
  - rewrite !app_length, (v_len _ _ _ I). reflexivity.
  - intros k. rewrite count_at_snoc. fold n. destruct (Z.eq_dec k n) as [->|Hk].
    + rewrite upd_same, Z.eqb_refl. exact Hown.
    + rewrite upd_other by exact Hk. destruct (Z.eqb_spec n k); [congruence|]. rewrite (v_own _ _ _ I). lia.
  - intros j t0 Hj. destruct (nth_error_snoc _ _ _ _ Hj) as [Hj'|[-> ->]].
    + destruct (v_rank _ _ _ I j t0 Hj') as [p He]. exists p. apply evt_extend, He.
    + exists n. rewrite (v_len _ _ _ I), Hown. apply evt_last.
  - intros j t0 Hj. destruct (nth_error_snoc _ _ _ _ Hj) as [Hj'|[-> ->]].
    + apply past_extend, (v_ts _ _ _ I j t0 Hj').
    + rewrite (v_len _ _ _ I). exact Hpast.
  - intros k. destruct (Z.eq_dec k n) as [->|Hk].
    + rewrite upd_same. apply (past_weaken _ _ (eq L)); [intros l <-; exact Hn|exact Hpast].
    + rewrite upd_other by exact Hk. apply (past_weaken _ _ (at_node tr k)), past_extend, (v_clk _ _ _ I k).
      intros l (b & Hb & Hnb). exists b. split; [apply nth_error_ext, Hb|exact Hnb].
  - intros m t0 Hm. destruct (msgs_after _ _ _ _ _ m Hs) as [E|(_ & E & k & pt & Ha)]; rewrite E in Hm.
    + apply (past_weaken _ _ (sends tr m)), past_extend, (v_msg _ _ _ I m t0 Hm).
      intros l (k & pt & Hb). exists k, pt. apply nth_error_ext, Hb.
    + injection Hm as <-. apply (past_weaken _ _ (eq L)); [|exact Hpast].
      intros l <-. exists k, pt. rewrite <- Ha. apply nth_error_app_last.
Qed.

(** The new clock: own component one up, every other the larger of the node's old
    clock and a vector [w] ([receive]: the message's stamp; [tick]: nothing new)
    whose records precede the new event. *)
Lemma new_clock tr s ts a c' w (Q : nat -> Prop) :
  VInv tr s ts -> let n := node_of a in
  past tr w Q -> (forall l, Q l -> hb (tr ++ [a]) l (length tr)) ->
  (forall p, c' p = if p =? n then Z.max (clk s n n) (w n) + 1 else Z.max (clk s n p) (w p)) ->
  c' n = count_at n tr + 1 /\ past (tr ++ [a]) c' (eq (length tr)).
Proof.
  intros I n Hw HQ Hc.
  assert (Hn : c' n = count_at n tr + 1).
  { rewrite Hc, Z.eqb_refl, (v_own _ _ _ I). pose proof (past_bound _ _ _ n Hw). lia. }
  split; [exact Hn|]. intros p r Hr.
  assert (Hcase : (p = n /\ r = count_at n tr + 1) \/ r <= clk s n p \/ r <= w p).
  { rewrite Hc in Hr. destruct (Z.eqb_spec p n) as [->|]; [rewrite <- Hn, Hc, Z.eqb_refl|]; lia. }
  destruct Hcase as [[-> ->]|[H|H]].
  - exists (length tr), (length tr). split; [apply evt_last|]. split; [left|]; reflexivity.
  - apply (past_last tr a _ (at_node tr n) (at_node_hb tr a) (v_clk _ _ _ I n)). lia.
  - apply (past_last tr a _ Q HQ Hw). lia.
Qed.

Lemma vinv_step tr s ts a s' t :
  VInv tr s ts -> cstep vector s a = Some (s', t) -> VInv (tr ++ [a]) s' (ts ++ [t]).
Proof.
  intros I Hs. apply (vinv_snoc _ _ _ _ _ _ I Hs).
  destruct (cstep_inv _ _ _ _ _ Hs) as (c & _ & -> & Ha). cbn [c_stamp vector].
  (* a tick draws on the node's own clock only *)
  assert (Htick : c = vc_tick (node_of a) (clk s (node_of a)) ->
            c (node_of a) = count_at (node_of a) tr + 1 /\ past (tr ++ [a]) c (eq (length tr))).
  { intros ->. apply (new_clock tr s ts a _ (clk s (node_of a)) _ I (v_clk _ _ _ I _) (at_node_hb tr a)).
    intros p. unfold vc_tick, upd. destruct (p =? node_of a); lia. }
  destruct a as [n pt|n m pt|n m pt]; cbn [node_of] in *.
  - apply Htick, Ha.
  - apply Htick, Ha.
  - destruct Ha as (tm & Em & -> & _).
    apply (new_clock tr s ts (Recv n m pt) _ tm (sends tr m) I (v_msg _ _ _ I m tm Em)); [|reflexivity].
    intros l (k & pt' & Hb).
    apply (hb_msg _ _ _ k n m pt' pt); [apply nth_error_Some; congruence|apply nth_error_ext, Hb|apply nth_error_app_last].
Qed.

Lemma vinv_run tr : forall tr0 s0 ts0 s ts,
  VInv tr0 s0 ts0 -> crun vector s0 tr = Some (s, ts) -> VInv (tr0 ++ tr) s (ts0 ++ ts).
Proof.
  induction tr as [|a r IH]; intros tr0 s0 ts0 s ts I H.
  - cbn in H. injection H as <- <-. rewrite !app_nil_r. exact I.
  - apply crun_cons in H as (s1 & t & ts' & Hs & Hr & ->).
    change (a :: r) with ([a] ++ r). change (t :: ts') with ([t] ++ ts'). rewrite !app_assoc.
    apply (IH _ _ _ _ _ (vinv_step _ _ _ _ _ _ I Hs) Hr).
Qed.

Theorem vector_converse tr ts : stamps vector tr = Some ts ->
  forall i j ti tj, nth_error ts i = Some ti -> nth_error ts j = Some tj -> vc_lt ti tj -> hb tr i j.
Proof.
  intros H. apply stamps_Some in H as [s E]. pose proof (vinv_run tr [] _ [] s ts vinv_init E) as I.
  intros i j ti tj Hi Hj [Hle [k Hk]].
  (* event i is the [ti p]-th of its node [p], and [tj] records that event *)
  destruct (v_rank _ _ _ I i ti Hi) as [p Hev].
  destruct (v_ts _ _ _ I j tj Hj p (ti p)) as (i' & l & Hev' & Hb & <-).
  { pose proof (evt_le _ _ _ _ Hev). specialize (Hle p). lia. }
  rewrite <- (evt_inj _ _ _ _ _ Hev Hev') in Hb. destruct Hb as [->|Hhb]; [|exact Hhb].
  exfalso. rewrite Hi in Hj. injection Hj as ->. lia.
Qed.
