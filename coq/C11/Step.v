(** C11 — the history variables after one step of a member ([aghost]); what an
    accepted AppendEntries leaves behind ([accept_case]); the cases of a step
    that C11/Step2.v goes through ([step_cases]). *)
From HS Require Import Base.Prelude Base.Lists C11.Model C11.NodeProofs C11.Election C11.LogProofs C11.LogMatching C11.Steps
  C11.Ghost C11.LC.
Local Open Scope Z_scope.

(** The history variables after member [i] has gone from [n] to [n']. *)
Definition aghost (G : ghost) (i : Z) (n n' : node) : ghost :=
  mkGhost (gupd (gg G) n')
    (fun a t m => gacc G a t m \/
                  (a = i /\ t = term n' /\ (m <= length (log n'))%nat /\ firstn m (log n') = firstn m (gupd (gg G) n' t)))
    (match vchg n n' with Some c => (i, term n', c, log n') :: gV G | None => gV G end)
    (match role n', role n with
     | Leader, Leader => gel G
     | Leader, _ => upd (gel G) (term n') (log n')
     | _, _ => gel G
     end).

Lemma capply_in w G i inp : In i (ids w) ->
  capply w G i inp = aghost G i (nodes w i) (fst (node_step (nodes w i) inp)).
Proof. intros H. unfold capply. rewrite (proj2 (zmem_in i (ids w)) H). reflexivity. Qed.

Lemma commit_prefix_in_leader w G i t x :
  cinv w G -> In i (ids w) -> term (nodes w i) <= t -> In (t, x) (led w) ->
  firstn (Z.to_nat (commit (nodes w i))) (log (nodes w i)) = firstn (Z.to_nat (commit (nodes w i))) (gg G t).
Proof.
  intros K Z0 Ht Hl. destruct (K_ci w G K i Z0) as [E|(T & m & A & B & C & D & E & F)].
  - rewrite E. reflexivity.
  - rewrite F. symmetry. apply (firstn_le_eq _ _ m); [lia|]. apply (LC_le w G K T m B t x); [lia|exact Hl].
Qed.

Set Implicit Arguments.
(** Node [i] accepts an AppendEntries of the leader of term [t]; afterwards its first [k] entries are the leader's. *)
Record accepted (w : net) (G : ghost) (i : Z) (n' : node) (o : list output) (src t lc : Z) (k : nat) : Prop := {
  A_led : In (t, src) (led w);
  A_src : i <> src;
  A_le : term (nodes w i) <= t;
  A_term : term n' = t;
  A_role : role n' = Follower;
  A_in : forall e, In e (log n') -> In e (log (nodes w i)) \/ In e (gg G t);
  A_keep : forall m, (m <= length (log (nodes w i)))%nat -> firstn m (log (nodes w i)) = firstn m (gg G t) ->
             firstn m (log n') = firstn m (log (nodes w i));
  A_len : (k <= length (log n'))%nat;
  A_match : firstn k (log n') = firstn k (gg G t);
  A_out : o = [OElectionTimer; OSend src (AppendResponse t true (nid (nodes w i)) (Z.of_nat k))];
  A_commit : commit n' = Z.max (commit (nodes w i)) lc;
  A_lc : 0 <= lc <= Z.of_nat k;
  A_cp : cprefix w G t (gg G t) lc;
  A_ap : ap_ok n';
  A_mi : match_index n' = match_index (nodes w i);
}.
Unset Implicit Arguments.

Lemma accept_case w G i src t lead pli plt ents lc :
  cinv w G -> In i (ids w) ->
  In (t, src) (led w) -> i <> src -> msg_inv w G i src (AppendEntries t lead pli plt ents lc) ->
  term (nodes w i) <= t -> ae_consistent (log (nodes w i)) pli plt = true ->
  exists k, accepted w G i (ae_commit (fold_left append_one ents (demote (nodes w i) t lead)) lc)
              [OElectionTimer; OSend src (AppendResponse t true (nid (nodes w i)) (pli + zlen ents))] src t lc k.
Proof.
  intros K Z0 Hl Hne ((A1 & A2 & A3 & A4) & B1 & B2 & B3) Ht Cons.
  pose proof (K_lm w G K) as M. set (g := gg G) in *. set (n := nodes w i) in *.
  set (p := Z.to_nat pli). set (l := firstn (length ents) (skipn p (g t))).
  assert (Hlen : length l = length ents).
  { symmetry. rewrite A3 at 1. rewrite with_index_length. reflexivity. }
  assert (Ep' : pli = Z.of_nat p) by (unfold p; lia).
  destruct (K_ap w G K i) as [AI AP]. fold n in AI, AP.
  pose proof (ae_consistent_bound _ _ _ Cons) as Hp1. fold p in Hp1.
  (* the entry before the payload matches, so the first [p] entries do *)
  assert (Hp2 : firstn p (log n) = firstn p (g t)).
  { destruct (Z_lt_le_dec 0 pli) as [Hpos|Hnp]; [|replace p with 0%nat by (unfold p; lia); reflexivity].
    destruct (ae_consistent_prev _ _ _ Cons Hpos) as (e & He1 & Hf1). destruct (A4 Hpos) as (e' & He2 & Hf2).
    apply (pok_agree g _ _ p e e' (M_logs w g M i) (M_g w g M t)); [unfold p; lia|assumption..|congruence]. }
  set (c := Z.to_nat (commit n)).
  assert (HC : firstn c (log n) = firstn c (g t)) by (apply (commit_prefix_in_leader w G i t src K Z0 Ht Hl)).
  assert (Hl' : l = firstn (length l) (skipn p (g t))) by (unfold l at 1; rewrite Hlen; reflexivity).
  assert (Hcm : commit n = Z.of_nat c) by (unfold c; destruct AI; lia).
  assert (Hlc : lc <= Z.of_nat (p + length l)) by (rewrite Hlen; unfold zlen in B2; lia).
  pose proof (accepted_rep n t lead p l lc (g t) c AI AP Hcm HC Hp1 Hl' B1 Hlc) as HA.
  cbv zeta in HA. rewrite <- Ep' in HA. replace (with_index pli l) with ents in HA by (rewrite A3; fold p; fold l; reflexivity).
  destruct HA as (H1 & H2 & H3).
  destruct (accepted_fields n t lead ents lc) as (_ & _ & Ft & _ & _ & Fr & _ & Fm).
  destruct (alogs_char g (g t) l (log n) p (M_logs w g M i) (M_g w g M t) Hp2 Hp1 Hl') as (_ & Q1 & Q2).
  exists (p + length l)%nat. constructor; try assumption.
  - intros e He. rewrite H1 in He. apply alogs_in in He as [He|He]; [left; exact He|right].
    rewrite Hl' in He. apply In_firstn, In_skipn in He. exact He.
  - intros m Hm Em. rewrite H1. apply (alogs_keep (g t) l (log n) p m Em Hm Hp1 Hl').
  - rewrite H1. exact Q2.
  - rewrite H1. exact Q1.
  - unfold zlen. repeat f_equal. lia.
  - lia.
Qed.

Lemma step_cases w G i inp :
  cinv w G -> In i (ids w) ->
  (forall s t lead pli plt ents lc, inp = IMsg s (AppendEntries t lead pli plt ents lc) -> In (t, s) (led w) /\ i <> s) ->
  (forall s m, inp = IMsg s m -> msg_inv w G i s m) ->
  let r := node_step (nodes w i) inp in
  (exists src t lc k, accepted w G i (fst r) (snd r) src t lc k) \/ rspec (nodes w i) inp (fst r) (snd r).
Proof.
  intros K Z0 HAE HM r.
  destruct (nstep_rspec _ _ _ _ (node_step_nstep (nodes w i) inp)) as [R|(src & t & lead & pli & plt & ents & lc & Ei & _ & Ht & Cons & En & Eo)];
    [right; exact R|left].
  destruct (HAE _ _ _ _ _ _ _ Ei) as (Hl & Hne).
  destruct (accept_case w G i src t lead pli plt ents lc K Z0 Hl Hne (HM _ _ Ei) Ht Cons) as (k & A).
  exists src, t, lc, k. unfold r. rewrite En, Eo. exact A.
Qed.
