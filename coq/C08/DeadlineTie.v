(** C08 — DeadlineQueue, tied to the code: [push] and [pop] (which drains the
    expired entries: a [while heap: entry = heappop(heap)] loop with [continue]
    and [return]) of components/queue_policies/deadline_queue.py, as REGENERATED
    on every run ([Gen/DeadlineGen.v], py2coq), are the model's [PDead] policy:
    same heap, same counters (enqueued, dequeued, expired, rejected), same result.
    [_get_deadline(item)] is the item's deadline, [_now()] the clock reading. *)
From HS Require Import Base.Prelude Base.PyLib C08.Model C08.Policies C08.PolicyThms C08.GenTie Gen.DeadlineGen.
Local Open Scope Z_scope.

Definition denc (e : entry) : _DeadlineEntry := mk_DeadlineEntry (ekey e) (eord e) (iid (snd e)) (ekey e).

Definition dq_obj (cap : option Z) (ctr : Z) (h : list entry) (st : dstats) : DeadlineQueue :=
  mkDeadlineQueue cap (map denc h) ctr (ds_enq st) (ds_deq st) (ds_exp st) (ds_rej st).

Lemma tie_dentry_lt k o it e : _DeadlineEntry___lt__ (denc (k, o, it)) (denc e) = entry_ltb k o e.
Proof. exact (entry_ltb_lex k o e). Qed.

Lemma tie_dq_push cap ctr h st it balk :
  let '(s', ok) := pol_push balk it (PDead cap ctr h st) in
  exists ctr' h' st', s' = PDead cap ctr' h' st' /\
  DeadlineQueue_push (dq_obj cap ctr h st) (iid it) (idl it) = (dq_obj cap ctr' h' st', ok).
Proof.
  cbn [pol_push]. unfold DeadlineQueue_push, dq_obj. cbn [DeadlineQueue__capacity DeadlineQueue__heap].
  change py_cap_le with cap_full. rewrite map_length. fold (zlen h).
  destruct (cap_full cap (zlen h)); do 3 eexists; (split; [reflexivity|]).
  - reflexivity.
  - cbn. change (mk_DeadlineEntry (idl it) ctr (iid it) (idl it)) with (denc (idl it, ctr, it)).
    now rewrite (heappush_map denc _ tie_dentry_lt).
Qed.

Lemma tie_dq_pop cap ctr h st t :
  let '(s', r, ex) := pol_pop t (PDead cap ctr h st) in
  exists h' st', s' = PDead cap ctr h' st' /\
  DeadlineQueue_pop (dq_obj cap ctr h st) (Some t) = (dq_obj cap ctr h' st', option_map iid r).
Proof.
  cbn [pol_pop]. unfold DeadlineQueue_pop. cbn zeta.
  match goal with |- context [fold_left ?F _ _] => set (F0 := F) end.
  assert (HB : forall l q r, fold_left F0 l (q, r, true) = (q, r, true)).
  { induction l as [|x l IH]; intros q r; cbn [fold_left]; [reflexivity|]. apply IH. }
  assert (HL : forall l enq deq exp rej,
    fold_left F0 (map denc l) (mkDeadlineQueue cap (map denc l) ctr enq deq exp rej, None, false)
    = let '(h', res, ex) := dl_pop t l in
      (mkDeadlineQueue cap (map denc h') ctr enq (deq + match res with Some _ => 1 | None => 0 end) (exp + zlen ex) rej,
       option_map (fun it => Some (iid it)) res, match res with Some _ => true | None => false end)).
  { induction l as [|[[k o] it] l IH]; intros enq deq exp rej; cbn [map fold_left dl_pop].
    - cbn. now rewrite !Z.add_0_r.
    - unfold F0 at 2. cbn. destruct (k <? t) eqn:E.
      + unfold set_DeadlineQueue__expired, set_DeadlineQueue__heap. cbn. rewrite IH.
        destruct (dl_pop t l) as [[h' res] ex]. rewrite zlen_cons. f_equal. f_equal. f_equal. lia.
      + unfold set_DeadlineQueue__dequeued, set_DeadlineQueue__heap. cbn. rewrite HB. cbn. now rewrite Z.add_0_r. }
  unfold dq_obj at 1. cbn [DeadlineQueue__heap]. unfold dq_obj at 1. rewrite HL.
  destruct (dl_pop t h) as [[h' res] ex]. do 2 eexists. split; [reflexivity|].
  unfold dq_obj. cbn. destruct res; reflexivity.
Qed.

Lemma tie_dq_reads cap ctr h st :
  DeadlineQueue___len__ (dq_obj cap ctr h st) = pol_len (PDead cap ctr h st)
  /\ DeadlineQueue_is_empty (dq_obj cap ctr h st) = (pol_len (PDead cap ctr h st) =? 0).
Proof. unfold DeadlineQueue___len__, DeadlineQueue_is_empty, dq_obj. cbn. rewrite map_length. split; reflexivity. Qed.
