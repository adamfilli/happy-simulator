(** C11 — one handler invocation of the RaftNode model: which fields each
    primitive leaves alone (one equation per primitive), the classification
    [nstep] of everything [node_step] can do, and the node-local invariant
    [apply_inv], which holds for every input sequence, forged or malformed
    messages included. *)
From HS Require Import Base.Prelude Base.Lists C11.Model.
Local Open Scope Z_scope.

Fixpoint zseq (a : Z) (k : nat) : list Z :=
  match k with O => [] | S k' => a :: zseq (a + 1) k' end.

Lemma zseq_app a k : zseq a (k + 1) = zseq a k ++ [a + Z.of_nat k].
Proof.
  revert a; induction k as [|k IH]; intros a; cbn.
  - f_equal. lia.
  - rewrite IH. cbn. do 3 f_equal. lia.
Qed.

Lemma zlen_app {A} (a b : list A) : zlen (a ++ b) = zlen a + zlen b.
Proof. unfold zlen. rewrite app_length. lia. Qed.
Lemma zlen_nonneg {A} (a : list A) : 0 <= zlen a.
Proof. unfold zlen. lia. Qed.
Lemma zlen_firstn {A} (l : list A) k : 0 <= k -> k <= zlen l -> zlen (firstn (Z.to_nat k) l) = k.
Proof. unfold zlen. intros. rewrite firstn_length. lia. Qed.

Lemma nth_error_firstn {A} (l : list A) c j : (j < c)%nat -> nth_error (firstn c l) j = nth_error l j.
Proof.
  revert l j; induction c as [|c IH]; intros l j H; [lia|].
  destruct l as [|x l]; [destruct j; reflexivity|]. destruct j; cbn; [reflexivity|]. apply IH. lia.
Qed.

Lemma nth_error_firstn_some {A} (l : list A) c j e : nth_error (firstn c l) j = Some e -> (j < c)%nat /\ nth_error l j = Some e.
Proof.
  intros H. assert (j < length (firstn c l))%nat by (apply nth_error_Some; congruence).
  rewrite firstn_length in H0. split; [lia|]. rewrite <- H. symmetry. apply nth_error_firstn. lia.
Qed.


Lemma firstn_le_eq {A} (a b : list A) c c' : (c' <= c)%nat -> firstn c a = firstn c b -> firstn c' a = firstn c' b.
Proof.
  intros H E. replace c' with (Nat.min c' c) by lia. rewrite <- !firstn_firstn. rewrite E. reflexivity.
Qed.



Lemma firstn_app_le {A} (a b : list A) m : (m <= length a)%nat -> firstn m (a ++ b) = firstn m a.
Proof. intros H. rewrite firstn_app. replace (m - length a)%nat with 0%nat by lia. cbn. apply app_nil_r. Qed.

Lemma firstn_eq_length {A} (a b : list A) c : firstn c a = firstn c b -> (c <= length b)%nat -> (c <= length a)%nat.
Proof. intros E H. rewrite <- (firstn_length_le b H), <- E, firstn_length. apply Nat.le_min_r. Qed.

Lemma firstn_nth_eq {A} (a b : list A) c k : (k < c)%nat -> firstn c a = firstn c b -> nth_error a k = nth_error b k.
Proof.
  intros H E. rewrite <- (nth_error_firstn a c k H), <- (nth_error_firstn b c k H), E. reflexivity.
Qed.

Lemma nth_error_skipn' {A} (l : list A) c j : nth_error (skipn c l) j = nth_error l (c + j).
Proof. revert l; induction c as [|c IH]; intros l; [reflexivity|]. destruct l; [destruct j; reflexivity|]. apply IH. Qed.

Lemma skipn_nth_cons {A} (G : list A) p x r : skipn p G = x :: r -> nth_error G p = Some x /\ skipn (S p) G = r.
Proof.
  revert G; induction p as [|p IH]; intros G E; destruct G as [|y G]; cbn in *; try discriminate.
  - inversion E; auto.
  - apply IH, E.
Qed.


(** Log.get, read as a position. *)
Lemma log_get_iff L i e : log_get L i = Some e <-> 1 <= i /\ nth_error L (Z.to_nat (i - 1)) = Some e.
Proof.
  unfold log_get. destruct ((i <? 1) || (i >? zlen L)) eqn:E.
  - split; [discriminate|]. intros [Hi H].
    assert (Z.to_nat (i - 1) < length L)%nat by (apply nth_error_Some; congruence). unfold zlen in E. lia.
  - split; [intros H; split; [lia|exact H]|intros [_ H]; exact H].
Qed.

Lemma log_get_le L i e : log_get L i = Some e -> i <= zlen L.
Proof. unfold log_get. destruct ((i <? 1) || (i >? zlen L)) eqn:E; [discriminate|lia]. Qed.

Lemma with_index_length i l : length (with_index i l) = length l.
Proof. revert i; induction l as [|[t c] l IH]; intros i; cbn; auto. Qed.

Lemma slice_length l a b : 0 <= a -> a <= b -> b <= zlen l -> zlen (slice l a b) = b - a.
Proof.
  intros Ha Hab Hb. unfold slice, zlen in *. rewrite firstn_length, skipn_length. lia.
Qed.

Lemma remove_nth_incl {A} k (l : list A) x : In x (remove_nth k l) -> In x l.
Proof.
  revert k; induction l as [|y l IH]; intros k; destruct k; cbn; auto.
  intros [H|H]; [auto|right; eapply IH; eauto].
Qed.


Lemma zmem_in x l : zmem x l = true <-> In x l.
Proof. apply existsb_eqb_In. Qed.

Lemma zmem_notin x l : ~ In x l -> zmem x l = false.
Proof. intros H. destruct (zmem x l) eqn:E; [apply zmem_in in E; contradiction|reflexivity]. Qed.

Lemma role_eqb_true a b : role_eqb a b = true -> a = b.
Proof. destruct a, b; cbn; congruence. Qed.
Lemma role_eqb_false a b : role_eqb a b = false -> a <> b.
Proof. destruct a, b; cbn; congruence. Qed.

Lemma upd_same {V} (f : Z -> V) k v : upd f k v k = v.
Proof. unfold upd. rewrite Z.eqb_refl. reflexivity. Qed.
Lemma upd_other {V} (f : Z -> V) k v j : j <> k -> upd f k v j = f j.
Proof. unfold upd. intros H. destruct (Z.eqb j k) eqn:E; [apply Z.eqb_eq in E; contradiction|reflexivity]. Qed.

Lemma upd_case {V} (P : V -> Prop) (f : Z -> V) k v j : (j = k -> P v) -> (j <> k -> P (f j)) -> P (upd f k v j).
Proof. intros A B. destruct (Z.eq_dec j k) as [E|E]; [rewrite E, upd_same; auto|rewrite upd_other; auto]. Qed.

Lemma afind_aset k v m k' : afind k' (aset k v m) = if Z.eqb k' k then Some v else afind k' m.
Proof.
  induction m as [|[a b] m IH]; cbn.
  - destruct (Z.eqb k' k); reflexivity.
  - destruct (Z.eqb k a) eqn:E; cbn.
    + apply Z.eqb_eq in E. subst a. destruct (Z.eqb k' k); reflexivity.
    + rewrite IH. destruct (Z.eqb k' a) eqn:E2; [|reflexivity].
      apply Z.eqb_eq in E2. subst a. replace (k' =? k) with false by lia. reflexivity.
Qed.

Lemma aget_afind k d m : aget k d m = match afind k m with Some v => v | None => d end.
Proof. induction m as [|[a b] m IH]; cbn; [reflexivity|]. destruct (Z.eqb k a); auto. Qed.

Lemma aget_aset k v m k' d : aget k' d (aset k v m) = if Z.eqb k' k then v else aget k' d m.
Proof. rewrite !aget_afind, afind_aset. destruct (Z.eqb k' k); reflexivity. Qed.

Lemma aset_keys k v m x : In x (map fst (aset k v m)) <-> x = k \/ In x (map fst m).
Proof.
  induction m as [|[a b] m IH]; cbn.
  - split; [intros [H|[]]; auto|intros [H|[]]; auto].
  - destruct (Z.eqb k a) eqn:E; cbn.
    + apply Z.eqb_eq in E. subst a. split; [intros [H|H]; auto|intros [H|[H|H]]; auto].
    + rewrite IH. split; [intros [H|[H|H]]; auto|intros [H|[H|H]]; auto].
Qed.

Lemma aset_nodup k v m : NoDup (map fst m) -> NoDup (map fst (aset k v m)).
Proof.
  induction m as [|[a b] m IH]; cbn; intros ND.
  - constructor; [intros []|constructor].
  - inversion ND as [|? ? Hx ND']; subst. destruct (Z.eqb k a) eqn:E; cbn.
    + apply Z.eqb_eq in E. subst a. constructor; assumption.
    + constructor; [|apply IH, ND']. intros H. apply aset_keys in H as [H|H]; [lia|contradiction].
Qed.

Lemma afind_in k m : afind k m <> None <-> In k (map fst m).
Proof.
  induction m as [|[a b] m IH]; cbn; [intuition|].
  destruct (Z.eqb k a) eqn:E.
  - apply Z.eqb_eq in E. subst. split; [auto|discriminate].
  - rewrite IH. split; [auto|]. intros [H|H]; [lia|exact H].
Qed.

(** [withL n m], [withX n m], [withA n m] are [n] with one group of fields
    taken from [m]: the log with its commit index, the leader's next/match
    tables, the applied state; [withC n m] (below) is [withA] plus the commit
    index, what [commit_to] changes.  A frame lemma [f n = withG n (f n)] says that
    [f] touches group G only; any other projection of [f n] is then
    [rewrite frame; reflexivity], because projections of setters compute.
    (The right-hand sides repeat [f n]; where [n] is itself large, [generalize]
    it first, as in [accepted_fields].) *)
Definition withL (n m : node) : node := set_log (set_commit n (commit m)) (log m).
Definition withX (n m : node) : node := set_match_index (set_next_index n (next_index m)) (match_index m).
Definition withA (n m : node) : node :=
  set_n_cmds (set_resolved (set_pending (set_applied (set_last_applied n (last_applied m)) (applied m)) (pending m)) (resolved m)) (n_cmds m).

Lemma fold_frame {A} (w : node -> node -> node) (f : node -> A -> node) :
  (forall n, w n n = n) -> (forall a b c, w (w a b) c = w a c) -> (forall n x, f n x = w n (f n x)) ->
  forall l n, fold_left f l n = w n (fold_left f l n).
Proof.
  intros Hid Hco Hf. induction l as [|x l IH]; intros n; cbn [fold_left]; [symmetry; apply Hid|].
  set (F := fold_left f l (f n x)). transitivity (w (f n x) F); [apply IH|].
  rewrite (Hf n x). apply Hco.
Qed.

Lemma step_down_eq n t :
  step_down n t = set_role (set_term (set_voted n (if t >? term n then None else voted n)) t) Follower.
Proof. unfold step_down. destruct (t >? term n); [reflexivity|destruct n; reflexivity]. Qed.

Lemma append_one_frame n e : append_one n e = withL n (append_one n e).
Proof.
  destruct e as [[idx et] cmd]. unfold append_one.
  destruct (log_get (log n) idx) as [ex|]; [destruct (negb (fst ex =? et)); [destruct (truncate_from _ _ _)|]|];
    destruct n; reflexivity.
Qed.

Lemma fold_append_frame es n : fold_left append_one es n = withL n (fold_left append_one es n).
Proof. apply fold_frame; [intros m; destruct m; reflexivity|reflexivity|apply append_one_frame]. Qed.

Lemma apply_one_frame n e : apply_one n e = withA n (apply_one n e).
Proof.
  destruct e as [[idx t] cmd]. unfold apply_one.
  destruct (idx >? last_applied n); [|destruct n; reflexivity].
  destruct n; cbn. destruct (afind _ _); reflexivity.
Qed.

Lemma apply_one_applied_eq n idx t cmd :
  applied (apply_one n (idx, t, cmd)) = if idx >? last_applied n then applied n ++ [(idx, cmd)] else applied n.
Proof.
  unfold apply_one. destruct (idx >? last_applied n); [|reflexivity].
  cbn [pending set_n_cmds set_last_applied set_applied]. destruct (afind idx (pending n)); reflexivity.
Qed.

Lemma apply_committed_frame es n : apply_committed n es = withA n (apply_committed n es).
Proof. apply fold_frame; [intros m; destruct m; reflexivity|reflexivity|apply apply_one_frame]. Qed.

Definition withC (n m : node) : node := set_commit (withA n m) (commit m).

Lemma commit_to_frame n c : commit_to n c = withC n (commit_to n c).
Proof.
  unfold commit_to. destruct (advance_commit _ _ _) as [c' es].
  rewrite (apply_committed_frame es (set_commit n c')). reflexivity.
Qed.

Lemma commit_to_log n c : log (commit_to n c) = log n.
Proof. rewrite commit_to_frame. reflexivity. Qed.

Lemma try_commit_spec k : forall n hi,
  try_commit n hi k = n \/
  exists hi' e, log_get (log n) hi' = Some e /\ fst e = term n /\ 1 + count_ge hi' (match_index n) >= quorum n /\
                try_commit n hi k = commit_to n hi'.
Proof.
  induction k as [|k IH]; intros n hi; cbn [try_commit]; [left; reflexivity|].
  destruct (log_get (log n) hi) as [e|] eqn:E; [|apply IH].
  destruct (negb (fst e =? term n)) eqn:Et; [apply IH|].
  destruct (1 + count_ge hi (match_index n) >=? quorum n) eqn:Eq; [|apply IH].
  right. exists hi, e. repeat split; auto; lia.
Qed.

Lemma try_commit_frame k n hi : try_commit n hi k = withC n (try_commit n hi k).
Proof.
  destruct (try_commit_spec k n hi) as [E|(hi' & _ & _ & _ & _ & E)]; rewrite E;
    [destruct n; reflexivity|apply commit_to_frame].
Qed.

(** _become_leader: the loop body, and the resulting state. *)
Definition bl_f (a : node) (p : Z) : node :=
  set_match_index (set_next_index a (aset p (last_index (log a) + 1) (next_index a))) (aset p 0 (match_index a)).
Definition elect (n : node) : node := fold_left bl_f (peers n) (set_leader (set_role n Leader) (Some (nid n))).
Definition lead_out (n : node) : list output := send_append_entries n ++ [OHeartbeatTimer].

Lemma append_entries_for_dst n p d m : append_entries_for n p = OSend d m -> d = p.
Proof. unfold append_entries_for. intros H. injection H as <- _. reflexivity. Qed.

Lemma become_leader_eq n : become_leader n = (elect n, lead_out (elect n)).
Proof. reflexivity. Qed.

Lemma elect_frame n : elect n = withX (set_leader (set_role n Leader) (Some (nid n))) (elect n).
Proof. apply fold_frame; [intros m; destruct m; reflexivity|reflexivity|reflexivity]. Qed.

Lemma submit_leader n c : role n = Leader ->
  submit n c = set_pending (set_log (set_nfut n (nfut n + 1)) (log n ++ [(term n, c)])) (aset (zlen (log n) + 1) (nfut n) (pending n)).
Proof. intros R. unfold submit. cbn [role set_nfut]. rewrite R. cbn. unfold last_index. rewrite zlen_app. reflexivity. Qed.

Lemma submit_other n c : role n <> Leader ->
  submit n c = set_pending (set_nfut n (nfut n + 1)) (aset (- (zlen (pending n) + 1)) (nfut n) (pending n)).
Proof.
  intros R. unfold submit. cbn [role set_nfut].
  destruct (role_eqb (role n) Leader) eqn:E; [apply role_eqb_true in E; contradiction|reflexivity].
Qed.

(** _start_election up to the vote count *)
Definition candidate (n : node) : node :=
  set_n_votes (set_n_elections (set_leader (set_votes (set_voted (set_term (set_role n Candidate)
    (term n + 1)) (Some (nid n))) [nid n]) None) (n_elections n + 1)) (n_votes n + 1).
Definition rv_out (n : node) : list output :=
  map (fun p => OSend p (RequestVote (term n) (nid n) (last_index (log n)) (last_term (log n)))) (peers n).
(** a message of term [t] has been seen *)
Definition catch_up (n : node) (t : Z) : node := if t >? term n then step_down n t else n.
Definition grant (n : node) (cand t : Z) : node := set_term (set_voted n (Some cand)) t.
Definition tally (n : node) (granted : bool) (voter : Z) : node :=
  if granted then set_n_votes (set_votes n (set_add voter (votes n))) (n_votes n + 1) else n.
(** an AppendEntries of term [t >= term n] from [lead] *)
Definition demote (n : node) (t lead : Z) : node := set_term (set_leader (step_down n t) (Some lead)) t.
Definition ae_consistent (L : list entry) (pli plt : Z) : bool :=
  if pli >? 0 then match log_get L pli with None => false | Some e => fst e =? plt end else true.
Definition ae_commit (n : node) (lc : Z) : node :=
  if lc >? commit n then commit_to n (Z.min lc (last_index (log n))) else n.
(** AppendEntries replies at the leader *)
Definition ack (n : node) (f mi : Z) : node :=
  set_match_index (set_next_index n (aset f (mi + 1) (next_index n))) (aset f mi (match_index n)).
Definition back_off (n : node) (f : Z) : node :=
  set_next_index n (aset f (Z.max 1 (aget f 1 (next_index n) - 1)) (next_index n)).

Lemma catch_up_cases n t : (term n < t /\ catch_up n t = step_down n t) \/ (t <= term n /\ catch_up n t = n).
Proof. unfold catch_up. destruct (t >? term n) eqn:E; [left|right]; (split; [lia|reflexivity]). Qed.

(** A vote is granted for a term not behind the voter's, to the one candidate
    the voter has voted for if it has voted, whose log is at least as up to date. *)
Lemma vote_ok_true n t cand lli llt : vote_ok n t cand lli llt = true ->
  term n <= t /\ (forall v, voted n = Some v -> v = cand) /\
  (llt > last_term (log n) \/ (llt = last_term (log n) /\ lli >= zlen (log n))).
Proof.
  unfold vote_ok, last_index. intros H. apply andb_prop in H as [H U]. apply andb_prop in H as [T V].
  split; [lia|]. split; [|lia]. intros v E. rewrite E in V. lia.
Qed.

(** ... hence in the voter's term once it has caught up. *)
Lemma grant_cases n t cand lli llt : vote_ok (catch_up n t) t cand lli llt = true ->
  (term n < t /\ catch_up n t = step_down n t) \/ (t = term n /\ catch_up n t = n).
Proof.
  intros H. destruct (catch_up_cases n t) as [C|[Le E]]; [left; exact C|right].
  rewrite E in H. apply vote_ok_true in H as [T _]. split; [lia|exact E].
Qed.

Lemma rv_out_in m d x : In (OSend d x) (rv_out m) ->
  In d (peers m) /\ x = RequestVote (term m) (nid m) (last_index (log m)) (last_term (log m)).
Proof. intros H. apply in_map_iff in H. destruct H as (p & E & Hp). injection E as <- <-. auto. Qed.

Lemma start_election_eq n : start_election n =
  if zlen (votes (candidate n)) >=? quorum (candidate n)
  then (elect (candidate n), rv_out (candidate n) ++ lead_out (elect (candidate n)))
  else (candidate n, rv_out (candidate n) ++ [OElectionTimer]).
Proof.
  unfold start_election. cbv zeta. fold (candidate n). rewrite become_leader_eq.
  unfold rv_out. reflexivity.
Qed.

Lemma demote_eq n t lead :
  demote n t lead = set_term (set_leader (set_role (set_voted n (if t >? term n then None else voted n)) Follower) (Some lead)) t.
Proof. unfold demote. rewrite step_down_eq. reflexivity. Qed.

Lemma ae_commit_frame n lc : ae_commit n lc = withC n (ae_commit n lc).
Proof. unfold ae_commit. destruct (lc >? commit n); [apply commit_to_frame|destruct n; reflexivity]. Qed.

Definition sends (Q : msg -> Prop) (o : list output) : Prop := forall d m, In (OSend d m) o -> Q m.

Lemma sends_nil (Q : msg -> Prop) : sends Q [].
Proof. intros d m []. Qed.
Lemma sends_cons (Q : msg -> Prop) x o : (forall d m, x = OSend d m -> Q m) -> sends Q o -> sends Q (x :: o).
Proof. intros Hx Ho d m [H|H]; [exact (Hx d m H)|exact (Ho d m H)]. Qed.
Lemma sends_app (Q : msg -> Prop) a b : sends Q a -> sends Q b -> sends Q (a ++ b).
Proof. intros A B d m H. apply in_app_or in H as [H|H]; [exact (A d m H)|exact (B d m H)]. Qed.
Lemma sends_impl (Q Q' : msg -> Prop) o : (forall m, Q m -> Q' m) -> sends Q o -> sends Q' o.
Proof. intros I S d m H. exact (I m (S d m H)). Qed.

(** An explicit list of outputs, [Q] a [match] on the message. *)
Ltac sends_list :=
  repeat first [apply sends_nil
               | apply sends_cons; [let E := fresh in intros ? ? E; first [discriminate E | injection E as <- <-; exact I]|]].

Definition not_ae (m : msg) : Prop := match m with AppendEntries _ _ _ _ _ _ => False | _ => True end.
Definition not_ars (m : msg) : Prop := match m with AppendResponse _ true _ _ => False | _ => True end.
Definition not_rv (m : msg) : Prop := match m with RequestVote _ _ _ _ => False | _ => True end.

(** Outputs that start nothing: timers, and at most replies that refuse. *)
Definition silent : list output -> Prop := sends (fun m => exists t f, m = AppendResponse t false f 0).

Lemma silent_timer : silent [OElectionTimer].
Proof. apply sends_cons; [discriminate|apply sends_nil]. Qed.

(** Everything [node_step] can do, with the new state and the outputs written
    out.  [NS_idle] stands for every branch that ignores its input (cancelled
    timer, message from a stranger, stale term, wrong role); the guards of the
    other branches are kept as premises. *)
Inductive nstep (n : node) : input -> node -> list output -> Prop :=
| NS_idle inp o : silent o -> nstep n inp n o
| NS_beat : role n = Leader -> nstep n (IHeartbeat false) n (lead_out n)
| NS_down inp t : term n < t -> nstep n inp (step_down n t) [OElectionTimer]
| NS_cand : role n <> Leader -> zlen (votes (candidate n)) < quorum (candidate n) ->
    nstep n (ITimeout false) (candidate n) (rv_out (candidate n) ++ [OElectionTimer])
| NS_cand_won : role n <> Leader -> quorum (candidate n) <= zlen (votes (candidate n)) ->
    nstep n (ITimeout false) (elect (candidate n)) (rv_out (candidate n) ++ lead_out (elect (candidate n)))
| NS_grant src t cand lli llt : zmem src (peers n) = true -> vote_ok (catch_up n t) t cand lli llt = true ->
    nstep n (IMsg src (RequestVote t cand lli llt)) (grant (catch_up n t) cand t)
      [OSend src (VoteResponse t true (nid n)); OElectionTimer]
| NS_deny src t cand lli llt : zmem src (peers n) = true -> vote_ok (catch_up n t) t cand lli llt = false ->
    nstep n (IMsg src (RequestVote t cand lli llt)) (catch_up n t)
      [OSend src (VoteResponse (term (catch_up n t)) false (nid n))]
| NS_tally src g v : role n = Candidate -> zlen (votes (tally n g v)) < quorum n ->
    nstep n (IMsg src (VoteResponse (term n) g v)) (tally n g v) []
| NS_won src g v : role n = Candidate -> quorum n <= zlen (votes (tally n g v)) ->
    nstep n (IMsg src (VoteResponse (term n) g v)) (elect (tally n g v)) (lead_out (elect (tally n g v)))
| NS_reject src t lead pli plt ents lc : zmem src (peers n) = true -> term n <= t -> ae_consistent (log n) pli plt = false ->
    nstep n (IMsg src (AppendEntries t lead pli plt ents lc)) (demote n t lead)
      [OElectionTimer; OSend src (AppendResponse t false (nid n) 0)]
| NS_accept src t lead pli plt ents lc : zmem src (peers n) = true -> term n <= t -> ae_consistent (log n) pli plt = true ->
    nstep n (IMsg src (AppendEntries t lead pli plt ents lc)) (ae_commit (fold_left append_one ents (demote n t lead)) lc)
      [OElectionTimer; OSend src (AppendResponse t true (nid n) (pli + zlen ents))]
| NS_ack src f mi : role n = Leader ->
    nstep n (IMsg src (AppendResponse (term n) true f mi)) (try_advance_commit (ack n f mi)) []
| NS_nack src f mi : role n = Leader ->
    nstep n (IMsg src (AppendResponse (term n) false f mi)) (back_off n f)
      (if zmem f (peers n) then [append_entries_for (back_off n f) f] else [])
| NS_submit cmd : nstep n (ISubmit cmd) (submit n cmd) [].

Lemma catch_up_nid n t : nid (catch_up n t) = nid n.
Proof. unfold catch_up. destruct (t >? term n); [rewrite step_down_eq|]; reflexivity. Qed.

Lemma tally_quorum n g v : quorum (tally n g v) = quorum n.
Proof. unfold tally. destruct g; reflexivity. Qed.

(** An accepted AppendEntries changes log, commit index and applied state; every
    other field is as [demote] set it. *)
Lemma accepted_fields n t lead ents lc :
  let n' := ae_commit (fold_left append_one ents (demote n t lead)) lc in
  nid n' = nid n /\ peers n' = peers n /\ term n' = t /\ voted n' = (if t >? term n then None else voted n) /\
  votes n' = votes n /\ role n' = Follower /\ next_index n' = next_index n /\ match_index n' = match_index n.
Proof.
  cbv zeta. generalize (demote_eq n t lead). generalize (demote n t lead). intros d Ed.
  rewrite ae_commit_frame. generalize (ae_commit (fold_left append_one ents d) lc). intros x.
  rewrite fold_append_frame. generalize (fold_left append_one ents d). intros y.
  rewrite Ed. repeat split.
Qed.

Lemma handle_append_entries_eq n src t lead pli plt ents lc :
  handle_append_entries n src t lead pli plt ents lc =
  if negb (zmem src (peers n)) then (n, [])
  else if t <? term n then (n, [OSend src (AppendResponse (term n) false (nid n) 0)])
  else if ae_consistent (log n) pli plt
  then (ae_commit (fold_left append_one ents (demote n t lead)) lc,
        [OElectionTimer; OSend src (AppendResponse t true (nid n) (pli + zlen ents))])
  else (demote n t lead, [OElectionTimer; OSend src (AppendResponse t false (nid n) 0)]).
Proof.
  unfold handle_append_entries. destruct (negb (zmem src (peers n))); [reflexivity|]. destruct (t <? term n); [reflexivity|].
  cbv zeta. change (set_term (set_leader (step_down n t) (Some lead)) t) with (demote n t lead).
  change (if pli >? 0 then match log_get (log (demote n t lead)) pli with None => false | Some e => fst e =? plt end else true)
    with (ae_consistent (log (demote n t lead)) pli plt).
  replace (log (demote n t lead)) with (log n) by (rewrite demote_eq; reflexivity).
  destruct (ae_consistent (log n) pli plt); cbn [negb].
  - change (if lc >? commit ?m then _ else _) with (ae_commit (fold_left append_one ents (demote n t lead)) lc).
    destruct (accepted_fields n t lead ents lc) as (-> & _ & -> & _). reflexivity.
  - replace (nid (demote n t lead)) with (nid n) by (rewrite demote_eq; reflexivity). reflexivity.
Qed.

Theorem node_step_nstep n inp : nstep n inp (fst (node_step n inp)) (snd (node_step n inp)).
Proof.
  destruct inp as [c|c|src m|cmd]; cbn [node_step].
  - unfold handle_timeout. destruct c; [apply NS_idle, sends_nil|].
    destruct (role_eqb (role n) Leader) eqn:R; [apply NS_idle, silent_timer|]. apply role_eqb_false in R.
    rewrite start_election_eq.
    destruct (_ >=? _) eqn:Q; [apply NS_cand_won|apply NS_cand]; (exact R || lia).
  - unfold handle_heartbeat. destruct c; [apply NS_idle, sends_nil|].
    destruct (role_eqb (role n) Leader) eqn:R; [apply NS_beat, role_eqb_true, R|apply NS_idle, silent_timer].
  - destruct m as [t cand lli llt|t g voter|t lead pli plt ents lc|t s f mi]; cbn [handle_msg].
    + unfold handle_request_vote. destruct (negb (zmem src (peers n))) eqn:P; [apply NS_idle, sends_nil|].
      apply negb_false_iff in P. cbv zeta. change (if t >? term n then step_down n t else n) with (catch_up n t).
      destruct (vote_ok (catch_up n t) t cand lli llt) eqn:G; cbn [fst snd grant nid term set_term set_voted];
        rewrite catch_up_nid; [exact (NS_grant n src t cand lli llt P G)|exact (NS_deny n src t cand lli llt P G)].
    + unfold handle_vote_response. destruct (t >? term n) eqn:T; [apply NS_down; lia|].
      destruct (negb (role_eqb (role n) Candidate) || negb (t =? term n)) eqn:E; [apply NS_idle, sends_nil|].
      apply orb_false_elim in E as [E1 E2]. apply negb_false_iff, role_eqb_true in E1. apply negb_false_iff, Z.eqb_eq in E2. subst t.
      cbv zeta. change (if g then _ else n) with (tally n g voter). rewrite tally_quorum, become_leader_eq.
      destruct (_ >=? _) eqn:Q; [apply NS_won|apply NS_tally]; (exact E1 || lia).
    + rewrite handle_append_entries_eq. destruct (negb (zmem src (peers n))) eqn:P; [apply NS_idle, sends_nil|].
      apply negb_false_iff in P. destruct (t <? term n) eqn:T.
      { apply NS_idle. intros d m [H|[]]. inversion H. eauto. }
      destruct (ae_consistent (log n) pli plt) eqn:C; [apply NS_accept|apply NS_reject]; (assumption || lia).
    + unfold handle_append_response. destruct (t >? term n) eqn:T; [apply NS_down; lia|].
      destruct (role_eqb (role n) Leader) eqn:R; cbn [negb]; [|apply NS_idle, sends_nil]. apply role_eqb_true in R.
      destruct (t <? term n) eqn:T2; [apply NS_idle, sends_nil|]. assert (t = term n) by lia. subst t.
      destruct s; [exact (NS_ack n src f mi R)|]. cbv zeta. fold (back_off n f). change (peers (back_off n f)) with (peers n).
      pose proof (NS_nack n src f mi R) as K. destruct (zmem f (peers n)); exact K.
  - apply NS_submit.
Qed.

Definition applied_ok (n : node) : Prop :=
  last_applied n = zlen (applied n) /\
  map fst (applied n) = zseq 1 (length (applied n)) /\
  (forall f i c, In (f, i, c) (resolved n) -> In (i, c) (applied n)).

Definition apply_inv (n : node) : Prop :=
  0 <= commit n /\ commit n <= zlen (log n) /\ commit n <= last_applied n /\ applied_ok n.

Lemma apply_one_ok n idx t cmd :
  applied_ok n -> idx <= last_applied n + 1 ->
  applied_ok (apply_one n (idx, t, cmd)) /\
  last_applied (apply_one n (idx, t, cmd)) = Z.max (last_applied n) idx.
Proof.
  intros (Hla & Hseq & Hres) Hidx. unfold apply_one.
  destruct (idx >? last_applied n) eqn:E.
  - assert (idx = last_applied n + 1) by lia. subst idx.
    assert (Hok : applied_ok (set_n_cmds (set_last_applied (set_applied n (applied n ++ [(last_applied n + 1, cmd)])) (last_applied n + 1)) (n_cmds n + 1))).
    { unfold applied_ok; cbn. repeat split.
      - rewrite zlen_app. unfold zlen at 2. cbn. lia.
      - rewrite map_app, app_length. cbn. rewrite zseq_app, Hseq. do 2 f_equal. rewrite Hla. unfold zlen. lia.
      - intros f i c Hin. apply in_or_app. left. eauto. }
    cbn. destruct (afind _ _) eqn:F; cbn.
    + repeat split; try lia; try reflexivity.
      * apply Hok.
      * apply Hok.
      * intros f i c Hin. apply in_app_or in Hin. destruct Hin as [Hin|[Hin|[]]].
        -- apply in_or_app. left. eauto.
        -- inversion Hin; subst. apply in_or_app. right. left. reflexivity.
    + repeat split; try lia; try reflexivity; apply Hok.
  - repeat split; auto; lia.
Qed.

Lemma apply_committed_ok l : forall n c,
  applied_ok n -> c <= last_applied n ->
  applied_ok (apply_committed n (with_index c l)) /\
  last_applied (apply_committed n (with_index c l)) = Z.max (last_applied n) (c + zlen l).
Proof.
  unfold apply_committed.
  induction l as [|[t cmd] l IH]; intros n c Hok Hc.
  - cbn. split; [exact Hok|]. unfold zlen; cbn. lia.
  - destruct (apply_one_ok n (c + 1) t cmd Hok ltac:(lia)) as (Hok1 & Hla1).
    destruct (IH (apply_one n (c + 1, t, cmd)) (c + 1) Hok1 ltac:(lia)) as (Hok2 & Hla2).
    change (with_index c ((t, cmd) :: l)) with ((c + 1, t, cmd) :: with_index (c + 1) l).
    cbn [fold_left]. split; [exact Hok2|].
    rewrite Hla2, Hla1. unfold zlen. cbn [length]. lia.
Qed.

Lemma commit_to_inv n c : apply_inv n -> apply_inv (commit_to n c) /\ log (commit_to n c) = log n.
Proof.
  intros (H0 & Hlen & Hla & Hok). split; [|apply commit_to_log].
  unfold apply_inv. rewrite commit_to_log. unfold commit_to, advance_commit.
  destruct (c <=? commit n) eqn:E; [exact (conj H0 (conj Hlen (conj Hla Hok)))|].
  apply Z.leb_gt in E. set (c' := Z.min c (zlen (log n))).
  destruct (apply_committed_ok (slice (log n) (commit n) c') (set_commit n c') (commit n) Hok Hla) as (Hok2 & Hla2).
  rewrite slice_length in Hla2 by (unfold c'; lia).
  change (last_applied (set_commit n c')) with (last_applied n) in Hla2.
  set (m := apply_committed _ _) in *.
  assert (Ec : commit m = c') by (unfold m; rewrite apply_committed_frame; reflexivity). rewrite Ec.
  split; [unfold c'; lia|]. split; [unfold c'; lia|]. split; [rewrite Hla2; unfold c'; lia|exact Hok2].
Qed.

(** [apply_inv] reads five fields only. *)
Definition core (n : node) := (commit n, log n, last_applied n, applied n, resolved n).

Lemma apply_inv_core n n' : core n' = core n -> apply_inv n -> apply_inv n'.
Proof.
  unfold core. intros E. injection E as Ec El Ela Ea Er.
  unfold apply_inv, applied_ok. rewrite Ec, El, Ela, Ea, Er. exact (fun H => H).
Qed.

Lemma append_one_inv n e : apply_inv n -> apply_inv (append_one n e).
Proof.
  destruct e as [[idx et] cmd]. intros (H0 & Hlen & Hla & Hok).
  assert (K : 0 <= commit (append_one n (idx, et, cmd)) <= commit n /\
              commit (append_one n (idx, et, cmd)) <= zlen (log (append_one n (idx, et, cmd)))).
  { clear Hok Hla. unfold append_one, log_get, truncate_from.
    destruct ((idx <? 1) || (idx >? zlen (log n))) eqn:E.
    - cbn [log commit set_log]. rewrite zlen_app. change (zlen [(et, cmd)]) with 1. lia.
    - destruct (nth_error (log n) (Z.to_nat (idx - 1))) as [ex|]; [destruct (negb (fst ex =? et))|];
        cbn [log commit set_log set_commit].
      + rewrite zlen_app, zlen_firstn by lia. change (zlen [(et, cmd)]) with 1. destruct (commit n >=? idx) eqn:E3; lia.
      + lia.
      + rewrite zlen_app. change (zlen [(et, cmd)]) with 1. lia. }
  rewrite append_one_frame. unfold apply_inv. cbn [commit log last_applied withL set_log set_commit].
  split; [lia|]. split; [lia|]. split; [lia|exact Hok].
Qed.

Lemma submit_inv n c : apply_inv n -> apply_inv (submit n c).
Proof.
  intros Hn. destruct (role_eqb (role n) Leader) eqn:R.
  - rewrite submit_leader by (apply role_eqb_true, R). destruct Hn as (H0 & Hlen & Hla & Hok).
    unfold apply_inv. cbn [commit log last_applied set_pending set_log set_nfut]. rewrite zlen_app. change (zlen [(term n, c)]) with 1.
    split; [lia|]. split; [lia|]. split; [lia|exact Hok].
  - rewrite submit_other by (apply role_eqb_false, R). exact Hn.
Qed.

Lemma core_step_down n t : core (step_down n t) = core n.
Proof. rewrite step_down_eq. reflexivity. Qed.
Lemma core_catch_up n t : core (catch_up n t) = core n.
Proof. unfold catch_up. destruct (t >? term n); [apply core_step_down|reflexivity]. Qed.
Lemma core_tally n g v : core (tally n g v) = core n.
Proof. destruct g; reflexivity. Qed.
Lemma core_elect n : core (elect n) = core n.
Proof. rewrite elect_frame. reflexivity. Qed.
Lemma core_demote n t lead : core (demote n t lead) = core n.
Proof. rewrite demote_eq. reflexivity. Qed.

Lemma fold_append_inv es : forall n, apply_inv n -> apply_inv (fold_left append_one es n).
Proof. induction es as [|e es IH]; intros n Hn; cbn [fold_left]; [exact Hn|]. apply IH, append_one_inv, Hn. Qed.

Lemma try_commit_inv k n hi : apply_inv n -> apply_inv (try_commit n hi k).
Proof.
  intros Hn. destruct (try_commit_spec k n hi) as [E|(hi' & _ & _ & _ & _ & E)]; rewrite E;
    [exact Hn|apply commit_to_inv, Hn].
Qed.

Lemma nstep_inv n inp n' o : nstep n inp n' o -> apply_inv n -> apply_inv n'.
Proof.
  intros S Hn. destruct S.
  - exact Hn.
  - exact Hn.
  - exact (apply_inv_core n _ (core_step_down n t) Hn).
  - exact (apply_inv_core n (candidate n) eq_refl Hn).
  - apply (apply_inv_core n); [rewrite core_elect; reflexivity|exact Hn].
  - apply (apply_inv_core n); [exact (core_catch_up n t)|exact Hn].
  - exact (apply_inv_core n _ (core_catch_up n t) Hn).
  - exact (apply_inv_core n _ (core_tally n g v) Hn).
  - apply (apply_inv_core n); [rewrite core_elect; apply core_tally|exact Hn].
  - exact (apply_inv_core n _ (core_demote n t lead) Hn).
  - pose proof (fold_append_inv ents _ (apply_inv_core n _ (core_demote n t lead) Hn)) as Hm.
    unfold ae_commit. destruct (lc >? _); [apply commit_to_inv, Hm|exact Hm].
  - apply try_commit_inv. exact Hn.
  - exact Hn.
  - apply submit_inv, Hn.
Qed.

Lemma node_step_inv n i : apply_inv n -> apply_inv (fst (node_step n i)).
Proof. apply (nstep_inv n i _ _ (node_step_nstep n i)). Qed.

Lemma init_node_inv ids i : apply_inv (init_node ids i).
Proof. unfold apply_inv, applied_ok, init_node, zlen; cbn. repeat split; try lia; try (intros ? ? ? []). Qed.

Lemma node_run_inv is : forall n, apply_inv n -> apply_inv (node_run n is).
Proof. induction is as [|i r IH]; intros n Hn; cbn; auto. apply IH, node_step_inv, Hn. Qed.
