(** C11 — leader completeness and state-machine safety of the cluster model,
    for every cluster (duplicate-free id list) and every schedule. *)
From HS Require Import Base.Prelude C11.Model C11.NodeProofs C11.Election C11.LogProofs C11.LogMatching C11.Steps
  C11.Ghost C11.LC C11.Stab C11.Step C11.Step2.
Local Open Scope Z_scope.

Lemma c_sub w G b : cinv w G -> incl b (bag w) -> cinv (sub_bag w b) G.
Proof.
  intros [A1 A2 A3 A4 A5 A6 A7 A8 A9 A10 A11 A12 A13 A14 A15 A16 A17 A18] Hb.
  constructor; cbn [ids nodes bag cast led sub_bag]; auto.
  - apply lm_sub; assumption.
  - intros d s m H. apply (A17 d s m), Hb, H.
Qed.

Lemma c_step w G a : cinv w G -> cinv (net_step w a) (cstep w G a) /\ gmono w (net_step w a) G (cstep w G a).
Proof.
  intros K. change (cstep w G a) with (ghost_step capply w G a).
  destruct (ghost_step_cases capply w G a) as [(b & Hb & -> & ->)|(b & i & inp & Hb & A & -> & ->)].
  - split; [apply c_sub; assumption|apply gmono_same; auto].
  - pose proof (K_lm w G K) as M.
    destruct (c_apply_msgs (sub_bag w b) G i inp (c_sub w G b K Hb)) as [C X].
    + apply arrives_ok; [apply M|exact A].
    + intros s t lead pli plt ents lc ->. destruct (M_msgs w _ M _ _ _ _ _ _ _ _ A) as (A1 & A2 & _). auto.
    + intros s m ->. exact (K_msgs w G K _ _ _ A).
    + split; [exact C|]. destruct X as [X1 X2 X3 X4 X5 X6]. constructor; auto.
Qed.

Lemma c_init l : NoDup l -> cinv (net_init l) G0.
Proof.
  intros ND. constructor; cbn.
  - apply lm_init, ND.
  - intros i. split; [apply init_node_inv|]. intros idx cmd [].
  - intros i. split; [lia|]. intros H. contradiction.
  - intros i e [].
  - intros t e [].
  - intros t. exists []. split; [reflexivity|]. split; intros e [].
  - intros a t m m' [].
  - intros a t m [].
  - intros a T m [].
  - intros v t c L [].
  - intros i c _ H. discriminate.
  - intros i _ H. contradiction.
  - intros t a [].
  - intros i. split; [constructor|intros k []].
  - intros i _ H. discriminate.
  - intros i _ H. discriminate.
  - intros d s m [].
  - intros i _. left. reflexivity.
Qed.

Lemma c_run acts : forall w G, cinv w G ->
  cinv (fst (crun w G acts)) (snd (crun w G acts)) /\ gmono w (fst (crun w G acts)) G (snd (crun w G acts)).
Proof.
  induction acts as [|a r IH]; intros w G K; cbn [crun]; [split; [exact K|apply gmono_refl]|].
  destruct (c_step w G a K) as [K1 X1]. destruct (IH _ _ K1) as [K2 X2]. split; [exact K2|eapply gmono_trans; eauto].
Qed.

Lemma c_reach l acts : NoDup l ->
  cinv (net_run (net_init l) acts) (snd (crun (net_init l) G0 acts)) /\ ids (net_run (net_init l) acts) = l.
Proof.
  intros ND. destruct (c_run acts (net_init l) G0 (c_init l ND)) as [K _]. rewrite crun_fst in K.
  split; [exact K|apply net_run_ids].
Qed.

Lemma committed_point w G a i e : cinv w G -> In a (ids w) ->
  i <= commit (nodes w a) -> log_get (log (nodes w a)) i = Some e ->
  exists T m, T <= term (nodes w a) /\ dcommitted w G T m /\ (Z.to_nat (i - 1) < m)%nat /\ 1 <= i /\
              nth_error (gg G T) (Z.to_nat (i - 1)) = Some e.
Proof.
  intros K Ha Hi Hg. destruct (log_get_nth _ _ _ Hg) as (H1 & Hn & _).
  destruct (K_ci w G K a Ha) as [E|(T & m & A & B & C & D & E & F)]; [lia|].
  exists T, m. split; [exact A|]. split; [exact B|]. split; [lia|]. split; [exact H1|].
  rewrite <- Hn. symmetry. apply (firstn_nth_eq _ _ (Z.to_nat (commit (nodes w a)))); [lia|exact F].
Qed.

(** An entry committed at some state is in the log of every leader, at that
    state or a later one, whose term is at least the committing node's. *)
Theorem leader_holds_committed : forall l acts1 acts2, NoDup l ->
  let w1 := net_run (net_init l) acts1 in
  let w2 := net_run w1 acts2 in
  forall a b i e, In a l -> In b l ->
    i <= commit (nodes w1 a) -> log_get (log (nodes w1 a)) i = Some e ->
    role (nodes w2 b) = Leader -> term (nodes w1 a) <= term (nodes w2 b) ->
    log_get (log (nodes w2 b)) i = Some e.
Proof.
  intros l acts1 acts2 ND w1 w2 a b i e Ha Hb Hi Hg Rb Ht.
  destruct (c_reach l acts1 ND) as [K1 I1]. fold w1 in K1, I1. set (G1 := snd (crun (net_init l) G0 acts1)) in *.
  destruct (c_run acts2 w1 G1 K1) as [K2 X]. rewrite crun_fst in K2, X. fold w2 in K2, X.
  set (G2 := snd (crun w1 G1 acts2)) in *.
  rewrite <- I1 in Ha. rewrite <- I1, <- (net_run_ids acts2 w1) in Hb. fold w2 in Hb.
  destruct (committed_point w1 G1 a i e K1 Ha Hi Hg) as (T & m & A & B & Hlt & D & E).
  destruct (dcommitted_fwd w1 w2 G1 G2 X (K_g1 w1 G1 K1) T m (fun x t k H => proj2 (proj2 (K_acc w1 G1 K1 x t k H))) B) as [B2 Eg].
  pose proof (K_lm w2 G2 K2) as M2.
  pose proof (LC_le w2 G2 K2 T m B2 (term (nodes w2 b)) b ltac:(lia) (M_ledc w2 _ M2 b Hb Rb)) as L.
  apply log_get_iff. split; [exact D|]. rewrite (M_lead w2 _ M2 b Hb Rb).
  rewrite (firstn_nth_eq _ _ m _ Hlt L), (firstn_nth_eq _ _ m _ Hlt Eg). exact E.
Qed.

Theorem leader_completeness : leader_completeness_statement.
Proof.
  intros l acts1 acts2 ND w1 w2 a b i e Ha Hb Hi Hg Rb Ht.
  apply (leader_holds_committed l acts1 acts2 ND a b i e Ha Hb Hi Hg Rb), Z.lt_le_incl, Ht.
Qed.

(** Two nodes never hold different entries at an index both have committed. *)
Theorem committed_agree : forall l acts, NoDup l ->
  let w := net_run (net_init l) acts in
  forall a b i e e', In a l -> In b l ->
    i <= commit (nodes w a) -> i <= commit (nodes w b) ->
    log_get (log (nodes w a)) i = Some e -> log_get (log (nodes w b)) i = Some e' -> e = e'.
Proof.
  intros l acts ND w a b i e e' Ha Hb Hia Hib Hga Hgb.
  destruct (c_reach l acts ND) as [K I1]. fold w in K, I1. set (G := snd (crun (net_init l) G0 acts)) in *.
  rewrite <- I1 in Ha, Hb.
  destruct (committed_point w G a i e K Ha Hia Hga) as (Ta & ma & _ & B1 & Ha' & _ & E1).
  destruct (committed_point w G b i e' K Hb Hib Hgb) as (Tb & mb & _ & B2 & Hb' & _ & E2).
  assert (Led : forall T m, dcommitted w G T m -> exists x, In (T, x) (led w)).
  { intros T m (Hm & (e0 & He0 & _) & _). apply (M_gled w _ (K_lm w G K)). destruct (gg G T); [destruct (m - 1)%nat; discriminate|discriminate]. }
  destruct (Z.le_ge_cases Ta Tb) as [Hle|Hle].
  - destruct (Led Tb mb B2) as (x & Hx).
    rewrite (firstn_nth_eq _ _ ma _ Ha' (LC_le w G K Ta ma B1 Tb x Hle Hx)) in E2. congruence.
  - destruct (Led Ta ma B1) as (x & Hx).
    rewrite (firstn_nth_eq _ _ mb _ Hb' (LC_le w G K Tb mb B2 Ta x Hle Hx)) in E1. congruence.
Qed.

Theorem state_machine_safety : state_machine_safety_statement.
Proof.
  intros l acts ND w a b i c c' Ha Hb Hia Hib.
  destruct (c_reach l acts ND) as [K _]. fold w in K.
  destruct (proj2 (K_ap w _ K a) _ _ Hia) as (A1 & A2 & ta & A3). destruct (proj2 (K_ap w _ K b) _ _ Hib) as (B1 & B2 & tb & B3).
  pose proof (committed_agree l acts ND a b i _ _ Ha Hb A2 B2 (proj2 (log_get_iff _ _ _) (conj A1 A3)) (proj2 (log_get_iff _ _ _) (conj B1 B3))) as E. congruence.
Qed.

(** The theorems are not vacuous: a run in which a command is committed by a
    quorum, applied by the leader and a follower, and the leader changes. *)
Example completeness_nontrivial :
  let w := net_run (net_init [0; 1; 2])
             [ATimeout 0; ADeliver 0%nat; ADeliver 1%nat; ASubmit 0 7; AHeartbeat 0; ADeliver 4%nat; ADeliver 4%nat;
              AHeartbeat 0; ADeliver 5%nat; ATimeout 2; ADeliver 7%nat; ADeliver 7%nat] in
  role (nodes w 0) = Leader /\ term (nodes w 0) = 1 /\ commit (nodes w 0) = 1 /\ applied (nodes w 0) = [(1, 7)] /\
  role (nodes w 2) = Leader /\ term (nodes w 2) = 2 /\ log (nodes w 2) = [(1, 7)] /\ applied (nodes w 2) = [(1, 7)].
Proof. vm_compute. repeat split. Qed.
