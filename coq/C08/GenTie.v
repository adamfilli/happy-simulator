(** C08 — tie between components/queue_policy.py and the policy model, through
    the REGENERATED translation [Gen/QueuePolicyGen.v] (py2coq): FIFOQueue,
    LIFOQueue, _PriorityEntry (its dataclass order) and PriorityQueue.

    Code objects hold item ids (the policies never look inside an item);
    [fifo_obj] / [lifo_obj] / [prio_obj] build the code object of a model state
    (the model keeps a LIFO stack newest first, the code appends on the right;
    the model heap is a list sorted by (key, insert order), which is what the
    translation renders [heapq] as).  Every tie lemma says: one operation of the
    translated class on the object of a model state yields the object of the
    model's next state and the model's observation, and never raises. *)
From HS Require Import Base.Prelude Base.PyLib C08.Model C08.Policies C08.PolicyThms Gen.QueuePolicyGen.
Local Open Scope Z_scope.

Definition fifo_obj (cap : option Z) (l : list item) : FIFOQueue := mkFIFOQueue cap (map iid l).
Definition lifo_obj (cap : option Z) (l : list item) : LIFOQueue := mkLIFOQueue cap (rev (map iid l)).
Definition enc (e : entry) : _PriorityEntry := mk_PriorityEntry (ekey e) (eord e) (iid (snd e)).
Definition prio_obj (cap : option Z) (ctr : Z) (h : list entry) : PriorityQueue :=
  mkPriorityQueue cap (map enc h) ctr.

Lemma cap_le_full cap n : py_cap_le cap n = cap_full cap n.
Proof. reflexivity. Qed.

Lemma zlen_len {A} (l : list A) : Z.of_nat (length l) = zlen l.
Proof. reflexivity. Qed.

Lemma nonempty_test {A} (l : list A) :
  negb (match l with [] => true | _ => false end) = match l with [] => false | _ => true end.
Proof. destruct l; reflexivity. Qed.

Lemma tie_fifo_push cap l it balk :
  let '(s', ok) := pol_push balk it (PFifo cap l) in
  exists l', s' = PFifo cap l' /\ FIFOQueue_push (fifo_obj cap l) (iid it) = (fifo_obj cap l', ok).
Proof.
  cbn [pol_push]. unfold FIFOQueue_push, FIFOQueue_capacity, fifo_obj. cbn.
  change py_cap_le with cap_full; rewrite map_length. fold (zlen l).
  destruct (cap_full cap (zlen l)); eexists; split; try reflexivity.
  cbn. now rewrite map_app.
Qed.

Lemma tie_fifo_pop cap l now :
  let '(s', r, ex) := pol_pop now (PFifo cap l) in
  ex = [] /\ exists l', s' = PFifo cap l' /\
  FIFOQueue_pop (fifo_obj cap l) = Some (fifo_obj cap l', option_map iid r).
Proof.
  cbn [pol_pop]. unfold FIFOQueue_pop, fifo_obj. destruct l as [|it l]; cbn; split; try reflexivity; eexists; split; reflexivity.
Qed.

Lemma tie_fifo_read cap l :
  FIFOQueue_peek (fifo_obj cap l) = Some (option_map iid (hd_error l))
  /\ FIFOQueue___len__ (fifo_obj cap l) = pol_len (PFifo cap l)
  /\ FIFOQueue_is_empty (fifo_obj cap l) = (pol_len (PFifo cap l) =? 0)
  /\ FIFOQueue_capacity (fifo_obj cap l) = cap.
Proof.
  unfold FIFOQueue_peek, FIFOQueue___len__, FIFOQueue_is_empty, FIFOQueue_capacity, fifo_obj. cbn [FIFOQueue__queue FIFOQueue__capacity pol_len].
  rewrite map_length. repeat split. destruct l as [|it l]; reflexivity.
Qed.

Lemma tie_lifo_push cap l it balk :
  let '(s', ok) := pol_push balk it (PLifo cap l) in
  exists l', s' = PLifo cap l' /\ LIFOQueue_push (lifo_obj cap l) (iid it) = (lifo_obj cap l', ok).
Proof.
  cbn [pol_push]. unfold LIFOQueue_push, LIFOQueue_capacity, lifo_obj. cbn [LIFOQueue__queue LIFOQueue__capacity].
  change py_cap_le with cap_full; rewrite rev_length, map_length. fold (zlen l).
  destruct (cap_full cap (zlen l)); eexists; split; try reflexivity.
Qed.

Lemma tie_lifo_pop cap l now :
  let '(s', r, ex) := pol_pop now (PLifo cap l) in
  ex = [] /\ exists l', s' = PLifo cap l' /\
  LIFOQueue_pop (lifo_obj cap l) = Some (lifo_obj cap l', option_map iid r).
Proof.
  cbn [pol_pop]. unfold LIFOQueue_pop, lifo_obj. cbn [LIFOQueue__queue].
  rewrite py_pop_last_rev.
  destruct l as [|it l]; cbn [map]; split; try reflexivity; eexists; (split; [reflexivity|]).
  - reflexivity.
  - cbn [rev]. now destruct (rev (map iid l)).
Qed.

Lemma py_index_snoc {A} (l : list A) x : py_index (l ++ [x]) (-1) = Some x.
Proof.
  unfold py_index. rewrite app_length. cbn [length]. set (n := length l).
  replace (-1 <? 0) with true by reflexivity.
  replace ((-1 + Z.of_nat (n + 1) <? 0) || (-1 + Z.of_nat (n + 1) >=? Z.of_nat (n + 1))) with false by lia.
  replace (Z.to_nat (-1 + Z.of_nat (n + 1))) with n by lia.
  rewrite nth_error_app2 by (unfold n; lia). unfold n. now rewrite Nat.sub_diag.
Qed.

Lemma tie_lifo_read cap l :
  LIFOQueue_peek (lifo_obj cap l) = Some (option_map iid (hd_error l))
  /\ LIFOQueue___len__ (lifo_obj cap l) = pol_len (PLifo cap l)
  /\ LIFOQueue_is_empty (lifo_obj cap l) = (pol_len (PLifo cap l) =? 0)
  /\ LIFOQueue_capacity (lifo_obj cap l) = cap.
Proof.
  unfold LIFOQueue_peek, LIFOQueue___len__, LIFOQueue_is_empty, LIFOQueue_capacity, lifo_obj. cbn [LIFOQueue__queue LIFOQueue__capacity pol_len].
  rewrite rev_length, map_length. repeat split. destruct l as [|it l]; [reflexivity|].
  cbn [map rev]. rewrite py_index_snoc. now destruct (rev (map iid l)).
Qed.

(** The order [@dataclass(order=True)] generates for _PriorityEntry is the
    model's heap order on (key, insert order); the item takes no part. *)
Lemma tie_entry_lt k o it e :
  _PriorityEntry___lt__ (enc (k, o, it)) (enc e) = entry_ltb k o e.
Proof. exact (entry_ltb_lex k o e). Qed.

Lemma heappush_map {A} (f : entry -> A) (lt : A -> A -> bool) :
  (forall k o it e, lt (f (k, o, it)) (f e) = entry_ltb k o e) ->
  forall k o it h, py_heappush lt (map f h) (f (k, o, it)) = map f (ins k o it h).
Proof.
  intros Hlt k o it. induction h as [|e h IH]; cbn [map py_heappush ins]; [reflexivity|].
  rewrite Hlt. destruct (entry_ltb k o e); cbn [map]; [reflexivity|]. now rewrite IH.
Qed.

Lemma tie_heappush k o it h :
  py_heappush _PriorityEntry___lt__ (map enc h) (enc (k, o, it)) = map enc (ins k o it h).
Proof. exact (heappush_map enc _ tie_entry_lt k o it h). Qed.

(** [push]: the code's [_get_priority(item)] is the item's priority key. *)
Lemma tie_prio_push cap ctr h it balk :
  let '(s', ok) := pol_push balk it (PPrio cap ctr h) in
  exists ctr' h', s' = PPrio cap ctr' h' /\
  PriorityQueue_push (prio_obj cap ctr h) (iid it) (iprio it) = (prio_obj cap ctr' h', ok).
Proof.
  cbn [pol_push]. unfold PriorityQueue_push, PriorityQueue_capacity, prio_obj.
  cbn [PriorityQueue__heap PriorityQueue__capacity PriorityQueue__insert_counter].
  change py_cap_le with cap_full; rewrite map_length. fold (zlen h).
  destruct (cap_full cap (zlen h)); do 2 eexists; split; try reflexivity.
  cbn. change (mk_PriorityEntry (iprio it) ctr (iid it)) with (enc (iprio it, ctr, it)).
  now rewrite tie_heappush.
Qed.

Lemma tie_prio_pop cap ctr h now :
  let '(s', r, ex) := pol_pop now (PPrio cap ctr h) in
  ex = [] /\ exists h', s' = PPrio cap ctr h' /\
  PriorityQueue_pop (prio_obj cap ctr h) = Some (prio_obj cap ctr h', option_map iid r).
Proof.
  cbn [pol_pop]. unfold PriorityQueue_pop, prio_obj. destruct h as [|[[k o] it] h]; cbn; split; try reflexivity; eexists; split; reflexivity.
Qed.

Lemma tie_prio_read cap ctr h :
  PriorityQueue_peek (prio_obj cap ctr h) = Some (option_map (fun e : entry => iid (snd e)) (hd_error h))
  /\ PriorityQueue___len__ (prio_obj cap ctr h) = pol_len (PPrio cap ctr h)
  /\ PriorityQueue_is_empty (prio_obj cap ctr h) = (pol_len (PPrio cap ctr h) =? 0)
  /\ PriorityQueue_capacity (prio_obj cap ctr h) = cap.
Proof.
  unfold PriorityQueue_peek, PriorityQueue___len__, PriorityQueue_is_empty, PriorityQueue_capacity, prio_obj.
  cbn [PriorityQueue__heap PriorityQueue__capacity pol_len]. rewrite map_length. repeat split.
  destruct h as [|[[k o] it] h]; reflexivity.
Qed.

(** One step of a code object under a model operation ([OPush _ it]: push the
    item's id, for PriorityQueue with [_get_priority] returning [iprio it];
    [OPop _]: pop), [None] when the translated method raises. *)
Definition fifo_code_step (q : FIFOQueue) (o : pop_op) : option (FIFOQueue * pobs) :=
  match o with
  | OPush _ it => let '(q', ok) := FIFOQueue_push q (iid it) in Some (q', (ok, None, []))
  | OPop _ => match FIFOQueue_pop q with Some (q', r) => Some (q', (true, r, [])) | None => None end
  end.

Definition lifo_code_step (q : LIFOQueue) (o : pop_op) : option (LIFOQueue * pobs) :=
  match o with
  | OPush _ it => let '(q', ok) := LIFOQueue_push q (iid it) in Some (q', (ok, None, []))
  | OPop _ => match LIFOQueue_pop q with Some (q', r) => Some (q', (true, r, [])) | None => None end
  end.

Definition prio_code_step (q : PriorityQueue) (o : pop_op) : option (PriorityQueue * pobs) :=
  match o with
  | OPush _ it => let '(q', ok) := PriorityQueue_push q (iid it) (iprio it) in Some (q', (ok, None, []))
  | OPop _ => match PriorityQueue_pop q with Some (q', r) => Some (q', (true, r, [])) | None => None end
  end.

Fixpoint code_run {Q} (step : Q -> pop_op -> option (Q * pobs)) (q : Q) (ops : list pop_op) : option (Q * list pobs) :=
  match ops with
  | [] => Some (q, [])
  | o :: r => match step q o with
              | None => None
              | Some (q1, ob) => match code_run step q1 r with
                                 | None => None
                                 | Some (q2, obs) => Some (q2, ob :: obs)
                                 end
              end
  end.

(** The translated class with step function [step] simulates the policy states
    [mk x], held as the code objects [obj x]: same observation, the object of the
    model's next state, never raises; for one operation and for sequences. *)
Definition step_sim {X Q} (mk : X -> pol) (obj : X -> Q) (step : Q -> pop_op -> option (Q * pobs)) : Prop :=
  forall x o, exists x', pol_step (mk x) o = (mk x', snd (pol_step (mk x) o))
                         /\ step (obj x) o = Some (obj x', snd (pol_step (mk x) o)).

Definition run_sim {X Q} (mk : X -> pol) (obj : X -> Q) (step : Q -> pop_op -> option (Q * pobs)) : Prop :=
  forall ops x, exists x', pol_run (mk x) ops = (mk x', snd (pol_run (mk x) ops))
                           /\ code_run step (obj x) ops = Some (obj x', snd (pol_run (mk x) ops)).

Lemma code_run_sim {X Q} (mk : X -> pol) (obj : X -> Q) step : step_sim mk obj step -> run_sim mk obj step.
Proof.
  intros Hstep ops. induction ops as [|o ops IH]; intros x; [now exists x|].
  destruct (Hstep x o) as (x1 & E1 & C1). destruct (IH x1) as (x2 & E2 & C2).
  exists x2. cbn [pol_run code_run]. rewrite C1, E1, C2, E2. split; reflexivity.
Qed.

(** A tie for push and a tie for pop give the simulation of one step;
    [fifo_code_step], [lifo_code_step] and [prio_code_step] are the step function
    below at the push and pop of their class. *)
Lemma step_sim_of {X Q} (mk : X -> pol) (obj : X -> Q) (push : Q -> item -> Q * bool) (pop : Q -> option (Q * option Z)) :
  (forall x it balk, let '(s', ok) := pol_push balk it (mk x) in
     exists x', s' = mk x' /\ push (obj x) it = (obj x', ok)) ->
  (forall x now, let '(s', r, ex) := pol_pop now (mk x) in
     ex = [] /\ exists x', s' = mk x' /\ pop (obj x) = Some (obj x', option_map iid r)) ->
  step_sim mk obj (fun q o => match o with
                              | OPush _ it => let '(q', ok) := push q it in Some (q', (ok, None, []))
                              | OPop _ => match pop q with Some (q', r) => Some (q', (true, r, [])) | None => None end
                              end).
Proof.
  intros Hpush Hpop x [balk it|now]; cbn [pol_step].
  - specialize (Hpush x it balk). destruct (pol_push balk it (mk x)) as [s' ok].
    destruct Hpush as (x' & -> & E). exists x'. rewrite E. split; reflexivity.
  - specialize (Hpop x now). destruct (pol_pop now (mk x)) as [[s' r] ex].
    destruct Hpop as (-> & x' & -> & E). exists x'. rewrite E. split; reflexivity.
Qed.

Lemma fifo_step_sim cap : step_sim (PFifo cap) (fifo_obj cap) fifo_code_step.
Proof.
  exact (step_sim_of _ _ (fun q it => FIFOQueue_push q (iid it)) FIFOQueue_pop
           (fun l it balk => tie_fifo_push cap l it balk) (tie_fifo_pop cap)).
Qed.

Lemma lifo_step_sim cap : step_sim (PLifo cap) (lifo_obj cap) lifo_code_step.
Proof.
  exact (step_sim_of _ _ (fun q it => LIFOQueue_push q (iid it)) LIFOQueue_pop
           (fun l it balk => tie_lifo_push cap l it balk) (tie_lifo_pop cap)).
Qed.

(** For PriorityQueue the state is the pair (insert counter, heap). *)
Lemma prio_step_sim cap :
  step_sim (fun x => PPrio cap (fst x) (snd x)) (fun x => prio_obj cap (fst x) (snd x)) prio_code_step.
Proof.
  apply (step_sim_of _ _ (fun q it => PriorityQueue_push q (iid it) (iprio it)) PriorityQueue_pop).
  - intros [ctr h] it balk. cbn [fst snd]. pose proof (tie_prio_push cap ctr h it balk) as T.
    destruct (pol_push balk it (PPrio cap ctr h)) as [s' ok]. destruct T as (ctr' & h' & -> & E). now exists (ctr', h').
  - intros [ctr h] now. cbn [fst snd]. pose proof (tie_prio_pop cap ctr h now) as T.
    destruct (pol_pop now (PPrio cap ctr h)) as [[s' r] ex]. destruct T as (-> & h' & -> & E).
    split; [reflexivity|]. now exists (ctr, h').
Qed.

Lemma fifo_run_sim cap : run_sim (PFifo cap) (fifo_obj cap) fifo_code_step.
Proof. exact (code_run_sim _ _ _ (fifo_step_sim cap)). Qed.

Lemma lifo_run_sim cap : run_sim (PLifo cap) (lifo_obj cap) lifo_code_step.
Proof. exact (code_run_sim _ _ _ (lifo_step_sim cap)). Qed.

Lemma prio_run_sim cap :
  run_sim (fun x => PPrio cap (fst x) (snd x)) (fun x => prio_obj cap (fst x) (snd x)) prio_code_step.
Proof. exact (code_run_sim _ _ _ (prio_step_sim cap)). Qed.

Definition mkit (i : Z) : item := MkItem i 0 0 0 0.

Lemma map_iid_mkit ids : map iid (map mkit ids) = ids.
Proof. induction ids as [|i r IH]; cbn; [reflexivity|]. now rewrite IH. Qed.

Theorem code_fifo_order : forall ops cap ids,
  exists q' obs, code_run fifo_code_step (mkFIFOQueue cap ids) ops = Some (q', obs)
  /\ ids ++ accepted_ids ops obs = popped_ids ops obs ++ FIFOQueue__queue q'
  /\ FIFOQueue__capacity q' = cap
  /\ (le_cap (zlen ids) cap -> le_cap (FIFOQueue___len__ q') cap).
Proof.
  intros ops cap ids. destruct (fifo_run_sim cap ops (map mkit ids)) as (l' & E & C).
  unfold fifo_obj in C. rewrite map_iid_mkit in C. do 2 eexists. split; [exact C|].
  destruct (pol_run (PFifo cap (map mkit ids)) ops) as [s' obs] eqn:Er. cbn [snd] in *. inversion E; subst s'.
  pose proof (fifo_order _ _ _ _ _ Er) as F. rewrite map_iid_mkit in F. cbn [pol_ids] in F.
  repeat split; [exact F|].
  intros Hc. destruct (tie_fifo_read cap l') as (_ & R & _). unfold fifo_obj in R. rewrite R.
  refine (policy_capacity _ _ _ _ _ Er). cbn [within_cap]. now rewrite zlen_map.
Qed.

(** The code's deque holds the newest id LAST, the model's stack first: [rev ids]. *)
Theorem code_lifo_order : forall ops cap ids,
  exists q' obs, code_run lifo_code_step (mkLIFOQueue cap ids) ops = Some (q', obs)
  /\ lifo_ok ops obs (rev ids)
  /\ LIFOQueue__capacity q' = cap
  /\ (le_cap (zlen ids) cap -> le_cap (LIFOQueue___len__ q') cap).
Proof.
  intros ops cap ids. destruct (lifo_run_sim cap ops (map mkit (rev ids))) as (l' & E & C).
  unfold lifo_obj in C. rewrite map_iid_mkit, rev_involutive in C. do 2 eexists. split; [exact C|].
  destruct (pol_run (PLifo cap (map mkit (rev ids))) ops) as [s' obs] eqn:Er. cbn [snd] in *. inversion E; subst s'.
  pose proof (lifo_order _ _ _ _ _ Er) as F. rewrite map_iid_mkit in F.
  repeat split; [exact F|].
  intros Hc. destruct (tie_lifo_read cap l') as (_ & R & _). unfold lifo_obj in R. rewrite R.
  refine (policy_capacity _ _ _ _ _ Er). cbn [within_cap]. unfold zlen in *. now rewrite map_length, rev_length.
Qed.

Theorem code_priority_order : forall ops cap,
  exists q' obs, code_run prio_code_step (mkPriorityQueue cap [] 0) ops = Some (q', obs)
  /\ PriorityQueue__capacity q' = cap
  /\ (le_cap 0 cap -> le_cap (PriorityQueue___len__ q') cap)
  /\ forall q'' x, PriorityQueue_pop q' = Some (q'', Some x) ->
       exists e, PriorityQueue__heap q' = e :: PriorityQueue__heap q'' /\ _PriorityEntry_item e = x
         /\ Forall (fun e' => _PriorityEntry___lt__ e e' = true) (PriorityQueue__heap q'').
Proof.
  intros ops cap. destruct (prio_run_sim cap ops (0, [])) as ([ctr h] & E & C). cbn [fst snd] in E, C.
  change (prio_obj cap 0 []) with (mkPriorityQueue cap [] 0) in C. do 2 eexists. split; [exact C|].
  destruct (pol_run (PPrio cap 0 []) ops) as [s' obs] eqn:Er. cbn [snd] in *. inversion E; subst s'.
  split; [reflexivity|]. split.
  { intros Hc. destruct (tie_prio_read cap ctr h) as (_ & -> & _).
    exact (policy_capacity _ _ _ _ (Hc : within_cap (PPrio cap 0 [])) Er). }
  intros q'' x Hp.
  pose proof (heap_order_inv _ _ _ _ (heap_inv_nil iprio : prio_inv (PPrio cap 0 [])) Er) as Hi.
  cbn [prio_inv] in Hi. unfold PriorityQueue_pop, prio_obj in Hp. cbn [PriorityQueue__heap] in Hp.
  destruct h as [|[[k o] it] h']; cbn in Hp; [discriminate|]. injection Hp as <- <-.
  destruct Hi as [[Hlt _] _]. unfold prio_obj. cbn [PriorityQueue__heap map].
  eexists. split; [reflexivity|]. split; [reflexivity|].
  apply Forall_map. revert Hlt. apply Forall_impl. intros e He.
  rewrite tie_entry_lt. now apply (entry_ltb_spec _ _ it).
Qed.
