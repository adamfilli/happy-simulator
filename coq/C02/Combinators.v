(** C02 — any_of / all_of as whole combinators over plain inputs ([input_of],
    [waiting_on]): one input of all_of resolving, and from it all_of resolving at
    the last input with every value in argument order, for ANY order in which
    the inputs resolve. *)
From HS Require Import Base.Prelude Engine.Engine Engine.Script C02.Process.
Local Open Scope Z_scope.

Definition fget (c : ictx) (f : Z) : fut := aget fut0 f (futs (ix_u c)).

(** [f] is an unresolved, not directly awaited input whose only callback is [k]. *)
Definition input_of (c : ictx) (f : Z) (k : cb) : Prop :=
  f_resolved (fget c f) = false /\ f_parked (fget c f) = None /\ f_cbs (fget c f) = [k].

(** [comp] is an unresolved composite without callbacks of its own on which process [pid] waits. *)
Definition waiting_on (c : ictx) (comp pid : Z) (p : proc) : Prop :=
  f_resolved (fget c comp) = false /\ f_cbs (fget c comp) = [] /\ f_parked (fget c comp) = Some pid /\
  alookup pid (procs (ix_u c)) = Some p.

Lemma input_not_waited c f k comp pid p : input_of c f k -> waiting_on c comp pid p -> f <> comp.
Proof. intros (_ & I & _) (_ & _ & W & _) ->. rewrite I in W. discriminate. Qed.

Lemma waiting_on_set_fut c comp pid p f x : f <> comp ->
  waiting_on c comp pid p -> waiting_on (set_fut c f x) comp pid p.
Proof. intros Hne W. unfold waiting_on, fget. rewrite futs_set_fut_other by congruence. exact W. Qed.

Lemma resolve_waiting fuel now comp v c pid p : waiting_on c comp pid p ->
  resolve (S fuel) now comp v c = Some (wake now pid v p (set_fut c comp (mkFut true v None []))).
Proof. intros (W1 & W2 & W3 & W4). unfold fget in W2. rewrite (resolve_waited _ _ _ _ _ _ _ W1 W3 W4), W2. reflexivity. Qed.

(** all_of: one input resolving while others are still missing only records its value ... *)
Theorem all_of_input_recorded fuel now f v c comp idx res rem :
  f <> comp -> input_of c f (CbAll comp idx) -> f_resolved (fget c comp) = false ->
  aget ([], 0) comp (alls (ix_u c)) = (res, rem) -> rem <> 1 ->
  exists c', resolve (S (S fuel)) now f v c = Some c' /\ ix_new c' = ix_new c /\
    aget ([], 0) comp (alls (ix_u c')) = (set_nth (Z.to_nat idx) v res, rem - 1) /\
    procs (ix_u c') = procs (ix_u c) /\
    (forall g, g <> f -> fget c' g = fget c g).
Proof.
  intros Hne (I1 & I2 & I3) W A R. unfold fget in *.
  rewrite (resolve_input _ _ _ _ _ I1 I2), I3. cbn [fold_left].
  rewrite <- (futs_set_fut_other c f (mkFut true v None []) comp) in W by congruence.
  rewrite (all_of_callback_spec _ _ _ _ _ res rem W A).
  rewrite (proj2 (Z.eqb_neq (rem - 1) 0)) by (clear - R; lia).
  eexists. split; [reflexivity|]. split; [reflexivity|]. split; [apply aget_aset_same|]. split; [reflexivity|].
  intros g G. apply futs_set_fut_other, G.
Qed.

(** ... and the last one resolves the composite with the whole list and resumes the waiter. *)
Theorem all_of_last_input fuel now f v c comp idx res pid p :
  input_of c f (CbAll comp idx) -> waiting_on c comp pid p ->
  aget ([], 0) comp (alls (ix_u c)) = (res, 1) ->
  exists c' k, resolve (S (S fuel)) now f v c = Some c' /\
    ix_new c' = k :: ix_new c /\ ev_time k = now /\
    p_kind (ev_pay k) = KCont pid (VList (set_nth (Z.to_nat idx) v res)) /\
    f_resolved (fget c' comp) = true /\ f_value (fget c' comp) = VList (set_nth (Z.to_nat idx) v res).
Proof.
  intros I W A. pose proof (input_not_waited _ _ _ _ _ _ I W) as Hne. destruct I as (I1 & I2 & I3). unfold fget in *.
  pose proof (waiting_on_set_fut _ _ _ _ _ (mkFut true v None []) Hne W) as W'.
  rewrite (resolve_input _ _ _ _ _ I1 I2), I3. cbn [fold_left].
  rewrite (all_of_callback_spec _ _ _ _ _ res 1 (proj1 W') A).
  cbn [Z.sub Z.eqb Z.add Z.opp Z.pos_sub].
  rewrite (resolve_waiting _ _ _ _ _ pid p) by exact W'.
  eexists; eexists. split; [reflexivity|].
  rewrite ix_u_wake, futs_set_fut_same. repeat split.
Qed.

Definition rstep := (Z * Z * val)%type.       (* input future, its argument index, the value it resolves with *)

Fixpoint resolve_all (fuel : nat) (now : Z) (l : list rstep) (c : ictx) : option ictx :=
  match l with
  | [] => Some c
  | (f, _, v) :: r => match resolve fuel now f v c with Some c1 => resolve_all fuel now r c1 | None => None end
  end.

Lemma set_nth_length {A} n (x : A) l : length (set_nth n x l) = length l.
Proof. revert n; induction l as [|y r IH]; intros [|n]; cbn; auto. Qed.

Lemma nth_set_nth_same {A} n (x d : A) l : (n < length l)%nat -> nth n (set_nth n x l) d = x.
Proof. revert n; induction l as [|y r IH]; intros [|n] H; cbn in *; try lia; auto. apply IH. lia. Qed.

Lemma nth_set_nth_other {A} n m (x d : A) l : n <> m -> nth m (set_nth n x l) d = nth m l d.
Proof. revert n m; induction l as [|y r IH]; intros [|n] [|m] H; cbn; auto; try congruence. Qed.

(** What the all_of record holds once the inputs of [l] have resolved in that
    order: each value written at its argument position. *)
Definition recorded (l : list rstep) (res : list val) : list val :=
  fold_left (fun r (s : rstep) => set_nth (Z.to_nat (snd (fst s))) (snd s) r) l res.

Lemma recorded_length l : forall res, length (recorded l res) = length res.
Proof. induction l as [|s r IH]; intros res; cbn; [reflexivity|]. rewrite IH. apply set_nth_length. Qed.

Lemma recorded_other l m : forall res,
  ~ In m (map (fun s : rstep => Z.to_nat (snd (fst s))) l) -> nth m (recorded l res) VNone = nth m res VNone.
Proof.
  induction l as [|s r IH]; intros res Hm; cbn; [reflexivity|].
  rewrite IH by (intros X; apply Hm; right; exact X).
  apply nth_set_nth_other. intros X. apply Hm. left. exact X.
Qed.

Lemma recorded_same l : forall res f idx v,
  NoDup (map (fun s : rstep => Z.to_nat (snd (fst s))) l) -> In (f, idx, v) l ->
  (Z.to_nat idx < length res)%nat -> nth (Z.to_nat idx) (recorded l res) VNone = v.
Proof.
  induction l as [|s r IH]; intros res f idx v ND X Hlt; [destruct X|].
  inversion ND as [|? ? Ni ND']; subst. destruct X as [->|X]; cbn.
  - rewrite (recorded_other _ _ _ Ni). apply nth_set_nth_same, Hlt.
  - apply (IH _ f); [exact ND'|exact X|]. rewrite set_nth_length. exact Hlt.
Qed.

(** The interpreter's part: whatever the order in which the inputs resolve
    (each once, at any instants — here within one cascade for brevity of the
    state threading), all_of resolves exactly at the last of them, with
    [recorded l res].  Neither distinct positions nor bounds are needed here;
    an input is never the composite itself ([input_not_waited]). *)
Theorem all_of_resolves_recorded fuel now comp pid p : forall l c res,
  l <> [] -> NoDup (map (fun s : rstep => fst (fst s)) l) ->
  (forall f idx v, In (f, idx, v) l -> input_of c f (CbAll comp idx)) ->
  waiting_on c comp pid p ->
  aget ([], 0) comp (alls (ix_u c)) = (res, Z.of_nat (length l)) ->
  exists c' k, resolve_all (S (S fuel)) now l c = Some c' /\
    ix_new c' = k :: ix_new c /\ ev_time k = now /\ p_kind (ev_pay k) = KCont pid (VList (recorded l res)) /\
    f_resolved (fget c' comp) = true /\ f_value (fget c' comp) = VList (recorded l res).
Proof.
  induction l as [|[[f idx] v] r IH]; intros c res Hne ND Hin W A; [congruence|].
  inversion ND as [|? ? Nf ND']; subst.
  pose proof (Hin f idx v (or_introl eq_refl)) as H2. pose proof (input_not_waited _ _ _ _ _ _ H2 W) as H1.
  cbn [resolve_all recorded fold_left fst snd]. destruct r as [|s r'].
  - destruct (all_of_last_input fuel now f v c comp idx res pid p H2 W A) as (c' & k & -> & E).
    exists c', k. split; [reflexivity|exact E].
  - (* an earlier input: recorded, the composite stays pending, the other inputs are untouched *)
    assert (Hrem : Z.of_nat (length ((f, idx, v) :: s :: r')) <> 1) by (clear - r'; cbn [length]; lia).
    set (l' := s :: r') in *.
    destruct W as (W1 & W2 & W3 & W4).
    destruct (all_of_input_recorded fuel now f v c comp idx res _ H1 H2 W1 A Hrem) as (c1 & -> & E1 & E2 & E3 & E4).
    rewrite <- E1. apply IH.
    + discriminate.
    + exact ND'.
    + intros f0 idx0 v0 Hx. unfold input_of. rewrite E4; [exact (Hin f0 idx0 v0 (or_intror Hx))|].
      intros ->. apply Nf, (in_map (fun s : rstep => fst (fst s)) l' _ Hx).
    + unfold waiting_on. rewrite E4, E3 by congruence. auto.
    + rewrite E2. f_equal. clear - l'. cbn [length]. lia.
Qed.

Example all_of_any_order_satisfiable :
  let u := mkU [] [(7, mkProc [] [] 0 0 false (-1))] 8
             [(1, mkFut false VNone None [CbAll 3 0]); (2, mkFut false VNone None [CbAll 3 1]); (3, mkFut false VNone (Some 7) [])] 4
             [(3, ([VNone; VNone], 2))] [] 0 [] [] [] in
  match resolve_all 5 100 [(2, 1, VInt 20); (1, 0, VInt 10)] (mkI u 0 [] []) with
  | Some c' => f_value (fget c' 3) = VList [VInt 10; VInt 20] /\ length (ix_new c') = 1%nat
  | None => False
  end.
Proof. vm_compute. split; reflexivity. Qed.
