(** Sliding window log (exact-rational instance; everything but the ns -> s -> ns
    round trip of time_until_available is integer arithmetic). *)
From HS Require Import Base.Prelude Base.Lists C10.Model C10.QFacts.
Local Open Scope Z_scope.

Section SW.
  Variables wn n : Z.                  (* window in ns, max_requests *)
  Notation step := (sw_step Qops wn n).
  Notation acquire := (sw_acquire wn n).
  Notation tua := (sw_tua Qops wn n).

  Definition inwin (t x : Z) : bool := t - wn <=? x.

  Lemma prune_split c log : exists old, log = old ++ sw_prune c log /\ Forall (fun x => x < c) old.
  Proof.
    induction log as [|x r IH]; cbn; [exists []; auto|].
    destruct (Z.ltb_spec x c).
    - destruct IH as (old & E & F). exists (x :: old). split; [cbn; congruence|constructor; auto].
    - exists []. auto.
  Qed.

  Lemma filter_none c old : Forall (fun x => x < c) old -> filter (fun x => c <=? x) old = [].
  Proof.
    induction 1; cbn; auto. destruct (Z.leb_spec c x); [lia|auto].
  Qed.


  Lemma prune_head c log : match sw_prune c log with [] => True | x :: _ => c <= x end.
  Proof. induction log as [|x r IH]; cbn; auto. destruct (Z.ltb_spec x c); auto. Qed.

  Lemma prune_id c log : match log with [] => True | x :: _ => c <= x end -> sw_prune c log = log.
  Proof. destruct log as [|x r]; cbn; auto. intros H. destruct (Z.ltb_spec x c); [lia|auto]. Qed.

  Lemma prune_idem c log : sw_prune c (sw_prune c log) = sw_prune c log.
  Proof. apply prune_id. apply prune_head. Qed.

  Lemma prune_length c log : (length (sw_prune c log) <= length log)%nat.
  Proof. induction log as [|x r IH]; cbn; auto. destruct (x <? c); cbn; lia. Qed.

  Lemma prune_drops c x r : x < c -> (length (sw_prune c (x :: r)) <= length r)%nat.
  Proof. intros H. cbn. destruct (Z.ltb_spec x c); [apply prune_length|lia]. Qed.

  Lemma tua_fst log t : fst (tua log t) = sw_prune (t - wn) log.
  Proof.
    unfold sw_tua. destruct (Z.of_nat (length (sw_prune (t - wn) log)) <? n); [reflexivity|].
    destruct (sw_prune (t - wn) log); reflexivity.
  Qed.

  Notation pruned log t := (sw_prune (t - wn) log).

  Lemma tua_cases log t :
    (Z.of_nat (length (pruned log t)) < n /\ tua log t = (pruned log t, 0)) \/
    (n <= Z.of_nat (length (pruned log t)) /\
     match pruned log t with
     | [] => tua log t = ([], -1)
     | x :: r => t - wn <= x /\ tua log t = (x :: r, guard (x + wn - t))
     end).
  Proof.
    unfold sw_tua. pose proof (prune_head (t - wn) log) as PH.
    destruct (Z.ltb_spec (Z.of_nat (length (sw_prune (t - wn) log))) n) as [L|L]; [left; auto|right].
    split; [exact L|]. destruct (sw_prune (t - wn) log) as [|x r]; [reflexivity|].
    cbn [secs nanos Qops]. rewrite qnanos_qsecs. auto.
  Qed.

  Lemma acquire_cases log t :
    (Z.of_nat (length (pruned log t)) < n /\ acquire log t = (pruned log t ++ [t], true)) \/
    (n <= Z.of_nat (length (pruned log t)) /\ acquire log t = (pruned log t, false)).
  Proof.
    unfold sw_acquire. destruct (Z.ltb_spec (Z.of_nat (length (sw_prune (t - wn) log))) n); auto.
  Qed.

  (** Invariant: the granted times so far are [old ++ log] where everything in [old]
      is more than a window before [lo] (the earliest time of any later call). *)
  Definition sw_inv (gt log : list Z) (lo : Z) : Prop :=
    exists old, gt = old ++ log /\ Forall (fun x => x < lo - wn) old.

  Lemma inv_prune gt log lo t : sw_inv gt log lo -> lo <= t ->
    sw_inv gt (pruned log t) t /\ (length (filter (inwin t) gt) <= length (pruned log t))%nat.
  Proof.
    intros (old & E & F) Hlo. destruct (prune_split (t - wn) log) as (dr & Ed & Fd).
    assert (F' : Forall (fun x => x < t - wn) (old ++ dr)).
    { apply Forall_app. split; [|exact Fd]. eapply Forall_impl; [|exact F]. cbn. intros; lia. }
    assert (E' : gt = (old ++ dr) ++ pruned log t) by (rewrite <- app_assoc, <- Ed; exact E).
    split; [exists (old ++ dr); auto|].
    rewrite E', filter_app. unfold inwin at 1. rewrite (filter_none _ _ F'). apply filter_length_le.
  Qed.

  Lemma inv_step gt log lo o : sw_inv gt log lo -> lo <= time_of o ->
    let x := snd (step log o) in
    sw_inv (gt ++ (if granted o x =? 1 then [time_of o] else [])) (fst (step log o)) (time_of o) /\
    (granted o x = 1 -> (length (filter (inwin (time_of o)) gt) < Z.to_nat n)%nat).
  Proof.
    intros Hinv Hlo. destruct (inv_prune gt log lo _ Hinv Hlo) as [INV C].
    destruct o as [t|t]; cbn [sw_step time_of granted] in *.
    - destruct (acquire_cases log t) as [[L ->]|[L ->]]; cbn [fst snd b2z Z.eqb Pos.eqb].
      + split; [|intros _; lia]. destruct INV as (o2 & E2 & F2). exists o2. split; [rewrite E2, app_assoc; reflexivity|exact F2].
      + rewrite app_nil_r. split; [exact INV|discriminate].
    - rewrite tua_fst. cbn [Z.eqb]. rewrite app_nil_r. split; [exact INV|discriminate].
  Qed.

  (** Never more than N in any window that ends at a grant (hence in any window). *)
  Fixpoint windows_ok (seen rest : list Z) : Prop :=
    match rest with
    | [] => True
    | t :: r => (length (filter (inwin t) seen) + 1 <= Z.to_nat n)%nat /\ windows_ok (seen ++ [t]) r
    end.

  Lemma run_windows ops : forall gt log lo, sw_inv gt log lo -> nondecr lo ops ->
    windows_ok gt (run_times step log ops).
  Proof.
    induction ops as [|o r IH]; intros gt log lo Hinv Hnd; [exact I|]. destruct Hnd as [Hlo Hnd].
    destruct (inv_step gt log lo o Hinv Hlo) as [I1 G1]. specialize (IH _ _ _ I1 Hnd). rewrite run_times_cons.
    destruct (granted o (snd (step log o)) =? 1) eqn:EG; cbn [app windows_ok] in *.
    - split; [apply Z.eqb_eq in EG; specialize (G1 EG); lia|exact IH].
    - rewrite app_nil_r in IH. exact IH.
  Qed.

  Theorem sw_never_over_admits ops : sorted ops -> windows_ok [] (run_times step [] ops).
  Proof.
    intros Hs. destruct ops as [|o r]; [exact I|].
    apply (run_windows (o :: r) [] [] (time_of o)).
    - exists []. auto.
    - cbn. split; [lia|exact Hs].
  Qed.

  Lemma windows_ok_app a : forall seen b,
    windows_ok seen (a ++ b) <-> windows_ok seen a /\ windows_ok (seen ++ a) b.
  Proof.
    induction a as [|t a IH]; intros seen b; cbn [app windows_ok]; [rewrite app_nil_r; tauto|].
    rewrite IH. rewrite <- app_assoc. cbn [app]. tauto.
  Qed.

  Definition in_range (a x : Z) : bool := (a <=? x) && (x <=? a + wn).

  Lemma range_le_inwin a t l : t <= a + wn ->
    (length (filter (in_range a) l) <= length (filter (inwin t) l))%nat.
  Proof.
    intros Ht. induction l as [|x l IH]; cbn [filter]; [lia|].
    assert (IMP : in_range a x = true -> inwin t x = true) by (unfold in_range, inwin; lia).
    destruct (in_range a x); [rewrite (IMP eq_refl)|destruct (inwin t x)]; cbn [length]; lia.
  Qed.

  (** ... in the usual form: at most N grants in ANY closed window [a, a + w]. *)
  Lemma windows_any ts a : windows_ok [] ts -> (length (filter (in_range a) ts) <= Z.to_nat n)%nat.
  Proof.
    induction ts as [|t ts IH] using rev_ind; [cbn; lia|].
    intros H. apply windows_ok_app in H. destruct H as [H1 H2]. cbn [app windows_ok] in H2. destruct H2 as [H2 _].
    rewrite filter_app, app_length. cbn [filter].
    destruct (in_range a t) eqn:E; cbn [length]; [|specialize (IH H1); lia].
    (* the range lies inside the window ending at [t] *)
    assert (Ht : t <= a + wn) by (unfold in_range in E; lia). pose proof (range_le_inwin a t ts Ht). lia.
  Qed.

  Theorem sw_tua_zero_acquires log now log1 : tua log now = (log1, 0) ->
    snd (acquire log now) = true /\ snd (acquire log1 now) = true.
  Proof.
    intros E. destruct (tua_cases log now) as [[L T]|[L T]].
    - rewrite T in E. inversion E; subst log1. split.
      + destruct (acquire_cases log now) as [[_ ->]|[? _]]; [reflexivity|lia].
      + destruct (acquire_cases (pruned log now) now) as [[_ ->]|[C _]]; [reflexivity|]. rewrite prune_idem in C. lia.
    - exfalso. destruct (sw_prune (now - wn) log) as [|x r]; [rewrite T in E; discriminate|].
      destruct T as [Hx T]. rewrite T in E. inversion E. pose proof (guard_pos (x + wn - now) ltac:(lia)). lia.
  Qed.

  Definition sw_full (log : list Z) (D : Z) : Prop :=
    n <= Z.of_nat (length log) /\ match log with [] => True | x :: _ => D - wn <= x + 1 end.

  Lemma full_step log D o : sw_full log D -> time_of o < D ->
    fst (step log o) = log /\ granted o (snd (step log o)) = 0.
  Proof.
    intros [L H] Ht.
    assert (P : sw_prune (time_of o - wn) log = log) by (apply prune_id; destruct log; auto; lia).
    destruct o as [t|t]; cbn [sw_step time_of granted] in *; [|rewrite tua_fst; auto].
    destruct (acquire_cases log t) as [[C _]|[_ ->]]; rewrite P in *; [lia|auto].
  Qed.

  Theorem sw_tua_positive_blocks log now log1 w ops :
    tua log now = (log1, w) -> 0 < w -> Forall (fun o => time_of o < now + w) ops ->
    snd (run_count granted step log1 ops) = 0.
  Proof.
    intros E Hw. apply (run_count_zero granted step time_of (fun s => s = log1)); [|reflexivity].
    intros s o -> Ho. apply (full_step log1 (now + w)); [|exact Ho].
    destruct (tua_cases log now) as [[_ T]|[L T]]; [rewrite T in E; inversion E; lia|].
    destruct (sw_prune (now - wn) log) as [|x r]; [rewrite T in E; inversion E; lia|].
    destruct T as [Hx T]. rewrite T in E. inversion E; subst. split; [exact L|].
    pose proof (guard_cases (x + wn - now)). lia.
  Qed.

  Hypothesis n_pos : 1 <= n.

  Lemma tua_free lg t : Z.of_nat (length lg) < n -> tua lg t = (pruned lg t, 0).
  Proof.
    intros H. pose proof (prune_length (t - wn) lg). destruct (tua_cases lg t) as [[_ T]|[L _]]; [exact T|lia].
  Qed.

  Lemma tua_gone x r t : x + wn < t -> Z.of_nat (length (x :: r)) <= n ->
    tua (x :: r) t = (pruned (x :: r) t, 0) /\ Z.of_nat (length (pruned (x :: r) t)) < n.
  Proof.
    intros Hx Hl. pose proof (prune_drops (t - wn) x r ltac:(lia)) as PD. cbn [length] in Hl.
    assert (L : Z.of_nat (length (pruned (x :: r) t)) < n) by lia. split; [|exact L].
    destruct (tua_cases (x :: r) t) as [[_ T]|[C _]]; [exact T|lia].
  Qed.

  (** From a full log whose head [x] is still inside the window at [t]: the wait ends when [x] leaves the
      window, or is the 1 ns still missing at [x + wn] itself (the window is closed). *)
  Lemma full_progress x r t : t - wn <= x -> Z.of_nat (length (x :: r)) = n ->
    let w1 := guard (x + wn - t) in
    let '(l2, w2) := tua (x :: r) (t + w1) in
    let '(l3, w3) := tua l2 (t + w1 + w2) in
    w3 = 0 /\ 0 <= w1 /\ 0 <= w2.
  Proof.
    intros Hx Ln w1. assert (Lxr : Z.of_nat (length (x :: r)) <= n) by lia.
    pose proof (guard_cases (x + wn - t)) as GC. fold w1 in GC.
    destruct (Z_lt_le_dec (x + wn) (t + w1)) as [A|A].
    - destruct (tua_gone x r (t + w1) A Lxr) as [-> F2]. rewrite Z.add_0_r, (tua_free _ _ F2). cbv beta iota. lia.
    - assert (PI : pruned (x :: r) (t + w1) = x :: r) by (apply prune_id; lia).
      destruct (tua_cases (x :: r) (t + w1)) as [[C _]|[_ T2]]; rewrite PI in *; [lia|].
      destruct T2 as [_ ->]. replace (x + wn - (t + w1)) with 0 by lia. change (guard 0) with 1.
      destruct (tua_gone x r (t + w1 + 1) ltac:(lia) Lxr) as [-> _]. cbv beta iota. lia.
  Qed.

  (** (a log never exceeds N in a reachable state: [sw_len_reachable]) *)
  Theorem sw_tua_progress log now : Z.of_nat (length log) <= n ->
    let '(l1, w1) := tua log now in
    let '(l2, w2) := tua l1 (now + w1) in
    let '(l3, w3) := tua l2 (now + w1 + w2) in
    w3 = 0 /\ 0 <= w1 /\ 0 <= w2.
  Proof.
    intros Hlen. pose proof (prune_length (now - wn) log) as PL.
    destruct (tua_cases log now) as [[L ->]|[L T]].
    - pose proof (prune_length (now - wn) (pruned log now)).
      rewrite Z.add_0_r, (tua_free _ now L), Z.add_0_r, tua_free; [cbv beta iota|]; lia.
    - destruct (sw_prune (now - wn) log) as [|x r]; [cbn [length] in L; lia|]. destruct T as [Hx ->].
      apply (full_progress x r now Hx). lia.
  Qed.
End SW.

Lemma sw_len_step wn n log o : (Z.of_nat (length log) <= n)%Z ->
  (Z.of_nat (length (fst (sw_step Qops wn n log o))) <= n)%Z.
Proof.
  intros H. pose proof (prune_length (time_of o - wn) log) as PL.
  destruct o as [t|t]; cbn [sw_step time_of] in *; [|rewrite tua_fst; lia].
  destruct (acquire_cases wn n log t) as [[L ->]|[L ->]]; cbn [fst]; [|lia].
  rewrite app_length. cbn [length]. lia.
Qed.

Theorem sw_len_reachable wn n ops : (0 <= n)%Z -> forall log, (Z.of_nat (length log) <= n)%Z ->
  (Z.of_nat (length (fst (run_count granted (sw_step Qops wn n) log ops))) <= n)%Z.
Proof.
  intros _. exact (run_count_inv granted (sw_step Qops wn n) (fun log => Z.of_nat (length log) <= n)%Z (sw_len_step wn n) ops).
Qed.

Example sw_example :
  run_times (sw_step Qops 1000 2) [] [Acq 0; Acq 0; Acq 5; Acq 1000; Acq 1001; Acq 1001] = [0; 0; 1001; 1001] /\
  snd (sw_tua Qops 1000 2 [0; 5] 5) = 995 /\ snd (sw_tua Qops 1000 2 [0; 5] 1000) = 1.
Proof. vm_compute. repeat split; congruence. Qed.
