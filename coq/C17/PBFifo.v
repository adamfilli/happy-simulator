(** C17 — primary-backup convergence, the part that does hold: when every link
    primary->backup delivers in send order and every backup store completes its
    puts in arrival order,
    all replicas hold exactly the primary's store once the system is quiescent —
    for every write sequence (repeated keys included), every mode, every number
    of backups, every interleaving otherwise. *)
From HS Require Import Base.Prelude C17.Model C17.ListSurgery C17.PBProofs C17.PBConv.
From Coq Require Import FinFun.
Local Open Scope Z_scope.

Definition entry : Type := (Z * Z * Z)%type.

Definition e_proc (p : proc) : list entry :=
  match p_pc p with PBPut k v sq _ => [(sq, k, v)] | _ => [] end.
(** writes inside the store.put of backup [n], oldest first *)
Definition putq (n : Z) (l : list proc) : list entry :=
  flat_map (fun p => if p_node p =? n then e_proc p else []) l.
Definition e_msg (b : Z) (m : msg) : list entry :=
  match m with MReplicate b' k v sq _ => if b' =? b then [(sq, k, v)] else [] | _ => [] end.
(** Replicate messages in flight to backup [b], in send order *)
Definition link (b : Z) (net : list msg) : list entry := flat_map (e_msg b) net.

Fixpoint first_link (b : Z) (net : list msg) : option msg :=
  match net with
  | [] => None
  | m :: r => match e_msg b m with [] => first_link b r | _ => Some m end
  end.
Fixpoint first_put (n : Z) (l : list proc) : option Z :=
  match l with
  | [] => None
  | p :: r => match (if p_node p =? n then e_proc p else []) with [] => first_put n r | _ => Some (p_id p) end
  end.

(** the step respects per-link FIFO delivery and per-store FIFO completion *)
Definition fifo_ok (s : state) (i : inp) : bool :=
  match i with
  | IStart _ (MReplicate b k v sq f) =>
      match first_link b (s_net s) with Some m => msg_eqb (MReplicate b k v sq f) m | None => false end
  | IStart _ _ => true
  | IResume pid =>
      match find_proc pid (s_procs s) with
      | Some p => match e_proc p with
                  | [] => true
                  | _ => match first_put (p_node p) (s_procs s) with Some q => q =? pid | None => false end
                  end
      | None => true
      end
  end.

Fixpoint run_fifo (c : cfg) (s : state) (sched : list inp) : option state :=
  match sched with
  | [] => Some s
  | i :: r => if fifo_ok s i then
                match step c s i with Some (s', _, _) => run_fifo c s' r | None => None end
              else None
  end.

(** The replication pipeline of backup [b]: what it has applied, what its store
    is putting, what is in flight to it are together, in this order, the
    primary's log. *)
Definition J (c : cfg) (s : state) : Prop :=
  forall b, In b (bids c) ->
    bs_log (s_bak s b) ++ putq b (s_procs s) ++ link b (s_net s) = ps_log (s_prim s).

Lemma msg_eqb_refl m : msg_eqb m m = true.
Proof. destruct m; cbn; rewrite ?Z.eqb_refl, ?eqb_reflx; reflexivity. Qed.

Lemma putq_app n l1 l2 : putq n (l1 ++ l2) = putq n l1 ++ putq n l2.
Proof. apply flat_map_app. Qed.
Lemma link_app b l1 l2 : link b (l1 ++ l2) = link b l1 ++ link b l2.
Proof. apply flat_map_app. Qed.

Definition e_put (n : Z) (p : proc) : list entry := if p_node p =? n then e_proc p else [].

Lemma putq_one n p : putq n [p] = e_put n p.
Proof. apply app_nil_r. Qed.

Lemma e_put_nil n p : e_proc p = [] -> e_put n p = [].
Proof. intros E. unfold e_put. rewrite E. destruct (p_node p =? n); reflexivity. Qed.

Lemma e_put_other n p : p_node p <> n -> e_put n p = [].
Proof. intros H. unfold e_put. apply Z.eqb_neq in H. rewrite H. reflexivity. Qed.

Lemma putq_set_same n pid c l p :
  find_proc pid l = Some p -> e_put n {| p_id := pid; p_node := p_node p; p_pc := c |} = e_put n p ->
  putq n (set_pc pid c l) = putq n l.
Proof. exact tset_proj_same. Qed.

Lemma putq_set_first n pid c l p :
  find_proc pid l = Some p -> e_proc {| p_id := pid; p_node := p_node p; p_pc := c |} = [] ->
  (match first_put n l with Some q => q =? pid | None => false end) = true ->
  putq n l = e_put n p ++ putq n (set_pc pid c l).
Proof. intros F E. exact (tset_proj_first F (e_put_nil n _ E)). Qed.

Lemma link_none b k v sq f l : ~ In b l -> link b (map (fun b' => MReplicate b' k v sq f) l) = [].
Proof.
  induction l as [|x r IH]; cbn; intros N; [reflexivity|].
  destruct (Z.eqb_spec x b) as [->|_]; [destruct N; now left|]. apply IH. intros H. apply N. now right.
Qed.

Lemma link_msgs b k v sq f l :
  NoDup l -> In b l -> link b (map (fun b' => MReplicate b' k v sq f) l) = [(sq, k, v)].
Proof.
  intros ND Hin. destruct (in_split _ _ Hin) as (l1 & l2 & ->). apply NoDup_remove_2 in ND.
  assert (N1 : ~ In b l1) by (intros H; apply ND, in_or_app; auto).
  assert (N2 : ~ In b l2) by (intros H; apply ND, in_or_app; auto).
  rewrite map_app, link_app, (link_none b k v sq f l1 N1). cbn [map link flat_map e_msg app].
  rewrite Z.eqb_refl. cbn [app]. f_equal. exact (link_none b k v sq f l2 N2).
Qed.

Lemma bids_nodup c : NoDup (bids c).
Proof.
  unfold bids. apply Injective_map_NoDup; [intros a b H; lia|apply seq_NoDup].
Qed.

Lemma j_init c : J c init.
Proof. intros b _. reflexivity. Qed.

(** [J] looks at the logs, the put queues and the links only. *)
Lemma j_frame c s s' :
  J c s -> ps_log (s_prim s') = ps_log (s_prim s) -> (forall b, bs_log (s_bak s' b) = bs_log (s_bak s b)) ->
  (forall b, putq b (s_procs s') = putq b (s_procs s)) -> (forall b, link b (s_net s') = link b (s_net s)) ->
  J c s'.
Proof. intros Jn Ep Eb Eq El b Hb. rewrite Ep, Eb, Eq, El. exact (Jn b Hb). Qed.

Lemma j_spawn c s n pcv :
  J c s -> e_proc {| p_id := s_next s; p_node := n; p_pc := pcv |} = [] -> J c (spawn s n pcv).
Proof.
  intros Jn E. apply (j_frame c s _ Jn); try reflexivity. intros b. cbn [spawn bump_next with_procs s_procs].
  rewrite putq_app, putq_one, (e_put_nil b _ E). apply app_nil_r.
Qed.

Lemma j_del c s pid p :
  J c s -> find_proc pid (s_procs s) = Some p -> e_proc p = [] ->
  J c (with_procs s (del_proc pid (s_procs s))).
Proof. intros Jn F E. apply (j_frame c s _ Jn); try reflexivity. intros b. exact (tdel_proj_nil F (e_put_nil b p E)). Qed.

Lemma j_set c s pid p pcv :
  J c s -> find_proc pid (s_procs s) = Some p -> e_proc p = [] ->
  e_proc {| p_id := pid; p_node := p_node p; p_pc := pcv |} = [] ->
  J c (with_procs s (set_pc pid pcv (s_procs s))).
Proof.
  intros Jn F E E'. apply (j_frame c s _ Jn); try reflexivity. intros b. apply (putq_set_same b _ _ _ _ F).
  rewrite (e_put_nil b p E). exact (e_put_nil b _ E').
Qed.

Lemma j_take c s m l :
  J c s -> take_msg m (s_net s) = Some l -> (forall b, e_msg b m = []) -> J c (with_net s l).
Proof. intros Jn T E. apply (j_frame c s _ Jn); try reflexivity. intros b. exact (take_proj_nil msg_eqb_eq T (E b)). Qed.

Lemma j_deliver c s n k v sq f net' :
  J c s -> take_msg (MReplicate n k v sq f) (s_net s) = Some net' ->
  (match first_link n (s_net s) with Some x => msg_eqb (MReplicate n k v sq f) x | None => false end) = true ->
  J c (spawn (with_net s net') n (PBPut k v sq f)).
Proof.
  intros Jn T FL b Hb. cbn [spawn bump_next with_procs with_net s_prim s_bak s_procs s_net].
  rewrite putq_app, putq_one, <- (Jn b Hb). unfold e_put. cbn [p_node e_proc p_pc].
  destruct (Z.eq_dec n b) as [->|Hnb].
  - rewrite (take_proj_first msg_eqb_eq T FL : link b _ = _). cbn [e_msg]. rewrite Z.eqb_refl, <- !app_assoc. reflexivity.
  - apply Z.eqb_neq in Hnb. rewrite Hnb, app_nil_r, (take_proj_nil msg_eqb_eq T : _ -> link b _ = _); [reflexivity|].
    cbn [e_msg]. rewrite Hnb. reflexivity.
Qed.

Lemma j_bak_put_done c s pid p k v sq fut :
  J c s -> find_proc pid (s_procs s) = Some p -> e_proc p = [(sq, k, v)] ->
  (match first_put (p_node p) (s_procs s) with Some q => q =? pid | None => false end) = true ->
  J c (fst (fst (bak_put_done s pid (p_node p) k v sq fut))).
Proof.
  intros Jn F E FP. rewrite bak_put_done_eq. cbv zeta. set (n := p_node p) in *. intros b Hb.
  cbn [with_procs with_net with_res with_bak s_prim s_bak s_procs s_net].
  rewrite link_app. cbn [link flat_map e_msg]. rewrite !app_nil_r, <- (Jn b Hb).
  destruct (Z.eq_dec b n) as [->|Hbn].
  - rewrite upd_same, (putq_set_first n pid PBSent _ p F eq_refl FP).
    unfold e_put. fold n. rewrite Z.eqb_refl, E. cbn [bs_log put_bak]. rewrite <- !app_assoc. reflexivity.
  - rewrite upd_other by exact Hbn. rewrite (putq_set_same b pid PBSent _ p F); [reflexivity|].
    assert (Hn : p_node p <> b) by (fold n; congruence).
    rewrite (e_put_other b p Hn). apply e_put_other. exact Hn.
Qed.

Lemma j_start c s n m : J c s -> fifo_ok s (IStart n m) = true -> after (J c) (start c s n m).
Proof.
  intros Jn FO. unfold start. destruct (n =? 0).
  - (* a client Write or Read at the primary spawns a handler that is not a backup put *)
    destruct m as [w k v rf|r k rf|b k v sq f|b sq|]; try exact I.
    1, 2: apply j_spawn; [|reflexivity]; apply (j_frame c s _ Jn); reflexivity.
    + destruct (take_msg (MAck b sq) (s_net s)) as [net'|] eqn:T; [|exact I].
      apply (j_frame c _ _ (j_take _ _ _ _ Jn T (fun _ => eq_refl))); reflexivity.
    + exact Jn.
  - destruct (is_backup c n); [|exact I].
    destruct m as [w k v rf|r k rf|b k v sq f|b sq|]; try exact I.
    + exact Jn.
    + destruct (serves c n); [|exact Jn].
      apply j_spawn; [|reflexivity]. apply (j_frame c s _ Jn); try reflexivity.
      intros b. apply (upd_proj_same bs_log). reflexivity.
    + destruct (b =? n) eqn:Eb; [|exact I]. apply Z.eqb_eq in Eb; subst b.
      destruct (take_msg (MReplicate n k v sq f) (s_net s)) as [net'|] eqn:T; [|exact I].
      exact (j_deliver c s n k v sq f net' Jn T FO).
    + exact Jn.
Qed.

Lemma j_finish c s pid p w sq rf :
  J c s -> find_proc pid (s_procs s) = Some p -> e_proc p = [] ->
  J c (fst (fst (finish_write s pid w sq rf))).
Proof. intros Jn F E. destruct rf; exact (j_del c s pid p Jn F E). Qed.

Lemma j_resume c s pid : J c s -> fifo_ok s (IResume pid) = true -> after (J c) (resume c s pid).
Proof.
  intros Jn FO. unfold resume. cbn [fifo_ok] in FO.
  destruct (find_proc pid (s_procs s)) as [p|] eqn:F; [|exact I].
  pose proof (eq_refl : e_proc p = match p_pc p with PBPut k v sq _ => [(sq, k, v)] | _ => [] end) as E.
  destruct (p_pc p) as [w k v sq rf|w sq rf|w sq rf|r0 k rf|k v sq fut|]; rewrite E in FO.
  - unfold prim_put_done. cbv zeta. set (s1 := with_net _ _).
    assert (J1 : J c s1).
    { (* the new entry joins the primary's log and every link *)
      intros b Hb. cbn [s1 with_net with_prim s_prim s_bak s_procs s_net ps_log].
      rewrite link_app, (link_msgs b k v sq _ _ (bids_nodup c) Hb), <- (Jn b Hb), <- !app_assoc. reflexivity. }
    destruct (c_mode c); [destruct (c_nb c); [exact (j_finish c _ pid p w sq rf J1 F E)|]|..];
      exact (j_set c _ pid p (PWSent w sq rf) J1 F E eq_refl).
  - unfold prim_sent.
    pose proof (j_finish c s pid p w sq rf Jn F E) as Fin.
    destruct (c_mode c); [exact Fin|destruct (c_nb c); [exact Fin|]..];
      exact (j_set c s pid p (PWWait w sq rf) Jn F E eq_refl).
  - destruct (acks_ready c s sq); [|exact I].
    exact (j_finish c s pid p w sq rf Jn F E).
  - unfold read_done. destruct (p_node p =? 0); exact (j_del c s pid p Jn F E).
  - exact (j_bak_put_done c s pid p k v sq fut Jn F E FO).
  - exact (j_del c s pid p Jn F E).
Qed.

Lemma j_step c s i : J c s -> fifo_ok s i = true -> after (J c) (step c s i).
Proof. destruct i; [apply j_start|apply j_resume]. Qed.

Lemma run_fifo_run c sched : forall s s', run_fifo c s sched = Some s' -> run c s sched = Some s'.
Proof. exact (grun_permitted fifo_ok c sched). Qed.

Theorem pb_convergence_fifo c sched s :
  run_fifo c init sched = Some s -> quiescent s ->
  forall b, In b (bids c) ->
    bs_log (s_bak s b) = ps_log (s_prim s) /\ bs_store (s_bak s b) = ps_store (s_prim s).
Proof.
  intros H [Qn Qp] b Hin. pose proof (grun_inv fifo_ok (j_step c) sched _ _ (j_init c) H b Hin) as Jo.
  rewrite Qn, Qp in Jo. cbn in Jo. rewrite !app_nil_r in Jo. split; [exact Jo|].
  (* the stores are the replays of the logs, on every run *)
  pose proof (inv_run c sched _ _ (inv_init c) (run_fifo_run c sched _ _ H)) as I.
  rewrite (i_bcoh c s I b : bs_store _ = _), (i_pcoh c s I : ps_store _ = _). cbn [fst bdata pdata]. rewrite Jo.
  reflexivity.
Qed.

Corollary pb_converged_fifo c sched s :
  run_fifo c init sched = Some s -> quiescent s -> pb_converged c s.
Proof.
  intros H Q b Hin k. destruct (pb_convergence_fifo c sched s H Q b Hin) as [_ ->]. reflexivity.
Qed.

(** the hypotheses are satisfiable: the two writes of the refutation witness,
    delivered in order, reach a quiescent state *)
Definition fifo_sched : list inp :=
  [ IStart 0 (MWrite 101 0 101 true); IStart 0 (MWrite 102 0 102 true);
    IResume 0; IResume 1; IResume 0; IResume 1;
    IStart 1 (MReplicate 1 0 101 1 true); IStart 1 (MReplicate 1 0 102 2 true);
    IResume 2; IResume 3; IResume 2; IResume 3;
    IStart 0 (MAck 1 1); IStart 0 (MAck 1 2); IResume 0; IResume 1 ].

Example fifo_example :
  match run_fifo wit_cfg init fifo_sched with
  | Some s => quiescent_b s && negb (diverged_b wit_cfg s)
  | None => false
  end = true.
Proof. vm_compute. reflexivity. Qed.

(** and the refutation witness is exactly a schedule that is not FIFO *)
Example wit_not_fifo : run_fifo wit_cfg init wit_sched = None.
Proof. vm_compute. reflexivity. Qed.
