(** C20 — what the sketches share (a few list facts, the count guard of [add], the total of a stream), then
    Count-Min and HyperLogLog: a cell or register after a stream is its start value combined
    with a summary of the stream ([contrib], [hits]). *)
From HS Require Import Base.Prelude C20.Model.
From Coq Require Import Sorting.Sorted.
Local Open Scope Z_scope.

Lemma zrange_In k i : In i (zrange k) <-> 0 <= i < k.
Proof.
  unfold zrange. rewrite in_map_iff. split.
  - intros (n & <- & Hn). apply in_seq in Hn. lia.
  - intros H. exists (Z.to_nat i). split; [lia|]. apply in_seq. lia.
Qed.



Lemma ss_cons {X} (R : X -> X -> Prop) a l :
  StronglySorted R (a :: l) -> StronglySorted R l /\ forall b, In b l -> R a b.
Proof. intros H. apply StronglySorted_inv in H. destruct H as [H F]. split; [exact H|]. now apply Forall_forall. Qed.


(** Every [add] rejects a negative count and ignores a zero one. *)
Lemma guard_fst {S} (st body : S) c :
  fst (if c <? 0 then (st, true) else if c =? 0 then (st, false) else (body, false)) = if 0 <? c then body else st.
Proof.
  destruct (Z.ltb_spec 0 c).
  - replace (c <? 0) with false by lia. replace (c =? 0) with false by lia. reflexivity.
  - destruct (Z.ltb_spec c 0); [reflexivity|]. replace (c =? 0) with true by lia. reflexivity.
Qed.

Fixpoint stream_total (s : list (Z * Z)) : Z :=
  match s with [] => 0 | (_, c) :: t => (if 0 <? c then c else 0) + stream_total t end.
Lemma stream_total_app s1 s2 : stream_total (s1 ++ s2) = stream_total s1 + stream_total s2.
Proof. induction s1 as [|[x c] s1 IH]; cbn; [lia|]. rewrite IH. lia. Qed.
Lemma true_count_app y a b : true_count y (a ++ b) = true_count y a + true_count y b.
Proof. induction a as [|[x c] a IH]; cbn [app true_count]; [reflexivity|]. rewrite IH. lia. Qed.
Lemma true_count_snoc_other y s x c : y <> x -> true_count y (s ++ [(x, c)]) = true_count y s.
Proof. intros H. rewrite true_count_app. cbn. replace (x =? y) with false by lia. cbn. lia. Qed.
Lemma true_count_snoc_same s x c : 0 < c -> true_count x (s ++ [(x, c)]) = true_count x s + c.
Proof. intros H. rewrite true_count_app. cbn. rewrite Z.eqb_refl. replace (0 <? c) with true by lia. cbn. lia. Qed.
Lemma true_count_nonneg y s : 0 <= true_count y s.
Proof. induction s as [|[x c] s IH]; cbn; [lia|]. destruct (_ && _) eqn:E; lia. Qed.
Lemma stream_total_snoc s x c : 0 < c -> stream_total (s ++ [(x, c)]) = stream_total s + c.
Proof. intros H. rewrite stream_total_app. cbn. replace (0 <? c) with true by lia. lia. Qed.
Lemma stream_total_nonneg s : 0 <= stream_total s.
Proof. induction s as [|[x c] s IH]; cbn; [lia|]. destruct (0 <? c) eqn:E; lia. Qed.

Lemma fold_total {S} (add : S -> Z -> Z -> S) (tot : S -> Z) :
  (forall st x c, tot (add st x c) = tot st + (if 0 <? c then c else 0)) ->
  forall s st, tot (fold_left (fun st xc => add st (fst xc) (snd xc)) s st) = tot st + stream_total s.
Proof.
  intros H. induction s as [|[x c] s IH]; intros st; cbn [fold_left stream_total fst snd]; [lia|].
  rewrite IH, H. lia.
Qed.

Lemma fold_min_ge l a b : b <= a -> (forall v, In v l -> b <= v) -> b <= fold_left Z.min l a.
Proof.
  revert a. induction l as [|v l IH]; intros a Ha Hl; cbn; [exact Ha|].
  apply IH; [|intros; apply Hl; now right]. pose proof (Hl v (or_introl eq_refl)). lia.
Qed.

Lemma zmin_list_ge l b : l <> [] -> (forall v, In v l -> b <= v) -> b <= zmin_list l.
Proof.
  destruct l as [|a l]; [congruence|]. intros _ H. cbn.
  apply fold_min_ge; [apply H; now left|intros; apply H; now right].
Qed.

Section CMS.
Variable hc : Z -> Z -> Z.
Variables w d : Z.

(** What the adds of a stream contribute to cell (r, col). *)
Fixpoint contrib (s : list (Z * Z)) (r col : Z) : Z :=
  match s with
  | [] => 0
  | (x, c) :: t =>
      (if (0 <? c) && ((0 <=? r) && (r <? d) && (col =? c_col hc w x r)) then c else 0) + contrib t r col
  end.

Lemma c_add_cnt st x c r col :
  c_cnt (fst (c_add hc w d st x c)) r col =
  c_cnt st r col + (if (0 <? c) && ((0 <=? r) && (r <? d) && (col =? c_col hc w x r)) then c else 0).
Proof.
  unfold c_add. rewrite guard_fst. destruct (0 <? c); cbn; [|lia].
  destruct ((0 <=? r) && (r <? d) && (col =? c_col hc w x r)); lia.
Qed.

Lemma c_add_total st x c :
  c_total (fst (c_add hc w d st x c)) = c_total st + (if 0 <? c then c else 0).
Proof. unfold c_add. rewrite guard_fst. destruct (0 <? c); cbn; lia. Qed.

Lemma c_sketch_cnt s st r col :
  c_cnt (c_sketch hc w d s st) r col = c_cnt st r col + contrib s r col.
Proof.
  revert st. induction s as [|[x c] s IH]; intros st; cbn; [lia|].
  unfold c_sketch in *. cbn. rewrite IH, c_add_cnt. lia.
Qed.

Lemma c_sketch_total s st : c_total (c_sketch hc w d s st) = c_total st + stream_total s.
Proof. apply (fold_total (fun st x c => fst (c_add hc w d st x c)) c_total c_add_total). Qed.

Lemma contrib_ge_true s x r : 0 <= r < d -> true_count x s <= contrib s r (c_col hc w x r).
Proof.
  intros Hr. induction s as [|[y c] s IH]; cbn; [lia|].
  destruct (y =? x) eqn:E; cbn.
  - assert (y = x) by lia. subst y.
    replace ((0 <=? r) && (r <? d)) with true by lia. rewrite Z.eqb_refl. cbn.
    rewrite andb_true_r. destruct (0 <? c); lia.
  - destruct ((0 <? c) && _) eqn:E2; [|lia]. assert (0 < c) by lia. lia.
Qed.

(** A lower bound for the cell of [x] in each of the [d >= 1] rows is one for the estimate. *)
Lemma c_est_ge st x b : 0 < d -> (forall r, 0 <= r < d -> b <= c_cnt st r (c_col hc w x r)) -> b <= c_est hc w d st x.
Proof.
  intros Hd H. unfold c_est. apply zmin_list_ge.
  - unfold zrange. destruct (Z.to_nat d) eqn:E; [lia|]. cbn. congruence.
  - intros v Hv. apply in_map_iff in Hv. destruct Hv as (r & <- & Hr). apply H, zrange_In, Hr.
Qed.

(** Never below the true count, from any sketch without negative cells. *)
Lemma c_sketch_est_ge st s x : 0 < d -> (forall r col, 0 <= c_cnt st r col) ->
  true_count x s <= c_est hc w d (c_sketch hc w d s st) x.
Proof.
  intros Hd H0. apply c_est_ge; [exact Hd|]. intros r Hr. rewrite c_sketch_cnt.
  pose proof (contrib_ge_true s x r Hr). specialize (H0 r (c_col hc w x r)). lia.
Qed.

Lemma c_sketch_app s1 s2 st : c_sketch hc w d (s1 ++ s2) st = c_sketch hc w d s2 (c_sketch hc w d s1 st).
Proof. apply fold_left_app. Qed.

(** Merging the sketch of a stream into [a] is feeding [a] the stream: every counter and the total. *)
Lemma c_merge_sketch a s :
  (forall r col, c_cnt (c_merge a (c_sketch hc w d s cms_empty)) r col = c_cnt (c_sketch hc w d s a) r col) /\
  c_total (c_merge a (c_sketch hc w d s cms_empty)) = c_total (c_sketch hc w d s a).
Proof.
  split.
  - intros r col. cbn. rewrite !c_sketch_cnt. cbn. lia.
  - cbn. rewrite !c_sketch_total. cbn. lia.
Qed.

End CMS.

Section HLL.
Variable hh : Z -> Z.
Variable p : Z.

Fixpoint hits (s : list (Z * Z)) (i : Z) : Z :=
  match s with
  | [] => 0
  | (x, c) :: t =>
      if (0 <? c) && (h_idx hh p x =? i) then Z.max (h_run hh p x) (hits t i) else hits t i
  end.

Lemma hits_nonneg s i : 0 <= hits s i.
Proof. induction s as [|[x c] s IH]; cbn; [lia|]. destruct (_ && _); lia. Qed.

Lemma h_add_reg st x c i :
  h_reg (fst (h_add hh p st x c)) i =
  if (0 <? c) && (h_idx hh p x =? i) then Z.max (h_reg st i) (h_run hh p x) else h_reg st i.
Proof.
  unfold h_add. rewrite guard_fst. destruct (0 <? c); cbn; [|reflexivity]. unfold upd.
  rewrite (Z.eqb_sym i). destruct (Z.eqb_spec (h_idx hh p x) i) as [<-|]; reflexivity.
Qed.

Lemma h_add_total st x c :
  h_total (fst (h_add hh p st x c)) = h_total st + (if 0 <? c then c else 0).
Proof. unfold h_add. rewrite guard_fst. destruct (0 <? c); cbn; lia. Qed.

Lemma h_sketch_reg s st i : 0 <= h_reg st i ->
  h_reg (h_sketch hh p s st) i = Z.max (h_reg st i) (hits s i).
Proof.
  revert st. induction s as [|[x c] s IH]; intros st H; cbn; [lia|].
  unfold h_sketch in *. cbn. rewrite IH; rewrite h_add_reg; destruct (_ && _); lia.
Qed.

Lemma h_sketch_reg0 s i : h_reg (h_sketch hh p s hll_empty) i = hits s i.
Proof. rewrite h_sketch_reg by (cbn; lia). cbn. pose proof (hits_nonneg s i). lia. Qed.

Lemma h_sketch_total s st : h_total (h_sketch hh p s st) = h_total st + stream_total s.
Proof. apply (fold_total (fun st x c => fst (h_add hh p st x c)) h_total h_add_total). Qed.

Lemma h_sketch_app s1 s2 st : h_sketch hh p (s1 ++ s2) st = h_sketch hh p s2 (h_sketch hh p s1 st).
Proof. apply fold_left_app. Qed.

(** Merging the sketch of a stream into [a] is feeding [a] the stream: every register and the total. *)
Lemma h_merge_sketch a s : (forall i, 0 <= h_reg a i) ->
  (forall i, 0 <= i < 2 ^ p -> h_reg (h_merge p a (h_sketch hh p s hll_empty)) i = h_reg (h_sketch hh p s a) i) /\
  h_total (h_merge p a (h_sketch hh p s hll_empty)) = h_total (h_sketch hh p s a).
Proof.
  intros Ha. split.
  - intros i Hi. cbn [h_merge h_reg]. replace ((0 <=? i) && (i <? 2 ^ p)) with true by lia.
    now rewrite h_sketch_reg0, h_sketch_reg by apply Ha.
  - cbn. rewrite !h_sketch_total. cbn. lia.
Qed.

End HLL.

(** Hypotheses satisfiable / conclusion not vacuous: two colliding items. *)
Example cms_hypotheses_satisfiable :
  let hc := fun x r : Z => x + r in
  0 < 2 /\ true_count 1 [(1, 2); (3, 1)] = 2 /\
  c_est hc 2 2 (c_sketch hc 2 2 [(1, 2); (3, 1)] cms_empty) 1 = 3.
Proof. cbv zeta. repeat split; try lia; vm_compute; reflexivity. Qed.
