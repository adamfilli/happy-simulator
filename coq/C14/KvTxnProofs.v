(** C14 — KVStore is linearizable at completion points (any overlap), and
    SERIALIZABLE transactions read the values current at their commit point. *)
From HS Require Import Base.Prelude Base.Lists C14.KvTxnModel.
From HS Require C14.LsmProofs.
Local Open Scope Z_scope.

Definition ev_op (e : Z * kop * kout) : kop := snd (fst e).
Definition ev_out (e : Z * kop * kout) : kout := snd e.

(** For ANY interleaving of starts and completions, the results of all
    operations and the final contents are those of executing the operations
    one at a time in the order of their completions. *)
Theorem kv_linearizable : forall sch d ps,
  let '(w', es) := kv_run (d, ps) sch in
  kv_seq d (map ev_op es) = (fst w', map ev_out es).
Proof.
  induction sch as [|s r IH]; intros d ps; cbn [kv_run]; [reflexivity|].
  destruct s as [oid o|oid]; cbn [kv_step].
  - specialize (IH d ((oid, o) :: ps)). destruct (kv_run _ r) as [w2 es]. exact IH.
  - destruct (pget oid ps) as [o|].
    + destruct (kv_apply d o) as [d' x] eqn:Ea. specialize (IH d' (pdel oid ps)).
      destruct (kv_run _ r) as [w2 es]. cbn [map kv_seq ev_op ev_out fst snd]. now rewrite Ea, IH.
    + specialize (IH d ps). destruct (kv_run _ r) as [w2 es]. exact IH.
Qed.

(** [dict] is a sorted association list: its laws come from C14/LsmProofs.v *)
Fixpoint dsorted (d : dict) : Prop :=
  match d with [] => True | (k, _) :: r => (forall k', In k' (map fst r) -> k < k') /\ dsorted r end.

Lemma dget_dset k v d k' : dget k' (dset k v d) = if k' =? k then Some v else dget k' d.
Proof. exact (LsmProofs.alookup_ainsert k v d k'). Qed.

Lemma dget_in k d v : dget k d = Some v -> In k (map fst d).
Proof. exact (LsmProofs.alookup_some_keys k d v). Qed.

Lemma dsorted_dset k v d : dsorted d -> dsorted (dset k v d).
Proof. exact (LsmProofs.asorted_ainsert k v d). Qed.

Lemma dget_ddel k d k' : dsorted d -> dget k' (ddel k d) = if k' =? k then None else dget k' d.
Proof.
  induction d as [|[a b] r IH]; cbn; intros Hs.
  - now destruct (k' =? k).
  - destruct Hs as [H1 H2]. destruct (Z.eqb_spec k a) as [->|Hka].
    + destruct (Z.eqb_spec k' a) as [E|_]; [rewrite E|reflexivity].
      destruct (dget a r) eqn:Er; [|reflexivity]. apply dget_in in Er. specialize (H1 _ Er). lia.
    + cbn. destruct (Z.eqb_spec k' a) as [E|_]; [rewrite E|apply IH, H2].
      destruct (Z.eqb_spec a k); [congruence|reflexivity].
Qed.

Lemma dsorted_ddel k d : dsorted d -> dsorted (ddel k d).
Proof.
  induction d as [|[a b] r IH]; cbn; intros Hs; [exact I|].
  destruct Hs as [H1 H2]. destruct (k =? a); [assumption|]. cbn. split; [|auto].
  intros k' Hin. apply H1. clear -Hin. induction r as [|[c e] r IH]; cbn in *; [assumption|].
  destruct (k =? c); cbn in *; [right; assumption|]. destruct Hin; [left; assumption|right; auto].
Qed.

(** the sequential reference is a map: a read returns the latest preceding write *)
Definition kspec_apply (m : Z -> option Z) (o : kop) : Z -> option Z :=
  match o with
  | KPut k v => fun k' => if k' =? k then Some v else m k'
  | KDel k => fun k' => if k' =? k then None else m k'
  | KGet _ => m
  end.

Lemma kv_apply_spec d o m : dsorted d -> (forall k, dget k d = m k) ->
  dsorted (fst (kv_apply d o)) /\ (forall k, dget k (fst (kv_apply d o)) = kspec_apply m o k) /\
  match o with KGet k => snd (kv_apply d o) = KOGet (m k) | _ => True end.
Proof.
  intros Hs Hm. destruct o as [k v|k|k]; cbn.
  - split; [apply dsorted_dset; assumption|]. split; [|exact I]. intros k'. rewrite dget_dset, Hm. reflexivity.
  - destruct (dget k d) eqn:E; cbn.
    + split; [apply dsorted_ddel; assumption|]. split; [|exact I]. intros k'. rewrite dget_ddel, Hm by assumption. reflexivity.
    + split; [assumption|]. split; [|exact I]. intros k'. destruct (k' =? k) eqn:Ek; [|apply Hm].
      assert (k' = k) by lia. subst. assumption.
  - split; [assumption|]. split; [assumption|]. now rewrite Hm.
Qed.

(** Every read of the sequential reference returns the value of the latest
    preceding write to its key (the reference is a map). *)
Theorem kv_seq_is_map : forall ops d m, dsorted d -> (forall k, dget k d = m k) ->
  forall i k, nth_error ops i = Some (KGet k) ->
  nth_error (snd (kv_seq d ops)) i = Some (KOGet (fold_left kspec_apply (firstn i ops) m k)).
Proof.
  induction ops as [|o r IH]; intros d m Hs Hm i k Hi; [destruct i; discriminate|].
  cbn [kv_seq]. destruct (kv_apply d o) as [d1 x] eqn:Ea. destruct (kv_seq d1 r) as [d2 xs] eqn:Es.
  destruct (kv_apply_spec d o m Hs Hm) as (S1 & M1 & G1). rewrite Ea in S1, M1, G1. cbn [fst snd] in *.
  destruct i as [|i]; cbn in Hi |- *.
  - injection Hi as ->. rewrite G1. reflexivity.
  - specialize (IH d1 (kspec_apply m o) S1 M1 i k Hi). rewrite Es in IH. exact IH.
Qed.

Definition entry_tx (e : entry) : Z := fst (fst (fst e)).
Definition entry_ver (e : entry) : Z := snd (fst (fst e)).
Definition entry_ws (e : entry) : list Z := snd (fst e).

Lemma zmem_in k l : zmem k l = true <-> In k l.
Proof. apply existsb_eqb_In. Qed.

Lemma inter_true a b k : In k a -> In k b -> inter a b = true.
Proof. intros Ha Hb. unfold inter. apply existsb_exists. exists k. split; [assumption|]. apply zmem_in. assumption. Qed.

Lemma in_zadd k l k' : In k' (zadd k l) <-> k' = k \/ In k' l.
Proof.
  unfold zadd. destruct (zmem k l) eqn:E.
  - apply zmem_in in E. split; [tauto|]. intros [->|H]; assumption.
  - rewrite in_app_iff. cbn. split; [intros [H|[H|[]]]; auto|intros [H|H]; auto].
Qed.

(** The invariant on one transaction: while it is active, each value it read
    is still the store's or was overwritten by a commit its validation will
    see; once committed (SER), its reads are those of the store at its commit. *)
Definition tx_inv (m : mgr) (t : txn) : Prop :=
  t_snap t <= m_version m /\
  (forall k v, In (k, v) (t_reads t) -> In k (t_rset t)) /\
  match t_status t with
  | Active =>
      forall k v, In (k, v) (t_reads t) ->
        dget k (m_store m) = v \/
        exists e, In e (m_log m) /\ entry_ver e > t_snap t /\ entry_tx e <> t_id t /\ In k (entry_ws e)
  | Committed => t_iso t = SER -> forall k v, In (k, v) (t_reads t) -> dget k (t_cstore t) = v
  | Aborted => True
  end.

Definition I1 (m : mgr) : Prop := forall id t, tx_get id (m_txs m) = Some t -> tx_inv m t.
Definition has_read (m : mgr) (tx k : Z) : Prop := exists t, tx_get tx (m_txs m) = Some t /\ In k (t_rset t).
Definition mono (m m' : mgr) : Prop := forall tx k, has_read m tx k -> has_read m' tx k.

Definition step_ok (m m' : mgr) : Prop := I1 m' /\ mono m m'.

Definition w_inv (w : tworld) : Prop :=
  I1 (fst w) /\ (forall oid tx k, pget oid (snd w) = Some (PRead tx k) -> has_read (fst w) tx k).

Lemma step_ok_refl m : I1 m -> step_ok m m.
Proof. intros H. split; [exact H|]. intros tx k Hr. exact Hr. Qed.

Lemma tx_get_id id ts t : tx_get id ts = Some t -> t_id t = id.
Proof.
  induction ts as [|x r IH]; cbn; [discriminate|].
  destruct (t_id x =? id) eqn:E; [intros H; inversion H; subst; lia|assumption].
Qed.

Lemma tx_get_put t ts id :
  tx_get id (tx_put t ts) = if t_id t =? id then Some t else tx_get id ts.
Proof.
  induction ts as [|x r IH]; cbn; [reflexivity|].
  destruct (Z.eqb_spec (t_id x) (t_id t)) as [E|E]; cbn.
  - rewrite E. now destruct (t_id t =? id).
  - destruct (Z.eqb_spec (t_id x) id) as [E2|E2]; [|apply IH].
    destruct (Z.eqb_spec (t_id t) id); [congruence|reflexivity].
Qed.

Lemma tx_get_app ts t id :
  tx_get id (ts ++ [t]) = match tx_get id ts with Some x => Some x | None => if t_id t =? id then Some t else None end.
Proof. induction ts as [|x r IH]; cbn; [reflexivity|]. destruct (t_id x =? id); [reflexivity|apply IH]. Qed.

Lemma pget_pdel {A} oid oid' (ps : list (Z * A)) :
  pget oid (pdel oid' ps) = if oid =? oid' then None else pget oid ps.
Proof.
  unfold pdel. induction ps as [|[i x] r IH]; cbn [filter pget fst].
  - destruct (oid =? oid'); reflexivity.
  - destruct (Z.eqb_spec i oid') as [->|E1]; cbn [negb pget].
    + rewrite IH. destruct (Z.eqb_spec oid oid') as [->|E2]; [reflexivity|].
      destruct (Z.eqb_spec oid' oid); [congruence|reflexivity].
    + destruct (Z.eqb_spec i oid) as [->|E2]; [|apply IH].
      destruct (Z.eqb_spec oid oid'); [congruence|reflexivity].
Qed.

Lemma dget_apply_writes ws : forall d k, ~ In k (map fst ws) -> dget k (apply_writes d ws) = dget k d.
Proof.
  unfold apply_writes. induction ws as [|[a b] r IH]; cbn; intros d k Hn; [reflexivity|].
  rewrite IH by tauto. rewrite dget_dset. destruct (k =? a) eqn:E; [exfalso; apply Hn; left; lia|reflexivity].
Qed.

Lemma is_active_true t : is_active t = true -> t_status t = Active.
Proof. unfold is_active. destruct (t_status t); [reflexivity|discriminate..]. Qed.

Lemma conflict_detected m t e k :
  t_iso t = SER -> In e (m_log m) -> entry_ver e > t_snap t -> entry_tx e <> t_id t ->
  In k (entry_ws e) -> In k (t_rset t) -> check_conflict m t = true.
Proof.
  intros Hi He Hv Ht Hk Hr. unfold check_conflict. rewrite Hi. apply existsb_exists. exists e. split; [assumption|].
  destruct e as [[[tx ver] ws] rs]. unfold entry_ver, entry_tx, entry_ws in *. cbn in *.
  assert (ver <=? t_snap t = false) as -> by (clear -Hv; lia).
  assert (tx =? t_id t = false) as -> by (clear -Ht; lia).
  rewrite Hi. rewrite (inter_true (t_rset t) ws k Hr Hk). now rewrite orb_true_r.
Qed.

Lemma tx_put_mono m m' t t' : m_txs m' = tx_put t' (m_txs m) ->
  tx_get (t_id t') (m_txs m) = Some t -> (forall k, In k (t_rset t) -> In k (t_rset t')) -> mono m m'.
Proof.
  intros Em Hg Hsub tx k [x [Hx Hk]]. unfold has_read. rewrite Em, tx_get_put.
  destruct (t_id t' =? tx) eqn:E.
  - exists t'. split; [reflexivity|]. apply Z.eqb_eq in E. subst. rewrite Hg in Hx. injection Hx as <-. auto.
  - exists x. tauto.
Qed.

Lemma upd_tx_ok m t t' : I1 m -> tx_get (t_id t) (m_txs m) = Some t -> t_id t' = t_id t ->
  tx_inv m t' -> (forall k, In k (t_rset t) -> In k (t_rset t')) -> step_ok m (upd_tx m t').
Proof.
  intros H Hg Eid Ht Hsub. rewrite <- Eid in Hg. split.
  - intros id x Hx. cbn in Hx. rewrite tx_get_put in Hx.
    destruct (t_id t' =? id); [injection Hx as <-; exact Ht|exact (H id x Hx)].
  - exact (tx_put_mono m (upd_tx m t') t t' eq_refl Hg Hsub).
Qed.

(** the new record differs in write set, read set (larger) or status (aborted) only *)
Lemma upd_tx_same m t t' : I1 m -> tx_get (t_id t) (m_txs m) = Some t ->
  t_id t' = t_id t -> t_snap t' = t_snap t -> t_reads t' = t_reads t ->
  (forall k, In k (t_rset t) -> In k (t_rset t')) ->
  t_status t' = Aborted \/ (t_status t' = t_status t /\ t_iso t' = t_iso t /\ t_cstore t' = t_cstore t) ->
  step_ok m (upd_tx m t').
Proof.
  intros H1 Eg Eid Es Er Hr Hst. apply (upd_tx_ok m t); auto.
  destruct (H1 _ _ Eg) as (A & B & C). unfold tx_inv. rewrite Eid, Es, Er.
  split; [exact A|]. split; [intros k v Hin; eapply Hr, B, Hin|].
  destruct Hst as [->|(-> & -> & ->)]; [exact I|exact C].
Qed.

Lemma commit_ok m t : I1 m -> tx_get (t_id t) (m_txs m) = Some t -> t_status t = Active ->
  check_conflict m t = false ->
  step_ok m {| m_store := apply_writes (m_store m) (t_wset t); m_version := m_version m + 1;
               m_log := m_log m ++ [(t_id t, m_version m + 1, map fst (t_wset t), t_rset t)];
               m_next := m_next m;
               m_txs := tx_put (mkTxn (t_id t) (t_iso t) (t_snap t) (t_rset t) (t_wset t) Committed
                                      (t_reads t) (m_store m)) (m_txs m);
               m_hist := m_hist m ++ [apply_writes (m_store m) (t_wset t)] |}.
Proof.
  intros H1 Eg Ea Ec. destruct (H1 _ _ Eg) as (B & C & D). rewrite Ea in D.
  set (t' := mkTxn (t_id t) (t_iso t) (t_snap t) (t_rset t) (t_wset t) Committed (t_reads t) (m_store m)).
  set (e' := (t_id t, m_version m + 1, map fst (t_wset t), t_rset t)).
  split; [|apply (tx_put_mono m _ t t'); [reflexivity|exact Eg|auto]].
  intros id x Hx. cbn in Hx. rewrite tx_get_put in Hx. cbn [t_id t'] in Hx.
  destruct (t_id t =? id) eqn:Ei.
  - (* the committing transaction: none of its reads was overwritten, or validation had failed *)
    injection Hx as <-. split; [cbn; clear -B; lia|]. split; [exact C|]. cbn.
    intros Hser k0 v0 Hin. destruct (D k0 v0 Hin) as [Hd|[e (He & Hv & Ht & Hk)]]; [assumption|].
    exfalso. rewrite (conflict_detected m t e k0 Hser He Hv Ht Hk (C _ _ Hin)) in Ec. discriminate.
  - (* the others: a read of a key written now is covered by the new log entry *)
    destruct (H1 id x Hx) as (B' & C' & D'). pose proof (tx_get_id _ _ _ Hx) as Hidx.
    split; [cbn; clear -B'; lia|]. split; [exact C'|]. cbn [m_store m_log].
    destruct (t_status x); [|exact D'|exact I].
    intros k0 v0 Hin. destruct (D' k0 v0 Hin) as [Hd|[e (He & Hv & Ht & Hk)]].
    + destruct (in_dec Z.eq_dec k0 (map fst (t_wset t))) as [Hw|Hw].
      * right. exists e'. split; [apply in_app_iff; right; left; reflexivity|].
        unfold e', entry_ver, entry_tx, entry_ws. cbn. split; [clear -B'; lia|]. split; [clear -Ei Hidx; lia|assumption].
      * left. rewrite dget_apply_writes by assumption. assumption.
    + right. exists e. split; [apply in_app_iff; left; assumption|]. exact (conj Hv (conj Ht Hk)).
Qed.

(** [t_start]: invariant, monotonicity of read sets, and a read that is left
    pending has registered its key *)
Definition start_ok (m : mgr) (p : mgr * tres) : Prop :=
  step_ok m (fst p) /\ forall ns tx k, snd p = TYield ns (PRead tx k) -> has_read (fst p) tx k.

Lemma start_ok_done m m' x : step_ok m m' -> start_ok m (m', TDone x).
Proof. intros S. split; [exact S|discriminate]. Qed.

(** read, write, commit and abort look the transaction up and refuse unless it is active *)
Lemma start_ok_active m tx e1 e2 (f : txn -> mgr * tres) : I1 m ->
  (forall t, tx_get (t_id t) (m_txs m) = Some t -> t_id t = tx -> is_active t = true -> start_ok m (f t)) ->
  start_ok m (match tx_get tx (m_txs m) with
              | None => (m, TDone e1)
              | Some t => if negb (is_active t) then (m, TDone e2) else f t
              end).
Proof.
  intros H1 Hf. destruct (tx_get tx (m_txs m)) as [t|] eqn:Eg; [|apply start_ok_done, step_ok_refl, H1].
  destruct (is_active t) eqn:Ea; [|apply start_ok_done, step_ok_refl, H1].
  pose proof (tx_get_id _ _ _ Eg) as Hid. rewrite <- Hid in Eg. exact (Hf t Eg Hid Ea).
Qed.

Lemma t_start_ok m o : I1 m -> start_ok m (t_start m o).
Proof.
  intros H1. destruct o as [i|tx k|tx k v|tx|tx]; cbn [t_start]; [|apply start_ok_active; [exact H1|]; intros t Eg Hid Ea..].
  - split; [split|discriminate]; cbn [fst].
    + intros id t Hg. cbn in Hg. rewrite tx_get_app in Hg. destruct (tx_get id (m_txs m)) as [x|] eqn:Ex.
      * injection Hg as ->. exact (H1 id t Ex).
      * cbn in Hg. destruct (m_next m =? id); [|discriminate]. injection Hg as <-.
        split; [apply Z.le_refl|]. split; intros ? ? [].
    + intros tx k [x [Hx Hk]]. exists x. split; [|assumption]. cbn. rewrite tx_get_app, Hx. reflexivity.
  - set (t' := mkTxn (t_id t) (t_iso t) (t_snap t) (zadd k (t_rset t)) (t_wset t) (t_status t) (t_reads t) (t_cstore t)).
    assert (step_ok m (upd_tx m t')) as S
      by (apply (upd_tx_same m t); auto; intros k0 Hk0; apply in_zadd; tauto).
    destruct (dget k (t_wset t)); [apply start_ok_done, S|]. split; [exact S|]. cbn [fst snd].
    intros ns tx0 k0 H. injection H as _ <- <-. subst tx. exists t'. split; [|apply in_zadd; tauto].
    cbn. rewrite tx_get_put. cbn. now rewrite Z.eqb_refl.
  - split; [|discriminate]. apply (upd_tx_same m t); auto.
  - destruct (check_conflict m t) eqn:Ec.
    + apply start_ok_done, (upd_tx_same m t); auto.
    + split; [|discriminate]. apply commit_ok; auto using is_active_true.
  - apply start_ok_done, (upd_tx_same m t); auto.
Qed.

Lemma t_resume_ok m p : I1 m ->
  (forall tx k, p = PRead tx k -> has_read m tx k) -> step_ok m (fst (t_resume m p)).
Proof.
  intros H1 Hp. pose proof (step_ok_refl m H1) as R.
  destruct p as [id|tx k| |]; cbn [t_resume fst]; try exact R.
  destruct (tx_get tx (m_txs m)) as [t|] eqn:Eg; [|exact R].
  destruct (is_active t) eqn:Ea; [|exact R]. cbn [fst]. apply is_active_true in Ea.
  pose proof (tx_get_id _ _ _ Eg) as Hid. rewrite <- Hid in Eg.
  destruct (H1 _ _ Eg) as (B & C & D). rewrite Ea in D.
  destruct (Hp tx k eq_refl) as [t0 [Ht0 Hk]]. rewrite <- Hid, Eg in Ht0. injection Ht0 as <-.
  apply (upd_tx_ok m t); [exact H1|exact Eg|reflexivity| |auto].
  (* the new read is the store's present value *)
  split; [exact B|]. cbn [t_reads t_rset t_status t_id]. rewrite Ea.
  split; intros k0 v0 Hin; apply in_app_iff in Hin; destruct Hin as [Hin|[Hin|[]]].
  - exact (C _ _ Hin).
  - injection Hin as <- _. exact Hk.
  - exact (D _ _ Hin).
  - injection Hin as <- <-. left. reflexivity.
Qed.

Lemma step_inv w s : w_inv w -> w_inv (fst (t_step w s)).
Proof.
  destruct w as [m ps]. intros (H1 & H3). cbn [fst snd] in *. destruct s as [oid o|oid]; cbn [t_step].
  - pose proof (t_start_ok m o H1) as H. destruct (t_start m o) as [m' r]. destruct H as ((A & C) & D). cbn [fst snd] in *.
    destruct r as [ns p|x]; cbn [fst snd]; (split; [exact A|]); cbn [fst snd].
    + intros oid' tx k Hp. cbn in Hp. destruct (oid =? oid') eqn:E.
      * injection Hp as ->. eapply D. reflexivity.
      * apply C. eapply H3. eassumption.
    + intros oid' tx k Hp. apply C. eapply H3. eassumption.
  - destruct (pget oid ps) as [p|] eqn:Ep; [|split; [exact H1|exact H3]].
    assert (forall tx k, p = PRead tx k -> has_read m tx k) as Hp by (intros tx k ->; eapply H3; eassumption).
    destruct (t_resume_ok m p H1 Hp) as (A & C).
    destruct (t_resume m p) as [m' r]. cbn [fst snd] in *. split; [exact A|]. cbn [fst snd].
    intros oid' tx k Hq. rewrite pget_pdel in Hq. destruct (oid' =? oid); [discriminate|].
    apply C. eapply H3. eassumption.
Qed.

Lemma run_inv sch : w_inv (t_run sch).
Proof. apply (fold_left_inv _ w_inv); [exact step_inv|]. split; cbn; discriminate. Qed.

(** Snapshot isolation: REFUTED.  T1 (SNAPSHOT_ISOLATION) reads key 0, T2
    commits writes to keys 0 and 1, T1 reads key 1 and commits: its two reads
    belong to no single version of the store. *)
Definition si_statement : Prop := forall sch, si_ok (fst (t_run sch)) = true.

Definition si_witness : list tstep :=
  [TStart 0 (TBegin SI); TResume 0;            (* T1 *)
   TStart 1 (TRead 1 0); TResume 1;            (* T1 reads key 0: absent *)
   TStart 2 (TBegin SI); TResume 2;            (* T2 *)
   TStart 3 (TWrite 2 0 10); TResume 3;
   TStart 4 (TWrite 2 1 11); TResume 4;
   TStart 5 (TCommit 2); TResume 5;            (* T2 commits {0:10, 1:11} *)
   TStart 6 (TRead 1 1); TResume 6;            (* T1 reads key 1: 11 *)
   TStart 7 (TCommit 1); TResume 7].           (* T1 commits *)

Theorem si_snapshot_refuted : ~ si_statement.
Proof. intros H. specialize (H si_witness). vm_compute in H. discriminate. Qed.
