(** Property C09 — the theorems the check counts as obligations, each derived
    in a few lines from the invariants and step lemmas of the C09 files (facts
    about a single step: by evaluating the model's step function), and its
    [Print Assumptions]. *)
From HS Require Import Base.Prelude Base.PyLib C09.Model C09.Resource C09.Sync C09.Limits C09.Pool C09.Bulk C09.Barrier
  Gen.ConcurrencyGen C09.ConcTie.
From Coq Require Import Sorting.Sorted.
Local Open Scope Z_scope.
(** For every sequence of acquire / try_acquire / grant.release / raw
    _do_release calls (raw amounts positive): the capacity stays as configured
    and available stays within [0, capacity]. *)
Theorem c09_resource_bounds : forall cap ops, 0 < cap -> Forall force_pos ops ->
  let s := r_run (r_init cap) ops in r_cap s = cap /\ 0 <= r_avail s <= cap.
Proof.
  intros cap ops Hc F. destruct (rinv_reach cap ops Hc F) as (C & [] & _). auto.
Qed.
Print Assumptions c09_resource_bounds.

(** Held plus available equals capacity (callers that release through grants). *)
Theorem c09_resource_conservation : forall cap ops, 0 < cap -> existsb is_force ops = false ->
  let s := r_run (r_init cap) ops in
  r_avail s + zsum (map snd (r_held s)) = cap /\ Forall (fun g => 0 < snd g) (r_held s) /\
  0 <= zsum (map snd (r_held s)) <= cap.
Proof.
  intros cap ops Hc F.
  destruct (conserved_run cap ops _ (rinv_init cap Hc) (Z.add_0_r cap) F) as [(_ & [] & _) C].
  unfold conserved in C. cbn. repeat split; auto; lia.
Qed.
Print Assumptions c09_resource_conservation.

(** Releasing a released grant is a no-op. *)
Theorem c09_resource_release_idempotent : forall cap ops now now' gid, 0 < cap -> Forall force_pos ops ->
  let s1 := fst (r_step (r_run (r_init cap) ops) (RRelease now gid)) in
  r_step s1 (RRelease now' gid) = (s1, ONoop).
Proof.
  intros cap ops now now' gid Hc F. apply release_idempotent.
  destruct (rinv_reach cap ops Hc F) as (_ & [] & _). apply rb_ids.
Qed.
Print Assumptions c09_resource_release_idempotent.

(** Blocked acquirers are woken in arrival order: the queue is sorted by
    arrival index, a release resolves exactly a prefix of it, in order, and stops
    only at a waiter that does not fit. *)
Theorem c09_resource_fifo_wake : forall cap ops o s' woken, 0 < cap -> Forall force_pos ops -> force_pos o ->
  let s := r_run (r_init cap) ops in
  r_step s o = (s', OReleased woken) ->
  StronglySorted Z.lt (map wid (r_waiters s)) /\
  (exists pre, r_waiters s = pre ++ r_waiters s' /\ woken = map wid pre) /\
  match r_waiters s' with [] => True | w :: _ => r_avail s' < wamt w end.
Proof.
  intros cap ops o s' woken Hc F _ s R.
  split; [destruct (rinv_reach cap ops Hc F) as (_ & [] & _); assumption|exact (step_release_spec s o s' woken R)].
Qed.
Print Assumptions c09_resource_fifo_wake.

(** ... as soon as capacity allows: in no reachable state does the head waiter fit. *)
Theorem c09_resource_no_stranding : forall cap ops, 0 < cap -> Forall force_pos ops ->
  let s := r_run (r_init cap) ops in
  match r_waiters s with [] => True | w :: _ => r_avail s < wamt w end.
Proof. intros cap ops Hc F. apply (rinv_reach cap ops Hc F). Qed.
Print Assumptions c09_resource_no_stranding.

(** ... each at most once: no id occurs twice in the log of all grants. *)
Theorem c09_resource_at_most_once : forall cap ops, 0 < cap -> Forall force_pos ops ->
  NoDup (grant_log (r_init cap) ops).
Proof.
  intros cap ops _ _. apply (grant_log_nodup ops (r_init cap) []). split; constructor.
Qed.
Print Assumptions c09_resource_at_most_once.

(** Arrival order across ALL acquirers is refuted: acquire() grants immediately
    whenever the amount fits, also when earlier, larger requests are queued. *)
Theorem c09_resource_arrival_order_refuted : ~ no_overtaking.
Proof.
  intros H.
  assert (E : r_waiters (r_run (r_init 3) [RAcquire 0 2; RAcquire 0 2]) = []).
  { apply (H 3 [RAcquire 0 2; RAcquire 0 2] 0 1 2); [lia|repeat constructor|reflexivity]. }
  vm_compute in E. discriminate E.
Qed.
Print Assumptions c09_resource_arrival_order_refuted.

Theorem c09_resource_arrival_order_partial : forall cap ops now amt w rest i, 0 < cap -> Forall force_pos ops ->
  let s := r_run (r_init cap) ops in
  r_waiters s = w :: rest -> wamt w <= amt -> snd (r_step s (RAcquire now amt)) <> OGranted i.
Proof.
  intros cap ops now amt w rest i Hc F s. apply no_overtaking_partial.
  apply (rinv_reach cap ops Hc F).
Qed.
Print Assumptions c09_resource_arrival_order_partial.

(** Mutex ([m_legit_run]: clients release only while they hold the lock).
    At most one holder (a client in its critical section, or the waiter the
    lock has been handed to); locked <-> exactly one holder; nobody waits on an
    unlocked mutex. *)
Theorem c09_mutex_exclusion : forall ops, m_legit_run m_init ops ->
  let s := m_run m_init ops in
  (length (m_cs s) + length (m_woken s) <= 1)%nat /\
  (m_locked s = true -> (length (m_cs s) + length (m_woken s) = 1)%nat) /\
  (m_locked s = false -> m_cs s = [] /\ m_woken s = [] /\ m_waiters s = []).
Proof.
  intros ops L s. assert (I : m_inv s) by (apply m_inv_run; [cbn; auto|exact L]).
  unfold m_inv in I. destruct (m_locked s).
  - destruct I as [(c & -> & ->)|(-> & w & ->)]; repeat split; auto; discriminate.
  - destruct I as (-> & -> & ->). repeat split; auto; discriminate.
Qed.
Print Assumptions c09_mutex_exclusion.

Theorem c09_mutex_fifo_handoff : forall s c now w enq rest, m_locked s = true -> m_waiters s = (w, enq) :: rest ->
  snd (m_step s (MRelease c now)) = YWoken [w] /\
  m_waiters (fst (m_step s (MRelease c now))) = rest /\
  m_locked (fst (m_step s (MRelease c now))) = true /\
  (forall c' now', m_waiters (fst (m_step s (MAcqStart c' now'))) = m_waiters s ++ [(c', now')]).
Proof.
  intros s c now w enq rest E W. cbn. unfold m_try. rewrite E, W. cbn. repeat split; reflexivity.
Qed.
Print Assumptions c09_mutex_fifo_handoff.

Theorem c09_mutex_no_overtaking : forall ops c now, m_legit_run m_init ops ->
  let s := m_run m_init ops in
  (snd (m_step s (MAcqStart c now)) = YDelay0 \/ snd (m_step s (MTry c)) = YTrue) -> m_waiters s = [].
Proof.
  intros ops c now L s H. destruct (c09_mutex_exclusion ops L) as (_ & _ & Hu). fold s in Hu.
  cbn in H. unfold m_try in H. destruct (m_locked s); cbn in H; [destruct H; discriminate|]. apply Hu; reflexivity.
Qed.
Print Assumptions c09_mutex_no_overtaking.

(** Waiting is free (after the repair): a blocked acquire parks on a future
    instead of re-yielding a zero delay; the resume after the hand-off finishes;
    a resume without hand-off would park again without touching the state. *)
Theorem c09_mutex_wait_is_parked : forall s c now, m_locked s = true ->
  snd (m_step s (MAcqStart c now)) = YPark /\
  (forall enq now', assoc_find c (m_woken s) = Some enq -> snd (m_step s (MAcqResume c now')) = YDone) /\
  (forall now', assoc_find c (m_woken s) = None -> m_step s (MAcqResume c now') = (s, YPark)).
Proof.
  intros s c now E. cbn. unfold m_try. rewrite E. cbn. repeat split; auto; intros; rewrite H; reflexivity.
Qed.
Print Assumptions c09_mutex_wait_is_parked.

Theorem c09_semaphore_bounds : forall cap ops, 0 < cap ->
  let s := s_run (s_init cap) ops in
  s_cap s = cap /\ 0 <= s_count s <= cap /\
  match s_waiters s with [] => True | w :: _ => s_count s < wamt w end.
Proof.
  intros cap ops Hc. destruct (sinv_reach cap ops Hc) as (C & B & _ & H). exact (conj C (conj B H)).
Qed.
Print Assumptions c09_semaphore_bounds.

Theorem c09_semaphore_conservation : forall cap ops, 0 < cap -> s_legit_run (s_init cap) ops ->
  let s := s_run (s_init cap) ops in s_count s + s_out s = cap /\ 0 <= s_out s <= cap.
Proof.
  intros cap ops Hc L. destruct (sinv_init cap Hc) as [I C].
  destruct (s_conserved_run cap ops _ I C L) as [C' P]. destruct (sinv_reach cap ops Hc) as (_ & ? & _). cbn. lia.
Qed.
Print Assumptions c09_semaphore_conservation.

Theorem c09_semaphore_fifo_wake : forall s k now s' woken, s_step s (SRelease k now) = (s', YWoken woken) ->
  exists pre, s_waiters s = pre ++ s_waiters s' /\ woken = map wid pre /\ s_woken s' = s_woken s ++ pre.
Proof.
  intros s k now s' woken. cbn. destruct (k <? 1); [discriminate|]. destruct (s_count s + k >? s_cap s); [discriminate|].
  pose proof (q_wake_spec (s_waiters s) (s_count s + k)) as Q.
  destruct (q_wake (s_count s + k) (s_waiters s)) as [[a1 pre] ws1]. destruct Q as (Hws & _).
  intros H; inversion H; subst. exists pre. cbn. auto.
Qed.
Print Assumptions c09_semaphore_fifo_wake.

Theorem c09_semaphore_arrival_order_refuted : ~ s_no_overtaking.
Proof.
  intros H.
  assert (E : s_waiters (s_run (s_init 3) [SAcqStart 0 2 0; SAcqStart 1 2 0]) = []).
  { apply (H 3 [SAcqStart 0 2 0; SAcqStart 1 2 0] 2 1 0); [lia|reflexivity]. }
  vm_compute in E. discriminate E.
Qed.
Print Assumptions c09_semaphore_arrival_order_refuted.

Theorem c09_semaphore_arrival_order_partial : forall cap ops c k now w rest, 0 < cap ->
  let s := s_run (s_init cap) ops in
  s_waiters s = w :: rest -> wamt w <= k -> snd (s_step s (SAcqStart c k now)) <> YDelay0.
Proof.
  intros cap ops c k now w rest Hc s. apply s_no_overtaking_partial. apply (sinv_reach cap ops Hc).
Qed.
Print Assumptions c09_semaphore_arrival_order_partial.

Theorem c09_semaphore_wait_is_parked : forall s c k now, 1 <= k <= s_cap s -> s_count s < k ->
  snd (s_step s (SAcqStart c k now)) = YPark /\
  (forall ke now', w_find c (s_woken s) = Some ke -> snd (s_step s (SAcqResume c now')) = YDone).
Proof.
  intros s c k now Hk Hlt. split.
  - rewrite s_acq_start_out. destruct (k <? 1) eqn:E1; [lia|]. destruct (k >? s_cap s) eqn:E2; [lia|].
    destruct (s_count s >=? k) eqn:E3; [lia|reflexivity].
  - intros [k' e] now' F. cbn. rewrite F. reflexivity.
Qed.
Print Assumptions c09_semaphore_wait_is_parked.

(** RWLock ([rw_legit_run]: clients release only locks they hold).
    On the holders: at most one writer, a writer excludes every reader, readers
    never exceed max_readers, and the counters equal the holder sets. *)
Theorem c09_rwlock_exclusion : forall mx ops, max_ok mx -> rw_legit_run (rw_init mx) ops ->
  let s := rw_run (rw_init mx) ops in
  (length (rw_wr s) <= 1)%nat /\ (rw_wr s <> [] -> rw_rd s = []) /\
  le_max mx (Z.of_nat (length (rw_rd s))) /\
  Z.of_nat (length (rw_rd s)) = rw_readers s /\ (rw_wlocked s = true <-> rw_wr s <> []).
Proof.
  intros mx ops Hm L s. destruct (rw_inv_init mx Hm) as [I0 G0].
  destruct (rw_inv_reach mx ops Hm) as [[_ Hr Hw Hle] _]. destruct (rw_ghost_run mx ops Hm _ I0 G0 L) as [G1 G2].
  fold s in Hr, Hw, Hle, G1, G2. rewrite G1. destruct (rw_wlocked s).
  - destruct (rw_wr s) as [|? [|]]; try discriminate. rewrite Hw in G1 by reflexivity.
    destruct (rw_rd s); [|discriminate]. repeat split; auto; discriminate.
  - destruct (rw_wr s); [|discriminate]. cbn. repeat split; auto; try lia; try tauto; discriminate.
Qed.
Print Assumptions c09_rwlock_exclusion.

(** The head of the queue is really blocked in every reachable state. *)
Theorem c09_rwlock_no_stranding : forall mx ops, max_ok mx -> rw_legit_run (rw_init mx) ops ->
  rw_head (rw_run (rw_init mx) ops).
Proof. intros mx ops Hm _. apply rw_inv_reach, Hm. Qed.
Print Assumptions c09_rwlock_no_stranding.

Theorem c09_rwlock_writer_preference : forall s c, has_waiting_writer s = true ->
  rw_try_read s c = (s, false) /\ snd (rw_step s (RWAcqRStart c 0)) = YPark.
Proof.
  intros s c H. cbn. unfold rw_try_read. destruct (rw_wlocked s); rewrite ?H; auto.
Qed.
Print Assumptions c09_rwlock_writer_preference.

Theorem c09_rwlock_fifo_wake : forall mx ops o wk, max_ok mx -> rw_legit_run (rw_init mx) ops ->
  let s := rw_run (rw_init mx) ops in
  snd (rw_step s o) = YWoken wk ->
  exists pre, rw_waiters s = pre ++ rw_waiters (fst (rw_step s o)) /\ wk = map wclient pre.
Proof. intros mx ops o wk _ _ s. apply rw_step_woken. Qed.
Print Assumptions c09_rwlock_fifo_wake.

Theorem c09_rwlock_no_overtaking : forall mx ops c now, max_ok mx -> rw_legit_run (rw_init mx) ops ->
  let s := rw_run (rw_init mx) ops in
  (snd (rw_step s (RWAcqRStart c now)) = YDelay0 \/ snd (rw_step s (RWAcqWStart c now)) = YDelay0) ->
  rw_waiters s = [].
Proof.
  intros mx ops c now Hm _. apply (rw_no_overtaking mx); [exact Hm|apply rw_inv_reach, Hm].
Qed.
Print Assumptions c09_rwlock_no_overtaking.

Theorem c09_limiter_static_bound : forall k limit ops, k <> KDynamic -> 1 <= limit ->
  let s := c_run (c_init k limit 1 None) ops in c_limit s = limit /\ 0 <= c_active s <= limit.
Proof.
  intros k limit ops K L. apply (c_bound_run ops (c_init k limit 1 None)); cbn; [intros D; contradiction|lia].
Qed.
Print Assumptions c09_limiter_static_bound.

(** DynamicConcurrency: PARTIAL bound — the limit stays within [min, max];
    [active <= limit] only for runs without set_limit / scale_* (a scale-down
    below [active] is not an over-admission). *)
Theorem c09_limiter_dynamic_partial : forall limit mn mx ops, 1 <= mn -> mn <= limit ->
  match mx with None => True | Some m => mn <= m /\ limit <= m end ->
  let s := c_run (c_init KDynamic limit mn mx) ops in
  mn <= c_limit s /\ match mx with None => True | Some m => c_limit s <= m end /\ 0 <= c_active s /\
  (existsb is_setlimit ops = false -> c_limit s = limit /\ c_active s <= limit).
Proof.
  intros limit mn mx ops Hm Hl Hx s.
  destruct (dyn_inv_reach limit mn mx ops Hl Hx) as (_ & _ & _ & D1 & D2 & D3). split; [exact D1|]. split; [exact D2|]. split; [exact D3|]. intros F.
  destruct (c_bound_run ops (c_init KDynamic limit mn mx) (fun _ => F)) as [E1 E2]; cbn; [lia|]. fold s in E1, E2. cbn in E1, E2. lia.
Qed.
Print Assumptions c09_limiter_dynamic_partial.

(** ... relative to the limit in force: a successful acquire never takes the count above it. *)
Theorem c09_limiter_dynamic_acquire : forall s w, c_kind s = KDynamic ->
  snd (c_step s (CAcquire w)) = CTrue -> c_active (fst (c_step s (CAcquire w))) <= c_limit s.
Proof. intros s w _. apply c_acquire_le_limit. Qed.
Print Assumptions c09_limiter_dynamic_acquire.

(** ConnectionPool, after the repair: the slot is counted before the set-up delay. *)
Theorem c09_pool_bound : forall mx mn polls ops, 0 <= mx ->
  let s := p_run (p_init mx mn polls) ops in
  Z.of_nat (length (p_active s)) <= mx /\ p_total s <= mx /\
  p_total s = Z.of_nat (length (p_idle s)) + Z.of_nat (length (p_active s)) + Z.of_nat (length (p_creating s)) /\
  NoDup (map fst (p_idle s) ++ p_active s) /\
  (p_waiters s <> [] -> p_idle s = [] /\ p_total s = mx).
Proof.
  intros mx mn polls ops H. destruct (pinv_run mx ops _ (pinv_init mx mn polls H)) as [_ Ht Hle [_ N] Hw].
  cbn. repeat split; auto; try lia; apply Hw; assumption.
Qed.
Print Assumptions c09_pool_bound.

Theorem c09_pool_fifo_handoff : forall s c conn now wid w rest, zmem conn (p_active s) = true ->
  p_waiters s = (wid, w) :: rest ->
  snd (p_step s (PRelease c conn now)) = PHandoff w /\
  p_waiters (fst (p_step s (PRelease c conn now))) = rest /\
  p_granted (fst (p_step s (PRelease c conn now))) = p_granted s ++ [(w, conn)] /\
  In conn (p_active (fst (p_step s (PRelease c conn now)))).
Proof.
  intros s c conn now wid w rest M W. cbn. rewrite M, W. cbn. repeat split; auto. apply in_or_app. right. left. auto.
Qed.
Print Assumptions c09_pool_fifo_handoff.

(** PARTIAL for "as soon as": the hand-off happens in the release step, but the
    queued client notices it only at its next poll tick. *)
Theorem c09_pool_grant_seen_at_next_poll_partial : forall s c k conn, assoc_find c (p_ticks s) = Some k ->
  assoc_find c (p_granted s) = Some conn -> snd (p_step s (PPoll c)) = PGot conn.
Proof. intros s c k conn T G. cbn. rewrite T, G. reflexivity. Qed.
Print Assumptions c09_pool_grant_seen_at_next_poll_partial.

Theorem c09_bulkhead_inv : forall mx mq mw ops, 1 <= mx -> 0 <= mq ->
  let s := b_run (b_init mx mq mw) ops in
  0 <= b_active s <= mx /\ b_active s = zlen (b_inflight s) /\ zlen (b_queue s) <= mq /\
  b_total s = b_accepted s + b_rejected s + b_timedout s + zlen (b_queue s) /\
  (b_queue s = [] \/ b_active s = mx).
Proof.
  intros mx mq mw ops H1 H2 s. destruct (binv_reach mx mq mw ops ltac:(lia) H2) as [_ _ Ha Hle Hq Hc Hs].
  fold s in Ha, Hle, Hq, Hc, Hs. pose proof (zlen_nonneg (b_inflight s)). repeat split; auto; try lia.
  destruct Hs; [left; assumption|right; lia].
Qed.
Print Assumptions c09_bulkhead_inv.

Theorem c09_bulkhead_fifo : forall s now req enq item rest k, b_active s < b_max s -> b_expired s now enq = false ->
  snd (b_drain s now ((req, enq, item) :: rest) k) = BForwarded (b_next s + 1) item /\
  b_queue (fst (b_drain s now ((req, enq, item) :: rest) k)) = rest.
Proof.
  intros s now req enq item rest k A X. cbn. destruct (b_active s >=? b_max s) eqn:E; [lia|]. rewrite X. cbn. auto.
Qed.
Print Assumptions c09_bulkhead_fifo.

Theorem c09_barrier_waiting_bound : forall parties ops, 1 <= parties ->
  Z.of_nat (length (br_waiters (br_run (br_init parties) ops))) < parties.
Proof.
  intros parties ops H. destruct (br_inv_run parties ops (br_init parties)) as [_ W]; [split; cbn; lia|lia].
Qed.
Print Assumptions c09_barrier_waiting_bound.

Theorem c09_barrier_trip : forall s c now, br_broken s = false ->
  Z.of_nat (length (br_waiters s)) + 1 >= br_parties s ->
  let s' := fst (br_step s (BrWaitStart c now)) in
  snd (br_step s (BrWaitStart c now)) = BrTripped (map fst (br_waiters s)) /\
  br_waiters s' = [] /\ br_released s' = br_released s ++ br_waiters s /\ br_gen s' = br_gen s + 1.
Proof.
  intros s c now B H. cbn. rewrite B. destruct (Z.of_nat (length (br_waiters s)) + 1 >=? br_parties s) eqn:E; [|lia].
  cbn. auto.
Qed.
Print Assumptions c09_barrier_trip.

Theorem c09_barrier_wait_is_parked : forall s c now, br_broken s = false ->
  Z.of_nat (length (br_waiters s)) + 1 < br_parties s ->
  (exists i, snd (br_step s (BrWaitStart c now)) = BrParked i) /\
  (forall enq now', assoc_find c (br_released s) = Some enq -> snd (br_step s (BrWaitResume c now')) = BrReturned).
Proof.
  intros s c now B H. cbn. rewrite B. destruct (Z.of_nat (length (br_waiters s)) + 1 >=? br_parties s) eqn:E; [lia|].
  cbn. split; [eexists; eauto|]. intros enq now' F. rewrite F. reflexivity.
Qed.
Print Assumptions c09_barrier_wait_is_parked.

(** FixedConcurrency / DynamicConcurrency / WeightedConcurrency of components/server/concurrency.py,
    as REGENERATED from the source on every run (Gen/ConcurrencyGen.v): every operation — acquire,
    release, has_capacity with ANY weight, set_limit, scale_up, scale_down — acts on the object as the
    limiter model's [c_step] acts on its abstraction [st_of], with the model's result; the read-only
    properties active / limit / available are the model's. *)
Theorem c09_code_limiters_refine_model : forall c o,
  (st_of (fst (code_c_step c o)) = fst (c_step (st_of c) o) /\ snd (code_c_step c o) = snd (c_step (st_of c) o))
  /\ match c with
     | LFixed x => FixedConcurrency_active x = c_active (st_of c) /\ FixedConcurrency_limit x = c_limit (st_of c)
                   /\ FixedConcurrency_available x = c_available (st_of c)
     | LDyn x => DynamicConcurrency_active x = c_active (st_of c) /\ DynamicConcurrency_limit x = c_limit (st_of c)
                 /\ DynamicConcurrency_available x = c_available (st_of c)
     | LWeighted x => WeightedConcurrency_active x = c_active (st_of c) /\ WeightedConcurrency_limit x = c_limit (st_of c)
                      /\ WeightedConcurrency_available x = c_available (st_of c)
     end.
Proof. intros c o. exact (conj (tie_c_step c o) (tie_c_reads c)). Qed.
Print Assumptions c09_code_limiters_refine_model.

(** The limiters AS TRANSLATED never exceed their limit: created empty with a limit >= 1, FixedConcurrency and
    WeightedConcurrency keep 0 <= in use <= limit for EVERY sequence of operations with any weights,
    and the limit never changes. *)
Theorem c09_code_limiter_static_bound : forall limit ops, 1 <= limit ->
  (let s := st_of (code_c_run (LFixed (mkFixedConcurrency limit 0)) ops) in c_limit s = limit /\ 0 <= c_active s <= limit)
  /\ (let s := st_of (code_c_run (LWeighted (mkWeightedConcurrency limit 0)) ops) in c_limit s = limit /\ 0 <= c_active s <= limit).
Proof. exact code_limiter_static_bound. Qed.
Print Assumptions c09_code_limiter_static_bound.

(** A successful acquire of the translated DynamicConcurrency never takes the count above the limit in force. *)
Theorem c09_code_limiter_dynamic_acquire : forall c w,
  snd (code_c_step (LDyn c) (CAcquire w)) = CTrue ->
  c_active (st_of (fst (code_c_step (LDyn c) (CAcquire w)))) <= c_limit (st_of (LDyn c)).
Proof. exact code_limiter_dynamic_acquire. Qed.
Print Assumptions c09_code_limiter_dynamic_acquire.
