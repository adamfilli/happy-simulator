(** C09 — the hypotheses of the conditional theorems are satisfiable (and the
    interesting branches are reachable): concrete runs, checked by computation. *)
From HS Require Import Base.Prelude C09.Model C09.Resource C09.Sync.
Local Open Scope Z_scope.

(** Resource: a release that wakes a queued acquirer (c09_resource_fifo_wake). *)
Example ex_resource_wake :
  snd (r_step (r_run (r_init 2) [RAcquire 0 2; RAcquire 1 1; RAcquire 2 1]) (RRelease 5 0)) = OReleased [1; 2].
Proof. vm_compute. reflexivity. Qed.

Example ex_resource_hyps : Forall force_pos [RAcquire 0 2; RForce 1 1; RRelease 5 0] /\
  existsb is_force [RAcquire 0 2; RAcquire 1 1; RRelease 5 0] = false.
Proof. split; [repeat constructor|reflexivity]. Qed.

(** Mutex: a legitimate contended run with a hand-off (c09_mutex_exclusion). *)
Example ex_mutex_legit :
  m_legit_run m_init [MAcqStart 0 0; MAcqStart 1 0; MRelease 0 5; MAcqResume 1 5; MRelease 1 7] /\
  m_locked (m_run m_init [MAcqStart 0 0; MAcqStart 1 0; MRelease 0 5; MAcqResume 1 5; MRelease 1 7]) = false.
Proof. vm_compute. repeat split; auto. Qed.

(** Semaphore: clients release what they hold (c09_semaphore_conservation). *)
Example ex_semaphore_legit :
  s_legit_run (s_init 2) [SAcqStart 0 2 0; SAcqStart 1 1 0; SRelease 2 5; SAcqResume 1 5; SRelease 1 6].
Proof. vm_compute. repeat split; discriminate. Qed.

(** RWLock: writer, queued reader and writer, releases (c09_rwlock_exclusion). *)
Example ex_rwlock_legit : max_ok (Some 2) /\
  rw_legit_run (rw_init (Some 2)) [RWAcqWStart 0 0; RWAcqRStart 1 0; RWAcqWStart 2 0; RWRelW 0 5; RWResume 1 5; RWRelR 1 6; RWResume 2 6; RWRelW 2 9].
Proof. vm_compute. repeat split; auto; discriminate. Qed.

(** Barrier: the second of two parties trips the barrier (c09_barrier_trip). *)
Example ex_barrier_trip :
  snd (br_step (br_run (br_init 2) [BrWaitStart 0 0]) (BrWaitStart 1 3)) = BrTripped [0].
Proof. vm_compute. reflexivity. Qed.

(** Bulkhead: queued request forwarded by a response (c09_bulkhead_fifo). *)
Example ex_bulkhead_queue :
  snd (b_step (b_run (b_init 1 1 None) [BRequest 0 0; BRequest 1 0; BRequest 2 0]) (BResponse 1 5)) = BForwarded 3 1 /\
  b_rejected (b_run (b_init 1 1 None) [BRequest 0 0; BRequest 1 0; BRequest 2 0]) = 1.
Proof. vm_compute. split; reflexivity. Qed.

(** Pool: three simultaneous acquirers with max_connections = 1 — one creates,
    two queue (the witness of the repaired over-admission). *)
Example ex_pool_simultaneous :
  let s := p_run (p_init 1 0 10) [PAcqStart 0; PAcqStart 1; PAcqStart 2] in
  p_total s = 1 /\ length (p_waiters s) = 2%nat /\ p_creating s = [0].
Proof. vm_compute. repeat split; reflexivity. Qed.

Example ex_limiter_hyps : KFixed <> KDynamic /\ KWeighted <> KDynamic /\ (1 <= 3).
Proof. repeat split; try discriminate; lia. Qed.
