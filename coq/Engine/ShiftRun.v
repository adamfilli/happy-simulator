(** ShiftRun — whole runs commute with a renumbering of the event identities
    ([run_sh]); what an observer sees does not mention them; and a scripted
    simulation whose events are numbered from any value [k] of the
    process-global counter (whatever ran earlier in the interpreter) starts in
    the renumbering of the state of the one numbered from 0. *)
From HS Require Import Base.Prelude Engine.Engine Engine.Script Engine.Shift.
Local Open Scope Z_scope.

Section ShiftRun.
  Variable k : Z.
  Notation sh := (sh k).
  Notation sh_u := (sh_u k).

  Definition sh_log (x : sev * Z * disposition) : sev * Z * disposition := (sh (fst (fst x)), snd (fst x), snd x).
  Definition sh_push (x : sev * Z) : sev * Z := (sh (fst x), snd x).

  Definition sh_st (s : sst) : sst :=
    mkSt (clock s) (map sh (heap s)) (primary s) (ctr s + k) (map (fun i => i + k) (cancelled s)) (sh_u (user s))
         (processed s) (ncancelled s) (map sh_log (log s)) (map sh_push (pushed s)).

  Definition sh_out (o : @outcome pay ustate) : @outcome pay ustate :=
    match o with Running s => Running (sh_st s) | Stopped s => Stopped (sh_st s) | Raised s => Raised (sh_st s) end.

  Lemma ev_ltb_sh a b : ev_ltb (sh a) (sh b) = ev_ltb a b.
  Proof.
    unfold ev_ltb, Shift.sh; cbn. destruct (ev_time a =? ev_time b); [lia|reflexivity].
  Qed.

  Lemma insert_sh e h : insert (sh e) (map sh h) = map sh (insert e h).
  Proof.
    induction h as [|x r IH]; cbn; [reflexivity|]. rewrite ev_ltb_sh. destruct (ev_ltb e x); cbn; [reflexivity|].
    rewrite IH. reflexivity.
  Qed.

  Lemma insert_all_sh es h : insert_all (map sh es) (map sh h) = map sh (insert_all es h).
  Proof.
    unfold insert_all. revert h; induction es as [|e r IH]; intros h; cbn; [reflexivity|]. rewrite insert_sh. apply IH.
  Qed.

  Lemma count_primary_sh (es : list sev) : count_primary (map sh es) = count_primary es.
  Proof. unfold count_primary. induction es as [|e r IH]; cbn; [reflexivity|]. rewrite IH. reflexivity. Qed.

  Lemma is_cancelled_sh s e : is_cancelled (sh_st s) (sh e) = is_cancelled s e.
  Proof.
    unfold is_cancelled; cbn. induction (cancelled s) as [|i l IH]; cbn; [reflexivity|]. rewrite IH. f_equal. lia.
  Qed.

  Lemma push_all_sh s es : push_all (sh_st s) (map sh es) = sh_st (push_all s es).
  Proof.
    unfold push_all, sh_st; cbn [clock heap primary ctr cancelled user processed ncancelled log pushed].
    rewrite insert_all_sh, count_primary_sh, map_app, map_rev, !map_map. reflexivity.
  Qed.

  Lemma init_state_sh start u (evs : list sev) c :
    init_state start (sh_u u) (map sh evs) (c + k) = sh_st (init_state start u evs c).
  Proof. exact (push_all_sh (mkSt start [] 0 c [] u 0 0 [] []) evs). Qed.

  Lemma invoke_script_sh u now e c :
    invoke_script (sh_u u) now (sh e) (c + k) =
      option_map (fun r => mkRes (sh_u (r_user r)) (map sh (r_new r)) (map (fun i => i + k) (r_cancel r)) (r_ctr r + k))
                 (invoke_script u now e c).
  Proof.
    unfold invoke_script. rewrite invoke_ctx_sh. destruct (invoke_ctx u now e c) as [c1|]; cbn; [|reflexivity].
    rewrite map_rev. reflexivity.
  Qed.

  Lemma pop_and_handle_sh s e h :
    pop_and_handle invoke_script (sh_st s) (sh e) (map sh h) = sh_out (pop_and_handle invoke_script s e h).
  Proof.
    unfold pop_and_handle. rewrite is_cancelled_sh.
    destruct (is_cancelled s e); [reflexivity|].
    change (ev_time (sh e)) with (ev_time e). change (clock (sh_st s)) with (clock s).
    destruct (ev_time e <? clock s); [reflexivity|].
    change (user (sh_st s)) with (sh_u (user s)). change (ctr (sh_st s)) with (ctr s + k).
    rewrite invoke_script_sh. destruct (invoke_script (user s) (ev_time e) e (ctr s)) as [r|]; cbn [option_map sh_out]; [|reflexivity].
    f_equal. cbn [r_user r_new r_cancel r_ctr]. change (cancelled (sh_st s)) with (map (fun i => i + k) (cancelled s)).
    rewrite <- map_app, <- push_all_sh. reflexivity.
  Qed.

  Lemma step_fast_sh t s : step_fast invoke_script t (sh_st s) = sh_out (step_fast invoke_script t s).
  Proof.
    unfold step_fast. change (heap (sh_st s)) with (map sh (heap s)). destruct (heap s) as [|e h]; [reflexivity|]. cbn [map].
    change (clock (sh_st s)) with (clock s). destruct (clock s <=? t); [apply pop_and_handle_sh|reflexivity].
  Qed.

  Lemma step_slow_sh t s : step_slow invoke_script t (sh_st s) = sh_out (step_slow invoke_script t s).
  Proof.
    unfold step_slow. change (heap (sh_st s)) with (map sh (heap s)). destruct (heap s) as [|e h]; [reflexivity|]. cbn [map].
    change (clock (sh_st s)) with (clock s). change (primary (sh_st s)) with (primary s).
    destruct (negb _); [reflexivity|]. destruct (_ && _); [reflexivity|apply pop_and_handle_sh].
  Qed.

  Lemma iterate_sh stepf : (forall s, stepf (sh_st s) = sh_out (stepf s)) ->
    forall fuel s, iterate stepf fuel (sh_st s) = sh_out (iterate stepf fuel s).
  Proof.
    intros Hs. induction fuel as [|f IH]; intros s; cbn; [reflexivity|].
    rewrite Hs. destruct (stepf s) as [s1|s1|s1]; cbn; [apply IH|reflexivity|reflexivity].
  Qed.

  Theorem run_sh fuel end_ns s : run invoke_script fuel end_ns (sh_st s) = sh_out (run invoke_script fuel end_ns s).
  Proof.
    unfold run. destruct end_ns as [t|]; apply iterate_sh; intros s0; [apply step_fast_sh|apply step_slow_sh].
  Qed.

  (** What an observer sees does not mention sort indices. *)
  Lemma delivered_sh s : delivered (sh_st s) = map sh (delivered s).
  Proof.
    unfold delivered. change (log (sh_st s)) with (map sh_log (log s)). rewrite (map_rev sh). f_equal.
    induction (log s) as [|[[e c] d] l IH]; [reflexivity|]. destruct d; cbn; rewrite ?IH; reflexivity.
  Qed.

  Lemma deliveries_of_sh s : deliveries_of (sh_st s) = deliveries_of s.
  Proof. unfold deliveries_of. rewrite delivered_sh, map_map. reflexivity. Qed.

  Lemma out_state_sh o : out_state (sh_out o) = sh_st (out_state o).
  Proof. destruct o; reflexivity. Qed.

  (** Scripted simulation whose pre-run events are numbered from [k]. *)
  Definition script_init_from (start : Z) (p : program) (pre : list prespec) : sst :=
    let c := fold_left (fun c ps =>
                          let '(c1, x) := create_emit 0 (mkEmit (mkEmit0 (ps_time ps) (e_target (em (ps_emit ps)))
                                                                    (e_type (em (ps_emit ps))) (e_daemon (em (ps_emit ps))))
                                                             (e_label (ps_emit ps)) (e_hooks (ps_emit ps))) c in
                          let c2 := push_ev x c1 in
                          if ps_cancel ps then mkI (ix_u c2) (ix_ctr c2) (ix_new c2) (ev_sort x :: ix_cancel c2) else c2)
                       pre (mkI (u_init p) k [] []) in
    let evs := rev (ix_new c) in
    let s := init_state start (ix_u c) evs (ix_ctr c) in
    mkSt (clock s) (heap s) (primary s) (ctr s) (ix_cancel c) (user s) (processed s) (ncancelled s) (log s) (pushed s).

  Lemma script_init_from_sh start p pre : script_init_from start p pre = sh_st (script_init start p pre).
  Proof.
    unfold script_init_from, script_init.
    set (F := fun c ps => _).
    assert (HF : forall l c, fold_left F l (sh_c k c) = sh_c k (fold_left F l c)).
    { induction l as [|ps l IH]; intros c; cbn; [reflexivity|]. rewrite <- IH. f_equal. unfold F.
      rewrite create_emit_sh. destruct (create_emit 0 _ c) as [c1 x]; cbn [fst snd].
      destruct (ps_cancel ps); reflexivity. }
    change (mkI (u_init p) k [] []) with (sh_c k (mkI (u_init p) 0 [] [])). rewrite HF.
    set (c := fold_left F pre _). clearbody c. cbn [sh_c ix_u ix_ctr ix_new ix_cancel].
    rewrite <- map_rev, init_state_sh. reflexivity.
  Qed.
End ShiftRun.
