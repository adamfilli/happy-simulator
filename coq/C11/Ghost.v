(** C11 — history variables and predicates for the cluster-level proof of leader
    completeness and state-machine safety.

    Ghost state threaded beside a run of the cluster model (none of it is in
    the code; the run of the model itself is unchanged, [crun_fst]):
    - [gg t]   the log of the leader of term [t] at its latest step as leader
               (the ghost of C11/LogMatching.v);
    - [gel t]  the log that leader had when it was elected;
    - [gacc a t m]  node [a], while in term [t], held a log whose first [m]
               entries were the first [m] entries of [gg t];
    - [gV]     one record (voter, term, candidate, voter's log) for every vote
               at the moment it was cast. *)
From HS Require Import Base.Prelude Base.Lists C11.Model C11.NodeProofs C11.Election C11.LogProofs C11.LogMatching C11.Steps.
Local Open Scope Z_scope.

Definition accT := Z -> Z -> nat -> Prop.
Definition vrec := (Z * Z * Z * list entry)%type.
Record ghost := mkGhost { gg : glog; gacc : accT; gV : list vrec; gel : glog }.

(** The vote (as a pair with the term) changed to [Some c] in this step. *)
Definition vchg (n n' : node) : option Z :=
  match voted n' with
  | Some c => if option_eqb Z.eqb (voted n) (Some c) && (term n' =? term n) then None else Some c
  | None => None
  end.

Definition capply (w : net) (G : ghost) (i : Z) (inp : input) : ghost :=
  if negb (zmem i (ids w)) then G else
  let n := nodes w i in
  let n' := fst (node_step n inp) in
  let g' := gupd (gg G) n' in
  mkGhost g'
    (fun a t m => gacc G a t m \/
                  (a = i /\ t = term n' /\ (m <= length (log n'))%nat /\ firstn m (log n') = firstn m (g' t)))
    (match vchg n n' with Some c => (i, term n', c, log n') :: gV G | None => gV G end)
    (match role n', role n with
     | Leader, Leader => gel G
     | Leader, _ => upd (gel G) (term n') (log n')
     | _, _ => gel G
     end).

Definition cstep (w : net) (G : ghost) (a : action) : ghost :=
  match a with
  | ADeliver k =>
      match nth_error (bag w) k with
      | None => G
      | Some (d, s, m) => capply (mkNet (ids w) (nodes w) (remove_nth k (bag w)) (cast w) (led w)) G d (IMsg s m)
      end
  | ADrop _ => G
  | ATimeout i => capply w G i (ITimeout false)
  | AHeartbeat i => capply w G i (IHeartbeat false)
  | ASubmit i c => capply w G i (ISubmit c)
  end.

Fixpoint crun (w : net) (G : ghost) (acts : list action) : net * ghost :=
  match acts with
  | [] => (w, G)
  | a :: r => crun (net_step w a) (cstep w G a) r
  end.

Definition G0 : ghost := mkGhost g0 (fun _ _ _ => False) [] g0.

Lemma crun_fst acts : forall w G, fst (crun w G acts) = net_run w acts.
Proof. unfold net_run. induction acts as [|a r IH]; intros w G; cbn; [reflexivity|apply IH]. Qed.

Lemma capply_gg w G i inp : gg (capply w G i inp) = gapply w (gg G) i inp.
Proof. unfold capply, gapply. destruct (negb (zmem i (ids w))); reflexivity. Qed.

Lemma cstep_gg w G a : gg (cstep w G a) = gstep w (gg G) a.
Proof.
  destruct a as [k|k|i|i|i c]; cbn [cstep gstep]; try apply capply_gg; [|reflexivity].
  destruct (nth_error (bag w) k) as [[[d s] m]|]; [apply capply_gg|reflexivity].
Qed.

Lemma crun_gg acts : forall w G, gg (snd (crun w G acts)) = snd (grun w (gg G) acts).
Proof. induction acts as [|a r IH]; intros w G; cbn [crun grun]; [reflexivity|]. rewrite IH, cstep_gg. reflexivity. Qed.

Definition hasP (g : glog) (L : list entry) (T : Z) (m : nat) : Prop :=
  (m <= length L)%nat /\ firstn m L = firstn m (g T).

(** position [m-1] of [g T] holds an entry created in term [T] itself *)
Definition ownT (g : glog) (T : Z) (m : nat) : Prop :=
  exists e, nth_error (g T) (m - 1) = Some e /\ fst e = T.

Definition bad (w : net) (g : glog) (T : Z) (m : nat) (hi : Z) : Prop :=
  exists t' x, T < t' /\ t' <= hi /\ In (t', x) (led w) /\ firstn m (g t') <> firstn m (g T).

Definition Vgood (w : net) (G : ghost) (v t : Z) (L : list entry) (hi : Z) : Prop :=
  forall T m, T < t -> gacc G v T m -> (1 <= m)%nat -> ownT (gg G) T m ->
    hasP (gg G) L T m \/ bad w (gg G) T m hi.

Definition uptodate (C L : list entry) : Prop :=
  last_term C > last_term L \/ (last_term C = last_term L /\ zlen C >= zlen L).

Definition dcommitted (w : net) (G : ghost) (T : Z) (m : nat) : Prop :=
  (1 <= m)%nat /\ ownT (gg G) T m /\
  exists Q, NoDup Q /\ nquorum (ids w) <= zlen Q /\ forall q, In q Q -> In q (ids w) /\ gacc G q T m.

Definition cprefix (w : net) (G : ghost) (tt : Z) (L : list entry) (c : Z) : Prop :=
  c = 0 \/ exists T m, T <= tt /\ dcommitted w G T m /\ 0 < c /\ c <= Z.of_nat m /\ c <= zlen L /\
                       firstn (Z.to_nat c) L = firstn (Z.to_nat c) (gg G T).

Definition ae_ok2 (G : list entry) (pli plt : Z) (ents : list (Z * Z * Z)) : Prop :=
  0 <= pli /\ pli <= zlen G /\
  ents = with_index pli (firstn (length ents) (skipn (Z.to_nat pli) G)) /\
  (0 < pli -> exists e, nth_error G (Z.to_nat pli - 1) = Some e /\ fst e = plt).

Definition msg_inv (w : net) (G : ghost) (d s : Z) (m : msg) : Prop :=
  match m with
  | RequestVote t c lli llt =>
      d <> s /\ t <= term (nodes w s) /\
      (term (nodes w s) = t -> role (nodes w s) = Candidate ->
         lli = zlen (log (nodes w s)) /\ llt = last_term (log (nodes w s))) /\
      (In (t, s) (led w) -> lli = zlen (gel G t) /\ llt = last_term (gel G t))
  | VoteResponse t true f => exists L, In (s, t, d, L) (gV G)
  | VoteResponse _ false _ => True
  | AppendEntries t lead pli plt ents lc =>
      ae_ok2 (gg G t) pli plt ents /\ 0 <= lc /\ lc <= pli + zlen ents /\ cprefix w G t (gg G t) lc
  | AppendResponse t true f mi =>
      f = s /\ In s (ids w) /\ s <> d /\ 0 <= mi /\ (0 < mi -> gacc G s t (Z.to_nat mi))
  | AppendResponse _ false _ _ => True
  end.

Record cinv (w : net) (G : ghost) : Prop := {
  K_lm : lm_inv w (gg G);
  K_ap : forall i, apply_inv (nodes w i) /\ ap_ok (nodes w i);
  K_term : forall i, 0 <= term (nodes w i) /\ (role (nodes w i) <> Follower -> 0 < term (nodes w i));
  K_logterm : forall i e, In e (log (nodes w i)) -> 0 < fst e /\ fst e <= term (nodes w i);
  K_g1 : forall t e, In e (gg G t) -> 0 < fst e /\ fst e <= t;
  K_el : forall t, exists sfx, gg G t = gel G t ++ sfx /\ (forall e, In e (gel G t) -> fst e < t) /\ (forall e, In e sfx -> fst e = t);
  K_down : forall a t m m', gacc G a t m -> (m' <= m)%nat -> gacc G a t m';
  K_acc : forall a t m, gacc G a t m -> In a (ids w) /\ t <= term (nodes w a) /\ (m <= length (gg G t))%nat;
  K_cur : forall a T m, gacc G a T m -> (1 <= m)%nat -> ownT (gg G) T m ->
            hasP (gg G) (log (nodes w a)) T m \/ bad w (gg G) T m (term (nodes w a));
  K_V : forall v t c L, In (v, t, c, L) (gV G) ->
          In v (ids w) /\ t <= term (nodes w v) /\ t <= term (nodes w c) /\ pok (gg G) L /\ Vgood w G v t L t /\
          (term (nodes w c) = t -> role (nodes w c) = Candidate -> uptodate (log (nodes w c)) L) /\
          (In (t, c) (led w) -> uptodate (gel G t) L);
  K_voted : forall i c, In i (ids w) -> voted (nodes w i) = Some c -> exists L, In (i, term (nodes w i), c, L) (gV G);
  K_votes : forall i, In i (ids w) -> role (nodes w i) <> Follower ->
              forall v, In v (votes (nodes w i)) -> exists L, In (v, term (nodes w i), i, L) (gV G);
  K_led : forall t a, In (t, a) (led w) ->
            exists vs, NoDup vs /\ nquorum (ids w) <= zlen vs /\
              forall v, In v vs -> exists L, In (v, t, a, L) (gV G) /\ Vgood w G v t L (t - 1);
  K_mi0 : forall i, NoDup (map fst (match_index (nodes w i))) /\
                    forall k, In k (map fst (match_index (nodes w i))) -> In k (peers (nodes w i));
  K_mi : forall i, In i (ids w) -> role (nodes w i) = Leader ->
           forall p m, afind p (match_index (nodes w i)) = Some m ->
             0 <= m /\ (0 < m -> gacc G p (term (nodes w i)) (Z.to_nat m));
  K_ni : forall i, In i (ids w) -> role (nodes w i) = Leader ->
           forall p, In p (peers (nodes w i)) ->
             1 <= aget p 1 (next_index (nodes w i)) /\ aget p 1 (next_index (nodes w i)) <= zlen (log (nodes w i)) + 1;
  K_msgs : forall d s m, In (d, s, m) (bag w) -> msg_inv w G d s m;
  K_ci : forall i, In i (ids w) -> cprefix w G (term (nodes w i)) (log (nodes w i)) (commit (nodes w i));
}.

Lemma vchg_some n n' c : vchg n n' = Some c -> voted n' = Some c /\ ~ (voted n = Some c /\ term n' = term n).
Proof.
  unfold vchg. destruct (voted n') as [c'|]; [|discriminate].
  destruct (option_eqb Z.eqb (voted n) (Some c') && (term n' =? term n)) eqn:E; [discriminate|].
  intros H. inversion H; subst c'. split; [reflexivity|]. intros [A B]. rewrite A in E. cbn in E. rewrite Z.eqb_refl in E. cbn in E. lia.
Qed.

Lemma vchg_none n n' c : vchg n n' = None -> voted n' = Some c -> voted n = Some c /\ term n' = term n.
Proof.
  unfold vchg. intros H V. rewrite V in H.
  destruct (option_eqb Z.eqb (voted n) (Some c) && (term n' =? term n)) eqn:E; [|discriminate].
  apply andb_true_iff in E as [E1 E2]. split; [|lia].
  destruct (voted n) as [c0|]; cbn in E1; [|discriminate]. apply Z.eqb_eq in E1. congruence.
Qed.

Lemma uptodate_refl L : uptodate L L.
Proof. right. split; [reflexivity|lia]. Qed.

Lemma uptodate_of_z C L : uptodate_z (zlen C) (last_term C) L -> uptodate C L.
Proof. unfold uptodate_z, uptodate. lia. Qed.

Lemma aef_ok2 n p : 1 <= aget p 1 (next_index n) -> aget p 1 (next_index n) <= zlen (log n) + 1 ->
  exists pli plt ents,
    append_entries_for n p = OSend p (AppendEntries (term n) (nid n) pli plt ents (commit n)) /\
    ae_ok2 (log n) pli plt ents /\ pli + zlen ents = zlen (log n).
Proof.
  intros H1 H2. unfold append_entries_for. set (prev := aget p 1 (next_index n) - 1).
  exists prev, (prev_term_of n prev), (entries_after (log n) prev). split; [reflexivity|].
  unfold entries_after. replace (prev <? 0) with false by lia.
  assert (Hs : length (skipn (Z.to_nat prev) (log n)) = (length (log n) - Z.to_nat prev)%nat) by apply skipn_length.
  unfold ae_ok2, zlen in *. split.
  - split; [lia|]. split; [lia|]. split.
    + rewrite with_index_length, firstn_all. reflexivity.
    + intros Hp. unfold prev_term_of. replace (prev >? 0) with true by lia.
      unfold log_get, zlen. replace ((prev <? 1) || (prev >? Z.of_nat (length (log n)))) with false by lia.
      replace (Z.to_nat (prev - 1)) with (Z.to_nat prev - 1)%nat by lia.
      destruct (nth_error (log n) (Z.to_nat prev - 1)) as [e|] eqn:E; [exists e; split; reflexivity|].
      apply nth_error_None in E. lia.
  - rewrite with_index_length, Hs. lia.
Qed.

Lemma last_term_nth (L : list entry) : L <> [] ->
  exists e, nth_error L (length L - 1) = Some e /\ last_term L = fst e.
Proof.
  intros H. destruct (exists_last H) as (L0 & e & ->).
  exists e. rewrite app_length. cbn [length]. replace (length L0 + 1 - 1)%nat with (length L0) by lia.
  rewrite nth_error_app_last. split; [reflexivity|]. unfold last_term. rewrite rev_app_distr. reflexivity.
Qed.

Lemma pok_prefix g L : pok g L -> L <> [] -> L = firstn (length L) (g (last_term L)).
Proof.
  intros P H. destruct (last_term_nth L H) as (e & He & Ht).
  pose proof (P _ _ He) as E. assert (length L >= 1)%nat by (destruct L; [contradiction|cbn; lia]).
  replace (S (length L - 1)) with (length L) in E by lia. rewrite firstn_all in E. rewrite Ht. exact E.
Qed.

Lemma hasP_len g L T m : hasP g L T m -> (m <= length (g T))%nat.
Proof.
  intros [A B]. assert (length (firstn m L) = m) by (rewrite firstn_length; lia).
  rewrite B, firstn_length in H. lia.
Qed.

Lemma prefix_nth {A} (C G : list A) k x : C = firstn (length C) G -> nth_error C k = Some x -> nth_error G k = Some x.
Proof. intros E H. rewrite E in H. apply nth_error_firstn_some in H as [_ H]. exact H. Qed.

Lemma prefix_firstn {A} (C G : list A) m : C = firstn (length C) G -> (m <= length C)%nat -> firstn m C = firstn m G.
Proof. intros E H. rewrite E at 1. rewrite firstn_firstn. f_equal. lia. Qed.

Lemma pok_last_bound g L j e :
  (forall t e, In e (g t) -> 0 < fst e /\ fst e <= t) -> pok g L -> nth_error L j = Some e -> fst e <= last_term L.
Proof.
  intros G1 P H. assert (Ne : L <> []) by (intros ->; destruct j; discriminate).
  apply (G1 (last_term L) e), (nth_error_In _ j), (prefix_nth L _ _ _ (pok_prefix g L P Ne) H).
Qed.

(** The up-to-date comparison carries a committed point from the voter's log to the candidate's. *)
Lemma uptodate_has g C L T m :
  (forall t e, In e (g t) -> 0 < fst e /\ fst e <= t) -> pok g C -> pok g L ->
  hasP g L T m -> (1 <= m)%nat -> ownT g T m -> uptodate C L ->
  (forall e, In e C -> T < fst e -> firstn m (g (fst e)) = firstn m (g T)) ->
  hasP g C T m.
Proof.
  intros G1 PC PL [HLm HL] Hm (e0 & He0 & Ht0) U IH.
  (* the entry at m-1 of L is e0, of term T *)
  assert (HL0 : nth_error L (m - 1) = Some e0) by (rewrite (firstn_nth_eq L (g T) m (m - 1)); [exact He0|lia|exact HL]).
  assert (T0 : 0 < T) by (rewrite <- Ht0; apply (G1 T e0), (nth_error_In _ _ He0)).
  assert (Tl : T <= last_term L) by (rewrite <- Ht0; apply (pok_last_bound g L _ e0 G1 PL HL0)).
  assert (Cne : C <> []) by (intros ->; unfold uptodate in U; cbn in U; lia).
  pose proof (pok_prefix g C PC Cne) as ECp. destruct (last_term_nth C Cne) as (eC & HeC & HtC).
  set (tc := last_term C) in *.
  destruct (Z.eq_dec tc T) as [Eq|Ne].
  - (* same last term: the candidate's log is at least as long *)
    assert (length L <= length C)%nat by (unfold uptodate, zlen in U; fold tc in U; lia).
    split; [lia|]. rewrite (prefix_firstn C (g tc) m ECp) by lia. rewrite Eq. reflexivity.
  - (* a later last term: C is a prefix of that term's log and, its last entry not being of a term up to T, reaches beyond m *)
    assert (Hlt : T < tc) by (unfold uptodate in U; fold tc in U; lia).
    pose proof (IH eC (nth_error_In _ _ HeC) ltac:(lia)) as Hg. rewrite <- HtC in Hg.
    assert (Hlen : (m <= length C)%nat).
    { destruct (Nat.le_gt_cases m (length C)) as [Hle|Hgt]; [exact Hle|exfalso].
      assert (Y : nth_error (g T) (length C - 1) = Some eC).
      { rewrite <- (firstn_nth_eq (g tc) (g T) m (length C - 1)); [apply (prefix_nth C (g tc) _ _ ECp HeC)| |exact Hg].
        destruct C; [contradiction|cbn [length] in *; lia]. }
      pose proof (G1 T eC (nth_error_In _ _ Y)). lia. }
    split; [exact Hlen|]. rewrite (prefix_firstn C (g tc) m ECp Hlen). exact Hg.
Qed.

Lemma neq_stable (A B s : list entry) m T :
  firstn m A <> firstn m B -> (m <= length B)%nat ->
  (forall e, In e B -> fst e <= T) -> (forall e, In e s -> T < fst e) ->
  firstn m (A ++ s) <> firstn m B.
Proof.
  intros N HB B1 S1 E.
  destruct (Nat.le_gt_cases m (length A)) as [Hle|Hgt].
  - rewrite firstn_app_le in E by exact Hle. contradiction.
  - destruct s as [|x s]; [rewrite app_nil_r in E; contradiction|].
    assert (X : nth_error (firstn m (A ++ x :: s)) (length A) = Some x).
    { rewrite nth_error_firstn by lia. rewrite nth_error_app2 by lia. rewrite Nat.sub_diag. reflexivity. }
    rewrite E in X. apply nth_error_firstn_some in X as [_ X].
    pose proof (B1 x (nth_error_In _ _ X)). pose proof (S1 x (or_introl eq_refl)). lia.
Qed.
