(** Python containers as the regenerated code ([Gen/*.v], written by
    harness/translate/py2coq.py) uses them: insertion-ordered dicts with integer
    keys and values as association lists, plus the list idioms of the subset. *)
From HS Require Import Base.Prelude.
Local Open Scope Z_scope.

Definition pydict := list (Z * Z).

Fixpoint dget (d : pydict) (k dflt : Z) : Z :=
  match d with
  | [] => dflt
  | (k', v) :: r => if k' =? k then v else dget r k dflt
  end.

Fixpoint dmem (d : pydict) (k : Z) : bool :=
  match d with
  | [] => false
  | (k', _) :: r => (k' =? k) || dmem r k
  end.

(** [d[k] = v]: overwrite in place, or append at the end (insertion order). *)
Fixpoint dset (d : pydict) (k v : Z) : pydict :=
  match d with
  | [] => [(k, v)]
  | (k', v') :: r => if k' =? k then (k', v) :: r else (k', v') :: dset r k v
  end.

Definition dsum (d : pydict) : Z := fold_right (fun kv acc => snd kv + acc) 0 d.

Fixpoint py_dropwhile (p : Z -> bool) (l : list Z) : list Z :=
  match l with
  | x :: r => if p x then py_dropwhile p r else l
  | [] => []
  end.

Definition py_hd (l : list Z) : Z := match l with x :: _ => x | [] => 0 end.

(** Keys are unique in a Python dict. *)
Fixpoint dwf (d : pydict) : bool :=
  match d with
  | [] => true
  | (k, _) :: r => negb (dmem r k) && dwf r
  end.

(** The abstraction used by the hand-written models: a total function with default 0. *)
Definition dfun (d : pydict) : Z -> Z := fun k => dget d k 0.

Lemma dget_dset d k v k2 dflt :
  dget (dset d k v) k2 dflt = if k2 =? k then v else dget d k2 dflt.
Proof.
  induction d as [|[k' v'] r IH]; cbn; [now rewrite Z.eqb_sym|].
  destruct (Z.eqb_spec k' k) as [->|Hne]; cbn; [rewrite (Z.eqb_sym k2); now destruct (k =? k2)|].
  rewrite IH. destruct (Z.eqb_spec k' k2) as [->|]; [|reflexivity]. now destruct (Z.eqb_spec k2 k).
Qed.

Lemma dget_dset_same d k v dflt : dget (dset d k v) k dflt = v.
Proof. now rewrite dget_dset, Z.eqb_refl. Qed.

Lemma dget_dset_other d k v k2 dflt : k2 <> k -> dget (dset d k v) k2 dflt = dget d k2 dflt.
Proof. intros Hne. rewrite dget_dset. now destruct (Z.eqb_spec k2 k). Qed.

Lemma dmem_dset d k v k2 : dmem (dset d k v) k2 = (k2 =? k) || dmem d k2.
Proof.
  induction d as [|[k' v'] r IH]; cbn.
  - rewrite Z.eqb_sym. destruct (k2 =? k); reflexivity.
  - destruct (k' =? k) eqn:E; cbn.
    + destruct (k' =? k2) eqn:E2; destruct (k2 =? k) eqn:E3; try reflexivity; lia.
    + rewrite IH. destruct (k' =? k2) eqn:E2; destruct (k2 =? k) eqn:E3; cbn; try reflexivity.
Qed.

Lemma dwf_dset d k v : dwf d = true -> dwf (dset d k v) = true.
Proof.
  induction d as [|[k' v'] r IH]; cbn; intros H; [reflexivity|].
  apply andb_true_iff in H as [H1 H2].
  destruct (k' =? k) eqn:E; cbn.
  - rewrite H1, H2. reflexivity.
  - rewrite dmem_dset, (IH H2). destruct (k' =? k) eqn:E2; [discriminate|]. cbn. rewrite H1. reflexivity.
Qed.

Lemma dget_not_mem d k dflt : dmem d k = false -> dget d k dflt = dflt.
Proof.
  induction d as [|[k' v'] r IH]; cbn; [reflexivity|].
  destruct (k' =? k); cbn; [discriminate|exact IH].
Qed.

Lemma dfun_dset d k v : forall k2, dfun (dset d k v) k2 = if k2 =? k then v else dfun d k2.
Proof. intros k2. unfold dfun. apply dget_dset. Qed.

Lemma dfun_cons k v r k2 : dfun ((k, v) :: r) k2 = if k2 =? k then v else dfun r k2.
Proof. unfold dfun; cbn [dget]. now rewrite Z.eqb_sym. Qed.

(** [d[k]] read: [None] is Python's KeyError. *)
Fixpoint dfind (d : pydict) (k : Z) : option Z :=
  match d with
  | [] => None
  | (k', v) :: r => if k' =? k then Some v else dfind r k
  end.

Lemma dfind_mem d k : dmem d k = true -> dfind d k = Some (dget d k 0).
Proof.
  induction d as [|[k' v'] r IH]; cbn; [discriminate|].
  destruct (k' =? k); cbn; [reflexivity|exact IH].
Qed.

(** Element-wise max merge of a dict into another, as the loops
    [for k, v in other.items(): self.d[k] = max(self.d.get(k, 0), v)] do it. *)
Definition dmerge_step (d : pydict) (kv : Z * Z) : pydict :=
  dset d (fst kv) (Z.max (dget d (fst kv) 0) (snd kv)).

Lemma dmerge_fold b : forall a, dwf b = true ->
  forall k, dfun (fold_left dmerge_step b a) k
            = if dmem b k then Z.max (dfun a k) (dfun b k) else dfun a k.
Proof.
  induction b as [|[k0 v0] r IH]; intros a Hwf k; cbn [fold_left dmem]; [reflexivity|].
  cbn [dwf] in Hwf. apply andb_true_iff in Hwf as [Hk0 Hr]. apply negb_true_iff in Hk0.
  rewrite (IH _ Hr k). unfold dmerge_step at 1 2; cbn [fst snd].
  rewrite !dfun_dset, dfun_cons, (Z.eqb_sym k0 k).
  destruct (k =? k0) eqn:E; cbn [orb].
  - assert (k = k0) by lia; subst k. rewrite Hk0. reflexivity.
  - reflexivity.
Qed.

Lemma dmerge_fold_wf b : forall a, dwf a = true -> dwf (fold_left dmerge_step b a) = true.
Proof.
  induction b as [|kv r IH]; intros a H; cbn [fold_left]; [exact H|].
  apply IH. unfold dmerge_step. apply dwf_dset. exact H.
Qed.

Lemma dmerge_fold_mem b : forall a k, dmem (fold_left dmerge_step b a) k = dmem a k || dmem b k.
Proof.
  induction b as [|[k0 v0] r IH]; intros a k; cbn [fold_left dmem]; [rewrite orb_false_r; reflexivity|].
  rewrite IH. unfold dmerge_step; cbn [fst snd]. rewrite dmem_dset.
  rewrite (Z.eqb_sym k0 k). destruct (k =? k0), (dmem a k), (dmem r k); reflexivity.
Qed.

Definition dnonneg (d : pydict) : Prop := forall k v, In (k, v) d -> 0 <= v.

Lemma dnonneg_dfun d : dnonneg d -> forall k, 0 <= dfun d k.
Proof.
  intros H k. unfold dfun. induction d as [|[k' v'] r IH]; cbn; [lia|].
  destruct (k' =? k).
  - apply (H k' v'). left; reflexivity.
  - apply IH. intros k2 v2 Hin. apply (H k2 v2). right; exact Hin.
Qed.

Lemma in_dset d k v p : In p (dset d k v) -> snd p = v \/ In p d.
Proof.
  induction d as [|[k' v'] r IH]; cbn; [intros [<-|[]]; now left|].
  destruct (k' =? k); cbn; intros [<-|H]; auto. destruct (IH H); auto.
Qed.

Lemma dnonneg_dset d k v : dnonneg d -> 0 <= v -> dnonneg (dset d k v).
Proof.
  intros H Hv k2 v2 Hin. apply in_dset in Hin as [E|Hin]; [cbn in E; now subst|exact (H _ _ Hin)].
Qed.

Lemma dfun_cons_notin k v r k2 : k <> k2 -> dfun ((k, v) :: r) k2 = dfun r k2.
Proof. intros H. rewrite dfun_cons. now destruct (Z.eqb_spec k2 k); [congruence|]. Qed.

Lemma dmem_false_notin r k : dmem r k = false -> ~ In k (map fst r).
Proof.
  induction r as [|[k' v'] r IH]; cbn; intros H Hin; [exact Hin|].
  apply orb_false_iff in H as [H1 H2]. destruct Hin as [E|Hin]; [subst; lia|exact (IH H2 Hin)].
Qed.

(** Sum of all values = sum of the abstraction over the dict's own key list. *)
Lemma dsum_keys d : dwf d = true -> dsum d = fold_right (fun k acc => dfun d k + acc) 0 (map fst d).
Proof.
  unfold dsum. induction d as [|[k v] r IH]; intros Hwf; [reflexivity|].
  cbn [dwf] in Hwf. apply andb_true_iff in Hwf as [Hk Hr]. apply negb_true_iff in Hk.
  cbn [fold_right map fst snd]. rewrite (IH Hr), dfun_cons, Z.eqb_refl. f_equal.
  (* the new head key is not among the keys of [r], so the abstraction of [r] is summed *)
  apply dmem_false_notin in Hk. clear IH. induction (map fst r) as [|k2 ks IHk]; cbn [fold_right]; [reflexivity|].
  rewrite (dfun_cons_notin k v r k2) by (intros ->; apply Hk; now left).
  rewrite IHk by (intros E; apply Hk; now right). reflexivity.
Qed.

(** Python list indexing and slicing (step 1), exactly: negative positions count
    from the end; an index out of range is an IndexError ([None]); slice bounds
    are clamped. *)
Definition py_index {A} (l : list A) (i : Z) : option A :=
  let n := Z.of_nat (length l) in
  let j := if i <? 0 then i + n else i in
  if (j <? 0) || (j >=? n) then None else nth_error l (Z.to_nat j).

Definition py_clamp (n : Z) (b : option Z) (dflt : Z) : Z :=
  match b with
  | None => dflt
  | Some i => let j := if i <? 0 then i + n else i in Z.max 0 (Z.min n j)
  end.

Definition py_slice {A} (l : list A) (lo hi : option Z) : list A :=
  let n := Z.of_nat (length l) in
  let a := py_clamp n lo 0 in
  let b := py_clamp n hi n in
  firstn (Z.to_nat (b - a)) (skipn (Z.to_nat a) l).

(** Capacities: a field declared [cap] holds [float("inf")] ([None]) or an
    integer; [n >= capacity] is then [py_cap_le capacity n]. *)
Definition py_cap_le (c : option Z) (n : Z) : bool :=
  match c with None => false | Some c => c <=? n end.

(** [deque.pop()] / [list.pop()]: the LAST element; [None] = IndexError. *)
Definition py_pop_last {A} (l : list A) : option (list A * A) :=
  match rev l with [] => None | x :: r => Some (rev r, x) end.

Lemma py_pop_last_snoc {A} (l : list A) x : py_pop_last (l ++ [x]) = Some (l, x).
Proof. unfold py_pop_last. rewrite rev_app_distr. cbn. now rewrite rev_involutive. Qed.

Lemma py_pop_last_rev {A} (l : list A) :
  py_pop_last (rev l) = match l with [] => None | x :: r => Some (rev r, x) end.
Proof. unfold py_pop_last. rewrite rev_involutive. reflexivity. Qed.

(** [heapq] on a list that is only ever touched through heappush / heappop /
    [h[0]] / [len]: CPython's binary heap is outside /repo; it is rendered as a
    list sorted by the element order [lt] (a new element goes before the first
    one it is smaller than), whose head is what [heappop] and [h[0]] return when
    [lt] is a strict total order — the same trusted reading as for the event
    heap of the engine model. *)
Fixpoint py_heappush {A} (lt : A -> A -> bool) (h : list A) (x : A) : list A :=
  match h with
  | [] => [x]
  | e :: r => if lt x e then x :: h else e :: py_heappush lt r x
  end.

(** [insm] is the model's own insertion, whatever it is called: it only has to
    satisfy the two insertion equations for an order that [lt] encodes. *)
Lemma py_heappush_tie {A B} (f : A -> B) (lt : B -> B -> bool) (ltm : A -> A -> bool)
      (insm : A -> list A -> list A) :
  (forall x, insm x [] = [x]) ->
  (forall x e r, insm x (e :: r) = if ltm x e then x :: e :: r else e :: insm x r) ->
  (forall x e, lt (f x) (f e) = ltm x e) ->
  forall x h, py_heappush lt (map f h) (f x) = map f (insm x h).
Proof.
  intros Hnil Hcons Hlt x h. induction h as [|e r IH]; cbn [map py_heappush]; [now rewrite Hnil|].
  rewrite Hlt, Hcons. destruct (ltm x e); cbn [map]; [reflexivity|]. now rewrite IH.
Qed.

(** (Ordered)dict deletion, [move_to_end] (the key is present: the code guards it with [k in d]),
    list membership and [list.remove] (first occurrence; present). *)
Fixpoint ddel (d : pydict) (k : Z) : pydict :=
  match d with
  | [] => []
  | (k', v) :: r => if k' =? k then r else (k', v) :: ddel r k
  end.
Definition dmove_end (d : pydict) (k : Z) : pydict :=
  match dfind d k with Some v => ddel d k ++ [(k, v)] | None => d end.
Definition py_in (l : list Z) (x : Z) : bool := existsb (Z.eqb x) l.
Fixpoint py_remove1 (l : list Z) (x : Z) : list Z :=
  match l with
  | [] => []
  | y :: r => if y =? x then r else y :: py_remove1 r x
  end.

(** [min(l)] / [max(l)] of a list of integers; [None] = ValueError (empty). *)
Definition py_min_list (l : list Z) : option Z :=
  match l with [] => None | x :: r => Some (fold_left Z.min r x) end.
Definition py_max_list (l : list Z) : option Z :=
  match l with [] => None | x :: r => Some (fold_left Z.max r x) end.

(** [range(a, b)] and [range(a, b, -1)] as lists. *)
Fixpoint py_range_up (lo : Z) (k : nat) : list Z :=
  match k with O => [] | S k' => lo :: py_range_up (lo + 1) k' end.
Definition py_range (a b : Z) : list Z := py_range_up a (Z.to_nat (b - a)).
Fixpoint py_range_down (hi : Z) (k : nat) : list Z :=
  match k with O => [] | S k' => hi :: py_range_down (hi - 1) k' end.
Definition py_range_desc (a b : Z) : list Z := py_range_down a (Z.to_nat (a - b)).

(** [sorted(l, key=f)] with an integer key: Python's sort is stable (elements
    with equal keys keep their order). *)
Fixpoint py_ins_by {A} (key : A -> Z) (x : A) (l : list A) : list A :=
  match l with
  | [] => [x]
  | y :: r => if key x <=? key y then x :: l else y :: py_ins_by key x r
  end.
Definition py_sorted_by {A} (key : A -> Z) (l : list A) : list A := fold_right (py_ins_by key) [] l.

(** Shape-independent automation for tie lemmas: case-split on every boolean test
    and every option scrutinee that occurs in the goal, then close by computation /
    linear arithmetic.  Used so that a harmless restructuring of the translated
    source (swapped branches, early returns, De Morgan) does not break the tie. *)
Ltac tie_split :=
  repeat match goal with
  | |- context [Z.ltb ?a ?b] => destruct (Z.ltb a b) eqn:?
  | |- context [Z.leb ?a ?b] => destruct (Z.leb a b) eqn:?
  | |- context [Z.gtb ?a ?b] => destruct (Z.gtb a b) eqn:?
  | |- context [Z.geb ?a ?b] => destruct (Z.geb a b) eqn:?
  | |- context [Z.eqb ?a ?b] => destruct (Z.eqb a b) eqn:?
  | |- context [if ?c then _ else _] => is_var c; destruct c
  | |- context [match ?x with Some _ => _ | None => _ end] => is_var x; destruct x
  | |- context [if ?c then _ else _] =>
      lazymatch c with
      | negb _ => fail | andb _ _ => fail | orb _ _ => fail
      | _ => destruct c eqn:?
      end
  end.
Ltac tie_close := cbn; repeat split; first [reflexivity | (exfalso; lia) | lia | (f_equal; lia)].
