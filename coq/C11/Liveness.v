(** C11 — liveness on a fault-free network, cluster level, for the canonical
    schedule of an in-sync cluster of ANY size >= 2: the leader takes a command,
    a heartbeat round replicates it to every follower and collects the replies
    (the leader commits and applies it), a second round hands the commit index
    to the followers (each commits and applies it).  By induction, every
    command submitted to the established leader is committed and applied, in
    submission order, by every node. *)
From HS Require Import Base.Prelude Base.Lists C11.Model C11.NodeProofs C11.Election C11.LogProofs C11.Steps C11.Progress C11.Progress2 C11.Ghost C11.Completeness.
Local Open Scope Z_scope.

Lemma net_run_app w a b : net_run w (a ++ b) = net_run (net_run w a) b.
Proof. unfold net_run. apply fold_left_app. Qed.

Lemma net_apply_nodes_bag w i inp : In i (ids w) ->
  let r := node_step (nodes w i) inp in
  nodes (net_apply w i inp) = upd (nodes w) i (fst r) /\ bag (net_apply w i inp) = bag w ++ sends_of i (snd r).
Proof. intros Hi. rewrite net_apply_eq by exact Hi. split; reflexivity. Qed.

Lemma deliver_head w d s m rs : bag w = (d, s, m) :: rs -> In d (ids w) ->
  let r := node_step (nodes w d) (IMsg s m) in
  let w' := net_step w (ADeliver 0) in
  nodes w' = upd (nodes w) d (fst r) /\ bag w' = rs ++ sends_of d (snd r).
Proof.
  intros Hb Hd. cbn [net_step]. rewrite Hb. cbn [nth_error remove_nth].
  exact (net_apply_nodes_bag (mkNet (ids w) (nodes w) rs (cast w) (led w)) d (IMsg s m) Hd).
Qed.

Lemma net_apply_ident w i inp j :
  nid (nodes (net_apply w i inp) j) = nid (nodes w j) /\ peers (nodes (net_apply w i inp) j) = peers (nodes w j).
Proof.
  destruct (in_dec Z.eq_dec i (ids w)) as [Hi|Hi]; [|rewrite net_apply_out by exact Hi; split; reflexivity].
  rewrite (proj1 (net_apply_nodes_bag w i inp Hi)). apply upd_case; [intros ->|split; reflexivity].
  destruct (node_step_spec (nodes w i) inp) as ((Vn & Vp & _) & _). split; assumption.
Qed.

Lemma net_run_ident acts w j :
  nid (nodes (net_run w acts) j) = nid (nodes w j) /\ peers (nodes (net_run w acts) j) = peers (nodes w j).
Proof.
  apply (net_run_ind (fun w' => nid (nodes w' j) = nid (nodes w j) /\ peers (nodes w' j) = peers (nodes w j))); [auto| |split; reflexivity].
  intros w' b i inp E _ _. destruct (net_apply_ident (sub_bag w' b) i inp j) as [-> ->]. exact E.
Qed.

(** Delivering, in order, one message from [L] to each follower of [fs]
    (the head of the bag), each follower answering [L] with one message. *)
Lemma deliver_to_followers L m resp (P : Z -> node -> Prop) : forall fs w rs,
  bag w = map (fun j => (j, L, m j)) fs ++ rs -> NoDup fs -> (forall j, In j fs -> In j (ids w)) ->
  (forall j, In j fs -> exists f', node_step (nodes w j) (IMsg L (m j)) = (f', [OElectionTimer; OSend L (resp j)]) /\ P j f') ->
  let w' := net_run w (repeat (ADeliver 0) (length fs)) in
  bag w' = rs ++ map (fun j => (L, j, resp j)) fs /\
  (forall j, In j fs -> P j (nodes w' j)) /\
  (forall i, ~ In i fs -> nodes w' i = nodes w i).
Proof.
  induction fs as [|j fs IH]; intros w rs Hb ND Hin Hout; cbn zeta.
  - cbn. rewrite app_nil_r. split; [exact Hb|]. split; [intros j []|reflexivity].
  - apply NoDup_cons_iff in ND as [Nj ND'].
    destruct (deliver_head w j L (m j) _ Hb (Hin j (or_introl eq_refl))) as (N1 & B1). cbv zeta in N1, B1.
    destruct (Hout j (or_introl eq_refl)) as (f' & E & Pj). rewrite E in N1, B1. cbn [fst snd sends_of] in N1, B1.
    rewrite <- app_assoc in B1.
    change (net_run w (repeat (ADeliver 0) (length (j :: fs))))
      with (net_run (net_step w (ADeliver 0)) (repeat (ADeliver 0) (length fs))).
    set (w1 := net_step w (ADeliver 0)) in *.
    destruct (IH w1 (rs ++ [(L, j, resp j)]) B1 ND') as (A2 & A3 & A4).
    + intros x Hx. rewrite (net_run_ids [ADeliver 0] w : ids w1 = ids w). apply Hin. right. exact Hx.
    + intros x Hx. rewrite N1, upd_other by (intros ->; contradiction). apply Hout. right. exact Hx.
    + split; [rewrite A2, <- app_assoc; reflexivity|]. split.
      * intros x [<-|Hx]; [|exact (A3 x Hx)]. rewrite (A4 j Nj), N1, upd_same. exact Pj.
      * intros i Hi. rewrite A4, N1 by (intros X; apply Hi; right; exact X). apply upd_other. intros ->. apply Hi. left. reflexivity.
Qed.

(** Delivering, in order, one reply from each follower of [fs] to [L], none of
    which makes [L] send anything. *)
Lemma deliver_to_leader L resp (Inv : node -> Prop) :
  (forall n j, Inv n -> Inv (fst (node_step n (IMsg j (resp j)))) /\ snd (node_step n (IMsg j (resp j))) = []) ->
  forall fs w, bag w = map (fun j => (L, j, resp j)) fs -> In L (ids w) -> Inv (nodes w L) ->
  let w' := net_run w (repeat (ADeliver 0) (length fs)) in
  bag w' = [] /\
  nodes w' L = fold_left (fun n x => fst (node_step n (IMsg x (resp x)))) fs (nodes w L) /\
  (forall i, i <> L -> nodes w' i = nodes w i).
Proof.
  intros Hstep. induction fs as [|j fs IH]; intros w Hb HL HI; cbn zeta.
  - cbn. split; [exact Hb|]. split; reflexivity.
  - destruct (deliver_head w L j (resp j) _ Hb HL) as (N1 & B1). cbv zeta in N1, B1.
    destruct (Hstep _ j HI) as [HI1 Ho]. rewrite Ho, app_nil_r in B1.
    change (net_run w (repeat (ADeliver 0) (length (j :: fs))))
      with (net_run (net_step w (ADeliver 0)) (repeat (ADeliver 0) (length fs))).
    set (w1 := net_step w (ADeliver 0)) in *.
    assert (NL1 : nodes w1 L = fst (node_step (nodes w L) (IMsg j (resp j)))) by (rewrite N1; apply upd_same).
    destruct (IH w1 B1) as (A2 & A3 & A4).
    + rewrite (net_run_ids [ADeliver 0] w : ids w1 = ids w). exact HL.
    + rewrite NL1. exact HI1.
    + split; [exact A2|]. split; [rewrite A3, NL1; reflexivity|].
      intros i Hi. rewrite (A4 i Hi), N1. apply upd_other, Hi.
Qed.

Lemma count_ge_filter hi m : count_ge hi m = zlen (filter (fun kv => snd kv >=? hi) m).
Proof.
  induction m as [|[k v] r IH]; cbn [count_ge filter snd]; [reflexivity|]. rewrite IH.
  destruct (v >=? hi); unfold zlen; cbn [length]; lia.
Qed.

Lemma afind_some_in k v m : afind k m = Some v -> In (k, v) m.
Proof.
  induction m as [|[k' v'] r IH]; cbn [afind]; [discriminate|]. destruct (k =? k') eqn:E; [|right; auto].
  intros H. inversion H. left. f_equal. lia.
Qed.

Lemma count_ge_lb hi m fs : NoDup fs ->
  (forall j, In j fs -> exists v, afind j m = Some v /\ hi <= v) -> zlen fs <= count_ge hi m.
Proof.
  intros ND H. rewrite count_ge_filter. unfold zlen. rewrite <- (map_length fst (filter _ m)).
  apply Nat2Z.inj_le, NoDup_incl_length; [exact ND|]. intros j Hj. destruct (H j Hj) as (v & Hv & Hle).
  apply (in_map fst _ (j, v)), filter_In. split; [apply afind_some_in, Hv|cbn; lia].
Qed.

Lemma fold_aset_find v : forall fs (m : list (Z * Z)) j,
  afind j (fold_left (fun a x => aset x v a) fs m) = if zmem j fs then Some v else afind j m.
Proof.
  induction fs as [|x fs IH]; intros m j; cbn [fold_left]; [reflexivity|]. rewrite IH, afind_aset.
  unfold zmem. cbn [existsb]. destruct (j =? x), (existsb (Z.eqb j) fs); reflexivity.
Qed.

Lemma fold_aset_get v fs (m : list (Z * Z)) j d :
  aget j d (fold_left (fun a x => aset x v a) fs m) = if zmem j fs then v else aget j d m.
Proof.
  revert m. induction fs as [|x fs IH]; intros m; cbn [fold_left]; [reflexivity|]. rewrite IH, aget_aset.
  unfold zmem. cbn [existsb]. destruct (j =? x), (existsb (Z.eqb j) fs); reflexivity.
Qed.

Lemma fold_aset_nodup v : forall fs (m : list (Z * Z)), NoDup (map fst m) -> NoDup (map fst (fold_left (fun a x => aset x v a) fs m)).
Proof. induction fs as [|x fs IH]; intros m H; cbn [fold_left]; [exact H|]. apply IH, aset_nodup, H. Qed.

Lemma fold_aset_le v b fs (m : list (Z * Z)) : v <= b -> (forall k x, afind k m = Some x -> x <= b) ->
  forall k x, afind k (fold_left (fun a y => aset y v a) fs m) = Some x -> x <= b.
Proof. intros Hv Hm k x. rewrite fold_aset_find. destruct (zmem k fs); [intros H; inversion H; subst; exact Hv|apply Hm]. Qed.

Lemma all_matched_quorum hi fs (m : list (Z * Z)) : NoDup fs -> fs <> [] ->
  1 + count_ge hi (fold_left (fun a x => aset x hi a) fs m) >= (zlen fs + 1) / 2 + 1.
Proof.
  intros ND Hne. assert (1 <= zlen fs) by (unfold zlen; destruct fs; [contradiction|cbn [length]; lia]).
  enough (zlen fs <= count_ge hi (fold_left (fun a x => aset x hi a) fs m)) by dlia.
  apply count_ge_lb; [exact ND|]. intros j Hj. exists hi. split; [|apply Z.le_refl].
  rewrite fold_aset_find, (proj2 (zmem_in j fs) Hj). reflexivity.
Qed.

(** The leader's state after the replies of [fs] (each reporting [mi]). *)
Lemma leader_fold T mi : forall fs n n',
  fold_left (fun a x => fst (node_step a (IMsg x (AppendResponse T true x mi)))) fs n = n' ->
  role n = Leader -> term n = T -> apply_inv n -> ap_ok n ->
  role n' = Leader /\ term n' = T /\ apply_inv n' /\ ap_ok n' /\ log n' = log n /\
  next_index n' = fold_left (fun a x => aset x (mi + 1) a) fs (next_index n) /\
  match_index n' = fold_left (fun a x => aset x mi a) fs (match_index n) /\
  (fs <> [] -> forall hi e, log_get (log n) hi = Some e -> fst e = T ->
     1 + count_ge hi (match_index n') >= quorum n -> hi <= commit n').
Proof.
  induction fs as [|j fs IH]; intros n n' E R Tn AI AP; cbn [fold_left] in *.
  { subst n'. split; [exact R|]. split; [exact Tn|]. split; [exact AI|]. split; [exact AP|]. repeat split. intros []. reflexivity. }
  destruct (leader_reply n j j mi T R Tn AI) as (n1 & E1 & X2 & X3 & X4 & X6 & X7 & X8 & _ & X10 & X11 & X12).
  rewrite E1 in E. cbn [fst] in E.
  destruct (IH n1 n' E X4 X3 X10 (X11 AP)) as (Y1 & Y2 & Y3 & Y4 & Y5 & Y9 & Y10 & Y11).
  split; [exact Y1|]. split; [exact Y2|]. split; [exact Y3|]. split; [exact Y4|]. split; [congruence|].
  split; [rewrite Y9, X7; reflexivity|]. split; [rewrite Y10, X8; reflexivity|].
  intros _ hi e G Te Q. destruct fs as [|j' fs'].
  - cbn [fold_left] in E, Y10. subst n'. apply (X12 hi e G Te). rewrite <- X8. exact Q.
  - apply (Y11 ltac:(discriminate) hi e); [rewrite X2; exact G|exact Te|]. unfold quorum in *. rewrite X6. exact Q.
Qed.

Lemma sends_of_aes L n ps :
  sends_of L (map (append_entries_for n) ps ++ [OHeartbeatTimer]) = map (fun p => (p, L, ae_msg n p)) ps.
Proof. induction ps as [|p ps IH]; cbn [map app sends_of append_entries_for]; [reflexivity|]. rewrite IH. reflexivity. Qed.

Lemma heartbeat_sends w L : In L (ids w) -> role (nodes w L) = Leader ->
  let w' := net_step w (AHeartbeat L) in
  (forall i, nodes w' i = nodes w i) /\
  bag w' = bag w ++ map (fun j => (j, L, ae_msg (nodes w L) j)) (peers (nodes w L)).
Proof.
  intros HL R. cbn [net_step]. destruct (net_apply_nodes_bag w L (IHeartbeat false) HL) as (-> & ->).
  cbn [node_step]. unfold handle_heartbeat. rewrite R. cbn [role_eqb negb fst snd]. unfold send_append_entries. rewrite sends_of_aes.
  split; [|reflexivity]. intros i. apply upd_case; [intros ->|]; reflexivity.
Qed.

Record rstate (w : net) (L T : Z) (LGL FL : list entry) (cF nx : Z) : Prop := {
  R_nodup : NoDup (ids w);
  R_L : In L (ids w);
  R_id : forall i, nid (nodes w i) = i /\ peers (nodes w i) = filter (fun p => negb (Z.eqb p i)) (ids w);
  R_two : peers (nodes w L) <> [];
  R_bag : bag w = [];
  R_lead : role (nodes w L) = Leader /\ term (nodes w L) = T /\ log (nodes w L) = LGL /\ apply_inv (nodes w L) /\ ap_ok (nodes w L);
  R_next : forall j, In j (peers (nodes w L)) -> aget j 1 (next_index (nodes w L)) = nx;
  R_match : NoDup (map fst (match_index (nodes w L))) /\ forall k v, afind k (match_index (nodes w L)) = Some v -> v <= zlen LGL;
  R_foll : forall j, In j (ids w) -> j <> L -> log (nodes w j) = FL /\ term (nodes w j) = T /\ commit (nodes w j) = cF /\
                                               apply_inv (nodes w j) /\ ap_ok (nodes w j);
}.

Lemma peers_facts w L : NoDup (ids w) -> In L (ids w) ->
  (forall i, nid (nodes w i) = i /\ peers (nodes w i) = filter (fun p => negb (Z.eqb p i)) (ids w)) ->
  NoDup (peers (nodes w L)) /\ (forall j, In j (peers (nodes w L)) <-> In j (ids w) /\ j <> L) /\
  (forall j, In j (ids w) -> j <> L -> zmem L (peers (nodes w j)) = true).
Proof.
  intros ND HL Hid. destruct (Hid L) as [_ ->]. split; [apply NoDup_filter, ND|]. split.
  - intros j. rewrite filter_In. split; intros [A B]; split; auto; [apply negb_true_iff in B; lia|apply negb_true_iff; lia].
  - intros j Hj Hne. destruct (Hid j) as [_ ->]. apply zmem_in, filter_In. split; [exact HL|]. apply negb_true_iff. lia.
Qed.

(** One heartbeat round on a fault-free network. *)
Theorem heartbeat_round w L T LGL (p : nat) cF :
  rstate w L T LGL (firstn p LGL) cF (Z.of_nat p + 1) -> (p <= length LGL)%nat ->
  (exists e, log_get LGL (zlen LGL) = Some e /\ fst e = T) ->
  let nf := length (peers (nodes w L)) in
  let w' := net_run w ([AHeartbeat L] ++ repeat (ADeliver 0) nf ++ repeat (ADeliver 0) nf) in
  rstate w' L T LGL LGL (Z.max cF (commit (nodes w L))) (zlen LGL + 1) /\ commit (nodes w' L) = zlen LGL.
Proof.
  intros [ND HL Hid Htwo Hbag (RL & TL & LL & AIL & APL) Hnext (MND & Mle) Hfoll] Hp (eL & GeL & TeL). cbv zeta.
  destruct (peers_facts w L ND HL Hid) as (NDF & InF & ZmF).
  destruct (Hid L) as [NidL _].
  set (nL := nodes w L) in *. set (F := peers nL) in *.
  set (resp := fun j => AppendResponse T true j (zlen LGL)).
  pose proof (net_run_ident ([AHeartbeat L] ++ repeat (ADeliver 0) (length F) ++ repeat (ADeliver 0) (length F)) w) as Ident.
  pose proof (net_run_ids ([AHeartbeat L] ++ repeat (ADeliver 0) (length F) ++ repeat (ADeliver 0) (length F)) w) as I3.
  rewrite !net_run_app in *. change (net_run w [AHeartbeat L]) with (net_step w (AHeartbeat L)) in *.
  destruct (heartbeat_sends w L HL RL) as (N1 & B1). cbv zeta in N1, B1. fold nL in B1. fold F in B1.
  rewrite Hbag in B1. cbn [app] in B1.
  set (w1 := net_step w (AHeartbeat L)) in *.
  assert (I1 : ids w1 = ids w) by apply (net_run_ids [AHeartbeat L]).
  set (P := fun (j : Z) f' => log f' = LGL /\ term f' = T /\ commit f' = Z.max cF (commit nL) /\ apply_inv f' /\ ap_ok f').
  destruct (deliver_to_followers L (ae_msg nL) resp P F w1 []) as (B2 & N2 & N2').
  { rewrite app_nil_r. exact B1. }
  { exact NDF. }
  { intros j Hj. rewrite I1. apply InF, Hj. }
  { intros j Hj. rewrite N1. pose proof (Hnext j Hj) as Hnx. apply InF in Hj as [Hj Hne].
    destruct (Hfoll j Hj Hne) as (F1 & F2 & F3 & F4 & F5). destruct (Hid j) as [Nj _].
    destruct (follower_catches_up nL (nodes w j) p) as (f' & E & Q1 & Q2 & Q3 & Q4 & Q5);
      [rewrite Nj, Hnx; symmetry; apply Z.add_simpl_r|rewrite LL; exact Hp|rewrite LL; exact F1|rewrite F2, TL; apply Z.le_refl
      |rewrite NidL; exact (ZmF j Hj Hne)|exact F4|exact F5|apply AIL|].
    rewrite Nj, NidL, LL, TL in E. exists f'. split; [exact E|]. unfold P. rewrite <- LL, <- TL, <- F3. auto. }
  cbv zeta in B2, N2, N2'. cbn [app] in B2. set (w2 := net_run w1 (repeat (ADeliver 0) (length F))) in *.
  assert (I2 : ids w2 = ids w) by (unfold w2; rewrite net_run_ids; exact I1).
  assert (NL2 : nodes w2 L = nL) by (rewrite N2'; [apply N1|intros X; apply InF in X; destruct X; congruence]).
  destruct (deliver_to_leader L resp (fun n => role n = Leader /\ term n = T /\ apply_inv n)) with (fs := F) (w := w2)
    as (B3 & NL3 & N3).
  { intros n j (Rn & Tn & AIn). unfold resp.
    destruct (leader_reply n j j (zlen LGL) T Rn Tn AIn) as (n' & -> & _ & X3 & X4 & _ & _ & _ & _ & X10 & _). auto. }
  { exact B2. }
  { rewrite I2. exact HL. }
  { rewrite NL2. auto. }
  cbv zeta in B3, NL3, N3. set (w3 := net_run w2 (repeat (ADeliver 0) (length F))) in *.
  rewrite NL2 in NL3. unfold resp in NL3.
  destruct (leader_fold T (zlen LGL) F nL (nodes w3 L) (eq_sym NL3) RL TL AIL APL) as (Y1 & Y2 & Y3 & Y4 & Y5 & Y9 & Y10 & Y11).
  destruct (Ident L) as [_ PL3]. fold nL in PL3. fold F in PL3.
  clearbody w1 w2 w3.
  split.
  - constructor.
    + rewrite I3. exact ND.
    + rewrite I3. exact HL.
    + intros i. rewrite I3. destruct (Ident i) as [-> ->]. apply Hid.
    + rewrite PL3. exact Htwo.
    + exact B3.
    + split; [exact Y1|]. split; [exact Y2|]. split; [congruence|]. split; [exact Y3|exact Y4].
    + intros j Hj. rewrite PL3 in Hj. rewrite Y9, fold_aset_get, (proj2 (zmem_in j F) Hj). reflexivity.
    + rewrite Y10. split; [apply fold_aset_nodup, MND|apply fold_aset_le; [apply Z.le_refl|exact Mle]].
    + intros j Hj Hne. rewrite I3 in Hj. rewrite (N3 j Hne). exact (N2 j (proj2 (InF j) (conj Hj Hne))).
  - (* the last reply completes the quorum *)
    destruct Y3 as (_ & Z1 & _). rewrite Y5, LL in Z1. apply Z.le_antisymm; [exact Z1|].
    apply (Y11 Htwo (zlen LGL) eL); [rewrite LL; exact GeL|exact TeL|]. rewrite Y10.
    exact (all_matched_quorum (zlen LGL) F (match_index nL) NDF Htwo).
Qed.

Definition insync (w : net) (L T : Z) (LG : list entry) : Prop :=
  rstate w L T LG LG (zlen LG) (zlen LG + 1) /\ commit (nodes w L) = zlen LG.

Definition cycle (L c : Z) (nf : nat) : list action :=
  [ASubmit L c] ++ ([AHeartbeat L] ++ repeat (ADeliver 0) nf ++ repeat (ADeliver 0) nf)
                ++ ([AHeartbeat L] ++ repeat (ADeliver 0) nf ++ repeat (ADeliver 0) nf).

Lemma submit_step w L T LG c : insync w L T LG ->
  let w1 := net_run w [ASubmit L c] in
  let LG' := LG ++ [(T, c)] in
  rstate w1 L T LG' (firstn (length LG) LG') (zlen LG) (Z.of_nat (length LG) + 1) /\ commit (nodes w1 L) = zlen LG.
Proof.
  intros [[ND HL Hid Htwo Hbag (RL & TL & LL & AIL & APL) Hnext (MND & Mle) Hfoll] Hc]. cbv zeta.
  change (net_run w [ASubmit L c]) with (net_apply w L (ISubmit c)).
  destruct (net_apply_nodes_bag w L (ISubmit c) HL) as (N1 & B1). cbv zeta in N1, B1. cbn [node_step fst snd sends_of] in N1, B1.
  rewrite Hbag in B1. cbn [app] in B1.
  assert (I1 : ids (net_apply w L (ISubmit c)) = ids w) by apply (net_run_ids [ASubmit L c]).
  set (w1 := net_apply w L (ISubmit c)) in *. set (nL := nodes w L) in *.
  assert (NL1 : nodes w1 L = submit nL c) by (rewrite N1; apply upd_same).
  assert (NO1 : forall i, i <> L -> nodes w1 i = nodes w i) by (intros i Hi; rewrite N1; apply upd_other, Hi).
  pose proof (submit_inv nL c AIL) as Q10.
  assert (Q : let n' := submit nL c in
              log n' = LG ++ [(T, c)] /\ commit n' = commit nL /\ term n' = T /\ role n' = Leader /\
              next_index n' = next_index nL /\ match_index n' = match_index nL /\ applied n' = applied nL)
    by (cbv zeta; rewrite (submit_leader nL c RL), <- LL, <- TL; repeat split; exact RL).
  cbv zeta in Q. rewrite <- NL1 in Q, Q10. destruct Q as (Q1 & Q2 & Q3 & Q4 & Q5 & Q6 & Q9).
  pose proof (net_run_ident [ASubmit L c] w) as Ident. change (net_run w [ASubmit L c]) with w1 in Ident.
  destruct (Ident L) as [_ PL1]. fold nL in PL1.
  clearbody w1. split; [|congruence]. constructor.
  - rewrite I1. exact ND.
  - rewrite I1. exact HL.
  - intros i. rewrite I1. destruct (Ident i) as [-> ->]. apply Hid.
  - rewrite PL1. exact Htwo.
  - exact B1.
  - split; [exact Q4|]. split; [congruence|]. split; [exact Q1|]. split; [exact Q10|].
    (* nothing committed has changed *)
    apply (ap_ok_same nL (nodes w1 L) APL Q9); [rewrite Q2; apply Z.le_refl|]. rewrite Q1, LL. apply firstn_app_le.
    destruct AIL as (_ & Q & _). rewrite LL in Q. unfold zlen in Q. clear - Q. lia.
  - intros j Hj. rewrite PL1 in Hj. rewrite Q5. apply (Hnext j Hj).
  - rewrite Q6. split; [exact MND|]. intros k v Hv. specialize (Mle k v Hv). unfold zlen in *. rewrite app_length. clear - Mle. lia.
  - intros j Hj Hne. rewrite I1 in Hj. rewrite (NO1 j Hne), firstn_app_le, firstn_all by apply Nat.le_refl. apply (Hfoll j Hj Hne).
Qed.

Theorem one_command w L T LG c : insync w L T LG ->
  let nf := length (peers (nodes w L)) in
  insync (net_run w (cycle L c nf)) L T (LG ++ [(T, c)]).
Proof.
  intros I. cbv zeta. destruct (submit_step w L T LG c I) as [RS1 C1]. cbv zeta in RS1, C1.
  unfold cycle. rewrite net_run_app, net_run_app.
  set (LG' := LG ++ [(T, c)]) in *. set (w1 := net_run w [ASubmit L c]) in *.
  assert (Elen : length LG' = S (length LG)) by (unfold LG'; rewrite app_length; cbn [length]; lia).
  assert (Hlast : exists e, log_get LG' (zlen LG') = Some e /\ fst e = T).
  { exists (T, c). split; [|reflexivity]. unfold zlen. rewrite Elen, Nat2Z.inj_succ, <- Z.add_1_r, log_get_nat.
    apply nth_error_app_last. }
  (* the number of followers stays what it was *)
  rewrite <- (proj2 (net_run_ident [ASubmit L c] w L)). fold w1. clearbody w1.
  destruct (heartbeat_round w1 L T LG' (length LG) (zlen LG) RS1 ltac:(lia) Hlast) as [RS2 C2]. cbv zeta in RS2, C2.
  set (w2 := net_run w1 _) in *.
  rewrite C1, Z.max_id in RS2.
  assert (Enf2 : peers (nodes w1 L) = peers (nodes w2 L)) by (symmetry; apply net_run_ident).
  rewrite Enf2. clearbody w2. clear RS1 C1 Enf2.
  pose proof (heartbeat_round w2 L T LG' (length LG') (zlen LG)) as X. rewrite firstn_all in X.
  destruct (X RS2 (Nat.le_refl _) Hlast) as [RS3 C3]. cbv zeta in RS3, C3. clear X.
  rewrite C2, Z.max_r in RS3 by (unfold zlen; lia).
  split; [exact RS3|exact C3].
Qed.

Fixpoint run_commands (L : Z) (nf : nat) (cs : list Z) : list action :=
  match cs with [] => [] | c :: r => cycle L c nf ++ run_commands L nf r end.

(** Every command submitted to the established leader of an in-sync cluster is
    replicated and committed, in submission order, at every node. *)
Theorem all_commands cs : forall w L T LG, insync w L T LG ->
  insync (net_run w (run_commands L (length (peers (nodes w L))) cs)) L T (LG ++ map (fun c => (T, c)) cs).
Proof.
  induction cs as [|c cs IH]; intros w L T LG I; cbn [run_commands map].
  - rewrite app_nil_r. exact I.
  - rewrite net_run_app. pose proof (one_command w L T LG c I) as I1. cbv zeta in I1.
    pose proof (IH _ L T _ I1) as X. rewrite (proj2 (net_run_ident _ w L)), <- app_assoc in X. exact X.
Qed.

Lemma zseq_nth a : forall k i, (i < k)%nat -> nth_error (zseq a k) i = Some (a + Z.of_nat i).
Proof.
  intros k; revert a; induction k as [|k IH]; intros a i H; [lia|]. destruct i; cbn [zseq nth_error]; [f_equal; lia|].
  rewrite IH by lia. f_equal. lia.
Qed.

Lemma nth_error_ext {A} : forall l l' : list A, (forall i, nth_error l i = nth_error l' i) -> l = l'.
Proof.
  induction l as [|x l IH]; intros [|y l'] H; [reflexivity|discriminate (H 0%nat)|discriminate (H 0%nat)|].
  pose proof (H 0%nat) as H0. inversion H0. f_equal. apply IH. intros i. exact (H (S i)).
Qed.

Lemma applied_nth n i idx cmd : apply_inv n -> ap_ok n -> nth_error (applied n) i = Some (idx, cmd) ->
  exists t, nth_error (log n) i = Some (t, cmd).
Proof.
  intros (_ & _ & _ & (_ & B2 & _)) AP E.
  assert (Hi : (i < length (applied n))%nat) by (apply nth_error_Some; congruence).
  pose proof (map_nth_error fst _ _ E) as N. rewrite B2, zseq_nth in N by exact Hi. cbn [fst] in N.
  assert (Hidx : idx = 1 + Z.of_nat i) by congruence.
  destruct (AP idx cmd (nth_error_In _ _ E)) as (_ & _ & t & Q). exists t.
  replace (Z.to_nat (idx - 1)) with i in Q by lia. exact Q.
Qed.

(** A node whose commit index is the end of its log has applied exactly the
    log's commands, in log order. *)
Lemma applied_is_log n : apply_inv n -> ap_ok n -> commit n = zlen (log n) -> map snd (applied n) = map snd (log n).
Proof.
  intros AI AP Hc. apply nth_error_ext. intros i. rewrite !nth_error_map.
  destruct (nth_error (applied n) i) as [[idx cmd]|] eqn:E.
  - destruct (applied_nth n i idx cmd AI AP E) as (t & Q). unfold entry in Q. rewrite Q. reflexivity.
  - (* everything committed is applied, and the whole log is committed *)
    destruct AI as (_ & _ & A2 & (B1 & _)). apply nth_error_None in E.
    rewrite (proj2 (nth_error_None (A := Z * Z) (log n) i)); [reflexivity|]. unfold zlen, entry in *. lia.
Qed.

Lemma insync_applied w L T LG i : insync w L T LG -> In i (ids w) -> map snd (applied (nodes w i)) = map snd LG.
Proof.
  intros [R C] Hi. destruct (Z.eq_dec i L) as [->|Hn].
  - destruct (R_lead _ _ _ _ _ _ _ R) as (_ & _ & LL & AI & AP). rewrite <- LL. apply applied_is_log; auto. rewrite LL. exact C.
  - destruct (R_foll _ _ _ _ _ _ _ R i Hi Hn) as (LL & _ & CC & AI & AP). rewrite <- LL. apply applied_is_log; auto. rewrite LL. exact CC.
Qed.

Example insync_satisfiable :
  let w := net_run (net_init [0; 1; 2])
             [ATimeout 0; ADeliver 0%nat; ADeliver 0%nat; ADeliver 0%nat; ADeliver 0%nat; ADeliver 0%nat; ADeliver 0%nat;
              ADeliver 0%nat; ADeliver 0%nat] in
  bag w = [] /\ role (nodes w 0) = Leader /\ term (nodes w 1) = 1 /\ term (nodes w 2) = 1 /\
  let w' := net_run w (run_commands 0 2 [7; 8]) in
  map (fun i => map snd (applied (nodes w' i))) [0; 1; 2] = [[7; 8]; [7; 8]; [7; 8]].
Proof. vm_compute. repeat split. Qed.

(** The hypothesis is satisfiable by a REACHABLE state: a three-node cluster right after its first election. *)
Example insync_reachable :
  let w := net_run (net_init [0; 1; 2])
             [ATimeout 0; ADeliver 0%nat; ADeliver 0%nat; ADeliver 0%nat; ADeliver 0%nat; ADeliver 0%nat; ADeliver 0%nat;
              ADeliver 0%nat; ADeliver 0%nat] in
  insync w 0 1 [].
Proof.
  cbv zeta. set (acts := [ATimeout 0; _; _; _; _; _; _; _; _]).
  assert (ND : NoDup [0; 1; 2]) by (repeat constructor; cbn; intuition lia).
  pose proof (net_run_inv acts (net_init [0; 1; 2]) (net_init_inv _ ND)) as W.
  assert (AIn : forall i, apply_inv (nodes (net_run (net_init [0; 1; 2]) acts) i) /\ ap_ok (nodes (net_run (net_init [0; 1; 2]) acts) i)).
  { intros i. destruct (c_run acts (net_init [0; 1; 2]) G0 (c_init _ ND)) as [K _].
    rewrite crun_fst in K. apply (K_ap _ _ K i). }
  set (w := net_run (net_init [0; 1; 2]) acts) in *.
  assert (Iw : ids w = [0; 1; 2]) by (unfold w; rewrite net_run_ids; reflexivity).
  split; [|vm_compute; reflexivity]. constructor.
  - rewrite Iw. exact ND.
  - rewrite Iw. left. reflexivity.
  - intros i. apply (I_id w W i).
  - vm_compute. discriminate.
  - vm_compute. reflexivity.
  - split; [vm_compute; reflexivity|]. split; [vm_compute; reflexivity|]. split; [vm_compute; reflexivity|]. apply AIn.
  - intros j Hj. vm_compute in Hj. destruct Hj as [<-|[<-|[]]]; vm_compute; reflexivity.
  - split; [vm_compute; repeat constructor; cbn; intuition lia|]. intros k v.
    assert (E : match_index (nodes w 0) = [(1, 0); (2, 0)]) by (vm_compute; reflexivity).
    rewrite E. cbn [afind]. destruct (k =? 1); [intros H; inversion H; subst; unfold zlen; cbn; lia|].
    destruct (k =? 2); [intros H; inversion H; subst; unfold zlen; cbn; lia|discriminate].
  - intros j Hj Hne. rewrite Iw in Hj. destruct (AIn j) as [A B].
    destruct Hj as [<-|[<-|[<-|[]]]]; [congruence| |]; (split; [vm_compute; reflexivity|split; [vm_compute; reflexivity|split; [vm_compute; reflexivity|split; assumption]]]).
Qed.
