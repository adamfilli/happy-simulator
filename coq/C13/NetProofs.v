(** C13 — facts about the definitions of Model.v and Net.v for the cluster invariant
    (NetCrash.v): member names are static, [_pending_acks] lookups, the in-flight witness
    [resp] of an ack timeout, the start configuration of a full mesh.  The [is_perm] lemmas
    also serve the probe-order theorem (ProbeOrder.v). *)
From HS Require Import Base.Prelude C13.Model C13.NodeProofs C13.Net.
Local Open Scope Z_scope.

Definition names (ms : list member) : list Z := map m_name ms.

Lemma names_upd n f ms :
  (forall m, m_name (f m) = m_name m) -> names (upd_member n f ms) = names ms.
Proof.
  intros Hf. unfold names, upd_member. rewrite map_map. apply map_ext.
  intros m. destruct (m_name m =? n); [apply Hf|reflexivity].
Qed.

Lemma names_apply_update ms u : names (apply_update ms u) = names ms.
Proof.
  destruct (apply_update_cases ms u) as [->|(info & s & i & _ & _ & ->)]; [reflexivity|].
  apply names_upd; reflexivity.
Qed.

Lemma names_apply_updates us : forall ms, names (apply_updates ms us) = names ms.
Proof.
  unfold apply_updates. induction us as [|u r IH]; intros ms; cbn; [reflexivity|].
  rewrite IH. apply names_apply_update.
Qed.

Lemma names_phi_pass c : forall ms avail, names (fst (phi_pass c ms avail)) = names ms.
Proof.
  induction ms as [|m r IH]; intros avail; cbn; [reflexivity|].
  specialize (IH (tl avail)). destruct (phi_pass c r (tl avail)) as [r' us]; cbn in IH.
  destruct (mstate_eqb (m_state m) Alive && _); cbn; f_equal; exact IH.
Qed.

Lemma names_suspect t ms : names (fst (suspect_member t ms)) = names ms.
Proof.
  destruct (suspect_member_cases t ms) as [[-> _]|(info & _ & _ & ->)]; [reflexivity|].
  apply names_upd; reflexivity.
Qed.

Lemma step_names c now st i : names (members (fst (step c now st i))) = names (members st).
Proof.
  apply (step_members (fun a b => names b = names a)); intros.
  - reflexivity.
  - congruence.
  - apply names_phi_pass.
  - apply names_apply_updates.
  - apply names_upd; reflexivity.
  - apply names_suspect.
  - apply names_upd; reflexivity.
Qed.

Lemma is_member_iff n : forall ms, is_member n ms = true <-> In n (names ms).
Proof.
  unfold is_member. induction ms as [|m r IH]; cbn; [split; [discriminate|tauto]|].
  destruct (m_name m =? n) eqn:E; [split; [left; lia|reflexivity]|].
  rewrite IH. split; [tauto|]. intros [H|H]; [lia|exact H].
Qed.

Lemma is_member_names n a b : names a = names b -> is_member n a = is_member n b.
Proof. intros H. apply Bool.eq_iff_eq_true. rewrite !is_member_iff, H. reflexivity. Qed.

Lemma not_dead_member ms n : not_dead ms n = true -> is_member n ms = true.
Proof. unfold not_dead, is_member. destruct (find_member n ms); [reflexivity|discriminate]. Qed.

Lemma not_dead_phi_pass c ms avail n : not_dead (fst (phi_pass c ms avail)) n = not_dead ms n.
Proof.
  unfold not_dead. rewrite find_phi_pass. destruct (find_member n ms) as [m|]; [cbn|reflexivity].
  destruct (mstate_eqb (m_state m) Alive) eqn:E; [|reflexivity].
  apply mstate_eqb_eq in E. rewrite E. cbn. destruct (available c m _); cbn; [rewrite E|]; reflexivity.
Qed.

Lemma count_pos_iff x : forall l, (0 < count_occ_z x l)%nat <-> In x l.
Proof.
  induction l as [|y r IH]; cbn; [split; [lia|tauto]|].
  destruct (x =? y) eqn:E; [split; [left|]; lia|]. rewrite <- IH. split; [now right|]. intros [H|H]; [lia|exact H].
Qed.
Lemma is_perm_in a b x : is_perm a b = true -> In x a -> In x b.
Proof.
  unfold is_perm. intros H Hx. apply andb_true_iff in H as [_ H].
  rewrite forallb_forall in H. specialize (H x Hx). apply Nat.eqb_eq in H.
  apply count_pos_iff. rewrite <- H. apply count_pos_iff, Hx.
Qed.
Lemma is_perm_length a b : is_perm a b = true -> length a = length b.
Proof. unfold is_perm. intros H. apply andb_true_iff in H as [H _]. now apply Nat.eqb_eq in H. Qed.

Lemma next_probe_target_member ms ms0 ord idx shuf t ord' idx' :
  (forall n, not_dead ms n = not_dead ms0 n) ->
  (let alive := filter (not_dead ms0) ord in
   if negb (match alive with [] => true | _ => false end) && (zlen alive <=? idx)
   then is_perm shuf alive else true) = true ->
  next_probe_target ms ord idx shuf = (Some t, ord', idx') ->
  is_member t ms = true.
Proof.
  intros Hnd Hor. unfold next_probe_target.
  rewrite (filter_ext _ _ Hnd ord). cbn zeta in Hor.
  set (alive := filter (not_dead ms0) ord) in *.
  assert (Hin : forall x, In x alive -> is_member x ms = true).
  { intros x Hx. apply filter_In in Hx as [_ Hx]. rewrite <- Hnd in Hx. now apply not_dead_member. }
  destruct alive as [|a0 ar] eqn:EA; [discriminate|]. cbn [negb andb] in Hor.
  destruct (zlen (a0 :: ar) <=? idx) eqn:E.
  - intros [= <- _ _]. apply Hin. apply (is_perm_in _ _ _ Hor).
    pose proof (is_perm_length _ _ Hor) as HL. destruct shuf as [|s0 sr]; [discriminate|]. now left.
  - intros [= <- _ _]. apply Hin. unfold znth. apply nth_In.
    assert (B : 0 <= idx mod zlen (a0 :: ar) < zlen (a0 :: ar)) by (apply Z.mod_pos_bound; reflexivity).
    apply Nat2Z.inj_lt. rewrite Z2Nat.id; apply B.
Qed.

Lemma packs_get_set_same t v : forall p, packs_get t (packs_set t v p) = Some v.
Proof.
  induction p as [|[k w] r IH]; cbn; [now rewrite Z.eqb_refl|].
  destruct (k =? t) eqn:E; cbn; rewrite E; [reflexivity|exact IH].
Qed.
Lemma packs_get_set_other t t' v : t <> t' -> forall p, packs_get t (packs_set t' v p) = packs_get t p.
Proof.
  intros Hn. induction p as [|[k w] r IH]; cbn.
  - assert (t' =? t = false) as -> by lia. reflexivity.
  - destruct (k =? t') eqn:E; cbn.
    + assert (k =? t = false) as -> by lia. reflexivity.
    + destruct (k =? t); [reflexivity|exact IH].
Qed.
Lemma packs_get_del_other t t' : t <> t' -> forall p, packs_get t (packs_del t' p) = packs_get t p.
Proof.
  intros Hn. induction p as [|[k w] r IH]; cbn; [reflexivity|].
  destruct (k =? t') eqn:E; cbn.
  - assert (k =? t = false) as -> by lia. reflexivity.
  - destruct (k =? t); [reflexivity|exact IH].
Qed.

Lemma in_cancelled_app n i a b : in_cancelled n i (a ++ b) = in_cancelled n i a || in_cancelled n i b.
Proof. unfold in_cancelled. apply existsb_app. Qed.

Lemma in_rest {A} (y x : A) l1 l2 : In y (l1 ++ l2) -> In y (l1 ++ x :: l2).
Proof. intros H. apply in_app_or in H as [H|H]; apply in_or_app; [left|right; right]; exact H. Qed.

Lemma input_matches_inv k i :
  input_matches k i ->
  match k with
  | PTick => exists avail shuf, i = ITick avail shuf
  | PIndirect t => exists shuf, i = IIndirect (Some t) shuf
  | PSusp t => i = ISusp (Some t)
  | PPing f us => i = IPing (Some f) us
  | PAck f us => i = IAck (Some f) us
  end.
Proof.
  destruct k, i as [? ?|[?|] ?|[?|] ?|[?|] ?|[?|]|]; cbn; try contradiction; eauto.
  - intros ->; eauto.
  - intros ->; reflexivity.
  - intros [-> ->]; reflexivity.
  - intros [-> ->]; reflexivity.
Qed.

(** [e'] is, for the ack timeout of [A]'s probe of [T] that fires at [f], the in-flight
    ping (which will be answered in time) or the in-flight ack (which will arrive in time);
    [d] bounds the one-way delay *)
Definition resp (d A T f : Z) (e' : pev) : Prop :=
  (p_node e' = T /\ (exists us, p_kind e' = PPing A us) /\ p_time e' + d < f) \/
  (p_node e' = A /\ (exists us, p_kind e' = PAck T us) /\ p_time e' < f).

Lemma resp_kind d A T f e' : resp d A T f e' ->
  (exists us, p_kind e' = PPing A us) \/ (exists us, p_kind e' = PAck T us).
Proof. intros [(_ & K & _)|(_ & K & _)]; [left|right]; exact K. Qed.

Lemma set_node_member f N st' :
  names (members st') = names (members (f N)) ->
  forall n m, is_member m (members (set_node f N st' n)) = is_member m (members (f n)).
Proof.
  intros Hn n m. unfold set_node. destruct (n =? N) eqn:E; [|reflexivity].
  assert (n = N) by lia; subst n. apply is_member_names, Hn.
Qed.

Lemma in_pool_new {A} (y : A) l1 l2 new : In y (l1 ++ l2 ++ new) <-> In y (l1 ++ l2) \/ In y new.
Proof. rewrite app_assoc. apply in_app_iff. Qed.

Lemma is_member_init m ns ord : is_member m (members (init_state ns ord)) = true <-> In m ns.
Proof. rewrite is_member_iff. unfold names, init_state; cbn [members]. rewrite map_map, map_id. reflexivity. Qed.

Lemma mesh_member n ord i m :
  is_member m (members (mesh_nodes n ord i)) = true <-> (0 <= i < n /\ 0 <= m < n /\ m <> i).
Proof.
  unfold mesh_nodes. destruct ((0 <=? i) && (i <? n)) eqn:E.
  - rewrite is_member_init, filter_In, in_map_iff. split.
    + intros [(k & <- & Hk) Hne]. apply in_seq in Hk. lia.
    + intros (Hi & Hm & Hne). split; [|lia]. exists (Z.to_nat m). split; [lia|]. apply in_seq. lia.
  - rewrite is_member_init. cbn. split; [tauto|lia].
Qed.

Lemma mesh_init_ok n probe ord : init_ok (mesh_world n probe ord).
Proof.
  split; [|split].
  - intros i. unfold mesh_world, mesh_nodes; cbn [nodes].
    destruct ((0 <=? i) && (i <? n)); split; cbn; try constructor.
    apply Forall_map. apply Forall_forall. intros; cbn; congruence.
  - intros i m. cbn [nodes mesh_world]. rewrite !mesh_member. lia.
  - intros e He. cbn [pool mesh_world] in He. apply in_map_iff in He as (k & <- & _). reflexivity.
Qed.
