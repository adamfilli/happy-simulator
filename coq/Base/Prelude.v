(** Shared prelude: standard imports ([lia] decides boolean comparisons through
    [ZifyBool]; [dlia] also division), and the helpers the correspondence check uses to
    compare implementation observations with the model *inside* Coq. *)
From Coq Require Export ZArith List Bool Lia ZifyBool Arith.
Export ListNotations.

(** [lia] for goals with [/] and [mod] on [Z].  Plain [lia] is left as it is,
    so that the many goals without division do not pay for the extra pass. *)
Ltac dlia := zify; Z.to_euclidean_division_equations; lia.

(** Indices (as [Z], starting at 0) of the cases on which [ok] is false.
    A [cases.v] file written by the harness ends with
    [Eval vm_compute in mismatches ok cases.]; an empty list means the model
    and the implementation agreed on every case in the file. *)
Fixpoint mismatches_from {A} (ok : A -> bool) (i : Z) (l : list A) : list Z :=
  match l with
  | [] => []
  | x :: r => if ok x then mismatches_from ok (i + 1) r
              else i :: mismatches_from ok (i + 1) r
  end.
Definition mismatches {A} (ok : A -> bool) (l : list A) : list Z :=
  mismatches_from ok 0%Z l.

Lemma mismatches_from_nil {A} (ok : A -> bool) i l :
  mismatches_from ok i l = [] <-> forallb ok l = true.
Proof.
  revert i; induction l as [|x r IH]; intros i; cbn; [tauto|].
  destruct (ok x); cbn; [apply IH|]. split; intros H; discriminate.
Qed.

Fixpoint list_eqb {A} (eqb : A -> A -> bool) (a b : list A) : bool :=
  match a, b with
  | [], [] => true
  | x :: a', y :: b' => eqb x y && list_eqb eqb a' b'
  | _, _ => false
  end.

Definition option_eqb {A} (eqb : A -> A -> bool) (a b : option A) : bool :=
  match a, b with
  | None, None => true
  | Some x, Some y => eqb x y
  | _, _ => false
  end.

Definition pair_eqb {A B} (ea : A -> A -> bool) (eb : B -> B -> bool)
  (a b : A * B) : bool := ea (fst a) (fst b) && eb (snd a) (snd b).

Lemma list_eqb_spec {A} (eqb : A -> A -> bool) :
  (forall x y, eqb x y = true <-> x = y) ->
  forall a b, list_eqb eqb a b = true <-> a = b.
Proof.
  intros Heq a; induction a as [|x a IH]; intros [|y b]; cbn; try (split; congruence).
  rewrite andb_true_iff, Heq, IH. split; [intros [-> ->]; reflexivity|intros H; inversion H; auto].
Qed.

(** Association lists keyed by [Z] (Python dicts with small-int keys). *)
Fixpoint zget (k : Z) (m : list (Z * Z)) : Z :=
  match m with
  | [] => 0%Z
  | (k', v) :: r => if Z.eqb k k' then v else zget k r
  end.

(** Heterogeneous pointwise check; false when the lengths differ. *)
Fixpoint forallb2 {A B} (f : A -> B -> bool) (a : list A) (b : list B) : bool :=
  match a, b with
  | [], [] => true
  | x :: a', y :: b' => f x y && forallb2 f a' b'
  | _, _ => false
  end.
