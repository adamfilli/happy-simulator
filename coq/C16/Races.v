(** C16 — clauses that are FALSE of the faithful model (and of the code):
    concrete schedules, checked by computation. *)
From HS Require Import Base.Prelude C16.Model.
Local Open Scope Z_scope.

Definition mk (now : Z) (a : act) : input := {| i_now := now; i_draws := []; i_act := a |}.
Definition act_id (a : act) : Z := match a with IStart id _ | IResume id => id end.
Definition writes_key (k : Z) (i : input) : bool :=
  match i_act i with
  | IStart _ (OPut k' _) | IStart _ (ODel k') => k' =? k
  | _ => false
  end.

(** "A read issued after a write to the same key has completed returns that
    write's value" — stated for the simplest situation: one put(k,v) whose
    last segment is the step shown, no other write to k starts afterwards,
    then a get(k) is started and completed.  Everything else (ins1..ins4) is
    an arbitrary interleaving of other operations' segments. *)
Definition read_after_write_statement : Prop :=
  forall kind c b0 ins1 ins2 ins3 ins4 idp idg k v n1 n2 n3 n4,
    1 <= cap c ->
    let P := pol_of kind in
    (forall i, In i (ins1 ++ ins2 ++ ins3 ++ ins4) -> act_id (i_act i) <> idp /\ act_id (i_act i) <> idg) ->
    idp <> idg ->
    (forall i, In i (ins2 ++ ins3 ++ ins4) -> writes_key k i = false) ->
    let y1 := srun P c (sinit P b0) (ins1 ++ [mk n1 (IStart idp (OPut k v))] ++ ins2) in
    snd (sstep P c y1 (mk n2 (IResume idp))) = ORet None ->
    let y2 := srun P c (fst (sstep P c y1 (mk n2 (IResume idp))))
                (ins3 ++ [mk n3 (IStart idg (OGet k))] ++ ins4) in
    forall r, snd (sstep P c y2 (mk n4 (IResume idg))) = ORet r -> r = Some v.

Definition wt_cfg : cfg := {| cap := 2; wt := true; lat_c := 1; lat_r := 10; lat_w := 5; lat_d := 5 |}.
Definition wb_cfg : cfg := {| cap := 2; wt := false; lat_c := 1; lat_r := 10; lat_w := 5; lat_d := 5 |}.

(** Witness (write-through, backing k0=1, nothing cached): get(k0) misses;
    put(k0,2) starts (cache k0=2, backing still 1); the miss-fill reads 1 and
    installs it; the put completes (backing 2); a later get(k0) hits 1. *)
Theorem read_after_write_overlap_refuted : ~ read_after_write_statement.
Proof.
  intros Hs.
  specialize (Hs KLru wt_cfg [(0, 1)] [mk 0 (IStart 0 (OGet 0))] [mk 10 (IResume 0)] [] []
                 1 2 0 2 8 13 50 51 ltac:(cbn; lia)).
  cbn zeta in Hs.
  assert (H1 : forall i, In i ([mk 0 (IStart 0 (OGet 0))] ++ [mk 10 (IResume 0)] ++ [] ++ []) ->
                         act_id (i_act i) <> 1 /\ act_id (i_act i) <> 2).
  { intros i [<-|[<-|[]]]; cbn; lia. }
  assert (H2 : forall i, In i ([mk 10 (IResume 0)] ++ [] ++ []) -> writes_key 0 i = false).
  { intros i [<-|[]]; reflexivity. }
  specialize (Hs H1 ltac:(lia) H2 ltac:(vm_compute; reflexivity) (Some 1) ltac:(vm_compute; reflexivity)).
  discriminate.
Qed.

(** "Write-back data is never discarded before it reaches the backing store":
    a segment that merely continues an already running operation must leave
    every dirty entry either dirty with its value, or written to the backing
    store. *)
Definition dirty_preserved_statement : Prop :=
  forall kind c b0 ins i k v, 1 <= cap c ->
    let P := pol_of kind in
    let y := srun P c (sinit P b0) ins in
    In k (dirty (st y)) -> aget k (cache (st y)) = Some v ->
    (match i_act i with IResume _ => True | IStart _ _ => False end) ->
    let y' := fst (sstep P c y i) in
    (In k (dirty (st y')) /\ aget k (cache (st y')) = Some v) \/ aget k (back (st y')) = Some v.

(** Witness (write-back): put(a,1); flush starts (captures 1, waits for the
    write latency); put(a,2); the flush segment writes 1 and clears the dirty
    mark: a=2 is cached, clean, and never reaches the backing store. *)
Definition flush_race_schedule : list input :=
  [mk 0 (IStart 0 (OPut 0 1)); mk 1 (IResume 0); mk 10 (IStart 1 (OFlush [0]));
   mk 12 (IStart 2 (OPut 0 2)); mk 13 (IResume 2)].

Theorem flush_race_refuted : ~ dirty_preserved_statement.
Proof.
  intros Hs.
  specialize (Hs KLru wb_cfg [] flush_race_schedule (mk 15 (IResume 1)) 0 2 ltac:(cbn; lia)).
  cbn zeta in Hs.
  specialize (Hs ltac:(vm_compute; auto) ltac:(vm_compute; reflexivity) I).
  vm_compute in Hs. destruct Hs as [[[] _]|Hs]; discriminate.
Qed.

(** The miss-fill overlap of [read_after_write_overlap_refuted] in write-back mode
    loses the write altogether: after the stale fill the dirty entry holds the
    OLD value, which flush then writes. *)
Definition wb_fill_schedule : list input :=
  [mk 0 (IStart 0 (OGet 0)); mk 8 (IStart 1 (OPut 0 2)); mk 9 (IResume 1); mk 10 (IResume 0)].

Theorem fill_race_loses_writeback : ~ dirty_preserved_statement.
Proof.
  intros Hs.
  specialize (Hs KLru wb_cfg [(0, 1)] [mk 0 (IStart 0 (OGet 0)); mk 8 (IStart 1 (OPut 0 2)); mk 9 (IResume 1)]
                 (mk 10 (IResume 0)) 0 2 ltac:(cbn; lia)).
  cbn zeta in Hs.
  specialize (Hs ltac:(vm_compute; auto) ltac:(vm_compute; reflexivity) I).
  vm_compute in Hs. destruct Hs as [[_ Hs]|Hs]; discriminate.
Qed.
