(** C15 — tie between components/storage/wal.py and the WAL model, through the
    REGENERATED translation [Gen/WalGen.v] (py2coq): WriteAheadLog.crash /
    truncate / recover / synced_up_to / size and the two integer sync policies.

    The WAL never looks at a stored value or timestamp: [venc] is ANY encoding of
    model values as the opaque integers of the translation, [ts] any timestamp
    assignment.  [wal_obj] builds the code object of a model WAL ([rec] = the
    unrelated [_entries_recovered] statistic). *)
From HS Require Import Base.Prelude Base.PyLib C14.Model C15.Model Gen.WalGen.
Local Open Scope Z_scope.

Section Tie.
Variable venc : sval -> Z.
Variable ts : wentry -> Z.

Definition eenc (e : wentry) : WALEntry := mkWALEntry (e_seq e) (e_key e) (venc (e_val e)) (ts e).
Definition wal_obj (w : wal) (rec : Z) : WriteAheadLog :=
  mkWriteAheadLog (map eenc (w_entries w)) (w_synced w) (w_since w) rec.

Lemma filter_map_enc (p : Z -> bool) l :
  filter (fun e => p (WALEntry_sequence_number e)) (map eenc l) = map eenc (filter (fun e => p (e_seq e)) l).
Proof. induction l as [|e r IH]; cbn; [reflexivity|]. destruct (p (e_seq e)); cbn; now rewrite IH. Qed.

Lemma tie_wal_crash w rec :
  WriteAheadLog_crash (wal_obj w rec)
  = (wal_obj (wal_crash w) rec, zlen (w_entries w) - zlen (w_entries (wal_crash w))).
Proof.
  unfold WriteAheadLog_crash, wal_obj, wal_crash. cbn.
  rewrite (filter_map_enc (fun s => s <=? w_synced w)). rewrite !map_length. reflexivity.
Qed.

Lemma tie_wal_truncate w rec up :
  WriteAheadLog_truncate (wal_obj w rec) up = (wal_obj (wal_truncate w up) rec, tt).
Proof.
  unfold WriteAheadLog_truncate, wal_obj, wal_truncate. cbn.
  now rewrite (filter_map_enc (fun s => s >? up)).
Qed.

Lemma tie_wal_read w rec :
  WriteAheadLog_synced_up_to (wal_obj w rec) = w_synced w
  /\ WriteAheadLog_size (wal_obj w rec) = zlen (w_entries w).
Proof. unfold WriteAheadLog_synced_up_to, WriteAheadLog_size, wal_obj. cbn. now rewrite map_length. Qed.

Lemma ins_seq_keys e l : map e_seq (ins_seq e l) = map e_seq (ins_seq e l).
Proof. reflexivity. Qed.

Lemma in_ins_seq x e l : In x (ins_seq e l) <-> In x (e :: l).
Proof.
  induction l as [|y r IH]; cbn [ins_seq]; [reflexivity|].
  destruct (e_seq e <? e_seq y); [reflexivity|]. cbn [In] in *. split.
  - intros [H|H]; [auto|]. apply IH in H as [H|H]; auto.
  - intros [H|[H|H]]; [right; apply IH; auto|auto|right; apply IH; auto].
Qed.

Lemma in_sort_seq x l : In x (sort_seq l) <-> In x l.
Proof.
  induction l as [|y r IH]; [reflexivity|]. unfold sort_seq in *. cbn [fold_right]. split; intros H.
  - apply in_ins_seq in H as [H|H]; [left; exact H|right; apply IH, H].
  - apply in_ins_seq. destruct H as [H|H]; [left; exact H|right; apply IH, H].
Qed.

Lemma ins_by_enc e l :
  (forall y, In y l -> e_seq y <> e_seq e) ->
  py_ins_by (fun x => WALEntry_sequence_number x) (eenc e) (map eenc l) = map eenc (ins_seq e l).
Proof.
  induction l as [|y r IH]; intros Hn; cbn; [reflexivity|].
  assert (e_seq y <> e_seq e) by (apply Hn; left; reflexivity).
  destruct (e_seq e <=? e_seq y) eqn:E1, (e_seq e <? e_seq y) eqn:E2; try lia; cbn; [reflexivity|].
  rewrite IH; [reflexivity|]. intros z Hz. apply Hn. right; exact Hz.
Qed.

(** [recover()]: Python's stable sort by sequence number is the model's
    insertion sort whenever sequence numbers are distinct (they are: [append]
    hands out [_next_sequence] and increments it). *)
Lemma sorted_by_enc l :
  NoDup (map e_seq l) ->
  py_sorted_by (fun x => WALEntry_sequence_number x) (map eenc l) = map eenc (sort_seq l).
Proof.
  induction l as [|e r IH]; intros Hd; [reflexivity|].
  cbn [map] in Hd. inversion Hd as [|? ? Hn Hd']; subst. unfold py_sorted_by, sort_seq in *. cbn [fold_right map]. rewrite (IH Hd').
  apply ins_by_enc. intros y Hy Heq. apply Hn. apply (in_sort_seq y r) in Hy. rewrite <- Heq.
  apply in_map_iff. exists y. split; [reflexivity|exact Hy].
Qed.

Lemma ins_seq_length e l : length (ins_seq e l) = S (length l).
Proof. induction l as [|y q IH]; cbn; [reflexivity|]. destruct (e_seq e <? e_seq y); cbn; [reflexivity|]. now rewrite IH. Qed.

Lemma sort_seq_length l : length (sort_seq l) = length l.
Proof. induction l as [|e r IH]; [reflexivity|]. unfold sort_seq in *. cbn [fold_right]. now rewrite ins_seq_length, IH. Qed.

Lemma tie_wal_recover w rec :
  NoDup (map e_seq (w_entries w)) ->
  WriteAheadLog_recover (wal_obj w rec)
  = (wal_obj w (zlen (w_entries w)), map eenc (sort_seq (w_entries w))).
Proof.
  intros Hd. unfold WriteAheadLog_recover, wal_obj, set_WriteAheadLog__entries_recovered.
  cbn [WriteAheadLog__entries WriteAheadLog__synced_up_to_sequence WriteAheadLog__writes_since_sync].
  rewrite (sorted_by_enc _ Hd). rewrite map_length, sort_seq_length. reflexivity.
Qed.

Lemma tie_should_sync n w t :
  SyncEveryWrite_should_sync mkSyncEveryWrite w t = should_sync SyncEvery w t
  /\ SyncOnBatch_should_sync (mkSyncOnBatch n) w t = should_sync (SyncBatch n) w t.
Proof. split; reflexivity. Qed.

End Tie.

Example wal_obj_example :
  WriteAheadLog_crash (wal_obj (fun _ => 0) (fun _ => 0) (mkWal [(1, 10, Val 5); (2, 11, Tomb); (3, 12, Val 7)] 4 2 1 0) 0)
  = (wal_obj (fun _ => 0) (fun _ => 0) (mkWal [(1, 10, Val 5); (2, 11, Tomb)] 4 2 0 0) 0, 1).
Proof. vm_compute. reflexivity. Qed.
