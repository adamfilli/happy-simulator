(** C11 — two more hops of the liveness clause, each for every node state that
    satisfies the stated hypotheses: a quorum of successful replies makes the
    leader commit (and apply), and the next AppendEntries makes an in-sync
    follower commit (and apply) what the leader has committed. *)
From HS Require Import Base.Prelude C11.Model C11.NodeProofs C11.Steps C11.CommitTie C11.Progress.
Local Open Scope Z_scope.

Lemma try_advance_commit_rest n :
  let n' := try_advance_commit n in
  next_index n' = next_index n /\ match_index n' = match_index n /\ log n' = log n /\ role n' = role n /\ term n' = term n /\
  peers n' = peers n.
Proof. cbv zeta. unfold try_advance_commit. rewrite try_commit_frame. repeat split. Qed.

Lemma try_advance_commit_inv n : apply_inv n ->
  commit n <= commit (try_advance_commit n) /\ apply_inv (try_advance_commit n) /\ (ap_ok n -> ap_ok (try_advance_commit n)).
Proof.
  intros AI. unfold try_advance_commit. rewrite try_commit_target. destruct (commit_target _ _ _ _ _ _) as [c|]; [|split; [lia|auto]].
  pose proof AI as (A0 & A1 & _).
  split; [apply commit_to_commit; assumption|]. split; [apply commit_to_inv, AI|]. intros AP. apply commit_to_ap; assumption.
Qed.

Lemma try_advance_commit_ge n hi e : apply_inv n -> log_get (log n) hi = Some e -> fst e = term n ->
  1 + count_ge hi (match_index n) >= quorum n -> hi <= commit (try_advance_commit n).
Proof.
  intros AI G T Q. destruct (try_advance_commit_inv n AI) as (Mono & _).
  destruct (Z_lt_le_dec (commit n) hi) as [Hlt|Hge]; [|lia].
  pose proof (log_get_le _ _ _ G) as Hhi. destruct AI as (A0 & A1 & _).
  unfold try_advance_commit in *. rewrite try_commit_target in *.
  destruct (commit_target_max (log n) (match_index n) (term n) (quorum n) (Z.to_nat (last_index (log n) - commit n))
              (last_index (log n)) hi e) as (c & Ec & Hle); [unfold last_index; lia|exact G|exact T|lia|].
  rewrite Ec. destruct (commit_target_sound _ _ _ _ _ _ _ Ec) as ((_ & Hc) & _). unfold last_index in Hc.
  destruct (commit_to_commit n c A0 A1) as [-> _]. replace (c <=? commit n) with false by lia. lia.
Qed.

Lemma node_step_ack n src f mi : role n = Leader ->
  node_step n (IMsg src (AppendResponse (term n) true f mi)) = (try_advance_commit (ack n f mi), []).
Proof.
  intros R. cbn [node_step handle_msg]. unfold handle_append_response.
  rewrite R, Z.gtb_ltb, Z.ltb_irrefl. reflexivity.
Qed.

Lemma leader_reply n src f mi T : role n = Leader -> term n = T -> apply_inv n ->
  exists n', node_step n (IMsg src (AppendResponse T true f mi)) = (n', []) /\
  log n' = log n /\ term n' = T /\ role n' = Leader /\ peers n' = peers n /\
  next_index n' = aset f (mi + 1) (next_index n) /\ match_index n' = aset f mi (match_index n) /\
  commit n <= commit n' /\ apply_inv n' /\ (ap_ok n -> ap_ok n') /\
  (forall hi e, log_get (log n) hi = Some e -> fst e = T ->
     1 + count_ge hi (aset f mi (match_index n)) >= quorum n -> hi <= commit n').
Proof.
  intros R <- AI. exists (try_advance_commit (ack n f mi)). split; [exact (node_step_ack n src f mi R)|].
  (* [ack] touches no field that [apply_inv], [ap_ok] or [quorum] look at *)
  assert (AI1 : apply_inv (ack n f mi)) by exact AI.
  destruct (try_advance_commit_rest (ack n f mi)) as (X & M & L & Rr & T & P).
  destruct (try_advance_commit_inv _ AI1) as (Mono & AI' & AP').
  split; [exact L|]. split; [exact T|]. split; [rewrite Rr; exact R|].
  split; [exact P|]. split; [exact X|]. split; [exact M|].
  split; [exact Mono|]. split; [exact AI'|]. split; [exact AP'|].
  intros hi e G Te Q. exact (try_advance_commit_ge (ack n f mi) hi e AI1 G Te Q).
Qed.

Lemma ae_commit_inv m lc : 0 <= commit m -> commit m <= zlen (log m) -> lc <= zlen (log m) ->
  commit (ae_commit m lc) = Z.max (commit m) lc /\ (ap_ok m -> ap_ok (ae_commit m lc)).
Proof.
  intros J0 J1 Hlc. unfold ae_commit, last_index. destruct (lc >? commit m) eqn:E; [|split; [lia|auto]].
  destruct (commit_to_commit m (Z.min lc (zlen (log m))) J0 J1) as [-> _].
  replace (Z.min lc (zlen (log m)) <=? commit m) with false by lia.
  split; [lia|]. intros AP. apply commit_to_ap; assumption.
Qed.

Theorem follower_catches_up n f (p : nat) :
  Z.of_nat p = aget (nid f) 1 (next_index n) - 1 -> (p <= length (log n))%nat -> log f = firstn p (log n) ->
  term f <= term n -> zmem (nid n) (peers f) = true -> apply_inv f -> ap_ok f -> commit n <= zlen (log n) ->
  exists f', node_step f (IMsg (nid n) (ae_msg n (nid f)))
             = (f', [OElectionTimer; OSend (nid n) (AppendResponse (term n) true (nid f) (zlen (log n)))]) /\
  log f' = log n /\ commit f' = Z.max (commit f) (commit n) /\ term f' = term n /\
  apply_inv f' /\ ap_ok f'.
Proof.
  intros Hp Hlen Hlog Hterm Hpeer AIf APf N1.
  pose proof (node_step_inv f (IMsg (nid n) (ae_msg n (nid f))) AIf) as AI'.
  rewrite (insync_accept n f p Hp Hlen Hlog Hterm Hpeer) in *. cbn [fst] in AI'. eexists. split; [reflexivity|].
  destruct (caught_up_fields f (term n) (nid n) (log n) (commit n)) as (L3 & T3 & _).
  (* before the commit step: the leader's log, the follower's own commit index and applied commands *)
  set (f2 := set_log (demote f (term n) (nid n)) (log n)) in *.
  assert (F2 : log f2 = log n /\ commit f2 = commit f /\ applied f2 = applied f) by (unfold f2; rewrite demote_eq; repeat split).
  destruct F2 as (L2 & C2 & A2). clearbody f2.
  pose proof AIf as (B0 & B1 & _).
  assert (Hc : commit f <= Z.of_nat p) by (rewrite Hlog in B1; unfold zlen in B1; rewrite firstn_length_le in B1 by exact Hlen; exact B1).
  assert (AP2 : ap_ok f2).
  { apply (ap_ok_same f f2 APf A2); [rewrite C2; apply Z.le_refl|]. rewrite L2, Hlog, firstn_firstn. f_equal. lia. }
  destruct (ae_commit_inv f2 (commit n)) as [C3 AP3]; [rewrite C2; exact B0|rewrite C2, L2; unfold zlen; lia|rewrite L2; exact N1|].
  split; [exact L3|]. split; [rewrite C3, C2; reflexivity|]. split; [exact T3|]. split; [exact AI'|exact (AP3 AP2)].
Qed.

Example progress_satisfiable :
  let w := net_run (net_init [0; 1; 2]) [ATimeout 0; ADeliver 0%nat; ADeliver 1%nat; ASubmit 0 7; AHeartbeat 0; ADeliver 4%nat] in
  role (nodes w 0) = Leader /\ log_get (log (nodes w 0)) 1 = Some (1, 7) /\ commit (nodes w 0) = 0 /\
  1 + count_ge 1 (aset 2 1 (match_index (nodes w 0))) >= quorum (nodes w 0) /\
  commit (fst (node_step (nodes w 0) (IMsg 2 (AppendResponse 1 true 2 1)))) = 1.
Proof. vm_compute. repeat split; discriminate. Qed.
