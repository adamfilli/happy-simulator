(** C08 — tie between components/server/concurrency.py and the concurrency
    model [cmodel] of C08/IndModel.v, through the REGENERATED translation
    [Gen/ConcurrencyGen.v] (py2coq): FixedConcurrency, DynamicConcurrency
    (set_limit / scale_up / scale_down included) and WeightedConcurrency.
    Logging calls are no-ops; a ValueError is result 2, as in the model. *)
From HS Require Import Base.Prelude Base.PyLib C08.IndModel C08.IndThms Gen.ConcurrencyGen.
Local Open Scope Z_scope.

Inductive cobj :=
| OFixed (c : FixedConcurrency)
| ODyn (c : DynamicConcurrency)
| OWeighted (c : WeightedConcurrency).

Definition cm_of (c : cobj) : cmodel :=
  match c with
  | OFixed c => CFixed (FixedConcurrency__max_concurrent c) (FixedConcurrency__active c)
  | ODyn c => CDyn (DynamicConcurrency__current_limit c) (DynamicConcurrency__min_limit c)
                   (DynamicConcurrency__max_limit c) (DynamicConcurrency__active c)
  | OWeighted c => CWeighted (WeightedConcurrency__total_capacity c) (WeightedConcurrency__used_capacity c)
  end.

Definition b2z (b : bool) : Z := if b then 1 else 0.

(** One operation on a code object, through the translated methods only. *)
Definition code_cm_step (c : cobj) (o : cop) : cobj * Z :=
  match c, o with
  | OFixed c, CAcquire w => let '(c', r) := FixedConcurrency_acquire c w in (OFixed c', b2z r)
  | OFixed c, CRelease w => (OFixed (fst (FixedConcurrency_release c w)), 0)
  | OFixed c, CHasCap w => (OFixed c, b2z (FixedConcurrency_has_capacity c w))
  | OFixed c, CSetLimit _ => (OFixed c, 0)
  | ODyn c, CAcquire w => let '(c', r) := DynamicConcurrency_acquire c w in (ODyn c', b2z r)
  | ODyn c, CRelease w => (ODyn (fst (DynamicConcurrency_release c w)), 0)
  | ODyn c, CHasCap w => (ODyn c, b2z (DynamicConcurrency_has_capacity c w))
  | ODyn c, CSetLimit n => (ODyn (fst (DynamicConcurrency_set_limit c n)), 0)
  | OWeighted c, CAcquire w =>
      match WeightedConcurrency_acquire c w with Some (c', r) => (OWeighted c', b2z r) | None => (OWeighted c, 2) end
  | OWeighted c, CRelease w =>
      match WeightedConcurrency_release c w with Some (c', _) => (OWeighted c', 0) | None => (OWeighted c, 2) end
  | OWeighted c, CHasCap w => (OWeighted c, b2z (WeightedConcurrency_has_capacity c w))
  | OWeighted c, CSetLimit _ => (OWeighted c, 0)
  end.

Fixpoint code_cm_run (c : cobj) (ops : list cop) : cobj :=
  match ops with [] => c | o :: r => code_cm_run (fst (code_cm_step c o)) r end.

(** Every operation of the translated classes is the model's operation: state
    and result at once, so that every guard of a translated method is split once. *)
Lemma tie_cm_pair c o : (cm_of (fst (code_cm_step c o)), snd (code_cm_step c o)) = cm_step (cm_of c) o.
Proof.
  destruct c as [[mx a]|[cur mn mx a]|[t u]], o as [w|w|w|n];
    unfold code_cm_step, cm_of, cm_step,
      FixedConcurrency_acquire, FixedConcurrency_release, FixedConcurrency_has_capacity,
      DynamicConcurrency_acquire, DynamicConcurrency_release, DynamicConcurrency_has_capacity, DynamicConcurrency_set_limit,
      WeightedConcurrency_acquire, WeightedConcurrency_release, WeightedConcurrency_has_capacity, b2z;
    cbn; try (destruct mx as [x|]); cbn; tie_split; cbn; try reflexivity; try (exfalso; lia);
    repeat f_equal; lia.
Qed.

Lemma tie_cm_step c o :
  cm_of (fst (code_cm_step c o)) = fst (cm_step (cm_of c) o) /\ snd (code_cm_step c o) = snd (cm_step (cm_of c) o).
Proof. rewrite <- tie_cm_pair. split; reflexivity. Qed.

(** scale_up / scale_down are set_limit (current +- amount). *)
Lemma tie_cm_scale c k :
  cm_of (ODyn (fst (DynamicConcurrency_scale_up c k)))
    = fst (cm_step (cm_of (ODyn c)) (CSetLimit (DynamicConcurrency__current_limit c + k)))
  /\ cm_of (ODyn (fst (DynamicConcurrency_scale_down c k)))
    = fst (cm_step (cm_of (ODyn c)) (CSetLimit (DynamicConcurrency__current_limit c - k))).
Proof.
  destruct c as [cur mn mx a]. unfold DynamicConcurrency_scale_up, DynamicConcurrency_scale_down, DynamicConcurrency_set_limit.
  cbn. destruct mx as [x|]; cbn; split; reflexivity.
Qed.

(** The read-only properties are the model's projections. *)
Lemma tie_cm_reads cf cd cw :
  FixedConcurrency_active cf = cm_active (cm_of (OFixed cf)) /\ FixedConcurrency_limit cf = cm_limit (cm_of (OFixed cf))
  /\ FixedConcurrency_available cf = cm_limit (cm_of (OFixed cf)) - cm_active (cm_of (OFixed cf))
  /\ DynamicConcurrency_active cd = cm_active (cm_of (ODyn cd)) /\ DynamicConcurrency_limit cd = cm_limit (cm_of (ODyn cd))
  /\ DynamicConcurrency_available cd = Z.max 0 (cm_limit (cm_of (ODyn cd)) - cm_active (cm_of (ODyn cd)))
  /\ WeightedConcurrency_active cw = cm_active (cm_of (OWeighted cw)) /\ WeightedConcurrency_limit cw = cm_limit (cm_of (OWeighted cw))
  /\ WeightedConcurrency_available cw = cm_limit (cm_of (OWeighted cw)) - cm_active (cm_of (OWeighted cw)).
Proof. repeat split. Qed.

Lemma tie_cm_run ops : forall c, cm_of (code_cm_run c ops) = cm_run (cm_of c) ops.
Proof.
  induction ops as [|o ops IH]; intros c; [reflexivity|]. cbn [code_cm_run cm_run].
  rewrite IH. f_equal. apply tie_cm_step.
Qed.

Theorem code_concurrency_bound : forall ops c,
  Forall (fun o => match o with CSetLimit _ => False | _ => True end) ops ->
  cm_ok (cm_of c) -> cm_ok (cm_of (code_cm_run c ops)).
Proof. intros ops c Hall Hc. rewrite tie_cm_run. now apply concurrency_models_bound. Qed.

Theorem code_acquire_respects_limit : forall c w,
  let '(c', r) := code_cm_step c (CAcquire w) in
  (r = 1 -> cm_active (cm_of c') <= cm_limit (cm_of c') /\ cm_active (cm_of c) < cm_active (cm_of c')) /\
  (r <> 1 -> cm_of c' = cm_of c) /\
  (1 <= w -> (snd (code_cm_step c (CHasCap w)) = 1 <-> r = 1)).
Proof.
  intros c w. pose proof (tie_cm_pair c (CAcquire w)) as T. rewrite (proj2 (tie_cm_step c (CHasCap w))).
  destruct (code_cm_step c (CAcquire w)) as [c' r]. exact (acquire_respects_limit _ _ _ _ (eq_sym T)).
Qed.

Example code_conc_hyps :
  cm_ok (cm_of (OFixed (mkFixedConcurrency 2 0))) /\ cm_ok (cm_of (OWeighted (mkWeightedConcurrency 5 0)))
  /\ cm_ok (cm_of (ODyn (mkDynamicConcurrency 2 1 (Some 4) 0))).
Proof. unfold cm_ok. cbn. lia. Qed.
