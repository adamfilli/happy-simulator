(** C19 — first deliveries follow publish order (MessageQueue). *)
From HS Require Import Base.Prelude Base.Lists C19.Model C19.Lists C19.MQ.
From Coq Require Import Sorting.Sorted.
Local Open Scope Z_scope.

(** Consumers reject, and the engine hands back redelivery events for, only
    messages that were delivered at least once (schedule_redelivery creates
    such events for in-flight messages only). *)
Definition op_wf (s : mq) (o : op) : Prop :=
  match o with
  | Reject mid _ | RedeliverBegin _ mid => In mid (q_msgs s) -> 1 <= m_count (q_obj s mid)
  | _ => True
  end.

Fixpoint wf_ops (cfg : mqcfg) (s : mq) (ops : list op) : Prop :=
  match ops with
  | [] => True
  | o :: r => op_wf s o /\ wf_ops cfg (fst (step cfg s o)) r
  end.

Definition isfresh (s : mq) (id : Z) : bool := m_count (q_obj s id) =? 0.
Definition fresh (s : mq) : list Z := filter (isfresh s) (q_pending s).

Record oinv (s : mq) : Prop := {
  o_acc : forall id, acc s id;
  o_sorted : StronglySorted Z.lt (g_first s ++ fresh s);
  o_lt : forall x, In x (g_first s) -> x < q_next s;
  o_cnt : forall id, 0 <= m_count (q_obj s id);
  o_infl : forall id, In id (q_inflight s) -> 1 <= m_count (q_obj s id);
}.

Lemma isfresh_upd_other s id v x : x <> id ->
  (m_count (upd (q_obj s) id v x) =? 0) = isfresh s x.
Proof. intros N. rewrite upd_other by exact N. reflexivity. Qed.

Lemma count_keep (f : Z -> msg) k v id : m_count v = m_count (f k) -> m_count (upd f k v id) = m_count (f id).
Proof. intros E. unfold upd. destruct (Z.eqb_spec id k); [subst; exact E|reflexivity]. Qed.

Lemma oinv_init : oinv mq_init.
Proof.
  constructor; cbn; try (intros; lia); try (intros ? []).
  - apply acc_init.
  - constructor.
Qed.

(** Acknowledge, reject and a timeout keep every delivery count, take ids out
    of flight, and leave [g_first] and the id counter alone: the invariant
    then only asks that the never-delivered pending ids stay in order. *)
Lemma oinv_keep s s' :
  oinv s -> (forall id, acc s' id) ->
  (forall id, m_count (q_obj s' id) = m_count (q_obj s id)) ->
  incl (q_inflight s') (q_inflight s) -> g_first s' = g_first s -> q_next s' = q_next s ->
  StronglySorted Z.lt (g_first s ++ filter (isfresh s) (q_pending s')) -> oinv s'.
Proof.
  intros I A C F G N S. constructor.
  - exact A.
  - unfold fresh. rewrite G, (filter_ext (isfresh s') (isfresh s)); [exact S|].
    intros x. unfold isfresh. rewrite C. reflexivity.
  - rewrite G, N. exact (o_lt s I).
  - intros id. rewrite C. apply (o_cnt s I).
  - intros id H. rewrite C. apply (o_infl s I), F, H.
Qed.

(** The invariant reads only these five components (and the ledger). *)
Lemma oinv_same s s' :
  oinv s -> (forall id, acc s' id) -> q_obj s' = q_obj s -> q_pending s' = q_pending s ->
  q_inflight s' = q_inflight s -> g_first s' = g_first s -> q_next s' = q_next s -> oinv s'.
Proof.
  intros I A E1 E2 E3 E4 E5. apply (oinv_keep s); [exact I|exact A| | |exact E4|exact E5|].
  - intros id. rewrite E1. reflexivity.
  - rewrite E3. apply incl_refl.
  - rewrite E2. exact (o_sorted s I).
Qed.

(** Acknowledge and the outcomes of reject have this shape. *)
Lemma oinv_settled s mid st msgs pending resched nack nrej ackd dead ndead ndisc dropped lost :
  oinv s ->
  (forall id, acc (settled (set_core s (restated s mid st) msgs pending (remall mid (q_inflight s)) resched)
                           nack nrej ackd dead ndead ndisc dropped lost) id) ->
  StronglySorted Z.lt (g_first s ++ filter (isfresh s) pending) ->
  oinv (settled (set_core s (restated s mid st) msgs pending (remall mid (q_inflight s)) resched)
                nack nrej ackd dead ndead ndisc dropped lost).
Proof.
  intros I A S. apply (oinv_keep s); [exact I|exact A| | |reflexivity|reflexivity|exact S].
  - intros id. apply count_keep. reflexivity.
  - intros x. apply In_remall.
Qed.

Lemma oinv_ack s mid : oinv s -> oinv (do_ack s mid).
Proof.
  intros I. pose proof (fun id => acc_ack s mid id (o_acc s I id)) as A.
  rewrite do_ack_eq in *. destruct (negb (mem mid (q_msgs s))); [exact I|].
  apply oinv_settled; [exact I|exact A|]. apply ss_app_filter_rem1. exact (o_sorted s I).
Qed.

Lemma oinv_reject cfg s mid rq :
  oinv s -> (In mid (q_msgs s) -> 1 <= m_count (q_obj s mid)) -> oinv (do_reject cfg s mid rq).
Proof.
  intros I W. pose proof (fun id => acc_reject cfg s mid rq id (o_acc s I id)) as A.
  rewrite do_reject_eq in *. destruct (mem mid (q_msgs s)) eqn:EM; cbn [negb] in *; [|exact I].
  apply mem_In in EM. specialize (W EM).
  assert (S : StronglySorted Z.lt (g_first s ++ filter (isfresh s) (rem1 mid (q_pending s))))
    by (apply ss_app_filter_rem1; exact (o_sorted s I)).
  destruct (rq && _); [|destruct (c_dlq cfg)]; (apply oinv_settled; [exact I|exact A|]).
  - (* requeued at the tail: [mid] was delivered before, so it is not among the fresh ids *)
    rewrite filter_app. cbn [filter]. replace (isfresh s mid) with false by (unfold isfresh; lia).
    rewrite app_nil_r. exact S.
  - exact S.
  - exact S.
Qed.

(** Pre-yield half of a delivery.  The hypothesis says: a never-delivered
    message is only ever delivered from the head of the pending deque (poll). *)
Lemma oinv_deliver_begin s h mid :
  oinv s ->
  (In mid (q_msgs s) -> m_count (q_obj s mid) = 0 -> exists r, q_pending s = mid :: r) ->
  oinv (fst (deliver_begin s h mid)).
Proof.
  intros I HD. pose proof (fun id => acc_deliver_begin s h mid id (o_acc s I id)) as A.
  rewrite deliver_begin_eq in *. destruct (mem mid (q_msgs s)) eqn:EM; cbn [negb] in *; [|exact I].
  destruct (q_cons s) eqn:EC; [exact I|]. cbn [fst] in *. apply mem_In in EM. specialize (HD EM).
  pose proof (o_cnt s I mid) as C0. pose proof (o_sorted s I) as S. unfold fresh in S.
  (* the delivery count of [mid] goes up by one, the others stay *)
  assert (CN : forall id, m_count (q_obj (delivering s h mid) id) = m_count (q_obj s id) + (if id =? mid then 1 else 0)).
  { intros id. cbn [delivering q_obj]. unfold upd. destruct (Z.eqb_spec id mid) as [->|]; cbn [m_count]; lia. }
  assert (FR : forall x, x <> mid -> isfresh (delivering s h mid) x = isfresh s x).
  { intros x N. unfold isfresh. rewrite CN. destruct (Z.eqb_spec x mid); [contradiction|]. f_equal. lia. }
  constructor.
  - exact A.
  - unfold fresh. cbn [delivering q_pending g_first]. rewrite rem1_if_mem.
    destruct (Z.eq_dec (m_count (q_obj s mid)) 0) as [Z0|NZ].
    + (* first delivery: mid is the head of pending and moves to the end of g_first *)
      destruct (HD Z0) as [r EP]. rewrite EP in *. cbn [rem1 filter] in *. rewrite Z.eqb_refl.
      replace (isfresh s mid) with true in S by (unfold isfresh; rewrite Z0; reflexivity).
      replace (1 <? m_count (q_obj s mid) + 1) with false by lia. rewrite <- app_assoc. cbn [app].
      rewrite (filter_ext_in (isfresh _) (isfresh s)); [exact S|].
      (* [mid] does not occur a second time in pending: it is stored once *)
      intros x Hx. apply FR. intros ->.
      destruct (acc_stored s mid (o_acc s I mid) EM) as (S1 & _ & _ & S4 & _).
      destruct (o_acc s I mid) as (A1 & _). rewrite EP in A1. cbn [cnt] in A1. rewrite Z.eqb_refl in A1.
      apply cnt_In in Hx. lia.
    + (* redelivery: no fresh id is involved *)
      replace (1 <? m_count (q_obj s mid) + 1) with true by lia.
      rewrite (filter_ext (isfresh _) (isfresh s)); [apply ss_app_filter_rem1; exact S|].
      intros x. destruct (Z.eq_dec x mid) as [->|N]; [|apply FR, N]. unfold isfresh. rewrite CN, Z.eqb_refl. lia.
  - cbn [delivering g_first q_next]. intros x Hx. destruct (1 <? _); [apply (o_lt s I), Hx|].
    apply in_app_or in Hx. destruct Hx as [Hx|[<-|[]]]; [apply (o_lt s I), Hx|apply (acc_msgs_lt s mid (o_acc s I mid) EM)].
  - intros id. rewrite CN. pose proof (o_cnt s I id). destruct (id =? mid); lia.
  - intros id H. rewrite CN. cbn [delivering q_inflight] in H. apply In_addkey in H.
    destruct H as [->|H]; [rewrite Z.eqb_refl; lia|]. pose proof (o_infl s I id H). destruct (id =? mid); lia.
Qed.

Lemma oinv_step cfg s o : oinv s -> op_wf s o -> oinv (fst (step cfg s o)).
Proof.
  intros I W. pose proof (fun id => acc_step cfg s o id (o_acc s I id)) as A.
  destruct o; cbn [step op_wf] in *.
  - destruct (mem c (q_cons s)); [exact I|]. apply (oinv_same s); [exact I|exact A|reflexivity..].
  - destruct (mem c (q_cons s)); [|exact I]. apply (oinv_same s); [exact I|exact A|reflexivity..].
  - (* the new id is the largest so far and fresh: it extends the sorted list at the end *)
    destruct (mq_full cfg s); [exact I|]. cbn [fst] in *.
    assert (PL : forall x, In x (q_pending s) -> x < q_next s).
    { intros x Hx. apply (acc_msgs_lt s x (o_acc s I x)), (acc_pending_stored s x (o_acc s I x) Hx). }
    constructor.
    + exact A.
    + unfold fresh. cbn [q_pending g_first]. rewrite filter_app. cbn [filter].
      replace (isfresh _ (q_next s)) with true by (unfold isfresh; cbn [q_obj]; rewrite upd_same; reflexivity).
      rewrite app_assoc, (filter_ext_in (isfresh _) (isfresh s)).
      * apply ss_snoc; [exact (o_sorted s I)|]. apply Forall_forall.
        intros y Hy. apply in_app_or in Hy. destruct Hy as [Hy|Hy]; [apply (o_lt s I); exact Hy|].
        apply filter_In in Hy. apply PL, Hy.
      * intros x Hx. apply isfresh_upd_other. specialize (PL x Hx). lia.
    + cbn [g_first q_next]. intros x Hx. pose proof (o_lt s I x Hx). lia.
    + intros id. cbn [q_obj]. destruct (Z.eq_dec id (q_next s)) as [->|N]; [rewrite upd_same; cbn; lia|].
      rewrite upd_other by exact N. apply (o_cnt s I).
    + intros id H. cbn [q_obj q_inflight] in *. rewrite upd_other; [apply (o_infl s I); exact H|].
      (* an id in flight is stored, hence below the counter *)
      pose proof (acc_msgs_lt s id (o_acc s I id) (acc_inflight_stored s id (o_acc s I id) H)). lia.
  - destruct (q_pending s) as [|m r] eqn:EP; [exact I|]. destruct (q_cons s) eqn:EC; [exact I|].
    apply oinv_deliver_begin; [exact I|]. intros _ _. exists r. exact EP.
  - apply oinv_deliver_begin.
    + apply (oinv_same s); [exact I|exact (o_acc s I)|reflexivity..].
    + cbn [q_msgs q_obj set_core]. intros HM Z0. specialize (W HM). lia.
  - destruct (lookup h (q_susp s)) as [[m c]|]; [|exact I].
    destruct (mem m (q_msgs s)); (apply (oinv_same s); [exact I|exact A|reflexivity..]).
  - apply oinv_ack. exact I.
  - apply oinv_reject; assumption.
  - destruct (negb (mem mid (q_inflight s))) eqn:EI; [exact I|]. apply negb_false_iff, mem_In in EI.
    destruct (mem mid (q_resched s)); [exact I|].
    pose proof (o_infl s I mid EI) as C1.
    destruct (c_max cfg <=? _); [apply oinv_reject; [exact I|intros _; exact C1]|]. cbn [fst] in *.
    apply (oinv_keep s); [exact I|exact A| | |reflexivity|reflexivity|].
    + intros id. apply count_keep. reflexivity.
    + intros x. apply In_remall.
    + cbn [q_pending set_core filter]. replace (isfresh s mid) with false by (unfold isfresh; lia). exact (o_sorted s I).
  - apply (oinv_same s); [exact I|exact A|reflexivity..].
Qed.

Lemma oinv_run_from cfg ops s : oinv s -> wf_ops cfg s ops -> oinv (fst (run_from cfg s ops)).
Proof.
  intros I W. rewrite run_fold.
  refine (proj1 (fold_left_inv_rest _ (fun s r => oinv s /\ wf_ops cfg s r) _ ops s (conj I W))).
  intros s0 o r [I0 [W1 W2]]. split; [apply oinv_step; assumption|exact W2].
Qed.

(** [wf_ops] is satisfiable by a non-trivial run (two messages, a timeout,
    a redelivery, a reject). *)
Definition ex_cfg : mqcfg := {| c_max := 3; c_cap := None; c_delay := 5; c_dlq := true; c_dlqcap := None |}.
Definition ex_ops : list op :=
  [Subscribe 0; Publish; Publish; PollBegin 1; DeliverEnd 1 10; Sched 0 20; PollBegin 2; RedeliverBegin 3 0;
   DeliverEnd 2 30; PollBegin 4; Reject 1 true; DeliverEnd 4 40; Ack 0].

Example mq_order_example :
  wf_ops ex_cfg mq_init ex_ops /\ g_first (run ex_cfg ex_ops) = [0; 1].
Proof.
  split; [|vm_compute; reflexivity]. unfold ex_ops. cbn [wf_ops op_wf].
  repeat split; intros _; vm_compute; discriminate.
Qed.

(** Without [wf_ops] first deliveries need not follow publish order: rejecting
    a message that was never delivered moves it behind later messages. *)
Example mq_order_needs_wf :
  ~ StronglySorted Z.lt (g_first (run ex_cfg [Subscribe 0; Publish; Publish; Reject 0 true; PollBegin 1; PollBegin 2])).
Proof.
  assert (E : g_first (run ex_cfg [Subscribe 0; Publish; Publish; Reject 0 true; PollBegin 1; PollBegin 2]) = [1; 0])
    by (vm_compute; reflexivity).
  rewrite E. intros S. inversion S as [|? ? _ F]; subst. inversion F; subst. lia.
Qed.
