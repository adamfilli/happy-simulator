(** EngineProofs — invariants of the run loops of Engine.v, for EVERY handler
    semantics [invoke] that allocates fresh sort indices (the interface
    [invoke_ok], discharged for the script interpreter in ScriptProofs.v).
    A loop iteration pops the head and logs it ([pop_inv]), then pushes the
    handler's events ([push_all_inv]). *)
From HS Require Import Base.Prelude Base.Lists Engine.Engine.
From Coq Require Import Sorting.Sorted Sorting.Permutation.
Local Open Scope Z_scope.

Lemma or_swap (A B C : Prop) : A \/ B \/ C <-> B \/ A \/ C.
Proof. tauto. Qed.

Lemma NoDup_app_intro {A} (a b : list A) :
  NoDup a -> NoDup b -> (forall k, In k a -> In k b -> False) -> NoDup (a ++ b).
Proof.
  induction 1 as [|x a Hx Hnd IH]; intros Hb Hdis; cbn; [exact Hb|].
  constructor.
  - intros Hin. apply in_app_or in Hin as [Hin|Hin]; [auto|]. apply (Hdis x); [left; reflexivity|exact Hin].
  - apply IH; [exact Hb|]. intros k Hk1 Hk2. apply (Hdis k); [right; exact Hk1|exact Hk2].
Qed.

Lemma NoDup_map_inj {A B} (f : A -> B) l p q : NoDup (map f l) -> In p l -> In q l -> f p = f q -> p = q.
Proof.
  induction l as [|y l IH]; cbn; intros Hnd Hp Hq E; [contradiction|].
  inversion Hnd as [|? ? Hnotin Hnd']; subst.
  destruct Hp as [->|Hp], Hq as [->|Hq]; [reflexivity| | |exact (IH Hnd' Hp Hq E)];
    exfalso; apply Hnotin; [rewrite E|rewrite <- E]; apply in_map; assumption.
Qed.


Lemma sorted_rev {A} (R : A -> A -> Prop) l :
  StronglySorted (fun a b => R b a) l -> StronglySorted R (rev l).
Proof.
  induction 1 as [|a l Hs IH Hall]; cbn; [constructor|].
  apply ss_snoc; [exact IH|]. rewrite Forall_forall in *. intros x Hx. apply in_rev in Hx. auto.
Qed.


Lemma sorted_impl {A} (R S : A -> A -> Prop) l : (forall a b, R a b -> S a b) -> StronglySorted R l -> StronglySorted S l.
Proof.
  intros HRS. induction 1 as [|a l Hs IH Hall]; constructor; [exact IH|].
  eapply Forall_impl; [apply HRS|exact Hall].
Qed.

Lemma sorted_between {A} (R : A -> A -> Prop) l1 a l2 b l3 : StronglySorted R (l1 ++ a :: l2 ++ b :: l3) -> R a b.
Proof.
  induction l1 as [|x l1 IH]; cbn; intros H; apply StronglySorted_inv in H as [H Hall]; [|exact (IH H)].
  rewrite Forall_forall in Hall. apply Hall, in_or_app. right; left; reflexivity.
Qed.

Section Proofs.
  Variables P U : Type.
  Notation ev := (@ev P).
  Notation st := (@st P U).
  Notation outcome := (@outcome P U).
  Variable invoke : U -> Z -> ev -> Z -> option (@inv_result P U).

  Definition ev_lt (a b : ev) : Prop := ev_ltb a b = true.

  Lemma ev_lt_iff a b :
    ev_lt a b <-> ev_time a < ev_time b \/ (ev_time a = ev_time b /\ ev_sort a < ev_sort b).
  Proof. unfold ev_lt, ev_ltb. destruct (Z.eqb_spec (ev_time a) (ev_time b)); lia. Qed.

  Lemma ev_lt_trans a b c : ev_lt a b -> ev_lt b c -> ev_lt a c.
  Proof. rewrite !ev_lt_iff. lia. Qed.
  Lemma ev_lt_irrefl a : ~ ev_lt a a.
  Proof. rewrite ev_lt_iff. lia. Qed.
  Lemma ev_lt_time a b : ev_lt a b -> ev_time a <= ev_time b.
  Proof. rewrite ev_lt_iff. lia. Qed.
  Lemma ev_lt_intro a b : ev_time a <= ev_time b -> ev_sort a < ev_sort b -> ev_lt a b.
  Proof. rewrite ev_lt_iff. lia. Qed.
  Lemma ev_ltb_total a b : ev_ltb a b = false -> ev_sort a <> ev_sort b -> ev_lt b a.
  Proof. intros H. apply not_true_iff_false in H. change (~ ev_lt a b) in H. rewrite ev_lt_iff in *. lia. Qed.
  Lemma ev_ltb_false_time (a b : ev) : ev_ltb a b = false -> ev_time b <= ev_time a.
  Proof. intros H. apply not_true_iff_false in H. change (~ ev_lt a b) in H. rewrite ev_lt_iff in H. lia. Qed.

  (** The handler interface: new events carry fresh, pairwise distinct sort
      indices taken from the counter. *)
  Definition invoke_ok : Prop :=
    forall u now e c r, invoke u now e c = Some r ->
      c <= r_ctr r /\
      (forall x, In x (r_new r) -> c <= ev_sort x < r_ctr r) /\
      NoDup (map ev_sort (r_new r)).
  Hypothesis Hinv : invoke_ok.

  Lemma insert_In (e : ev) h x : In x (insert e h) <-> e = x \/ In x h.
  Proof.
    induction h as [|y r IH]; cbn; [reflexivity|].
    destruct (ev_ltb e y); cbn; [reflexivity|]. rewrite IH. apply or_swap.
  Qed.

  Lemma insert_all_In (es : list ev) h x : In x (insert_all es h) <-> In x es \/ In x h.
  Proof.
    unfold insert_all. revert h; induction es as [|e r IH]; intros h; cbn; [tauto|].
    rewrite IH, insert_In, or_swap. symmetry. apply or_assoc.
  Qed.

  Lemma insert_perm (e : ev) h : Permutation (insert e h) (e :: h).
  Proof.
    induction h as [|y r IH]; cbn; [reflexivity|].
    destruct (ev_ltb e y); [reflexivity|].
    rewrite IH. apply perm_swap.
  Qed.

  Lemma insert_all_perm (es : list ev) h : Permutation (insert_all es h) (es ++ h).
  Proof.
    unfold insert_all. revert h; induction es as [|e r IH]; intros h; cbn; [reflexivity|].
    rewrite IH, insert_perm. symmetry. apply Permutation_middle.
  Qed.

  Lemma insert_sorted_by (R : ev -> ev -> Prop) (e : ev) h :
    (forall a b c, R a b -> R b c -> R a c) ->
    (forall y, In y h -> if ev_ltb e y then R e y else R y e) ->
    StronglySorted R h -> StronglySorted R (insert e h).
  Proof.
    intros Htr Hcmp Hs. induction Hs as [|y r Hs IH Hall]; cbn; [constructor; constructor|].
    pose proof (Hcmp y (or_introl eq_refl)) as Hy. destruct (ev_ltb e y).
    - constructor; [constructor; assumption|]. constructor; [exact Hy|].
      eapply Forall_impl; [|exact Hall]. intros x. apply Htr, Hy.
    - constructor; [apply IH; intros x Hx; apply Hcmp; right; exact Hx|].
      rewrite Forall_forall in *. intros x Hx. apply insert_In in Hx as [<-|Hx]; auto.
  Qed.

  Lemma insert_sorted (e : ev) h :
    StronglySorted ev_lt h -> (forall x, In x h -> ev_sort x <> ev_sort e) ->
    StronglySorted ev_lt (insert e h).
  Proof.
    intros Hs Hne. apply insert_sorted_by; [exact ev_lt_trans| |exact Hs].
    intros y Hy. destruct (ev_ltb e y) eqn:E; [exact E|].
    apply ev_ltb_total; [exact E|]. intros Heq. exact (Hne y Hy (eq_sym Heq)).
  Qed.

  Lemma insert_all_sorted (es : list ev) h :
    StronglySorted ev_lt h ->
    NoDup (map ev_sort es) ->
    (forall x y, In x h -> In y es -> ev_sort x <> ev_sort y) ->
    StronglySorted ev_lt (insert_all es h).
  Proof.
    unfold insert_all. revert h; induction es as [|e r IH]; intros h Hs Hnd Hne; cbn; [exact Hs|].
    inversion Hnd as [|? ? Hnotin Hnd']; subst.
    apply IH; [apply insert_sorted; [exact Hs|] | exact Hnd' |].
    - intros x Hx. apply Hne; [exact Hx|left; reflexivity].
    - intros x y Hx Hy. apply insert_In in Hx as [<-|Hx].
      + intros Heq. apply Hnotin. rewrite Heq. apply in_map. exact Hy.
      + apply Hne; [exact Hx|right; exact Hy].
  Qed.

  Lemma count_primary_cons (e : ev) h :
    count_primary (e :: h) = count_primary h + (if ev_daemon e then 0 else 1).
  Proof. unfold count_primary; cbn. destruct (ev_daemon e); lia. Qed.

  Lemma count_primary_app (a b : list ev) : count_primary (a ++ b) = count_primary a + count_primary b.
  Proof. induction a as [|x a IH]; [reflexivity|]. cbn [app]. rewrite !count_primary_cons, IH. lia. Qed.

  Lemma count_primary_perm (a b : list ev) : Permutation a b -> count_primary a = count_primary b.
  Proof. induction 1; rewrite ?count_primary_cons; lia. Qed.

  Lemma count_primary_nonneg (a : list ev) : 0 <= count_primary a.
  Proof. induction a as [|x a IH]; [reflexivity|]. rewrite count_primary_cons. destruct (ev_daemon x); lia. Qed.

  Lemma is_cancelled_iff (s : st) e : is_cancelled s e = true <-> In (ev_sort e) (cancelled s).
  Proof.
    unfold is_cancelled. rewrite existsb_exists. split; [intros [i [Hi E]]|intros H; exists (ev_sort e)].
    - apply Z.eqb_eq in E. rewrite E. exact Hi.
    - split; [exact H|apply Z.eqb_refl].
  Qed.

  Lemma in_pushed_push_all (s : st) es x a :
    In (x, a) (pushed (push_all s es)) <-> (In x es /\ a = clock s) \/ In (x, a) (pushed s).
  Proof.
    unfold push_all; cbn. rewrite in_app_iff, <- in_rev, in_map_iff. split.
    - intros [[y [E Hy]]|H]; [inversion E; subst; left; auto|right; exact H].
    - intros [[Hx ->]|H]; [left; exists x; auto|right; exact H].
  Qed.

  Lemma pushed_push_all_fst (s : st) es : map fst (pushed (push_all s es)) = rev es ++ map fst (pushed s).
  Proof. unfold push_all; cbn. rewrite map_app, <- map_rev, map_map. cbn. rewrite map_id. reflexivity. Qed.

  Definition popped (s : st) : list ev := map (fun x => fst (fst x)) (log s).
  Definition is_delivered (x : ev * Z * disposition) : bool :=
    match snd x with Delivered => true | _ => false end.
  Definition dlog (s : st) : list ev := map (fun x => fst (fst x)) (filter is_delivered (log s)).

  Lemma delivered_rev s : delivered s = rev (dlog s).
  Proof. reflexivity. Qed.

  Record Inv (s : st) : Prop := {
    i_sorted : StronglySorted ev_lt (heap s);
    i_fresh : forall x, In x (map fst (pushed s)) -> ev_sort x < ctr s;
    i_nodup : NoDup (map ev_sort (map fst (pushed s)));
    i_perm : Permutation (map fst (pushed s)) (heap s ++ popped s);
    i_primary : primary s = count_primary (heap s);
    (* delivered events, newest first, strictly decrease in (time, sort) *)
    i_dsorted : StronglySorted (fun a b => ev_lt b a) (dlog s);
    i_dclock : forall p, In p (dlog s) -> ev_time p <= clock s;
    i_ahead : forall p x, In p (dlog s) -> In x (heap s) -> clock s <= ev_time x -> ev_lt p x;
    (* events scheduled at or after the clock of their scheduling are never in the past *)
    i_live : forall x at_, In (x, at_) (pushed s) -> In x (heap s) -> at_ <= ev_time x -> clock s <= ev_time x;
    i_logclock : forall e c, In (e, c, Delivered) (log s) -> c = ev_time e;
    i_past : forall e c, In (e, c, SkippedPast) (log s) -> exists at_, In (e, at_) (pushed s) /\ ev_time e < at_;
    i_pushclock : forall x at_, In (x, at_) (pushed s) -> at_ <= clock s;
    i_skipc : forall e c, In (e, c, SkippedCancelled) (log s) -> is_cancelled s e = true;
  }.

  Lemma in_pushed_iff s x : Inv s -> In x (map fst (pushed s)) <-> In x (heap s) \/ In x (popped s).
  Proof. intros I. rewrite <- in_app_iff. split; apply Permutation_in; [|symmetry]; apply (i_perm _ I). Qed.

  Lemma heap_in_pushed s x : Inv s -> In x (heap s) -> In x (map fst (pushed s)).
  Proof. intros I Hx. apply (in_pushed_iff s x I). left; exact Hx. Qed.

  Lemma dlog_in_popped s x : In x (dlog s) -> In x (popped s).
  Proof.
    unfold dlog, popped. rewrite !in_map_iff. intros [y [E Hy]]. apply filter_In in Hy as [Hy _]. eauto.
  Qed.

  Lemma head_min s e h : Inv s -> heap s = e :: h -> forall x, In x h -> ev_lt e x.
  Proof.
    intros I Hh. pose proof (i_sorted _ I) as Hs. rewrite Hh in Hs.
    apply StronglySorted_inv in Hs as [_ Hall]. rewrite Forall_forall in Hall. exact Hall.
  Qed.

  Lemma head_not_in_tail s e h : Inv s -> heap s = e :: h -> ~ In e h.
  Proof. intros I Hh Hin. eapply ev_lt_irrefl. eapply head_min; eauto. Qed.

  (** The log entry [(e, now, d)] written when the head [e] is popped in [s] is true. *)
  Definition truthful (s : st) (e : ev) (now : Z) (d : disposition) : Prop :=
    match d with
    | Delivered => clock s <= ev_time e /\ now = ev_time e
    | SkippedPast => ev_time e < clock s /\ now = clock s
    | SkippedCancelled => is_cancelled s e = true /\ now = clock s
    end.

  Lemma pop_inv s e h now d c canc u np nc :
    Inv s -> heap s = e :: h -> truthful s e now d -> ctr s <= c -> incl (cancelled s) canc ->
    Inv (mkSt now h (if ev_daemon e then primary s else primary s - 1) c canc u np nc
              ((e, now, d) :: log s) (pushed s)).
  Proof.
    intros I Hh Ht Hc Hcanc.
    assert (He : In e (heap s)) by (rewrite Hh; left; reflexivity).
    assert (Hsub : forall x, In x h -> In x (heap s)) by (intros x Hx; rewrite Hh; right; exact Hx).
    pose proof (head_min s e h I Hh) as Hmin.
    assert (Hnow : clock s <= now /\ (now = clock s \/ now = ev_time e)) by (destruct d; cbn in Ht; lia).
    constructor; cbn [clock heap primary ctr log pushed].
    - pose proof (i_sorted _ I) as Hs. rewrite Hh in Hs. apply StronglySorted_inv in Hs. apply Hs.
    - intros x Hx. pose proof (i_fresh _ I x Hx). lia.
    - apply (i_nodup _ I).
    - rewrite (i_perm _ I), Hh. apply Permutation_middle.
    - rewrite (i_primary _ I), Hh, count_primary_cons. destruct (ev_daemon e); lia.
    - unfold dlog; cbn. destruct d; cbn; [|apply (i_dsorted _ I)..].
      constructor; [apply (i_dsorted _ I)|]. apply Forall_forall. intros p Hp.
      apply (i_ahead _ I); [exact Hp|exact He|apply Ht].
    - unfold dlog; cbn. intros p Hp.
      destruct d; cbn in Hp; [destruct Hp as [<-|Hp]; [cbn in Ht; lia|]|..]; pose proof (i_dclock _ I p Hp); lia.
    - unfold dlog; cbn. intros p x Hp Hx Hcl.
      destruct d; cbn in Hp; [destruct Hp as [<-|Hp]; [exact (Hmin x Hx)|]|..];
        (apply (i_ahead _ I); [exact Hp|exact (Hsub x Hx)|lia]).
    - intros x a Hp Hx Hle. pose proof (i_live _ I x a Hp (Hsub x Hx) Hle). pose proof (ev_lt_time _ _ (Hmin x Hx)). lia.
    - intros e0 c0 [E|Hin]; [|exact (i_logclock _ I _ _ Hin)]. injection E as <- <- ->. apply Ht.
    - intros e0 c0 [E|Hin]; [|exact (i_past _ I _ _ Hin)]. injection E as <- <- ->. destruct Ht as [Hlt _].
      (* [e] was pushed with some clock [a]; were [a <= time e], [i_live] would put [e] ahead of the clock *)
      apply heap_in_pushed, in_map_iff in He as [[x a] [E1 Hin]]; [|exact I]. cbn in E1; subst x.
      exists a. split; [exact Hin|].
      destruct (Z_lt_le_dec (ev_time e) a) as [L|L]; [exact L|].
      pose proof (i_live _ I _ _ Hin) as HL. rewrite Hh in HL. specialize (HL (or_introl eq_refl) L). lia.
    - intros x a Hp. pose proof (i_pushclock _ I _ _ Hp). lia.
    - intros e0 c0 Hin. apply is_cancelled_iff. cbn [cancelled]. apply Hcanc, is_cancelled_iff.
      destruct Hin as [E|Hin]; [|exact (i_skipc _ I _ _ Hin)]. injection E as <- <- ->. apply Ht.
  Qed.

  Lemma push_all_inv s es :
    Inv s -> NoDup (map ev_sort es) ->
    (forall x y, In x (map fst (pushed s)) -> In y es -> ev_sort x < ev_sort y) ->
    (forall y, In y es -> ev_sort y < ctr s) ->
    Inv (push_all s es).
  Proof.
    intros I Hnd Habove Hbelow.
    constructor; rewrite ?pushed_push_all_fst; try exact (i_dsorted _ I); try exact (i_dclock _ I);
      try exact (i_logclock _ I); try exact (i_skipc _ I); cbn [push_all clock heap primary ctr log].
    - apply insert_all_sorted; [apply (i_sorted _ I)|exact Hnd|].
      intros x y Hx Hy. pose proof (Habove x y (heap_in_pushed _ _ I Hx) Hy). lia.
    - intros x Hx. apply in_app_or in Hx as [Hx|Hx]; [apply Hbelow, in_rev, Hx|apply (i_fresh _ I), Hx].
    - rewrite map_app. apply NoDup_app_intro; [rewrite map_rev; apply NoDup_rev, Hnd|apply (i_nodup _ I)|].
      intros k Hk1 Hk2. apply in_map_iff in Hk1 as [y [<- Hy]]. apply in_map_iff in Hk2 as [x [E Hx]].
      apply in_rev in Hy. pose proof (Habove x y Hx Hy). lia.
    - rewrite insert_all_perm, (i_perm _ I), <- Permutation_rev, app_assoc. reflexivity.
    - rewrite (count_primary_perm _ _ (insert_all_perm _ _)), count_primary_app, (i_primary _ I). lia.
    - intros p x Hp Hx Hcl. apply insert_all_In in Hx as [Hx|Hx]; [|exact (i_ahead _ I p x Hp Hx Hcl)].
      pose proof (i_dclock _ I p Hp). pose proof (Habove p x (proj2 (in_pushed_iff _ p I) (or_intror (dlog_in_popped _ _ Hp))) Hx).
      apply ev_lt_intro; lia.
    - intros x a Hp Hx Hle. apply in_pushed_push_all in Hp as [[_ ->]|Hp]; [exact Hle|].
      apply insert_all_In in Hx as [Hx|Hx]; [|exact (i_live _ I x a Hp Hx Hle)].
      assert (Hxp : In x (map fst (pushed s))) by (apply in_map_iff; exists (x, a); auto).
      pose proof (Habove x x Hxp Hx). lia.
    - intros e c Hin. destruct (i_past _ I e c Hin) as [a [Ha Hlt]].
      exists a. split; [apply in_pushed_push_all; right; exact Ha|exact Hlt].
    - intros x a Hp. apply in_pushed_push_all in Hp as [[_ ->]|Hp]; [lia|exact (i_pushclock _ I _ _ Hp)].
  Qed.

  Lemma pop_and_handle_inv s e h :
    Inv s -> heap s = e :: h -> Inv (out_state (pop_and_handle invoke s e h)).
  Proof.
    intros I Hh. unfold pop_and_handle.
    destruct (is_cancelled s e) eqn:Ec; [apply pop_inv; cbn; auto using incl_refl; lia|].
    destruct (ev_time e <? clock s) eqn:Ep; [apply pop_inv; cbn; auto using incl_refl; lia|].
    assert (Ht : truthful s e (ev_time e) Delivered) by (cbn; lia).
    destruct (invoke (user s) (ev_time e) e (ctr s)) as [r|] eqn:Er; cbn [out_state].
    - destruct (Hinv _ _ _ _ _ Er) as (Hc & Hnew & Hnd).
      apply push_all_inv; [apply pop_inv; auto using incl_appr, incl_refl|exact Hnd|..]; cbn [pushed ctr].
      + intros x y Hx Hy. pose proof (i_fresh _ I x Hx). pose proof (Hnew y Hy). lia.
      + intros y Hy. apply Hnew, Hy.
    - apply pop_inv; auto using incl_refl. lia.
  Qed.

  Lemma pop_and_handle_not_stopped s e h s' : pop_and_handle invoke s e h <> Stopped s'.
  Proof.
    unfold pop_and_handle. destruct (is_cancelled s e); [discriminate|].
    destruct (ev_time e <? clock s); [discriminate|].
    destruct (invoke _ _ _ _); discriminate.
  Qed.

  (** A loop body that stops in place or pops the head. *)
  Definition pops (stepf : st -> outcome) : Prop :=
    forall s, stepf s = Stopped s \/ exists e h, heap s = e :: h /\ stepf s = pop_and_handle invoke s e h.

  Lemma step_fast_pops end_ns : pops (step_fast invoke end_ns).
  Proof.
    intros s. unfold step_fast. destruct (heap s) as [|e h]; [left; reflexivity|].
    destruct (clock s <=? end_ns); [right; eauto|left; reflexivity].
  Qed.

  Lemma step_slow_pops end_ns : pops (step_slow invoke end_ns).
  Proof.
    intros s. unfold step_slow. destruct (heap s) as [|e h]; [left; reflexivity|].
    destruct (negb _); [left; reflexivity|]. destruct (_ && _); [left; reflexivity|right; eauto].
  Qed.

  Lemma pops_stopped stepf s s' : pops stepf -> stepf s = Stopped s' -> s' = s.
  Proof.
    intros Hp H. destruct (Hp s) as [E|(e & h & _ & E)]; rewrite E in H; [congruence|].
    destruct (pop_and_handle_not_stopped _ _ _ _ H).
  Qed.

  Lemma iterate_stopped stepf fuel s s' : pops stepf -> iterate stepf fuel s = Stopped s' -> stepf s' = Stopped s'.
  Proof.
    intros Hp. revert s; induction fuel as [|f IH]; intros s; cbn; [discriminate|].
    destruct (stepf s) as [s1|s1|s1] eqn:E; [apply IH| |discriminate].
    intros [= <-]. rewrite (pops_stopped _ _ _ Hp E) at 1. exact E.
  Qed.

  (** What popping keeps, every loop keeps. *)
  Definition kept_by_pop (Q : st -> Prop) : Prop :=
    forall s e h, Q s -> heap s = e :: h -> Q (out_state (pop_and_handle invoke s e h)).

  Lemma pops_preserves Q stepf : kept_by_pop Q -> pops stepf -> forall s, Q s -> Q (out_state (stepf s)).
  Proof. intros Hpop Hp s H. destruct (Hp s) as [->|(e & h & Hh & ->)]; [exact H|exact (Hpop s e h H Hh)]. Qed.

  Lemma iterate_preserves Q stepf : kept_by_pop Q -> pops stepf ->
    forall fuel s, Q s -> Q (out_state (iterate stepf fuel s)).
  Proof.
    intros Hpop Hp. induction fuel as [|f IH]; intros s H; cbn; [exact H|].
    pose proof (pops_preserves Q stepf Hpop Hp s H) as H1. destruct (stepf s) as [s'|s'|s']; cbn in *; auto.
  Qed.

  Lemma iterate_stopped_preserves Q stepf fuel s s' : kept_by_pop Q -> pops stepf ->
    Q s -> iterate stepf fuel s = Stopped s' -> Q s'.
  Proof. intros Hpop Hp H E. change s' with (out_state (Stopped s')). rewrite <- E. apply iterate_preserves; assumption. Qed.

  Lemma run_preserves Q fuel end_ns s : kept_by_pop Q -> Q s -> Q (out_state (run invoke fuel end_ns s)).
  Proof.
    intros Hpop. unfold run. destruct end_ns as [t|]; apply iterate_preserves; auto using step_fast_pops, step_slow_pops.
  Qed.

  Theorem run_inv fuel end_ns s : Inv s -> Inv (out_state (run invoke fuel end_ns s)).
  Proof. apply run_preserves. exact pop_and_handle_inv. Qed.

  (** [canc]: the cancellations made before the run. *)
  Lemma init_inv start u pre ctr0 canc :
    NoDup (map ev_sort pre) -> (forall x, In x pre -> ev_sort x < ctr0) ->
    let s := init_state start u pre ctr0 in
    Inv (mkSt (clock s) (heap s) (primary s) (ctr s) canc (user s) (processed s) (ncancelled s) (log s) (pushed s)).
  Proof.
    intros Hnd Hlt. apply (push_all_inv (mkSt start [] 0 ctr0 canc u 0 0 [] []) pre); [|exact Hnd|intros x y []|exact Hlt].
    constructor; cbn; try contradiction; constructor.
  Qed.

  Theorem delivered_strictly_sorted s : Inv s -> StronglySorted ev_lt (delivered s).
  Proof. intros I. rewrite delivered_rev. apply sorted_rev. apply (i_dsorted _ I). Qed.

  Theorem delivered_once s : Inv s -> NoDup (delivered s).
  Proof. intros I. eapply ss_NoDup; [exact ev_lt_irrefl|apply delivered_strictly_sorted, I]. Qed.

  Theorem delivered_order s l1 a l2 b l3 : Inv s -> delivered s = l1 ++ a :: l2 ++ b :: l3 ->
    ev_time a < ev_time b \/ (ev_time a = ev_time b /\ ev_sort a < ev_sort b).
  Proof.
    intros I E. pose proof (delivered_strictly_sorted s I) as H. rewrite E in H.
    apply sorted_between, ev_lt_iff in H. exact H.
  Qed.

  Theorem delivered_clock s e c : Inv s -> In (e, c, Delivered) (log s) -> c = ev_time e.
  Proof. intros I. apply (i_logclock _ I). Qed.

  Theorem past_only_if_scheduled_in_past s e c : Inv s -> In (e, c, SkippedPast) (log s) ->
    exists at_, In (e, at_) (pushed s) /\ ev_time e < at_.
  Proof. intros I. apply (i_past _ I). Qed.

  Lemma pushed_clock_unique s x a b : Inv s -> In (x, a) (pushed s) -> In (x, b) (pushed s) -> a = b.
  Proof.
    intros I Ha Hb. pose proof (i_nodup _ I) as Hnd. rewrite map_map in Hnd.
    assert (E : (x, a) = (x, b)) by exact (NoDup_map_inj _ _ _ _ Hnd Ha Hb eq_refl). congruence.
  Qed.

  Lemma step_fast_stopped end_ns s s' : step_fast invoke end_ns s = Stopped s' -> heap s = [] \/ end_ns < clock s.
  Proof.
    unfold step_fast. destruct (heap s) as [|e h]; [auto|].
    destruct (Z.leb_spec (clock s) end_ns); [intros E; destruct (pop_and_handle_not_stopped _ _ _ _ E)|auto].
  Qed.

  (** Exactly-once, the "at least once" half: nothing scheduled at or after the
      clock of its scheduling and up to end_time is discarded as past or left behind. *)
  Theorem live_events_handled fuel end_ns s s' :
    Inv s -> run_fast invoke fuel end_ns s = Stopped s' ->
    forall x at_, In (x, at_) (pushed s') -> at_ <= ev_time x -> ev_time x <= end_ns ->
    exists c, In (x, c, Delivered) (log s') \/ (In (x, c, SkippedCancelled) (log s') /\ is_cancelled s' x = true).
  Proof.
    intros I Hrun x a Hp Hle Hend.
    pose proof (iterate_stopped_preserves Inv _ _ _ _ pop_and_handle_inv (step_fast_pops end_ns) I Hrun) as I'.
    apply iterate_stopped, step_fast_stopped in Hrun as Hstop; [|apply step_fast_pops].
    destruct (proj1 (in_pushed_iff s' x I') (in_map fst _ _ Hp)) as [Hin|Hin].
    - exfalso. destruct Hstop as [E|Hlt]; [rewrite E in Hin; contradiction|].
      pose proof (i_live _ I' _ _ Hp Hin Hle). lia.
    - unfold popped in Hin. apply in_map_iff in Hin as [[[y c] d] [E Hin]]. cbn in E; subst y.
      exists c. destruct d.
      + left; exact Hin.
      + right. split; [exact Hin|apply (i_skipc _ I' _ _ Hin)].
      + exfalso. destruct (i_past _ I' _ _ Hin) as [b [Hb Hlt]].
        rewrite (pushed_clock_unique _ _ _ _ I' Hp Hb) in Hle. lia.
  Qed.

  Definition undelivered (id : Z) (s : st) : Prop :=
    In id (cancelled s) /\ ~ In id (map ev_sort (dlog s)).

  Lemma pop_and_handle_undelivered id s e h :
    undelivered id s -> undelivered id (out_state (pop_and_handle invoke s e h)).
  Proof.
    intros [Hc Hd]. unfold pop_and_handle.
    destruct (is_cancelled s e) eqn:Ec; [split; cbn; auto|].
    destruct (ev_time e <? clock s); [split; cbn; auto|].
    assert (Hne : ev_sort e <> id).
    { intros <-. apply is_cancelled_iff in Hc. congruence. }
    destruct (invoke _ _ _ _) as [r|]; cbn [out_state]; split;
      unfold push_all, dlog; cbn; try (apply in_or_app; right; exact Hc); try exact Hc;
      intros [E|Hin]; auto.
  Qed.

  Theorem cancelled_never_delivered fuel end_ns id s :
    undelivered id s -> undelivered id (out_state (run invoke fuel end_ns s)).
  Proof. apply run_preserves. intros s0 e h H _. apply pop_and_handle_undelivered, H. Qed.

  Theorem auto_stops_without_primary s :
    Inv s -> count_primary (heap s) = 0 -> step_slow invoke None s = Stopped s.
  Proof.
    intros I H0. unfold step_slow. destruct (heap s) as [|e h] eqn:Hh; [reflexivity|].
    cbn. rewrite (i_primary _ I), Hh, H0. reflexivity.
  Qed.

  Theorem auto_continues_with_primary s :
    Inv s -> 0 < count_primary (heap s) -> forall s', step_slow invoke None s <> Stopped s'.
  Proof.
    intros I H0 s'. unfold step_slow. destruct (heap s) as [|e h] eqn:Hh; [discriminate H0|].
    cbn. rewrite (i_primary _ I), Hh. destruct (0 <? count_primary (e :: h)) eqn:E; [|lia].
    cbn. apply pop_and_handle_not_stopped.
  Qed.

  Theorem auto_final_state fuel s s' :
    Inv s -> run_slow invoke fuel None s = Stopped s' ->
    heap s' = [] \/ count_primary (heap s') = 0.
  Proof.
    intros I Hrun.
    pose proof (iterate_stopped_preserves Inv _ _ _ _ pop_and_handle_inv (step_slow_pops None) I Hrun) as I'.
    apply iterate_stopped in Hrun; [|apply step_slow_pops].
    right. pose proof (count_primary_nonneg (heap s')) as Hnn.
    destruct (Z.eq_dec (count_primary (heap s')) 0) as [E|E]; [exact E|].
    destruct (auto_continues_with_primary s' I' ltac:(lia) s' Hrun).
  Qed.

  Theorem primary_count_exact s : Inv s -> primary s = count_primary (heap s).
  Proof. intros I. apply (i_primary _ I). Qed.

End Proofs.
