(** Fixed window counter (window start in integer ns — the repaired code). *)
From HS Require Import Base.Prelude C10.Model C10.QFacts.
From Coq Require Import QArith.
Local Open Scope Z_scope.

Section FW.
  Variables wn n : Z.
  Hypothesis wn_pos : 1 <= wn.
  Hypothesis n_nonneg : 0 <= n.
  Notation W := (Z.max 1 wn).
  Notation step := (fw_step Qops wn n).
  Notation acquire := (fw_acquire wn n).
  Notation tua := (fw_tua Qops wn n).
  Notation wstart := (fw_window_start wn).

  Definition win_of (t : Z) : Z := t / W.
  Definition inw (k t : Z) : bool := win_of t =? k.

  Lemma W_eq : W = wn. Proof. lia. Qed.
  Lemma wstart_spec t : wstart t = win_of t * wn /\ wstart t <= t < wstart t + wn.
  Proof.
    unfold fw_window_start, win_of. rewrite W_eq. split; [reflexivity|].
    pose proof (Z.div_mod t wn ltac:(lia)). pose proof (Z.mod_pos_bound t wn ltac:(lia)). lia.
  Qed.
  Lemma win_mono a b : a <= b -> win_of a <= win_of b.
  Proof. unfold win_of. rewrite W_eq. intros. apply Z.div_le_mono; lia. Qed.
  Lemma wstart_mono a b : a <= b -> wstart a <= wstart b.
  Proof using wn_pos.
    intros H. destruct (wstart_spec a) as [-> _], (wstart_spec b) as [-> _].
    apply Z.mul_le_mono_nonneg_r; [lia|exact (win_mono a b H)].
  Qed.
  Lemma mul_wn_inj a b : a * wn = b * wn -> a = b.
  Proof. intros H. apply Z.mul_cancel_r in H; [exact H|lia]. Qed.

  (** Well-formed state for calls at times >= lo: the recorded window start is the start
      of window [k <= win_of lo], and the count is within [0, n]. *)
  Definition fw_wf (s : fws) (lo : Z) : Prop :=
    0 <= fw_count s <= n /\
    match fw_start s with None => fw_count s = 0 | Some c => exists k, c = k * wn /\ k <= win_of lo end.

  Definition fresh (t : Z) : fws := {| fw_start := Some (win_of t * wn); fw_count := 0 |}.

  Lemma reset_cases s lo t : fw_wf s lo -> lo <= t ->
    (fw_start s = Some (win_of t * wn) /\ fw_reset wn s t = s) \/
    (match fw_start s with Some c => c < win_of t * wn | None => True end /\ fw_reset wn s t = fresh t).
  Proof.
    intros [_ Hs] Hlo. unfold fw_reset. destruct (wstart_spec t) as [-> _]. pose proof (win_mono lo t Hlo).
    destruct (fw_start s) as [c|]; [|right; split; [exact I|reflexivity]].
    destruct (Z.ltb_spec c (win_of t * wn)) as [L|L]; [right; split; [exact L|reflexivity]|left].
    destruct Hs as (k & -> & Hk). apply Z.mul_le_mono_pos_r in L; [|lia].
    replace k with (win_of t) by lia. auto.
  Qed.

  Lemma reset_wf s lo t : fw_wf s lo -> lo <= t ->
    fw_wf (fw_reset wn s t) t /\ fw_start (fw_reset wn s t) = Some (win_of t * wn).
  Proof.
    intros Hwf Hlo. destruct (reset_cases s lo t Hwf Hlo) as [[E ->]|[_ ->]].
    - split; [|exact E]. destruct Hwf as [Hc _]. split; [exact Hc|]. rewrite E. exists (win_of t). split; [reflexivity|lia].
    - split; [|reflexivity]. split; cbn; [lia|]. exists (win_of t). split; [reflexivity|lia].
  Qed.

  Lemma reset_idem s t : fw_reset wn (fw_reset wn s t) t = fw_reset wn s t.
  Proof.
    unfold fw_reset at 2 3. destruct (fw_start s) as [c|] eqn:E.
    - destruct (Z.ltb_spec c (wstart t)).
      + unfold fw_reset. cbn [fw_start]. rewrite Z.ltb_irrefl. reflexivity.
      + unfold fw_reset. rewrite E. destruct (Z.ltb_spec c (wstart t)); [lia|reflexivity].
    - unfold fw_reset. cbn [fw_start]. rewrite Z.ltb_irrefl. reflexivity.
  Qed.

  Lemma tua_fst s t : fst (tua s t) = fw_reset wn s t.
  Proof. unfold fw_tua. destruct (_ <? _); [|destruct (fw_start _); [destruct (nle _ _ _)|]]; reflexivity. Qed.

  Lemma tua_free s t : fw_count (fw_reset wn s t) < n -> tua s t = (fw_reset wn s t, 0).
  Proof. intros H. unfold fw_tua. destruct (Z.ltb_spec (fw_count (fw_reset wn s t)) n); [reflexivity|lia]. Qed.

  (** A full window: the wait runs to the start of the next one, and is positive. *)
  Lemma tua_full s lo t : fw_wf s lo -> lo <= t -> n <= fw_count (fw_reset wn s t) ->
    tua s t = (fw_reset wn s t, (win_of t + 1) * wn - t) /\ 0 < (win_of t + 1) * wn - t.
  Proof.
    intros Hwf Hlo H. destruct (reset_wf s lo t Hwf Hlo) as [_ R1].
    destruct (wstart_spec t) as [EW BW]. rewrite EW in BW. split; [|lia].
    unfold fw_tua. destruct (Z.ltb_spec (fw_count (fw_reset wn s t)) n); [lia|]. rewrite R1.
    cbn [secs nanos nle n0 Qops]. replace ((win_of t + 1) * wn - t) with (win_of t * wn + wn - t) by lia.
    destruct (Qle_bool (qsecs (win_of t * wn + wn - t)) 0) eqn:EQ.
    - apply Qle_bool_iff, (proj1 (qsecs_le0 _)) in EQ. lia.
    - rewrite qnanos_qsecs. destruct (guard_cases (win_of t * wn + wn - t)) as [[? _]|[_ ->]]; [lia|reflexivity].
  Qed.

  Lemma step_cases s o : let r := fw_reset wn s (time_of o) in
    (granted o (snd (step s o)) = 1 /\ fw_count r < n /\
     fst (step s o) = {| fw_start := fw_start r; fw_count := fw_count r + 1 |}) \/
    (granted o (snd (step s o)) = 0 /\ fst (step s o) = r).
  Proof.
    destruct o as [t|t]; cbn [fw_step time_of granted]; [|right; split; [reflexivity|apply tua_fst]].
    unfold fw_acquire. destruct (Z.ltb_spec (fw_count (fw_reset wn s t)) n); cbn; auto.
  Qed.

  (** What window [k] can still grant to calls at times >= lo: nothing if it is past, what is
      left of N if it is the state's window, N otherwise. *)
  Definition budget (s : fws) (lo k : Z) : Z :=
    if k <? win_of lo then 0
    else match fw_start s with Some c => if c =? k * wn then n - fw_count s else n | None => n end.

  Lemma budget_nonneg s lo k : fw_wf s lo -> 0 <= budget s lo k.
  Proof.
    intros [Hc _]. unfold budget. destruct (k <? win_of lo); [lia|].
    destruct (fw_start s) as [c|]; [destruct (c =? k * wn)|]; lia.
  Qed.

  Lemma budget_reset s lo t k : fw_wf s lo -> lo <= t -> budget (fw_reset wn s t) t k <= budget s lo k.
  Proof.
    intros Hwf Hlo. pose proof (budget_nonneg s lo k Hwf) as B0. pose proof (win_mono lo t Hlo). pose proof Hwf as [Hc _].
    destruct (reset_cases s lo t Hwf Hlo) as [[E ->]|[L ->]]; unfold budget in *; rewrite ?E in *; cbn [fresh fw_start fw_count].
    - destruct (Z.ltb_spec k (win_of t)); [exact B0|]. destruct (Z.ltb_spec k (win_of lo)); [lia|]. lia.
    - destruct (Z.ltb_spec k (win_of t)); [exact B0|]. destruct (Z.ltb_spec k (win_of lo)); [lia|].
      (* the state's window is past, so it is not [k] *)
      assert (NE : match fw_start s with Some c => c <> k * wn | None => True end).
      { destruct (fw_start s) as [c|]; [|exact I]. intros ->. apply Z.mul_lt_mono_pos_r in L; lia. }
      destruct (fw_start s) as [c|]; [destruct (Z.eqb_spec c (k * wn)); [contradiction|]|];
        destruct (win_of t * wn =? k * wn); lia.
  Qed.

  Lemma budget_step s lo o k : fw_wf s lo -> lo <= time_of o ->
    fw_wf (fst (step s o)) (time_of o) /\
    Z.of_nat (length (filter (inw k) (if granted o (snd (step s o)) =? 1 then [time_of o] else []))) +
      budget (fst (step s o)) (time_of o) k <= budget s lo k.
  Proof.
    intros Hwf Hlo. pose proof (budget_reset s lo (time_of o) k Hwf Hlo) as BR.
    destruct (reset_wf s lo (time_of o) Hwf Hlo) as [WR R1].
    destruct (step_cases s o) as [(-> & C & ->)|(-> & ->)]; cbv zeta in *; [|split; [exact WR|cbn; lia]].
    destruct WR as [Hc Hs]. rewrite R1 in Hs. split; [split; [cbn; lia|cbn [fw_start]; rewrite R1; exact Hs]|]. clear Hs.
    cbn [Z.eqb Pos.eqb filter]. unfold inw at 1. unfold budget in *. cbn [fw_start fw_count]. rewrite R1 in *.
    destruct (Z.ltb_spec k (win_of (time_of o))).
    - destruct (Z.eqb_spec (win_of (time_of o)) k); [lia|exact BR].
    - destruct (Z.eqb_spec (win_of (time_of o) * wn) (k * wn)) as [EK|NK].
      + apply mul_wn_inj in EK. rewrite EK, Z.eqb_refl. cbn [length]. lia.
      + destruct (Z.eqb_spec (win_of (time_of o)) k) as [EK|_]; [rewrite EK in NK; contradiction|exact BR].
  Qed.

  Lemma run_budget ops : forall s lo k, fw_wf s lo -> nondecr lo ops ->
    Z.of_nat (length (filter (inw k) (run_times step s ops))) <= budget s lo k.
  Proof.
    induction ops as [|o r IH]; intros s lo k Hwf Hnd; [exact (budget_nonneg s lo k Hwf)|].
    destruct Hnd as [Hlo Hnd]. destruct (budget_step s lo o k Hwf Hlo) as [W1 B1].
    specialize (IH _ _ k W1 Hnd). rewrite run_times_cons, filter_app, app_length, Nat2Z.inj_add. lia.
  Qed.

  Theorem fw_aligned_bound ops k : sorted ops ->
    Z.of_nat (length (filter (inw k) (run_times step {| fw_start := None; fw_count := 0 |} ops))) <= n.
  Proof.
    intros Hs. destruct ops as [|o r]; [cbn; lia|].
    assert (W0 : fw_wf {| fw_start := None; fw_count := 0 |} (time_of o)) by (split; cbn; [lia|auto]).
    pose proof (run_budget (o :: r) _ (time_of o) k W0 ltac:(cbn; split; [lia|exact Hs])) as RB.
    unfold budget in RB. cbn [fw_start] in RB. destruct (k <? win_of (time_of o)); lia.
  Qed.

  (** [fw_wf] (side condition of the time_until_available theorems) holds in every reachable state. *)
  Theorem fw_wf_reachable ops : forall s lo, fw_wf s lo -> nondecr lo ops ->
    fw_wf (fst (run_count granted step s ops)) (last_time lo ops).
  Proof.
    apply (run_count_inv_clock granted step time_of fw_wf).
    intros s lo o W H. exact (proj1 (budget_step s lo o 0 W H)).
  Qed.

  Lemma filter_or_length {A} (p q r : A -> bool) l : (forall x, p x = true -> q x = true \/ r x = true) ->
    (length (filter p l) <= length (filter q l) + length (filter r l))%nat.
  Proof.
    intros H. induction l as [|x l IH]; [apply Nat.le_0_l|]. cbn [filter]. specialize (H x).
    (* [H] rules out the case where only [p] holds *)
    destruct (p x), (q x), (r x); cbn [length]; lia.
  Qed.

  (** ... hence at most 2N in any interval of one window length [a, a + w]. *)
  Theorem fw_any_interval_bound ops a : sorted ops ->
    Z.of_nat (length (filter (fun t => (a <=? t) && (t <=? a + wn))
                        (run_times step {| fw_start := None; fw_count := 0 |} ops))) <= 2 * n.
  Proof.
    intros Hs.
    (* the interval meets only the windows [win_of a] and [win_of a + 1] *)
    assert (COV : forall x, (a <=? x) && (x <=? a + wn) = true -> inw (win_of a) x = true \/ inw (win_of a + 1) x = true).
    { intros x Hx. assert (Hax : a <= x <= a + wn) by lia.
      pose proof (win_mono a x (proj1 Hax)). pose proof (win_mono x (a + wn) (proj2 Hax)).
      assert (win_of (a + wn) = win_of a + 1).
      { unfold win_of. rewrite W_eq. replace (a + wn) with (a + 1 * wn) by lia. rewrite Z.div_add by lia. auto. }
      unfold inw. lia. }
    pose proof (filter_or_length _ _ _ (run_times step {| fw_start := None; fw_count := 0 |} ops) COV).
    pose proof (fw_aligned_bound ops (win_of a) Hs). pose proof (fw_aligned_bound ops (win_of a + 1) Hs). lia.
  Qed.

  Theorem fw_tua_zero_acquires s lo now s1 : fw_wf s lo -> lo <= now -> tua s now = (s1, 0) ->
    snd (acquire s now) = true /\ snd (acquire s1 now) = true.
  Proof.
    intros Hwf Hlo E. unfold fw_acquire.
    destruct (Z.ltb_spec (fw_count (fw_reset wn s now)) n) as [L|L].
    - rewrite (tua_free s now L) in E. inversion E; subst s1. rewrite reset_idem.
      destruct (Z.ltb_spec (fw_count (fw_reset wn s now)) n); [auto|lia].
    - destruct (tua_full s lo now Hwf Hlo L) as [T P]. rewrite T in E. inversion E. lia.
  Qed.

  (** An exhausted window [k]: nothing is granted before its end. *)
  Definition fw_full (s : fws) (k : Z) : Prop := fw_start s = Some (k * wn) /\ n <= fw_count s.

  Lemma full_step s k o : fw_full s k -> time_of o < (k + 1) * wn ->
    fst (step s o) = s /\ granted o (snd (step s o)) = 0.
  Proof.
    intros [Hs Hc] Ht.
    assert (R : fw_reset wn s (time_of o) = s).
    { unfold fw_reset. rewrite Hs. destruct (wstart_spec (time_of o)) as [E B]. rewrite E in *.
      destruct (Z.ltb_spec (k * wn) (win_of (time_of o) * wn)) as [L|L]; [|reflexivity].
      apply Z.mul_lt_mono_pos_r in L; [|lia].
      pose proof (Z.mul_le_mono_nonneg_r (k + 1) (win_of (time_of o)) wn ltac:(lia) ltac:(lia)). lia. }
    destruct (step_cases s o) as [(_ & C & _)|(-> & ->)]; cbv zeta in *; rewrite R in *; [lia|auto].
  Qed.

  Theorem fw_tua_positive_blocks s lo now s1 w ops :
    fw_wf s lo -> lo <= now -> tua s now = (s1, w) -> 0 < w ->
    Forall (fun o => time_of o < now + w) ops ->
    snd (run_count granted step s1 ops) = 0.
  Proof.
    intros Hwf Hlo E Hw.
    assert (FULL : fw_full s1 (win_of now) /\ now + w = (win_of now + 1) * wn).
    { destruct (reset_wf s lo now Hwf Hlo) as [_ R1].
      destruct (Z_lt_le_dec (fw_count (fw_reset wn s now)) n) as [L|L]; [rewrite (tua_free s now L) in E; inversion E; lia|].
      destruct (tua_full s lo now Hwf Hlo L) as [T _]. rewrite T in E. inversion E; subst. split; [split; assumption|lia]. }
    destruct FULL as [FULL HD]. apply (run_count_zero granted step time_of (fun s => s = s1)); [|reflexivity].
    intros s' o -> Ho. apply (full_step s1 (win_of now) o FULL). lia.
  Qed.

  (** One wait is enough: the returned wait ends exactly at the next window start. *)
  Hypothesis n_pos : 1 <= n.
  Theorem fw_tua_progress s lo now : fw_wf s lo -> lo <= now ->
    let '(s1, w1) := tua s now in
    let '(s2, w2) := tua s1 (now + w1) in
    w2 = 0 /\ 0 <= w1.
  Proof.
    intros Hwf Hlo. destruct (reset_wf s lo now Hwf Hlo) as [_ R1].
    destruct (Z_lt_le_dec (fw_count (fw_reset wn s now)) n) as [L|L].
    - rewrite (tua_free s now L). cbv beta iota. rewrite Z.add_0_r, tua_free; [cbv beta iota; lia|rewrite reset_idem; exact L].
    - destruct (tua_full s lo now Hwf Hlo L) as [-> P]. cbv beta iota.
      replace (now + ((win_of now + 1) * wn - now)) with ((win_of now + 1) * wn) by lia.
      rewrite tua_free; [cbv beta iota; lia|].
      unfold fw_reset at 1. rewrite R1. unfold fw_window_start. rewrite W_eq, Z.div_mul by lia.
      destruct (Z.ltb_spec (win_of now * wn) ((win_of now + 1) * wn)); [cbn; lia|lia].
  Qed.
End FW.

Example fw_example :
  run_times (fw_step Qops 100 2) {| fw_start := None; fw_count := 0 |} [Acq 0; Acq 99; Acq 99; Acq 100; Acq 100; Acq 101] = [0; 99; 100; 100] /\
  snd (fw_tua Qops 100 1 {| fw_start := Some 200; fw_count := 1 |} 300) = 0 /\
  snd (fw_tua Qops 100 1 {| fw_start := Some 200; fw_count := 1 |} 250) = 50.
Proof. vm_compute. repeat split; congruence. Qed.
