(** C01 — the heap order key, tied to the code: [Event.__lt__] as REGENERATED
    from core/event.py ([Gen/EventGen.v], py2coq) is the order [ev_ltb] by which
    the engine model keeps its heap sorted.  (CPython's heapq, which only ever
    calls [__lt__], is modelled as an abstract priority queue.) *)
From HS Require Import Base.Prelude Base.PyLib Engine.Engine Gen.EventGen.
Local Open Scope Z_scope.

Definition ev_of {P} (e : Event) (d : bool) (p : P) : ev P :=
  @mkEv P (Event_time e) (Event__sort_index e) d p.

(** Semantic reading of the translated comparison (proved by case analysis on whatever
    comparisons the translation contains, so that an equivalent rewrite of [__lt__] -
    swapped operands, [>] for [<] - still checks). *)
Lemma event_lt_spec (a b : Event) :
  Event___lt__ a b = true <->
  Event_time a < Event_time b \/ (Event_time a = Event_time b /\ Event__sort_index a < Event__sort_index b).
Proof. unfold Event___lt__. cbn. tie_split; cbn; lia. Qed.

Lemma tie_event_lt {P} (a b : Event) da db (pa pb : P) :
  Event___lt__ a b = ev_ltb (ev_of a da pa) (ev_of b db pb).
Proof.
  apply Bool.eq_true_iff_eq. rewrite event_lt_spec.
  unfold ev_ltb, ev_of; cbn. destruct (Event_time a =? Event_time b) eqn:E; lia.
Qed.
