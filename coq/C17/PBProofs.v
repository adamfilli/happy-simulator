(** C17 — primary-backup: acknowledged writes are applied where the mode promises
    (invariant over every schedule of the step machine of Model.v). *)
From HS Require Import Base.Prelude C17.Model C17.ListSurgery.
Local Open Scope Z_scope.

Lemma msg_eqb_eq a b : msg_eqb a b = true -> a = b.
Proof.
  destruct a, b; cbn; try discriminate; intros H;
    repeat (apply andb_true_iff in H; destruct H as [H ?]);
    repeat match goal with
           | H : (_ =? _) = true |- _ => apply Z.eqb_eq in H
           | H : Bool.eqb _ _ = true |- _ => apply eqb_prop in H
           end; subst; reflexivity.
Qed.

Lemma mem2_in a b l : mem2 a b l = true <-> In (a, b) l.
Proof.
  unfold mem2. rewrite existsb_exists. split.
  - intros [[x y] [Hin H]]; cbn in H. apply andb_true_iff in H; destruct H as [H1 H2].
    apply Z.eqb_eq in H1, H2; subst; assumption.
  - intros H; exists (a, b); split; [assumption|]. cbn. now rewrite !Z.eqb_refl.
Qed.

Lemma in_bids c b : In b (bids c) <-> 1 <= b <= Z.of_nat (c_nb c).
Proof.
  unfold bids. rewrite in_map_iff. split.
  - intros [n [<- H]]. apply in_seq in H. lia.
  - intros H. exists (Z.to_nat b). split; [lia|]. apply in_seq. lia.
Qed.

Lemma upd_same {V} (f : Z -> V) k v : upd f k v k = v.
Proof. unfold upd. rewrite Z.eqb_refl. reflexivity. Qed.

Lemma upd_other {V} (f : Z -> V) k v k' : k' <> k -> upd f k v k' = f k'.
Proof. intros H. unfold upd. apply Z.eqb_neq in H. rewrite H. reflexivity. Qed.

Lemma upd_proj_same {V W} (g : V -> W) f k v k' : g v = g (f k) -> g (upd f k v k') = g (f k').
Proof.
  intros H. destruct (Z.eq_dec k' k) as [->|N]; [rewrite upd_same; exact H|rewrite upd_other by exact N; reflexivity].
Qed.

Lemma dget_dput k v m k' : dget k' (dput k v m) = if k' =? k then Some v else dget k' m.
Proof.
  induction m as [|[a b] r IH]; cbn.
  - destruct (k' =? k); reflexivity.
  - destruct (k =? a) eqn:E; cbn.
    + apply Z.eqb_eq in E; subst. destruct (k' =? a); reflexivity.
    + rewrite IH. destruct (k' =? a) eqn:E2; [|reflexivity].
      apply Z.eqb_eq in E2; subst. rewrite Z.eqb_sym, E. reflexivity.
Qed.

(** A replica's data: the log of its completed puts (seq, key, value) and the
    store they produced.  A handler segment leaves the data of a replica alone
    or completes one put there ([grows]); so logs only grow, and the store is
    always the replay of the log ([coh]), on every schedule. *)
Definition data : Type := list (Z * Z * Z) * dict.
Definition put (e : Z * Z * Z) (d : data) : data := (fst d ++ [e], dput (snd (fst e)) (snd e) (snd d)).
Definition grows (d d' : data) : Prop := d' = d \/ exists e, d' = put e d.

Definition replay_log (l : list (Z * Z * Z)) : dict := fold_left (fun m e => dput (snd (fst e)) (snd e) m) l [].
Definition coh (d : data) : Prop := snd d = replay_log (fst d).

Lemma replay_app l e : replay_log (l ++ [e]) = dput (snd (fst e)) (snd e) (replay_log l).
Proof. unfold replay_log. rewrite fold_left_app. reflexivity. Qed.

Lemma grows_incl d d' : grows d d' -> incl (fst d) (fst d').
Proof. intros [->|[e ->]]; [apply incl_refl|apply incl_appl, incl_refl]. Qed.

Lemma grows_coh d d' : grows d d' -> coh d -> coh d'.
Proof.
  intros [->|[e ->]] H; [exact H|]. unfold coh, put; cbn [fst snd]. rewrite replay_app, <- H. reflexivity.
Qed.

Lemma replay_log_get l k v : dget k (replay_log l) = Some v -> exists sq, In (sq, k, v) l.
Proof.
  induction l as [|[[sq k'] v'] l IH] using rev_ind; [discriminate|].
  rewrite replay_app, dget_dput. cbn [fst snd]. destruct (k =? k') eqn:E.
  - apply Z.eqb_eq in E; subst k'. intros H; injection H as <-. exists sq. apply in_elt.
  - intros H. destruct (IH H) as [sq0 ?]. exists sq0. apply in_or_app. now left.
Qed.

Definition acc_ok (n : Z) (a : list (Z * Z * Z * Z)) : Prop :=
  (forall w sq k v, In (w, sq, k, v) a -> sq <= n) /\
  (forall w sq k v w' k' v', In (w, sq, k, v) a -> In (w', sq, k', v') a -> w = w' /\ k = k' /\ v = v').

Lemma acc_ok_le n n' a : acc_ok n a -> n <= n' -> acc_ok n' a.
Proof. intros [B F] H. split; [|exact F]. intros w sq k v Hin. apply B in Hin. lia. Qed.

Lemma acc_ok_cons n a w k v : acc_ok n a -> acc_ok (n + 1) ((w, n + 1, k, v) :: a).
Proof.
  intros [B F]. split.
  - intros w0 sq k0 v0 [E|Hin]; [injection E as _ <- _ _; lia|]. apply B in Hin. lia.
  - intros w0 sq k0 v0 w' k' v' [E|Hin] [E'|Hin'].
    + rewrite E in E'. injection E' as <- <- <-. auto.
    + injection E as _ <- _ _. apply B in Hin'. lia.
    + injection E' as _ <- _ _. apply B in Hin. lia.
    + eapply F; eauto.
Qed.

Notation acc s := (s_accepted s).
Notation plog s := (ps_log (s_prim s)).
Notation blog s b := (bs_log (s_bak s b)).
Definition pdata (p : prim) : data := (ps_log p, ps_store p).
Definition bdata (b : bak) : data := (bs_log b, bs_store b).

Definition reply_ok (c : cfg) (s : state) (w sq : Z) : Prop :=
  exists k v, In (w, sq, k, v) (acc s) /\ In (sq, k, v) (plog s) /\
    (c_mode c = SYNC -> forall b, In b (bids c) -> In (sq, k, v) (blog s b)) /\
    (c_mode c = SEMI -> c_nb c <> O -> exists b, In b (bids c) /\ In (sq, k, v) (blog s b)).

Definition proc_ok (s : state) (p : proc) : Prop :=
  match p_pc p with
  | PWPut w k v sq _ => In (w, sq, k, v) (acc s)
  | PWSent w sq _ | PWWait w sq _ => exists k v, In (w, sq, k, v) (acc s) /\ In (sq, k, v) (plog s)
  | PBPut k v sq _ => exists w, In (w, sq, k, v) (acc s)
  | PRGet _ _ _ | PBSent => True
  end.

Definition msg_ok (s : state) (m : msg) : Prop :=
  match m with MReplicate _ k v sq _ => exists w, In (w, sq, k, v) (acc s) | _ => True end.

Definition res_ok (s : state) (sq b : Z) : Prop :=
  exists w k v, In (w, sq, k, v) (acc s) /\ In (sq, k, v) (blog s b).

Record Inv (c : cfg) (s : state) : Prop := {
  i_acc : acc_ok (ps_seq (s_prim s)) (acc s);
  i_net : forall m, In m (s_net s) -> msg_ok s m;
  i_procs : forall p, In p (s_procs s) -> proc_ok s p;
  i_res : forall sq b, In (sq, b) (s_res s) -> res_ok s sq b;
  i_rep : forall w sq, In (w, sq) (s_replies s) -> reply_ok c s w sq;
  i_pcoh : coh (pdata (s_prim s));
  i_bcoh : forall b, coh (bdata (s_bak s b));
}.

Definition mono (s s' : state) : Prop :=
  incl (acc s) (acc s') /\ incl (plog s) (plog s') /\ forall b, incl (blog s b) (blog s' b).

Lemma mono_refl s : mono s s.
Proof. repeat split; intros; apply incl_refl. Qed.

Lemma proc_ok_mono s s' p : mono s s' -> proc_ok s p -> proc_ok s' p.
Proof.
  intros (Ha & Hp & Hb). unfold proc_ok. destruct (p_pc p); auto.
  - intros (k & v & H1 & H2); eauto 6.
  - intros (k & v & H1 & H2); eauto 6.
  - intros (w & H); eauto.
Qed.

Lemma msg_ok_mono s s' m : mono s s' -> msg_ok s m -> msg_ok s' m.
Proof. intros (Ha & _). destruct m; cbn; auto. intros (w & H); eauto. Qed.

Lemma res_ok_mono s s' sq b : mono s s' -> res_ok s sq b -> res_ok s' sq b.
Proof. intros (Ha & _ & Hb) (w & k & v & H1 & H2). exists w, k, v. split; [auto|apply Hb; auto]. Qed.

Lemma reply_ok_mono c s s' w sq : mono s s' -> reply_ok c s w sq -> reply_ok c s' w sq.
Proof.
  intros (Ha & Hp & Hb) (k & v & H1 & H2 & H3 & H4). exists k, v. repeat split; auto.
  - intros Hm b Hin. apply Hb; auto.
  - intros Hm Hn. destruct (H4 Hm Hn) as (b & ? & ?). exists b; split; auto. apply Hb; auto.
Qed.

Lemma inv_init c : Inv c init.
Proof. split; cbn; intros; try contradiction; try reflexivity. split; intros; contradiction. Qed.

(** Preservation, one lemma per way of changing the state.  The clauses about
    the network, the processes, the futures and the replies speak of accepted
    writes and logs only, so they survive whatever makes those grow. *)
Lemma inv_mono c s s' :
  Inv c s -> mono s s' -> acc_ok (ps_seq (s_prim s')) (acc s') ->
  s_net s' = s_net s -> s_procs s' = s_procs s -> s_res s' = s_res s -> s_replies s' = s_replies s ->
  coh (pdata (s_prim s')) -> (forall b, coh (bdata (s_bak s' b))) -> Inv c s'.
Proof.
  intros [] M A En Ep Er Ey Cp Cb. split; auto.
  - rewrite En. intros m H. apply (msg_ok_mono s); auto.
  - rewrite Ep. intros p H. apply (proc_ok_mono s); auto.
  - rewrite Er. intros sq b H. apply (res_ok_mono s); auto.
  - rewrite Ey. intros w sq H. apply (reply_ok_mono c s); auto.
Qed.

Lemma inv_prim c s p :
  Inv c s -> grows (pdata (s_prim s)) (pdata p) -> ps_seq (s_prim s) <= ps_seq p -> Inv c (with_prim s p).
Proof.
  intros I G Hs. apply (inv_mono c s _ I); try reflexivity.
  - split; [apply incl_refl|]. split; [exact (grows_incl _ _ G)|intros b; apply incl_refl].
  - exact (acc_ok_le _ _ _ (i_acc c s I) Hs).
  - exact (grows_coh _ _ G (i_pcoh c s I)).
  - exact (i_bcoh c s I).
Qed.

Lemma inv_bak c s n x : Inv c s -> grows (bdata (s_bak s n)) (bdata x) -> Inv c (with_bak s n x).
Proof.
  intros I G. apply (inv_mono c s _ I); try reflexivity; try apply I.
  - split; [apply incl_refl|]. split; [apply incl_refl|]. intros b. cbn.
    destruct (Z.eq_dec b n) as [->|Hb]; [rewrite upd_same; exact (grows_incl _ _ G)|].
    rewrite upd_other by exact Hb. apply incl_refl.
  - intros b. cbn. destruct (Z.eq_dec b n) as [->|Hb].
    + rewrite upd_same. exact (grows_coh _ _ G (i_bcoh c s I n)).
    + rewrite upd_other by exact Hb. apply I.
Qed.

Lemma inv_accepted c s x :
  Inv c s -> acc_ok (ps_seq (s_prim s)) (x :: acc s) -> Inv c (with_accepted s (x :: acc s)).
Proof.
  intros I A. apply (inv_mono c s _ I); try reflexivity; try apply I; [|exact A].
  split; [apply incl_tl, incl_refl|]. split; [|intros b]; apply incl_refl.
Qed.

Lemma inv_bump c s : Inv c s -> Inv c (bump_next s).
Proof. intros []; split; assumption. Qed.

Lemma inv_procs c s l : Inv c s -> (forall p, In p l -> proc_ok s p) -> Inv c (with_procs s l).
Proof. intros [] H; split; assumption. Qed.

Lemma inv_net c s l : Inv c s -> (forall m, In m l -> msg_ok s m) -> Inv c (with_net s l).
Proof. intros [] H; split; assumption. Qed.

Lemma inv_res c s l : Inv c s -> (forall sq b, In (sq, b) l -> res_ok s sq b) -> Inv c (with_res s l).
Proof. intros [] H; split; assumption. Qed.

Lemma inv_add_reply c s w sq rf : Inv c s -> reply_ok c s w sq -> Inv c (add_reply s w sq rf).
Proof.
  intros I R. destruct rf; [|exact I]. destruct I. split; try assumption.
  intros w0 sq0 [E|H]; [injection E as <- <-; exact R|exact (i_rep0 _ _ H)].
Qed.

Lemma inv_spawn c s n pcv :
  Inv c s -> proc_ok s {| p_id := s_next s; p_node := n; p_pc := pcv |} -> Inv c (spawn s n pcv).
Proof.
  intros I H. apply inv_bump, inv_procs; [exact I|].
  intros p Hin. apply in_app_or in Hin. destruct Hin as [Hin|[<-|[]]]; [exact (i_procs c s I p Hin)|exact H].
Qed.

Lemma inv_del c s pid p :
  Inv c s -> find_proc pid (s_procs s) = Some p -> Inv c (with_procs s (del_proc pid (s_procs s))).
Proof. intros I F. apply inv_procs; [exact I|]. intros q Hin. apply I. exact (in_tdel F Hin). Qed.

Lemma inv_set c s pid p pcv :
  Inv c s -> find_proc pid (s_procs s) = Some p ->
  proc_ok s {| p_id := pid; p_node := p_node p; p_pc := pcv |} ->
  Inv c (with_procs s (set_pc pid pcv (s_procs s))).
Proof.
  intros I F H. apply inv_procs; [exact I|].
  intros q Hin. destruct (in_tset F Hin) as [Hq| ->]; [apply I; exact Hq|exact H].
Qed.

Lemma inv_take c s m l : Inv c s -> take_msg m (s_net s) = Some l -> Inv c (with_net s l).
Proof. intros I T. apply inv_net; [exact I|]. intros x Hx. apply I. exact (proj2 (gtake_in msg_eqb_eq T) x Hx). Qed.

Lemma inv_send c s l : Inv c s -> (forall m, In m l -> msg_ok s m) -> Inv c (with_net s (s_net s ++ l)).
Proof.
  intros I H. apply inv_net; [exact I|]. intros m Hin. apply in_app_or in Hin. destruct Hin; [apply I|]; auto.
Qed.

Lemma inv_start c s n m : Inv c s -> after (Inv c) (start c s n m).
Proof.
  intros I. unfold start. destruct (n =? 0).
  - destruct m as [w k v rf|r k rf|b k v sq f|b sq|]; try exact Logic.I.
    + apply inv_spawn; [|cbn; now left]. apply (inv_accepted c (with_prim s _)).
      * apply inv_prim; [exact I|left; reflexivity|cbn; lia].
      * exact (acc_ok_cons _ _ w k v (i_acc c s I)).
    + apply inv_spawn; [|exact Logic.I].
      apply inv_prim; [exact I|left; reflexivity|apply Z.le_refl].
    + destruct (take_msg (MAck b sq) (s_net s)) eqn:T; [|exact Logic.I].
      apply inv_bump, inv_prim; [exact (inv_take _ _ _ _ I T)|left; reflexivity|apply Z.le_refl].
    + apply inv_bump, I.
  - destruct (is_backup c n); [|exact Logic.I].
    destruct m as [w k v rf|r k rf|b k v sq f|b sq|]; try exact Logic.I.
    + apply inv_bump, I.
    + destruct (serves c n); [|apply inv_bump, I].
      apply inv_spawn; [|exact Logic.I]. apply inv_bak; [exact I|left; reflexivity].
    + destruct (b =? n); [|exact Logic.I].
      destruct (take_msg (MReplicate b k v sq f) (s_net s)) eqn:T; [|exact Logic.I].
      apply inv_spawn; [exact (inv_take _ _ _ _ I T)|].
      exact (i_net c s I _ (proj1 (gtake_in msg_eqb_eq T))).
    + apply inv_bump, I.
Qed.

Lemma inv_finish c s pid p w sq rf :
  Inv c s -> find_proc pid (s_procs s) = Some p -> reply_ok c s w sq ->
  Inv c (fst (fst (finish_write s pid w sq rf))).
Proof. intros I F R. apply inv_add_reply; [exact (inv_del _ _ _ _ I F)|exact R]. Qed.

Lemma inv_prim_put_done c s pid p w k v sq rf :
  Inv c s -> find_proc pid (s_procs s) = Some p -> In (w, sq, k, v) (acc s) ->
  Inv c (fst (fst (prim_put_done c s pid w k v sq rf))).
Proof.
  intros I F Ha. unfold prim_put_done. cbv zeta. set (s1 := with_net _ _).
  assert (I1 : Inv c s1).
  { apply (inv_send c (with_prim s _)).
    - apply inv_prim; [exact I|right; exists (sq, k, v); reflexivity|apply Z.le_refl].
    - intros m Hin. apply in_map_iff in Hin. destruct Hin as (b & <- & _). exists w. exact Ha. }
  assert (Hl : In (sq, k, v) (plog s1)) by (apply in_or_app; right; now left).
  assert (W : Inv c (with_procs s1 (set_pc pid (PWSent w sq rf) (s_procs s1)))).
  { apply (inv_set c _ pid p _ I1 F). exists k, v. split; [exact Ha|exact Hl]. }
  destruct (c_mode c) eqn:Em; [destruct (c_nb c) eqn:En|..]; try exact W.
  apply (inv_finish c _ pid p w sq rf I1 F).
  exists k, v. split; [exact Ha|]. split; [exact Hl|]. split; intros; congruence.
Qed.

Lemma inv_prim_sent c s pid p w sq rf :
  Inv c s -> find_proc pid (s_procs s) = Some p -> p_pc p = PWSent w sq rf ->
  Inv c (fst (fst (prim_sent c s pid w sq rf))).
Proof.
  intros I F Epc. pose proof (i_procs c s I p (tfind_in F)) as Hok.
  unfold proc_ok in Hok. rewrite Epc in Hok.
  (* without an ack to wait for, the promise is empty beyond the primary *)
  assert (R : c_mode c = ASYNC \/ c_nb c = O -> Inv c (fst (fst (finish_write s pid w sq rf)))).
  { intros HH. apply (inv_finish c s pid p w sq rf I F).
    destruct Hok as (k & v & H1 & H2). exists k, v. repeat split; auto.
    - intros Hm b Hb. destruct HH as [HH|HH]; [congruence|]. apply in_bids in Hb. lia.
    - intros Hm Hn. destruct HH as [HH|HH]; congruence. }
  unfold prim_sent.
  destruct (c_mode c); [auto|destruct (c_nb c); [auto|]..]; apply (inv_set c s pid p _ I F); exact Hok.
Qed.

Lemma acks_ready_ok c s w sq k v :
  Inv c s -> acks_ready c s sq = true -> In (w, sq, k, v) (acc s) -> In (sq, k, v) (plog s) ->
  reply_ok c s w sq.
Proof.
  intros I A H1 H2.
  assert (R : forall b, mem2 sq b (s_res s) = true -> In (sq, k, v) (blog s b)).
  { intros b M. apply mem2_in in M. destruct (i_res c s I _ _ M) as (w' & k' & v' & Ha & Hl).
    destruct (proj2 (i_acc c s I) _ _ _ _ _ _ _ H1 Ha) as (_ & -> & ->). exact Hl. }
  exists k, v. unfold acks_ready in A. repeat split; auto.
  - intros Hm b Hb. rewrite Hm in A. apply R. exact (proj1 (forallb_forall _ _) A b Hb).
  - intros Hm _. rewrite Hm in A. apply existsb_exists in A. destruct A as (b & Hb & A). eauto.
Qed.

Definition put_bak (b : bak) (k v sq : Z) : bak :=
  {| bs_store := dput k v (bs_store b); bs_applied := bs_applied b + 1; bs_reads := bs_reads b;
     bs_last := sq; bs_log := bs_log b ++ [(sq, k, v)] |}.

Lemma bak_put_done_eq s pid n k v sq fut :
  fst (fst (bak_put_done s pid n k v sq fut)) =
  let s1 := with_bak s n (put_bak (s_bak s n) k v sq) in
  let s2 := with_res s1 (if fut && negb (mem2 sq n (s_res s1)) then (sq, n) :: s_res s1 else s_res s1) in
  let s3 := with_net s2 (s_net s2 ++ [MAck n sq]) in
  with_procs s3 (set_pc pid PBSent (s_procs s3)).
Proof.
  destruct s as [pr bk procs nx net res rep ac]. unfold bak_put_done. cbn [fst s_res with_bak s_bak].
  destruct fut; [destruct (mem2 sq n res)|]; reflexivity.
Qed.

Lemma inv_bak_put_done c s pid p k v sq fut :
  Inv c s -> find_proc pid (s_procs s) = Some p -> (exists w, In (w, sq, k, v) (acc s)) ->
  Inv c (fst (fst (bak_put_done s pid (p_node p) k v sq fut))).
Proof.
  intros I F (w & Ha). rewrite bak_put_done_eq. set (n := p_node p).
  set (s1 := with_bak s n (put_bak (s_bak s n) k v sq)). cbv zeta.
  assert (I1 : Inv c s1) by (apply inv_bak; [exact I|right; exists (sq, k, v); reflexivity]).
  assert (New : res_ok s1 sq n).
  { exists w, k, v. split; [exact Ha|]. cbn. rewrite upd_same. apply in_or_app; right; now left. }
  apply (inv_set c _ pid p); [|exact F|exact Logic.I]. apply inv_send; [|intros m [<-|[]]; exact Logic.I].
  apply inv_res; [exact I1|].
  destruct (fut && negb (mem2 sq n (s_res s1))); [|exact (i_res c s1 I1)].
  intros sq0 b [E|H]; [injection E as <- <-; exact New|exact (i_res c s1 I1 _ _ H)].
Qed.

Lemma inv_resume c s pid : Inv c s -> after (Inv c) (resume c s pid).
Proof.
  intros I. unfold resume.
  destruct (find_proc pid (s_procs s)) as [p|] eqn:F; [|exact Logic.I].
  pose proof (i_procs c s I p (tfind_in F)) as Hok. unfold proc_ok in Hok.
  destruct (p_pc p) as [w k v sq rf|w sq rf|w sq rf|r k rf|k v sq fut|] eqn:Epc.
  - exact (inv_prim_put_done c s pid p w k v sq rf I F Hok).
  - exact (inv_prim_sent c s pid p w sq rf I F Epc).
  - destruct (acks_ready c s sq) eqn:A; [|exact Logic.I].
    destruct Hok as (k & v & H1 & H2).
    exact (inv_finish c s pid p w sq rf I F (acks_ready_ok c s w sq k v I A H1 H2)).
  - unfold read_done. destruct (p_node p =? 0); exact (inv_del _ _ _ _ I F).
  - exact (inv_bak_put_done c s pid p k v sq fut I F Hok).
  - exact (inv_del _ _ _ _ I F).
Qed.

Lemma inv_step c s i : Inv c s -> after (Inv c) (step c s i).
Proof. destruct i; [apply inv_start|apply inv_resume]. Qed.

Lemma inv_run c sched s s' : Inv c s -> run c s sched = Some s' -> Inv c s'.
Proof. exact (grun_inv (fun _ _ => true) (fun s i I _ => inv_step c s i I) sched s s'). Qed.
