(** C13 — accuracy with stopping members: the cluster relation of Net.v extended with
    members that stop for good at an arbitrary moment ([cs_crash]; afterwards every event
    addressed to them is dropped, [cs_drop]).  Theorem: in every reachable configuration a
    member that is DEAD in anybody's view has stopped — a live member is never marked DEAD,
    for every schedule, delay, shuffle, phi decision and every set and timing of stops. *)
From HS Require Import Base.Prelude Base.Lists C13.Model C13.NodeProofs C13.Net C13.NetProofs.
Local Open Scope Z_scope.

Section Crash.
  Variable cfgs : Z -> cfg.
  Variable d : Z.

  (** configurations: world + the members that have stopped so far *)
  Inductive cstep : world * list Z -> world * list Z -> Prop :=
  | cs_skip : forall w cr l1 x l2,
      pool w = l1 ++ x :: l2 -> is_cancelled w x = true ->
      cstep (w, cr) (mkWorld (nodes w) (l1 ++ l2) (cancelled w), cr)
  | cs_crash : forall w cr n,                       (* any member may stop at any moment *)
      cstep (w, cr) (w, n :: cr)
  | cs_drop : forall w cr l1 x l2,                  (* events for a stopped member do nothing *)
      pool w = l1 ++ x :: l2 -> In (p_node x) cr ->
      cstep (w, cr) (mkWorld (nodes w) (l1 ++ l2) (cancelled w), cr)
  | cs_deliver : forall w cr l1 x l2 i delays st' outs,
      pool w = l1 ++ x :: l2 ->
      (forall y, In y (l1 ++ l2) -> p_time x <= p_time y) ->
      ~ In (p_node x) cr ->
      is_cancelled w x = false ->
      input_matches (p_kind x) i ->
      oracle_ok (nodes w (p_node x)) i = true ->
      Forall (fun dl => 0 <= dl <= d) delays ->
      step (cfgs (p_node x)) (p_time x) (nodes w (p_node x)) i = (st', outs) ->
      cstep (w, cr) (mkWorld (set_node (nodes w) (p_node x) st')
                             (l1 ++ l2 ++ emit (p_node x) (p_time x) outs delays)
                             (cancels (p_node x) outs ++ cancelled w), cr).

  Inductive creach (w0 : world) : world * list Z -> Prop :=
  | creach_refl : creach w0 (w0, [])
  | creach_step : forall c c', creach w0 c -> cstep c c' -> creach w0 c'.
End Crash.

Definition deadC (cr : list Z) (ms : list member) : Prop :=
  Forall (fun m => m_state m = Dead -> In (m_name m) cr) ms.
Definition cleanC (cr : list Z) (us : list upd) : Prop :=
  Forall (fun u => u_kind u = 1 -> In (u_member u) cr) us.
Definition clean_nodeC (cr : list Z) (st : nstate) : Prop :=
  deadC cr (members st) /\ cleanC cr (pend st).

Lemma deadC_mono cr cr' ms : incl cr cr' -> deadC cr ms -> deadC cr' ms.
Proof. intros Hi H. eapply Forall_impl; [|exact H]. cbn; intros m Hm Hd. apply Hi, Hm, Hd. Qed.
Lemma cleanC_mono cr cr' us : incl cr cr' -> cleanC cr us -> cleanC cr' us.
Proof. intros Hi H. eapply Forall_impl; [|exact H]. cbn; intros m Hm Hd. apply Hi, Hm, Hd. Qed.

Lemma deadC_upd cr n f ms :
  (forall m, m_name (f m) = m_name m) ->
  (forall m, m_name m = n -> (m_state m = Dead -> In n cr) -> m_state (f m) = Dead -> In n cr) ->
  deadC cr ms -> deadC cr (upd_member n f ms).
Proof.
  intros Hn Hf H. unfold deadC, upd_member. apply Forall_map. eapply Forall_impl; [|exact H].
  intros m Hm; cbn. destruct (m_name m =? n) eqn:E; [|exact Hm].
  apply Z.eqb_eq in E as En. rewrite Hn, En. apply Hf; [exact En|]. rewrite <- En. exact Hm.
Qed.

Lemma deadC_apply_update cr ms u :
  (u_kind u = 1 -> In (u_member u) cr) -> deadC cr ms -> deadC cr (apply_update ms u).
Proof.
  intros Hk H. destruct (apply_update_cases ms u) as [->|(info & s & i & _ & (_ & Hs) & ->)]; [exact H|].
  apply deadC_upd; [reflexivity| |exact H]. intros m _ _. cbn.
  destruct Hs as [(-> & _)|[(_ & K & _)|(-> & _)]]; [discriminate|auto|discriminate].
Qed.

Lemma deadC_apply_updates cr us : cleanC cr us -> forall ms, deadC cr ms -> deadC cr (apply_updates ms us).
Proof.
  unfold apply_updates. induction 1 as [|u r Hu Hr IH]; intros ms H; cbn; [exact H|].
  apply IH. apply deadC_apply_update; assumption.
Qed.

Lemma deadC_heartbeat cr s now ms : deadC cr ms -> deadC cr (upd_member s (heartbeat now) ms).
Proof.
  apply deadC_upd; [reflexivity|]. intros m En Hm; cbn.
  destruct (m_state m); cbn; try discriminate. intros _. now apply Hm.
Qed.

Lemma phi_pass_cleanC cr c : forall ms avail,
  deadC cr ms -> deadC cr (fst (phi_pass c ms avail)) /\ cleanC cr (snd (phi_pass c ms avail)).
Proof.
  induction ms as [|m r IH]; intros avail H; cbn; [split; constructor|].
  inversion H as [|x l Hm Hr]; subst.
  specialize (IH (tl avail) Hr). destruct (phi_pass c r (tl avail)) as [r' us]; cbn in IH.
  destruct IH as [I1 I2]. destruct (mstate_eqb (m_state m) Alive && _); cbn [fst snd].
  - (* SUSPECT is not DEAD, and the update queued is of kind 0 *)
    split; (constructor; [cbn; discriminate|assumption]).
  - split; [constructor|]; assumption.
Qed.

Lemma suspect_cleanC cr t ms :
  deadC cr ms -> deadC cr (fst (suspect_member t ms)) /\ cleanC cr (snd (suspect_member t ms)).
Proof.
  intros H. destruct (suspect_member_cases t ms) as [[-> _]|(info & _ & _ & ->)]; cbn; [split; [exact H|constructor]|].
  split; [apply deadC_upd; [reflexivity|cbn; discriminate|exact H]|].
  constructor; [cbn; discriminate|constructor].
Qed.

Lemma step_tickC cr c now st avail shuf st' outs :
  step c now st (ITick avail shuf) = (st', outs) ->
  oracle_ok st (ITick avail shuf) = true ->
  clean_nodeC cr st ->
  clean_nodeC cr st' /\
  ((outs = [OTimer TTick (-1) (now + c_probe c) 0] /\ packs st' = packs st) \/
   (exists t us, is_member t (members st) = true /\ cleanC cr us /\
      packs st' = packs_set t (next_id st) (packs st) /\
      outs = [OSend t false (c_self c) None None (inc st) us;
              OTimer TIndirect (next_id st) (now + c_half c) t]
             ++ match packs_get t (packs st) with Some old => [OCancel old] | None => [] end
             ++ [OTimer TTick (-1) (now + c_probe c) 0])).
Proof.
  intros Hs Hor [Hnd Hcl]. cbn [step] in Hs. cbn [oracle_ok] in Hor.
  apply andb_true_iff in Hor as [_ Hor].
  pose proof (phi_pass_cleanC cr c (members st) avail Hnd) as [P1 P2].
  pose proof (names_phi_pass c (members st) avail) as PN.
  pose proof (not_dead_phi_pass c (members st) avail) as PD.
  destruct (phi_pass c (members st) avail) as [ms1 sus]; cbn [fst snd] in *.
  assert (Hc1 : cleanC cr (pend st ++ sus)) by (apply Forall_app; split; assumption).
  pose proof (next_probe_target_member ms1 (members st) (order st) (pidx st) shuf) as Hm.
  destruct (next_probe_target ms1 (order st) (pidx st) shuf) as [[[t|] ord'] idx'];
    injection Hs as <- <-; cbn [members pend packs].
  - split; [split; [exact P1|constructor]|].
    right. exists t, (pend st ++ sus). split; [|split; [exact Hc1|split; reflexivity]].
    rewrite <- (is_member_names t _ _ PN). exact (Hm t ord' idx' PD Hor eq_refl).
  - split; [split; [exact P1|exact Hc1]|]. left. split; reflexivity.
Qed.

Lemma step_pingC cr c now st f us st' outs :
  step c now st (IPing (Some f) us) = (st', outs) ->
  clean_nodeC cr st -> cleanC cr us -> is_member f (members st) = true ->
  clean_nodeC cr st' /\ packs st' = packs st /\
  exists us', cleanC cr us' /\ outs = [OSend f true (c_self c) None (Some f) (inc st) us'].
Proof.
  intros Hs [Hnd Hcl] Hus Hm. cbn [step] in Hs.
  pose proof (names_apply_updates us (members st)) as AN.
  rewrite (is_member_names f _ _ AN), Hm in Hs. injection Hs as <- <-. cbn.
  split; [split; [apply deadC_heartbeat, deadC_apply_updates; assumption|constructor]|].
  split; [reflexivity|].
  exists (pend st). split; [assumption|reflexivity].
Qed.

Lemma step_ackC cr c now st f us st' outs :
  step c now st (IAck (Some f) us) = (st', outs) ->
  clean_nodeC cr st -> cleanC cr us -> is_member f (members st) = true ->
  clean_nodeC cr st' /\
  packs st' = packs_del f (packs st) /\
  outs = match packs_get f (packs st) with Some old => [OCancel old] | None => [] end.
Proof.
  intros Hs [Hnd Hcl] Hus Hm. cbn [step] in Hs.
  pose proof (names_apply_updates us (members st)) as AN.
  rewrite (is_member_names f _ _ AN), Hm in Hs. injection Hs as <- <-. cbn.
  split; [split; [apply deadC_heartbeat, deadC_apply_updates; assumption|assumption]|].
  split; reflexivity.
Qed.

Lemma step_suspC cr c now st t st' outs :
  step c now st (ISusp (Some t)) = (st', outs) ->
  clean_nodeC cr st -> In t cr ->
  clean_nodeC cr st' /\ outs = [] /\
  forall t', t' <> t -> packs_get t' (packs st') = packs_get t' (packs st).
Proof.
  intros Hs [Hnd Hcl] Ht. cbn [step] in Hs.
  destruct (find_member t (members st)) as [info|] eqn:F.
  - destruct (mstate_eqb (m_state info) Suspect); injection Hs as <- <-; cbn.
    + split; [split|].
      * apply deadC_upd; [reflexivity| |exact Hnd]. intros; exact Ht.
      * apply Forall_app; split; [exact Hcl|]. constructor; [cbn; intros _; exact Ht|constructor].
      * split; [reflexivity|].
        intros t' Hne. apply packs_get_del_other, Hne.
    + split; [split; assumption|]. split; [reflexivity|].
      intros t' Hne. apply packs_get_del_other, Hne.
  - injection Hs as <- <-. split; [split; assumption|]. repeat split; reflexivity.
Qed.

Lemma in_names_member d : forall ms, In d (names ms) -> is_member d ms = true.
Proof. intros ms. apply is_member_iff. Qed.

Lemma delegates_member ms t d : In d (delegates ms t) -> is_member d ms = true.
Proof.
  unfold delegates. intros H. apply in_map_iff in H as (m & <- & Hm). apply filter_In in Hm as [Hm _].
  apply in_names_member. unfold names. apply in_map, Hm.
Qed.


Lemma step_indirectC cr c now st t shuf st' outs :
  step c now st (IIndirect (Some t) shuf) = (st', outs) ->
  oracle_ok st (IIndirect (Some t) shuf) = true ->
  clean_nodeC cr st ->
  clean_nodeC cr st' /\
  ((outs = [] /\ packs st' = packs st) \/
   (exists old chosen us0,
      (forall d', In d' chosen -> is_member d' (members st) = true) /\ cleanC cr us0 /\
      packs st' = packs_set t (next_id st) (packs st) /\
      outs = indirect_sends c t (inc st) chosen us0
             ++ [OTimer TSusp (next_id st) (now + c_susp c) t; OCancel old])).
Proof.
  intros Hs Hor [Hnd Hcl]. cbn [step] in Hs. cbn [oracle_ok] in Hor.
  destruct (is_member t (members st)); cbn [negb andb] in Hs, Hor;
    [|injection Hs as <- <-; exact (conj (conj Hnd Hcl) (or_introl (conj eq_refl eq_refl)))].
  destruct (packs_get t (packs st)) as [old|];
    [|injection Hs as <- <-; exact (conj (conj Hnd Hcl) (or_introl (conj eq_refl eq_refl)))].
  pose proof (suspect_cleanC cr t (members st) Hnd) as [S1 S2].
  destruct (suspect_member t (members st)) as [ms1 sus]; cbn [fst snd] in *.
  assert (Hc1 : cleanC cr (pend st ++ sus)) by (apply Forall_app; split; assumption).
  injection Hs as <- <-. cbn [members pend packs].
  split; [split; [exact S1|]|].
  { destruct (firstn (Z.to_nat (c_k c)) shuf); [exact Hc1|constructor]. }
  right.
  exists old, (firstn (Z.to_nat (c_k c)) shuf), (pend st ++ sus).
  split; [|split; [exact Hc1|split; reflexivity]].
  intros d' Hd'. apply In_firstn in Hd'. apply (is_perm_in _ _ _ Hor) in Hd'.
  eapply delegates_member; exact Hd'.
Qed.

Lemma emit_indirect N now c t i tm id old : forall chosen us delays e,
  In e (emit N now (indirect_sends c t i chosen us ++ [OTimer TSusp id tm t; OCancel old]) delays) ->
  (exists d' us', In d' chosen /\ (us' = us \/ us' = []) /\ p_node e = d' /\ p_kind e = PPing (c_self c) us')
  \/ e = mkPev tm N id (PSusp t).
Proof.
  induction chosen as [|d0 r IH]; intros us delays e; cbn.
  - intros [<-|[]]. now right.
  - intros [<-|H].
    + left. exists d0, us. cbn. auto.
    + destruct (IH [] (tl delays) e H) as [(d' & us' & H1 & H2 & H3)|H']; [|now right].
      left. exists d', us'. split; [now right|]. split; [|exact H3]. right. destruct H2; assumption.
Qed.

Lemma cancels_indirect N c t i tm id old : forall chosen us,
  cancels N (indirect_sends c t i chosen us ++ [OTimer TSusp id tm t; OCancel old]) = [(N, old)].
Proof. induction chosen as [|d0 r IH]; intros us; cbn; [reflexivity|apply IH]. Qed.

Lemma emit_probe n now t self i us id tm old tm' delays :
  emit n now ([OSend t false self None None i us; OTimer TIndirect id tm t]
              ++ match old with Some o => [OCancel o] | None => [] end
              ++ [OTimer TTick (-1) tm' 0]) delays
  = [mkPev (now + hd 0 delays) t (-1) (PPing self us); mkPev tm n id (PIndirect t); mkPev tm' n (-1) PTick].
Proof. destruct old; reflexivity. Qed.

Section CrashInv.
  Variable cfgs : Z -> cfg.
  Variable d : Z.
  Hypothesis Hcfg : cfg_ok cfgs d.

  Definition good_kindC (w : world) (cr : list Z) (e : pev) : Prop :=
    match p_kind e with
    | PTick | PIndirect _ => True
    | PSusp t => In t cr
    | PPing f us | PAck f us =>
      cleanC cr us /\ is_member f (members (nodes w (p_node e))) = true
    end.

  Definition timer_okC (w : world) (cr : list Z) (e : pev) : Prop :=
    match p_kind e with
    | PIndirect T =>
      in_cancelled (p_node e) (p_id e) (cancelled w) = true \/ In T cr \/ In (p_node e) cr \/
      (packs_get T (packs (nodes w (p_node e))) = Some (p_id e) /\
       exists e', In e' (pool w) /\ resp d (p_node e) T (p_time e) e')
    | _ => True
    end.

  Definition CInv (c : world * list Z) : Prop :=
    let (w, cr) := c in
    (forall n, clean_nodeC cr (nodes w n)) /\ sym (nodes w) /\
    forall e, In e (pool w) -> good_kindC w cr e /\ timer_okC w cr e.

  Lemma keep_goodC w w' cr e :
    (forall n m, is_member m (members (nodes w' n)) = is_member m (members (nodes w n))) ->
    good_kindC w cr e -> good_kindC w' cr e.
  Proof.
    intros Hm. unfold good_kindC. destruct (p_kind e); try (intros G; exact G); rewrite Hm; intros G; exact G.
  Qed.

  Lemma cinv_mono w cr cr' : incl cr cr' -> CInv (w, cr) -> CInv (w, cr').
  Proof.
    intros Hinc (IC & IS & IP). split; [|split; [exact IS|]].
    - intros k. destruct (IC k) as [A B]. split; [eapply deadC_mono|eapply cleanC_mono]; eauto.
    - intros e He. destruct (IP e He) as [G T]. split.
      + unfold good_kindC in *. destruct (p_kind e); try exact I; [apply Hinc, G|..];
          (split; [eapply cleanC_mono; [exact Hinc|apply G]|apply G]).
      + unfold timer_okC in *. destruct (p_kind e); try exact I.
        destruct T as [T|[T|[T|T]]]; auto.
  Qed.

  (** The one step all actions share: event [x] leaves the pool and the events [new] enter it.
      The invariant survives when every node keeps its member names and stays clean, the
      cancelled set only grows, a [_pending_acks] entry is unchanged unless its timer id is
      cancelled, and [x], where it was the in-flight witness of a pending ack timeout, is
      replaced by a witness among [new] unless that timer is cancelled. *)
  Lemma cinv_pool w cr w' l1 x l2 new :
    CInv (w, cr) ->
    pool w = l1 ++ x :: l2 -> pool w' = l1 ++ l2 ++ new ->
    (forall n, clean_nodeC cr (nodes w' n)) ->
    (forall n m, is_member m (members (nodes w' n)) = is_member m (members (nodes w n))) ->
    (forall n i, in_cancelled n i (cancelled w) = true -> in_cancelled n i (cancelled w') = true) ->
    (forall n T id, ~ In T cr -> packs_get T (packs (nodes w n)) = Some id ->
       in_cancelled n id (cancelled w') = true \/ packs_get T (packs (nodes w' n)) = Some id) ->
    (forall e T, p_kind e = PIndirect T -> ~ In T cr -> ~ In (p_node e) cr ->
       packs_get T (packs (nodes w (p_node e))) = Some (p_id e) ->
       resp d (p_node e) T (p_time e) x ->
       in_cancelled (p_node e) (p_id e) (cancelled w') = true \/
       exists e'', In e'' new /\ resp d (p_node e) T (p_time e) e'') ->
    (forall e, In e new -> good_kindC w' cr e /\ timer_okC w' cr e) ->
    CInv (w', cr).
  Proof.
    intros (IC & IS & IP) Hpool Hpool' Hc Hm Hcan Hpk Hw Hnew.
    split; [exact Hc|]. split; [intros n m; rewrite !Hm; apply IS|].
    intros e He. rewrite Hpool' in He. apply in_pool_new in He as [He|He]; [|apply Hnew, He].
    destruct (IP e) as [G T]; [rewrite Hpool; apply in_rest, He|].
    split; [exact (keep_goodC w w' cr e Hm G)|].
    unfold timer_okC in T |- *. destruct (p_kind e) as [|T0| | |] eqn:K; try exact I.
    destruct T as [T|[T|[T|[T1 (e' & T2 & T3)]]]];
      [left; apply Hcan, T|right; left; exact T|right; right; left; exact T|].
    destruct (in_dec Z.eq_dec T0 cr) as [HT|HT]; [right; left; exact HT|].
    destruct (in_dec Z.eq_dec (p_node e) cr) as [HA|HA]; [right; right; left; exact HA|].
    destruct (Hpk _ _ _ HT T1) as [H|H]; [now left|].
    rewrite Hpool in T2. apply in_elt_inv in T2 as [->|T2].
    - destruct (Hw e T0 K HT HA T1 T3) as [H'|(e'' & H1 & H2)]; [now left|].
      right; right; right. split; [exact H|]. exists e''. split; [rewrite Hpool'; apply in_pool_new; right; exact H1|exact H2].
    - right; right; right. split; [exact H|]. exists e'. split; [rewrite Hpool'; apply in_pool_new; left; exact T2|exact T3].
  Qed.

  (** an event that is nobody's witness may leave the pool *)
  Lemma cinv_removed w cr l1 x l2 :
    CInv (w, cr) -> pool w = l1 ++ x :: l2 ->
    (forall A T f, ~ In T cr -> ~ In A cr -> ~ resp d A T f x) ->
    CInv (mkWorld (nodes w) (l1 ++ l2) (cancelled w), cr).
  Proof.
    intros HI Hpool Hw.
    apply (cinv_pool w cr _ l1 x l2 [] HI Hpool); cbn [pool nodes cancelled]; auto.
    - now rewrite app_nil_r.
    - apply HI.
    - intros e T _ HT HA _ R. destruct (Hw _ _ _ HT HA R).
    - intros e [].
  Qed.

  Definition handled (w : world) (l1 l2 : list pev) (x : pev) (st' : nstate) (outs : list output)
             (delays : list Z) : world :=
    mkWorld (set_node (nodes w) (p_node x) st')
            (l1 ++ l2 ++ emit (p_node x) (p_time x) outs delays)
            (cancels (p_node x) outs ++ cancelled w).

  Definition new_ok (w : world) (cr : list Z) (N : Z) (st' : nstate) (new : list pev) (e : pev) : Prop :=
    match p_kind e with
    | PTick => True
    | PSusp t => In t cr
    | PPing f us | PAck f us =>
      f = N /\ cleanC cr us /\ is_member (p_node e) (members (nodes w N)) = true
    | PIndirect T =>
      p_node e = N /\ packs_get T (packs st') = Some (p_id e) /\
      exists e', In e' new /\ resp d N T (p_time e) e'
    end.

  Lemma not_resp_kind x : (forall f us, p_kind x <> PPing f us) -> (forall f us, p_kind x <> PAck f us) ->
    forall A T f, ~ resp d A T f x.
  Proof.
    intros H1 H2 A T f H. destruct (resp_kind _ _ _ _ _ H) as [[us K]|[us K]]; [eapply H1|eapply H2]; eauto.
  Qed.

  Lemma first_delay delays : Forall (fun dl => 0 <= dl <= d) delays -> 0 <= hd 0 delays <= d.
  Proof. intros [|dl r H _]; cbn; [split; [apply Z.le_refl|apply Hcfg]|exact H]. Qed.

  Section Delivery.
    Variables (w : world) (cr : list Z) (l1 l2 : list pev) (x : pev).
    Hypothesis HI : CInv (w, cr).
    Hypothesis Hpool : pool w = l1 ++ x :: l2.

    Lemma cinv_handled i st' outs delays :
      step (cfgs (p_node x)) (p_time x) (nodes w (p_node x)) i = (st', outs) ->
      clean_nodeC cr st' ->
      (forall T id, ~ In T cr -> packs_get T (packs (nodes w (p_node x))) = Some id ->
         in_cancelled (p_node x) id (cancels (p_node x) outs) = true \/ packs_get T (packs st') = Some id) ->
      (forall e T, p_kind e = PIndirect T -> ~ In T cr -> ~ In (p_node e) cr ->
         packs_get T (packs (nodes w (p_node e))) = Some (p_id e) ->
         resp d (p_node e) T (p_time e) x ->
         in_cancelled (p_node e) (p_id e) (cancels (p_node x) outs) = true \/
         exists e'', In e'' (emit (p_node x) (p_time x) outs delays) /\ resp d (p_node e) T (p_time e) e'') ->
      (forall e, In e (emit (p_node x) (p_time x) outs delays) ->
         new_ok w cr (p_node x) st' (emit (p_node x) (p_time x) outs delays) e) ->
      CInv (handled w l1 l2 x st' outs delays, cr).
    Proof.
      intros Hs C' Hpk Hw Hnew.
      assert (Hmem : forall n m, is_member m (members (set_node (nodes w) (p_node x) st' n)) =
                                 is_member m (members (nodes w n))).
      { apply set_node_member. rewrite <- (step_names (cfgs (p_node x)) (p_time x) (nodes w (p_node x)) i), Hs. reflexivity. }
      apply (cinv_pool w cr (handled w l1 l2 x st' outs delays) l1 x l2
                       (emit (p_node x) (p_time x) outs delays) HI Hpool eq_refl);
        cbn [handled nodes cancelled pool].
      - intros n. unfold set_node. destruct (n =? p_node x); [exact C'|apply HI].
      - exact Hmem.
      - intros n k H. rewrite in_cancelled_app, H. apply orb_true_r.
      - intros n T id HT H. rewrite in_cancelled_app. unfold set_node.
        destruct (n =? p_node x) eqn:EN; [|now right].
        apply Z.eqb_eq in EN; subst n.
        destruct (Hpk T id HT H) as [H'|H']; [left; rewrite H'; reflexivity|now right].
      - intros e T K HT HA H R. rewrite in_cancelled_app.
        destruct (Hw e T K HT HA H R) as [H'|H']; [left; rewrite H'; reflexivity|now right].
      - intros e He. specialize (Hnew e He). unfold new_ok in Hnew. unfold good_kindC, timer_okC.
        destruct (p_kind e) as [|T|T|f us|f us]; cbn [handled nodes pool cancelled].
        + split; exact I.
        + destruct Hnew as (En & Hp & e' & He' & R). split; [exact I|]. right; right; right.
          rewrite En. unfold set_node. rewrite Z.eqb_refl. split; [exact Hp|].
          exists e'. split; [apply in_pool_new; right; exact He'|exact R].
        + split; [exact Hnew|exact I].
        + destruct Hnew as (-> & Hus & Hm). split; [|exact I]. split; [exact Hus|].
          rewrite Hmem. apply HI, Hm.
        + destruct Hnew as (-> & Hus & Hm). split; [|exact I]. split; [exact Hus|].
          rewrite Hmem. apply HI, Hm.
    Qed.

    Lemma cinv_in_pool : good_kindC w cr x /\ timer_okC w cr x.
    Proof. apply HI. rewrite Hpool. apply in_elt. Qed.

    (** An ack timeout fires only when its target has stopped: otherwise the ping it waits for,
        or the ack, is still in the pool and due strictly earlier. *)
    Lemma fired_timer_stopped T :
      (forall y, In y (l1 ++ l2) -> p_time x <= p_time y) ->
      ~ In (p_node x) cr -> is_cancelled w x = false -> p_kind x = PIndirect T -> In T cr.
    Proof.
      intros Hmin Hlive Hcan Kx.
      destruct cinv_in_pool as [_ Tx]. unfold timer_okC in Tx. unfold is_cancelled in Hcan. rewrite Kx in Tx, Hcan.
      destruct Tx as [Tx|[Tx|[Tx|[_ (e' & T2 & T3)]]]]; [congruence|exact Tx|contradiction|].
      exfalso. rewrite Hpool in T2. apply in_elt_inv in T2 as [->|T2].
      - destruct (resp_kind _ _ _ _ _ T3) as [[us K]|[us K]]; congruence.
      - specialize (Hmin e' T2). destruct Hcfg as [Hd _].
        destruct T3 as [(_ & _ & K)|(_ & _ & K)]; clear - Hmin K Hd; lia.
    Qed.

    Lemma handled_tick avail shuf delays st' outs :
      p_kind x = PTick ->
      oracle_ok (nodes w (p_node x)) (ITick avail shuf) = true ->
      Forall (fun dl => 0 <= dl <= d) delays ->
      step (cfgs (p_node x)) (p_time x) (nodes w (p_node x)) (ITick avail shuf) = (st', outs) ->
      CInv (handled w l1 l2 x st' outs delays, cr).
    Proof.
      intros Kx Hor Hdl Hs. destruct (proj2 Hcfg (p_node x)) as [Hself Hhalf].
      destruct (step_tickC cr _ _ _ _ _ _ _ Hs Hor (proj1 HI (p_node x))) as (C' & Hout).
      assert (Hnw : forall A T f, ~ resp d A T f x) by (apply not_resp_kind; intros; rewrite Kx; discriminate).
      destruct Hout as [[-> Hp]|(t & us & Ht & Hus & Hp & ->)]; apply (cinv_handled _ _ _ _ Hs C').
      - intros T id _ H. right. rewrite Hp. exact H.
      - intros e T _ _ _ _ R. destruct (Hnw _ _ _ R).
      - intros e [<-|[]]. exact I.
      - intros T id _ H. destruct (Z.eq_dec T t) as [->|Hne].
        + left. rewrite H. cbn. rewrite !Z.eqb_refl. reflexivity.
        + right. rewrite Hp, packs_get_set_other by exact Hne. exact H.
      - intros e T _ _ _ _ R. destruct (Hnw _ _ _ R).
      - apply first_delay in Hdl. rewrite emit_probe. intros e [<-|[<-|[<-|[]]]]; unfold new_ok; cbn [p_kind p_node p_id p_time].
        + auto.
        + (* the new ack timeout: its witness is the ping just sent *)
          split; [reflexivity|]. split; [rewrite Hp; apply packs_get_set_same|].
          eexists. split; [left; reflexivity|].
          left. cbn. rewrite Hself. split; [reflexivity|]. split; [eexists; reflexivity|].
          clear - Hdl Hhalf. lia.
        + exact I.
    Qed.

    Lemma handled_indirect T shuf delays st' outs :
      p_kind x = PIndirect T -> In T cr ->
      oracle_ok (nodes w (p_node x)) (IIndirect (Some T) shuf) = true ->
      step (cfgs (p_node x)) (p_time x) (nodes w (p_node x)) (IIndirect (Some T) shuf) = (st', outs) ->
      CInv (handled w l1 l2 x st' outs delays, cr).
    Proof.
      intros Kx HT Hor Hs. destruct (proj2 Hcfg (p_node x)) as [Hself _].
      destruct (step_indirectC cr _ _ _ _ _ _ _ Hs Hor (proj1 HI (p_node x))) as (C' & Hout).
      assert (Hnw : forall A T0 f, ~ resp d A T0 f x) by (apply not_resp_kind; intros; rewrite Kx; discriminate).
      destruct Hout as [[-> Hp]|(old & chosen & us0 & Hch & Hus0 & Hp & ->)]; apply (cinv_handled _ _ _ _ Hs C').
      - intros T0 id _ H. right. rewrite Hp. exact H.
      - intros e T0 _ _ _ _ R. destruct (Hnw _ _ _ R).
      - intros e [].
      - intros T0 id HT0 H. right. rewrite Hp, packs_get_set_other; [exact H|]. intros ->. contradiction.
      - intros e T0 _ _ _ _ R. destruct (Hnw _ _ _ R).
      - intros e He. apply emit_indirect in He as [(d' & us' & Hd' & Hus' & Kn & Kk)| ->]; unfold new_ok.
        + rewrite Kk, Kn. split; [exact Hself|]. split; [|apply Hch, Hd'].
          destruct Hus' as [->| ->]; [exact Hus0|constructor].
        + exact HT.
    Qed.

    Lemma handled_susp T delays st' outs :
      p_kind x = PSusp T ->
      step (cfgs (p_node x)) (p_time x) (nodes w (p_node x)) (ISusp (Some T)) = (st', outs) ->
      CInv (handled w l1 l2 x st' outs delays, cr).
    Proof.
      intros Kx Hs.
      destruct cinv_in_pool as [HT _]. unfold good_kindC in HT. rewrite Kx in HT.
      destruct (step_suspC cr _ _ _ _ _ _ Hs (proj1 HI (p_node x)) HT) as (C' & -> & Hp).
      apply (cinv_handled _ _ _ _ Hs C').
      - intros T0 id HT0 H. right. rewrite Hp; [exact H|]. intros ->. contradiction.
      - intros e T0 _ _ _ _ R. destruct (resp_kind _ _ _ _ _ R) as [[us K]|[us K]]; congruence.
      - intros e [].
    Qed.

    Lemma handled_ping f us delays st' outs :
      p_kind x = PPing f us ->
      Forall (fun dl => 0 <= dl <= d) delays ->
      step (cfgs (p_node x)) (p_time x) (nodes w (p_node x)) (IPing (Some f) us) = (st', outs) ->
      CInv (handled w l1 l2 x st' outs delays, cr).
    Proof.
      intros Kx Hdl Hs. destruct (proj2 Hcfg (p_node x)) as [Hself _].
      destruct cinv_in_pool as [Gx _]. unfold good_kindC in Gx. rewrite Kx in Gx.
      destruct Gx as [Gus Gm].
      destruct (step_pingC cr _ _ _ _ _ _ _ Hs (proj1 HI (p_node x)) Gus Gm) as (C' & Hp & (us2 & Hus2 & ->)).
      apply first_delay in Hdl.
      apply (cinv_handled _ _ _ _ Hs C').
      - intros T id _ H. right. rewrite Hp. exact H.
      - (* the delivered ping was the witness: the ack replaces it *)
        intros e T _ _ _ _ R. right. eexists. split; [left; reflexivity|].
        destruct R as [(K1 & (us' & K2) & K3)|(_ & (us' & K2) & _)]; [|congruence].
        rewrite Kx in K2. injection K2 as K2 _.
        right. cbn. rewrite Hself. split; [congruence|]. split; [eexists; rewrite K1; reflexivity|].
        clear - Hdl K3. lia.
      - intros e [<-|[]]. unfold new_ok; cbn. auto.
    Qed.

    Lemma handled_ack f us delays st' outs :
      p_kind x = PAck f us ->
      step (cfgs (p_node x)) (p_time x) (nodes w (p_node x)) (IAck (Some f) us) = (st', outs) ->
      CInv (handled w l1 l2 x st' outs delays, cr).
    Proof.
      intros Kx Hs.
      destruct cinv_in_pool as [Gx _]. unfold good_kindC in Gx. rewrite Kx in Gx.
      destruct Gx as [Gus Gm].
      destruct (step_ackC cr _ _ _ _ _ _ _ Hs (proj1 HI (p_node x)) Gus Gm) as (C' & Hp & ->).
      apply (cinv_handled _ _ _ _ Hs C').
      - intros T id _ H. destruct (Z.eq_dec T f) as [->|Hne].
        + left. rewrite H. cbn. rewrite !Z.eqb_refl. reflexivity.
        + right. rewrite Hp, packs_get_del_other by exact Hne. exact H.
      - (* the delivered ack was the witness: then it is the ack for this very timer *)
        intros e T _ _ _ H R. left.
        destruct R as [(_ & (us' & K2) & _)|(K1 & (us' & K2) & _)]; [congruence|].
        rewrite Kx in K2. injection K2 as K2 _. subst f. rewrite K1, H. cbn. rewrite !Z.eqb_refl. reflexivity.
      - destruct (packs_get f (packs (nodes w (p_node x)))); intros e [].
    Qed.
  End Delivery.

  Lemma cinv_step c c' : CInv c -> cstep cfgs d c c' -> CInv c'.
  Proof.
    intros HI Hstep.
    destruct Hstep as [w cr l1 x l2 Hpool Hcan | w cr n | w cr l1 x l2 Hpool Hcr
                      | w cr l1 x l2 i delays st' outs Hpool Hmin Hlive Hcan Him Hor Hdl Hs].
    - (* a cancelled timer is nobody's witness *)
      apply (cinv_removed w cr l1 x l2 HI Hpool). intros A T f _ _ R. unfold is_cancelled in Hcan.
      destruct (resp_kind _ _ _ _ _ R) as [[us K]|[us K]]; rewrite K in Hcan; discriminate.
    - apply (cinv_mono w cr); [intros y Hy; now right|exact HI].
    - (* where the dropped event was a witness, its receiver has stopped *)
      apply (cinv_removed w cr l1 x l2 HI Hpool).
      intros A T f HT HA [(K1 & _)|(K1 & _)]; rewrite K1 in Hcr; contradiction.
    - change (CInv (handled w l1 l2 x st' outs delays, cr)).
      apply input_matches_inv in Him.
      destruct (p_kind x) as [|T|T|f us|f us] eqn:Kx.
      + destruct Him as (avail & shuf & ->). eapply handled_tick; eassumption.
      + destruct Him as (shuf & ->). eapply handled_indirect; try eassumption.
        eapply fired_timer_stopped; eassumption.
      + subst i. eapply handled_susp; eassumption.
      + subst i. eapply handled_ping; eassumption.
      + subst i. eapply handled_ack; eassumption.
  Qed.

  Lemma init_cinv w : init_ok w -> CInv (w, []).
  Proof.
    intros (H1 & H2 & H3). split; [|split; [exact H2|]].
    - intros n. destruct (H1 n) as [A B]. split.
      + eapply Forall_impl; [|exact A]. cbn. intros m Hm Hd. contradiction.
      + eapply Forall_impl; [|exact B]. cbn. intros u Hu Hk. contradiction.
    - intros e He. unfold good_kindC, timer_okC. rewrite (H3 e He). split; exact I.
  Qed.

  Lemma creach_inv w0 c : init_ok w0 -> creach cfgs d w0 c -> CInv c.
  Proof.
    intros H0 Hr. induction Hr as [|c c' Hr IH Hs]; [apply init_cinv, H0|eapply cinv_step; eauto].
  Qed.

  Lemma only_stopped_members_dead w0 w cr :
    init_ok w0 -> creach cfgs d w0 (w, cr) ->
    (forall n m, In m (members (nodes w n)) -> m_state m = Dead -> In (m_name m) cr) /\
    (forall n u, In u (pend (nodes w n)) -> u_kind u = 1 -> In (u_member u) cr) /\
    (forall e, In e (pool w) ->
       match p_kind e with
       | PSusp t => In t cr
       | PPing _ us | PAck _ us => forall u, In u us -> u_kind u = 1 -> In (u_member u) cr
       | _ => True
       end).
  Proof.
    intros H0 Hr. destruct (creach_inv w0 _ H0 Hr) as (IC & _ & IP). split; [|split].
    - intros n m. apply (proj1 (Forall_forall _ _) (proj1 (IC n))).
    - intros n u. apply (proj1 (Forall_forall _ _) (proj2 (IC n))).
    - intros e He. destruct (IP e He) as [G _]. unfold good_kindC in G.
      destruct (p_kind e); try exact G; apply (proj1 (Forall_forall _ _) (proj1 G)).
  Qed.
End CrashInv.

(** A run of [Net.wstep] is a run of [cstep] in which nobody stops, and conversely; so on a
    healthy network the stopped set of the theorem above is empty. *)
Lemma wstep_cstep cfgs d w w' : wstep cfgs d w w' -> cstep cfgs d (w, []) (w', []).
Proof. intros [w0 l1 x l2|w0 l1 x l2 i delays st' outs]; intros; [eapply cs_skip|eapply cs_deliver]; eauto. Qed.

Lemma reach_creach cfgs d w0 w : reach cfgs d w0 w -> creach cfgs d w0 (w, []).
Proof.
  induction 1 as [|w w' _ IH Hs]; [apply creach_refl|].
  eapply creach_step; [exact IH|apply wstep_cstep, Hs].
Qed.

Lemma creach_nil cfgs d w0 c : creach cfgs d w0 c -> snd c = [] -> reach cfgs d w0 (fst c).
Proof.
  induction 1 as [|c c' _ IH Hs]; intros E; [apply reach_refl|].
  destruct Hs as [w cr l1 x l2 Hp Hc|w cr n|w cr l1 x l2 Hp Hin|w cr l1 x l2 i dl st' outs];
    cbn [fst snd] in *; try discriminate.
  - eapply reach_step; [exact (IH E)|eapply ws_skip; eauto].
  - subst cr. destruct Hin.
  - eapply reach_step; [exact (IH E)|eapply ws_deliver; eauto].
Qed.
