(** C16 — every eviction policy keeps a duplicate-free set of tracked keys that
    changes exactly as the cache expects: [policy_ok]. *)
From HS Require Import Base.Prelude Base.Lists C16.Model C16.Lists.
Local Open Scope Z_scope.

Record policy_ok (P : policy) := {
  p_inv : PS P -> Prop;
  ok_init : p_inv (p_init P) /\ p_keys P (p_init P) = [];
  ok_nodup : forall s, p_inv s -> NoDup (p_keys P s);
  ok_access : forall k s, p_inv s ->
    p_inv (p_access P k s) /\ (forall x, In x (p_keys P (p_access P k s)) <-> In x (p_keys P s));
  ok_insert : forall now k s, p_inv s -> ~ In k (p_keys P s) ->
    p_inv (p_insert P now k s) /\
    (forall x, In x (p_keys P (p_insert P now k s)) <-> x = k \/ In x (p_keys P s));
  ok_remove : forall k s, p_inv s ->
    p_inv (p_remove P k s) /\
    (forall x, In x (p_keys P (p_remove P k s)) <-> In x (p_keys P s) /\ x <> k);
  ok_evict : forall now dr s, p_inv s ->
    match p_evict P now dr s with
    | (Some k, s', _) => In k (p_keys P s) /\ p_inv s' /\
                         (forall x, In x (p_keys P s') <-> In x (p_keys P s) /\ x <> k)
    | (None, s', _) => p_keys P s = [] /\ s' = s
    end;
  ok_clear : forall s, p_inv (p_clear P s) /\ p_keys P (p_clear P s) = [];
}.

(** The tracked keys of a fresh or cleared policy. *)
Lemma nil_keys : NoDup (@nil Z) /\ @nil Z = [].
Proof. split; [constructor|reflexivity]. Qed.

Lemma pop_first_spec l : NoDup l ->
  match pop_first l with
  | (Some k, r) => In k l /\ NoDup r /\ (forall x, In x r <-> In x l /\ x <> k)
  | (None, r) => l = [] /\ r = l
  end.
Proof.
  destruct l as [|y l]; cbn; [auto|]. intros H. inversion H; subst.
  split; [auto|]. split; [assumption|]. intros x. split.
  - intros Hx. split; [auto|]. intros ->. tauto.
  - intros [[->|Hx] Hn]; [congruence|exact Hx].
Qed.

Definition lru_ok : policy_ok lru.
Proof.
  refine {| p_inv := fun l : PS lru => NoDup l |}; cbn.
  - exact nil_keys.
  - auto.
  - intros k s. apply move_end_spec.
  - intros _ k s H _. apply add_end_spec, H.
  - intros k s. apply remove1_spec.
  - intros _ dr s H. exact (pop_first_spec s H).
  - intros _. exact nil_keys.
Defined.

Definition fifo_ok : policy_ok fifo.
Proof.
  refine {| p_inv := fun l : PS fifo => NoDup l |}; cbn.
  - exact nil_keys.
  - auto.
  - intros k s H. split; [exact H|tauto].
  - intros _ k s H _. apply add_end_spec, H.
  - intros k s. rewrite guard_remove1. apply remove1_spec.
  - intros _ dr s H. exact (pop_first_spec s H).
  - intros _. exact nil_keys.
Defined.

Lemma rnd_choice_In dr l : l <> [] -> In (fst (rnd_choice dr l)) l.
Proof.
  intros Hl. assert (Hh : In (hd 0 l) l) by (destruct l; [congruence|left; reflexivity]).
  unfold rnd_choice. destruct dr as [|[|k [|? ?]] rest]; cbn; auto.
  destruct (zmem k l) eqn:E; cbn; [apply zmem_In; exact E|exact Hh].
Qed.

Definition random_ok : policy_ok randomp.
Proof.
  refine {| p_inv := fun l : PS randomp => NoDup l |}; cbn.
  - exact nil_keys.
  - auto.
  - intros k s H. split; [exact H|tauto].
  - intros _ k s H _. apply add_end_spec, H.
  - intros k s. apply remove1_spec.
  - intros _ dr s H. unfold rnd_evict. destruct s as [|y s]; [auto|].
    pose proof (rnd_choice_In dr (y :: s) ltac:(congruence)) as Hc.
    destruct (rnd_choice dr (y :: s)) as [k rest]. split; [exact Hc|apply remove1_spec, H].
  - intros _. exact nil_keys.
Defined.

Lemma fold_min_in l x : fold_left Z.min l x = x \/ In (fold_left Z.min l x) l.
Proof.
  revert x. induction l as [|y l IH]; intros x; cbn; [auto|].
  destruct (IH (Z.min x y)) as [H|H]; [|auto].
  rewrite H. destruct (Z.min_spec x y) as [[_ ->]|[_ ->]]; auto.
Qed.

Lemma zmin_list_in l : l <> [] -> In (zmin_list l) l.
Proof.
  destruct l as [|x l]; [congruence|]. intros _. cbn.
  destruct (fold_min_in l x) as [->|H]; auto.
Qed.

Lemma first_with_some v m : In v (map snd m) -> exists k, first_with v m = Some k /\ In k (akeys m).
Proof.
  unfold akeys. induction m as [|[k c] m IH]; cbn; [tauto|].
  intros H. destruct (c =? v) eqn:E.
  - exists k. auto.
  - apply Z.eqb_neq in E. destruct H as [H|H]; [congruence|].
    destruct (IH H) as (k' & Hk & Hi). exists k'. auto.
Qed.

Definition lfu_ok : policy_ok lfu.
Proof.
  refine {| p_inv := fun s : PS lfu => NoDup (akeys (fst s)) |}; cbn.
  - exact nil_keys.
  - auto.
  - intros k [m c] H. unfold lfu_access. cbn in *. destruct (aget k m) eqn:E; cbn; [|tauto].
    apply aset_keys_same; [exact H|]. exact (aget_Some_In _ _ _ E).
  - intros _ k [m c] H _. apply aset_keys_spec, H.
  - intros k [m c] H. apply adel_keys_spec, H.
  - intros _ dr [m c] H. unfold lfu_evict. cbn [fst snd] in *. destruct m as [|p m]; [cbn; auto|].
    remember (p :: m) as mm eqn:Hmm.
    destruct (first_with_some (zmin_list (map snd mm)) mm) as (k & Hk & Hi).
    { apply zmin_list_in. rewrite Hmm. cbn. congruence. }
    rewrite Hk. cbn. split; [exact Hi|]. apply adel_keys_spec. exact H.
  - intros _. exact nil_keys.
Defined.

Lemma first_expired_In now ttl m k : first_expired now ttl m = Some k -> In k (akeys m).
Proof.
  unfold akeys. induction m as [|[k' t] m IH]; cbn; [discriminate|].
  destruct (now - t >=? ttl); [intros H; injection H as ->; auto|auto].
Qed.

Definition ttl_ok ttl : policy_ok (ttlp ttl).
Proof.
  refine {| p_inv := fun m : PS (ttlp ttl) => NoDup (akeys m) |}; cbn.
  - exact nil_keys.
  - auto.
  - intros k s H. split; [exact H|tauto].
  - intros now k m H _. apply aset_keys_spec, H.
  - intros k m. apply adel_keys_spec.
  - intros now dr m H. unfold ttl_evict. destruct m as [|p m]; [cbn; auto|].
    remember (p :: m) as mm eqn:Hmm.
    destruct (first_expired now ttl mm) eqn:E.
    + split; [eapply first_expired_In; eauto|]. apply adel_keys_spec. exact H.
    + destruct (argmin_spec (fun k => match aget k mm with Some t => t | None => 0 end) (akeys mm)) as (k & Hk & Hi).
      { rewrite Hmm. cbn. congruence. }
      rewrite Hk. split; [exact Hi|]. apply adel_keys_spec. exact H.
  - intros _. exact nil_keys.
Defined.

Lemma smp_sample_spec dr keys : keys <> [] ->
  fst (smp_sample dr keys) <> [] /\ (forall x, In x (fst (smp_sample dr keys)) -> In x keys).
Proof.
  intros Hk. unfold smp_sample. destruct dr as [|d rest]; cbn; [auto|].
  destruct (filter (fun k => zmem k keys) d) eqn:E; cbn; [auto|].
  split; [congruence|]. intros x Hx.
  assert (Hf : In x (filter (fun k => zmem k keys) d)) by (rewrite E; exact Hx).
  apply filter_In in Hf as [_ Hf]. apply zmem_In. exact Hf.
Qed.

Definition sampled_ok n : policy_ok (sampled n).
Proof.
  refine {| p_inv := fun s : PS (sampled n) => NoDup (akeys (fst s)) |}; cbn.
  - exact nil_keys.
  - auto.
  - intros k [m c] H. unfold smp_access. cbn in *. destruct (amem k m) eqn:E; cbn; [|tauto].
    apply aset_keys_same; [exact H|]. apply amem_In, E.
  - intros _ k [m c] H _. apply aset_keys_spec, H.
  - intros k [m c] H. apply adel_keys_spec, H.
  - intros _ dr [m c] H. unfold smp_evict. cbn [fst snd] in *. destruct m as [|p m]; [cbn; auto|].
    remember (p :: m) as mm eqn:Hmm.
    destruct (smp_sample_spec dr (akeys mm)) as [Hne Hsub]. { rewrite Hmm. cbn. congruence. }
    destruct (smp_sample dr (akeys mm)) as [sample rest]. cbn [fst] in *.
    destruct (argmin_spec (fun k => match aget k mm with Some t => t | None => 0 end) sample Hne) as (k & Hk & Hi).
    rewrite Hk. cbn. split; [apply Hsub, Hi|]. apply adel_keys_spec. exact H.
  - intros _. exact nil_keys.
Defined.

(** SLRU and 2Q track two lists side by side; each operation is checked list by
    list: [A], [B] say which keys the new lists hold (in the form the step
    lemmas of Lists.v deliver); they share no key and together hold the keys [R]
    that the clause asks for. *)
Lemma app_keys_spec (a b : list Z) (A B R : Z -> Prop) :
  NoDup a /\ (forall x, In x a <-> A x) -> NoDup b /\ (forall x, In x b <-> B x) ->
  (forall x, A x -> B x -> False) -> (forall x, A x \/ B x <-> R x) ->
  NoDup (a ++ b) /\ (forall x, In x (a ++ b) <-> R x).
Proof.
  intros [Ha HA] [Hb HB] Hx HR. split.
  - apply NoDup_app_iff. split; [exact Ha|]. split; [exact Hb|].
    intros x Hi Hj. apply HA in Hi. apply HB in Hj. exact (Hx x Hi Hj).
  - intros x. rewrite in_app_iff, HA, HB. apply HR.
Qed.

Lemma same_spec (l : list Z) : NoDup l -> NoDup l /\ (forall x, In x l <-> In x l).
Proof. intros H. exact (conj H (fun x => iff_refl _)). Qed.

Lemma app_move_end_r k (a b : list Z) : NoDup (a ++ b) ->
  NoDup (a ++ move_end k b) /\ (forall x, In x (a ++ move_end k b) <-> In x (a ++ b)).
Proof.
  intros H. apply NoDup_app_iff in H as (Ha & Hb & Hx).
  apply (app_keys_spec _ _ _ _ _ (same_spec a Ha) (move_end_spec k b Hb)); [exact Hx|].
  intros x. symmetry. apply in_app_iff.
Qed.

Lemma app_remove1 k (a b : list Z) : NoDup (a ++ b) ->
  NoDup (remove1 k a ++ remove1 k b) /\
  (forall x, In x (remove1 k a ++ remove1 k b) <-> In x (a ++ b) /\ x <> k).
Proof.
  intros H. apply NoDup_app_iff in H as (Ha & Hb & Hx).
  apply (app_keys_spec _ _ _ _ _ (remove1_spec k a Ha) (remove1_spec k b Hb)).
  - intros x [Hi _] [Hj _]. exact (Hx x Hi Hj).
  - intros x. rewrite in_app_iff. split; [intros [[? ?]|[? ?]]; auto|intros [[?|?] ?]; auto].
Qed.

Lemma app_add_l k (a a' b : list Z) : NoDup (a ++ b) -> ~ In k (a ++ b) ->
  NoDup a' /\ (forall x, In x a' <-> x = k \/ In x a) ->
  NoDup (a' ++ b) /\ (forall x, In x (a' ++ b) <-> x = k \/ In x (a ++ b)).
Proof.
  intros H Hn HA. rewrite in_app_iff in Hn. apply NoDup_app_iff in H as (Ha & Hb & Hx).
  apply (app_keys_spec _ _ _ _ _ HA (same_spec b Hb)).
  - intros x [->|Hi] Hj; [exact (Hn (or_intror Hj))|exact (Hx x Hi Hj)].
  - intros x. rewrite in_app_iff. split; [intros [[?|?]|?]; auto|intros [?|[?|?]]; auto].
Qed.

Lemma app_add_r k (a b b' : list Z) : NoDup (a ++ b) -> ~ In k (a ++ b) ->
  NoDup b' /\ (forall x, In x b' <-> x = k \/ In x b) ->
  NoDup (a ++ b') /\ (forall x, In x (a ++ b') <-> x = k \/ In x (a ++ b)).
Proof.
  intros H Hn HB. rewrite in_app_iff in Hn. apply NoDup_app_iff in H as (Ha & Hb & Hx).
  apply (app_keys_spec _ _ _ _ _ (same_spec a Ha) HB).
  - intros x Hi [->|Hj]; [exact (Hn (or_introl Hi))|exact (Hx x Hi Hj)].
  - intros x. rewrite in_app_iff. split; [intros [?|[?|?]]; auto|intros [?|[?|?]]; auto].
Qed.

Lemma app_promote k (a b : list Z) : NoDup (a ++ b) -> In k a ->
  NoDup (remove1 k a ++ move_end k (add_end k b)) /\
  (forall x, In x (remove1 k a ++ move_end k (add_end k b)) <-> In x (a ++ b)).
Proof.
  intros H E. apply NoDup_app_iff in H as (Ha & Hb & Hx).
  apply (app_keys_spec _ _ _ (fun x => x = k \/ In x b) _ (remove1_spec k a Ha)).
  - split; [apply NoDup_move_end, NoDup_add_end, Hb|]. intros x. rewrite In_move_end. apply In_add_end.
  - intros x [Hi Hn] [->|Hj]; [exact (Hn eq_refl)|exact (Hx x Hi Hj)].
  - intros x. rewrite in_app_iff. split; [intros [[? _]|[->|?]]; auto|].
    destruct (Z.eq_dec x k) as [->|Hn]; [auto|]. intros [?|?]; auto.
Qed.

(** Both evict the head of the first list, else of the second: the head of the two together. *)
Lemma pop_app_spec (a b : list Z) : NoDup (a ++ b) ->
  match a ++ b with
  | k :: r => In k (a ++ b) /\ NoDup r /\ (forall x, In x r <-> In x (a ++ b) /\ x <> k)
  | [] => a = [] /\ b = []
  end.
Proof.
  intros H. pose proof (pop_first_spec _ H) as Hp. destruct (a ++ b) as [|k r] eqn:E; [|exact Hp].
  apply app_eq_nil in E. exact E.
Qed.

Definition slru_ok : policy_ok slru.
Proof.
  refine {| p_inv := fun s : PS slru => NoDup (fst s ++ snd s) |}; cbn.
  - exact nil_keys.
  - auto.
  - intros k [a b] H. cbn [fst snd] in *.
    unfold slru_access. destruct (zmem k a) eqn:E; [|destruct (zmem k b)]; cbn [fst snd].
    + apply app_promote; [exact H|apply zmem_In, E].
    + apply app_move_end_r, H.
    + split; [exact H|tauto].
  - intros _ k [a b] H Hn. cbn [fst snd] in *.
    apply (app_add_l k a _ b H Hn), add_end_spec. apply NoDup_app_iff in H. apply H.
  - intros k [a b]. apply app_remove1.
  - intros _ dr [a b] H. cbn [fst snd] in *. pose proof (pop_app_spec a b H) as Hp.
    destruct a as [|y a]; [destruct b as [|y b]|]; cbn in *; [auto|exact Hp|exact Hp].
  - intros _. exact nil_keys.
Defined.

Definition twoq_ok : policy_ok twoq.
Proof.
  refine {| p_inv := fun s : PS twoq => NoDup (a1in s ++ am s) |}; cbn.
  - exact nil_keys.
  - auto.
  - intros k s. apply app_move_end_r.
  - intros _ k s H Hn. pose proof H as (Ha & Hb & _)%NoDup_app_iff.
    unfold twoq_insert. destruct (zmem k (a1out s)); cbn [a1in am].
    + apply (app_add_r k _ _ _ H Hn), add_end_spec, Hb.
    + rewrite <- (add_end_notin k (a1in s)) by (intros Hi; apply Hn, in_or_app; auto).
      apply (app_add_l k _ _ _ H Hn), add_end_spec, Ha.
  - intros k s H. cbn [a1in am]. rewrite guard_remove1. apply app_remove1, H.
  - intros _ dr [a ao b] H. cbn [a1in am] in *. pose proof (pop_app_spec a b H) as Hp. unfold twoq_evict. cbn [a1in am a1out].
    destruct a as [|y a]; [destruct b as [|y b]|]; cbn in *; [auto|exact Hp|exact Hp].
  - intros _. exact nil_keys.
Defined.

Lemma ckeys_cdel k m : ckeys (cdel k m) = remove1 k (ckeys m).
Proof. exact (gkeys_gdel k m). Qed.

Lemma zlen_ckeys (m : cmap) : zlen (ckeys m) = zlen m.
Proof. apply zlen_map. Qed.

Lemma zlen_cdel k m : In k (ckeys m) -> zlen (cdel k m) = zlen m - 1.
Proof. exact (zlen_gdel k m). Qed.

Lemma cmem_In k m : cmem k m = true <-> In k (ckeys m).
Proof. apply zmem_In. Qed.

Lemma ckeys_cset k b m : ckeys (cset k b m) = ckeys m.
Proof.
  unfold ckeys. induction m as [|[k' b'] m IH]; cbn; [reflexivity|].
  destruct (k' =? k); cbn; [reflexivity|]. rewrite IH. reflexivity.
Qed.

Lemma ckeys_cclear_at i m : ckeys (cclear_at i m) = ckeys m.
Proof.
  unfold ckeys. revert i. induction m as [|[k' b'] m IH]; intros [|i]; cbn; try reflexivity.
  rewrite IH. reflexivity.
Qed.

Lemma zlen_cset k b m : zlen (cset k b m) = zlen m.
Proof. rewrite <- zlen_ckeys, ckeys_cset, zlen_ckeys. reflexivity. Qed.

Lemma zlen_cclear_at i m : zlen (cclear_at i m) = zlen m.
Proof. rewrite <- zlen_ckeys, ckeys_cclear_at, zlen_ckeys. reflexivity. Qed.

Lemma ckeys_cpop m : forall i k b, NoDup (ckeys m) -> nth_error m i = Some (k, b) ->
  In k (ckeys m) /\ ckeys (cpop i m) = remove1 k (ckeys m).
Proof.
  unfold ckeys. induction m as [|[k' b'] m IH]; intros [|i] k b Hd Hn; cbn in *; try discriminate.
  - injection Hn as -> ->. rewrite Z.eqb_refl. auto.
  - inversion Hd as [|? ? Hni Hd']; subst. destruct (IH i k b Hd' Hn) as [Hi He]. split; [auto|].
    destruct (k' =? k) eqn:E; [apply Z.eqb_eq in E; subst; tauto|]. rewrite He. reflexivity.
Qed.

Definition clock_range (m : cmap) (hand : Z) : Prop := 0 <= hand < Z.max 1 (zlen m).

Lemma clock_range_nil : clock_range [] 0.
Proof. unfold clock_range. cbn. lia. Qed.

Lemma clock_range_len m m' hand : zlen m' = zlen m -> clock_range m hand -> clock_range m' hand.
Proof. unfold clock_range. intros ->. tauto. Qed.

(** Dropping a tracked key shortens the list by one; the hand wraps to 0 if it was on the last entry. *)
Lemma clock_del_range k m m' hand : In k (ckeys m) -> ckeys m' = remove1 k (ckeys m) ->
  clock_range m hand -> clock_range m' (clock_adjust m' hand).
Proof.
  intros Hi He. pose proof (zlen_remove1 k _ Hi) as Hl. rewrite <- He, !zlen_ckeys in Hl.
  unfold clock_range, clock_adjust. pose proof (zlen_nonneg m') as Hp.
  destruct (hand >=? zlen m') eqn:E1; destruct (zlen m' =? 0) eqn:E2; cbn; lia.
Qed.

Definition clock_post (m : cmap) (r : option Z * (cmap * Z)) : Prop :=
  match r with
  | (Some k, (m', h')) => In k (ckeys m) /\ NoDup (ckeys m') /\
                          (forall x, In x (ckeys m') <-> In x (ckeys m) /\ x <> k) /\
                          clock_range m' h'
  | (None, _) => False
  end.

Lemma nth_error_in_range {A} (m : list A) hand : 0 <= hand < zlen m -> exists p, nth_error m (Z.to_nat hand) = Some p.
Proof.
  unfold zlen. intros H. destruct (nth_error m (Z.to_nat hand)) eqn:E; [eauto|].
  apply nth_error_None in E. lia.
Qed.

Lemma clock_pop_spec m hand : NoDup (ckeys m) -> 0 <= hand < zlen m -> clock_post m (clock_pop m hand).
Proof.
  intros Hd Hr. unfold clock_pop. destruct (nth_error_in_range m hand Hr) as [[k b] Hn]. rewrite Hn.
  destruct (ckeys_cpop m _ k b Hd Hn) as [Hi He]. cbn. rewrite He.
  split; [exact Hi|]. split; [apply NoDup_remove1, Hd|]. split; [intros x; apply In_remove1_iff, Hd|].
  apply (clock_del_range k m); [exact Hi|exact He|]. unfold clock_range. lia.
Qed.

Lemma clock_scan_spec fuel : forall m hand, NoDup (ckeys m) -> 0 <= hand < zlen m ->
  clock_post m (clock_scan fuel m hand).
Proof.
  induction fuel as [|f IH]; intros m hand Hd Hr; cbn [clock_scan].
  - apply clock_pop_spec; assumption.
  - destruct (nth_error_in_range m hand Hr) as [[k b] Hn]. rewrite Hn. destruct b.
    + assert (H1 : NoDup (ckeys (cclear_at (Z.to_nat hand) m))) by (rewrite ckeys_cclear_at; exact Hd).
      assert (H2 : 0 <= (hand + 1) mod zlen m < zlen (cclear_at (Z.to_nat hand) m)).
      { rewrite zlen_cclear_at. apply Z.mod_pos_bound. lia. }
      specialize (IH _ _ H1 H2). unfold clock_post in *.
      destruct (clock_scan f (cclear_at (Z.to_nat hand) m) ((hand + 1) mod zlen m)) as [[k'|] [m' h']]; [|exact IH].
      rewrite ckeys_cclear_at in IH. exact IH.
    + apply clock_pop_spec; assumption.
Qed.

Definition clock_ok : policy_ok clockp.
Proof.
  refine {| p_inv := fun s : PS clockp => NoDup (ckeys (fst s)) /\ clock_range (fst s) (snd s) |}; cbn.
  - split; [split; [constructor|exact clock_range_nil]|reflexivity].
  - tauto.
  - intros k [m h] [Hd Hr]. cbn [fst snd] in *. destruct (cmem k m); cbn [fst snd]; [|tauto].
    rewrite ckeys_cset. split; [split; [exact Hd|]|tauto].
    apply (clock_range_len m); [apply zlen_cset|exact Hr].
  - intros _ k [m h] [Hd Hr] Hn. cbn [fst snd] in *. destruct (cmem k m) eqn:E; [apply cmem_In in E; tauto|].
    cbn [fst snd]. unfold ckeys. rewrite map_app. fold (ckeys m). cbn [map fst]. split.
    + split; [apply NoDup_snoc; assumption|].
      unfold clock_range in *. rewrite zlen_app. pose proof (zlen_nonneg [(k, true)]). lia.
    + intros x. apply In_snoc.
  - intros k [m h] [Hd Hr]. cbn [fst snd] in *. destruct (cmem k m) eqn:E; cbn [fst snd].
    + apply cmem_In in E. rewrite ckeys_cdel. split; [split|]; [apply NoDup_remove1, Hd| |intros x; apply In_remove1_iff, Hd].
      apply (clock_del_range k m); [exact E|apply ckeys_cdel|exact Hr].
    + apply zmem_false in E. split; [split; assumption|]. intros x. split; [|tauto].
      intros Hx. split; [exact Hx|]. intros ->. tauto.
  - intros _ dr [m h] [Hd Hr]. cbn [fst snd] in *. unfold clock_evict. cbn [fst snd].
    destruct m as [|p m]; [cbn; auto|]. remember (p :: m) as mm eqn:Hmm.
    assert (Hpos : 0 <= h < zlen mm).
    { unfold clock_range in Hr. assert (0 < zlen mm) by (rewrite Hmm; unfold zlen; cbn; lia). lia. }
    pose proof (clock_scan_spec (2 * length mm) mm h Hd Hpos) as Hs. unfold clock_post in Hs.
    destruct (clock_scan (2 * length mm) mm h) as [[k|] [m' h']]; [|destruct Hs].
    cbn. tauto.
  - intros _. split; [split; [constructor|exact clock_range_nil]|reflexivity].
Defined.

Definition all_policies_ok (k : pkind) : policy_ok (pol_of k) :=
  match k with
  | KLru => lru_ok | KLfu => lfu_ok | KTtl t => ttl_ok t | KFifo => fifo_ok | KRandom => random_ok
  | KSlru => slru_ok | KSampled n => sampled_ok n | KClock => clock_ok | KTwoQ => twoq_ok
  end.
