(** C08 — what one push or one pop does to a queue policy of C08/Model.v: the
    ids held ([pol_ids]), the reported length ([pol_len]), well-formedness
    ([pol_wf]).  Each sub-operation gets one exact description ([*_split]);
    counts and lengths are read off it. *)
From HS Require Import Base.Prelude C08.Model.
Local Open Scope Z_scope.

Lemma cnt_app x a b : cnt x (a ++ b) = cnt x a + cnt x b.
Proof. induction a as [|y a IH]; cbn; [reflexivity|]. rewrite IH. lia. Qed.

Lemma cnt_nonneg x l : 0 <= cnt x l.
Proof. induction l as [|y l IH]; cbn; [lia|]. destruct (x =? y); lia. Qed.

Lemma cnt_in x l : 0 < cnt x l <-> In x l.
Proof.
  induction l as [|y l IH]; cbn; [split; [lia|tauto]|].
  destruct (x =? y) eqn:E.
  - apply Z.eqb_eq in E. subst. pose proof (cnt_nonneg y l). split; [auto|lia].
  - apply Z.eqb_neq in E. rewrite Z.add_0_l, IH. split; [auto|]. intros [H|H]; [congruence|auto].
Qed.

Lemma cnt_nodup x l : NoDup l -> cnt x l <= 1.
Proof.
  induction 1 as [|y l Hn _ IH]; cbn; [lia|].
  destruct (x =? y) eqn:E; [|lia].
  apply Z.eqb_eq in E. subst.
  assert (~ 0 < cnt y l) by (rewrite cnt_in; exact Hn).
  pose proof (cnt_nonneg y l). lia.
Qed.

Lemma zlen_app {A} (a b : list A) : zlen (a ++ b) = zlen a + zlen b.
Proof. unfold zlen. rewrite app_length. lia. Qed.

Lemma zlen_cons {A} (a : A) l : zlen (a :: l) = 1 + zlen l.
Proof. unfold zlen. cbn [length]. lia. Qed.

Lemma zlen_nil {A} : zlen (@nil A) = 0.
Proof. reflexivity. Qed.

Lemma zlen_nonneg {A} (l : list A) : 0 <= zlen l.
Proof. unfold zlen. lia. Qed.

Lemma zlen_map {A B} (f : A -> B) l : zlen (map f l) = zlen l.
Proof. unfold zlen. now rewrite map_length. Qed.

Lemma zlen_nil_iff {A} (l : list A) : zlen l = 0 <-> l = [].
Proof. destruct l; unfold zlen; cbn; split; intros; try reflexivity; try discriminate; lia. Qed.

Lemma zlen_snoc {A} (l : list A) x : zlen (l ++ [x]) = zlen l + 1.
Proof. rewrite zlen_app. reflexivity. Qed.

(** The models tell a refusal by comparing a counter before and after. *)
Lemma eqb_succ n : (n =? n + 1) = false.
Proof. apply Z.eqb_neq. lia. Qed.

Lemma Forall_mid {A} (P : A -> Prop) a x y b : (P x -> P y) -> Forall P (a ++ x :: b) -> Forall P (a ++ y :: b).
Proof.
  intros Hxy H. apply Forall_app in H as [Ha H]. apply Forall_cons_iff in H as [Hx Hb].
  apply Forall_app. split; [exact Ha|]. constructor; auto.
Qed.

Definition eids (h : list entry) : list Z := map (fun e : entry => iid (snd e)) h.

Lemma ins_split k o it h : exists a b, h = a ++ b /\ ins k o it h = a ++ (k, o, it) :: b.
Proof.
  induction h as [|e h (a & b & Hh & Hi)]; cbn [ins]; [exists [], []; split; reflexivity|].
  destruct (entry_ltb k o e); [exists [], (e :: h); split; reflexivity|].
  exists (e :: a), b. cbn [app]. rewrite Hi, <- Hh. split; reflexivity.
Qed.

Lemma zlen_ins k o it h : zlen (ins k o it h) = 1 + zlen h.
Proof. destruct (ins_split k o it h) as (a & b & -> & ->). rewrite !zlen_app, zlen_cons. lia. Qed.

Lemma dl_pop_split now h :
  let '(h', res, ex) := dl_pop now h in
  exists pre, ex = map (A:=entry) snd pre /\ Forall (fun e : entry => fst (fst e) < now) pre /\
    match res with
    | Some it => exists k o, now <= k /\ h = pre ++ (k, o, it) :: h'
    | None => h = pre /\ h' = []
    end.
Proof.
  induction h as [|[[k o] it] h IH]; cbn [dl_pop]; [exists []; repeat split; constructor|].
  destruct (k <? now) eqn:E.
  - destruct (dl_pop now h) as [[h' res] ex]. destruct IH as (pre & -> & Hp & Hr).
    exists ((k, o, it) :: pre). split; [reflexivity|]. split; [constructor; [cbn; lia|exact Hp]|].
    destruct res as [it'|].
    + destruct Hr as (k' & o' & Hk & ->). exists k', o'. split; [exact Hk|reflexivity].
    + destruct Hr as [-> ->]. split; reflexivity.
  - exists []. split; [reflexivity|]. split; [constructor|]. exists k, o. split; [lia|reflexivity].
Qed.

Lemma eids_map_snd pre : map iid (map (A:=entry) snd pre) = eids pre.
Proof. apply map_map. Qed.

Definition fids (fl : flows) : list Z := flat_map (fun p : Z * list item => map iid (snd p)) fl.

Lemma fids_app a b : fids (a ++ b) = fids a ++ fids b.
Proof. apply flat_map_app. Qed.

Lemma fids_cons g l fl : fids ((g, l) :: fl) = map iid l ++ fids fl.
Proof. reflexivity. Qed.

Lemma fids_empty pre : Forall (fun p : Z * list item => snd p = []) pre -> fids pre = [].
Proof. induction 1 as [|[g l] pre Hl _ IH]; [reflexivity|]. cbn [snd] in Hl. now rewrite fids_cons, Hl, IH. Qed.

Lemma fl_find_split f it fl l : fl_find f fl = Some l ->
  exists a b, fl = a ++ (f, l) :: b /\ fl_append f it fl = a ++ (f, l ++ [it]) :: b.
Proof.
  induction fl as [|[g l'] fl IH]; cbn [fl_find fl_append]; [discriminate|].
  destruct (f =? g) eqn:E.
  - intros [= ->]. apply Z.eqb_eq in E as ->. exists [], fl. split; reflexivity.
  - intros H. destruct (IH H) as (a & b & -> & ->). exists ((g, l') :: a), b. split; reflexivity.
Qed.

Lemma fair_pop_split fl rm :
  let '(fl', res, _) := fair_pop fl rm in
  exists pre, Forall (fun p : Z * list item => snd p = []) pre /\
    match res with
    | Some it => exists g l post, fl = pre ++ (g, it :: l) :: post /\
                   fl' = post ++ match l with [] => [] | _ => [(g, l)] end
    | None => fl = pre /\ fl' = []
    end.
Proof.
  revert rm. induction fl as [|[g l] fl IH]; intros rm; cbn [fair_pop]; [exists []; repeat split; constructor|].
  destruct l as [|it l].
  - specialize (IH (rm + 1)). destruct (fair_pop fl (rm + 1)) as [[fl' res] rm'].
    destruct IH as (pre & Hp & Hr). exists ((g, []) :: pre). split; [now constructor|].
    destruct res as [it|].
    + destruct Hr as (g' & l' & post & -> & ->). exists g', l', post. split; reflexivity.
    + destruct Hr as [-> ->]. split; reflexivity.
  - destruct l as [|it2 l]; exists []; (split; [constructor|]).
    + exists g, [], fl. rewrite app_nil_r. split; reflexivity.
    + exists g, (it2 :: l), fl. split; reflexivity.
Qed.

Definition wids (fl : list wflow) : list Z := flat_map (fun w => map iid (wf_q w)) fl.

Lemma wids_app a b : wids (a ++ b) = wids a ++ wids b.
Proof. apply flat_map_app. Qed.

Lemma wids_cons w r : wids (w :: r) = map iid (wf_q w) ++ wids r.
Proof. reflexivity. Qed.

Lemma wf_find_app f a b : wf_find f (a ++ b) = wf_find f a || wf_find f b.
Proof. induction a as [|w a IH]; cbn; [reflexivity|]. rewrite IH. now rewrite orb_assoc. Qed.

Lemma wf_find_split f it fl : wf_find f fl = true ->
  exists a w b, fl = a ++ w :: b /\ wf_qlen f fl = zlen (wf_q w) /\
    wf_append f it fl = a ++ MkWF (wf_id w) (wf_q w ++ [it]) (wf_w w) (wf_cr w) :: b.
Proof.
  induction fl as [|w fl IH]; cbn [wf_find wf_qlen wf_append]; [discriminate|].
  destruct (f =? wf_id w); cbn [orb]; [exists [], w, fl; repeat split|].
  intros H. destruct (IH H) as (a & w' & b & -> & -> & ->). exists (w :: a), w', b. repeat split.
Qed.

Definition wf_ok (w : wflow) : Prop := 1 <= wf_cr w /\ 1 <= wf_w w.

Lemma wf_append_ok f it fl : wf_find f fl = true -> Forall wf_ok fl -> Forall wf_ok (wf_append f it fl).
Proof.
  intros H. destruct (wf_find_split f it fl H) as (a & w & b & -> & _ & ->). apply Forall_mid. exact (fun H => H).
Qed.

Lemma wf_create f w fl :
  let fl1 := if negb (wf_find f fl) then fl ++ [MkWF f [] w w] else fl in
  wf_find f fl1 = true /\ wids fl1 = wids fl /\
  forall P : wflow -> Prop, P (MkWF f [] w w) -> Forall P fl -> Forall P fl1.
Proof.
  destruct (wf_find f fl) eqn:E; cbn [negb]; [auto|].
  split; [rewrite wf_find_app, E; cbn; now rewrite Z.eqb_refl|].
  split; [rewrite wids_app; apply app_nil_r|]. intros P Hn Hf. apply Forall_app. auto.
Qed.

(** [wfq_pop] only ever drops the head item of a flow, resets a flow's credits to
    its weight or leaves them positive, and reorders or removes flows. *)
Lemma wfq_pop_Forall (P : wflow -> Prop) :
  (forall w c, P w -> c = wf_w w \/ 1 <= c -> P (MkWF (wf_id w) (wf_q w) (wf_w w) c)) ->
  (forall w it l, wf_q w = it :: l -> P w -> P (MkWF (wf_id w) l (wf_w w) (wf_cr w))) ->
  forall fuel fl rm, Forall P fl -> let '(fl', _, _) := wfq_pop fuel fl rm in Forall P fl'.
Proof.
  intros Hc Hq. induction fuel as [|fuel IH]; intros fl rm Hall; cbn [wfq_pop]; [exact Hall|].
  destruct Hall as [|w r Hw Hr]; [constructor|].
  destruct (wf_q w) as [|it l] eqn:Eq.
  - destruct r as [|w2 r2]; [constructor|]. apply IH, Hr.
  - destruct (0 <? wf_cr w).
    + destruct l as [|it2 l]; [exact Hr|].
      assert (Hw' : P (MkWF (wf_id w) (it2 :: l) (wf_w w) (if wf_cr w - 1 <=? 0 then wf_w w else wf_cr w - 1))).
      { apply (Hc (MkWF (wf_id w) (it2 :: l) (wf_w w) (wf_cr w))); [exact (Hq w it _ Eq Hw)|].
        cbn [wf_w]. destruct (wf_cr w - 1 <=? 0) eqn:E; [now left|right; lia]. }
      destruct (wf_cr w - 1 <=? 0); [apply Forall_app; split; [exact Hr|constructor; [exact Hw'|constructor]]|now constructor].
    + apply IH, Forall_app. split; [exact Hr|]. constructor; [|constructor]. rewrite <- Eq. apply Hc; auto.
Qed.

Lemma wfq_pop_ok fuel fl rm : Forall wf_ok fl -> let '(fl', _, _) := wfq_pop fuel fl rm in Forall wf_ok fl'.
Proof. apply wfq_pop_Forall; unfold wf_ok; cbn; intros; lia. Qed.

Lemma wfq_pop_none fuel : forall fl rm, Forall wf_ok fl -> (length fl <= fuel)%nat ->
  let '(_, res, _) := wfq_pop fuel fl rm in res = None -> wids fl = [].
Proof.
  induction fuel as [|fuel IH]; intros fl rm Hok Hlen; cbn [wfq_pop].
  - destruct fl; [reflexivity|cbn in Hlen; lia].
  - destruct Hok as [|w r [Hc _] Hr]; [reflexivity|]. rewrite wids_cons.
    destruct (wf_q w) as [|it l].
    + destruct r as [|w2 r2]; [reflexivity|]. apply IH; [exact Hr|cbn [length] in *; lia].
    + replace (0 <? wf_cr w) with true by lia. destruct l; [discriminate|]. destruct (wf_cr w - 1 <=? 0); discriminate.
Qed.

(** The ledger facts below hold of every measure of id lists that adds over
    [++]; counting one id ([cnt x], by [cnt_app]) and the length ([zlen], by
    [zlen_app]) are the two instances used. *)
Definition additive (m : list Z -> Z) : Prop := forall a b, m (a ++ b) = m a + m b.

Section Additive.
Variable m : list Z -> Z.
Hypothesis Hm : additive m.

Lemma additive_nil : m [] = 0.
Proof. pose proof (Hm [] []) as E. cbn [app] in E. lia. Qed.

Lemma additive_cons y l : m (y :: l) = m [y] + m l.
Proof. exact (Hm [y] l). Qed.

Lemma additive_snoc l y : m (l ++ [y]) = m [y] + m l.
Proof. rewrite Hm. lia. Qed.

Lemma ids_snoc l it : m (map iid (l ++ [it])) = m [iid it] + m (map iid l).
Proof. rewrite map_app. apply additive_snoc. Qed.

Lemma ins_ids k o it h : m (eids (ins k o it h)) = m [iid it] + m (eids h).
Proof.
  destruct (ins_split k o it h) as (a & b & -> & ->). unfold eids.
  rewrite !map_app, !Hm. cbn [map snd]. rewrite (additive_cons (iid it) _). lia.
Qed.

Lemma dl_pop_ids now h :
  let '(h', res, ex) := dl_pop now h in
  m (eids h) = m (eids h') + m (map iid ex) + match res with Some it => m [iid it] | None => 0 end
  /\ (res = None -> h' = []).
Proof.
  pose proof (dl_pop_split now h) as S. destruct (dl_pop now h) as [[h' res] ex].
  destruct S as (pre & -> & _ & S). rewrite eids_map_snd. unfold eids.
  destruct res as [it|].
  - destruct S as (k & o & _ & ->). split; [|discriminate].
    rewrite map_app, Hm. cbn [map snd]. rewrite (additive_cons (iid it) _). lia.
  - destruct S as [-> ->]. split; [|reflexivity]. cbn [map]. rewrite additive_nil. lia.
Qed.

Lemma fl_append_ids f it fl l : fl_find f fl = Some l ->
  m (fids (fl_append f it fl)) = m [iid it] + m (fids fl).
Proof.
  intros H. destruct (fl_find_split f it fl l H) as (a & b & -> & ->).
  rewrite !fids_app, !fids_cons, map_app, !Hm. cbn [map]. lia.
Qed.

Lemma fair_pop_ids fl rm :
  let '(fl', res, _) := fair_pop fl rm in
  m (fids fl) = m (fids fl') + match res with Some it => m [iid it] | None => 0 end
  /\ (res = None -> fids fl = []).
Proof.
  pose proof (fair_pop_split fl rm) as S. destruct (fair_pop fl rm) as [[fl' res] rm'].
  destruct S as (pre & Hp & S). apply fids_empty in Hp. destruct res as [it|].
  - destruct S as (g & l & post & -> & ->). split; [|discriminate].
    rewrite !fids_app, Hp, fids_cons. cbn [map app]. rewrite (additive_cons (iid it) _), !Hm.
    destruct l; [cbn; rewrite additive_nil|rewrite fids_cons, app_nil_r]; lia.
  - destruct S as [-> ->]. split; [cbn; rewrite Hp, additive_nil; lia|auto].
Qed.

Lemma wf_append_ids f it fl : wf_find f fl = true ->
  m (wids (wf_append f it fl)) = m [iid it] + m (wids fl).
Proof.
  intros H. destruct (wf_find_split f it fl H) as (a & w & b & -> & _ & ->).
  rewrite !wids_app, !wids_cons. cbn [wf_q]. rewrite map_app, !Hm. cbn [map]. lia.
Qed.

Lemma wfq_pop_ids : forall fuel fl rm,
  let '(fl', res, _) := wfq_pop fuel fl rm in
  m (wids fl) = m (wids fl') + match res with Some it => m [iid it] | None => 0 end.
Proof.
  pose proof additive_nil as Hn.
  induction fuel as [|fuel IH]; intros fl rm; cbn [wfq_pop]; [lia|].
  destruct fl as [|w r]; [lia|]. rewrite wids_cons, Hm.
  destruct (wf_q w) as [|it l] eqn:Eq; cbn [map].
  - destruct r as [|w2 r2]; [cbn; lia|].
    specialize (IH (w2 :: r2) (rm + 1)). destruct (wfq_pop fuel (w2 :: r2) (rm + 1)) as [[fl' res] rm']. lia.
  - rewrite (additive_cons (iid it) _). destruct (0 <? wf_cr w).
    + destruct l as [|it2 l]; [cbn [map]; lia|].
      destruct (wf_cr w - 1 <=? 0); rewrite ?wids_app, !wids_cons, ?Hm; cbn [wf_q wids flat_map]; lia.
    + specialize (IH (r ++ [MkWF (wf_id w) (it :: l) (wf_w w) (wf_w w)]) rm).
      destruct (wfq_pop fuel _ rm) as [[fl' res] rm']. rewrite <- IH, wids_app, wids_cons, !Hm.
      cbn [wf_q map wids flat_map]. rewrite (additive_cons (iid it) (map iid l)). lia.
Qed.

End Additive.

Lemma pol_ids_eids_prio cap ctr h : pol_ids (PPrio cap ctr h) = eids h.
Proof. reflexivity. Qed.

Fixpoint pol_wf (s : pol) : Prop :=
  match s with
  | PFair _ _ fl total _ => total = zlen (fids fl)
  | PWfq _ _ fl total _ => total = zlen (wids fl) /\ Forall wf_ok fl
  | PBalk _ _ i => pol_wf i
  | _ => True
  end.

Definition push_effect (it : item) (s s' : pol) (ok : bool) : Prop :=
  (forall m, additive m -> m (pol_ids s') = (if ok then m [iid it] else 0) + m (pol_ids s))
  /\ pol_len s' = pol_len s + (if ok then 1 else 0)
  /\ (pol_wf s -> pol_wf s').

Lemma push_refused it s s' :
  pol_ids s' = pol_ids s -> pol_len s' = pol_len s -> (pol_wf s -> pol_wf s') -> push_effect it s s' false.
Proof. intros Hi Hl Hw. split; [now rewrite Hi|]. split; [lia|exact Hw]. Qed.

Lemma pol_push_spec balk it s : let '(s', ok) := pol_push balk it s in push_effect it s s' ok.
Proof.
  induction s as [cap l|cap l|cap ctr h|cap ctr h st|maxf pfc fl total st|cap pfc fl total st|thr b i IH|rcap l st|cap l sched st|athr cap l wasc st];
    cbn [pol_push].
  - destruct (cap_full cap (zlen l)); [apply push_refused; auto|].
    split; [intros m Hm; apply (ids_snoc m Hm)|]. split; [apply zlen_snoc|auto].
  - destruct (cap_full cap (zlen l)); [apply push_refused; auto|].
    split; [intros m Hm; apply (additive_cons m Hm)|]. split; [cbn [pol_len]; rewrite zlen_cons; lia|auto].
  - destruct (cap_full cap (zlen h)); [apply push_refused; auto|].
    split; [intros m Hm; apply (ins_ids m Hm)|]. split; [cbn [pol_len]; rewrite zlen_ins; lia|auto].
  - destruct (cap_full cap (zlen h)); [apply push_refused; auto|].
    split; [intros m Hm; apply (ins_ids m Hm)|]. split; [cbn [pol_len]; rewrite zlen_ins; lia|auto].
  - destruct (fl_find (iflow it) fl) as [l|] eqn:Ef.
    + destruct (cap_full pfc (zlen l)); [apply push_refused; auto|].
      assert (Hi : forall m, additive m -> m (fids (fl_append (iflow it) it fl)) = m [iid it] + m (fids fl))
        by (intros m Hm; exact (fl_append_ids m Hm _ it _ _ Ef)).
      split; [exact Hi|]. split; [reflexivity|]. cbn [pol_wf]. intros ->. rewrite (Hi _ (@zlen_app Z)). apply Z.add_comm.
    + destruct (cap_full maxf (zlen fl)); [apply push_refused; auto|].
      destruct (cap_full pfc 0).
      * assert (Hi : fids (fl ++ [(iflow it, [])]) = fids fl) by (rewrite fids_app; apply app_nil_r).
        apply push_refused; [exact Hi|reflexivity|cbn [pol_wf]; now rewrite Hi].
      * assert (Hi : forall m, additive m -> m (fids (fl ++ [(iflow it, [it])])) = m [iid it] + m (fids fl))
          by (intros m Hm; rewrite fids_app; apply (additive_snoc m Hm)).
        split; [exact Hi|]. split; [reflexivity|]. cbn [pol_wf]. intros ->. rewrite (Hi _ (@zlen_app Z)). apply Z.add_comm.
  - destruct (cap_full cap total); [apply push_refused; auto|].
    destruct (wf_create (iflow it) (if iw it <? 1 then 1 else iw it) fl) as (Hf & Hi & Hall). cbv zeta.
    set (fl1 := if negb (wf_find (iflow it) fl) then _ else fl) in *.
    assert (Hok : pol_wf (PWfq cap pfc fl total st) -> total = zlen (wids fl1) /\ Forall wf_ok fl1).
    { intros [-> Hok]. split; [now rewrite Hi|]. apply Hall; [|exact Hok]. unfold wf_ok. cbn. destruct (iw it <? 1) eqn:E; lia. }
    destruct (cap_full pfc (wf_qlen (iflow it) fl1)).
    + apply push_refused; [cbn [pol_ids]; fold (wids fl1); fold (wids fl); exact Hi|reflexivity|exact Hok].
    + assert (Ha : forall m, additive m -> m (wids (wf_append (iflow it) it fl1)) = m [iid it] + m (wids fl))
        by (intros m Hm; rewrite <- Hi; exact (wf_append_ids m Hm _ it _ Hf)).
      split; [exact Ha|]. split; [reflexivity|]. intros Hw. destruct (Hok Hw) as [-> Hok1]. cbn [pol_wf].
      split; [rewrite (Ha _ (@zlen_app Z)), Hi; apply Z.add_comm|now apply wf_append_ok].
  - destruct ((thr <=? pol_len i) && balk); [apply push_refused; auto|].
    destruct (pol_push balk it i) as [i' ok]. exact IH.
  - destruct (rcap <=? zlen l); [apply push_refused; auto|]. destruct balk; [apply push_refused; auto|].
    split; [intros m Hm; apply (ids_snoc m Hm)|]. split; [apply zlen_snoc|auto].
  - destruct (cap_full cap (zlen l)); [apply push_refused; auto|].
    split; [intros m Hm; apply (ids_snoc m Hm)|]. split; [apply zlen_snoc|auto].
  - destruct (cap_full cap (zlen l)); [apply push_refused; auto|].
    split; [intros m Hm; apply (ids_snoc m Hm)|]. split; [apply zlen_snoc|auto].
Qed.

Definition pop_effect (s s' : pol) (res : option item) (ex : list item) : Prop :=
  (forall m, additive m ->
     m (pol_ids s) = m (pol_ids s') + m (map iid ex) + match res with Some it => m [iid it] | None => 0 end)
  /\ pol_len s = pol_len s' + zlen ex + match res with Some _ => 1 | None => 0 end
  /\ (pol_wf s -> pol_wf s' /\ (res = None -> pol_len s' = 0)).

Lemma pop_plain s s' res :
  (forall m, additive m -> m (pol_ids s) = m (pol_ids s') + match res with Some it => m [iid it] | None => 0 end) ->
  pol_len s = pol_len s' + match res with Some _ => 1 | None => 0 end ->
  (pol_wf s -> pol_wf s' /\ (res = None -> pol_len s' = 0)) ->
  pop_effect s s' res [].
Proof.
  intros Hi Hl Hw. split; [intros m Hm; cbn [map]; rewrite (additive_nil _ Hm), (Hi m Hm); lia|].
  split; [cbn; lia|exact Hw].
Qed.

Lemma pop_nothing s : (pol_wf s -> pol_len s = 0) -> pop_effect s s None [].
Proof. intros H. apply pop_plain; [intros; lia|lia|auto]. Qed.

Lemma pop_first s s' it :
  pol_ids s = iid it :: pol_ids s' -> pol_len s = 1 + pol_len s' -> (pol_wf s -> pol_wf s') ->
  pop_effect s s' (Some it) [].
Proof.
  intros Hi Hl Hw. apply pop_plain; [intros m Hm; rewrite Hi, (additive_cons _ Hm); lia|lia|].
  split; [auto|discriminate].
Qed.

Lemma pol_pop_spec now s : let '(s', res, ex) := pol_pop now s in pop_effect s s' res ex.
Proof.
  induction s as [cap l|cap l|cap ctr h|cap ctr h st|maxf pfc fl total st|cap pfc fl total st|thr b i IH|rcap l st|cap l sched st|athr cap l wasc st];
    cbn [pol_pop].
  - destruct l as [|it r]; [apply pop_nothing; auto|]. apply pop_first; [reflexivity|apply zlen_cons|auto].
  - destruct l as [|it r]; [apply pop_nothing; auto|]. apply pop_first; [reflexivity|apply zlen_cons|auto].
  - destruct h as [|[[k o] it] r]; [apply pop_nothing; auto|]. apply pop_first; [reflexivity|apply zlen_cons|auto].
  - pose proof (fun m Hm => dl_pop_ids m Hm now h) as Hi. destruct (dl_pop now h) as [[h' res] ex].
    destruct (Hi _ (@zlen_app Z)) as [Hl Hn]. unfold eids in Hl. rewrite !zlen_map in Hl.
    split; [intros m Hm; apply (Hi m Hm)|]. split; [destruct res; exact Hl|]. intros _. split; [exact I|].
    intros E. cbn [pol_len]. now rewrite (Hn E).
  - pose proof (fun m Hm => fair_pop_ids m Hm fl 0) as Hi. destruct (fair_pop fl 0) as [[fl' res] rm].
    destruct (Hi _ (@zlen_app Z)) as [Hl Hn].
    destruct res as [it|]; (apply pop_plain; [intros m Hm; apply (Hi m Hm)|cbn [pol_len]; lia|]);
      cbn [pol_wf pol_len]; intros ->.
    + split; [change (zlen [iid it]) with 1 in Hl; lia|discriminate].
    + split; [lia|]. intros _. now rewrite Hn.
  - destruct fl as [|w0 fl0]; [apply pop_nothing; now intros [-> _]|]. set (fl := w0 :: fl0).
    pose proof (fun m Hm => wfq_pop_ids m Hm (2 * length fl) fl 0) as Hi.
    pose proof (wfq_pop_ok (2 * length fl) fl 0) as Hok. pose proof (wfq_pop_none (2 * length fl) fl 0) as Hn.
    destruct (wfq_pop (2 * length fl) fl 0) as [[fl' res] rm]. pose proof (Hi _ (@zlen_app Z)) as Hl.
    destruct res as [it|]; (apply pop_plain; [exact Hi|cbn [pol_len]; lia|]);
      cbn [pol_wf pol_len]; intros [-> Hw]; (split; [split; [|exact (Hok Hw)]|]).
    + change (zlen [iid it]) with 1 in Hl. lia.
    + discriminate.
    + lia.
    + intros _. rewrite (Hn Hw); [reflexivity|lia|reflexivity].
  - destruct (pol_pop now i) as [[i' res] ex]. exact IH.
  - destruct l as [|it r]; [apply pop_nothing; auto|]. apply pop_first; [reflexivity|apply zlen_cons|auto].
  - destruct l as [|it r]; [apply pop_nothing; auto|].
    pose proof (firstn_skipn (Z.to_nat (hd 0 sched)) r) as E.
    set (a := firstn _ r) in *. set (b := skipn _ r) in *. clearbody a b. subst r.
    split; [intros m Hm; cbn [pol_ids map]|split; [cbn [pol_len]|cbn [pol_wf]; split; [auto|discriminate]]].
    + rewrite map_app, (additive_cons _ Hm), Hm. lia.
    + rewrite zlen_cons, zlen_app. lia.
  - destruct l as [|it0 l0]; [apply pop_nothing; auto|].
    destruct (athr <=? zlen (it0 :: l0)); [|apply pop_first; [reflexivity|apply zlen_cons|auto]].
    pose proof (@app_removelast_last _ (it0 :: l0) it0 ltac:(discriminate)) as E.
    set (a := removelast _) in *. set (y := last _ it0) in *. clearbody a y. rewrite E.
    split; [intros m Hm; cbn [pol_ids map]|split; [cbn [pol_len]|cbn [pol_wf]; split; [auto|discriminate]]].
    + rewrite map_app, (additive_nil _ Hm). cbn [map]. rewrite (additive_snoc _ Hm). lia.
    + rewrite zlen_snoc. cbn. lia.
Qed.

Lemma push_effect_of balk it s s' ok : pol_push balk it s = (s', ok) -> push_effect it s s' ok.
Proof. intros H. pose proof (pol_push_spec balk it s) as S. now rewrite H in S. Qed.

Lemma pop_effect_of now s s' res ex : pol_pop now s = (s', res, ex) -> pop_effect s s' res ex.
Proof. intros H. pose proof (pol_pop_spec now s) as S. now rewrite H in S. Qed.

(** For a well-formed policy the reported length is the number of ids held
    (the fair queues keep it in a counter of their own). *)
Lemma pol_len_ids : forall s, pol_wf s -> pol_len s = zlen (pol_ids s).
Proof.
  induction s; cbn [pol_len pol_wf pol_ids]; intros Hw; rewrite ?zlen_map; auto.
  now destruct Hw.
Qed.

Lemma len_nonneg s : pol_wf s -> 0 <= pol_len s.
Proof. intros Hw. rewrite (pol_len_ids s Hw). apply zlen_nonneg. Qed.
