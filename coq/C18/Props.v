(** Property C18 — the theorems the check counts as obligations. *)
From HS Require Import Base.Prelude Base.PyLib C18.Model C18.Causal C18.CRDT C18.VectorIff Gen.ClocksGen C18.GenTie C18.CodeSim C18.StoreModel C18.Store.
Local Open Scope Z_scope.

(** a -> b  ==>  Lamport(a) < Lamport(b), every well-formed history. *)
Theorem c18_lamport_causal : forall tr ts, stamps lamport tr = Some ts ->
  forall i j, hb tr i j -> forall ti tj,
  nth_error ts i = Some ti -> nth_error ts j = Some tj -> ti < tj.
Proof. apply (causal lamport Z.lt); cbn; intros; lia. Qed.
Print Assumptions c18_lamport_causal.

(** a -> b  ==>  HLC(a) < HLC(b), for ANY physical clock readings. *)
Theorem c18_hlc_causal : forall tr ts, stamps hlc tr = Some ts ->
  forall i j, hb tr i j -> forall ti tj,
  nth_error ts i = Some ti -> nth_error ts j = Some tj -> hlc_ltb ti tj = true.
Proof.
  apply (causal hlc (fun a b => hlc_ltb a b = true));
    [exact hlc_ltb_trans|exact hlc_now_lt|exact hlc_now_lt|intros; apply hlc_recv_lt..].
Qed.
Print Assumptions c18_hlc_causal.

(** Vector clocks order a before b EXACTLY WHEN a happened before b (both
    directions, every well-formed history). *)
Theorem c18_vector_iff : forall tr ts, stamps vector tr = Some ts ->
  forall i j ti tj, nth_error ts i = Some ti -> nth_error ts j = Some tj -> (vc_lt ti tj <-> hb tr i j).
Proof.
  intros tr ts H i j ti tj Hi Hj. split.
  - apply (vector_converse tr ts H i j ti tj Hi Hj).
  - intros Hhb. apply (vector_causal tr ts H i j Hhb ti tj Hi Hj).
Qed.
Print Assumptions c18_vector_iff.

Theorem c18_happened_before_decides : forall keys a b,
  (forall k, ~ In k keys -> a k = b k) -> vc_hbb keys a b = true <-> vc_lt a b.
Proof. exact vc_hbb_spec. Qed.
Print Assumptions c18_happened_before_decides.

Theorem c18_pn_merge_laws : forall a b c,
  pn_eq (pn_merge a b) (pn_merge b a) /\
  pn_eq (pn_merge (pn_merge a b) c) (pn_merge a (pn_merge b c)) /\
  pn_eq (pn_merge a a) a.
Proof. intros a b c. exact (conj (pn_merge_comm a b) (conj (pn_merge_assoc a b c) (pn_merge_idem a))). Qed.
Print Assumptions c18_pn_merge_laws.

(** Counter value = increments - decrements once a replica has merged every
    node's state, after any history of incs, decs, merges and delayed merges. *)
Theorem c18_counter_value : forall ops nodes r,
  pn_value nodes (reps (cnt_run (ops ++ map (CMerge r) nodes)) r) =
    zsum (map (fun k => incs_of k ops) nodes) - zsum (map (fun k => decs_of k ops) nodes).
Proof. intros ops nodes r. unfold cnt_run. rewrite fold_left_app. apply merge_all_value, cnt_run_sound. Qed.
Print Assumptions c18_counter_value.

Theorem c18_counter_bounded : forall ops,
  cnt_inv (cnt_run ops) (fun k => incs_of k ops) (fun k => decs_of k ops).
Proof. intros ops. apply cnt_sound_inv, cnt_run_sound. Qed.
Print Assumptions c18_counter_bounded.

Theorem c18_lww_merge_laws : forall a b c,
  (lww_consistent a b -> lww_merge a b = lww_merge b a) /\
  lww_merge (lww_merge a b) c = lww_merge a (lww_merge b c) /\
  lww_merge a a = a.
Proof. intros a b c. exact (conj (lww_merge_comm a b) (conj (lww_merge_assoc a b c) (lww_merge_idem a))). Qed.
Print Assumptions c18_lww_merge_laws.

Theorem c18_lww_holds_greatest : forall ws r0,
  match fold_left lww_apply ws r0 with
  | None => ws = [] /\ r0 = None
  | Some (t, v) =>
      (r0 = Some (t, v) \/ In (v, t) ws) /\
      (forall v' t', In (v', t') ws -> hlc_ltb t t' = false) /\
      (forall t0 v0, r0 = Some (t0, v0) -> hlc_ltb t t0 = false)
  end.
Proof. exact lww_holds_greatest. Qed.
Print Assumptions c18_lww_holds_greatest.

Theorem c18_orset_merge_laws : forall a b c p,
  (In p (os_ent (os_merge a b)) <-> In p (os_ent (os_merge b a))) /\
  (In p (os_ent (os_merge (os_merge a b) c)) <-> In p (os_ent (os_merge a (os_merge b c)))) /\
  (In p (os_ent (os_merge a a)) <-> In p (os_ent a)).
Proof. intros a b c p. exact (conj (os_merge_comm a b p) (conj (os_merge_assoc a b c p) (os_merge_idem a p))). Qed.
Print Assumptions c18_orset_merge_laws.

(** OR-set, full statement REFUTED on the faithful model (known finding
    C18-orset-resurrect); the partial direction that does hold. *)
Theorem c18_orset_add_wins_refuted : ~ orset_add_wins_statement.
Proof. intros H. specialize (H orset_witness 0 7). vm_compute in H. discriminate. Qed.
Print Assumptions c18_orset_add_wins_refuted.

Theorem c18_orset_no_lost_add_partial : forall ops r e,
  sp_contains e (sreps (os_run ops) r) = true -> os_contains e (oreps (os_run ops) r) = true.
Proof.
  intros ops r e. destruct (os_run_inv ops r) as [[_ A2] _]. unfold sp_contains.
  intros H. apply existsb_exists in H as [[e' t] [Hin Hc]]. cbn in Hc.
  apply andb_true_iff in Hc as [He Hn]. apply Z.eqb_eq in He. subst e'.
  apply os_contains_spec. exists t. apply A2; [exact Hin|].
  intros Hm. apply ent_mem_spec in Hm. rewrite Hm in Hn. discriminate.
Qed.
Print Assumptions c18_orset_no_lost_add_partial.

(** Clock algebras assembled from the translated methods of LamportClock,
    HybridLogicalClock / HLCTimestamp.__lt__ and VectorClock satisfy causality
    (vector clocks: both directions) on every well-formed history. *)
Theorem c18_code_lamport_causal : forall tr ts, stamps lamport_code tr = Some ts ->
  forall i j, hb tr i j -> forall ti tj,
  nth_error ts i = Some ti -> nth_error ts j = Some tj -> ti < tj.
Proof.
  intros tr ts Hs i j Hhb ti tj Hi Hj. destruct (lamport_code_sim tr ts Hs) as (tb & Eb & Hn).
  destruct (Hn i ti Hi) as (bi & Hbi & ->), (Hn j tj Hj) as (bj & Hbj & ->).
  exact (c18_lamport_causal tr tb Eb i j Hhb bi bj Hbi Hbj).
Qed.
Print Assumptions c18_code_lamport_causal.

Theorem c18_code_hlc_causal : forall tr ts, stamps hlc_code tr = Some ts ->
  forall i j, hb tr i j -> forall ti tj,
  nth_error ts i = Some ti -> nth_error ts j = Some tj -> HLCTimestamp___lt__ ti tj = true.
Proof.
  intros tr ts Hs i j Hhb ti tj Hi Hj. destruct (hlc_code_sim tr ts Hs) as (tb & Eb & Hn).
  destruct (Hn i ti Hi) as (bi & Hbi & Ei), (Hn j tj Hj) as (bj & Hbj & Ej).
  rewrite tie_hlcts_lt, Ei, Ej. exact (c18_hlc_causal tr tb Eb i j Hhb bi bj Hbi Hbj).
Qed.
Print Assumptions c18_code_hlc_causal.

Theorem c18_code_vector_iff : forall tr ts, stamps vector_code tr = Some ts ->
  forall i j ti tj, nth_error ts i = Some ti -> nth_error ts j = Some tj -> (dict_lt ti tj <-> hb tr i j).
Proof.
  intros tr ts Hs i j ti tj Hi Hj. destruct (vector_code_sim tr ts Hs) as (tb & Eb & Hn).
  destruct (Hn i ti Hi) as (bi & Hbi & _ & _ & Ei), (Hn j tj Hj) as (bj & Hbj & _ & _ & Ej).
  rewrite <- (c18_vector_iff tr tb Eb i j bi bj Hbi Hbj). unfold dict_lt.
  split; apply vc_lt_ext; auto.
Qed.
Print Assumptions c18_code_vector_iff.

(** The translated CRDT methods, read through the abstraction functions, are
    the model functions of the merge-law and convergence theorems above. *)
Theorem c18_code_gcounter_refines : forall s n a b,
  match GCounter_increment s n with
  | None => n < 1 /\ gc_inc (GCounter__node_id s) n (gc_abs s) = gc_abs s
  | Some (s', _) => 1 <= n /\ GCounter__node_id s' = GCounter__node_id s
                    /\ forall k, gc_abs s' k = gc_inc (GCounter__node_id s) n (gc_abs s) k
  end
  /\ (dwf (GCounter__counts b) = true -> dnonneg (GCounter__counts a) ->
      forall k, gc_abs (fst (GCounter_merge a b)) k = gc_merge (gc_abs a) (gc_abs b) k)
  /\ (dwf (GCounter__counts s) = true ->
      GCounter_value s = gc_value (map fst (GCounter__counts s)) (gc_abs s)).
Proof. intros s n a b. exact (conj (tie_gc_increment s n) (conj (tie_gc_merge a b) (tie_gc_value s))). Qed.
Print Assumptions c18_code_gcounter_refines.

Theorem c18_code_lww_refines : forall r v t a b,
  lww_abs (fst (LWWRegister_set r v t)) = lww_set v (ts_abs t) (lww_abs r)
  /\ lww_abs (fst (LWWRegister_merge a b)) = lww_merge (lww_abs a) (lww_abs b).
Proof. intros r v t a b. exact (conj (tie_lww_set r v t) (tie_lww_merge a b)). Qed.
Print Assumptions c18_code_lww_refines.

(** CRDTStore, counter keys (happysimulator/components/crdt/crdt_store.py: writes
    through get_or_create, gossip through _serialize_state / _merge_remote_state).
    Every replica object a store holds is credited to the store itself; a store
    that has pulled every node's state reports increments minus decrements, for
    every schedule of writes, sends and (delayed, duplicated, reordered) receives;
    with the new-key branch the code had before /repo c92c1df the value clause is
    false. *)
Theorem c18_store_replica_identity : forall ops s key r,
  sstores (st_run true ops) s key = Some r -> s_owner r = s.
Proof. exact store_replica_identity. Qed.
Print Assumptions c18_store_replica_identity.

Theorem c18_store_counter_value : forall ops nodes r key,
  st_value nodes (st_run true (ops ++ pull_all r nodes)) key r =
    zsum (map (fun k => sincs key k ops) nodes) - zsum (map (fun k => sdecs key k ops) nodes).
Proof. exact store_counter_value. Qed.
Print Assumptions c18_store_counter_value.

Theorem c18_store_unfixed_learn_refuted : ~ store_value_statement false.
Proof. exact store_unfixed_learn_refuted. Qed.
Print Assumptions c18_store_unfixed_learn_refuted.

(** pn_counter.py as regenerated: increment / decrement / merge / value are the
    model's PN-counter functions on the abstraction (the two inner G-counters read
    through [gc_abs]); ValueError for n < 1 is [None]. *)
Theorem c18_code_pncounter_refines : forall c n a b,
  match PNCounter_increment c n with
  | None => n < 1
  | Some (c', _) =>
      1 <= n /\ PNCounter__n c' = PNCounter__n c /\ PNCounter__node_id c' = PNCounter__node_id c
      /\ GCounter__node_id (PNCounter__p c') = GCounter__node_id (PNCounter__p c)
      /\ forall k, fst (pn_abs c') k = fst (pn_inc (GCounter__node_id (PNCounter__p c)) n (pn_abs c)) k
  end
  /\ match PNCounter_decrement c n with
     | None => n < 1
     | Some (c', _) =>
         1 <= n /\ PNCounter__p c' = PNCounter__p c /\ PNCounter__node_id c' = PNCounter__node_id c
         /\ GCounter__node_id (PNCounter__n c') = GCounter__node_id (PNCounter__n c)
         /\ forall k, snd (pn_abs c') k = snd (pn_dec (GCounter__node_id (PNCounter__n c)) n (pn_abs c)) k
     end
  /\ (dwf (GCounter__counts (PNCounter__p b)) = true -> dwf (GCounter__counts (PNCounter__n b)) = true ->
      dnonneg (GCounter__counts (PNCounter__p a)) -> dnonneg (GCounter__counts (PNCounter__n a)) ->
      forall k, fst (pn_abs (fst (PNCounter_merge a b))) k = fst (pn_merge (pn_abs a) (pn_abs b)) k
             /\ snd (pn_abs (fst (PNCounter_merge a b))) k = snd (pn_merge (pn_abs a) (pn_abs b)) k)
  /\ (dwf (GCounter__counts (PNCounter__p c)) = true -> dwf (GCounter__counts (PNCounter__n c)) = true ->
      PNCounter_value c = gc_value (map fst (GCounter__counts (PNCounter__p c))) (fst (pn_abs c))
                        - gc_value (map fst (GCounter__counts (PNCounter__n c))) (snd (pn_abs c))).
Proof.
  intros c n a b.
  exact (conj (tie_pn_increment c n) (conj (tie_pn_decrement c n)
        (conj (tie_pn_merge a b) (fun Wp Wn => proj1 (tie_pn_value c Wp Wn))))).
Qed.
Print Assumptions c18_code_pncounter_refines.

(** VectorClock.happened_before as regenerated from logical_clocks.py (a loop with
    break over a set union, whose iteration order is a parameter) decides the
    history's happened-before relation on the clocks' snapshots. *)
Theorem c18_code_happened_before_decides : forall tr ts, stamps vector_code tr = Some ts ->
  forall i j ti tj, nth_error ts i = Some ti -> nth_error ts j = Some tj ->
  forall a b order, VectorClock__vector a = ti -> VectorClock__vector b = tj ->
  (forall k, In k order <-> In k (VectorClock_happened_before_setiter_elems a b)) ->
  (VectorClock_happened_before a b order = true <-> hb tr i j).
Proof.
  intros tr ts Hs i j ti tj Hi Hj a b order Ea Eb Hord.
  rewrite (tie_vc_happened_before a b order Hord), Ea, Eb.
  exact (c18_code_vector_iff tr ts Hs i j ti tj Hi Hj).
Qed.
Print Assumptions c18_code_happened_before_decides.

(** The code's own [VectorClock.is_concurrent] (as regenerated: two evaluations of
    happened_before, each over its own arbitrary iteration order) is true exactly when
    neither event happened before the other. *)
Theorem c18_code_is_concurrent_decides : forall tr ts, stamps vector_code tr = Some ts ->
  forall i j ti tj, nth_error ts i = Some ti -> nth_error ts j = Some tj ->
  forall a b o1 o2, VectorClock__vector a = ti -> VectorClock__vector b = tj ->
  (forall k, In k o1 <-> In k (VectorClock_happened_before_setiter_elems a b)) ->
  (forall k, In k o2 <-> In k (VectorClock_happened_before_setiter_elems b a)) ->
  (VectorClock_is_concurrent a b o1 o2 = true <-> ~ hb tr i j /\ ~ hb tr j i).
Proof.
  intros tr ts Hs i j ti tj Hi Hj a b o1 o2 Ea Eb H1 H2. unfold VectorClock_is_concurrent.
  rewrite andb_true_iff, !negb_true_iff, <- !not_true_iff_false.
  rewrite (c18_code_happened_before_decides tr ts Hs i j ti tj Hi Hj a b o1 Ea Eb H1).
  rewrite (c18_code_happened_before_decides tr ts Hs j i tj ti Hj Hi b a o2 Eb Ea H2). reflexivity.
Qed.
Print Assumptions c18_code_is_concurrent_decides.

(** CRDTStore, all stores at once: after every store of a duplicate-free list has
    pulled every node's state, each of them reports increments minus decrements
    (hence they agree). *)
Theorem c18_store_all_converge : forall ops nodes key r, NoDup nodes -> In r nodes ->
  st_value nodes (st_run true (ops ++ pull_round nodes nodes)) key r =
    zsum (map (fun k => sincs key k ops) nodes) - zsum (map (fun k => sdecs key k ops) nodes).
Proof. exact store_all_converge. Qed.
Print Assumptions c18_store_all_converge.
