(** C19 — proofs about the MessageQueue step machine of C19/Model.v.

    Two things carry the file: the per-id ledger [acc] (where a message id can
    be, and how often), kept by every operation, and the short list of state
    components that almost no operation touches ([step_frame]) together with
    the one place where a delivery is emitted ([step_delivery]). *)
From HS Require Import Base.Prelude Base.Lists C19.Model C19.Lists.
Local Open Scope Z_scope.

Lemma cnt_cons x y l : cnt x (y :: l) = (if x =? y then 1 else 0) + cnt x l.
Proof. reflexivity. Qed.

Lemma mem_remall_same x l : mem x (remall x l) = false.
Proof. rewrite mem_remall, Z.eqb_refl. reflexivity. Qed.

Definition restated (s : mq) (mid st : Z) : Z -> msg :=
  upd (q_obj s) mid {| m_count := m_count (q_obj s mid); m_state := st; m_cons := m_cons (q_obj s mid) |}.

(** The outcomes of acknowledge, of the start of a delivery and of reject, named.
    [do_ack], [deliver_begin] and [do_reject] are these behind their tests, by
    computation ([do_ack_eq], [deliver_begin_eq], [do_reject_eq]); a proof splits
    on the tests while the records stay folded. *)
Definition settled (s1 : mq) (nack nrej : Z) (ackd dead : list Z) (ndead ndisc : Z) (dropped lost : list Z) : mq :=
  {| q_obj := q_obj s1; q_next := q_next s1; q_msgs := q_msgs s1; q_pending := q_pending s1;
     q_inflight := q_inflight s1; q_cons := q_cons s1; q_cidx := q_cidx s1; q_resched := q_resched s1;
     q_susp := q_susp s1; q_dead := dead;
     n_pub := n_pub s1; n_dlv := n_dlv s1; n_ack := nack; n_rej := nrej; n_redlv := n_redlv s1;
     n_dead := ndead; n_dlqdisc := ndisc;
     g_acked := ackd; g_dropped := dropped; g_dlqlost := lost; g_reproc := g_reproc s1; g_first := g_first s1 |}.

Definition acked (s : mq) (mid : Z) : mq :=
  settled (set_core s (restated s mid 2) (remall mid (q_msgs s)) (rem1 mid (q_pending s)) (remall mid (q_inflight s))
             (remall mid (q_resched s)))
          (n_ack s + 1) (n_rej s) (mid :: g_acked s) (q_dead s) (n_dead s) (n_dlqdisc s) (g_dropped s) (g_dlqlost s).

Lemma do_ack_eq s mid : do_ack s mid = if negb (mem mid (q_msgs s)) then s else acked s mid.
Proof. reflexivity. Qed.

Definition delivering (s : mq) (h mid : Z) : mq :=
  let c := nth_mod (q_cons s) (q_cidx s) in
  let k := m_count (q_obj s mid) + 1 in
  {| q_obj := upd (q_obj s) mid {| m_count := k; m_state := 1; m_cons := Some c |};
     q_next := q_next s; q_msgs := q_msgs s;
     q_pending := if mem mid (q_pending s) then rem1 mid (q_pending s) else q_pending s;
     q_inflight := addkey mid (q_inflight s);
     q_cons := q_cons s; q_cidx := q_cidx s + 1; q_resched := q_resched s;
     q_susp := (h, (mid, c)) :: q_susp s; q_dead := q_dead s;
     n_pub := n_pub s; n_dlv := if 1 <? k then n_dlv s else n_dlv s + 1;
     n_ack := n_ack s; n_rej := n_rej s;
     n_redlv := if 1 <? k then n_redlv s + 1 else n_redlv s;
     n_dead := n_dead s; n_dlqdisc := n_dlqdisc s;
     g_acked := g_acked s; g_dropped := g_dropped s; g_dlqlost := g_dlqlost s; g_reproc := g_reproc s;
     g_first := if 1 <? k then g_first s else g_first s ++ [mid] |}.

Lemma deliver_begin_eq s h mid :
  deliver_begin s h mid =
  if negb (mem mid (q_msgs s)) then (s, [ONone])
  else match q_cons s with [] => (s, [ONone]) | _ => (delivering s h mid, [OSuspend]) end.
Proof. reflexivity. Qed.

Definition rejected (s1 : mq) (dead : list Z) (ndead ndisc : Z) (dropped lost : list Z) : mq :=
  settled s1 (n_ack s1) (n_rej s1 + 1) (g_acked s1) dead ndead ndisc dropped lost.

Definition reject_requeue (s : mq) (mid : Z) : mq :=
  rejected (set_core s (restated s mid 0) (q_msgs s) (rem1 mid (q_pending s) ++ [mid]) (remall mid (q_inflight s)) (q_resched s))
           (q_dead s) (n_dead s) (n_dlqdisc s) (g_dropped s) (g_dlqlost s).

Definition reject_out (s : mq) (mid : Z) : mq :=
  set_core s (restated s mid 3) (remall mid (q_msgs s)) (rem1 mid (q_pending s)) (remall mid (q_inflight s))
           (remall mid (q_resched s)).

Definition reject_dead (cfg : mqcfg) (s : mq) (mid : Z) : mq :=
  let evict := dlq_full cfg (q_dead s) && negb (match q_dead s with [] => true | _ => false end) in
  rejected (reject_out s mid) ((if evict then tl (q_dead s) else q_dead s) ++ [mid]) (n_dead s + 1)
           (n_dlqdisc s + (if evict then 1 else 0)) (g_dropped s)
           ((if evict then firstn 1 (q_dead s) else []) ++ g_dlqlost s).

Definition reject_drop (s : mq) (mid : Z) : mq :=
  rejected (reject_out s mid) (q_dead s) (n_dead s) (n_dlqdisc s) (mid :: g_dropped s) (g_dlqlost s).

Lemma do_reject_eq cfg s mid rq :
  do_reject cfg s mid rq =
  if negb (mem mid (q_msgs s)) then s
  else if rq && (m_count (q_obj s mid) <? c_max cfg) then reject_requeue s mid
  else if c_dlq cfg then reject_dead cfg s mid else reject_drop s mid.
Proof. reflexivity. Qed.

Definition published (s : mq) (id : Z) : Z := if (0 <=? id) && (id <? q_next s) then 1 else 0.

Definition acc (s : mq) (id : Z) : Prop :=
  cnt id (q_pending s) + cnt id (q_inflight s) = cnt id (q_msgs s) /\
  cnt id (q_msgs s) + cnt id (g_acked s) + cnt id (q_dead s) + cnt id (g_dlqlost s) + cnt id (g_dropped s)
    + cnt id (g_reproc s) = published s id /\
  0 <= q_next s.

Lemma published_01 s id : 0 <= published s id <= 1.
Proof. unfold published. destruct (_ && _); lia. Qed.

Lemma published_lt s id : published s id = 1 -> 0 <= id < q_next s.
Proof. unfold published. destruct (_ && _) eqn:E; lia. Qed.

Lemma published_frame s' s id : q_next s' = q_next s -> published s' id = published s id.
Proof. unfold published. intros ->. reflexivity. Qed.

Lemma published_next s' s id : q_next s' = q_next s + 1 -> 0 <= q_next s ->
  published s' id = published s id + (if id =? q_next s then 1 else 0).
Proof.
  unfold published. intros -> H. destruct (Z.eqb_spec id (q_next s)) as [->|N].
  - replace (_ && _) with true by lia. replace (_ && _) with false by lia. reflexivity.
  - replace (id <? q_next s + 1) with (id <? q_next s) by lia. lia.
Qed.

Definition stored_once (s : mq) (id : Z) : Prop :=
  cnt id (q_msgs s) = 1 /\ published s id = 1 /\ 0 <= cnt id (q_pending s) /\ 0 <= cnt id (q_inflight s) /\
  cnt id (g_acked s) = 0 /\ cnt id (q_dead s) = 0 /\ cnt id (g_dlqlost s) = 0 /\ cnt id (g_dropped s) = 0 /\
  cnt id (g_reproc s) = 0.

Lemma acc_stored s id : acc s id -> In id (q_msgs s) -> stored_once s id.
Proof.
  intros (_ & H & _) HI. apply cnt_In in HI. pose proof (published_01 s id).
  pose proof (cnt_nonneg id (q_pending s)). pose proof (cnt_nonneg id (q_inflight s)).
  pose proof (cnt_nonneg id (g_acked s)). pose proof (cnt_nonneg id (q_dead s)).
  pose proof (cnt_nonneg id (g_dlqlost s)). pose proof (cnt_nonneg id (g_dropped s)).
  pose proof (cnt_nonneg id (g_reproc s)). unfold stored_once. lia.
Qed.

(** Reduces the components the ledger reads when the state is given by a record. *)
Ltac ledger_fields :=
  cbn [fst q_pending q_inflight q_msgs g_acked q_dead g_dlqlost g_dropped g_reproc q_next set_core
       acked delivering reject_requeue reject_dead reject_drop reject_out rejected settled].

Lemma acc_msgs_lt s id : acc s id -> In id (q_msgs s) -> 0 <= id < q_next s.
Proof. intros A HI. destruct (acc_stored s id A HI) as (_ & P & _). apply published_lt, P. Qed.

Lemma acc_pending_stored s id : acc s id -> In id (q_pending s) -> In id (q_msgs s).
Proof. intros (A1 & _) H. apply cnt_In in H. apply cnt_In. pose proof (cnt_nonneg id (q_inflight s)). lia. Qed.

Lemma acc_inflight_stored s id : acc s id -> In id (q_inflight s) -> In id (q_msgs s).
Proof. intros (A1 & _) H. apply cnt_In in H. apply cnt_In. pose proof (cnt_nonneg id (q_pending s)). lia. Qed.

Lemma acc_init id : acc mq_init id.
Proof. unfold acc, published. cbn. replace ((0 <=? id) && (id <? 0)) with false by lia. lia. Qed.

(** The sub-operations move the one occurrence of [mid] between classes and
    touch no other id: after rewriting the counts, [acc_stored] settles the case
    [id = mid] and the hypothesis is the goal in the other. *)
Lemma acc_ack s mid id : acc s id -> acc (do_ack s mid) id.
Proof.
  intros A. rewrite do_ack_eq. destruct (mem mid (q_msgs s)) eqn:E; cbn [negb]; [|exact A].
  apply mem_In in E. unfold acc.
  ledger_fields.
  rewrite (published_frame _ s) by reflexivity. rewrite !cnt_remall, cnt_rem1. cbn [cnt].
  destruct (Z.eqb_spec id mid) as [->|N]; cbn iota.
  - destruct (acc_stored s mid A E) as (S1 & S2 & S3 & S4 & S5 & S6 & S7 & S8 & S9). destruct A as (A1 & _ & A3). lia.
  - destruct A as (A1 & A2 & A3). lia.
Qed.

Lemma cnt_evict x (b : bool) l :
  cnt x (if b then tl l else l) + cnt x (if b then firstn 1 l else []) = cnt x l.
Proof. destruct b; [destruct l|]; cbn [tl firstn cnt]; lia. Qed.

Lemma acc_reject cfg s mid rq id : acc s id -> acc (do_reject cfg s mid rq) id.
Proof.
  intros A. rewrite do_reject_eq. destruct (mem mid (q_msgs s)) eqn:E; cbn [negb]; [|exact A].
  apply mem_In in E.
  assert (S : id = mid -> stored_once s id) by (intros ->; exact (acc_stored s mid A E)).
  (* when the dead-letter queue is full its head moves to the lost class *)
  pose proof (cnt_evict id (dlq_full cfg (q_dead s) && negb match q_dead s with [] => true | _ :: _ => false end) (q_dead s)).
  destruct A as (A1 & A2 & A3).
  destruct (rq && _); [|destruct (c_dlq cfg)]; unfold acc; ledger_fields;
    rewrite (published_frame _ s) by reflexivity; rewrite ?cnt_app, ?cnt_remall, cnt_rem1; cbn [cnt];
    (destruct (Z.eqb_spec id mid) as [EQ|N]; cbn iota;
     [destruct (S EQ) as (S1 & S2 & S3 & S4 & S5 & S6 & S7 & S8 & S9); subst id|]; lia).
Qed.

Lemma acc_deliver_begin s h mid id : acc s id -> acc (fst (deliver_begin s h mid)) id.
Proof.
  intros A. rewrite deliver_begin_eq. destruct (mem mid (q_msgs s)) eqn:E; cbn [negb]; [|exact A].
  destruct (q_cons s); [exact A|]. apply mem_In in E. unfold acc.
  ledger_fields.
  rewrite (published_frame _ s) by reflexivity. rewrite rem1_if_mem, cnt_rem1, cnt_addkey.
  destruct (Z.eqb_spec id mid) as [->|N].
  - destruct (acc_stored s mid A E) as (S1 & S2 & S3 & S4 & _). destruct A as (A1 & A2 & A3). lia.
  - destruct A as (A1 & A2 & A3). lia.
Qed.

Lemma acc_step cfg s o id : acc s id -> acc (fst (step cfg s o)) id.
Proof.
  intros A. destruct o; cbn [step].
  - destruct (mem c (q_cons s)); exact A.
  - destruct (mem c (q_cons s)); exact A.
  - destruct (mq_full cfg s); [exact A|]. destruct A as (A1 & A2 & A3). unfold acc.
    ledger_fields.
    rewrite (published_next _ s) by (reflexivity || exact A3). rewrite !cnt_app. cbn [cnt]. lia.
  - destruct (q_pending s) as [|m r]; [exact A|]. destruct (q_cons s) eqn:EC; [exact A|].
    apply acc_deliver_begin. exact A.
  - apply acc_deliver_begin. exact A.
  - destruct (lookup h (q_susp s)) as [[m c]|]; [|exact A]. destruct (mem m (q_msgs s)); exact A.
  - apply acc_ack. exact A.
  - apply acc_reject. exact A.
  - (* a timed-out delivery goes from in flight back to the head of pending *)
    destruct (mem mid (q_inflight s)) eqn:EI; cbn [negb]; [|exact A].
    destruct (mem mid (q_resched s)); [exact A|].
    destruct (c_max cfg <=? m_count (q_obj s mid)); [apply acc_reject; exact A|].
    apply mem_In in EI. unfold acc.
    ledger_fields.
    rewrite (published_frame _ s) by reflexivity. rewrite cnt_remall. cbn [cnt].
    destruct (Z.eqb_spec id mid) as [->|N].
    + destruct (acc_stored s mid A (acc_inflight_stored s mid A EI)) as (S1 & S2 & S3 & S4 & _).
      apply cnt_In in EI. destruct A as (A1 & A2 & A3). lia.
    + destruct A as (A1 & A2 & A3). lia.
  - destruct A as (A1 & A2 & A3). unfold acc.
    ledger_fields.
    rewrite (published_frame _ s) by reflexivity. rewrite cnt_app. cbn [cnt]. lia.
Qed.

Lemma run_fold cfg ops : forall s, fst (run_from cfg s ops) = fold_left (fun s o => fst (step cfg s o)) ops s.
Proof. apply (run_from_fold (step cfg) (run_from cfg)); reflexivity. Qed.

Lemma run_snoc cfg ops o : run cfg (ops ++ [o]) = fst (step cfg (run cfg ops) o).
Proof. unfold run. rewrite !run_fold, fold_left_app. reflexivity. Qed.

Lemma acc_run_from cfg ops s id : acc s id -> acc (fst (run_from cfg s ops)) id.
Proof.
  intros A. rewrite run_fold. apply (fold_left_inv _ (fun s => acc s id)); [|exact A].
  intros s0 o. apply acc_step.
Qed.

Lemma acc_run cfg ops id : acc (run cfg ops) id.
Proof. apply acc_run_from, acc_init. Qed.

Lemma acc_all_run cfg ops : forall id, acc (run cfg ops) id.
Proof. intros id. apply acc_run. Qed.

(** What an operation leaves alone.  [oh] is the one suspended frame it may
    touch, [R] the side condition under which the reprocessed class is unchanged
    (it fails for DlqReprocessAll only). *)
Definition kept (oh : option Z) (R : Prop) (s s' : mq) : Prop :=
  q_next s <= q_next s' /\
  (forall x, In x (q_msgs s') -> In x (q_msgs s) \/ x = q_next s) /\
  (R -> g_reproc s' = g_reproc s) /\
  forall h, oh <> Some h -> lookup h (q_susp s') = lookup h (q_susp s).

Lemma kept_sub oh R s s' :
  q_next s' = q_next s -> incl (q_msgs s') (q_msgs s) -> g_reproc s' = g_reproc s ->
  (forall h, oh <> Some h -> lookup h (q_susp s') = lookup h (q_susp s)) -> kept oh R s s'.
Proof.
  intros E1 E2 E3 E4. split; [lia|]. split; [intros x Hx; left; apply E2, Hx|]. split; [intros _; exact E3|exact E4].
Qed.

Lemma kept_eq oh R s s' :
  q_next s' = q_next s -> q_msgs s' = q_msgs s -> g_reproc s' = g_reproc s -> q_susp s' = q_susp s -> kept oh R s s'.
Proof.
  intros E1 E2 E3 E4. apply kept_sub; [exact E1|rewrite E2; apply incl_refl|exact E3|].
  intros h _. rewrite E4. reflexivity.
Qed.

Lemma do_ack_kept oh R s m : kept oh R s (do_ack s m).
Proof.
  rewrite do_ack_eq. destruct (negb _); [apply kept_eq; reflexivity|].
  apply kept_sub; [reflexivity|intros x; apply In_remall|reflexivity|reflexivity].
Qed.

Lemma do_reject_kept oh R cfg s m rq : kept oh R s (do_reject cfg s m rq).
Proof.
  rewrite do_reject_eq. destruct (negb _); [apply kept_eq; reflexivity|].
  destruct (rq && _); [apply kept_eq; reflexivity|].
  destruct (c_dlq cfg); (apply kept_sub; [reflexivity|intros x; apply In_remall|reflexivity|reflexivity]).
Qed.

Lemma deliver_begin_kept R s h m : kept (Some h) R s (fst (deliver_begin s h m)).
Proof.
  rewrite deliver_begin_eq. destruct (negb _); [apply kept_eq; reflexivity|].
  destruct (q_cons s); [apply kept_eq; reflexivity|].
  apply kept_sub; [reflexivity|apply incl_refl|reflexivity|].
  intros h' N. apply lookup_cons_other. congruence.
Qed.

Definition handle_of (o : op) : option Z :=
  match o with PollBegin h | RedeliverBegin h _ | DeliverEnd h _ => Some h | _ => None end.

Lemma step_frame cfg s o : kept (handle_of o) (o <> DlqReprocessAll) s (fst (step cfg s o)).
Proof.
  destruct o; cbn [step handle_of].
  - destruct (mem c (q_cons s)); apply kept_eq; reflexivity.
  - destruct (mem c (q_cons s)); apply kept_eq; reflexivity.
  - destruct (mq_full cfg s); [apply kept_eq; reflexivity|].
    split; [cbn; lia|]. split; [|split; reflexivity].
    intros x Hx. apply in_app_or in Hx. destruct Hx as [Hx|[<-|[]]]; [left; exact Hx|right; reflexivity].
  - destruct (q_pending s); [apply kept_eq; reflexivity|]. destruct (q_cons s) eqn:E; [apply kept_eq; reflexivity|].
    apply deliver_begin_kept.
  - (* clearing the redelivery mark first changes none of the four components *)
    exact (deliver_begin_kept _ (set_core s (q_obj s) (q_msgs s) (q_pending s) (q_inflight s) (remall mid (q_resched s))) h mid).
  - destruct (lookup h (q_susp s)) as [[m c]|]; [|apply kept_eq; reflexivity].
    assert (K : kept (Some h) (DeliverEnd h now <> DlqReprocessAll) s (set_susp s (remkey h (q_susp s)))).
    { apply kept_sub; [reflexivity|apply incl_refl|reflexivity|]. intros h' N. apply lookup_remkey_other. congruence. }
    destruct (mem m (q_msgs s)); exact K.
  - apply do_ack_kept.
  - apply do_reject_kept.
  - destruct (negb _); [apply kept_eq; reflexivity|]. destruct (mem mid (q_resched s)); [apply kept_eq; reflexivity|].
    destruct (c_max cfg <=? _); [apply do_reject_kept|apply kept_eq; reflexivity].
  - split; [cbn; lia|]. split; [intros x Hx; left; exact Hx|]. split; [intros N; contradiction|reflexivity].
Qed.

Definition is_delivery_of (mid : Z) (o : out) : Prop :=
  match o with ODelivery _ m _ _ => m = mid | _ => False end.

Lemma deliver_begin_quiet s h m x mid : In x (snd (deliver_begin s h m)) -> ~ is_delivery_of mid x.
Proof.
  rewrite deliver_begin_eq. destruct (negb _); [intros [<-|[]] []|]. destruct (q_cons s); intros [<-|[]] [].
Qed.

(** The only delivery events are those of [DeliverEnd], and it checks that the
    message is still stored. *)
Lemma step_delivery cfg s o x mid :
  In x (snd (step cfg s o)) -> is_delivery_of mid x -> In mid (q_msgs s).
Proof.
  destruct o; cbn [step].
  - intros [].
  - intros [].
  - destruct (mq_full cfg s); intros [<-|[]] [].
  - destruct (q_pending s); [intros [<-|[]] []|]. destruct (q_cons s) eqn:E; [intros [<-|[]] []|].
    intros Hx D. destruct (deliver_begin_quiet _ _ _ _ mid Hx D).
  - intros Hx D. destruct (deliver_begin_quiet _ _ _ _ mid Hx D).
  - destruct (lookup h (q_susp s)) as [[m c]|]; [|intros []].
    destruct (mem m (q_msgs s)) eqn:E; intros [<-|[]] D; [|destruct D]. cbn in D. subst m. apply mem_In, E.
  - intros [].
  - intros [].
  - destruct (negb _); [intros [<-|[]] []|]. destruct (mem mid0 (q_resched s)); [intros [<-|[]] []|].
    destruct (c_max cfg <=? _); intros [<-|[]] [].
  - intros [].
Qed.

Definition gone (s : mq) (mid : Z) : Prop := ~ In mid (q_msgs s) /\ mid < q_next s.

Lemma gone_step cfg s o mid : gone s mid -> gone (fst (step cfg s o)) mid.
Proof.
  intros [G1 G2]. destruct (step_frame cfg s o) as (F1 & F2 & _). split; [|lia].
  intros HI. destruct (F2 mid HI) as [H|H]; [exact (G1 H)|lia].
Qed.

Lemma gone_outputs cfg ops : forall s mid, gone s mid ->
  forall x, In x (outputs cfg s ops) -> ~ is_delivery_of mid x.
Proof.
  unfold outputs. induction ops as [|o r IH]; intros s mid G x; cbn [run_from]; [intros []|].
  pose proof (gone_step cfg s o mid G) as G1. pose proof (fun Hx => step_delivery cfg s o x mid Hx) as N1.
  destruct (step cfg s o) as [s1 o1]. cbn [fst snd] in G1, N1.
  specialize (IH s1 mid G1 x). destruct (run_from cfg s1 r) as [s2 outs]. cbn [snd concat] in *.
  rewrite in_app_iff. intros [Hx|Hx]; [intros D; exact (proj1 G (N1 Hx D))|apply IH; exact Hx].
Qed.

Lemma gone_ack s mid : mid < q_next s -> gone (do_ack s mid) mid.
Proof.
  intros H. split; [|destruct (do_ack_kept None True s mid) as (E & _); lia].
  rewrite do_ack_eq. destruct (mem mid (q_msgs s)) eqn:E; cbn [negb q_msgs acked settled set_core].
  - apply not_In_remall.
  - rewrite <- mem_In, E. discriminate.
Qed.

Lemma no_delivery_after_ack cfg s mid ops :
  mid < q_next s -> forall x, In x (outputs cfg (fst (step cfg s (Ack mid))) ops) -> ~ is_delivery_of mid x.
Proof. intros H. apply gone_outputs, gone_ack, H. Qed.

Lemma reject_limit cfg s mid rq :
  acc s mid -> In mid (q_msgs s) -> c_max cfg <= m_count (q_obj s mid) ->
  let s' := do_reject cfg s mid rq in
  ~ In mid (q_msgs s') /\ ~ In mid (q_pending s') /\ ~ In mid (q_inflight s') /\
  (c_dlq cfg = true -> exists d, q_dead s' = d ++ [mid]) /\
  (c_dlq cfg = false -> In mid (g_dropped s')).
Proof.
  intros A HI HC.
  assert (P : ~ In mid (rem1 mid (q_pending s))).
  { apply not_In_rem1. destruct (acc_stored s mid A HI) as (S1 & _ & _ & S4 & _). destruct A as (A1 & _). lia. }
  apply mem_In in HI. rewrite do_reject_eq, HI. cbn [negb].
  replace (m_count (q_obj s mid) <? c_max cfg) with false by lia. rewrite andb_false_r.
  destruct (c_dlq cfg); cbn [q_msgs q_pending q_inflight q_dead g_dropped reject_dead reject_drop reject_out rejected settled set_core];
    (split; [apply not_In_remall|]; split; [exact P|]; split; [apply not_In_remall|]; split).
  - intros _. eexists. reflexivity.
  - discriminate.
  - discriminate.
  - intros _. left. reflexivity.
Qed.

Lemma deliver_begin_ok s h mid :
  In mid (q_msgs s) -> q_cons s <> [] ->
  let c := nth_mod (q_cons s) (q_cidx s) in
  let s' := fst (deliver_begin s h mid) in
  snd (deliver_begin s h mid) = [OSuspend] /\ In c (q_cons s) /\
  lookup h (q_susp s') = Some (mid, c) /\ In mid (q_inflight s') /\ q_resched s' = q_resched s /\
  m_count (q_obj s' mid) = m_count (q_obj s mid) + 1.
Proof.
  intros HI HC. apply mem_In in HI. rewrite deliver_begin_eq, HI. cbn [negb].
  destruct (q_cons s) eqn:EC; [contradiction|]. rewrite <- EC.
  cbn [fst snd q_susp q_inflight q_resched q_obj delivering lookup]. rewrite Z.eqb_refl, upd_same.
  split; [reflexivity|]. split; [apply nth_mod_In; rewrite EC; discriminate|]. split; [reflexivity|].
  split; [apply In_addkey; left; reflexivity|]. split; reflexivity.
Qed.

Lemma lookup_run_from cfg ops s h :
  Forall (fun o => handle_of o <> Some h) ops ->
  lookup h (q_susp (fst (run_from cfg s ops))) = lookup h (q_susp s).
Proof.
  rewrite run_fold. apply (fold_left_keeps _ (fun s => lookup h (q_susp s))).
  intros s0 o N. destruct (step_frame cfg s0 o) as (_ & _ & _ & K). exact (K h N).
Qed.

Lemma reproc_run_from cfg ops s :
  Forall (fun o => o <> DlqReprocessAll) ops -> g_reproc (fst (run_from cfg s ops)) = g_reproc s.
Proof.
  rewrite run_fold. apply (fold_left_keeps _ g_reproc).
  intros s0 o N. destruct (step_frame cfg s0 o) as (_ & _ & K & _). exact (K N).
Qed.

(** The hypotheses of the conditional message-queue theorems of C19/Props.v are satisfiable. *)
Definition exq_cfg : mqcfg := {| c_max := 1; c_cap := None; c_delay := 5; c_dlq := true; c_dlqcap := None |}.
Definition exq_ops : list op := [Subscribe 7; Publish; Publish; PollBegin 1].

Example mq_hypotheses_satisfiable :
  let s := run exq_cfg exq_ops in
  0 <= 0 < q_next s /\ In 0 (q_msgs s) /\ c_max exq_cfg <= m_count (q_obj s 0) /\
  In 0 (q_inflight s) /\ ~ In 0 (q_resched s) /\
  q_pending s = [1] /\ q_cons s <> [] /\
  lookup 1 (q_susp s) = Some (0, 7) /\
  (let s2 := run {| c_max := 3; c_cap := None; c_delay := 5; c_dlq := true; c_dlqcap := None |} exq_ops in
   In 0 (q_inflight s2) /\ ~ In 0 (q_resched s2) /\ m_count (q_obj s2 0) < 3).
Proof.
  vm_compute. repeat split; try discriminate; try (left; reflexivity); try tauto; intros [H|H]; try discriminate; try destruct H.
Qed.

(** Full statement ("never lost", every operation the messaging package offers,
    DLQ reprocessing included): REFUTED on the faithful model — the queue
    ignores the republish events of DeadLetterQueue.reprocess_all, so the
    message is in none of the classes afterwards. *)
Definition never_lost_statement : Prop :=
  forall cfg ops id, let s := run cfg ops in
  published s id = 1 ->
  cnt id (q_pending s) + cnt id (q_inflight s) + cnt id (g_acked s) + cnt id (q_dead s)
    + cnt id (g_dlqlost s) + cnt id (g_dropped s) = 1.
