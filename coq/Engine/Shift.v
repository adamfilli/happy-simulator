(** Shift — the run of a scripted simulation does not depend on the absolute
    values of the sort indices, only on their relative order: renumbering every
    event identity by a constant [k] (a different value of the process-global
    counter when the model is built — i.e. different earlier activity in the
    interpreter) commutes with every step of the interpreter and of the engine.
    Hence the delivery sequence (time, type, target) and the entity-side log
    are identical. *)
From HS Require Import Base.Prelude Engine.Engine Engine.Script Engine.ScriptProofs.
Local Open Scope Z_scope.

Section Shift.
  Variable k : Z.

  Definition sh (e : sev) : sev := mkEv (ev_time e) (ev_sort e + k) (ev_daemon e) (ev_pay e).
  Definition sh_labels (l : list (Z * Z)) : list (Z * Z) := map (fun p => (fst p, snd p + k)) l.
  Definition sh_u (u : ustate) : ustate := with_labels u (sh_labels (labels u)).
  Definition sh_c (c : ictx) : ictx :=
    mkI (sh_u (ix_u c)) (ix_ctr c + k) (map sh (ix_new c)) (map (fun i => i + k) (ix_cancel c)).

  Lemma sh_labels_aset l v m : sh_labels (aset l v m) = aset l (v + k) (sh_labels m).
  Proof.
    unfold sh_labels. induction m as [|[l' v'] m IH]; cbn; [reflexivity|].
    destruct (l =? l'); cbn; [reflexivity|]. rewrite IH. reflexivity.
  Qed.
  Lemma sh_labels_alookup l m : alookup l (sh_labels m) = option_map (fun v => v + k) (alookup l m).
  Proof. unfold sh_labels. induction m as [|[l' v'] m IH]; cbn; [reflexivity|]. destruct (l =? l'); cbn; auto. Qed.

  Lemma sh_u_fields u :
    prog (sh_u u) = prog u /\ procs (sh_u u) = procs u /\ next_pid (sh_u u) = next_pid u /\
    futs (sh_u u) = futs u /\ next_fid (sh_u u) = next_fid u /\ alls (sh_u u) = alls u /\
    hooks (sh_u u) = hooks u /\ next_hid (sh_u u) = next_hid u /\ crashed (sh_u u) = crashed u /\
    ulog (sh_u u) = ulog u.
  Proof. repeat split. Qed.

  Lemma sh_set_u_procs c x : sh_c (set_u c (with_procs (ix_u c) x)) = set_u (sh_c c) (with_procs (ix_u (sh_c c)) x).
  Proof. reflexivity. Qed.

  Lemma new_ev_sh t d p c :
    new_ev t d p (sh_c c) = (sh_c (fst (new_ev t d p c)), sh (snd (new_ev t d p c))).
  Proof. unfold new_ev, sh_c, sh; cbn. f_equal. f_equal. lia. Qed.

  Lemma push_ev_sh x c : push_ev (sh x) (sh_c c) = sh_c (push_ev x c).
  Proof. reflexivity. Qed.

  Lemma hook_u_sh e u : hook_u e (sh_u u) = sh_u (hook_u e u).
  Proof. unfold hook_u. destruct (e_hooks e); reflexivity. Qed.

  Lemma label_u_sh e id u : label_u e (id + k) (sh_u u) = sh_u (label_u e id u).
  Proof.
    unfold label_u. destruct (e_label e <? 0); [reflexivity|].
    unfold sh_u, with_labels; cbn [labels prog procs next_pid futs next_fid alls hooks next_hid crashed ulog].
    rewrite sh_labels_aset. reflexivity.
  Qed.

  Lemma create_emit_sh now e c :
    create_emit now e (sh_c c) = (sh_c (fst (create_emit now e c)), sh (snd (create_emit now e c))).
  Proof.
    rewrite !create_emit_eq. cbn [fst snd]. unfold sh_c, sh. cbn [ix_u ix_ctr ix_new ix_cancel ev_time ev_sort ev_daemon ev_pay].
    rewrite hook_u_sh, label_u_sh. f_equal. f_equal. lia.
  Qed.

  Lemma emit_all_sh now es : forall c, emit_all now es (sh_c c) = sh_c (emit_all now es c).
  Proof.
    induction es as [|e r IH]; intros c; cbn; [reflexivity|].
    rewrite create_emit_sh. destruct (create_emit now e c) as [c1 x]; cbn. rewrite push_ev_sh. apply IH.
  Qed.

  Lemma run_hooks_sh now hid c : run_hooks now hid (sh_c c) = sh_c (run_hooks now hid c).
  Proof.
    unfold run_hooks. destruct (hid <? 0); [reflexivity|].
    change (hooks (ix_u (sh_c c))) with (hooks (ix_u c)).
    set (c0 := set_u c _).
    assert (E0 : set_u (sh_c c) (with_hooks (ix_u (sh_c c)) (aset hid [] (hooks (ix_u c)))) = sh_c c0) by reflexivity.
    rewrite E0. clear E0. clearbody c0. generalize 0 as i. revert c0.
    induction (aget [] hid (hooks (ix_u c))) as [|h hs IH]; intros c0 i; cbn; [reflexivity|].
    change (set_u (sh_c c0) (add_log (sh_u (ix_u c0)) (UHook now hid i)))
      with (sh_c (set_u c0 (add_log (ix_u c0) (UHook now hid i)))).
    unfold emit0_all. rewrite emit_all_sh. apply IH.
  Qed.

  Lemma resume_sh now f pid v c : resume now f pid v (sh_c c) = sh_c (resume now f pid v c).
  Proof.
    unfold resume. change (procs (ix_u (sh_c c))) with (procs (ix_u c)).
    destruct (alookup pid (procs (ix_u c))) as [p|]; [|reflexivity].
    rewrite new_ev_sh. destruct (new_ev now (pr_daemon p) _ c) as [c1 x]; cbn [fst snd]. reflexivity.
  Qed.

  Definition commutes (f : ictx -> option ictx) : Prop := forall c, f (sh_c c) = option_map sh_c (f c).

  Lemma fire_cb_sh rec v acc cb :
    (forall f w, commutes (rec f w)) ->
    fire_cb rec v (option_map sh_c acc) cb = option_map sh_c (fire_cb rec v acc cb).
  Proof.
    intros Hrec. destruct acc as [c|]; [|reflexivity]. cbn. destruct cb as [comp idx|comp idx].
    - apply Hrec.
    - change (futs (ix_u (sh_c c))) with (futs (ix_u c)). destruct (f_resolved _); [reflexivity|].
      change (alls (ix_u (sh_c c))) with (alls (ix_u c)). destruct (aget _ comp _) as [res rem].
      destruct (rem - 1 =? 0); [|reflexivity]. rewrite <- Hrec. reflexivity.
  Qed.

  Lemma fold_fire_sh rec v l : (forall f w, commutes (rec f w)) -> forall acc,
    fold_left (fire_cb rec v) l (option_map sh_c acc) = option_map sh_c (fold_left (fire_cb rec v) l acc).
  Proof.
    intros Hrec. induction l as [|cb l IH]; intros acc; cbn; [reflexivity|].
    rewrite fire_cb_sh by exact Hrec. apply IH.
  Qed.

  Lemma sh_set_u_futs c x : sh_c (set_u c (with_futs (ix_u c) x)) = set_u (sh_c c) (with_futs (ix_u (sh_c c)) x).
  Proof. reflexivity. Qed.

  Lemma settled_sh now f v c : settled now f v (sh_c c) = sh_c (settled now f v c).
  Proof.
    unfold settled. cbv zeta. change (futs (ix_u (sh_c c))) with (futs (ix_u c)). rewrite <- sh_set_u_futs.
    destruct (f_parked _); [rewrite resume_sh|]; reflexivity.
  Qed.

  Lemma resolve_sh fuel now : forall f v, commutes (resolve fuel now f v).
  Proof.
    induction fuel as [|fuel IH]; intros f v c; [reflexivity|]. rewrite !resolve_S.
    change (futs (ix_u (sh_c c))) with (futs (ix_u c)).
    destruct (f_resolved _); [reflexivity|]. rewrite settled_sh. apply (fold_fire_sh _ _ _ IH (Some _)).
  Qed.

  Lemma add_cb_sh fuel now f cb : commutes (add_cb fuel now f cb).
  Proof.
    intros c. unfold add_cb. change (futs (ix_u (sh_c c))) with (futs (ix_u c)).
    destruct (f_resolved _).
    - apply (fire_cb_sh (resolve fuel now) _ (Some c)). apply resolve_sh.
    - reflexivity.
  Qed.

  Lemma add_cbs_sh fuel now mk : forall ids i, commutes (add_cbs fuel now mk i ids).
  Proof.
    induction ids as [|f r IH]; intros i c; cbn; [reflexivity|].
    rewrite add_cb_sh. destruct (add_cb fuel now f (mk i) c) as [c1|]; cbn; [apply IH|reflexivity].
  Qed.

  Lemma park_sh now f pid : commutes (park now f pid).
  Proof.
    intros c. unfold park. cbv zeta. change (futs (ix_u (sh_c c))) with (futs (ix_u c)). rewrite <- sh_set_u_futs.
    destruct (f_parked _); [destruct (f_resolved _); reflexivity|].
    destruct (f_resolved _); cbn [option_map]; [rewrite resume_sh|]; reflexivity.
  Qed.

  Definition opt_pair_sh (o : option (ictx * Z)) : option (ictx * Z) :=
    match o with Some (c, f) => Some (sh_c c, f) | None => None end.

  Lemma fresh_fut_sh c : fresh_fut (sh_c c) = (sh_c (fst (fresh_fut c)), snd (fresh_fut c)).
  Proof. reflexivity. Qed.

  Lemma eval_fs_sh fuel now l :
    Forall (fun fe => forall c, eval_f fuel now fe (sh_c c) = opt_pair_sh (eval_f fuel now fe c)) l ->
    forall c, eval_fs fuel now l (sh_c c) =
              match eval_fs fuel now l c with Some (c1, ids) => Some (sh_c c1, ids) | None => None end.
  Proof.
    induction 1 as [|x r Hx _ IH]; intros c; cbn [eval_fs]; [reflexivity|].
    rewrite Hx. destruct (eval_f fuel now x c) as [[c1 f1]|]; cbn; [|reflexivity].
    rewrite IH. destruct (eval_fs fuel now r c1) as [[c2 fs]|]; reflexivity.
  Qed.

  Lemma composite_sh fuel now mk prep l c :
    (forall c2 comp ids, prep (sh_c c2) comp ids = sh_c (prep c2 comp ids)) ->
    Forall (fun fe => forall c, eval_f fuel now fe (sh_c c) = opt_pair_sh (eval_f fuel now fe c)) l ->
    composite fuel now mk prep l (sh_c c) = opt_pair_sh (composite fuel now mk prep l c).
  Proof.
    intros Hprep Hl. unfold composite. rewrite (eval_fs_sh fuel now l Hl).
    destruct (eval_fs fuel now l c) as [[c1 ids]|]; [|reflexivity].
    destruct (Z.of_nat (length ids) <? 2); [reflexivity|].
    rewrite fresh_fut_sh. destruct (fresh_fut c1) as [c2 comp]. cbn [fst snd].
    rewrite Hprep, add_cbs_sh. destruct (add_cbs fuel now (mk comp) 0 ids (prep c2 comp ids)); reflexivity.
  Qed.

  Lemma eval_f_sh fuel now : forall fe c, eval_f fuel now fe (sh_c c) = opt_pair_sh (eval_f fuel now fe c).
  Proof.
    intros fe. induction fe as [f0|l Hl|l Hl] using fexpr_ind'; intros c.
    - reflexivity.
    - rewrite !eval_f_any. apply composite_sh; [reflexivity|exact Hl].
    - rewrite !eval_f_all. apply composite_sh; [reflexivity|exact Hl].
  Qed.

  Lemma do_eff_sh fuel now x : commutes (do_eff fuel now x).
  Proof.
    intros c. destruct x as [l|f v|ent b]; cbn [do_eff].
    - change (labels (ix_u (sh_c c))) with (sh_labels (labels (ix_u c))). rewrite sh_labels_alookup.
      destruct (alookup l (labels (ix_u c))); reflexivity.
    - apply resolve_sh.
    - reflexivity.
  Qed.

  Lemma advance_sh fuel now e pid p : forall steps c,
    advance fuel now (sh e) pid p steps (sh_c c) = option_map sh_c (advance fuel now e pid p steps c).
  Proof.
    (* the lemma for the last operation rewrites the right-hand side backwards; the contexts left are convertible *)
    induction steps as [|s r IH]; intros c; cbn [advance]; change (ev_time (sh e)) with (ev_time e).
    - rewrite emit_all_sh. cbn [option_map]. rewrite <- run_hooks_sh. reflexivity.
    - destruct s as [dt effs|fe|x].
      + rewrite emit_all_sh, new_ev_sh. reflexivity.
      + rewrite eval_f_sh. destruct (eval_f fuel now fe c) as [[c1 f]|]; cbn [opt_pair_sh option_map]; [|reflexivity].
        rewrite <- park_sh. reflexivity.
      + rewrite do_eff_sh. destruct (do_eff fuel now x c) as [c1|]; cbn; [apply IH|reflexivity].
  Qed.

  Lemma do_actions_sh fuel now : forall acts, commutes (do_actions fuel now acts).
  Proof.
    induction acts as [|a r IH]; intros c; cbn; [reflexivity|]. destruct a as [e|x].
    - rewrite create_emit_sh. destruct (create_emit now e c) as [c1 y]; cbn [fst snd]. rewrite push_ev_sh. apply IH.
    - rewrite do_eff_sh. destruct (do_eff fuel now x c) as [c1|]; cbn; [apply IH|reflexivity].
  Qed.

  Lemma start_process_sh now e steps ret c0 :
    start_process now (sh e) steps ret (sh_c c0) = option_map sh_c (start_process now e steps ret c0).
  Proof.
    (* up to conversion the two sides differ in the counter only: [ctr + k + 1] against [ctr + 1 + k] *)
    unfold start_process, new_ev. cbn [fst snd]. rewrite <- advance_sh.
    change (ix_ctr (set_u (sh_c c0) ?u)) with (ix_ctr c0 + k). rewrite (Z.add_shuffle0 (ix_ctr c0) k 1). reflexivity.
  Qed.

  Theorem invoke_ctx_sh u now e c :
    invoke_ctx (sh_u u) now (sh e) (c + k) = option_map sh_c (invoke_ctx u now e c).
  Proof.
    unfold invoke_ctx. change (ev_pay (sh e)) with (ev_pay e). change (ev_time (sh e)) with (ev_time e).
    change (mkI (sh_u u) (c + k) [] []) with (sh_c (mkI u c [] [])).
    destruct (p_kind (ev_pay e)) as [|pid v].
    - change (crashed (sh_u u)) with (crashed u). destruct (existsb _ (crashed u)); [reflexivity|].
      set (uh := add_log u (UHandle now (p_target (ev_pay e)) (p_type (ev_pay e)))).
      change (add_log (sh_u u) (UHandle now (p_target (ev_pay e)) (p_type (ev_pay e)))) with (sh_u uh).
      change (behaviour_of (sh_u uh)) with (behaviour_of uh).
      change (set_u (sh_c (mkI u c [] [])) (sh_u uh)) with (sh_c (set_u (mkI u c [] []) uh)).
      destruct (behaviour_of uh _ _) as [[acts|steps ret]|].
      + rewrite do_actions_sh. destruct (do_actions cascade_fuel now acts _) as [c1|]; cbn [option_map]; [|reflexivity].
        rewrite run_hooks_sh. reflexivity.
      + apply start_process_sh.
      + cbn [option_map]. rewrite <- run_hooks_sh. reflexivity.
    - change (procs (sh_u u)) with (procs u). destruct (alookup pid (procs u)) as [pr|]; [|reflexivity].
      rewrite <- advance_sh. reflexivity.
  Qed.
End Shift.
