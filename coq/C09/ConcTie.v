(** C09 — tie between components/server/concurrency.py and the limiter model
    [c_step] of C09/Model.v, through the REGENERATED translation
    [Gen/ConcurrencyGen.v] (py2coq).  [lobj] is the code object of a limiter
    state (its kind decides the class); every operation of the translated
    class is the model's step, with the model's result (a ValueError is
    [CErr]; set_limit / scale_* exist on DynamicConcurrency only). *)
From HS Require Import Base.Prelude Base.PyLib C09.Model C09.Limits Gen.ConcurrencyGen.
Local Open Scope Z_scope.
Inductive lobj :=
| LFixed (c : FixedConcurrency)
| LDyn (c : DynamicConcurrency)
| LWeighted (c : WeightedConcurrency).

Definition st_of (c : lobj) : cstate :=
  match c with
  | LFixed c => {| c_kind := KFixed; c_limit := FixedConcurrency__max_concurrent c; c_active := FixedConcurrency__active c;
                   c_min := 1; c_max := None |}
  | LDyn c => {| c_kind := KDynamic; c_limit := DynamicConcurrency__current_limit c; c_active := DynamicConcurrency__active c;
                 c_min := DynamicConcurrency__min_limit c; c_max := DynamicConcurrency__max_limit c |}
  | LWeighted c => {| c_kind := KWeighted; c_limit := WeightedConcurrency__total_capacity c;
                      c_active := WeightedConcurrency__used_capacity c; c_min := 1; c_max := None |}
  end.

Definition b2r (b : bool) : cres := if b then CTrue else CFalse.

Definition code_c_step (c : lobj) (o : cop) : lobj * cres :=
  match c, o with
  | LFixed c, CAcquire w => let '(c', r) := FixedConcurrency_acquire c w in (LFixed c', b2r r)
  | LFixed c, CRelease w => (LFixed (fst (FixedConcurrency_release c w)), CNone)
  | LFixed c, CHas w => (LFixed c, b2r (FixedConcurrency_has_capacity c w))
  | LDyn c, CAcquire w => let '(c', r) := DynamicConcurrency_acquire c w in (LDyn c', b2r r)
  | LDyn c, CRelease w => (LDyn (fst (DynamicConcurrency_release c w)), CNone)
  | LDyn c, CHas w => (LDyn c, b2r (DynamicConcurrency_has_capacity c w))
  | LDyn c, CSetLimit n => (LDyn (fst (DynamicConcurrency_set_limit c n)), CNone)
  | LDyn c, CScaleUp n => (LDyn (fst (DynamicConcurrency_scale_up c n)), CNone)
  | LDyn c, CScaleDown n => (LDyn (fst (DynamicConcurrency_scale_down c n)), CNone)
  | LWeighted c, CAcquire w =>
      match WeightedConcurrency_acquire c w with Some (c', r) => (LWeighted c', b2r r) | None => (LWeighted c, CErr) end
  | LWeighted c, CRelease w =>
      match WeightedConcurrency_release c w with Some (c', _) => (LWeighted c', CNone) | None => (LWeighted c, CErr) end
  | LWeighted c, CHas w => (LWeighted c, b2r (WeightedConcurrency_has_capacity c w))
  | c, _ => (c, CErr)               (* AttributeError: no such method on this class *)
  end.

Fixpoint code_c_run (c : lobj) (ops : list cop) : lobj :=
  match ops with [] => c | o :: r => code_c_run (fst (code_c_step c o)) r end.

Lemma tie_c_step_eq c o : (st_of (fst (code_c_step c o)), snd (code_c_step c o)) = c_step (st_of c) o.
Proof.
  destruct c as [[mx a]|[cur mn mx a]|[t u]], o as [w|w|w|n|n|n];
    unfold code_c_step, st_of, c_step, c_with, c_clamp,
      FixedConcurrency_acquire, FixedConcurrency_release, FixedConcurrency_has_capacity,
      DynamicConcurrency_acquire, DynamicConcurrency_release, DynamicConcurrency_has_capacity,
      DynamicConcurrency_scale_up, DynamicConcurrency_scale_down, DynamicConcurrency_set_limit,
      WeightedConcurrency_acquire, WeightedConcurrency_release, WeightedConcurrency_has_capacity, b2r;
    cbn; tie_split; cbn; try reflexivity; repeat f_equal; lia.
Qed.

Lemma tie_c_step c o :
  st_of (fst (code_c_step c o)) = fst (c_step (st_of c) o) /\ snd (code_c_step c o) = snd (c_step (st_of c) o).
Proof. rewrite <- tie_c_step_eq. split; reflexivity. Qed.

Lemma tie_c_reads c :
  match c with
  | LFixed x => FixedConcurrency_active x = c_active (st_of c) /\ FixedConcurrency_limit x = c_limit (st_of c)
                /\ FixedConcurrency_available x = c_available (st_of c)
  | LDyn x => DynamicConcurrency_active x = c_active (st_of c) /\ DynamicConcurrency_limit x = c_limit (st_of c)
              /\ DynamicConcurrency_available x = c_available (st_of c)
  | LWeighted x => WeightedConcurrency_active x = c_active (st_of c) /\ WeightedConcurrency_limit x = c_limit (st_of c)
                   /\ WeightedConcurrency_available x = c_available (st_of c)
  end.
Proof. destruct c; repeat split. Qed.

Lemma tie_c_run ops : forall c, st_of (code_c_run c ops) = c_run (st_of c) ops.
Proof.
  induction ops as [|o ops IH]; intros c; [reflexivity|]. cbn [code_c_run c_run].
  rewrite IH. f_equal. apply tie_c_step.
Qed.

Theorem code_limiter_static_bound : forall limit ops, 1 <= limit ->
  (let s := st_of (code_c_run (LFixed (mkFixedConcurrency limit 0)) ops) in c_limit s = limit /\ 0 <= c_active s <= limit)
  /\ (let s := st_of (code_c_run (LWeighted (mkWeightedConcurrency limit 0)) ops) in c_limit s = limit /\ 0 <= c_active s <= limit).
Proof.
  intros limit ops Hl. split; rewrite tie_c_run.
  - apply (c_bound_run ops (c_init KFixed limit 1 None)); cbn; [discriminate|lia].
  - apply (c_bound_run ops (c_init KWeighted limit 1 None)); cbn; [discriminate|lia].
Qed.

Theorem code_limiter_dynamic_acquire : forall c w,
  snd (code_c_step (LDyn c) (CAcquire w)) = CTrue ->
  c_active (st_of (fst (code_c_step (LDyn c) (CAcquire w)))) <= c_limit (st_of (LDyn c)).
Proof.
  intros c w H. destruct (tie_c_step (LDyn c) (CAcquire w)) as [T1 T2]. rewrite T1. rewrite T2 in H.
  apply c_acquire_le_limit, H.
Qed.
