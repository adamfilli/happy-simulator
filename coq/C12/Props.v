(** Property C12 — the theorems the check counts as obligations. *)
From HS Require Import Base.Prelude Base.PyLib C12.Model C12.PaxosNode C12.PaxosSys C12.PaxosAgree C12.PaxosFull C12.PaxosDecide C12.LockModel C12.Lock C12.MultiModel C12.Multi C12.ElectionModel C12.Election Gen.PaxosGen C12.GenTie.
From Coq Require Import Sorted.
Local Open Scope Z_scope.

(** Acceptor: the promised ballot never decreases, whatever the handler is given. *)
Theorem c12_paxos_promise_monotone : forall c s i,
  obal_leb (promised s) (promised (fst (step c s i))) = true.
Proof. exact step_promise_monotone. Qed.
Print Assumptions c12_paxos_promise_monotone.

(** Acceptor: after any sequence of handler calls the accepted ballot is at
    most the promised ballot. *)
Theorem c12_paxos_accepted_le_promised : forall c l,
  obal_leb (acc_b (nrun c pinit l)) (promised (nrun c pinit l)) = true.
Proof. intros c l. exact (ni_acc c _ (nrun_inv c (ninv c) (step_ninv c) l pinit (ninv_init c))). Qed.
Print Assumptions c12_paxos_accepted_le_promised.

(** A reported decision never changes: once [is_decided], every later
    sequence of handler calls leaves [is_decided] and [decided_value] as they are. *)
Theorem c12_paxos_decision_stable : forall c l l',
  decided (nrun c pinit l) = true ->
  decided (nrun c pinit (l ++ l')) = true /\ dec_v (nrun c pinit (l ++ l')) = dec_v (nrun c pinit l).
Proof. intros c l l'. rewrite nrun_app. apply decision_stable_from. Qed.
Print Assumptions c12_paxos_decision_stable.

(** A proposer's future, when resolved, carries the node's decided value. *)
Theorem c12_paxos_future_value : forall c l f v,
  In (f, v) (resolved (nrun c pinit l)) ->
  decided (nrun c pinit l) = true /\ v = dec_v (nrun c pinit l).
Proof. intros c l. exact (nrun_inv c finv (step_finv c) l pinit finv_init). Qed.
Print Assumptions c12_paxos_future_value.

(** VALIDITY, every schedule (any delivery order, loss, retry timing, client
    proposals, cluster size): a node that reports a decision reports a value
    that some client proposed — never Python's None. *)
Theorem c12_paxos_validity : forall n sch i ov,
  report (sys_run n sys_init sch) i = Some ov ->
  exists v, ov = Some v /\ In v (proposed (sys_run n sys_init sch)).
Proof. exact validity. Qed.
Print Assumptions c12_paxos_validity.

(** ... and so does every Promise / Accept / Decided message ever sent. *)
Theorem c12_paxos_validity_messages : forall n sch src o,
  In (src, o) (sent (sys_run n sys_init sch)) ->
  out_ok (fun v => In v (proposed (sys_run n sys_init sch))) o.
Proof. intros n sch src o H. exact (vi_sent _ (sys_run_inv n vinv vinv_init (vinv_step n) sch) _ H). Qed.
Print Assumptions c12_paxos_validity_messages.

(** Every schedule: all Accept messages ever sent for one ballot carry one
    value (phase 2 starts once per ballot) — the invariant whose failure was
    finding C12-paxos-phase2-rerun. *)
Theorem c12_paxos_one_value_per_ballot : forall n sch s1 d1 s2 d2 k b x1 x2,
  In (s1, OAccept d1 k b x1) (sent (sys_run n sys_init sch)) ->
  In (s2, OAccept d2 k b x2) (sent (sys_run n sys_init sch)) -> x1 = x2.
Proof. intros n sch. exact (ui_one n _ (sys_run_inv n (uinv n) (uinv_init n) (uinv_step n) sch)). Qed.
Print Assumptions c12_paxos_one_value_per_ballot.

(** The network never duplicates a message: whatever the schedule, the
    phase-1 responses a proposer holds for a ballot come from distinct nodes. *)
Theorem c12_paxos_distinct_responders : forall n sch, distinct_responders (sys_run n sys_init sch).
Proof. intros n sch. apply (tinv_distinct n). apply sys_run_inv; [apply tinv_init|apply tinv_step]. Qed.
Print Assumptions c12_paxos_distinct_responders.

(** Classical Paxos consistency on the faithful model, every schedule of a
    cluster of at least 2 nodes: two values each accepted by a majority under
    some ballot are equal. *)
Theorem c12_paxos_chosen_unique : forall n, 2 <= n -> forall sch b v b' v',
  chosen n (sys_run n sys_init sch) b v -> chosen n (sys_run n sys_init sch) b' v' -> v = v'.
Proof. exact chosen_unique_always. Qed.
Print Assumptions c12_paxos_chosen_unique.

(** A node that reports a decision reports a chosen value (the proposer's
    Accepted tally counts distinct voters of its ballot; Decided messages carry
    chosen values). *)
Theorem c12_paxos_decided_is_chosen : forall n, 2 <= n -> forall sch i x,
  report (sys_run n sys_init sch) i = Some x -> exists b, chosen n (sys_run n sys_init sch) b x.
Proof. exact decided_is_chosen. Qed.
Print Assumptions c12_paxos_decided_is_chosen.

(** AGREEMENT (full statement for single-decree Paxos, on the repaired code):
    under any message delays, reordering, loss, partitions, retry timings and
    competing proposers, for every cluster size >= 2, any two nodes that report
    a decided value report the same value — also at two different moments of
    the run. *)
Theorem c12_paxos_agreement : forall n, 2 <= n -> forall sch ext i j x y,
  report (sys_run n sys_init sch) i = Some x -> report (sys_run n sys_init (sch ++ ext)) j = Some y -> x = y.
Proof. exact agreement_over_time. Qed.
Print Assumptions c12_paxos_agreement.

(** FENCING TOKENS: for every sequence of acquire / try_acquire / release /
    lease-expiry calls (any lock names, requesters, tokens, waiter limit), the
    tokens handed out by successive grants are strictly increasing. *)
Theorem c12_lock_tokens_strictly_increase : forall maxw ops,
  StronglySorted Z.lt (map tok (glog (lrun maxw dinit ops))).
Proof. exact tokens_strictly_increase. Qed.
Print Assumptions c12_lock_tokens_strictly_increase.

(** Every grant a client receives through a future and the grant of every
    current holder is one of those grants (a re-entrant acquire returns the
    existing grant). *)
Theorem c12_lock_grants_are_logged : forall maxw ops,
  (forall f g, In (f, Some g) (lresolved (lrun maxw dinit ops)) -> In g (glog (lrun maxw dinit ops))) /\
  (forall k l h, In (k, l) (locks (lrun maxw dinit ops)) -> holder l = Some h ->
     In (k, ltoken l, h) (glog (lrun maxw dinit ops))).
Proof. intros maxw ops. destruct (lrun_linv maxw ops dinit linv_init) as [_ _ R H]. split; assumption. Qed.
Print Assumptions c12_lock_grants_are_logged.

(** Multi-Paxos / Flexible Paxos, any quorum sizes, any sequence of handler
    calls: the state machine is given entries 1, 2, ..., _last_applied in that
    order, once each; the commit index stays inside the log. *)
Theorem c12_mpaxos_apply_in_order : forall c me l,
  let s := mrun c (minit me) l in
  consecutive 1 (mapp s) /\ mapplied s = zlen (mapp s) /\ 0 <= mcommit s <= zlen (mlog s) /\ mcommit s <= mapplied s.
Proof. intros c me l. destruct (mrun_minv c l (minit me) (minv_init me)) as [A B C [D E]]. cbn zeta. auto. Qed.
Print Assumptions c12_mpaxos_apply_in_order.

(** Per-slot agreement is REFUTED on the faithful model of MultiPaxosNode
    (leader takeover; known finding C12-mpaxos-takeover-overwrites-slot) ... *)
Theorem c12_multipaxos_slot_agreement_refuted : ~ slot_agreement_statement false.
Proof. refine (slot_agreement_refuted_by _ _ _ takeover_witness); lia. Qed.
Print Assumptions c12_multipaxos_slot_agreement_refuted.

(** ... and of FlexiblePaxosNode with intersecting quorums, even with a single
    leader and no loss (reordered Accepts; C12-mpaxos-accept-appended-at-wrong-slot). *)
Theorem c12_flexpaxos_slot_agreement_refuted : ~ slot_agreement_statement true.
Proof. refine (slot_agreement_refuted_by _ _ _ reorder_witness); lia. Qed.
Print Assumptions c12_flexpaxos_slot_agreement_refuted.

(** Leader liveness is REFUTED for both (C12-mpaxos-submit-not-replicated):
    a fault-free run ends with a quiet network, a leader holding the command in
    its log, and a node that never applied it. *)
Theorem c12_flexpaxos_leader_liveness_refuted : ~ leader_liveness_statement true.
Proof. refine (leader_liveness_refuted_by _ _ _ quiet_witness); lia. Qed.
Print Assumptions c12_flexpaxos_leader_liveness_refuted.

Theorem c12_multipaxos_leader_liveness_refuted : ~ leader_liveness_statement false.
Proof. refine (leader_liveness_refuted_by _ _ _ multi_quiet_witness); lia. Qed.
Print Assumptions c12_multipaxos_leader_liveness_refuted.

(** The two mechanisms behind it, for every state: submit() sends nothing, and
    MultiPaxosNode steps down on its own heartbeat tick. *)
Theorem c12_mpaxos_submit_sends_nothing : forall c s cmd, snd (mstep c s (MSubmit cmd)) = [].
Proof. intros c s cmd. cbn [mstep]. destruct (misl s); reflexivity. Qed.
Print Assumptions c12_mpaxos_submit_sends_nothing.

Theorem c12_multipaxos_own_tick_demotes : forall c s bn bnode commit,
  mflex c = false -> bal_leb (mbal s) (bn, bnode) = true ->
  misl (fst (mstep c s (MHeartbeat bn bnode commit true))) = false.
Proof. exact multipaxos_own_tick_demotes. Qed.
Print Assumptions c12_multipaxos_own_tick_demotes.

(** LEADER ELECTION (Bully, Ring, Randomized), all nodes configured with the
    same member map: under any delays, reordering, loss, timeout timing and
    random draws, any two nodes that ever report a leader — at any two moments
    of the run, for the same term or not — report the same one. *)
Theorem c12_election_one_leader : forall members mx, In mx members -> (forall m, In m members -> m <= mx) ->
  forall strat tmo hb sch ext i j a b,
  Forall (act_ok members) (sch ++ ext) ->
  eleader (enodes (esys_run (cf members strat tmo hb) sch) i) = Some a ->
  eleader (enodes (esys_run (cf members strat tmo hb) (sch ++ ext)) j) = Some b -> a = b.
Proof.
  intros members mx I M strat tmo hb sch ext i j a b F A B.
  rewrite (leader_is_greatest members mx I M strat tmo hb _ _ _ F B).
  apply Forall_app in F as [F _]. exact (leader_is_greatest members mx I M strat tmo hb _ _ _ F A).
Qed.
Print Assumptions c12_election_one_leader.

(** The order of the CODE's ballots: the comparison [@dataclass(frozen=True, order=True)] generates
    for [Ballot] (lexicographic on the compared fields in declaration order; regenerated from the
    class body of consensus/paxos.py on every run, Gen/PaxosGen.v) is the model's [bal_ltb] on
    (number, node id), and a strict total order — what "one value per ballot" and the promise /
    accept comparisons of every Paxos theorem above rest on.  (dataclass derives <=, >, >= from
    the same field tuple.) *)
Theorem c12_code_ballot_order : forall a b c : Ballot,
  Ballot___lt__ a b = bal_ltb (bal_of a) (bal_of b)
  /\ Ballot___lt__ a a = false
  /\ (Ballot___lt__ a b = true -> Ballot___lt__ b c = true -> Ballot___lt__ a c = true)
  /\ (Ballot___lt__ a b = true \/ Ballot___lt__ b a = true \/ bal_of a = bal_of b).
Proof. intros a b c. exact (conj (tie_ballot_lt a b) (ballot_lt_strict_total a b c)). Qed.
Print Assumptions c12_code_ballot_order.

(** The quorum of the CODE: PaxosNode.quorum_size, regenerated from consensus/paxos.py on every run, is
    the model's [quorum] for a configuration with as many peers, and a strict majority of the cluster
    (node + peers), so any two quorums intersect — what "chosen unique" and agreement rest on. *)
Theorem c12_code_quorum_is_majority : forall (n : PaxosNode) (c : pcfg),
  (length (peers c) = length (PaxosNode__peers n) -> PaxosNode_quorum_size n = quorum c)
  /\ (let total := Z.of_nat (length (PaxosNode__peers n)) + 1 in
      2 * PaxosNode_quorum_size n > total /\ PaxosNode_quorum_size n <= total).
Proof. intros n c. exact (conj (tie_paxos_quorum n c) (paxos_quorum_majority n)). Qed.
Print Assumptions c12_code_quorum_is_majority.
