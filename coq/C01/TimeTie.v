(** C01 — simulation time, tied to the code: [Instant] / [Duration] of
    core/temporal.py, as REGENERATED on every run ([Gen/TemporalGen.v], py2coq;
    finite instants, the float-seconds branches are not translated), read as
    nanosecond counts [ins] / [dns] — the reading of time the engine model,
    every component model and the idiom table of the other translations
    (Instant/Duration = Z nanoseconds) rest on. *)
From HS Require Import Base.Prelude Gen.TemporalGen.
Local Open Scope Z_scope.

Definition ins (t : Instant) : Z := Instant_nanoseconds t.
Definition dns (d : Duration) : Z := Duration_nanoseconds d.

(** What the models use silently: shifting forth and back is the identity, the
    order is a strict total order compatible with shifting, equal counts are equal values. *)
Lemma instant_laws (t u : Instant) (d : Duration) :
  Instant___sub___dur (Instant___add___dur t d) d = t
  /\ Instant___add___dur u (Instant___sub___inst t u) = t
  /\ (Instant___eq__ t u = true <-> t = u)
  /\ (Instant___lt__ t u = true -> Instant___lt__ u t = false)
  /\ (Instant___lt__ t u = true \/ Instant___lt__ u t = true \/ t = u)
  /\ (Instant___lt__ (Instant___add___dur t d) (Instant___add___dur u d) = Instant___lt__ t u)
  /\ (0 <= dns d -> Instant___le__ t (Instant___add___dur t d) = true).
Proof.
  destruct t as [a], u as [b], d as [c].
  unfold Instant___sub___dur, Instant___add___dur, Instant___sub___inst, Instant___eq__, Instant___lt__, Instant___le__, dns. cbn.
  repeat split; try (f_equal; lia); try lia.
  - intros H. f_equal. lia.
  - intros H. inversion H. lia.
  - destruct (Z.lt_trichotomy a b) as [H|[H|H]]; [left; lia|right; right; f_equal; exact H|right; left; lia].
Qed.
