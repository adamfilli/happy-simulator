(** C20 — t-digest.  On binary64 (the arithmetic the code runs on) both
    clauses are REFUTED by concrete witnesses; over exact rationals the same
    definitions satisfy both, for every digest built by adds, flushes and
    merges (PARTIAL). *)
From HS Require Import Base.Prelude Base.Lists C20.Model C20.Counting.
From Coq Require Import Floats QArith Lqa Sorting.Sorted Sorting.Permutation.
Local Open Scope Z_scope.

(** The clauses, for an arbitrary arithmetic. [adds] is a stream of (value, count). *)
Definition td_of (A : arith) msz bs (adds : list (Model.num A * Z)) : tdig A :=
  fold_left (fun s vc => fst (td_add A msz bs s (fst vc) (snd vc))) adds (td_empty A).

Definition td_range_statement (A : arith) (msz : Z -> Model.num A -> Model.num A) (bs : Z) : Prop :=
  forall adds q v mn mx,
    let r := td_quantile A msz (td_of A msz bs adds) q in
    snd r = Some v -> td_min (fst r) = Some mn -> td_max (fst r) = Some mx ->
    a_leb A mn v = true /\ a_leb A v mx = true.

Definition td_monotone_statement (A : arith) (msz : Z -> Model.num A -> Model.num A) (bs : Z) : Prop :=
  forall adds q1 q2 v1 v2,
    a_leb A q1 q2 = true ->
    snd (td_quantile A msz (td_of A msz bs adds) q1) = Some v1 ->
    snd (td_quantile A msz (td_of A msz bs adds) q2) = Some v2 ->
    a_leb A v1 v2 = true.

(** binary64 witness: add(2.7, count=3) into TDigest(compression=1) *)
Definition w_adds : list (float * Z) := [(0x1.599999999999ap+1%float, 3)].
Definition w_q1 : float := 0x1.f8p-1%float.                    (* 0.984375 *)
Definition w_q2 : float := 1%float.
Definition w_max : float := 0x1.599999999999ap+1%float.        (* 2.7 = min = max *)
Definition w_v1 : float := 0x1.599999999999bp+1%float.         (* 2.7000000000000006 = quantile(0.984375) *)

Lemma w_quantile : snd (td_quantile FA (f_msz 1%float) (td_of FA (f_msz 1%float) 2 w_adds) w_q1) = Some w_v1.
Proof. vm_compute. reflexivity. Qed.

Lemma w_above_max : a_leb FA w_v1 w_max = false.
Proof. vm_compute. reflexivity. Qed.

Definition QA : arith :=
  Model.Build_arith Q Qplus Qminus Qmult Qdiv inject_Z (fun a b => negb (Qle_bool b a)) Qle_bool Qeq_bool.

Local Open Scope Q_scope.

Lemma leb_spec a b : BoolSpec (a <= b) (b < a) (a_leb QA a b).
Proof.
  cbn. destruct (Qle_bool a b) eqn:E; constructor.
  - apply Qle_bool_iff, E.
  - apply Qnot_le_lt. intros L. apply Qle_bool_iff in L. congruence.
Qed.
Lemma ltb_spec a b : BoolSpec (a < b) (b <= a) (a_ltb QA a b).
Proof. change (a_ltb QA a b) with (negb (a_leb QA b a)). destruct (leb_spec b a); constructor; assumption. Qed.
Lemma eqb_spec a b : BoolSpec (a == b) (~ a == b) (a_eqb QA a b).
Proof.
  cbn. destruct (Qeq_bool a b) eqn:E; constructor.
  - apply Qeq_bool_iff, E.
  - intros H. apply Qeq_bool_iff in H. congruence.
Qed.
Lemma between_spec a t b : BoolSpec (a <= t /\ t <= b) (t < a \/ b < t) (a_leb QA a t && a_leb QA t b).
Proof. destruct (leb_spec a t), (leb_spec t b); constructor; auto. Qed.

Lemma injZ_pos c : (0 < c)%Z -> 0 < inject_Z c.
Proof. intros H. unfold Qlt, inject_Z. cbn. lia. Qed.

Lemma frac01 a d : 0 <= a -> a <= d -> 0 < d -> 0 <= a / d /\ a / d <= 1.
Proof.
  intros Ha Had Hd. split.
  - apply Qle_shift_div_l; [exact Hd|]. lra.
  - apply Qle_shift_div_r; [exact Hd|]. lra.
Qed.
Lemma div_mono a b d : a <= b -> 0 < d -> a / d <= b / d.
Proof. intros H Hd. unfold Qdiv. apply Qmult_le_compat_r; [exact H|]. apply Qlt_le_weak, Qinv_lt_0_compat, Hd. Qed.
Lemma halves x : x / inject_Z 2 + x / inject_Z 2 == x.
Proof. field. Qed.

Lemma lerp a b f : a <= b -> 0 <= f -> f <= 1 -> a <= a + f * (b - a) /\ a + f * (b - a) <= b.
Proof.
  intros. assert (0 <= f * (b - a)) by (apply Qmult_le_0_compat; lra).
  assert (0 <= (1 - f) * (b - a)) by (apply Qmult_le_0_compat; lra). split; lra.
Qed.
Lemma lerp_mono a b f g : a <= b -> f <= g -> a + f * (b - a) <= a + g * (b - a).
Proof. intros. assert (0 <= (g - f) * (b - a)) by (apply Qmult_le_0_compat; lra). lra. Qed.

Lemma wmean lo hi m1 m2 c1 c2 : lo <= m1 -> m1 <= hi -> lo <= m2 -> m2 <= hi -> 0 < c1 -> 0 < c2 ->
  lo <= (m1 * c1 + m2 * c2) / (c1 + c2) /\ (m1 * c1 + m2 * c2) / (c1 + c2) <= hi.
Proof.
  intros. assert (0 < c1 + c2) by lra. split.
  - apply Qle_shift_div_l; [assumption|]. nra.
  - apply Qle_shift_div_r; [assumption|]. nra.
Qed.

Definition okc (lo hi : Q) (c : Q * Z) : Prop := lo <= fst c /\ fst c <= hi /\ (0 < snd c)%Z.
Definition okv (lo hi : Q) (v : Q) : Prop := lo <= v /\ v <= hi.
Fixpoint csum (cs : list (Q * Z)) : Z := match cs with [] => 0%Z | c :: r => (snd c + csum r)%Z end.
Definition csorted (cs : list (Q * Z)) : Prop := StronglySorted (fun a b => fst a <= fst b) cs.

Lemma csorted_inv c rest : csorted (c :: rest) -> csorted rest /\ forall c', In c' rest -> fst c <= fst c'.
Proof. exact (ss_cons _ c rest). Qed.

(** [td_walk] on the centroid [(m, c)] the target falls on: [m], or a ramp towards the
    minimum (first centroid), the previous mean (middle) or the maximum (last). *)
Definition cell (lo hi : Q) (total : Z) (prev : option Q) (running m : Q) (c : Z) (rest : list (Q * Z)) (t : Q) : Q :=
  match prev with
  | None => if a_ltb QA t (inject_Z c / inject_Z 2) then lo + t / (inject_Z c / inject_Z 2) * (m - lo) else m
  | Some pm =>
      match rest with
      | [] =>
          let h := (inject_Z total - running) / inject_Z 2 in
          if a_ltb QA (running + h) t then m + (t - running - h) / h * (hi - m) else m
      | _ =>
          let f := (t - running) / inject_Z c in
          if a_ltb QA f (1 # 2) then pm + (m - pm) * ((1 # 2) + f) else m
      end
  end.

Lemma walk_cons lo hi total t prev running m c rest :
  td_walk QA lo hi total t prev running ((m, c) :: rest) =
  if a_leb QA running t && a_leb QA t (match rest with [] => inject_Z total | _ => running + inject_Z c end)
  then cell lo hi total prev running m c rest t
  else td_walk QA lo hi total t (Some m) (running + inject_Z c) rest.
Proof. reflexivity. Qed.

(** The value below which the walk cannot fall: the previous mean, or the minimum. *)
Definition lower (lo : Q) (prev : option Q) : Q := match prev with Some pm => pm | None => lo end.

(** The walk in front of [cs], with weight [running] already passed. *)
Definition wok (lo hi : Q) (total : Z) (prev : option Q) (running : Q) (cs : list (Q * Z)) : Prop :=
  Forall (okc lo hi) cs /\ csorted cs /\ lower lo prev <= hi /\ (forall c, In c cs -> lower lo prev <= fst c) /\
  0 <= running /\ running + inject_Z (csum cs) == inject_Z total.

Lemma wok_cons lo hi total prev running m c rest : wok lo hi total prev running ((m, c) :: rest) ->
  lower lo prev <= m /\ m <= hi /\ 0 <= running /\ 0 < inject_Z c /\
  (rest = [] -> inject_Z total == running + inject_Z c) /\
  wok lo hi total (Some m) (running + inject_Z c) rest.
Proof.
  intros (F & S & _ & P & R & T). apply Forall_cons_iff in F. destruct F as [(_ & M & C) F].
  apply csorted_inv in S. destruct S as [S L]. apply injZ_pos in C.
  specialize (P _ (or_introl eq_refl)). cbn [csum fst snd] in *. rewrite inject_Z_plus in T.
  repeat split; try assumption; try lra.
  intros ->. change (inject_Z (csum [])) with 0 in T. lra.
Qed.

Lemma wok_total lo hi total prev running cs : wok lo hi total prev running cs -> running <= inject_Z total.
Proof.
  intros (F & _ & _ & _ & _ & T). rewrite <- T. assert (0 <= inject_Z (csum cs)); [|lra].
  rewrite <- (Zle_Qle 0). clear T. induction F as [|x l (_ & _ & C)]; cbn [csum]; lia.
Qed.

Lemma walk_step lo hi total t prev running m c rest : wok lo hi total prev running ((m, c) :: rest) ->
  let w := td_walk QA lo hi total t prev running ((m, c) :: rest) in
  (running <= t /\ t <= running + inject_Z c /\ w = cell lo hi total prev running m c rest t) \/
  ((t < running \/ running + inject_Z c < t) /\
   w = td_walk QA lo hi total t (Some m) (running + inject_Z c) rest).
Proof.
  intros W. apply wok_cons in W. destruct W as (_ & _ & _ & _ & Last & _). cbv zeta. rewrite walk_cons.
  destruct rest as [|r rest']; cbv iota.
  - destruct (between_spec running t (inject_Z total)) as [B|B]; rewrite (Last eq_refl) in B;
      [left; destruct B|right]; auto.
  - destruct (between_spec running t (running + inject_Z c)) as [B|B]; [left; destruct B|right]; auto.
Qed.

Section Cell.
Variables (lo hi : Q) (total : Z) (prev : option Q) (running m : Q) (c : Z) (rest : list (Q * Z)).
Hypothesis W : wok lo hi total prev running ((m, c) :: rest).

Lemma cell_bounds t : running <= t -> t <= running + inject_Z c ->
  lower lo prev <= cell lo hi total prev running m c rest t /\
  cell lo hi total prev running m c rest t <= hi /\
  (rest <> [] -> cell lo hi total prev running m c rest t <= m).
Proof.
  intros T1 T2. destruct (wok_cons _ _ _ _ _ _ _ _ W) as (Pm & Mh & R & C & Last & _). unfold cell.
  destruct prev as [pm|]; [destruct rest as [|r rest']|]; cbn [lower] in Pm |- *; cbv zeta.
  - specialize (Last eq_refl). pose proof (halves (inject_Z total - running)) as Hh.
    set (h := (inject_Z total - running) / inject_Z 2) in *.
    destruct (ltb_spec (running + h) t) as [L|L]; [|repeat split; lra].
    destruct (frac01 (t - running - h) h) as [F0 F1]; [lra..|].
    destruct (lerp m hi _ Mh F0 F1). repeat split; [lra|lra|congruence].
  - destruct (ltb_spec ((t - running) / inject_Z c) (1 # 2)) as [L|L]; [|repeat split; lra].
    destruct (frac01 (t - running) (inject_Z c)) as [F0 _]; [lra..|].
    destruct (lerp pm m ((1 # 2) + (t - running) / inject_Z c)) as [A B]; [lra..|].
    repeat split; lra.
  - pose proof (halves (inject_Z c)) as Hh. set (h := inject_Z c / inject_Z 2) in *.
    destruct (ltb_spec t h) as [L|L]; [|repeat split; lra].
    destruct (frac01 t h) as [F0 F1]; [lra..|].
    destruct (lerp lo m _ Pm F0 F1). repeat split; lra.
Qed.

Lemma cell_mono t1 t2 : running <= t1 -> t1 <= t2 -> t2 <= running + inject_Z c ->
  cell lo hi total prev running m c rest t1 <= cell lo hi total prev running m c rest t2.
Proof.
  intros T1 T12 T2. destruct (wok_cons _ _ _ _ _ _ _ _ W) as (Pm & Mh & R & C & Last & _). unfold cell.
  destruct prev as [pm|]; [destruct rest as [|r rest']|]; cbn [lower] in Pm |- *; cbv zeta.
  - specialize (Last eq_refl). pose proof (halves (inject_Z total - running)) as Hh.
    set (h := (inject_Z total - running) / inject_Z 2) in *.
    pose proof (div_mono (t1 - running - h) (t2 - running - h) h) as D.
    destruct (ltb_spec (running + h) t1), (ltb_spec (running + h) t2); [|lra| |lra].
    + apply lerp_mono; [exact Mh|]. apply D; lra.
    + destruct (frac01 (t2 - running - h) h) as [F0 F1]; [lra..|]. destruct (lerp m hi _ Mh F0 F1). lra.
  - pose proof (div_mono (t1 - running) (t2 - running) (inject_Z c)) as D.
    destruct (ltb_spec ((t1 - running) / inject_Z c) (1 # 2)), (ltb_spec ((t2 - running) / inject_Z c) (1 # 2));
      [| |lra|lra].
    + pose proof (lerp_mono pm m ((1 # 2) + (t1 - running) / inject_Z c) ((1 # 2) + (t2 - running) / inject_Z c)). lra.
    + destruct (frac01 (t1 - running) (inject_Z c)) as [F0 _]; [lra..|].
      destruct (lerp pm m ((1 # 2) + (t1 - running) / inject_Z c)); lra.
  - pose proof (halves (inject_Z c)) as Hh. set (h := inject_Z c / inject_Z 2) in *.
    pose proof (div_mono t1 t2 h) as D.
    destruct (ltb_spec t1 h), (ltb_spec t2 h); [| |lra|lra].
    + apply lerp_mono; [exact Pm|]. apply D; lra.
    + destruct (frac01 t1 h) as [F0 F1]; [lra..|]. destruct (lerp lo m _ Pm F0 F1). lra.
Qed.
End Cell.

Lemma walk_bounds lo hi total t : forall cs prev running, wok lo hi total prev running cs ->
  lower lo prev <= td_walk QA lo hi total t prev running cs /\ td_walk QA lo hi total t prev running cs <= hi.
Proof.
  induction cs as [|[m c] rest IH]; intros prev running W.
  - destruct W as (_ & _ & H & _). destruct prev; cbn in *; lra.
  - destruct (walk_step lo hi total t _ _ _ _ _ W) as [(B1 & B2 & ->)|[_ ->]].
    + destruct (cell_bounds _ _ _ _ _ _ _ _ W t B1 B2) as (A & B & _). split; assumption.
    + apply wok_cons in W. destruct W as (Pm & _ & _ & _ & _ & W). apply IH in W. cbn [lower] in W. lra.
Qed.

Lemma walk_mono lo hi total t1 t2 : t1 <= t2 -> t2 <= inject_Z total ->
  forall cs prev running, wok lo hi total prev running cs -> running <= t1 ->
  td_walk QA lo hi total t1 prev running cs <= td_walk QA lo hi total t2 prev running cs.
Proof.
  intros T12 T2. induction cs as [|[m c] rest IH]; intros prev running W T1.
  - cbn. destruct prev; lra.
  - destruct (walk_step lo hi total t1 _ _ _ _ _ W) as [(A1 & A2 & ->)|[A ->]];
    destruct (walk_step lo hi total t2 _ _ _ _ _ W) as [(B1 & B2 & ->)|[B ->]]; [|  |lra|].
    + apply (cell_mono _ _ _ _ _ _ _ _ W); assumption.
    + (* t1 on this centroid, t2 beyond it: the cell stays below [m], the rest of the walk above *)
      destruct (cell_bounds _ _ _ _ _ _ _ _ W t1 A1 A2) as (_ & _ & U).
      apply wok_cons in W. destruct W as (_ & _ & _ & _ & Last & W).
      pose proof (walk_bounds lo hi total t2 _ _ _ W) as [L _]. cbn [lower] in L.
      apply Qle_trans with m; [apply U; intros E; specialize (Last E); lra|exact L].
    + apply wok_cons in W. apply IH; [apply W|lra].
Qed.

Lemma ins_by_perm A {X} key (x : X) l : Permutation (ins_by A key x l) (x :: l).
Proof.
  induction l as [|y r IH]; cbn [ins_by]; [reflexivity|]. destruct (a_ltb A _ _); [reflexivity|].
  rewrite IH. apply perm_swap.
Qed.
Lemma sort_by_perm A {X} key (l : list X) : Permutation (sort_by A key l) l.
Proof.
  unfold sort_by. change l with ([] ++ l) at 2. generalize (@nil X).
  induction l as [|x l IH]; intros acc; cbn [fold_left]; [now rewrite app_nil_r|].
  rewrite IH, ins_by_perm. apply Permutation_middle.
Qed.

Lemma flush_buf A msz (s : tdig A) : td_buf (td_flush A msz s) = [].
Proof. unfold td_flush. destruct (td_buf s) eqn:E; [exact E|reflexivity]. Qed.
Lemma flush_frame A msz (s : tdig A) :
  td_min (td_flush A msz s) = td_min s /\ td_max (td_flush A msz s) = td_max s /\
  td_total (td_flush A msz s) = td_total s.
Proof. unfold td_flush. destruct (td_buf s); auto. Qed.

Definition add_pre A (s : tdig A) (v : Model.num A) (c : Z) : tdig A :=
  {| td_cs := td_cs s; td_total := (td_total s + c)%Z; td_min := opt_min A (td_min s) v;
     td_max := opt_max A (td_max s) v; td_buf := td_buf s ++ repeat v (Z.to_nat c) |}.

Lemma td_add_fst A msz bs s v c :
  fst (td_add A msz bs s v c) =
  if (0 <? c)%Z
  then if (bs <=? Z.of_nat (length (td_buf (add_pre A s v c))))%Z then td_flush A msz (add_pre A s v c) else add_pre A s v c
  else s.
Proof. apply guard_fst. Qed.

Lemma csum_app a b : csum (a ++ b) = (csum a + csum b)%Z.
Proof. induction a as [|x a IH]; cbn; [reflexivity|]. rewrite IH. lia. Qed.
Lemma csum_perm a b : Permutation a b -> csum a = csum b.
Proof. induction 1; cbn [csum]; lia. Qed.
Lemma csum_singles (l : list Q) : csum (map (fun v => (v, 1%Z)) l) = Z.of_nat (length l).
Proof. induction l as [|v l IH]; cbn [map csum length snd]; [reflexivity|]. rewrite IH. lia. Qed.

Lemma merge2_ok lo hi a b : okc lo hi a -> okc lo hi b -> okc lo hi (c_merge2 QA a b).
Proof.
  intros (A1 & A2 & A3) (B1 & B2 & B3). unfold c_merge2, okc. cbn [fst snd a_add a_mul a_div a_ofZ QA].
  pose proof (injZ_pos _ A3). pose proof (injZ_pos _ B3).
  destruct (wmean lo hi (fst a) (fst b) (inject_Z (snd a)) (inject_Z (snd b))) as [W1 W2]; try assumption.
  rewrite inject_Z_plus. split; [exact W1|]. split; [exact W2|]. apply Z.add_pos_pos; assumption.
Qed.

(** One step of [_compress]: the mean of two adjacent centroids lies between them. *)
Lemma merge_adjacent lo hi l1 a b l2 :
  Forall (okc lo hi) (l1 ++ a :: b :: l2) -> csorted (l1 ++ a :: b :: l2) ->
  Forall (okc lo hi) (l1 ++ c_merge2 QA a b :: l2) /\ csorted (l1 ++ c_merge2 QA a b :: l2) /\
  csum (l1 ++ c_merge2 QA a b :: l2) = csum (l1 ++ a :: b :: l2).
Proof.
  intros F S. apply Forall_app in F. destruct F as [F1 F]. apply Forall_cons_iff in F. destruct F as [Fa F].
  apply Forall_cons_iff in F. destruct F as [Fb F2].
  apply ss_app in S. destruct S as (S1 & S & Cross). apply csorted_inv in S. destruct S as [S Ha].
  apply csorted_inv in S. destruct S as [S2 Hb]. pose proof (Ha b (or_introl eq_refl)) as Hab.
  assert (M : okc (fst a) (fst b) (c_merge2 QA a b)).
  { destruct Fa as (_ & _ & Ca), Fb as (_ & _ & Cb). apply merge2_ok; repeat split; (assumption || lra). }
  destruct M as (M1 & M2 & _). split; [|split].
  - apply Forall_app. split; [exact F1|]. constructor; [apply merge2_ok; assumption|exact F2].
  - apply ss_app. repeat split; [exact S1| |].
    + constructor; [exact S2|]. apply Forall_forall. intros x Hx. specialize (Hb x Hx). cbn in *. lra.
    + intros x y Hx [<-|Hy]; [specialize (Cross x a Hx (or_introl eq_refl)); cbn in *; lra|].
      apply Cross; [exact Hx|right; right; exact Hy].
  - rewrite !csum_app. unfold c_merge2. cbn [csum snd]. change (Model.num QA) with Q. lia.
Qed.

Section QInv.
Variable msz : Z -> Q -> Q.
Variable bs : Z.

Lemma cloop_ok lo hi total cs : forall acc running,
  Forall (okc lo hi) (rev acc ++ cs) -> csorted (rev acc ++ cs) ->
  Forall (okc lo hi) (td_cloop QA msz total acc running cs) /\ csorted (td_cloop QA msz total acc running cs) /\
  csum (td_cloop QA msz total acc running cs) = csum (rev acc ++ cs).
Proof.
  induction cs as [|c rest IH]; intros acc running F S; cbn [td_cloop].
  - rewrite app_nil_r in *. auto.
  - destruct acc as [|last acc']; [apply IH; assumption|].
    cbn [rev] in *. rewrite <- app_assoc in *. cbn [app] in *. destruct (a_leb QA _ _).
    + destruct (merge_adjacent lo hi _ _ _ _ F S) as (F' & S' & E). rewrite <- E.
      specialize (IH (c_merge2 QA last c :: acc') (running + snd c)%Z). cbn [rev] in IH.
      rewrite <- app_assoc in IH. apply IH; assumption.
    + specialize (IH (c :: last :: acc') (running + snd c)%Z). cbn [rev] in IH.
      rewrite <- !app_assoc in IH. apply IH; assumption.
Qed.

Lemma ins_sorted (x : Q * Z) l : csorted l -> csorted (ins_by QA fst x l).
Proof.
  induction l as [|y r IH]; intros H; cbn [ins_by].
  - constructor; constructor.
  - apply csorted_inv in H. destruct H as [H1 H2]. change (Model.num QA) with Q. destruct (ltb_spec (fst x) (fst y)) as [L|L].
    + constructor; [constructor; [exact H1|now apply Forall_forall]|].
      constructor; [lra|]. apply Forall_forall. intros a Ha. specialize (H2 a Ha). lra.
    + constructor; [apply IH; exact H1|].
      apply (Permutation_Forall (Permutation_sym (ins_by_perm QA fst x r))). constructor; [exact L|now apply Forall_forall].
Qed.

Lemma sort_sorted (l : list (Q * Z)) : csorted (sort_by QA fst l).
Proof. unfold sort_by. apply fold_left_inv; [|constructor]. intros acc x. apply ins_sorted. Qed.

(** [_compress] sorts first, so its result is sorted whatever the order of the input. *)
Lemma compress_ok lo hi total cs : Forall (okc lo hi) cs ->
  Forall (okc lo hi) (td_compress QA msz total cs) /\ csorted (td_compress QA msz total cs) /\
  csum (td_compress QA msz total cs) = csum cs.
Proof.
  intros F. unfold td_compress. destruct cs as [|c1 [|c2 r]]; [split; [exact F|split; [repeat constructor|reflexivity]]..|].
  rewrite <- (csum_perm _ _ (sort_by_perm QA fst (c1 :: c2 :: r))).
  apply (cloop_ok lo hi total _ [] 0%Z); [|apply sort_sorted].
  apply (Permutation_Forall (Permutation_sym (sort_by_perm QA fst _))), F.
Qed.

Lemma compress_sorted lo hi total cs : Forall (okc lo hi) cs -> csorted cs -> csorted (td_compress QA msz total cs).
Proof. intros F _. apply (compress_ok lo hi), F. Qed.

Definition binv (lo hi : Q) (s : tdig QA) : Prop :=
  Forall (okc lo hi) (td_cs s) /\ Forall (okv lo hi) (td_buf s) /\
  (csum (td_cs s) + Z.of_nat (length (td_buf s)) = td_total s)%Z.

Definition tinv (s : tdig QA) : Prop :=
  match td_min s, td_max s with
  | Some lo, Some hi => lo <= hi /\ binv lo hi s
  | None, None => td_cs s = [] /\ td_buf s = [] /\ td_total s = 0%Z
  | _, _ => False
  end.

Lemma tinv_intro lo hi (s : tdig QA) : td_min s = Some lo -> td_max s = Some hi -> lo <= hi -> binv lo hi s -> tinv s.
Proof. unfold tinv. intros -> -> L B. split; assumption. Qed.

Lemma tinv_inv s : tinv s ->
  s = td_empty QA \/ exists lo hi, td_min s = Some lo /\ td_max s = Some hi /\ lo <= hi /\ binv lo hi s.
Proof.
  unfold tinv. destruct s as [cs tot [lo|] [hi|] buf]; cbn; try contradiction.
  - intros [L B]. right. exists lo, hi. auto.
  - intros (-> & -> & ->). left. reflexivity.
Qed.

(** A digest's bounds can be widened; the empty digest fits any bounds. *)
Lemma tinv_binv lo hi s : tinv s ->
  (forall m, td_min s = Some m -> lo <= m) -> (forall m, td_max s = Some m -> m <= hi) -> binv lo hi s.
Proof.
  intros H Hlo Hhi. destruct (tinv_inv s H) as [->|(lo0 & hi0 & E1 & E2 & _ & A & B & C)].
  - repeat split; constructor.
  - specialize (Hlo _ E1). specialize (Hhi _ E2). repeat split; [| |exact C].
    + eapply Forall_impl; [|exact A]. intros c (X & Y & Z). unfold okc. repeat split; try assumption; lra.
    + eapply Forall_impl; [|exact B]. intros v (X & Y). unfold okv. split; lra.
Qed.

Lemma opt_min_spec o v : exists m, opt_min QA o v = Some m /\ m <= v /\ forall lo, o = Some lo -> m <= lo.
Proof.
  destruct o as [lo|]; cbn [opt_min].
  - destruct (ltb_spec v lo); eexists; (split; [reflexivity|]); split; try lra; intros ? [= <-]; lra.
  - exists v. split; [reflexivity|]. split; [lra|discriminate].
Qed.
Lemma opt_max_spec o v : exists m, opt_max QA o v = Some m /\ v <= m /\ forall hi, o = Some hi -> hi <= m.
Proof.
  destruct o as [hi|]; cbn [opt_max].
  - destruct (ltb_spec hi v); eexists; (split; [reflexivity|]); split; try lra; intros ? [= <-]; lra.
  - exists v. split; [reflexivity|]. split; [lra|discriminate].
Qed.

Definition sinv (s : tdig QA) : Prop := tinv s /\ csorted (td_cs s).

Lemma flush_binv lo hi s : binv lo hi s -> csorted (td_cs s) ->
  binv lo hi (td_flush QA msz s) /\ csorted (td_cs (td_flush QA msz s)).
Proof.
  intros B Hso. unfold td_flush. destruct (td_buf s) as [|b0 br] eqn:E; [split; assumption|].
  rewrite <- E. clear E. destruct B as (Hc & Hb & Hs). unfold binv. cbn [td_cs td_buf td_total].
  destruct (compress_ok lo hi (td_total s) (td_cs s ++ map (fun v => (v, 1%Z)) (sort_by QA (fun v => v) (td_buf s)))) as (F & S & C).
  { apply Forall_app. split; [exact Hc|]. apply Forall_map.
    apply (Permutation_Forall (Permutation_sym (sort_by_perm QA _ _))).
    eapply Forall_impl; [|exact Hb]. intros v [V1 V2]. unfold okc. cbn. repeat split; auto; reflexivity. }
  repeat split; [exact F|constructor| |exact S].
  rewrite C, csum_app, csum_singles, (Permutation_length (sort_by_perm QA _ _)). cbn [length].
  change (Model.num QA) with Q in *. lia.
Qed.

Lemma flush_sinv s : sinv s -> sinv (td_flush QA msz s).
Proof.
  intros [H S]. destruct (tinv_inv s H) as [->|(lo & hi & E1 & E2 & L & B)]; [split; assumption|].
  destruct (flush_binv lo hi s B S) as [B' S']. destruct (flush_frame QA msz s) as (M1 & M2 & _).
  split; [|exact S']. apply (tinv_intro lo hi); congruence.
Qed.

Lemma add_pre_sinv s v c : (0 <= c)%Z -> sinv s -> sinv (add_pre QA s v c).
Proof using.
  clear msz bs. intros C [H S]. split; [|exact S].
  destruct (opt_min_spec (td_min s) v) as (lo & E1 & L1 & L2), (opt_max_spec (td_max s) v) as (hi & E2 & H1 & H2).
  apply (tinv_intro lo hi); [exact E1|exact E2|lra|].
  destruct (tinv_binv lo hi s H L2 H2) as (A & B & T). unfold binv, add_pre. cbn [td_cs td_buf td_total].
  repeat split; [exact A| |].
  - apply Forall_app. split; [exact B|]. apply Forall_forall. intros x Hx. apply repeat_spec in Hx. subst x. split; assumption.
  - rewrite app_length, repeat_length. change (Model.num QA) with Q in *. lia.
Qed.

Lemma add_sinv s v c : sinv s -> sinv (fst (td_add QA msz bs s v c)).
Proof.
  intros H. rewrite td_add_fst. destruct (Z.ltb_spec 0 c); [|exact H].
  pose proof (add_pre_sinv s v c ltac:(lia) H) as H1. destruct (bs <=? _)%Z; [apply flush_sinv|]; exact H1.
Qed.

Lemma merged_binv lo hi a b mn mx : binv lo hi a -> binv lo hi b -> td_buf a = [] -> td_buf b = [] ->
  let m := {| td_cs := td_compress QA msz (td_total a + td_total b) (td_cs a ++ td_cs b);
              td_total := td_total a + td_total b; td_min := mn; td_max := mx; td_buf := [] |} in
  binv lo hi m /\ csorted (td_cs m).
Proof.
  intros (Fa & _ & Ta) (Fb & _ & Tb) Ea Eb. cbv zeta. unfold binv. cbn [td_cs td_buf td_total].
  destruct (compress_ok lo hi (td_total a + td_total b) (td_cs a ++ td_cs b)) as (F & S & C);
    [apply Forall_app; split; assumption|].
  repeat split; [exact F|constructor| |exact S].
  rewrite C, csum_app. rewrite Ea in Ta. rewrite Eb in Tb. cbn [length] in *. lia.
Qed.

Lemma merge_sinv a b : sinv a -> sinv b -> sinv (fst (td_merge QA msz a b)).
Proof.
  intros Ha Hb. apply flush_sinv in Ha. apply flush_sinv in Hb. destruct Ha as [Ha _], Hb as [Hb _].
  unfold td_merge. cbn [fst].
  pose proof (flush_buf QA msz a) as Ea. pose proof (flush_buf QA msz b) as Eb.
  set (a1 := td_flush QA msz a) in *. set (b1 := td_flush QA msz b) in *.
  destruct (tinv_inv b1 Hb) as [Eb1|(lb & hb & B1 & B2 & Lb & _)].
  - rewrite Eb1 in *. cbn [td_min td_max td_empty].
    destruct (tinv_inv a1 Ha) as [Ea1|(la & ha & A1 & A2 & La & Ba)].
    + rewrite Ea1. cbn. repeat split; constructor.
    + destruct (merged_binv la ha a1 (td_empty QA) (td_min a1) (td_max a1) Ba) as [B S]; [|assumption|reflexivity|].
      { apply tinv_binv; [exact Hb|discriminate..]. }
      split; [|exact S]. apply (tinv_intro la ha); assumption.
  - rewrite B1, B2.
    destruct (opt_min_spec (td_min a1) lb) as (lo & E1 & L1 & L2), (opt_max_spec (td_max a1) hb) as (hi & E2 & H1 & H2).
    destruct (merged_binv lo hi a1 b1 (opt_min QA (td_min a1) lb) (opt_max QA (td_max a1) hb)) as [B S];
      [apply tinv_binv; assumption| |assumption..|].
    { apply tinv_binv; [exact Hb|intros m E|intros m E]; rewrite E in *; [injection B1 as <-|injection B2 as <-]; lra. }
    split; [|exact S]. apply (tinv_intro lo hi); [exact E1|exact E2|lra|exact B].
Qed.

(** Every digest built by adds, flushes and merges. *)
Inductive reach : tdig QA -> Prop :=
| reach_empty : reach (td_empty QA)
| reach_add s v c : reach s -> reach (fst (td_add QA msz bs s v c))
| reach_flush s : reach s -> reach (td_flush QA msz s)
| reach_merge a b : reach a -> reach b -> reach (fst (td_merge QA msz a b)).

Lemma reach_sinv s : reach s -> sinv s.
Proof.
  induction 1; [repeat split; constructor|now apply add_sinv|now apply flush_sinv|now apply merge_sinv].
Qed.

Lemma td_of_reach adds : reach (td_of QA msz bs adds).
Proof. unfold td_of. apply fold_left_inv; [|constructor]. intros s vc. apply reach_add. Qed.

Lemma td_of_tinv adds : tinv (td_of QA msz bs adds).
Proof. apply reach_sinv, td_of_reach. Qed.

Lemma reach_wok s lo hi : reach s -> let s1 := td_flush QA msz s in
  td_min s1 = Some lo -> td_max s1 = Some hi -> lo <= hi /\ wok lo hi (td_total s1) None 0 (td_cs s1).
Proof.
  intros R. cbv zeta. pose proof (flush_buf QA msz s) as Eb. set (s1 := td_flush QA msz s) in *. intros E1 E2.
  destruct (reach_sinv s1 (reach_flush s R)) as [H S].
  unfold tinv in H. rewrite E1, E2 in H. destruct H as [L (F & _ & T)].
  rewrite Eb in T. split; [exact L|]. repeat split; try assumption; try lra.
  - intros c Hc. rewrite Forall_forall in F. apply F, Hc.
  - rewrite <- T. cbn [length]. rewrite Z.add_0_r. lra.
Qed.

Definition qval (lo hi : Q) (s : tdig QA) (q : Q) : Q :=
  if a_eqb QA q 0 then lo else if a_eqb QA q 1 then hi
  else td_walk QA lo hi (td_total s) (q * inject_Z (td_total s)) None 0 (td_cs s).

Lemma qval_pair lo hi (s : tdig QA) q :
  (if a_eqb QA q 0 then (s, Some lo) else if a_eqb QA q 1 then (s, Some hi)
   else (s, Some (td_walk QA lo hi (td_total s) (q * inject_Z (td_total s)) None 0 (td_cs s)))) =
  (s, Some (qval lo hi s q)).
Proof. unfold qval. destruct (a_eqb QA q 0), (a_eqb QA q 1); reflexivity. Qed.

Lemma quantile_some s q v : snd (td_quantile QA msz s q) = Some v ->
  let s1 := td_flush QA msz s in
  fst (td_quantile QA msz s q) = s1 /\ 0 <= q /\ q <= 1 /\
  exists lo hi, td_min s1 = Some lo /\ td_max s1 = Some hi /\ v = qval lo hi s1 q.
Proof.
  unfold td_quantile. change (a_ofZ QA 0) with 0. change (a_ofZ QA 1) with 1.
  destruct (between_spec 0 q 1) as [[Q0 Q1]|]; [|discriminate]. cbn [negb]. set (s1 := td_flush QA msz s).
  (* [td_cs s1] is not empty; the goal keeps it under that name *)
  destruct (td_cs s1) eqn:Ec; [discriminate|]. rewrite <- Ec. clear Ec.
  destruct (td_min s1) as [lo|], (td_max s1) as [hi|]; try discriminate.
  rewrite qval_pair. cbn [fst snd]. intros [= <-].
  split; [reflexivity|]. split; [exact Q0|]. split; [exact Q1|]. exists lo, hi. auto.
Qed.

Lemma qval_range lo hi (s : tdig QA) q : lo <= hi -> wok lo hi (td_total s) None 0 (td_cs s) ->
  lo <= qval lo hi s q /\ qval lo hi s q <= hi.
Proof.
  intros L W. unfold qval. destruct (a_eqb QA q 0); [lra|]. destruct (a_eqb QA q 1); [lra|].
  apply (walk_bounds lo hi _ _ _ None 0 W).
Qed.

Lemma qval_mono lo hi (s : tdig QA) q1 q2 : lo <= hi -> wok lo hi (td_total s) None 0 (td_cs s) ->
  0 <= q1 -> q1 <= q2 -> q2 <= 1 -> qval lo hi s q1 <= qval lo hi s q2.
Proof.
  intros L W Q0 Q12 Q1. pose proof (qval_range lo hi s q1 L W) as R1. pose proof (qval_range lo hi s q2 L W) as R2.
  unfold qval in *.
  destruct (eqb_spec q1 0) as [|N1]; [lra|]. destruct (eqb_spec q2 0) as [E|_]; [exfalso; apply N1; lra|].
  destruct (eqb_spec q2 1) as [|N2]; [lra|]. destruct (eqb_spec q1 1) as [E|_]; [exfalso; apply N2; lra|].
  pose proof (wok_total _ _ _ _ _ _ W) as T.
  apply walk_mono; [nra|nra|exact W|nra].
Qed.

End QInv.

(** The exact-arithmetic theorems are not vacuous: a reachable digest whose
    quantile is defined. *)
Example td_exact_example :
  let msz := fun (_ : Z) (_ : Q) => 1%Q in
  let s := fst (td_add QA msz 2 (fst (td_add QA msz 2 (td_empty QA) (1 # 2) 1)) (3 # 2) 1) in
  reach msz 2 s /\ snd (td_quantile QA msz s (1 # 4)) = Some (1 # 2).
Proof.
  cbv zeta. split; [repeat constructor|]. vm_compute. reflexivity.
Qed.
