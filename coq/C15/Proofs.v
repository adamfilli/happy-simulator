(** C15 — the WAL + LSM crash/recovery model: replay and its idempotence, the
    counterexample to durability at an arbitrary crash point, and one write
    that runs alone (the step of the invariant in RestProofs.v). *)
From HS Require Import Base.Prelude Base.Lists C14.Model C14.LsmProofs C14.SeqProofs C15.Model.
Local Open Scope Z_scope.

Lemma filter_idem {A} (f : A -> bool) l : filter f (filter f l) = filter f l.
Proof.
  induction l as [|x r IH]; cbn; [reflexivity|].
  destruct (f x) eqn:E; cbn; [rewrite E; f_equal; exact IH|exact IH].
Qed.


Lemma wal_crash_idem w : wal_crash (wal_crash w) = wal_crash w.
Proof. unfold wal_crash. cbn [w_entries w_next w_synced w_last_sync]. f_equal. apply filter_idem. Qed.

Fixpoint last_for (k : Z) (es : list wentry) : option sval :=
  match es with
  | [] => None
  | e :: r => match last_for k r with Some v => Some v | None => if k =? e_key e then Some (e_val e) else None end
  end.

Lemma assoc_replay es : forall m k,
  assoc k (replay m es) = match last_for k es with Some v => Some v | None => assoc k m end.
Proof.
  unfold replay. induction es as [|e r IH]; intros m k; cbn [fold_left last_for]; [reflexivity|].
  rewrite IH. destruct (last_for k r); [reflexivity|]. rewrite assoc_sset. destruct (k =? e_key e); reflexivity.
Qed.

Lemma ssorted_replay es : forall m, ssorted m -> ssorted (replay m es).
Proof. apply (fold_left_inv _ ssorted). intros m e. apply ssorted_sset. Qed.

Lemma replay_idem es m : ssorted m -> replay (replay m es) es = replay m es.
Proof.
  intros Hm. apply asorted_ext; [apply ssorted_replay, ssorted_replay, Hm|apply ssorted_replay, Hm|].
  intros k. rewrite !assoc_replay. destruct (last_for k es); reflexivity.
Qed.

(** the writes a schedule starts, with the sequence numbers the WAL gives them *)
Fixpoint sched_writes (seq : Z) (sch : list dstep) : list wentry :=
  match sch with
  | [] => []
  | DStart _ k v :: r => (seq, k, v) :: sched_writes (seq + 1) r
  | DResume _ _ :: r => sched_writes seq r
  end.

Definition latest_write (k : Z) (sch : list dstep) : option wentry :=
  last (map Some (filter (fun e => e_key e =? k) (sched_writes 1 sch))) None.

(** Special case of the C15 statement in which the answer is determined: if
    the LATEST write to a key is durable at the crash instant (its sequence
    number is covered by synced_up_to), crash + recovery reads its value. *)
Definition durable_statement : Prop :=
  forall c p sch k e, (nlev c >= 1)%nat ->
    latest_write k sch = Some e ->
    e_seq e <= w_synced (d_wal (fst (dw_run c p bl_exact sch))) ->
    crash_read c p bl_exact sch k = ext (Some (e_val e)).

Definition w_cfg := mkCfg 2 2 (SizeTiered 4).
Definition w_sched : list dstep :=
  [DStart 1 0 (Val 10); DResume 1 100000; DResume 1 1100000; DResume 1 1110000;          (* put 0: logged, synced, in memtable *)
   DStart 2 1 (Val 20); DResume 2 2100000; DResume 2 3100000; DResume 2 3110000;          (* put 1: memtable full -> flush starts *)
   DStart 3 2 (Val 30); DResume 3 3300000; DResume 3 4300000; DResume 3 4310000;          (* put 2 during the flush: synced, in the NEW memtable *)
   DResume 2 5110000].                                                                    (* flush ends: WAL truncated at next_sequence-1 = 3 *)

Lemma w_synced_3 : w_synced (d_wal (fst (dw_run w_cfg SyncEvery bl_exact w_sched))) = 3.
Proof. vm_compute. reflexivity. Qed.

Lemma w_entry_gone : w_entries (d_wal (fst (dw_run w_cfg SyncEvery bl_exact w_sched))) = [].
Proof. vm_compute. reflexivity. Qed.

Lemma w_before_crash_present : d_get bl_exact (fst (dw_run w_cfg SyncEvery bl_exact w_sched)) 2 = Some 30.
Proof. vm_compute. reflexivity. Qed.

Lemma w_lost : crash_read w_cfg SyncEvery bl_exact w_sched 2 = None.
Proof. vm_compute. reflexivity. Qed.

Theorem durable_any_crash_point_refuted : ~ durable_statement.
Proof.
  intros H. specialize (H w_cfg SyncEvery w_sched 2 (3, 2, Val 30)).
  assert (nlev w_cfg >= 1)%nat as N by (cbn; lia). specialize (H N eq_refl).
  rewrite w_synced_3 in H. cbn [e_seq fst] in H. specialize (H ltac:(lia)).
  rewrite w_lost in H. discriminate.
Qed.

(** the segments of one write executed back to back; [nows] gives the clock
    reading of each resume (arbitrary) *)
Fixpoint d_finish (fuel : nat) (c : cfg) (p : policy) (bl : list Z -> Z -> bool) (nows : nat -> Z)
                  (d : dstate) (r : dres) : option dstate :=
  match r with
  | DDone => Some d
  | DYield _ kk =>
      match fuel with
      | O => None
      | S f => let '(d', r') := d_resume c p bl (nows f) d kk in d_finish f c p bl nows d' r'
      end
  end.

Lemma d_finish_done fuel c p bl nows d : d_finish fuel c p bl nows d DDone = Some d.
Proof. destruct fuel; reflexivity. Qed.

Definition d_write_alone fuel c p bl nows (d : dstate) (k : Z) (v : sval) : option dstate :=
  let '(d', r) := d_start d k v in d_finish fuel c p bl nows d' r.

Fixpoint d_seq_exec fuel c p bl nows (d : dstate) (ws : list (Z * sval)) : option dstate :=
  match ws with
  | [] => Some d
  | (k, v) :: r => match d_write_alone fuel c p bl nows d k v with
                   | None => None
                   | Some d' => d_seq_exec fuel c p bl nows d' r
                   end
  end.

Definition to_op (kv : Z * sval) : op := match snd kv with Val x => Put (fst kv) x | Tomb => Del (fst kv) end.

Definition dres_of (res : result) : dres := match res with RYield ns k => DYield ns (DBase k) | RDone _ => DDone end.

(** Below the WAL a segment is the C14 segment; only the end of a flush touches the log. *)
Definition wal_after (k : kont) (w : wal) : wal :=
  match k with KFlushWait _ _ => wal_truncate w (w_next w - 1) | _ => w end.

Lemma d_resume_base c p bl now st w k :
  d_resume c p bl now (mkD st w) (DBase k) =
  (mkD (fst (seg c bl st (AResume k))) (wal_after k w), dres_of (snd (seg c bl st (AResume k)))).
Proof. destruct k; cbn [d_resume lift d_lsm d_wal]; destruct (seg c bl st _) as [st' res]; reflexivity. Qed.

Lemma d_finish_run_alone c p bl nows : forall fuel st w a d',
  (let '(d1, r1) := lift (mkD st w) (seg c bl st a) in d_finish fuel c p bl nows d1 r1) = Some d' ->
  exists r, run_alone (S fuel) c bl st a = Some (d_lsm d', r).
Proof.
  induction fuel as [|f IH]; intros st w a d' H; rewrite run_alone_S;
    destruct (seg c bl st a) as [st' [ns k|r]]; cbn [finish]; cbn [lift d_wal d_finish] in H.
  - discriminate.
  - injection H as <-. exists r. reflexivity.
  - rewrite d_resume_base in H. eapply (IH st' _ (AResume k)).
    destruct (seg c bl st' (AResume k)) as [st'' res']. exact H.
  - injection H as <-. exists r. reflexivity.
Qed.

Lemma d_finish_step fuel c p bl nows st w ns k d' :
  d_finish fuel c p bl nows (mkD st w) (DYield ns (DBase k)) = Some d' ->
  exists f, d_finish f c p bl nows (mkD (fst (seg c bl st (AResume k))) (wal_after k w))
              (dres_of (snd (seg c bl st (AResume k)))) = Some d'.
Proof. destruct fuel as [|f]; [discriminate|]. cbn [d_finish]. rewrite d_resume_base. eauto. Qed.

Lemma seg_start_write c bl st k v :
  seg c bl st (AStart (to_op (k, v))) =
  (mkC (sset k v (c_mem st)) (c_mid st) (c_imm st) (c_levels st) (c_ncomp st) (c_nflush st) (c_next st),
   RYield MEM_NS (KPutWait (c_mid st))).
Proof. destruct v; reflexivity. Qed.

Lemma d_finish_compact_begin f c p bl nows st w d' :
  d_finish f c p bl nows (mkD (fst (compact_begin c st)) w) (dres_of (snd (compact_begin c st))) = Some d' ->
  d_wal d' = w.
Proof.
  pose proof (compact_begin_shape c st) as S. destruct (compact_begin c st) as [st' r]. cbn [fst snd] in *.
  destruct r as [ns [| |s t a b m| |]|[| |]]; try contradiction; cbn [dres_of]; intros H.
  - apply d_finish_step in H as [f' H]. cbn [seg wal_after fst snd dres_of] in H.
    rewrite d_finish_done in H. injection H as <-. reflexivity.
  - rewrite d_finish_done in H. injection H as <-. reflexivity.
Qed.

Lemma mem_maybe_compact c s : mem (maybe_compact c s) = mem s.
Proof. unfold maybe_compact. destruct (pick _ _); [|reflexivity]. destruct (selection_nonempty _ _); reflexivity. Qed.

Lemma mem_write c s k v :
  mem (write c s k v) = if zlen (sset k v (mem s)) >=? thr c then [] else sset k v (mem s).
Proof.
  unfold write, flush. cbn [mem]. destruct (_ >=? _); [|reflexivity].
  destruct (sset k v (mem s)); [reflexivity|apply mem_maybe_compact].
Qed.

Lemma levels_write_small c s k v :
  zlen (sset k v (mem s)) >=? thr c = false -> levels (write c s k v) = levels s.
Proof. intros E. unfold write. cbn [mem]. rewrite E. reflexivity. Qed.

Lemma apply_to_op c st kv : apply c st (to_op kv) = write c st (fst kv) (snd kv).
Proof. destruct kv as [k [x|]]; reflexivity. Qed.

Fixpoint seq_sorted (es : list wentry) (bound : Z) : Prop :=
  match es with
  | [] => True
  | e :: r => e_seq e < bound /\ (forall x, In x r -> e_seq e < e_seq x) /\ seq_sorted r bound
  end.

Lemma seq_sorted_app es e b : seq_sorted es b -> e_seq e = b -> seq_sorted (es ++ [e]) (b + 1).
Proof.
  intros H He. induction es as [|x r IH]; cbn [app seq_sorted].
  - split; [lia|]. split; [intros ? []|exact I].
  - destruct H as (A & B & C). split; [lia|]. split; [|apply IH, C].
    intros y Hy. apply in_app_iff in Hy. destruct Hy as [Hy|[<-|[]]]; [apply B, Hy|lia].
Qed.

Lemma seq_sorted_filter f b : forall es, seq_sorted es b -> seq_sorted (filter f es) b.
Proof.
  induction es as [|e r IH]; intros H; [exact I|]. destruct H as (A & B & C). cbn [filter].
  destruct (f e); [|apply IH, C]. split; [exact A|]. split; [|apply IH, C].
  intros x Hx. apply B. apply filter_In in Hx. apply Hx.
Qed.

Lemma ins_seq_last e l : (forall x, In x l -> e_seq x < e_seq e) -> ins_seq e l = l ++ [e].
Proof.
  induction l as [|x r IH]; cbn; intros H; [reflexivity|].
  pose proof (H x (or_introl eq_refl)). assert (e_seq e <? e_seq x = false) as -> by lia.
  f_equal. apply IH. intros y Hy. apply H. right. assumption.
Qed.

Lemma sort_seq_sorted es b : seq_sorted es b -> sort_seq es = es.
Proof.
  unfold sort_seq. induction es as [|e r IH]; cbn; intros H; [reflexivity|].
  destruct H as (A & B & C). rewrite (IH C).
  (* e is below everything in r: it goes to the front *)
  destruct r as [|x r']; [reflexivity|]. cbn. pose proof (B x (or_introl eq_refl)).
  assert (e_seq e <? e_seq x = true) as -> by lia. reflexivity.
Qed.

Lemma truncate_all w : seq_sorted (w_entries w) (w_next w) ->
  w_entries (wal_truncate w (w_next w - 1)) = [].
Proof.
  unfold wal_truncate. cbn. generalize (w_next w). induction (w_entries w) as [|e r IH]; intros b H; cbn; [reflexivity|].
  destruct H as (A & B & C). assert (e_seq e >? b - 1 = false) as -> by lia. apply IH. assumption.
Qed.

Lemma filter_synced_all es s b : seq_sorted es b -> b - 1 <= s -> filter (fun e => e_seq e <=? s) es = es.
Proof.
  induction es as [|e r IH]; cbn; intros H Hs; [reflexivity|].
  destruct H as (A & B & C). assert (e_seq e <=? s = true) as -> by lia. f_equal. apply IH; assumption.
Qed.

Lemma replay_snoc m es e : replay m (es ++ [e]) = sset (e_key e) (e_val e) (replay m es).
Proof. unfold replay. rewrite fold_left_app. reflexivity. Qed.

(** The part of a write after the WAL.  The engine half is C14's [write_alone];
    the log is stepped through the at most three resumes of the chain. *)
Lemma mem_put_alone c p bl nows fuel st w k v d' :
  quiet st -> seq_sorted (w_entries w) (w_next w) ->
  (let '(d1, r1) := mem_put c bl (mkD st w) k v in d_finish fuel c p bl nows d1 r1) = Some d' ->
  quiet (d_lsm d') /\ abs (d_lsm d') = write c (abs st) k v /\
  w_next (d_wal d') = w_next w /\ w_synced (d_wal d') = w_synced w /\
  w_entries (d_wal d') = if zlen (sset k v (c_mem st)) >=? thr c then [] else w_entries w.
Proof.
  intros Q Hs H.
  change (mem_put c bl (mkD st w) k v) with (lift (mkD st w) (seg c bl st (AStart (to_op (k, v))))) in H.
  destruct (d_finish_run_alone c p bl nows fuel st w _ d' H) as [r Hr].
  destruct (write_alone c bl st k v (S fuel) (d_lsm d') r _ (seg_start_write c bl st k v) Q Hr) as (_ & A & Q').
  split; [exact Q'|]. split; [exact A|]. clear - H Hs.
  rewrite seg_start_write in H. cbn [lift d_wal] in H. set (st1 := mkC (sset k v (c_mem st)) _ _ _ _ _ _) in H.
  (* the memtable put returns, or the flush it starts ends with the truncation *)
  apply d_finish_step in H as [f H]. cbn [seg wal_after c_mid c_mem st1] in H. rewrite Z.eqb_refl in H.
  destruct (zlen (sset k v (c_mem st)) >=? thr c).
  2: { cbn [fst snd dres_of] in H. rewrite d_finish_done in H. injection H as <-. auto. }
  destruct (flush_begin_yields st1 (sset_nonempty k v (c_mem st))) as (st2 & ns & E2). rewrite E2 in H.
  cbn [fst snd dres_of] in H. apply d_finish_step in H as [f' H]. cbn [seg wal_after] in H.
  rewrite (d_finish_compact_begin _ _ _ _ _ _ _ _ H). rewrite truncate_all by exact Hs. auto.
Qed.

(** The WAL part of a write; [t] is the time since the last sync that the policy saw. *)
Lemma d_write_alone_wal fuel c p bl nows st w k v d' :
  d_write_alone fuel c p bl nows (mkD st w) k v = Some d' ->
  exists f t since last,
    (let '(d1, r1) := mem_put c bl (mkD st (mkWal (w_entries w ++ [(w_next w, k, v)]) (w_next w + 1)
                        (if should_sync p (w_since w + 1) t then w_next w else w_synced w) since last)) k v
     in d_finish f c p bl nows d1 r1) = Some d'.
Proof.
  unfold d_write_alone, d_start. cbn [d_lsm d_wal]. intros H.
  destruct fuel as [|fuel]; [discriminate|]. cbn [d_finish d_resume d_wal w_since w_last_sync] in H.
  destruct (should_sync p (w_since w + 1) (nows fuel - w_last_sync w)) eqn:Ey.
  - destruct fuel as [|fuel]; [discriminate|]. cbn [d_finish d_resume d_wal d_lsm w_entries w_next] in H.
    exists fuel, (nows (S fuel) - w_last_sync w), 0, (nows fuel). rewrite Ey. exact H.
  - exists fuel, (nows fuel - w_last_sync w), (w_since w + 1), (w_last_sync w). rewrite Ey. exact H.
Qed.

(** the hypothesis of durability at rest is satisfiable *)
Example durable_at_rest_example :
  match d_seq_exec 8 (mkCfg 2 2 (SizeTiered 2)) SyncEvery bl_exact (fun _ => 0) (d_init (mkCfg 2 2 (SizeTiered 2)))
          [(1, Val 10); (2, Val 20); (1, Tomb); (3, Val 30)] with
  | Some d => map (d_get bl_exact (d_recover (d_crash d))) [1; 2; 3] = [None; Some 20; Some 30]
  | None => False
  end.
Proof. vm_compute. reflexivity. Qed.
