(** C19 — the EventLog / ConsumerGroup machine of C19/StreamModel.v.  A step
    changes the partitions in one of three ways ([sstep_parts]); the invariants
    of the log ([linv]: offsets and time stamps of a partition; [kinv]: the
    partition of a key) and of the group ([gwf]) do not depend on each other. *)
From HS Require Import Base.Prelude Base.Lists C19.Model C19.Lists C19.StreamModel C19.Assign.
From Coq Require Import Sorting.Sorted.
Local Open Scope Z_scope.

Lemma srun_fold cfg ops : forall st, fst (srun_from cfg st ops) = fold_left (fun st o => fst (sstep cfg st o)) ops st.
Proof. apply (run_from_fold (sstep cfg) (srun_from cfg)); reflexivity. Qed.

Lemma length_upd_nth {A} i (f : A -> A) l : length (upd_nth i f l) = length l.
Proof. revert i; induction l as [|x r IH]; intros [|i]; cbn; auto. Qed.

Lemma nth_error_upd_nth {A} (f : A -> A) l : forall i j,
  nth_error (upd_nth i f l) j = if Nat.eqb i j then option_map f (nth_error l j) else nth_error l j.
Proof.
  induction l as [|x r IH]; intros i j.
  - destruct i; cbn; destruct j; cbn; try reflexivity; destruct (Nat.eqb _ _); reflexivity.
  - destruct i as [|i], j as [|j]; cbn; try reflexivity. apply IH.
Qed.

Lemma Forall_upd_nth {A} (P : A -> Prop) (f : A -> A) l : forall i,
  Forall P l -> (forall x, nth_error l i = Some x -> P x -> P (f x)) -> Forall P (upd_nth i f l).
Proof.
  induction l as [|x r IH]; intros i F H; [destruct i; constructor|]. inversion F as [|? ? Px Pr]; subst.
  destruct i as [|i]; cbn [upd_nth]; constructor; try assumption.
  - apply H; [reflexivity|exact Px].
  - apply IH; [exact Pr|]. intros y Hy. apply H. exact Hy.
Qed.

Lemma log_read_parts s pid off m : l_parts (fst (log_read s pid off m)) = l_parts s.
Proof. unfold log_read. destruct (_ || _); reflexivity. Qed.

Lemma poll_go_parts pids : forall s offs m acc, l_parts (fst (poll_go s pids offs m acc)) = l_parts s.
Proof.
  induction pids as [|p r IH]; intros s offs m acc; cbn [poll_go]; [reflexivity|].
  destruct (m - zlen acc <=? 0); [reflexivity|].
  pose proof (log_read_parts s p (match lookup p offs with Some o => o | None => 0 end) (m - zlen acc)) as E.
  destruct (log_read s p _ (m - zlen acc)) as [s1 recs]. cbn [fst] in E. rewrite IH. exact E.
Qed.

Lemma log_retain_parts ret s now : l_parts (log_retain ret s now) = map (retain_part ret now) (l_parts s).
Proof. destruct ret; [symmetry; apply map_id|reflexivity|reflexivity]. Qed.

Lemma sstep_parts cfg s g o :
  l_parts (fst (fst (sstep cfg (s, g) o))) =
  match o with
  | LAppend key now => l_parts (fst (log_append (s_digest cfg) s key now))
  | LRetain now => map (retain_part (s_ret cfg) now) (l_parts s)
  | _ => l_parts s
  end.
Proof.
  destruct o; cbn [sstep]; try reflexivity.
  - pose proof (log_read_parts s pid offset maxr) as E. destruct (log_read _ _ _ _). exact E.
  - apply log_retain_parts.
  - pose proof (poll_go_parts (aget c (g_assign g)) s
                 (match lookup c (g_commit g) with Some l => l | None => [] end) maxr []) as E.
    destruct (poll_go _ _ _ _ _). exact E.
Qed.

Lemma sstep_length cfg st o : length (l_parts (fst (fst (sstep cfg st o)))) = length (l_parts (fst st)).
Proof.
  destruct st as [s g]. rewrite sstep_parts. destruct o; try reflexivity.
  - apply length_upd_nth.
  - apply map_length.
Qed.

Lemma srun_length cfg n ops : length (l_parts (fst (srun cfg n ops))) = n.
Proof.
  unfold srun. rewrite srun_fold.
  apply (fold_left_inv _ (fun st => length (l_parts (fst st)) = n)); [|apply repeat_length].
  intros st o E. rewrite sstep_length. exact E.
Qed.

Definition gwf (g : group) : Prop := NoDup (g_cons g) /\ forall x, tot x (g_prev g) <= 1.

Definition owners_ok (n : Z) (g : group) : Prop :=
  (forall pid, tot pid (g_assign g) = if (0 <=? pid) && (pid <? n) then 1 else 0) /\
  (forall k, In k (keys (g_assign g)) <-> In k (g_cons g)) /\
  NoDup (keys (g_assign g)).

Lemma covers_owners_ok n names g :
  0 <= n -> NoDup names -> (forall k, In k names <-> In k (g_cons g)) ->
  covers (zrange n) names (g_assign g) -> owners_ok n g.
Proof.
  intros Hn ND KI [C1 C2]. split; [intros pid; rewrite C1; apply cnt_zrange, Hn|].
  rewrite C2. split; [exact KI|exact ND].
Qed.

Lemma rebalance_covers st n g :
  gwf g -> g_cons g <> [] -> covers (zrange n) (zsort (g_cons g)) (g_assign (rebalance st n g)).
Proof.
  intros [ND HP] NE. assert (NE' : zsort (g_cons g) <> []) by (intros E; apply NE, zsort_nil, E).
  unfold rebalance. cbn [g_assign]. destruct st.
  - apply assign_range_covers, NE'.
  - apply assign_rr_covers, NE'.
  - apply assign_sticky_covers; [exact NE'|apply NoDup_zsort, ND|apply NoDup_zrange|exact HP].
Qed.

Lemma rebalance_gwf st n g : gwf g -> gwf (rebalance st n g).
Proof.
  intros [ND HP]. split; [exact ND|]. unfold rebalance. cbn [g_prev]. destruct st; [exact HP|exact HP|].
  (* the sticky memory becomes the new assignment: empty, or a cover of [zrange n] *)
  intros x. destruct (zsort (g_cons g)) as [|nm r] eqn:E; [cbn; lia|].
  destruct (assign_sticky_covers (g_prev g) (zrange n) (zsort (g_cons g))) as [C _];
    [rewrite E; discriminate|apply NoDup_zsort, ND|apply NoDup_zrange|exact HP|].
  rewrite <- E, C. apply NoDup_cnt, NoDup_zrange.
Qed.

Lemma sstep_gwf cfg st o : gwf (snd st) -> gwf (snd (fst (sstep cfg st o))).
Proof.
  destruct st as [s g]. cbn [snd]. intros G. destruct o; cbn [sstep].
  - destruct (log_append _ _ _ _). exact G.
  - destruct (log_read _ _ _ _). exact G.
  - exact G.
  - destruct G as [C V]. split; [apply NoDup_addkey; exact C|exact V].
  - apply rebalance_gwf, G.
  - destruct G as [C V]. split; [apply NoDup_filter; exact C|exact V].
  - apply rebalance_gwf, G.
  - destruct (poll_go _ _ _ _ _). exact G.
  - exact G.
Qed.

Lemma srun_gwf cfg n ops : gwf (snd (srun cfg n ops)).
Proof.
  unfold srun. rewrite srun_fold. apply (fold_left_inv _ (fun st => gwf (snd st))).
  - intros st o. apply sstep_gwf.
  - split; [constructor|intros x; cbn; lia].
Qed.

Lemma rebalance_one_owner st n g : 0 <= n -> gwf g -> g_cons g <> [] -> owners_ok n (rebalance st n g).
Proof.
  intros Hn G NE. apply (covers_owners_ok _ (zsort (g_cons g))).
  - exact Hn.
  - apply NoDup_zsort, G.
  - intros k. apply In_zsort.
  - apply rebalance_covers; assumption.
Qed.

(** Per-partition invariant.  [clock] bounds the time stamps (only used for
    time-based retention). *)
Record pinv (clock : Z) (p : part) : Prop := {
  pi_off : map r_off (p_recs p) = zseq (p_hw p - zlen (p_recs p)) (length (p_recs p));
  pi_lo : 0 <= p_hw p - zlen (p_recs p);
  pi_ts : StronglySorted (fun a b => r_ts a <= r_ts b) (p_recs p);
  pi_clk : forall r, In r (p_recs p) -> r_ts r <= clock;
}.

Definition linv (clock : Z) (s : slog) : Prop := Forall (pinv clock) (l_parts s).

Lemma pinv_clock c c' p : c <= c' -> pinv c p -> pinv c' p.
Proof. intros H [A B D E]. constructor; auto. intros r Hr. specialize (E r Hr). lia. Qed.

Lemma pinv_append now p key pid :
  pinv now p -> pinv now {| p_recs := p_recs p ++ [(p_hw p, key, now, pid)]; p_hw := p_hw p + 1 |}.
Proof.
  intros [A B D E]. constructor; cbn [p_recs p_hw].
  - rewrite map_app, app_length, zseq_app, A, zlen_app. cbn [map length zseq r_off]. change (zlen [_]) with 1.
    replace (p_hw p + 1 - (zlen (p_recs p) + 1)) with (p_hw p - zlen (p_recs p)) by lia.
    do 2 f_equal. unfold zlen. lia.
  - rewrite zlen_app. change (zlen [_]) with 1. lia.
  - apply ss_snoc; [exact D|]. apply Forall_forall. intros y Hy. apply (E y Hy).
  - intros r Hr. apply in_app_or in Hr. destruct Hr as [Hr|[<-|[]]]; [apply (E r Hr)|cbn; lia].
Qed.

Lemma pinv_skipn clock p k : pinv clock p -> pinv clock {| p_recs := skipn k (p_recs p); p_hw := p_hw p |}.
Proof.
  intros [A B D E]. constructor; cbn [p_recs p_hw].
  - rewrite <- skipn_map, A, skipn_zseq, skipn_length. f_equal. unfold zlen. rewrite skipn_length. lia.
  - unfold zlen in *. rewrite skipn_length. lia.
  - rewrite <- (firstn_skipn k (p_recs p)) in D. apply ss_app in D. apply D.
  - intros r Hr. apply E. eapply In_skipn. exact Hr.
Qed.


(** On a list with non-decreasing time stamps the time-retention filter keeps a suffix. *)
Lemma filter_time_suffix now a l :
  StronglySorted (fun x y : lrec => r_ts x <= r_ts y) l ->
  exists k, filter (fun r => now - r_ts r <? a) l = skipn k l.
Proof.
  induction 1 as [|x r SS IH F].
  - exists O. reflexivity.
  - cbn [filter]. destruct (now - r_ts x <? a) eqn:E.
    + exists O. cbn [skipn]. f_equal. apply filter_all_true. rewrite Forall_forall in F.
      intros y Hy. specialize (F y Hy). lia.
    + destruct IH as [k Ek]. exists (S k). exact Ek.
Qed.

Lemma pinv_retain ret clock p now : pinv clock p -> pinv clock (retain_part ret now p).
Proof.
  intros I. unfold retain_part. destruct ret.
  - exact I.
  - destruct (0 <? _); [apply pinv_skipn; exact I|exact I].
  - destruct (filter_time_suffix now max_age (p_recs p) (pi_ts _ _ I)) as [k Ek]. rewrite Ek.
    apply pinv_skipn. exact I.
Qed.

(** Monotone clock readings along the operations that read the clock. *)
Fixpoint mono_from (t : Z) (ops : list sop) : Prop :=
  match ops with
  | [] => True
  | LAppend _ now :: r | LRetain now :: r => t <= now /\ mono_from now r
  | _ :: r => mono_from t r
  end.

Definition clock_after (t : Z) (o : sop) : Z :=
  match o with LAppend _ now | LRetain now => now | _ => t end.

Lemma linv_step cfg t st o :
  linv t (fst st) -> t <= clock_after t o -> linv (clock_after t o) (fst (fst (sstep cfg st o))).
Proof.
  destruct st as [s g]. cbn [fst]. intros L HC. unfold linv. rewrite sstep_parts.
  assert (L' : Forall (pinv (clock_after t o)) (l_parts s)).
  { revert L. apply Forall_impl. intros p. apply pinv_clock, HC. }
  destruct o; try exact L'; cbn [clock_after] in L'.
  - (* the record gets the high watermark of the partition it goes to *)
    unfold log_append. cbn [fst l_parts]. apply Forall_upd_nth; [exact L'|].
    intros p E I. rewrite (nth_error_nth _ _ part0 E). apply pinv_append, I.
  - apply Forall_map. revert L'. apply Forall_impl. intros p. apply pinv_retain.
Qed.

Lemma linv_init t n : linv t (log_init n).
Proof.
  apply Forall_forall. intros p E. apply repeat_spec in E. subst p.
  constructor; cbn; try reflexivity; try lia; try (intros r []). constructor.
Qed.

Lemma linv_run_from cfg ops t st :
  linv t (fst st) -> mono_from t ops -> exists t', linv t' (fst (fst (srun_from cfg st ops))).
Proof.
  intros L M. rewrite srun_fold.
  destruct (fold_left_inv_rest (fun st o => fst (sstep cfg st o)) (fun st r => exists t, linv t (fst st) /\ mono_from t r))
    with (ops := ops) (s := st) as (t' & L' & _); [|exists t; split; assumption|exists t'; exact L'].
  (* the clock moves on to the reading of the operation, if it takes one *)
  intros st0 o r (t0 & L0 & M0). exists (clock_after t0 o).
  assert (HC : t0 <= clock_after t0 o /\ mono_from (clock_after t0 o) r).
  { destruct o; cbn [mono_from clock_after] in *; try (split; [lia|exact M0]); exact M0. }
  split; [apply linv_step; [exact L0|apply HC]|apply HC].
Qed.

Lemma srun_linv cfg n ops t0 : mono_from t0 ops -> exists t', linv t' (fst (srun cfg n ops)).
Proof. exact (linv_run_from cfg ops t0 (log_init n, group_init) (linv_init t0 n)). Qed.

Example mono_example : mono_from 0 [LAppend 1 5; GJoinBegin 0; LRetain 5; GJoinEnd 0; LAppend 2 9; GPoll 0 10].
Proof. cbn. lia. Qed.

Definition kinv (cfg : scfg) (s : slog) : Prop :=
  forall i p r, nth_error (l_parts s) i = Some p -> In r (p_recs p) ->
    r_part r = Z.of_nat i /\ r_part r = shard_of (s_digest cfg) (zlen (l_parts s)) (r_key r).

Lemma In_retain ret now p r : In r (p_recs (retain_part ret now p)) -> In r (p_recs p).
Proof.
  unfold retain_part. destruct ret; [auto| |].
  - destruct (0 <? _); [cbn; apply In_skipn|auto].
  - cbn. intros H. apply filter_In in H. tauto.
Qed.

Lemma kinv_step cfg st o : kinv cfg (fst st) -> kinv cfg (fst (fst (sstep cfg st o))).
Proof.
  destruct st as [s g]. cbn [fst]. intros K. unfold kinv. rewrite sstep_parts. destruct o; try exact K.
  - unfold log_append. cbn [fst l_parts]. unfold zlen. rewrite length_upd_nth.
    set (n := Z.of_nat (length (l_parts s))). set (pid := shard_of (s_digest cfg) n key).
    intros i p r. rewrite nth_error_upd_nth.
    destruct (Nat.eqb_spec (Z.to_nat pid) i) as [<-|N]; [|apply K].
    destruct (nth_error (l_parts s) (Z.to_nat pid)) as [p0|] eqn:E; cbn [option_map]; [|discriminate].
    intros [= <-]. cbn [p_recs]. intros Hr. apply in_app_or in Hr.
    destruct Hr as [Hr|[<-|[]]]; [apply (K _ p0 r E Hr)|]. split; [|reflexivity]. cbn [r_part].
    (* a partition exists, so [n] is positive and [pid = digest mod n] is a valid index *)
    assert (LT : (Z.to_nat pid < length (l_parts s))%nat) by (apply nth_error_Some; rewrite E; discriminate).
    assert (0 <= pid < n) by (apply Z.mod_pos_bound; unfold n; lia). lia.
  - unfold zlen. rewrite map_length. intros i p r. rewrite nth_error_map.
    destruct (nth_error (l_parts s) i) as [p0|] eqn:E; cbn [option_map]; [|discriminate].
    intros [= <-] Hr. apply (K i p0 r E), (In_retain _ _ _ _ Hr).
Qed.

Lemma kinv_run_from cfg ops st : kinv cfg (fst st) -> kinv cfg (fst (fst (srun_from cfg st ops))).
Proof.
  rewrite srun_fold. apply (fold_left_inv _ (fun st => kinv cfg (fst st))). intros st0 o. apply kinv_step.
Qed.

Lemma srun_kinv cfg n ops : kinv cfg (fst (srun cfg n ops)).
Proof. apply kinv_run_from. intros j q x Ej Hx. apply nth_error_In, repeat_spec in Ej. subst q. destruct Hx. Qed.

Definition coff (g : group) (c pid : Z) : Z :=
  match lookup c (g_commit g) with
  | Some m => match lookup pid m with Some o => o | None => 0 end
  | None => 0
  end.

Definition committed_monotone_statement : Prop :=
  forall cfg n ops o c pid,
    coff (snd (srun cfg n ops)) c pid <= coff (snd (fst (sstep cfg (srun cfg n ops) o))) c pid.

Lemma lookup_aset {V} k k' (v : V) m : lookup k (aset k' v m) = if k =? k' then Some v else lookup k m.
Proof.
  induction m as [|[a b] r IH]; cbn.
  - destruct (k =? k'); reflexivity.
  - destruct (Z.eqb_spec k' a); cbn.
    + subst a. destruct (Z.eqb_spec k k'); reflexivity.
    + rewrite IH. destruct (Z.eqb_spec k a); [|reflexivity]. subst a.
      destruct (Z.eqb_spec k k'); [congruence|reflexivity].
Qed.

Definition oget (m : list (Z * Z)) (p : Z) : Z := match lookup p m with Some o => o | None => 0 end.

Lemma fold_aset_ge (lo : Z) pid offs : forall cur,
  (forall p v, In (p, v) offs -> p = pid -> lo <= v) -> lo <= oget cur pid ->
  lo <= oget (fold_left (fun m po => aset (fst po) (snd po) m) offs cur) pid.
Proof.
  induction offs as [|[p v] r IH]; intros cur H H0; [exact H0|]. cbn [fold_left fst snd].
  apply IH; [intros p' v' HI; apply H; right; exact HI|].
  unfold oget. rewrite lookup_aset. destruct (Z.eqb_spec pid p); [|exact H0].
  apply (H p v); [left; reflexivity|congruence].
Qed.

(** PARTIAL: the committed offset of (consumer, partition) changes only in a
    Commit of that consumer that names that partition, and then becomes one of
    the given values; so it never moves backwards as long as no commit names an
    offset below the current one (joins, leaves, rebalances, polls, appends and
    retention never touch it). *)
Theorem group_committed_monotone_partial cfg st o c pid :
  (forall offs, o = GCommit c offs -> forall v, In (pid, v) offs -> coff (snd st) c pid <= v) ->
  coff (snd st) c pid <= coff (snd (fst (sstep cfg st o))) c pid.
Proof.
  intros H. destruct st as [s g]. cbn [snd] in *.
  assert (F : forall g', g_commit g' = g_commit g -> coff g c pid <= coff g' c pid).
  { intros g' E. unfold coff. rewrite E. lia. }
  destruct o; cbn [sstep]; try (apply F; reflexivity).
  - destruct (log_read _ _ _ _). apply F. reflexivity.
  - (* a first join gives the consumer an empty offset map, read as offset 0 like no map at all *)
    cbn [fst snd]. destruct (lookup c0 (g_commit g)) eqn:E; [apply F; reflexivity|].
    unfold coff. cbn [g_commit]. rewrite lookup_app. cbn [lookup].
    destruct (lookup c (g_commit g)); [lia|]. destruct (c =? c0); cbn [lookup]; lia.
  - destruct (poll_go _ _ _ _ _). apply F. reflexivity.
  - cbn [fst snd]. unfold coff at 2. cbn [g_commit]. rewrite lookup_aset.
    destruct (Z.eqb_spec c c0) as [<-|N]; [|unfold coff; lia].
    fold (oget (fold_left (fun m po => aset (fst po) (snd po) m) offs
                  match lookup c (g_commit g) with Some l => l | None => [] end) pid).
    apply fold_aset_ge.
    + intros p v HI ->. apply (H offs eq_refl v HI).
    + unfold coff, oget. destruct (lookup c (g_commit g)); cbn [lookup]; lia.
Qed.

(** The hypotheses of the conditional log and group theorems of C19/Props.v are satisfiable. *)
Definition exs_cfg : scfg := {| s_digest := fun k => k * 7 + 3; s_ret := RSize 1; s_strat := SSticky |}.
Definition exs_ops : list sop :=
  [LAppend 1 5; LAppend 2 6; GJoinBegin 0; GJoinBegin 1; LAppend 1 7; GJoinEnd 0; LRetain 8; GJoinEnd 1; GLeaveBegin 0].

Example stream_hypotheses_satisfiable :
  mono_from 0 exs_ops /\
  (exists p r, nth_error (l_parts (fst (srun exs_cfg 3 exs_ops))) 1 = Some p /\ In r (p_recs p) /\ r_key r = 1) /\
  g_cons (snd (fst (sstep exs_cfg (srun exs_cfg 3 exs_ops) GLeaveEnd))) <> [] /\
  g_assign (snd (fst (sstep exs_cfg (srun exs_cfg 3 exs_ops) GLeaveEnd))) = [(1, [0; 1; 2])].
Proof.
  split; [cbn; lia|]. split; [|split; [vm_compute; discriminate|vm_compute; reflexivity]].
  eexists. eexists. split; [vm_compute; reflexivity|]. split; [left; reflexivity|reflexivity].
Qed.
