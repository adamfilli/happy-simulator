(** Sites — the finite, regenerated lists of source sites used by the two
    library-wide properties (C03, C07), their hand-maintained classification,
    and the boolean check that every regenerated site is classified. *)
From Coq Require Import String List ZArith Bool.
Import ListNotations.
Local Open Scope string_scope.
Local Open Scope Z_scope.

(** (relative file, qualified function, kind, detail, ordinal within the function) *)
Definition site := (string * string * string * string * Z)%type.

Inductive cls :=
| Benign (reason : string)      (* cannot affect the property, for the stated reason *)
| Finding (id : string)         (* a recorded defect *)
| Review (note : string).       (* not yet classified: makes the obligation fail *)

Definition site_eqb (a b : site) : bool :=
  let '(f, q, k, d, o) := a in let '(f', q', k', d', o') := b in
  String.eqb f f' && String.eqb q q' && String.eqb k k' && String.eqb d d' && (o =? o').

Definition is_settled (c : cls) : bool := match c with Review _ => false | _ => true end.

Definition classified (table : list (site * cls)) (s : site) : bool :=
  existsb (fun row => site_eqb (fst row) s && is_settled (snd row)) table.

Definition all_classified (table : list (site * cls)) (sites : list site) : bool := forallb (classified table) sites.

Lemma site_eqb_eq a b : site_eqb a b = true -> a = b.
Proof.
  destruct a as [[[[f q] k] d] o], b as [[[[f' q'] k'] d'] o']; cbn.
  rewrite !andb_true_iff. intros [[[[H1 H2] H3] H4] H5].
  apply String.eqb_eq in H1, H2, H3, H4. apply Z.eqb_eq in H5. subst. reflexivity.
Qed.

(** The meaning of the boolean check: every listed site has a settled row. *)
Lemma all_classified_spec table sites : all_classified table sites = true ->
  forall s, In s sites -> exists c, In (s, c) table /\ is_settled c = true.
Proof.
  unfold all_classified, classified. rewrite forallb_forall. intros H s Hs. specialize (H s Hs).
  apply existsb_exists in H as [[s' c] [Hin Hc]]. cbn in Hc. apply andb_true_iff in Hc as [He Hc].
  apply site_eqb_eq in He. subst. eauto.
Qed.

Definition finding_ids (table : list (site * cls)) : list string :=
  flat_map (fun row => match snd row with Finding id => [id] | _ => [] end) table.

(** The file names of a table share a long prefix, which [site_eqb] walks for
    every row; the table checks are evaluated with the cheap tests first. *)
Definition site_eqb_fast (a b : site) : bool :=
  let '(f, q, k, d, o) := a in let '(f', q', k', d', o') := b in
  (o =? o') && String.eqb q q' && String.eqb d d' && String.eqb k k' && String.eqb f f'.

Definition classified_fast (table : list (site * cls)) (s : site) : bool :=
  existsb (fun row => site_eqb_fast (fst row) s && is_settled (snd row)) table.

Definition all_classified_fast (table : list (site * cls)) (sites : list site) : bool :=
  forallb (classified_fast table) sites.

Lemma site_eqb_fast_eq a b : site_eqb_fast a b = site_eqb a b.
Proof.
  destruct a as [[[[f q] k] d] o], b as [[[[f' q'] k'] d'] o']; cbn.
  generalize (String.eqb f f'), (String.eqb q q'), (String.eqb k k'), (String.eqb d d'), (o =? o').
  intros [] [] [] [] []; reflexivity.
Qed.

Lemma classified_fast_eq table s : classified_fast table s = classified table s.
Proof.
  unfold classified_fast, classified. induction table as [|row table IH]; cbn [existsb]; [reflexivity|].
  rewrite IH, site_eqb_fast_eq. reflexivity.
Qed.

Lemma all_classified_fast_eq table sites : all_classified_fast table sites = all_classified table sites.
Proof.
  unfold all_classified_fast, all_classified. induction sites as [|s sites IH]; cbn [forallb]; [reflexivity|].
  rewrite IH, classified_fast_eq. reflexivity.
Qed.
