(** C16 — write-back data is preserved by every segment except the recorded
    races, and sequential (non-overlapping) executions never lose a write. *)
From HS Require Import Base.Prelude C16.Model C16.Lists C16.Policies C16.Store.
Local Open Scope Z_scope.

Definition touches (k : Z) (o : op) : bool :=
  match o with
  | OPut k' _ | ODel k' | OInv k' => k' =? k
  | OInvAll => true
  | _ => false
  end.

(** continuations that can discard the dirty value [v] of [k]: the fill of a
    miss of [k] (known finding C16-fill-race) and a flush write of [k] that
    captured another value (C16-flush-race). *)
Definition cont_touches (k v : Z) (kc : cont) : bool :=
  match kc with
  | KMiss k' => k' =? k
  | KFlush k' v' _ _ => (k' =? k) && negb (v' =? v)
  | _ => false
  end.

Section Seq.
Variable P : policy.
Variable H : policy_ok P.
Variable c : cfg.
Hypothesis Hcap : 1 <= cap c.

Notation cinv := (cinv P H c).

Definition kept (k v : Z) (s' : cst P) : Prop :=
  (In k (dirty s') /\ aget k (cache s') = Some v) \/ aget k (back s') = Some v.

(** An eviction writes a dirty victim back (fix 16758b8); any other entry is untouched. *)
Lemma kept_evict (s : cst P) ke pol' k v : In k (dirty s) -> aget k (cache s) = Some v ->
  kept k v (evict_apply s ke pol').
Proof.
  intros Hd Hg. unfold kept. cbn [evict_apply cache dirty back]. destruct (Z.eq_dec ke k) as [->|Hne].
  - right. apply zmem_In in Hd. rewrite Hd, Hg. apply aget_aset_same.
  - left. rewrite guard_remove1, In_remove1_neq, aget_adel_other by congruence. auto.
Qed.

Lemma kept_remove s k' k v : k' <> k -> In k (dirty s) -> aget k (cache s) = Some v ->
  kept k v (cache_remove P k' s).
Proof.
  intros Hn Hd Hg. left. cbn [cache_remove cache dirty].
  rewrite In_remove1_neq, aget_adel_other by congruence. auto.
Qed.

Lemma evict_keeps_dirty_data now dr k' v' s k v : cinv s ->
  In k (dirty s) -> aget k (cache s) = Some v -> k' <> k ->
  kept k v (fst (cache_put P c now dr k' v' s)).
Proof.
  intros Hs Hd Hg Hn.
  destruct (cache_put_shape P H c Hcap now dr k' v' s Hs) as (s1 & po & Hc & Hdd & _ & Hb & Hs1 & _).
  unfold kept. rewrite Hc, Hdd, Hb, aget_aset_other by congruence.
  destruct Hs1 as [->|(ke & pol' & _ & _ & ->)]; [left; auto|apply kept_evict; assumption].
Qed.

Lemma start_keeps_dirty now dr s o k v : cinv s ->
  In k (dirty s) -> aget k (cache s) = Some v -> touches k o = false ->
  kept k v (fst (fst (start P c now dr s o))).
Proof.
  intros Hs Hd Hg Ht.
  destruct o as [k'|k' v'|k'|k'| |order]; cbn [start touches] in *; try discriminate.
  - destruct (aget k' (cache s)); left; auto.
  - apply Z.eqb_neq in Ht. rewrite let_pair.
    pose proof (evict_keeps_dirty_data now dr k' v' (bump s 0 1 0 0) k v Hs Hd Hg Ht) as Hk.
    destruct (wt c); [exact Hk|].
    destruct Hk as [[Hk1 Hk2]|Hk]; [left; split; [apply In_add_end; auto|exact Hk2]|right; exact Hk].
  - apply Z.eqb_neq in Ht. destruct (amem k' (cache s)); [apply kept_remove; assumption|left; auto].
  - apply Z.eqb_neq in Ht. destruct (amem k' (cache s)); [apply kept_remove; assumption|left; auto].
  - left. auto.
Qed.

Lemma resume_keeps_dirty now dr s kc k v : cinv s ->
  In k (dirty s) -> aget k (cache s) = Some v -> cont_touches k v kc = false ->
  kept k v (fst (fst (resume P c now dr s kc))).
Proof.
  intros Hs Hd Hg Ht.
  destruct kc as [v'|k'|k' v'| |k' inc|k' v' rest n]; cbn [resume cont_touches fst] in *; try (left; auto; fail).
  - apply Z.eqb_neq in Ht. destruct (aget k' (back s)); [|left; auto].
    rewrite let_pair. apply evict_keeps_dirty_data; assumption.
  - unfold kept. cbn [cache dirty back]. destruct (k' =? k) eqn:E; cbn in Ht.
    + apply Z.eqb_eq in E. subst k'. destruct (v' =? v) eqn:E2; [|discriminate].
      apply Z.eqb_eq in E2. subst v'. right. apply aget_aset_same.
    + apply Z.eqb_neq in E. left. split; [apply In_remove1_neq; congruence|exact Hg].
Qed.

Lemma sstep_keeps_dirty y i k v : cinv (st y) ->
  In k (dirty (st y)) -> aget k (cache (st y)) = Some v ->
  match i_act i with
  | IStart _ o => touches k o = false
  | IResume id => match pfind id (pending y) with
                  | Some kc => cont_touches k v kc = false
                  | None => True
                  end
  end ->
  kept k v (st (fst (sstep P c y i))).
Proof.
  intros Hy Hd Hg Ht. rewrite sstep_st. destruct (i_act i) as [id o|id]; [apply start_keeps_dirty; assumption|].
  destruct (pfind id (pending y)); [apply resume_keeps_dirty; assumption|left; split; assumption].
Qed.

(** What a reader of [k] sees is [w], and a clean cached value is also in the
    backing store: a property of the three maps at the one key [k]. *)
Definition agree (ca : amap) (di : list Z) (ba : amap) (k : Z) (w : option Z) : Prop :=
  match aget k ca with
  | Some v => w = Some v /\ (~ In k di -> aget k ba = Some v)
  | None => aget k ba = w
  end.

Lemma agree_ext ca di ba ca' di' ba' k w :
  aget k ca' = aget k ca -> (In k di -> In k di') -> aget k ba' = aget k ba ->
  agree ca di ba k w -> agree ca' di' ba' k w.
Proof.
  unfold agree. intros -> Hd ->. destruct (aget k ca); [|auto].
  intros [Hw Hc]. split; [exact Hw|]. intros Hn. apply Hc. intros Hx. apply Hn, Hd, Hx.
Qed.

Lemma agree_cached ca di ba k v : aget k ca = Some v -> (~ In k di -> aget k ba = Some v) ->
  agree ca di ba k (Some v).
Proof. unfold agree. intros -> Hc. exact (conj eq_refl Hc). Qed.

(** With nothing dirty every cached value is in the backing store: entries can be dropped. *)
Lemma agree_dropped ca ba ca' di' k w : agree ca [] ba k w -> aget k ca' = None -> agree ca' di' ba k w.
Proof.
  unfold agree. intros Ha ->. destruct (aget k ca); [|exact Ha]. destruct Ha as [-> Hc]. apply Hc. intros [].
Qed.

Definition sinv (r : Z -> option Z) (s : cst P) : Prop :=
  cinv s /\ NoDup (akeys (back s)) /\ forall k, agree (cache s) (dirty s) (back s) k (r k).

Definition upd (r : Z -> option Z) (k : Z) (v : option Z) : Z -> option Z :=
  fun k' => if k' =? k then v else r k'.

Definition ref_upd (r : Z -> option Z) (o : op) : Z -> option Z :=
  match o with OPut k v => upd r k (Some v) | ODel k => upd r k None | _ => r end.

(** invalidate / invalidate_all drop dirty entries (known finding
    C16-invalidate-dirty), so they are excluded in write-back mode. *)
Definition op_safe (o : op) : Prop :=
  wt c = true \/ match o with OInv _ | OInvAll => False | _ => True end.

Lemma upd_same r k v : upd r k v k = v.
Proof. unfold upd. rewrite Z.eqb_refl. reflexivity. Qed.
Lemma upd_other r k v k' : k' <> k -> upd r k v k' = r k'.
Proof. intros Hn. unfold upd. destruct (k' =? k) eqn:E; [apply Z.eqb_eq in E; congruence|reflexivity]. Qed.

(** Agreement at every key but [k]: what a step that writes the maps at [k] only leaves standing. *)
Definition agree_off (k : Z) (r : Z -> option Z) (ca : amap) (di : list Z) (ba : amap) : Prop :=
  forall k', k' <> k -> agree ca di ba k' (r k').

Lemma agree_off_ext k r ca di ba ca' di' ba' : agree_off k r ca di ba ->
  (forall k', k' <> k -> aget k' ca' = aget k' ca) ->
  (forall k', k' <> k -> In k' di -> In k' di') ->
  (forall k', k' <> k -> aget k' ba' = aget k' ba) -> agree_off k r ca' di' ba'.
Proof.
  intros Ha Hc Hd Hb k' Hne. exact (agree_ext _ _ _ _ _ _ _ _ (Hc k' Hne) (Hd k' Hne) (Hb k' Hne) (Ha k' Hne)).
Qed.

Lemma sinv_at r r' (s : cst P) k : cinv s -> NoDup (akeys (back s)) ->
  agree_off k r (cache s) (dirty s) (back s) -> (forall k', k' <> k -> r' k' = r k') ->
  agree (cache s) (dirty s) (back s) k (r' k) -> sinv r' s.
Proof.
  intros Hs Hb Ho Hr Hk. split; [exact Hs|]. split; [exact Hb|]. intros k'.
  destruct (Z.eq_dec k' k) as [->|Hne]; [exact Hk|]. rewrite (Hr k' Hne). exact (Ho k' Hne).
Qed.

(** A dirty victim is written back, a clean one is in the backing store already. *)
Lemma agree_evict (s : cst P) ke pol' k w : NoDup (akeys (cache s)) -> In ke (akeys (cache s)) ->
  agree (cache s) (dirty s) (back s) k w ->
  let s1 := evict_apply s ke pol' in agree (cache s1) (dirty s1) (back s1) k w.
Proof.
  intros Hc Hin Ha. cbn [evict_apply cache dirty back]. rewrite guard_remove1.
  destruct (Z.eq_dec k ke) as [->|Hne].
  - unfold agree in *. rewrite aget_adel_same by exact Hc.
    destruct (aget ke (cache s)) as [ve|] eqn:Eve; [|apply aget_None in Eve; tauto]. destruct Ha as [-> Hco].
    destruct (zmem ke (dirty s)) eqn:Ed; [apply aget_aset_same|]. apply Hco, zmem_false, Ed.
  - revert Ha. apply agree_ext; [apply aget_adel_other, Hne|apply In_remove1_neq, Hne|].
    destruct (zmem ke (dirty s)); [apply aget_aset_other, Hne|reflexivity].
Qed.

(** The state delete / invalidate leave behind, whether or not [k] was cached. *)
Lemma drop_fields k r (s : cst P) : NoDup (akeys (cache s)) -> agree_off k r (cache s) (dirty s) (back s) ->
  let s0 := if amem k (cache s) then cache_remove P k s else s in
  back s0 = back s /\ aget k (cache s0) = None /\ agree_off k r (cache s0) (dirty s0) (back s).
Proof.
  intros Hc Ha. destruct (amem k (cache s)) eqn:E; cbn [cache_remove cache dirty back].
  - split; [reflexivity|]. split; [apply aget_adel_same, Hc|].
    apply (agree_off_ext k r _ _ _ _ _ _ Ha); intros k' Hne; [apply aget_adel_other, Hne|apply In_remove1_neq, Hne|reflexivity].
  - split; [reflexivity|]. split; [|exact Ha]. apply aget_None, amem_false, E.
Qed.

Lemma cache_put_seq now dr k v s r : sinv r s ->
  let s' := fst (cache_put P c now dr k v s) in
  cinv s' /\ NoDup (akeys (back s')) /\ aget k (back s') = aget k (back s) /\ aget k (cache s') = Some v /\
  agree_off k r (cache s') (dirty s') (back s').
Proof.
  intros (Hs & Hb & Ha). pose proof (cache_put_inv P H c Hcap now dr k v s Hs) as Hi.
  pose proof (cache_put_get P c now dr k v s) as Hg.
  destruct (cache_put_shape P H c Hcap now dr k v s Hs) as (s1 & po & Hc & Hd & _ & Hbk & Hs1 & _).
  cbn zeta. rewrite Hd, Hbk.
  assert (H1 : NoDup (akeys (back s1)) /\ aget k (back s1) = aget k (back s) /\
               forall k', agree (cache s1) (dirty s1) (back s1) k' (r k')).
  { destruct Hs1 as [->|(ke & pol' & Hin & Hne & ->)]; [auto|]. split; [|split].
    - cbn [evict_apply back]. destruct (zmem ke (dirty s)); [apply aset_keys_spec|]; exact Hb.
    - cbn [evict_apply back]. destruct (zmem ke (dirty s)); [apply aget_aset_other; congruence|reflexivity].
    - intros k'. apply agree_evict; [apply Hs|exact Hin|apply Ha]. }
  destruct H1 as (Hb1 & Hk1 & Ha1). split; [exact Hi|]. split; [exact Hb1|]. split; [exact Hk1|]. split; [exact Hg|].
  apply (agree_off_ext k r (cache s1) _ _ _ _ _ (fun k' _ => Ha1 k')); intros k' Hne; [|auto|reflexivity].
  rewrite Hc. apply aget_aset_other, Hne.
Qed.

Fixpoint reads_ok (r : Z -> option Z) (l : list (list Z * list (list Z) * op))
  (outs : list (option (option Z))) : Prop :=
  match l, outs with
  | [], [] => True
  | x :: l', v :: outs' =>
      (match snd x with OGet k => v = Some (r k) | _ => v <> None end) /\
      reads_ok (ref_upd r (snd x)) l' outs'
  | _, _ => False
  end.

Lemma complete_ret fuel nows s v dr : complete P c fuel nows (s, RRet v, dr) = (s, Some v).
Proof. destruct fuel; reflexivity. Qed.

Lemma complete_yield f nows s d k dr :
  complete P c (S f) nows (s, RYield d k, dr) =
  complete P c f (snd (next_now nows)) (resume P c (fst (next_now nows)) dr s k).
Proof. reflexivity. Qed.

Lemma flush_complete order : forall s n nows dr fuel r, sinv r s -> (length order < fuel)%nat ->
  exists s' m, complete P c fuel nows (s, flush_next c s order n, dr) = (s', Some (Some m)) /\ sinv r s'.
Proof.
  induction order as [|k rest IH]; intros s n nows dr fuel r Hr Hf; cbn [flush_next].
  - rewrite complete_ret. eauto.
  - destruct (aget k (cache s)) as [v|] eqn:E; [|apply IH; [exact Hr|cbn in Hf; lia]].
    destruct fuel as [|f]; [cbn in Hf; lia|]. rewrite complete_yield. cbn [resume].
    apply IH; [|cbn in Hf; lia]. destruct Hr as (Hs & Hb & Ha).
    apply (sinv_at r r _ k); cbn [cache dirty back].
    + exact (resume_inv P H c Hcap (fst (next_now nows)) dr s (KFlush k v rest n) Hs).
    + apply aset_keys_spec, Hb.
    + apply (agree_off_ext k r _ _ _ _ _ _ (fun k' _ => Ha k')); intros k' Hne;
        [reflexivity|apply In_remove1_neq, Hne|apply aget_aset_other, Hne].
    + reflexivity.
    + specialize (Ha k). unfold agree in Ha. rewrite E in Ha. destruct Ha as [-> _].
      apply agree_cached; [exact E|]. intros _. apply aget_aset_same.
Qed.

Lemma run_op_seq r s x : sinv r s -> op_safe (snd x) ->
  sinv (ref_upd r (snd x)) (fst (run_op P c s x)) /\
  match snd x with OGet k => snd (run_op P c s x) = Some (r k) | _ => snd (run_op P c s x) <> None end.
Proof.
  destruct x as [[nows dr] o]. cbn [snd]. intros Hr Hsafe. unfold run_op.
  pose proof Hr as (Hs & Hb & Ha).
  set (now0 := fst (next_now nows)). set (nows1 := snd (next_now nows)).
  pose proof (start_inv P H c Hcap now0 dr s o Hs) as Hst.
  destruct o as [k|k v|k|k| |order]; cbn [op_fuel ref_upd start] in *.
  - specialize (Ha k) as Hk. unfold agree in Hk.
    destruct (aget k (cache s)) as [v|] eqn:E; cbn [complete resume].
    + destruct Hk as [-> _]. split; [exact (conj Hst (conj Hb Ha))|reflexivity].
    + cbn [bump back]. destruct (aget k (back s)) as [v|] eqn:Eb; [|cbn [complete]; rewrite <- Hk; auto].
      pose proof (cache_put_seq (fst (next_now nows1)) dr k v (bump s 1 0 0 1) r Hr) as (Hi & Hb' & Hbk & Hg & Ho).
      destruct (cache_put P c (fst (next_now nows1)) dr k v (bump s 1 0 0 1)) as [s1 dr1]. cbn [fst bump back] in *.
      cbn [complete fst snd]. rewrite <- Hk. split; [|reflexivity].
      apply (sinv_at r r s1 k Hi Hb' Ho); [reflexivity|]. rewrite <- Hk. apply agree_cached; [exact Hg|]. intros _. rewrite Hbk. exact Eb.
  - pose proof (cache_put_seq now0 dr k v (bump s 0 1 0 0) r Hr) as (Hi & Hb' & _ & Hg & Ho).
    destruct (cache_put P c now0 dr k v (bump s 0 1 0 0)) as [s1 dr1]. cbn [fst] in *.
    destruct (wt c) eqn:Ew; cbn [complete resume fst snd] in *; (split; [|discriminate]);
      apply (sinv_at r _ _ k); cbn [with_back with_dirty cache dirty back].
    (* write-through: the second segment has put the value into the backing store *)
    + exact Hi.
    + apply aset_keys_spec, Hb'.
    + apply (agree_off_ext k r _ _ _ _ _ _ Ho); intros k' Hne; [reflexivity|auto|apply aget_aset_other, Hne].
    + apply upd_other.
    + rewrite upd_same. apply agree_cached; [exact Hg|]. intros _. apply aget_aset_same.
    (* write-back: the key is dirty *)
    + exact Hst.
    + exact Hb'.
    + apply (agree_off_ext k r _ _ _ _ _ _ Ho); intros k' Hne; [reflexivity|intros Hx; apply In_add_end; auto|reflexivity].
    + apply upd_other.
    + rewrite upd_same. apply agree_cached; [exact Hg|]. intros Hn. exfalso. apply Hn, In_add_end. auto.
  - cbn [complete resume fst snd] in *. split; [|discriminate].
    destruct (drop_fields k r s (proj1 (proj2 Hs)) (fun k' _ => Ha k')) as (Hbk & Hk0 & Ho).
    apply (sinv_at r _ _ k); cbn [with_back cache dirty back]; rewrite ?Hbk.
    + exact Hst.
    + apply adel_keys_spec, Hb.
    + apply (agree_off_ext k r _ _ _ _ _ _ Ho); intros k' Hne; [reflexivity|auto|apply aget_adel_other, Hne].
    + apply upd_other.
    + rewrite upd_same. unfold agree. rewrite Hk0. apply aget_adel_same, Hb.
  - (* invalidate is write-through only: nothing is dirty *)
    destruct Hsafe as [Hwt|[]]. assert (Hdi : dirty s = []) by (apply Hs, Hwt).
    cbn [complete fst snd] in *. split; [|discriminate].
    destruct (drop_fields k r s (proj1 (proj2 Hs)) (fun k' _ => Ha k')) as (Hbk & Hk0 & Ho).
    apply (sinv_at r r _ k Hst); rewrite ?Hbk; [exact Hb|exact Ho|reflexivity|].
    specialize (Ha k). rewrite Hdi in Ha. exact (agree_dropped _ _ _ _ _ _ Ha Hk0).
  - destruct Hsafe as [Hwt|[]]. assert (Hdi : dirty s = []) by (apply Hs, Hwt).
    cbn [complete fst snd]. split; [|discriminate].
    split; [exact Hst|]. split; [exact Hb|]. intros k'. specialize (Ha k'). rewrite Hdi in Ha.
    exact (agree_dropped _ _ [] [] _ _ Ha eq_refl).
  - destruct (flush_complete order s 0 nows1 dr (S (length order)) r Hr (Nat.lt_succ_diag_r _)) as (s' & m & Heq & Hs').
    rewrite Heq. cbn [fst snd]. split; [exact Hs'|discriminate].
Qed.

Theorem sequential_reads l : forall r s, sinv r s -> Forall (fun x => op_safe (snd x)) l ->
  reads_ok r l (snd (run_seq P c s l)).
Proof.
  induction l as [|x l IH]; intros r s Hs Hf; cbn [run_seq]; [exact I|].
  inversion Hf as [|? ? Hx Hf']; subst.
  pose proof (run_op_seq r s x Hs Hx) as [Hs' Hv].
  destruct (run_op P c s x) as [s1 v]. cbn [fst snd] in *.
  specialize (IH _ _ Hs' Hf'). destruct (run_seq P c s1 l) as [s2 vs]. cbn [snd reads_ok] in *.
  split; [exact Hv|exact IH].
Qed.

Lemma sinv_init b0 : NoDup (akeys b0) -> sinv (fun k => aget k b0) (cinit P b0).
Proof.
  intros Hb. split; [apply cinv_init; exact Hcap|]. split; [exact Hb|]. intros k. reflexivity.
Qed.

End Seq.

Example sequential_hypotheses_satisfiable :
  let l := [([0], [], OPut 0 7); ([1], [], OPut 1 8); ([2], [], OGet 0); ([3], [], OFlush [1]); ([4], [], OGet 1)] in
  Forall (fun x => op_safe {| cap := 1; wt := false; lat_c := 1; lat_r := 2; lat_w := 3; lat_d := 4 |} (snd x)) l /\
  snd (run_seq lru {| cap := 1; wt := false; lat_c := 1; lat_r := 2; lat_w := 3; lat_d := 4 |} (cinit lru []) l)
  = [Some None; Some None; Some (Some 7); Some (Some 0); Some (Some 8)].
Proof. cbn zeta. split; [repeat (apply Forall_cons; [right; exact I|]); apply Forall_nil|vm_compute; reflexivity]. Qed.

(** Without the restriction on invalidations the sequential statement is
    FALSE in write-back mode (known finding C16-invalidate-dirty). *)
Definition wb_sequential_statement : Prop :=
  forall kind c b0 l, 1 <= cap c -> NoDup (akeys b0) ->
  reads_ok (fun k => aget k b0) l (snd (run_seq (pol_of kind) c (cinit (pol_of kind) b0) l)).

Theorem invalidate_dirty_refuted : ~ wb_sequential_statement.
Proof.
  intros Hs.
  specialize (Hs KFifo {| cap := 2; wt := false; lat_c := 1; lat_r := 10; lat_w := 5; lat_d := 5 |} []
                 [([0], [], OPut 0 1); ([20], [], OInv 0); ([40], [], OGet 0)] ltac:(cbn; lia) ltac:(constructor)).
  vm_compute in Hs. destruct Hs as (_ & _ & Hs & _). discriminate.
Qed.
