(** C16 — executable model of happysimulator/components/datastore/write_policies.py
    (WriteThrough, WriteBack, WriteAround) and the tracking lemma for WriteBack, from any state. *)
From HS Require Import Base.Prelude C16.Model C16.Lists.
Local Open Scope Z_scope.

Inductive wkind := WThrough | WBack (max_dirty : Z) | WAround.

Record wst := { wdirty : list Z;       (* WriteBack._dirty_keys (set) *)
                winval : list Z }.     (* WriteAround._invalidated_keys (list) *)

Inductive wop :=
| WOnWrite (k : Z)                     (* on_write(key, value) *)
| WOnFlush (keys : list Z)             (* on_flush(keys) *)
| WTakeInval.                          (* get_keys_to_invalidate() *)

Definition wapply (kd : wkind) (s : wst) (o : wop) : wst :=
  match kd, o with
  | WBack _, WOnWrite k => {| wdirty := add_end k (wdirty s); winval := winval s |}
  | WBack _, WOnFlush keys => {| wdirty := fold_left (fun d k => remove1 k d) keys (wdirty s); winval := winval s |}
  | WAround, WOnWrite k => {| wdirty := wdirty s; winval := winval s ++ [k] |}
  | WAround, WTakeInval => {| wdirty := wdirty s; winval := [] |}
  | _, _ => s
  end.

(** observations after a call: should_write_through(), should_flush(),
    sorted get_keys_to_flush(), pending invalidations *)
Definition wobs := (bool * bool * list Z * list Z)%type.

Definition wview (kd : wkind) (s : wst) : wobs :=
  match kd with
  | WThrough => (true, false, [], [])
  | WBack m => (false, zlen (wdirty s) >=? m, zsort (wdirty s), [])
  | WAround => (true, false, [], winval s)
  end.

Definition wobs_eqb (a b : wobs) : bool :=
  let '(a1, a2, a3, a4) := a in let '(b1, b2, b3, b4) := b in
  Bool.eqb a1 b1 && Bool.eqb a2 b2 && zlist_eqb a3 b3 && zlist_eqb a4 b4.

Fixpoint ok_wp_from (kd : wkind) (s : wst) (tr : list (wop * wobs)) : bool :=
  match tr with
  | [] => true
  | (o, v) :: r => let s' := wapply kd s o in wobs_eqb v (wview kd s') && ok_wp_from kd s' r
  end.

Definition ok_wp (x : wkind * list (wop * wobs)) : bool :=
  ok_wp_from (fst x) {| wdirty := []; winval := [] |} (snd x).

Definition wrun (kd : wkind) (ops : list wop) : wst :=
  fold_left (wapply kd) ops {| wdirty := []; winval := [] |}.

(** is [k] written and not flushed since, according to the call sequence alone *)
Fixpoint pending_write (k : Z) (ops : list wop) (acc : bool) : bool :=
  match ops with
  | [] => acc
  | WOnWrite k' :: r => pending_write k r (if k' =? k then true else acc)
  | WOnFlush keys :: r => pending_write k r (if zmem k keys then false else acc)
  | WTakeInval :: r => pending_write k r acc
  end.

Lemma fold_remove_spec keys : forall d k, NoDup d ->
  NoDup (fold_left (fun d k => remove1 k d) keys d) /\
  (In k (fold_left (fun d k => remove1 k d) keys d) <-> In k d /\ ~ In k keys).
Proof.
  induction keys as [|x keys IH]; intros d k Hd; cbn [fold_left].
  - split; [exact Hd|]. cbn. tauto.
  - destruct (IH (remove1 x d) k (NoDup_remove1 x d Hd)) as [Hn Hi]. split; [exact Hn|].
    rewrite Hi, (In_remove1_iff x k d Hd). cbn. intuition congruence.
Qed.

Lemma wb_tracks_from m k ops : forall s acc, NoDup (wdirty s) -> (In k (wdirty s) <-> acc = true) ->
  (In k (wdirty (fold_left (wapply (WBack m)) ops s)) <-> pending_write k ops acc = true).
Proof.
  induction ops as [|o ops IH]; intros s acc Hd Hk; cbn [fold_left pending_write]; [exact Hk|].
  destruct o as [k'|keys|]; cbn [wapply].
  - apply IH; cbn [wdirty]; [apply NoDup_add_end, Hd|].
    rewrite In_add_end, Hk. destruct (k' =? k) eqn:E.
    + apply Z.eqb_eq in E. subst. tauto.
    + apply Z.eqb_neq in E. split; [intros [->|Ha]; [congruence|exact Ha]|auto].
  - destruct (fold_remove_spec keys (wdirty s) k Hd) as [Hn Hi].
    apply IH; cbn [wdirty]; [exact Hn|].
    rewrite Hi, Hk. destruct (zmem k keys) eqn:E.
    + apply zmem_In in E. split; [tauto|discriminate].
    + apply zmem_false in E. tauto.
  - apply IH; assumption.
Qed.
