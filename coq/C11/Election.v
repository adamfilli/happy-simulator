(** C11 — election safety of the cluster model: for EVERY schedule of
    deliveries (any order), drops, timeouts, heartbeats and submits, at most
    one node is ever leader in a given term.

    Standard argument: a node's vote in a term never changes (it changes only
    when the term increases or from None); a candidate only counts votes that
    were cast for it in its term; two quorums intersect. *)
From HS Require Import Base.Prelude Base.Lists C11.Model C11.NodeProofs.
Local Open Scope Z_scope.

(** What one handler invocation may do to identity, term and vote. *)
Definition vstep (n n' : node) : Prop :=
  nid n' = nid n /\ peers n' = peers n /\ term n <= term n' /\
  (term n' = term n -> forall c, voted n = Some c -> voted n' = Some c).

Lemma vstep_refl n : vstep n n.
Proof. unfold vstep; intuition lia. Qed.
Lemma vstep_trans a b c : vstep a b -> vstep b c -> vstep a c.
Proof.
  unfold vstep. intros (A1 & A2 & A3 & A4) (B1 & B2 & B3 & B4).
  repeat split; try congruence; try lia.
  intros E x Hx. apply B4; [lia|]. apply A4; [lia|exact Hx].
Qed.

Lemma step_down_vstep n t : term n <= t -> vstep n (step_down n t).
Proof.
  intros H. rewrite step_down_eq. unfold vstep. cbn [nid peers term voted set_role set_term set_voted].
  repeat split; [exact H|]. intros E. replace (t >? term n) with false by lia. auto.
Qed.

Lemma catch_up_vstep n t : vstep n (catch_up n t).
Proof. unfold catch_up. destruct (t >? term n) eqn:E; [apply step_down_vstep; lia|apply vstep_refl]. Qed.

Lemma demote_vstep n t lead : term n <= t -> vstep n (demote n t lead).
Proof.
  intros H. rewrite demote_eq. unfold vstep. cbn [nid peers term voted set_term set_leader set_role set_voted].
  repeat split; [exact H|]. intros E. replace (t >? term n) with false by lia. auto.
Qed.

Definition elv (n : node) := (nid n, peers n, term n, voted n, votes n, role n).

Definition only_ae : list output -> Prop := sends (fun m => exists t l pi pt es lc, m = AppendEntries t l pi pt es lc).

Lemma send_append_entries_only_ae n : only_ae (send_append_entries n).
Proof.
  unfold only_ae, send_append_entries. intros d m H. apply in_map_iff in H. destruct H as (p & E & _).
  unfold append_entries_for in E. inversion E. eauto 10.
Qed.

Lemma lead_out_only_ae n : only_ae (lead_out n).
Proof.
  intros d m H. apply in_app_or in H. destruct H as [H|[H|[]]]; [|discriminate].
  eapply send_append_entries_only_ae; eauto.
Qed.

Definition votes_inv (n : node) : Prop :=
  NoDup (votes n) /\ (role n = Leader -> quorum n <= zlen (votes n)).

Definition msg_ok (n n' : node) (inp : input) (d : Z) (m : msg) : Prop :=
  match m with
  | RequestVote t cand _ _ => cand = nid n
  | VoteResponse t true f =>
      f = nid n /\ t = term n' /\
      exists src t0 cand a b, inp = IMsg src (RequestVote t0 cand a b) /\ d = src /\ voted n' = Some cand
  | _ => True
  end.

Definition votes_src (n n' : node) (inp : input) : Prop :=
  role n' <> Follower -> forall v, In v (votes n') ->
    (role n <> Follower /\ term n' = term n /\ In v (votes n)) \/
    (v = nid n /\ voted n' = Some (nid n)) \/
    (exists src, inp = IMsg src (VoteResponse (term n') true v)).

Definition step_spec (n : node) (inp : input) (n' : node) (o : list output) : Prop :=
  vstep n n' /\ (votes_inv n -> votes_inv n') /\
  (forall d m, In (OSend d m) o -> msg_ok n n' inp d m) /\ votes_src n n' inp.

(** Outputs without a RequestVote or a granted vote. *)
Definition quiet : list output -> Prop :=
  sends (fun m => match m with RequestVote _ _ _ _ => False | VoteResponse _ true _ => False | _ => True end).

Lemma quiet_msg_ok o n n' inp : quiet o -> forall d m, In (OSend d m) o -> msg_ok n n' inp d m.
Proof.
  intros Q d m H. specialize (Q d m H). unfold msg_ok. destruct m; try tauto. destruct granted; tauto.
Qed.

Lemma only_ae_quiet o : only_ae o -> quiet o.
Proof. apply sends_impl. intros m (? & ? & ? & ? & ? & ? & ->). exact I. Qed.
Lemma silent_quiet o : silent o -> quiet o.
Proof. apply sends_impl. intros m (? & ? & ->). exact I. Qed.
Lemma quiet_timer o : quiet o -> quiet (OElectionTimer :: o).
Proof. apply sends_cons. discriminate. Qed.

Lemma quorum_same n n' : peers n' = peers n -> quorum n' = quorum n.
Proof. unfold quorum. intros ->. reflexivity. Qed.

(** Three shapes of outcome cover most handlers: nothing relevant changed;
    the node ended as Follower with its recorded votes untouched; the node
    started a candidacy. *)
Lemma step_spec_quiet n inp n' o : elv n' = elv n -> quiet o -> step_spec n inp n' o.
Proof.
  unfold elv. intros E Q. injection E as En Ep Et Ev Es Er.
  unfold step_spec, vstep, votes_inv, votes_src. rewrite (quorum_same n n' Ep), En, Ep, Et, Ev, Es, Er.
  split; [|split; [|split]].
  - split; [reflexivity|]. split; [reflexivity|]. split; [lia|auto].
  - auto.
  - apply quiet_msg_ok, Q.
  - intros Hr v Hv. left. auto.
Qed.

Lemma step_spec_follower n inp n' o :
  vstep n n' -> role n' = Follower -> votes n' = votes n -> quiet o -> step_spec n inp n' o.
Proof.
  intros V R E Q. unfold step_spec. repeat split; try apply V.
  - destruct H as [H1 H2]. rewrite E. exact H1.
  - intros HL. congruence.
  - apply quiet_msg_ok, Q.
  - intros Hr. congruence.
Qed.

Lemma rv_out_from n m d x : nid m = nid n -> In (OSend d x) (rv_out m) -> exists t a b, x = RequestVote t (nid n) a b.
Proof. intros E H. destruct (rv_out_in _ _ _ H) as [_ ->]. rewrite E. eauto. Qed.

Lemma step_spec_campaign n inp n' rv o :
  (nid n', peers n', term n', voted n', votes n') = (nid n, peers n, term n + 1, Some (nid n), [nid n]) ->
  role n' <> Follower -> (role n' = Leader -> quorum n <= 1) ->
  (forall d x, In (OSend d x) rv -> exists t a b, x = RequestVote t (nid n) a b) -> quiet o ->
  step_spec n inp n' (rv ++ o).
Proof.
  intros E NF QL RV Q. injection E as En Ep Et Ev Es. unfold step_spec. split; [|split; [|split]].
  - unfold vstep. split; [exact En|]. split; [exact Ep|]. split; [lia|]. intros E. lia.
  - intros _. unfold votes_inv. rewrite Es, (quorum_same n n' Ep). split; [|exact QL].
    constructor; [intros []|constructor].
  - intros d m H. apply in_app_or in H. destruct H as [H|H]; [|apply (quiet_msg_ok o); assumption].
    destruct (RV d m H) as (t & a & b & ->). reflexivity.
  - intros _ v Hv. right. left. rewrite Es in Hv. destruct Hv as [<-|[]]. split; [reflexivity|exact Ev].
Qed.

Lemma set_add_nodup x l : NoDup l -> NoDup (set_add x l).
Proof.
  intros H. unfold set_add. destruct (zmem x l) eqn:E; [exact H|].
  apply NoDup_rev in H. rewrite <- (rev_involutive (l ++ [x])). apply NoDup_rev.
  rewrite rev_app_distr. cbn. constructor; [|exact H].
  intros Hin. apply in_rev in Hin. apply zmem_in in Hin. congruence.
Qed.

Lemma set_add_in x l v : In v (set_add x l) -> In v l \/ v = x.
Proof.
  unfold set_add. destruct (zmem x l); [auto|]. intros H. apply in_app_or in H. destruct H as [H|[H|[]]]; auto.
Qed.

(** The only vote a counted reply may add is the reply's. *)
Lemma tally_votes n g v : (NoDup (votes n) -> NoDup (votes (tally n g v))) /\
  forall x, In x (votes (tally n g v)) -> In x (votes n) \/ (x = v /\ g = true).
Proof.
  destruct g; cbn [tally votes set_n_votes set_votes]; [|auto]. split; [apply set_add_nodup|].
  intros x Hx. apply set_add_in in Hx. intuition.
Qed.

(** A vote reply counted by a candidate of the reply's term: [n'] is the tally,
    possibly elected. *)
Lemma step_spec_tally n src g v n' o :
  role n = Candidate -> (nid n', peers n', term n', voted n', votes n') =
    (nid n, peers n, term n, voted n, votes (tally n g v)) ->
  (role n' = Leader -> quorum n <= zlen (votes (tally n g v))) -> quiet o ->
  step_spec n (IMsg src (VoteResponse (term n) g v)) n' o.
Proof.
  intros RC E QL Q. injection E as En Ep Et Ev Es. destruct (tally_votes n g v) as [ND FV].
  unfold step_spec. split; [|split; [|split]].
  - unfold vstep. split; [exact En|]. split; [exact Ep|]. split; [lia|]. intros _ c Hc. congruence.
  - intros [H1 _]. unfold votes_inv. rewrite Es, (quorum_same n n' Ep). split; [apply ND, H1|exact QL].
  - apply quiet_msg_ok, Q.
  - intros _ x Hx. rewrite Es in Hx. destruct (FV x Hx) as [H|[-> ->]].
    + left. split; [congruence|]. split; [exact Et|exact H].
    + right. right. exists src. rewrite Et. reflexivity.
Qed.

Theorem nstep_spec n inp n' o : nstep n inp n' o -> step_spec n inp n' o.
Proof.
  intros S. destruct S.
  - apply step_spec_quiet; [reflexivity|apply silent_quiet; assumption].
  - apply step_spec_quiet; [reflexivity|apply only_ae_quiet, lead_out_only_ae].
  - apply step_spec_follower; [apply step_down_vstep; lia|rewrite step_down_eq; reflexivity..|apply quiet_timer, sends_nil].
  - apply step_spec_campaign;
      [reflexivity|discriminate|discriminate|intros d x; apply rv_out_from; reflexivity|apply quiet_timer, sends_nil].
  - apply step_spec_campaign;
      [rewrite elect_frame; reflexivity|rewrite elect_frame; discriminate|intros _; exact H0
      |intros d x; apply rv_out_from; reflexivity|apply only_ae_quiet, lead_out_only_ae].
  - (* vote granted: the node had not voted for anyone else in term [t] *)
    set (n1 := catch_up n t) in *. pose proof (catch_up_vstep n t : vstep n n1) as V1.
    assert (R1 : (role n1 = Follower /\ votes n1 = votes n) \/ (n1 = n /\ t <= term n)).
    { unfold n1. destruct (catch_up_cases n t) as [[_ ->]|[Le ->]]; [left; rewrite step_down_eq; split; reflexivity|right; split; [reflexivity|exact Le]]. }
    destruct (vote_ok_true _ _ _ _ _ H0) as (G1 & G2 & _).
    assert (V : vstep n (grant n1 cand t)).
    { apply (vstep_trans _ _ _ V1). unfold vstep. cbn [grant nid peers term voted set_term set_voted].
      repeat split; [exact G1|]. intros E c Hc. rewrite (G2 c Hc). reflexivity. }
    unfold step_spec. split; [exact V|]. split; [|split].
    + unfold votes_inv. change (votes (grant n1 cand t)) with (votes n1). change (role (grant n1 cand t)) with (role n1).
      change (quorum (grant n1 cand t)) with (quorum n1).
      destruct R1 as [[RF Ev]|[-> _]]; [|auto]. rewrite Ev, RF. intros [H1 _]. split; [exact H1|discriminate].
    + intros d m [Hm|[Hm|[]]]; [|discriminate]. inversion Hm; subst d m. cbn.
      split; [reflexivity|]. split; [reflexivity|]. exists src, t, cand, lli, llt. auto.
    + intros Hr v Hv. left. change (role (grant n1 cand t)) with (role n1) in Hr.
      destruct R1 as [[RF _]|[E Ht]]; [congruence|]. rewrite E in *.
      split; [exact Hr|]. split; [cbn; lia|exact Hv].
  - set (n1 := catch_up n t) in *.
    assert (R1 : (role n1 = Follower /\ votes n1 = votes n) \/ n1 = n).
    { unfold n1. destruct (catch_up_cases n t) as [[_ ->]|[_ ->]]; [left; rewrite step_down_eq; split; reflexivity|right; reflexivity]. }
    assert (Q : quiet [OSend src (VoteResponse (term n1) false (nid n))]) by (intros d m [Hm|[]]; inversion Hm; exact I).
    destruct R1 as [[RF Ev]| ->]; [apply step_spec_follower; [apply catch_up_vstep|assumption..]|].
    apply step_spec_quiet; [reflexivity|exact Q].
  - apply step_spec_tally; [assumption|destruct g; reflexivity| |apply sends_nil].
    replace (role (tally n g v)) with (role n) by (destruct g; reflexivity). rewrite H. discriminate.
  - apply step_spec_tally; [assumption|rewrite elect_frame; destruct g; reflexivity|intros _; exact H0
                           |apply only_ae_quiet, lead_out_only_ae].
  - apply step_spec_follower; [apply demote_vstep; assumption|rewrite demote_eq; reflexivity..|].
    apply quiet_timer. intros d m [Hm|[]]. inversion Hm. exact I.
  - destruct (accepted_fields n t lead ents lc) as (Fn & Fp & Ft & Fv & Fs & Fr & _).
    apply step_spec_follower; [|exact Fr|exact Fs|apply quiet_timer; intros d m [Hm|[]]; inversion Hm; exact I].
    unfold vstep. rewrite Fn, Fp, Ft, Fv. repeat split; [assumption|]. intros E. replace (t >? term n) with false by lia. auto.
  - apply step_spec_quiet; [unfold try_advance_commit; rewrite try_commit_frame; reflexivity|apply sends_nil].
  - apply step_spec_quiet; [reflexivity|]. destruct (zmem f (peers n)); [|apply sends_nil].
    intros d m [Hm|[]]. inversion Hm. exact I.
  - apply step_spec_quiet; [|apply sends_nil].
    destruct (role_eqb (role n) Leader) eqn:R;
      [rewrite submit_leader by (apply role_eqb_true, R)|rewrite submit_other by (apply role_eqb_false, R)]; reflexivity.
Qed.

Theorem node_step_spec n inp : step_spec n inp (fst (node_step n inp)) (snd (node_step n inp)).
Proof. apply nstep_spec, node_step_nstep. Qed.

Definition nquorum (l : list Z) : Z := zlen l / 2 + 1.

Record net_inv (w : net) : Prop := {
  I_nodup : NoDup (ids w);
  I_id : forall i, nid (nodes w i) = i /\ peers (nodes w i) = filter (fun p => negb (Z.eqb p i)) (ids w);
  I_votes : forall i, votes_inv (nodes w i);
  I_g1 : forall v t c, In (v, t, c) (cast w) -> In v (ids w) /\ t <= term (nodes w v);
  I_g2 : forall v t c, In (v, t, c) (cast w) -> term (nodes w v) = t -> voted (nodes w v) = Some c;
  I_g3 : forall v t c c', In (v, t, c) (cast w) -> In (v, t, c') (cast w) -> c = c';
  I_m0 : forall d s t cand a b, In (d, s, RequestVote t cand a b) (bag w) -> cand = s;
  I_m1 : forall d s t f, In (d, s, VoteResponse t true f) (bag w) -> f = s /\ In (s, t, d) (cast w);
  I_v1 : forall i, role (nodes w i) <> Follower ->
         forall v, In v (votes (nodes w i)) -> In (v, term (nodes w i), i) (cast w);
  I_l1 : forall t a, In (t, a) (led w) ->
         exists vs, NoDup vs /\ nquorum (ids w) <= zlen vs /\ forall v, In v vs -> In (v, t, a) (cast w);
}.

Definition input_ok (w : net) (i : Z) (inp : input) : Prop :=
  match inp with
  | IMsg s (RequestVote t cand _ _) => cand = s
  | IMsg s (VoteResponse t true f) => f = s /\ In (s, t, i) (cast w)
  | _ => True
  end.

Lemma filter_others_length i l : NoDup l -> In i l ->
  zlen (filter (fun p => negb (Z.eqb p i)) l) + 1 = zlen l.
Proof.
  unfold zlen. induction l as [|x l IH]; intros ND Hin; [destruct Hin|].
  inversion ND as [|? ? Hx ND']; subst. cbn [filter].
  destruct (Z.eqb x i) eqn:E; cbn [negb].
  - apply Z.eqb_eq in E. subst x.
    assert (F : filter (fun p => negb (p =? i)) l = l).
    { clear IH ND ND' Hin. induction l as [|y l IH]; cbn; [reflexivity|].
      destruct (Z.eqb y i) eqn:E; cbn.
      - apply Z.eqb_eq in E. subst. exfalso. apply Hx. left. reflexivity.
      - f_equal. apply IH. intros H. apply Hx. right. exact H. }
    rewrite F. cbn [length]. lia.
  - destruct Hin as [->|Hin]; [rewrite Z.eqb_refl in E; discriminate|].
    specialize (IH ND' Hin). cbn [length]. lia.
Qed.

Lemma peers_in w i p : net_inv w -> In p (peers (nodes w i)) <-> (In p (ids w) /\ p <> i).
Proof.
  intros W. destruct (I_id w W i) as [_ ->]. rewrite filter_In. split; intros [A B]; split; auto.
  - apply negb_true_iff in B. lia.
  - apply negb_true_iff. lia.
Qed.

Lemma quorum_nquorum w i : net_inv w -> In i (ids w) -> quorum (nodes w i) = nquorum (ids w).
Proof.
  intros W Z0. unfold quorum, nquorum. destruct (I_id w W i) as [_ ->].
  pose proof (filter_others_length i (ids w) (I_nodup w W) Z0). dlia.
Qed.

Lemma sends_of_in i o d s m : In (d, s, m) (sends_of i o) -> s = i /\ In (OSend d m) o.
Proof.
  induction o as [|x o IH]; cbn; [intros []|].
  destruct x as [d' m'| |]; cbn.
  - intros [H|H]; [inversion H; subst; auto|]. destruct (IH H); auto.
  - intros H. destruct (IH H); auto.
  - intros H. destruct (IH H); auto.
Qed.

Definition cast_step (w : net) (i : Z) (n' : node) : list (Z * Z * Z) :=
  match voted n' with Some c => (i, term n', c) :: cast w | None => cast w end.
Definition led_step (w : net) (i : Z) (n' : node) : list (Z * Z) :=
  match role n' with Leader => (term n', i) :: led w | _ => led w end.

Definition anet (w : net) (i : Z) (n' : node) (o : list output) : net :=
  mkNet (ids w) (upd (nodes w) i n') (bag w ++ sends_of i o) (cast_step w i n') (led_step w i n').

Lemma net_apply_out w i inp : ~ In i (ids w) -> net_apply w i inp = w.
Proof.
  intros H. unfold net_apply. rewrite (zmem_notin _ _ H). reflexivity.
Qed.

Lemma net_apply_eq w i inp : In i (ids w) ->
  net_apply w i inp = anet w i (fst (node_step (nodes w i) inp)) (snd (node_step (nodes w i) inp)).
Proof.
  intros H. unfold net_apply. rewrite (proj2 (zmem_in i (ids w)) H). cbn [negb].
  destruct (node_step (nodes w i) inp). reflexivity.
Qed.

Lemma cast_step_in w i n' x :
  In x (cast_step w i n') <-> In x (cast w) \/ exists c, x = (i, term n', c) /\ voted n' = Some c.
Proof.
  unfold cast_step. destruct (voted n') as [c|]; cbn [In].
  - split; [intros [<-|H]; [right; eauto|auto]|intros [H|(c0 & -> & E)]; [auto|left; congruence]].
  - split; [auto|intros [H|(c0 & _ & E)]; [exact H|discriminate]].
Qed.

Lemma led_step_old w i n' x : In x (led w) -> In x (led_step w i n').
Proof. unfold led_step. destruct (role n'); auto. right. assumption. Qed.

(** One step of the acting node [i], from [nodes w i] to [n'] with outputs [o],
    keeps each clause of the invariant. *)
Section NetApply.
  Variables (w : net) (i : Z) (inp : input) (n' : node) (o : list output).
  Hypothesis W : net_inv w.
  Hypothesis Hi : In i (ids w).
  Hypothesis SP : step_spec (nodes w i) inp n' o.
  Hypothesis IO : input_ok w i inp.

  Lemma na_id j : nid (upd (nodes w) i n' j) = j /\ peers (upd (nodes w) i n' j) = filter (fun p => negb (Z.eqb p j)) (ids w).
  Proof.
    destruct SP as ((Vn & Vp & _) & _). apply upd_case; [intros ->|intros _; apply (I_id w W)].
    destruct (I_id w W i). split; congruence.
  Qed.

  Lemma na_votes j : votes_inv (upd (nodes w) i n' j).
  Proof. destruct SP as (_ & VI & _). apply upd_case; intros _; [apply VI|]; apply (I_votes w W). Qed.

  Lemma na_term j : term (nodes w j) <= term (upd (nodes w) i n' j).
  Proof. destruct SP as ((_ & _ & Vt & _) & _). apply upd_case; [intros ->; exact Vt|lia]. Qed.

  (** a vote held in term [t] is still held if the term is still [t] *)
  Lemma na_voted j t c : t <= term (nodes w j) -> (term (nodes w j) = t -> voted (nodes w j) = Some c) ->
    term (upd (nodes w) i n' j) = t -> voted (upd (nodes w) i n' j) = Some c.
  Proof.
    destruct SP as ((_ & _ & Vt & Vv) & _). apply upd_case; [intros -> Hle H E|auto].
    apply Vv; [lia|apply H; lia].
  Qed.

  Lemma na_g1 v t c : In (v, t, c) (cast_step w i n') -> In v (ids w) /\ t <= term (upd (nodes w) i n' v).
  Proof.
    intros H. apply cast_step_in in H. destruct H as [H|(c0 & E & _)].
    - destruct (I_g1 w W _ _ _ H) as [A B]. split; [exact A|]. pose proof (na_term v). lia.
    - inversion E; subst. rewrite upd_same. split; [exact Hi|lia].
  Qed.

  Lemma na_g2 v t c : In (v, t, c) (cast_step w i n') -> term (upd (nodes w) i n' v) = t -> voted (upd (nodes w) i n' v) = Some c.
  Proof.
    intros H. apply cast_step_in in H. destruct H as [H|(c0 & E & Hv)].
    - apply na_voted; [apply (I_g1 w W _ _ _ H)|apply (I_g2 w W _ _ _ H)].
    - inversion E; subst. rewrite upd_same. intros _. exact Hv.
  Qed.

  (** two records for the same voter and term: both old, or both describe the acting node's present vote *)
  Lemma na_g3 v t c c' : In (v, t, c) (cast_step w i n') -> In (v, t, c') (cast_step w i n') -> c = c'.
  Proof.
    intros H H'. pose proof (na_g2 _ _ _ H) as G. pose proof (na_g2 _ _ _ H') as G'.
    apply cast_step_in in H, H'.
    assert (New : forall x, (exists c0, (v, t, x) = (i, term n', c0) /\ voted n' = Some c0) -> c = c').
    { intros x (c0 & E & _). inversion E; subst. rewrite upd_same in G, G'. specialize (G eq_refl). specialize (G' eq_refl). congruence. }
    destruct H as [H|H]; [|exact (New _ H)]. destruct H' as [H'|H']; [|exact (New _ H')].
    exact (I_g3 w W _ _ _ _ H H').
  Qed.

  Lemma na_m0 d s t cand a b : In (d, s, RequestVote t cand a b) (bag w ++ sends_of i o) -> cand = s.
  Proof.
    destruct SP as (_ & _ & MO & _). intros H. apply in_app_or in H. destruct H as [H|H]; [exact (I_m0 w W _ _ _ _ _ _ H)|].
    apply sends_of_in in H. destruct H as [-> H]. specialize (MO _ _ H). cbn in MO. destruct (I_id w W i). congruence.
  Qed.

  Lemma na_m1 d s t f : In (d, s, VoteResponse t true f) (bag w ++ sends_of i o) -> f = s /\ In (s, t, d) (cast_step w i n').
  Proof.
    destruct SP as (_ & _ & MO & _). intros H. apply in_app_or in H. destruct H as [H|H].
    - destruct (I_m1 w W _ _ _ _ H) as [A B]. split; [exact A|]. apply cast_step_in. left. exact B.
    - apply sends_of_in in H. destruct H as [-> H]. specialize (MO _ _ H). cbn in MO.
      destruct MO as (A & B & src & t0 & cand & x & y & E & D & Vs). subst inp. cbn in IO. subst.
      destruct (I_id w W i). split; [congruence|]. apply cast_step_in. right. eauto.
  Qed.

  (** every vote a candidate or leader counts was cast for it in its term *)
  Lemma na_v1 j : role (upd (nodes w) i n' j) <> Follower ->
    forall v, In v (votes (upd (nodes w) i n' j)) -> In (v, term (upd (nodes w) i n' j), j) (cast_step w i n').
  Proof.
    destruct SP as (_ & _ & _ & VS). apply upd_case; [intros ->|intros _]; intros Hr v Hv; apply cast_step_in.
    - destruct (VS Hr v Hv) as [(R0 & T0 & I0)|[(-> & Vs)|(src & E)]].
      + left. rewrite T0. apply (I_v1 w W); assumption.
      + right. destruct (I_id w W i) as [E _]. rewrite E in *. eauto.
      + left. rewrite E in IO. cbn in IO. destruct IO as [-> IO']. exact IO'.
    - left. apply (I_v1 w W); assumption.
  Qed.

  Lemma na_l1 t a : In (t, a) (led_step w i n') ->
    exists vs, NoDup vs /\ nquorum (ids w) <= zlen vs /\ forall v, In v vs -> In (v, t, a) (cast_step w i n').
  Proof.
    assert (Old : In (t, a) (led w) -> exists vs, NoDup vs /\ nquorum (ids w) <= zlen vs /\ forall v, In v vs -> In (v, t, a) (cast_step w i n')).
    { intros H0. destruct (I_l1 w W _ _ H0) as (vs & A & B & C). exists vs. split; [exact A|]. split; [exact B|].
      intros v Hv. apply cast_step_in. left. apply C, Hv. }
    unfold led_step. destruct (role n') eqn:R; try exact Old. intros [E|H]; [|exact (Old H)]. inversion E; subst t a.
    destruct SP as ((_ & Vp & _) & VI & _). destruct (VI (I_votes w W i)) as [ND Q]. exists (votes n'). split; [exact ND|]. split.
    - rewrite <- (quorum_nquorum w i W Hi), <- (quorum_same _ _ Vp). exact (Q R).
    - intros v Hv. pose proof (na_v1 i) as K. rewrite upd_same in K. apply K; [congruence|exact Hv].
  Qed.
End NetApply.

Lemma net_apply_inv w i inp : net_inv w -> input_ok w i inp -> net_inv (net_apply w i inp).
Proof.
  intros W IO. destruct (in_dec Z.eq_dec i (ids w)) as [Hi|Hi]; [|rewrite net_apply_out; assumption].
  rewrite net_apply_eq by exact Hi. pose proof (node_step_spec (nodes w i) inp) as SP.
  constructor; cbn [ids nodes bag cast led anet].
  - apply W.
  - eapply na_id; eassumption.
  - eapply na_votes; eassumption.
  - eapply na_g1; eassumption.
  - eapply na_g2; eassumption.
  - eapply na_g3; eassumption.
  - eapply na_m0; eassumption.
  - eapply na_m1; eassumption.
  - eapply na_v1; eassumption.
  - eapply na_l1; eassumption.
Qed.

Definition sub_bag (w : net) (b : list (Z * Z * msg)) : net := mkNet (ids w) (nodes w) b (cast w) (led w).

Lemma net_sub_inv w b : net_inv w -> incl b (bag w) -> net_inv (sub_bag w b).
Proof.
  intros [Wnd Wid Wvotes Wg1 Wg2 Wg3 Wm0 Wm1 Wv1 Wl1] Hb. constructor; cbn; eauto.
Qed.

(** The node [i] is handed [inp]: a timer, a client call, or a message taken from the bag. *)
Definition arrives (w : net) (i : Z) (inp : input) : Prop :=
  match inp with IMsg s m => In (i, s, m) (bag w) | _ => True end.

Lemma arrives_ok w b i inp : net_inv w -> arrives w i inp -> input_ok (sub_bag w b) i inp.
Proof.
  intros W A. destruct inp as [| |s m|]; try exact I. destruct m; try exact I; cbn in *.
  - eapply (I_m0 w W); eauto.
  - destruct granted; [|exact I]. eapply (I_m1 w W); eauto.
Qed.

(** Every action either only shrinks the bag or shrinks it and hands one node
    one input.  Stated together with a ghost state that is updated by [ap] at
    every [net_apply]: [LogMatching.gstep] is [ghost_step gapply]. *)
Definition ghost_step {G} (ap : net -> G -> Z -> input -> G) (w : net) (g : G) (a : action) : G :=
  match a with
  | ADeliver k =>
      match nth_error (bag w) k with
      | None => g
      | Some (d, s, m) => ap (sub_bag w (remove_nth k (bag w))) g d (IMsg s m)
      end
  | ADrop _ => g
  | ATimeout i => ap w g i (ITimeout false)
  | AHeartbeat i => ap w g i (IHeartbeat false)
  | ASubmit i c => ap w g i (ISubmit c)
  end.

Lemma ghost_step_cases {G} (ap : net -> G -> Z -> input -> G) w g a :
  (exists b, incl b (bag w) /\ net_step w a = sub_bag w b /\ ghost_step ap w g a = g) \/
  (exists b i inp, incl b (bag w) /\ arrives w i inp /\
     net_step w a = net_apply (sub_bag w b) i inp /\ ghost_step ap w g a = ap (sub_bag w b) g i inp).
Proof.
  assert (Sub : forall k, incl (remove_nth k (bag w)) (bag w)) by (intros k x; apply remove_nth_incl).
  assert (Self : sub_bag w (bag w) = w) by (destruct w; reflexivity).
  assert (Loc : forall i inp, arrives w i inp ->
            exists b j inp', incl b (bag w) /\ arrives w j inp' /\
              net_apply w i inp = net_apply (sub_bag w b) j inp' /\ ap w g i inp = ap (sub_bag w b) g j inp').
  { intros i inp A. exists (bag w), i, inp. rewrite Self. split; [apply incl_refl|auto]. }
  destruct a as [k|k|i|i|i c]; cbn [net_step ghost_step]; try (right; apply Loc; exact I).
  - destruct (nth_error (bag w) k) as [[[d s] m]|] eqn:E.
    + right. exists (remove_nth k (bag w)), d, (IMsg s m). split; [apply Sub|]. split; [exact (nth_error_In _ _ E)|split; reflexivity].
    + left. exists (bag w). split; [apply incl_refl|split; [symmetry; exact Self|reflexivity]].
  - left. exists (remove_nth k (bag w)). split; [apply Sub|split; reflexivity].
Qed.

Lemma net_step_cases w a :
  (exists b, incl b (bag w) /\ net_step w a = sub_bag w b) \/
  (exists b i inp, incl b (bag w) /\ arrives w i inp /\ net_step w a = net_apply (sub_bag w b) i inp).
Proof.
  destruct (ghost_step_cases (fun _ _ _ _ => tt) w tt a) as [(b & Hb & E & _)|(b & i & inp & Hb & A & E & _)]; [left|right]; eauto 6.
Qed.

Lemma net_run_ind (P : net -> Prop) :
  (forall w b, P w -> incl b (bag w) -> P (sub_bag w b)) ->
  (forall w b i inp, P w -> incl b (bag w) -> arrives w i inp -> P (net_apply (sub_bag w b) i inp)) ->
  forall acts w, P w -> P (net_run w acts).
Proof.
  intros Hs Ha. unfold net_run. induction acts as [|a r IH]; intros w Pw; cbn [fold_left]; [exact Pw|]. apply IH.
  destruct (net_step_cases w a) as [(b & Hb & ->)|(b & i & inp & Hb & Ar & ->)]; auto.
Qed.

Lemma net_init_inv l : NoDup l -> net_inv (net_init l).
Proof.
  intros ND. constructor; cbn; try (intros; contradiction); auto.
  all: intros i; split; [constructor|intros H; discriminate].
Qed.

Lemma net_run_inv acts : forall w, net_inv w -> net_inv (net_run w acts).
Proof.
  apply (net_run_ind net_inv); [exact net_sub_inv|].
  intros w b i inp W Hb A. apply net_apply_inv; [apply net_sub_inv; assumption|apply arrives_ok; assumption].
Qed.



(** Two leaders of one term were each elected by a quorum; a voter common to
    both quorums voted once. *)
Lemma led_unique w t a b : net_inv w -> In (t, a) (led w) -> In (t, b) (led w) -> a = b.
Proof.
  intros W Ha Hb.
  destruct (I_l1 w W _ _ Ha) as (va & NDa & Qa & Ca).
  destruct (I_l1 w W _ _ Hb) as (vb & NDb & Qb & Cb).
  destruct (NoDup_incl_meet (ids w) va vb NDa NDb) as (v & Hva & Hvb).
  - intros v Hv. apply (I_g1 w W _ _ _ (Ca v Hv)).
  - intros v Hv. apply (I_g1 w W _ _ _ (Cb v Hv)).
  - unfold nquorum, zlen in *. dlia.
  - apply (I_g3 w W v t a b); auto.
Qed.

Theorem election_safety : forall l acts, NoDup l ->
  let w := net_run (net_init l) acts in
  forall t a b, In (t, a) (led w) -> In (t, b) (led w) -> a = b.
Proof. intros l acts ND w t a b. apply led_unique, net_run_inv, net_init_inv, ND. Qed.

(** The history variable really records leadership: a node whose role is
    Leader is in [led] with its current term (once it has taken any step). *)
Definition led_complete (w : net) : Prop :=
  forall i, In i (ids w) -> role (nodes w i) = Leader -> In (term (nodes w i), i) (led w).

Lemma led_complete_apply w i inp : led_complete w -> led_complete (net_apply w i inp).
Proof.
  intros L. destruct (in_dec Z.eq_dec i (ids w)) as [Hi|Hi]; [|rewrite net_apply_out; assumption].
  rewrite net_apply_eq by exact Hi. intros j Hj. cbn [ids nodes led anet] in *. apply upd_case.
  - intros -> R. unfold led_step. rewrite R. left. reflexivity.
  - intros _ R. apply led_step_old, L; assumption.
Qed.

Lemma led_complete_run acts : forall w, led_complete w -> led_complete (net_run w acts).
Proof. apply (net_run_ind led_complete); [auto|]. intros w b i inp L _ _. apply led_complete_apply, L. Qed.

Lemma net_apply_ids w i inp : ids (net_apply w i inp) = ids w.
Proof.
  destruct (in_dec Z.eq_dec i (ids w)) as [Hi|Hi]; [rewrite net_apply_eq by exact Hi|rewrite net_apply_out by exact Hi]; reflexivity.
Qed.

Lemma net_run_ids acts : forall w, ids (net_run w acts) = ids w.
Proof.
  intros w0. apply (net_run_ind (fun w => ids w = ids w0)); [auto| |reflexivity].
  intros w b i inp E _ _. rewrite net_apply_ids. exact E.
Qed.

(** Leaders do get elected in the model (the safety theorems are not vacuous). *)
Example election_happens :
  led (net_run (net_init [0; 1; 2]) [ATimeout 0; ADeliver 1%nat; ADeliver 1%nat]) = [(1, 0)].
Proof. vm_compute. reflexivity. Qed.

