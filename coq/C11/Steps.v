(** C11 — node-level facts used by the cluster-level proof of leader completeness
    and state-machine safety (C11/Completeness.v): what one handler invocation
    does to the replication state (log, commit index, next/match index, applied
    commands), to the vote, and which messages it emits. *)
From HS Require Import Base.Prelude C11.Model C11.NodeProofs C11.Election C11.LogProofs C11.LogMatching.
Local Open Scope Z_scope.

(** Applied commands come from the committed prefix of the log. *)
Definition ap_ok (n : node) : Prop :=
  forall idx cmd, In (idx, cmd) (applied n) ->
    1 <= idx /\ idx <= commit n /\ exists t, nth_error (log n) (Z.to_nat (idx - 1)) = Some (t, cmd).

Lemma with_index_in i l idx t cmd : In (idx, t, cmd) (with_index i l) ->
  i < idx /\ idx <= i + zlen l /\ 0 <= idx - i - 1 /\ nth_error l (Z.to_nat (idx - i - 1)) = Some (t, cmd).
Proof.
  revert i; induction l as [|[t0 c0] l IH]; intros i H; cbn in H; [destruct H|].
  destruct H as [H|H].
  - inversion H; subst. unfold zlen; cbn [length]. replace (i + 1 - i - 1) with 0 by lia. cbn. repeat split; lia.
  - destruct (IH _ H) as (A & B & C & D). unfold zlen in *; cbn [length]. repeat split; try lia.
    replace (Z.to_nat (idx - i - 1)) with (S (Z.to_nat (idx - (i + 1) - 1))) by lia. exact D.
Qed.

Lemma apply_one_applied n e x : In x (applied (apply_one n e)) -> In x (applied n) \/ x = (fst (fst e), snd e).
Proof.
  destruct e as [[idx t] cmd]. rewrite apply_one_applied_eq. destruct (idx >? last_applied n); [|auto].
  intros Hin. apply in_app_or in Hin as [Hin|[Hin|[]]]; auto.
Qed.

Lemma apply_committed_applied es : forall n x, In x (applied (apply_committed n es)) ->
  In x (applied n) \/ exists e, In e es /\ x = (fst (fst e), snd e).
Proof.
  unfold apply_committed. induction es as [|e es IH]; intros n x H; cbn [fold_left] in H; [auto|].
  destruct (IH _ _ H) as [H1|(e' & He' & E)].
  - destruct (apply_one_applied _ _ _ H1) as [H2|H2]; [auto|]. right. exists e. split; [left; reflexivity|exact H2].
  - right. exists e'. split; [right; exact He'|exact E].
Qed.

Lemma commit_to_commit n c : 0 <= commit n -> commit n <= zlen (log n) ->
  commit (commit_to n c) = (if c <=? commit n then commit n else Z.min c (zlen (log n))) /\
  commit n <= commit (commit_to n c).
Proof.
  intros H0 H1. unfold commit_to, advance_commit. destruct (c <=? commit n) eqn:E.
  - cbn. split; [reflexivity|lia].
  - rewrite apply_committed_frame. cbn [commit withA set_commit set_n_cmds set_resolved set_pending set_applied set_last_applied].
    split; [reflexivity|lia].
Qed.

Lemma commit_to_ap n c : ap_ok n -> 0 <= commit n -> commit n <= zlen (log n) -> ap_ok (commit_to n c).
Proof.
  intros AP H0 H1. destruct (commit_to_commit n c H0 H1) as [Ec Hle].
  intros idx cmd H. rewrite commit_to_log.
  unfold commit_to, advance_commit in H. destruct (c <=? commit n) eqn:E.
  - destruct (AP _ _ H) as (A & B & C). repeat split; auto; lia.
  - rewrite Ec. apply apply_committed_applied in H as [H|(e & He & Ee)].
    + destruct (AP _ _ H) as (A & B & C). repeat split; auto; lia.
    + destruct e as [[i t] cm]. cbn [fst snd] in Ee. inversion Ee; subst i cm.
      apply with_index_in in He as (A & B & C & D).
      unfold slice in D. assert (Hl : zlen (slice (log n) (commit n) (Z.min c (zlen (log n)))) = Z.min c (zlen (log n)) - commit n)
        by (apply slice_length; lia).
      apply nth_error_firstn_some in D as [_ D]. rewrite nth_error_skipn' in D.
      split; [lia|]. split; [lia|]. exists t. replace (Z.to_nat (idx - 1)) with (Z.to_nat (commit n) + Z.to_nat (idx - commit n - 1))%nat by lia. exact D.
Qed.

Lemma ap_ok_same n n' : ap_ok n -> applied n' = applied n -> commit n <= commit n' ->
  firstn (Z.to_nat (commit n)) (log n') = firstn (Z.to_nat (commit n)) (log n) -> ap_ok n'.
Proof.
  intros AP Ea Hc Hl idx cmd H. rewrite Ea in H. destruct (AP _ _ H) as (A & B & t & C).
  split; [exact A|]. split; [lia|]. exists t. rewrite <- C.
  apply (firstn_nth_eq _ _ (Z.to_nat (commit n))); [lia|exact Hl].
Qed.

(** An accepted AppendEntries whose payload [l] is the sender's log [G] from
    position [p] on, at a node whose committed prefix agrees with [G]. *)
Lemma accepted_rep n t lead p l lc G c :
  apply_inv n -> ap_ok n ->
  commit n = Z.of_nat c -> firstn c (log n) = firstn c G -> (p <= length (log n))%nat ->
  l = firstn (length l) (skipn p G) ->
  0 <= lc -> lc <= Z.of_nat (p + length l) ->
  let n' := ae_commit (fold_left append_one (with_index (Z.of_nat p) l) (demote n t lead)) lc in
  log n' = alogs (log n) p l /\ commit n' = Z.max (commit n) lc /\ ap_ok n'.
Proof.
  intros AI AP Hcm Hc Hp Hl Hlc0 Hlc. cbv zeta. rewrite accepted_log.
  set (n2 := fold_left append_one (with_index (Z.of_nat p) l) (demote n t lead)).
  destruct AI as (I0 & Ilen & Ila & Iok). unfold zlen in Ilen.
  assert (L2 : log n2 = alogs (log n) p l) by (unfold n2; rewrite fold_append_log, demote_eq; reflexivity).
  assert (F2 : applied n2 = applied n) by (unfold n2; rewrite fold_append_frame, demote_eq; reflexivity).
  assert (C2 : commit n2 = commit n).
  { unfold n2. transitivity (commit (demote n t lead)); [|rewrite demote_eq; reflexivity].
    apply (fold_append_commit G l _ p c); try (rewrite demote_eq; cbn [log commit set_term set_leader set_role set_voted]); auto. lia. }
  assert (K2 : firstn c (log n2) = firstn c (log n)) by (rewrite L2; apply (alogs_keep G l (log n) p c); auto; lia).
  assert (J1 : commit n2 <= zlen (log n2)).
  { pose proof (firstn_eq_length _ _ c K2 ltac:(lia)). unfold zlen. lia. }
  assert (AP2 : ap_ok n2) by (apply (ap_ok_same n n2 AP); [exact F2|lia|rewrite Hcm, Nat2Z.id; exact K2]).
  destruct (alogs_spec l (log n) p Hp) as (_ & Len2 & _).
  split; [reflexivity|]. split.
  - unfold ae_commit. destruct (lc >? commit n2) eqn:Elc; [|lia].
    destruct (commit_to_commit n2 (Z.min lc (last_index (log n2))) ltac:(lia) J1) as [-> _].
    unfold last_index, zlen. rewrite L2.
    replace (Z.min lc (Z.of_nat (length (alogs (log n) p l))) <=? commit n2) with false by lia. lia.
  - unfold ae_commit. destruct (lc >? commit n2); [apply commit_to_ap; (assumption || lia)|exact AP2].
Qed.

(** Steps that leave the replication state alone. *)
Definition rep_same (n n' : node) : Prop :=
  log n' = log n /\ commit n' = commit n /\ applied n' = applied n /\ next_index n' = next_index n /\
  match_index n' = match_index n.

Definition repv (n : node) := (log n, commit n, applied n, next_index n, match_index n).
Lemma rep_same_of n n' : repv n' = repv n -> rep_same n n'.
Proof. unfold repv. intros E. injection E as E1 E2 E3 E4 E5. repeat split; assumption. Qed.
Lemma rep_same_refl n : rep_same n n.
Proof. apply rep_same_of. reflexivity. Qed.

Lemma step_down_rep n t : rep_same n (step_down n t).
Proof. apply rep_same_of. rewrite step_down_eq. reflexivity. Qed.
Lemma catch_up_rep n t : rep_same n (catch_up n t).
Proof. unfold catch_up. destruct (t >? term n); [apply step_down_rep|apply rep_same_refl]. Qed.
Lemma tally_rep n g v : rep_same n (tally n g v).
Proof. apply rep_same_of. destruct g; reflexivity. Qed.

Definition no_ars : list output -> Prop := sends not_ars.

Lemma only_ae_no_ars o : only_ae o -> no_ars o.
Proof. apply sends_impl. intros m (? & ? & ? & ? & ? & ? & ->). exact I. Qed.
Lemma silent_no_ars o : silent o -> no_ars o.
Proof. apply sends_impl. intros m (? & ? & ->). exact I. Qed.
Lemma rv_out_no_ars n : no_ars (rv_out n).
Proof. intros d m H. destruct (rv_out_in _ _ _ H) as [_ ->]. exact I. Qed.

(** [count_ge] counts distinct keys when the keys are duplicate-free. *)
Lemma count_ge_keys x m : NoDup (map fst m) ->
  exists ps, NoDup ps /\ zlen ps = count_ge x m /\ forall p, In p ps -> exists v, afind p m = Some v /\ x <= v.
Proof.
  induction m as [|[a b] m IH]; cbn; intros ND.
  - exists []. split; [constructor|]. split; [reflexivity|intros p []].
  - inversion ND as [|? ? Hx ND']; subst. destruct (IH ND') as (ps & P1 & P2 & P3).
    assert (Hn : ~ In a ps).
    { intros H. destruct (P3 _ H) as (v & Hv & _). apply Hx. apply afind_in. congruence. }
    destruct (b >=? x) eqn:E.
    + exists (a :: ps). split; [constructor; assumption|]. split; [unfold zlen in *; cbn [length]; lia|].
      intros p [->|H].
      * exists b. rewrite Z.eqb_refl. split; [reflexivity|lia].
      * destruct (P3 _ H) as (v & Hv & Hle). exists v. split; [|exact Hle].
        destruct (Z.eqb p a) eqn:E2; [apply Z.eqb_eq in E2; subst; contradiction|exact Hv].
    + exists ps. split; [exact P1|]. split; [lia|].
      intros p H. destruct (P3 _ H) as (v & Hv & Hle). exists v. split; [|exact Hle].
      destruct (Z.eqb p a) eqn:E2; [apply Z.eqb_eq in E2; subst; contradiction|exact Hv].
Qed.

Lemma bl_fold ps : forall m,
  let m' := fold_left bl_f ps m in
  (forall p, In p ps -> aget p 1 (next_index m') = zlen (log m) + 1 /\ afind p (match_index m') = Some 0) /\
  (forall p, ~ In p ps -> afind p (match_index m') = afind p (match_index m) /\ aget p 1 (next_index m') = aget p 1 (next_index m)) /\
  (NoDup (map fst (match_index m)) -> NoDup (map fst (match_index m'))) /\
  (forall x, In x (map fst (match_index m')) -> In x ps \/ In x (map fst (match_index m))).
Proof.
  induction ps as [|q ps IH]; intros m; cbn [fold_left].
  - split; [intros p []|]. split; [auto|]. split; auto.
  - cbv zeta in IH. destruct (IH (bl_f m q)) as (B1 & B2 & B3 & B4).
    change (log (bl_f m q)) with (log m) in B1.
    change (next_index (bl_f m q)) with (aset q (last_index (log m) + 1) (next_index m)) in B2.
    change (match_index (bl_f m q)) with (aset q 0 (match_index m)) in B2, B3, B4.
    split; [|split; [|split]].
    + intros p Hp. destruct (in_dec Z.eq_dec p ps) as [Hin|Hn]; [exact (B1 p Hin)|].
      destruct Hp as [->|Hp]; [|contradiction]. destruct (B2 p Hn) as [X Y].
      rewrite X, Y, afind_aset, aget_aset, Z.eqb_refl. split; reflexivity.
    + intros p Hp. assert (Hn : ~ In p ps) by (intros X; apply Hp; right; exact X).
      destruct (B2 p Hn) as [X Y]. rewrite X, Y, afind_aset, aget_aset.
      destruct (Z.eqb p q) eqn:E; [apply Z.eqb_eq in E; subst; exfalso; apply Hp; left; reflexivity|split; reflexivity].
    + intros ND. apply B3, aset_nodup, ND.
    + intros x Hx. destruct (B4 x Hx) as [H|H]; [left; right; exact H|].
      apply aset_keys in H as [->|H]; [left; left; reflexivity|right; exact H].
Qed.

(** What [become_leader] does to the replication state. *)
Definition led_reset (n n' : node) : Prop :=
  log n' = log n /\ commit n' = commit n /\ applied n' = applied n /\
  (forall p, In p (peers n) -> aget p 1 (next_index n') = zlen (log n) + 1 /\ afind p (match_index n') = Some 0) /\
  (forall p, ~ In p (peers n) -> afind p (match_index n') = afind p (match_index n)) /\
  (NoDup (map fst (match_index n)) -> NoDup (map fst (match_index n'))) /\
  (forall x, In x (map fst (match_index n')) -> In x (peers n) \/ In x (map fst (match_index n))).

(** ... also when the election started from a state [n] that [m] only differs from in election fields. *)
Lemma elect_reset n m : rep_same n m -> peers m = peers n -> led_reset n (elect m).
Proof.
  intros (A1 & A2 & A3 & A4 & A5) P.
  destruct (bl_fold (peers m) (set_leader (set_role m Leader) (Some (nid m)))) as (B1 & B2 & B3 & B4).
  change (fold_left bl_f (peers m) (set_leader (set_role m Leader) (Some (nid m)))) with (elect m) in *.
  cbn [log match_index set_leader set_role] in *. rewrite P, ?A1, ?A5 in *.
  unfold led_reset. rewrite elect_frame. cbn [log commit applied withX set_match_index set_next_index set_leader set_role].
  split; [exact A1|]. split; [exact A2|]. split; [exact A3|]. split; [exact B1|]. split; [intros p Hp; apply (B2 p Hp)|]. split; [exact B3|exact B4].
Qed.

(** AppendEntries sent: always [append_entries_for] of the resulting state. *)
Definition ae_from (n' : node) (o : list output) : Prop :=
  forall d t lead pli plt ents lc, In (OSend d (AppendEntries t lead pli plt ents lc)) o ->
    role n' = Leader /\ In d (peers n') /\ OSend d (AppendEntries t lead pli plt ents lc) = append_entries_for n' d.

Lemma no_ae_from n' o : no_ae o -> ae_from n' o.
Proof. intros H d t lead pli plt ents lc Hin. destruct (H _ _ Hin). Qed.

Lemma ae_from_app n' a b : ae_from n' a -> ae_from n' b -> ae_from n' (a ++ b).
Proof. intros A B d t lead pli plt ents lc H. apply in_app_or in H as [H|H]; [eapply A|eapply B]; eauto. Qed.

Lemma send_append_entries_from n : role n = Leader -> ae_from n (send_append_entries n).
Proof.
  intros R d t lead pli plt ents lc H. unfold send_append_entries in H. apply in_map_iff in H as (p & E & Hp).
  pose proof (append_entries_for_dst _ _ _ _ E). subst p.
  split; [exact R|]. split; [exact Hp|]. symmetry. exact E.
Qed.

Lemma lead_out_from n : role n = Leader -> ae_from n (lead_out n).
Proof. intros R. apply ae_from_app; [apply send_append_entries_from, R|apply no_ae_from; sends_list]. Qed.

(** What a handler other than the AppendEntries handler does to the replication state. *)
Definition r_reset (n n' : node) (o : list output) : Prop :=
  role n <> Leader /\ role n' = Leader /\ led_reset n n' /\ no_ars o.
Definition r_success (n : node) (inp : input) (n' : node) (o : list output) : Prop :=
  exists src f mi, inp = IMsg src (AppendResponse (term n) true f mi) /\ role n = Leader /\ role n' = Leader /\ term n' = term n /\
    o = [] /\ log n' = log n /\
    next_index n' = aset f (mi + 1) (next_index n) /\ match_index n' = aset f mi (match_index n) /\
    ((commit n' = commit n /\ applied n' = applied n) \/
     exists hi e, log_get (log n) hi = Some e /\ fst e = term n /\ 1 + count_ge hi (match_index n') >= quorum n /\
       n' = commit_to (set_match_index (set_next_index n (aset f (mi + 1) (next_index n))) (aset f mi (match_index n))) hi).
Definition r_failure (n : node) (inp : input) (n' : node) (o : list output) : Prop :=
  exists src f mi, inp = IMsg src (AppendResponse (term n) false f mi) /\ role n = Leader /\ role n' = Leader /\ term n' = term n /\
    log n' = log n /\ commit n' = commit n /\ applied n' = applied n /\ match_index n' = match_index n /\
    next_index n' = aset f (Z.max 1 (aget f 1 (next_index n) - 1)) (next_index n) /\ no_ars o.
Definition r_submit (n : node) (n' : node) (o : list output) : Prop :=
  role n = Leader /\ role n' = Leader /\ term n' = term n /\ o = [] /\
  (exists c, log n' = log n ++ [(term n, c)]) /\ commit n' = commit n /\ applied n' = applied n /\
  match_index n' = match_index n /\ next_index n' = next_index n.

Definition rspec (n : node) (inp : input) (n' : node) (o : list output) : Prop :=
  ae_from n' o /\
  ((rep_same n n' /\ no_ars o /\ (role n' = Leader -> role n = Leader)) \/ r_reset n n' o \/ r_success n inp n' o \/ r_failure n inp n' o \/ r_submit n n' o).

Lemma rspec_same n inp n' o : rep_same n n' -> (role n' = Leader -> role n = Leader) -> no_ars o -> no_ae o -> rspec n inp n' o.
Proof. intros A R B C. split; [apply no_ae_from, C|left; auto]. Qed.

Lemma ack_success n src f mi : role n = Leader ->
  r_success n (IMsg src (AppendResponse (term n) true f mi)) (try_advance_commit (ack n f mi)) [].
Proof.
  intros R. exists src, f, mi. unfold try_advance_commit.
  destruct (try_commit_spec (Z.to_nat (last_index (log (ack n f mi)) - commit (ack n f mi))) (ack n f mi) (last_index (log (ack n f mi))))
    as [Eq|(hi & e & G1 & G2 & G3 & Eq)]; rewrite Eq.
  - repeat split; auto.
  - rewrite commit_to_frame. cbn [role term log next_index match_index withC withA set_commit set_n_cmds set_resolved set_pending set_applied set_last_applied ack set_match_index set_next_index].
    repeat split; auto. right. exists hi, e. rewrite <- commit_to_frame. auto.
Qed.

Theorem nstep_rspec n inp n' o : nstep n inp n' o ->
  rspec n inp n' o \/
  exists src t lead pli plt ents lc,
    inp = IMsg src (AppendEntries t lead pli plt ents lc) /\ zmem src (peers n) = true /\ term n <= t /\
    ae_consistent (log n) pli plt = true /\
    n' = ae_commit (fold_left append_one ents (demote n t lead)) lc /\
    o = [OElectionTimer; OSend src (AppendResponse t true (nid n) (pli + zlen ents))].
Proof.
  intros S. destruct S.
  11: { right. exists src, t, lead, pli, plt, ents, lc. auto 10. }
  all: left.
  - apply rspec_same; [apply rep_same_refl|auto|apply silent_no_ars; assumption|apply silent_no_ae; assumption].
  - split; [apply lead_out_from; assumption|left]. split; [apply rep_same_refl|]. split; [apply only_ae_no_ars, lead_out_only_ae|auto].
  - apply rspec_same; [apply step_down_rep|rewrite step_down_eq; discriminate|sends_list|sends_list].
  - apply rspec_same; [apply rep_same_of; reflexivity|discriminate|apply sends_app; [apply rv_out_no_ars|sends_list]
                      |apply sends_app; [apply rv_out_no_ae|sends_list]].
  - split; [apply ae_from_app; [apply no_ae_from, rv_out_no_ae|apply lead_out_from; rewrite elect_frame; reflexivity]|].
    right. left. split; [assumption|]. split; [rewrite elect_frame; reflexivity|].
    split; [apply elect_reset; [apply rep_same_of|]; reflexivity|apply sends_app; [apply rv_out_no_ars|apply only_ae_no_ars, lead_out_only_ae]].
  - apply rspec_same; [exact (catch_up_rep n t)| |sends_list|sends_list].
    change (role (grant (catch_up n t) cand t)) with (role (catch_up n t)). unfold catch_up.
    destruct (t >? term n); [rewrite step_down_eq; discriminate|auto].
  - apply rspec_same; [apply catch_up_rep| |sends_list|sends_list]. unfold catch_up.
    destruct (t >? term n); [rewrite step_down_eq; discriminate|auto].
  - apply rspec_same; [apply tally_rep|destruct g; auto|sends_list|sends_list].
  - split; [apply lead_out_from; rewrite elect_frame; reflexivity|]. right. left.
    split; [congruence|]. split; [rewrite elect_frame; reflexivity|].
    split; [apply elect_reset; [apply tally_rep|destruct g; reflexivity]|apply only_ae_no_ars, lead_out_only_ae].
  - apply rspec_same; [apply rep_same_of| |sends_list|sends_list]; rewrite demote_eq; [reflexivity|discriminate].
  - split; [apply no_ae_from; sends_list|]. right. right. left. apply ack_success. assumption.
  - assert (RF : forall o, no_ars o -> r_failure n (IMsg src (AppendResponse (term n) false f mi)) (back_off n f) o).
    { intros o Ho. exists src, f, mi. repeat split; auto. }
    destruct (zmem f (peers n)) eqn:Em.
    + split; [|right; right; right; left; apply RF; apply sends_cons; [intros d0 m0 E; injection E as <- <-; exact I|apply sends_nil]].
      intros d t0 lead pli plt ents lc [Hin|[]]. split; [assumption|].
      pose proof (append_entries_for_dst _ _ _ _ Hin). subst d.
      split; [apply zmem_in, Em|symmetry; exact Hin].
    + split; [apply no_ae_from; sends_list|]. right. right. right. left. apply RF. sends_list.
  - destruct (role_eqb (role n) Leader) eqn:R.
    + apply role_eqb_true in R. split; [apply no_ae_from; sends_list|]. right. right. right. right.
      rewrite (submit_leader n cmd R). repeat split; auto. exists cmd. reflexivity.
    + apply role_eqb_false in R. rewrite (submit_other n cmd R). apply rspec_same; [apply rep_same_of; reflexivity|auto|sends_list|sends_list].
Qed.

Lemma rspec_log n inp n' o : rspec n inp n' o ->
  log n' = log n \/ (role n = Leader /\ role n' = Leader /\ term n' = term n /\ exists c, log n' = log n ++ [(term n, c)]).
Proof.
  intros [_ [(S & _)|[(_ & _ & S & _)|[(src & f & mi & _ & _ & _ & _ & _ & S & _)|[(src & f & mi & _ & _ & _ & _ & S & _)|(R & R' & T & _ & S & _)]]]]];
    [left; apply S ..|right; auto].
Qed.

Lemma rspec_no_ars n inp n' o : rspec n inp n' o -> no_ars o.
Proof.
  intros [_ [(_ & NA & _)|[(_ & _ & _ & NA)|[Succ|[Fail|Sub]]]]]; try exact NA.
  - destruct Succ as (src & f & mi & _ & _ & _ & _ & -> & _). apply sends_nil.
  - destruct Fail as (src & f & mi & _ & _ & _ & _ & _ & _ & _ & _ & _ & NA). exact NA.
  - destruct Sub as (_ & _ & _ & -> & _). apply sends_nil.
Qed.

Lemma rspec_match n inp n' o : rspec n inp n' o ->
  (match_index n' = match_index n /\ (role n' = Leader -> role n = Leader)) \/
  (role n <> Leader /\ led_reset n n') \/
  (exists src f mi, inp = IMsg src (AppendResponse (term n) true f mi) /\ role n = Leader /\ term n' = term n /\
                    match_index n' = aset f mi (match_index n)).
Proof.
  intros [_ [(S & _ & RL)|[(NR & _ & S & _)|[Succ|[Fail|Sub]]]]].
  - left. split; [apply S|exact RL].
  - right. left. auto.
  - right. right. destruct Succ as (src & f & mi & Ei & R & _ & T & _ & _ & _ & Em & _). exists src, f, mi. auto.
  - left. destruct Fail as (src & f & mi & _ & R & _ & _ & _ & _ & _ & Em & _). auto.
  - left. destruct Sub as (R & _ & _ & _ & _ & _ & _ & Em & _). auto.
Qed.

Lemma rspec_next n inp n' o p : rspec n inp n' o -> role n' = Leader -> In p (peers n) ->
  (role n = Leader /\ zlen (log n) <= zlen (log n') /\
   (aget p 1 (next_index n') = aget p 1 (next_index n) \/
    aget p 1 (next_index n') = Z.max 1 (aget p 1 (next_index n) - 1))) \/
  aget p 1 (next_index n') = zlen (log n') + 1 \/
  (exists src mi, inp = IMsg src (AppendResponse (term n) true p mi) /\ role n = Leader /\ log n' = log n /\
                  aget p 1 (next_index n') = mi + 1).
Proof.
  intros [_ [(S & _ & RL)|[(_ & _ & S & _)|[Succ|[Fail|Sub]]]]] R' Hp.
  - left. destruct S as (El & _ & _ & En & _). rewrite El, En. split; [exact (RL R')|]. split; [lia|left; reflexivity].
  - right. left. destruct S as (El & _ & _ & B4 & _). rewrite El. apply (B4 p Hp).
  - destruct Succ as (src & f & mi & Ei & R & _ & _ & _ & El & En & _). rewrite En, El, aget_aset.
    destruct (Z.eqb p f) eqn:Ep; [right; right|left; split; [exact R|split; [lia|left; reflexivity]]].
    apply Z.eqb_eq in Ep. subst f. exists src, mi. auto.
  - left. destruct Fail as (src & f & mi & _ & R & _ & _ & El & _ & _ & _ & En & _). rewrite En, El, aget_aset.
    split; [exact R|]. split; [lia|]. destruct (Z.eqb p f) eqn:Ep; [right|left; reflexivity].
    apply Z.eqb_eq in Ep. subst f. reflexivity.
  - left. destruct Sub as (R & _ & _ & _ & (c & El) & _ & _ & _ & En). rewrite En, El. split; [exact R|].
    split; [unfold zlen; rewrite app_length; lia|left; reflexivity].
Qed.

Lemma rspec_commit n inp n' o : rspec n inp n' o -> apply_inv n -> ap_ok n ->
  (commit n' = commit n /\ applied n' = applied n /\
   firstn (Z.to_nat (commit n)) (log n') = firstn (Z.to_nat (commit n)) (log n)) \/
  (role n = Leader /\ role n' = Leader /\ term n' = term n /\ log n' = log n /\ ap_ok n' /\
   exists hi e, log_get (log n) hi = Some e /\ fst e = term n /\ 1 + count_ge hi (match_index n') >= quorum n /\
                commit n' = Z.max (commit n) hi).
Proof.
  intros [_ [(S & _)|[(_ & _ & S & _)|[Succ|[Fail|Sub]]]]] (I0 & I1 & _) AP.
  - left. destruct S as (El & Ec & Ea & _). rewrite El. auto.
  - left. destruct S as (El & Ec & Ea & _). rewrite El. auto.
  - destruct Succ as (src & f & mi & _ & R & R' & T & _ & El & _ & _ & [[Ec Ea]|(hi & e & Hg & He & Hq & En')]); [left; rewrite El; auto|right].
    set (n1 := set_match_index _ _) in En'.
    assert (F : applied n1 = applied n /\ commit n1 = commit n /\ log n1 = log n) by (destruct n; repeat split).
    destruct F as (F1 & F2 & F3). rewrite <- F2 in I0. rewrite <- F2, <- F3 in I1.
    assert (AP1 : ap_ok n1) by (apply (ap_ok_same n n1 AP F1); [lia|congruence]).
    destruct (commit_to_commit n1 hi I0 I1) as [Ecc _]. rewrite <- En', F2, F3 in Ecc.
    pose proof (log_get_le _ _ _ Hg) as Hhi.
    split; [exact R|]. split; [exact R'|]. split; [exact T|]. split; [exact El|]. split; [rewrite En'; apply (commit_to_ap n1 hi AP1 I0 I1)|].
    exists hi, e. split; [exact Hg|]. split; [exact He|]. split; [exact Hq|]. destruct (hi <=? commit n) eqn:Eh; lia.
  - left. destruct Fail as (src & f & mi & _ & _ & _ & _ & El & Ec & Ea & _). rewrite El. auto.
  - left. destruct Sub as (_ & _ & _ & _ & (c & El) & Ec & Ea & _). split; [exact Ec|]. split; [exact Ea|].
    rewrite El. apply firstn_app_le. unfold zlen in I1. lia.
Qed.

Definition uptodate_z (lli llt : Z) (L : list entry) : Prop :=
  llt > last_term L \/ (llt = last_term L /\ lli >= zlen L).

Definition no_rv : list output -> Prop := sends not_rv.
Lemma only_ae_no_rv o : only_ae o -> no_rv o.
Proof. apply sends_impl. intros m (? & ? & ? & ? & ? & ? & ->). exact I. Qed.

Record vspec (n : node) (inp : input) (n' : node) (o : list output) : Prop := {
  V_vote : forall c, voted n' = Some c ->
     (voted n = Some c /\ term n' = term n) \/
     (log n' = log n /\ ((c = nid n /\ term n' = term n + 1 /\ role n' <> Follower) \/
                         exists src lli llt, inp = IMsg src (RequestVote (term n') c lli llt) /\ uptodate_z lli llt (log n)));
  V_rv : forall d t c lli llt, In (OSend d (RequestVote t c lli llt)) o ->
     t = term n' /\ term n' = term n + 1 /\ role n' <> Follower /\ lli = zlen (log n') /\ llt = last_term (log n') /\
     log n' = log n /\ In d (peers n);
  V_cand : role n' = Candidate -> log n' = log n /\ ((role n = Candidate /\ term n' = term n) \/ term n' = term n + 1);
  V_lead : role n' = Leader -> role n <> Leader -> log n' = log n /\ ((role n = Candidate /\ term n' = term n) \/ term n' = term n + 1);
}.

Lemma silent_no_rv o : silent o -> no_rv o.
Proof. apply sends_impl. intros m (? & ? & ->). exact I. Qed.

(** Outcomes that keep vote, term and role (a leader may have appended to its log). *)
Lemma vspec_same n inp n' o :
  voted n' = voted n -> term n' = term n -> role n' = role n -> (role n <> Leader -> log n' = log n) -> no_rv o -> vspec n inp n' o.
Proof.
  intros A B C D E. constructor.
  - intros c H. left. split; congruence.
  - intros d t c lli llt H. destruct (E _ _ H).
  - intros R. split; [apply D; congruence|]. left. split; congruence.
  - intros R NR. congruence.
Qed.

Lemma vspec_follower n inp n' o :
  role n' = Follower -> (forall c, voted n' = Some c -> voted n = Some c /\ term n' = term n) -> no_rv o -> vspec n inp n' o.
Proof.
  intros A B E. constructor.
  - intros c H. left. apply B, H.
  - intros d t c lli llt H. destruct (E _ _ H).
  - intros R. congruence.
  - intros R. congruence.
Qed.

(** A vote that survives stepping down to term [t >= term n] is the old vote, in the old term. *)
Lemma step_down_voted n t : term n <= t ->
  forall c, voted (step_down n t) = Some c -> voted n = Some c /\ term (step_down n t) = term n.
Proof.
  intros H c. rewrite step_down_eq. cbn [voted term set_role set_term set_voted].
  destruct (t >? term n) eqn:E; [discriminate|]. intros V. split; [exact V|lia].
Qed.

(** A candidacy [m] of [n], possibly won at once ([n']): the log is kept, the
    node votes for itself in term [term n + 1] and asks every peer. *)
Lemma vspec_campaign n inp m n' o :
  (log m, term m, peers m) = (log n, term n + 1, peers n) ->
  (log n', term n', voted n') = (log n, term n + 1, Some (nid n)) -> role n' <> Follower -> no_rv o ->
  vspec n inp n' (rv_out m ++ o).
Proof.
  intros Em E NF NO. injection Em as Ml Mt Mp. injection E as El Et Ev. constructor.
  - intros c H. right. split; [exact El|]. left. rewrite Ev in H. inversion H. auto.
  - intros d t c lli llt H. apply in_app_or in H as [H|H]; [|destruct (NO _ _ H)].
    apply rv_out_in in H as [Hd E]. injection E as -> -> -> ->. rewrite Ml, Mt, Mp in *. rewrite El, Et. auto 10.
  - intros _. split; [exact El|right; exact Et].
  - intros _ _. split; [exact El|right; exact Et].
Qed.

Theorem nstep_vspec n inp n' o : nstep n inp n' o -> vspec n inp n' o.
Proof.
  intros S. destruct S.
  - apply vspec_same; auto. apply silent_no_rv. assumption.
  - apply vspec_same; auto. apply only_ae_no_rv, lead_out_only_ae.
  - apply vspec_follower; [rewrite step_down_eq; reflexivity|apply step_down_voted; lia|sends_list].
  - apply vspec_campaign; [reflexivity|reflexivity|discriminate|sends_list].
  - apply vspec_campaign; [reflexivity|rewrite elect_frame; reflexivity|rewrite elect_frame; discriminate|apply only_ae_no_rv, lead_out_only_ae].
  - (* vote granted, in the present term or after stepping down *)
    destruct (vote_ok_true _ _ _ _ _ H0) as (_ & _ & U).
    assert (L : log (catch_up n t) = log n) by (destruct (catch_up_cases n t) as [[_ ->]|[_ ->]]; [rewrite step_down_eq|]; reflexivity).
    rewrite L in U.
    assert (R : role (grant (catch_up n t) cand t) = Follower \/ (role (grant (catch_up n t) cand t) = role n /\ t = term n)).
    { change (role (grant (catch_up n t) cand t)) with (role (catch_up n t)).
      destruct (grant_cases n t cand lli llt H0) as [[_ ->]|[-> ->]]; [left; rewrite step_down_eq; reflexivity|right; split; reflexivity]. }
    constructor.
    + intros c Hc. cbn [grant voted set_term set_voted] in Hc. inversion Hc; subst c. right. split; [exact L|]. right.
      exists src, lli, llt. split; [reflexivity|exact U].
    + intros d t0 c lli0 llt0 [Hin|[Hin|[]]]; discriminate.
    + intros RC. destruct R as [R|[R T]]; [congruence|]. split; [exact L|]. left. split; [congruence|exact T].
    + intros RL NR. destruct R as [R|[R T]]; congruence.
  - destruct (catch_up_cases n t) as [[Lt ->]|[Le ->]].
    + apply vspec_follower; [rewrite step_down_eq; reflexivity|apply step_down_voted; lia|sends_list].
    + apply vspec_same; auto; sends_list.
  - assert (F : (voted (tally n g v), term (tally n g v), role (tally n g v), log (tally n g v)) = (voted n, term n, role n, log n))
      by (destruct g; reflexivity).
    injection F as Fv Ft Fr Fl. apply vspec_same; auto. sends_list.
  - assert (F : (voted (elect (tally n g v)), term (elect (tally n g v)), log (elect (tally n g v))) = (voted n, term n, log n))
      by (rewrite elect_frame; destruct g; reflexivity).
    injection F as Fv Ft Fl. constructor.
    + intros c Hc. left. split; congruence.
    + intros d t0 c lli llt Hin. destruct (only_ae_no_rv _ (lead_out_only_ae _) _ _ Hin).
    + rewrite elect_frame. discriminate.
    + intros _ _. split; [exact Fl|left; split; assumption].
  - apply vspec_follower; [rewrite demote_eq; reflexivity| |sends_list].
    intros c Hc. replace (voted (demote n t lead)) with (voted (step_down n t)) in Hc by reflexivity.
    destruct (step_down_voted n t H0 c Hc) as [A B]. rewrite step_down_eq in B. split; [exact A|rewrite demote_eq; exact B].
  - destruct (accepted_fields n t lead ents lc) as (_ & _ & Ft & Fv & _ & Fr & _).
    apply vspec_follower; [exact Fr| |sends_list]. rewrite Fv, Ft. intros c Hc.
    destruct (t >? term n) eqn:E; [discriminate|]. split; [exact Hc|lia].
  - unfold try_advance_commit. rewrite try_commit_frame. apply vspec_same; auto. sends_list.
  - apply vspec_same; auto. destruct (zmem f (peers n)); sends_list.
  - destruct (role_eqb (role n) Leader) eqn:R.
    + apply role_eqb_true in R. rewrite (submit_leader n cmd R). apply vspec_same; auto; [contradiction|sends_list].
    + apply role_eqb_false in R. rewrite (submit_other n cmd R). apply vspec_same; auto; sends_list.
Qed.

Theorem node_step_vspec n inp : vspec n inp (fst (node_step n inp)) (snd (node_step n inp)).
Proof. apply nstep_vspec, node_step_nstep. Qed.
