(** C17 — multi-leader: laws of the version merge ("dominating vector clock wins,
    otherwise the resolver") that every replica applies to what it receives. *)
From HS Require Import Base.Prelude C17.ML.
From Coq Require Import Permutation.
Local Open Scope Z_scope.

(** Timestamps respect causality (a dominated version has a smaller LWW key) and
    distinct versions have distinct (timestamp, writer) keys.  (Not proved of the
    runs of ML.v; expected when every store has a positive write latency, so that a
    write that has seen another one is stamped strictly later.) *)
Definition consistent (a b : ver) : Prop :=
  (vc_dom (v_vc a) (v_vc b) = true -> lww_lt b a = true) /\
  (vc_dom (v_vc b) (v_vc a) = true -> lww_lt a b = true) /\
  (v_ts a = v_ts b -> v_wr a = v_wr b -> a = b).

Fixpoint pairwise (l : list ver) : Prop :=
  match l with
  | [] => True
  | x :: r => (forall y, In y r -> consistent x y) /\ pairwise r
  end.

Lemma lww_lt_spec a b :
  lww_lt a b = true <-> (v_ts a < v_ts b \/ (v_ts a = v_ts b /\ v_wr a < v_wr b)).
Proof. unfold lww_lt. lia. Qed.

Lemma lww_lt_false a b :
  lww_lt a b = false <-> (v_ts b < v_ts a \/ (v_ts a = v_ts b /\ v_wr b <= v_wr a)).
Proof. unfold lww_lt. lia. Qed.

Lemma consistent_sym a b : consistent a b -> consistent b a.
Proof. intros (H1 & H2 & H3). repeat split; auto. intros E1 E2. symmetry. apply H3; auto. Qed.

Lemma vc_dom_irrefl a : vc_dom a a = false.
Proof.
  unfold vc_dom. replace (vc_gt_some a a) with false; [apply andb_false_r|].
  induction a as [|x a IH]; cbn; [reflexivity|]. rewrite Z.ltb_irrefl. exact IH.
Qed.

Lemma consistent_self a : consistent a a.
Proof. pose proof (vc_dom_irrefl (v_vc a)). repeat split; intros; auto; congruence. Qed.

Lemma consistent_refl a : vc_dom (v_vc a) (v_vc a) = false -> consistent a a.
Proof. intros _. apply consistent_self. Qed.

Lemma merge_cases a b : merge a b = a \/ merge a b = b.
Proof.
  unfold merge, decide. destruct (vc_dom (v_vc b) (v_vc a)); cbn; auto.
  destruct (vc_dom (v_vc a) (v_vc b)); cbn; auto. destruct (lww_lt a b); cbn; auto.
Qed.

(** under consistency the merge is the LWW maximum *)
Lemma merge_is_lww a b : consistent a b -> merge a b = lww a b.
Proof.
  intros (H1 & H2 & H3). unfold merge, decide, lww.
  destruct (vc_dom (v_vc b) (v_vc a)) eqn:D1; cbn.
  - rewrite (H2 eq_refl). reflexivity.
  - destruct (vc_dom (v_vc a) (v_vc b)) eqn:D2; cbn.
    + specialize (H1 eq_refl). apply lww_lt_spec in H1.
      destruct (lww_lt a b) eqn:L; [apply lww_lt_spec in L; lia|reflexivity].
    + destruct (lww_lt a b); reflexivity.
Qed.

Lemma lww_idem a : lww a a = a.
Proof. unfold lww. destruct (lww_lt a a); reflexivity. Qed.

Lemma merge_idem a : merge a a = a.
Proof. destruct (merge_cases a a); auto. Qed.

Lemma lww_comm a b : (v_ts a = v_ts b -> v_wr a = v_wr b -> a = b) -> lww a b = lww b a.
Proof.
  intros H. unfold lww. destruct (lww_lt a b) eqn:L1; destruct (lww_lt b a) eqn:L2; auto.
  - apply lww_lt_spec in L1, L2. lia.
  - apply lww_lt_false in L1, L2. apply H; lia.
Qed.

Lemma lww_assoc a b c : lww (lww a b) c = lww a (lww b c).
Proof.
  unfold lww.
  destruct (lww_lt a b) eqn:L1; destruct (lww_lt b c) eqn:L2; rewrite ?L1, ?L2; try reflexivity.
  - destruct (lww_lt a c) eqn:L3; [reflexivity|].
    apply lww_lt_spec in L1, L2. apply lww_lt_false in L3. lia.
  - destruct (lww_lt a c) eqn:L3; [|reflexivity].
    apply lww_lt_false in L1, L2. apply lww_lt_spec in L3. lia.
Qed.

Lemma merge_comm a b : consistent a b -> merge a b = merge b a.
Proof.
  intros H. rewrite (merge_is_lww a b H), (merge_is_lww b a (consistent_sym _ _ H)).
  apply lww_comm. apply H.
Qed.

Lemma merge_assoc a b c :
  consistent a b -> consistent b c -> consistent a c ->
  merge (merge a b) c = merge a (merge b c).
Proof.
  intros Hab Hbc Hac.
  assert (H1 : consistent (merge a b) c) by (destruct (merge_cases a b) as [->| ->]; auto).
  assert (H2 : consistent a (merge b c)) by (destruct (merge_cases b c) as [->| ->]; auto).
  rewrite (merge_is_lww _ _ H1), (merge_is_lww _ _ H2), (merge_is_lww _ _ Hab), (merge_is_lww _ _ Hbc).
  apply lww_assoc.
Qed.


Definition is_max (r : ver) (l : list ver) : Prop :=
  In r l /\ forall x, In x l -> lww_lt r x = false.

Lemma lww_in a b : lww a b = a \/ lww a b = b.
Proof. unfold lww. destruct (lww_lt a b); auto. Qed.

Lemma lww_lt_lww m a b : lww_lt m (lww a b) = false -> lww_lt m a = false /\ lww_lt m b = false.
Proof.
  unfold lww. destruct (lww_lt a b) eqn:L; unfold lww_lt in *; lia.
Qed.

Lemma fold_lww_max l : forall init, is_max (fold_left lww l init) (init :: l).
Proof.
  induction l as [|x r IH]; intros init; cbn.
  - split; [now left|]. intros y [<-|[]]. unfold lww_lt. lia.
  - destruct (IH (lww init x)) as [Hin Hmax]. split.
    + destruct Hin as [<-|Hin]; [|right; now right].
      destruct (lww_in init x) as [->| ->]; [now left|right; now left].
    + destruct (lww_lt_lww _ _ _ (Hmax _ (or_introl eq_refl))) as [Hi Hx].
      intros y [<-|[<-|Hy]]; [exact Hi|exact Hx|apply Hmax; now right].
Qed.

Lemma fold_merge_lww l : forall init, pairwise (init :: l) -> fold_left merge l init = fold_left lww l init.
Proof.
  induction l as [|x r IH]; intros init P; cbn; [reflexivity|].
  destruct P as [P1 [P2 P3]].
  rewrite (merge_is_lww init x (P1 x (or_introl eq_refl))).
  apply IH. cbn. split; [|exact P3].
  intros y Hy. destruct (lww_in init x) as [->| ->]; [apply P1; now right|apply P2; auto].
Qed.

Lemma pairwise_in l : pairwise l -> forall a b, In a l -> In b l -> consistent a b.
Proof.
  induction l as [|x r IH]; cbn; [tauto|]. intros [P1 P2] a b [<-|Ha] [<-|Hb]; auto using consistent_self.
  apply consistent_sym. auto.
Qed.

Lemma max_unique l r1 r2 : pairwise l -> is_max r1 l -> is_max r2 l -> r1 = r2.
Proof.
  intros P [H1 M1] [H2 M2]. destruct (pairwise_in l P r1 r2 H1 H2) as (_ & _ & C).
  specialize (M1 r2 H2). specialize (M2 r1 H1). apply lww_lt_false in M1, M2. apply C; lia.
Qed.

Lemma pairwise_perm l1 l2 : Permutation l1 l2 -> pairwise l1 -> pairwise l2.
Proof.
  induction 1; cbn; auto.
  - intros [P1 P2]. split; [|auto]. intros y Hy. apply P1. eapply Permutation_in; [apply Permutation_sym|]; eauto.
  - intros [P1 [P2 P3]]. split; [|split; [|exact P3]].
    + intros z [<-|Hz]; [apply consistent_sym; apply P1; now left|apply P2; auto].
    + intros z Hz. apply P1. now right.
Qed.

(** Both folds are the LWW-maximum of the same list, which is unique. *)
Theorem merge_order_independent init l1 l2 :
  Permutation l1 l2 -> pairwise (init :: l1) ->
  fold_left merge l1 init = fold_left merge l2 init.
Proof.
  intros Hp P.
  assert (P' : pairwise (init :: l2)) by (eapply pairwise_perm; [apply perm_skip; exact Hp|exact P]).
  rewrite (fold_merge_lww _ _ P), (fold_merge_lww _ _ P').
  apply (max_unique (init :: l2) _ _ P').
  - destruct (fold_lww_max l1 init) as [Hin Hm]. split.
    + eapply Permutation_in; [apply perm_skip; exact Hp|exact Hin].
    + intros x Hx. apply Hm. eapply Permutation_in; [apply Permutation_sym, perm_skip; exact Hp|exact Hx].
  - apply fold_lww_max.
Qed.

(** hypotheses are satisfiable: two concurrent writes and one that has seen both *)
Example pairwise_example :
  pairwise [(1, 10, 0, [1; 0]); (2, 12, 1, [0; 1]); (3, 20, 0, [2; 1])].
Proof.
  assert (C : forall a b, implb (vc_dom (v_vc a) (v_vc b)) (lww_lt b a) = true ->
                          implb (vc_dom (v_vc b) (v_vc a)) (lww_lt a b) = true ->
                          (v_ts a =? v_ts b) = false -> consistent a b).
  { intros a b H1 H2 H3. repeat split.
    - intros D. rewrite D in H1. exact H1.
    - intros D. rewrite D in H2. exact H2.
    - intros E. apply Z.eqb_neq in H3. contradiction. }
  cbn. split; [|split; [|split; [|exact I]]].
  - intros y [<-|[<-|[]]]; apply C; reflexivity.
  - intros y [<-|[]]. apply C; reflexivity.
  - intros y [].
Qed.

(** Versions on which the merge is not associative (C17/Props.v): a and b are
    causally ordered (b has seen a) but carry the same timestamp and b's writer
    id is smaller; c is concurrent with both. *)
Definition na : ver := (1, 5, 2, [0; 0; 1]).
Definition nb : ver := (2, 5, 0, [1; 0; 1]).
Definition nc : ver := (3, 5, 1, [0; 1; 0]).
