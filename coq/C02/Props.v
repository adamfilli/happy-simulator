(** Property C02 — generator processes and futures resume at the right
    instant, with the right value, once.  Statements about the script
    interpreter (the model of Event.invoke / ProcessContinuation.invoke /
    sim_future.py) for ALL states; the engine-level consequence "a scheduled
    continuation is delivered exactly at its timestamp, once" is C01. *)
From HS Require Import Base.Prelude Engine.Engine Engine.Script Engine.EngineProofs Engine.ScriptProofs C02.Process C02.Combinators.
Local Open Scope Z_scope.

(** A process that yields a delay [dt] (with side-effect events [effs]) while
    handling the continuation [e] schedules exactly one further continuation of
    itself, at [ev_time e + dt], carrying no value; the side-effect events are
    created first, at the instant of the yield; the process keeps the rest of
    its body ... *)
Theorem c02_yield_resumes_after_delay : forall fuel now e pid p dt effs r c c',
  advance fuel now e pid p (GYield dt effs :: r) c = Some c' ->
  let c1 := emit_all now effs c in
  exists k,
    ix_new c' = k :: ix_new c1 /\
    ev_time k = ev_time e + dt /\ ev_sort k = ix_ctr c1 /\ ix_ctr c' = ix_ctr c1 + 1 /\
    p_kind (ev_pay k) = KCont pid VNone /\
    ev_daemon k = pr_daemon p /\
    alookup pid (procs (ix_u c')) =
      Some (mkProc r (pr_ret p) (pr_type p) (pr_target p) (pr_daemon p) (pr_hid p)).
Proof.
  cbn. intros fuel now e pid p dt effs r c c' H. inversion H; subst; clear H. eexists. cbn.
  repeat split. apply alookup_aset_same.
Qed.
Print Assumptions c02_yield_resumes_after_delay.

(** ... and every delivery happens with the clock at the event's timestamp
    (so the process resumes exactly [dt] after the yield). *)
Theorem c02_resume_instant_is_timestamp : forall fuel start end_ns p pre e c,
  In (e, c, Delivered) (log (out_state (script_run fuel start end_ns p pre))) -> c = ev_time e.
Proof. intros. eapply delivered_clock; [apply script_run_inv|eassumption]. Qed.
Print Assumptions c02_resume_instant_is_timestamp.

(** A finishing process emits its returned events at the finish instant, is
    removed (no later step of the same process exists), and runs its hooks. *)
Theorem c02_finish_effects : forall fuel now e pid p c,
  advance fuel now e pid p [] c =
    Some (run_hooks (ev_time e) (pr_hid p)
            (set_u (emit_all now (pr_ret p) c)
               (add_log (with_procs (ix_u (emit_all now (pr_ret p) c))
                           (filter (fun x => negb (fst x =? pid)) (procs (ix_u (emit_all now (pr_ret p) c)))))
                        (UFinish now pid)))).
Proof. reflexivity. Qed.
Print Assumptions c02_finish_effects.

Theorem c02_finished_process_is_gone : forall pid (m : list (Z * proc)),
  alookup pid (filter (fun x => negb (fst x =? pid)) m) = None.
Proof.
  intros pid m. induction m as [|[k v] r IH]; cbn; [reflexivity|].
  destruct (Z.eqb_spec k pid); cbn; [exact IH|].
  destruct (Z.eqb_spec pid k); [congruence|exact IH].
Qed.
Print Assumptions c02_finished_process_is_gone.

Theorem c02_hooks_run_once : forall now now' hid c, 0 <= hid ->
  let c1 := run_hooks now hid c in
  ix_new (run_hooks now' hid c1) = ix_new c1 /\ ulog (ix_u (run_hooks now' hid c1)) = ulog (ix_u c1) /\
  ix_ctr (run_hooks now' hid c1) = ix_ctr c1.
Proof. intros now now' hid c _ c1. subst c1. rewrite hooks_second_run_is_identity. auto. Qed.
Print Assumptions c02_hooks_run_once.

Theorem c02_resolve_twice_is_noop : forall fuel now f v c,
  f_resolved (aget fut0 f (futs (ix_u c))) = true -> resolve (S fuel) now f v c = Some c.
Proof. intros fuel now f v c H. cbn. rewrite H. reflexivity. Qed.
Print Assumptions c02_resolve_twice_is_noop.

(** Resolving a pending future with a parked process and no combinator
    callbacks pushes exactly one continuation, at the resolve instant, with the
    value; afterwards the future is resolved and nobody is parked on it, so no
    second resume can happen ([c02_resolve_twice_is_noop]). *)
Theorem c02_resolve_resumes_parked_once : forall fuel now f v c pid p,
  f_resolved (aget fut0 f (futs (ix_u c))) = false ->
  f_parked (aget fut0 f (futs (ix_u c))) = Some pid ->
  f_cbs (aget fut0 f (futs (ix_u c))) = [] ->
  alookup pid (procs (ix_u c)) = Some p ->
  exists c' k, resolve (S fuel) now f v c = Some c' /\
    ix_new c' = k :: ix_new c /\ ev_time k = now /\ p_kind (ev_pay k) = KCont pid v /\
    f_resolved (aget fut0 f (futs (ix_u c'))) = true /\
    f_value (aget fut0 f (futs (ix_u c'))) = v /\
    f_parked (aget fut0 f (futs (ix_u c'))) = None.
Proof.
  intros fuel now f v c pid p Hr Hk Hc Hp. rewrite (resolve_waited _ _ _ _ _ pid p Hr Hk Hp), Hc.
  eexists; eexists. split; [reflexivity|].
  rewrite ix_u_wake, futs_set_fut_same. repeat split.
Qed.
Print Assumptions c02_resolve_resumes_parked_once.

Theorem c02_park_on_resolved_resumes_now : forall now f pid c p,
  alookup pid (procs (ix_u c)) = Some p ->
  f_resolved (aget fut0 f (futs (ix_u c))) = true ->
  f_parked (aget fut0 f (futs (ix_u c))) = None ->
  exists c' k, park now f pid c = Some c' /\ ix_new c' = k :: ix_new c /\ ev_time k = now /\
               p_kind (ev_pay k) = KCont pid (f_value (aget fut0 f (futs (ix_u c)))).
Proof.
  intros now f pid c p Hp Hr Hk. unfold park. rewrite Hk, Hr, (resume_eq _ _ _ _ _ p) by exact Hp.
  eexists; eexists. split; [reflexivity|]. repeat split.
Qed.
Print Assumptions c02_park_on_resolved_resumes_now.

Theorem c02_park_on_pending_waits : forall now f pid c,
  f_resolved (aget fut0 f (futs (ix_u c))) = false ->
  f_parked (aget fut0 f (futs (ix_u c))) = None ->
  exists c', park now f pid c = Some c' /\ ix_new c' = ix_new c /\ ix_ctr c' = ix_ctr c /\
             f_parked (aget fut0 f (futs (ix_u c'))) = Some pid.
Proof.
  intros now f pid c Hr Hk. unfold park. rewrite Hk, Hr. eexists. split; [reflexivity|].
  repeat split. exact (f_equal f_parked (futs_set_fut_same c f _)).
Qed.
Print Assumptions c02_park_on_pending_waits.

(** The error branch: yielding a future that another process is parked on. *)
Theorem c02_double_park_raises : forall now f pid c q,
  f_parked (aget fut0 f (futs (ix_u c))) = Some q -> park now f pid c = None.
Proof. intros now f pid c q H. unfold park. rewrite H. destruct (f_resolved _); reflexivity. Qed.
Print Assumptions c02_double_park_raises.

(** any_of / all_of: one-step semantics of their settle callbacks (PARTIAL as
    statements about arbitrary NESTING: the whole-combinator theorems below are
    for composites over plain inputs; nested composites, where two inputs can
    settle in the same cascade, are checked by the correspondence and the
    implementation-side oracle). *)
Theorem c02_any_of_callback_partial : forall rec v c comp idx,
  fire_cb rec v (Some c) (CbAny comp idx) = rec comp (VPair idx v) c.
Proof. reflexivity. Qed.
Print Assumptions c02_any_of_callback_partial.

Theorem c02_all_of_callback_partial : forall rec v c comp idx res rem,
  f_resolved (aget fut0 comp (futs (ix_u c))) = false ->
  aget ([], 0) comp (alls (ix_u c)) = (res, rem) ->
  let res' := set_nth (Z.to_nat idx) v res in
  let c' := set_u c (with_alls (ix_u c) (aset comp (res', rem - 1) (alls (ix_u c)))) in
  fire_cb rec v (Some c) (CbAll comp idx) =
    if rem - 1 =? 0 then rec comp (VList res') c' else Some c'.
Proof. exact all_of_callback_spec. Qed.
Print Assumptions c02_all_of_callback_partial.

(** Non-vacuity: a process waits on all_of(f0, any_of(f0, f1)); another entity
    resolves f1 then f0 at 5 ns: the waiter resumes at 5 ns with [7; (1, 9)]. *)
Example c02_example :
  let p := [[(0, BGen [GWait (FAll [FId 0; FAny [FId 0; FId 1]])] []);
             (1, BImm [AEff (EResolve 1 9); AEff (EResolve 0 7)])]] in
  let pre := [mkPre 0 (mkEmit (mkEmit0 0 0 0 false) (-1) []) false;
              mkPre 5 (mkEmit (mkEmit0 0 0 1 false) (-1) []) false] in
  rev (ulog (user (out_state (script_run 50 0 (Some 100) p pre))))
  = [UHandle 0 0 0; UResume 0 0 VNone; UHandle 5 0 1;
     UResume 5 0 (VList [VInt 7; VPair 1 (VInt 9)]); UFinish 5 0].
Proof. vm_compute. reflexivity. Qed.

(** any_of / all_of as WHOLE combinators over plain inputs (each input an
    unresolved future that is not awaited directly and carries this composite's
    callback only; the composite has a waiting process and no callbacks of its
    own, i.e. it is not nested): any_of resumes the waiter exactly once, at the
    instant the FIRST input resolves, with (index, value) ... *)
Theorem c02_any_of_first_input : forall fuel now f v c comp idx pid p,
  f <> comp -> input_of c f (CbAny comp idx) -> waiting_on c comp pid p ->
  exists c' k, resolve (S (S fuel)) now f v c = Some c' /\
    ix_new c' = k :: ix_new c /\ ev_time k = now /\ p_kind (ev_pay k) = KCont pid (VPair idx v) /\
    f_resolved (fget c' comp) = true /\ f_value (fget c' comp) = VPair idx v /\ f_parked (fget c' comp) = None /\
    f_resolved (fget c' f) = true /\ f_value (fget c' f) = v /\
    (forall g, g <> f -> g <> comp -> fget c' g = fget c g).
Proof.
  intros fuel now f v c comp idx pid p Hne (I1 & I2 & I3) W. unfold fget in *.
  rewrite (resolve_input _ _ _ _ _ I1 I2), I3. cbn [fold_left fire_cb].
  rewrite (resolve_waiting _ _ _ _ _ pid p) by exact (waiting_on_set_fut _ _ _ _ _ _ Hne W).
  eexists; eexists. split; [reflexivity|].
  rewrite ix_u_wake, futs_set_fut_same, (futs_set_fut_other _ comp _ f), futs_set_fut_same by exact Hne.
  repeat split.
  intros g G1 G2. rewrite !futs_set_fut_other by assumption. reflexivity.
Qed.
Print Assumptions c02_any_of_first_input.

(** ... every later input is ignored (no event, composite untouched) ... *)
Theorem c02_any_of_later_ignored : forall fuel now g v c comp j,
  g <> comp -> input_of c g (CbAny comp j) -> f_resolved (fget c comp) = true ->
  exists c', resolve (S (S fuel)) now g v c = Some c' /\ ix_new c' = ix_new c /\ fget c' comp = fget c comp /\
             procs (ix_u c') = procs (ix_u c).
Proof.
  intros fuel now g v c comp j Hne (I1 & I2 & I3) W. unfold fget in *.
  rewrite (resolve_input _ _ _ _ _ I1 I2), I3. cbn [fold_left fire_cb].
  rewrite c02_resolve_twice_is_noop by (rewrite futs_set_fut_other by congruence; exact W).
  eexists. split; [reflexivity|]. rewrite futs_set_fut_other by congruence. repeat split.
Qed.
Print Assumptions c02_any_of_later_ignored.

(** ... and all_of, for ANY order in which its inputs resolve (each once; stated
    for inputs that all resolve at the one instant [now]), resolves exactly at
    the last of them — one continuation of the waiter, at that instant — with
    every value at its argument position. *)
Theorem c02_all_of_any_order : forall fuel now comp pid p l c res,
  l <> [] ->
  NoDup (map (fun s => fst (fst s)) l) -> NoDup (map (fun s => Z.to_nat (snd (fst s))) l) ->
  (forall f idx v, In (f, idx, v) l -> f <> comp /\ input_of c f (CbAll comp idx) /\ 0 <= idx /\ (Z.to_nat idx < length res)%nat) ->
  waiting_on c comp pid p ->
  aget ([], 0) comp (alls (ix_u c)) = (res, Z.of_nat (length l)) ->
  exists c' k res', resolve_all (S (S fuel)) now l c = Some c' /\
    ix_new c' = k :: ix_new c /\ ev_time k = now /\ p_kind (ev_pay k) = KCont pid (VList res') /\
    f_resolved (fget c' comp) = true /\ f_value (fget c' comp) = VList res' /\ length res' = length res /\
    (forall f idx v, In (f, idx, v) l -> nth (Z.to_nat idx) res' VNone = v) /\
    (forall m, ~ In m (map (fun s => Z.to_nat (snd (fst s))) l) -> nth m res' VNone = nth m res VNone).
Proof.
  intros fuel now comp pid p l c res Hne ND1 ND2 Hin W A.
  destruct (all_of_resolves_recorded fuel now comp pid p l c res Hne ND1) as (c' & k & R & E1 & E2 & E3 & E4 & E5);
    [intros f idx v X; apply (Hin f idx v X)|exact W|exact A|].
  exists c', k, (recorded l res).
  repeat (split; [assumption|]). split; [apply recorded_length|]. split.
  - intros f idx v X. apply (recorded_same l res f); [exact ND2|exact X|apply (Hin f idx v X)].
  - intros m. apply recorded_other.
Qed.
Print Assumptions c02_all_of_any_order.
