(** C16 — CachedStore: structural invariant over every interleaving of
    operation segments (capacity, policy keys = cached keys, dirty keys are
    cached), for every policy satisfying [policy_ok]. *)
From HS Require Import Base.Prelude C16.Model C16.Lists C16.Policies.
Local Open Scope Z_scope.

Lemma settle_st {P} id pend (x : cst P * res * list (list Z)) : st (fst (fst (settle id pend x))) = fst (fst x).
Proof. destruct x as [[s r] lft]. destruct r; reflexivity. Qed.

Lemma sstep_st P c y i :
  st (fst (sstep P c y i)) =
  match i_act i with
  | IStart _ o => fst (fst (start P c (i_now i) (i_draws i) (st y) o))
  | IResume id => match pfind id (pending y) with
                  | Some k => fst (fst (resume P c (i_now i) (i_draws i) (st y) k))
                  | None => st y
                  end
  end.
Proof.
  unfold sstep, sstep_full. destruct (i_act i) as [id o|id]; [apply settle_st|].
  destruct (pfind id (pending y)); [apply settle_st|reflexivity].
Qed.

Lemma cache_put_get P c now dr k v (s : cst P) : aget k (cache (fst (cache_put P c now dr k v s))) = Some v.
Proof.
  unfold cache_put. destruct (amem k (cache s)); [apply aget_aset_same|].
  destruct (evict_loop P _ c now dr s). apply aget_aset_same.
Qed.

Section Store.
Variable P : policy.
Variable H : policy_ok P.
Variable c : cfg.
Hypothesis Hcap : 1 <= cap c.

(** Stated on the three fields it reads: the rest of the state changes without a proof. *)
Definition cinv3 (ca : amap) (di : list Z) (po : PS P) : Prop :=
  p_inv P H po /\ NoDup (akeys ca) /\
  (forall x, In x (p_keys P po) <-> In x (akeys ca)) /\
  NoDup di /\ (forall x, In x di -> In x (akeys ca)) /\
  (wt c = true -> di = []) /\ zlen ca <= cap c.

Definition cinv (s : cst P) : Prop := cinv3 (cache s) (dirty s) (pol s).

(** An empty cache with an empty policy: the initial state, and the state after [invalidate_all]. *)
Lemma cinv3_empty po : p_inv P H po /\ p_keys P po = [] -> cinv3 [] [] po.
Proof.
  intros [Hp Hk]. unfold cinv3. rewrite Hk. cbn. repeat split; auto; try constructor; try tauto. lia.
Qed.

Lemma cinv_init b0 : cinv (cinit P b0).
Proof. exact (cinv3_empty _ (ok_init P H)). Qed.

(** The policy steps below take the conjunction a [policy_ok] field delivers. *)
Lemma cinv3_pol ca di po po' : cinv3 ca di po ->
  p_inv P H po' /\ (forall x, In x (p_keys P po') <-> In x (p_keys P po)) -> cinv3 ca di po'.
Proof.
  intros (_ & Hc & Hk & Hr) [Hp' Hk']. split; [exact Hp'|]. split; [exact Hc|]. split; [|exact Hr].
  intros x. rewrite Hk'. apply Hk.
Qed.

Lemma cinv3_del k ca di po po' : cinv3 ca di po ->
  p_inv P H po' /\ (forall x, In x (p_keys P po') <-> In x (p_keys P po) /\ x <> k) ->
  cinv3 (adel k ca) (remove1 k di) po'.
Proof.
  intros (_ & Hc & Hk & Hd & Hs & Hw & Hl) [Hp' Hk']. unfold cinv3. rewrite akeys_adel.
  split; [exact Hp'|]. split; [apply NoDup_remove1, Hc|]. split; [|split; [apply NoDup_remove1, Hd|split; [|split]]].
  - intros x. rewrite Hk', Hk. symmetry. apply In_remove1_iff, Hc.
  - intros x Hx. apply In_remove1_iff in Hx as [Hx Hn]; [|exact Hd]. apply In_remove1_iff; auto.
  - intros Hwt. rewrite (Hw Hwt). reflexivity.
  - pose proof (zlen_adel_le k ca). lia.
Qed.

Lemma cinv3_install k v ca di po po' : cinv3 ca di po ->
  p_inv P H po' /\ (forall x, In x (p_keys P po') <-> x = k \/ In x (p_keys P po)) ->
  In k (akeys ca) \/ zlen ca < cap c -> cinv3 (aset k v ca) di po'.
Proof.
  intros (_ & Hc & Hk & Hd & Hs & Hw & Hl) [Hp' Hk'] Hroom. unfold cinv3. rewrite akeys_aset.
  split; [exact Hp'|]. split; [apply NoDup_add_end, Hc|]. split; [|split; [exact Hd|split; [|split; [exact Hw|]]]].
  - intros x. rewrite Hk', Hk. symmetry. apply In_add_end.
  - intros x Hx. apply In_add_end. right. apply Hs, Hx.
  - destruct Hroom as [Hi|Hlt]; [rewrite zlen_aset_in by exact Hi; exact Hl|].
    pose proof (zlen_aset_le k v ca). lia.
Qed.

Lemma cinv3_dirty_del k ca di po : cinv3 ca di po -> cinv3 ca (remove1 k di) po.
Proof.
  intros (Hp & Hc & Hk & Hd & Hs & Hw & Hl). split; [exact Hp|]. split; [exact Hc|]. split; [exact Hk|].
  split; [apply NoDup_remove1, Hd|]. split; [|split; [|exact Hl]].
  - intros x Hx. apply In_remove1 in Hx. apply Hs, Hx.
  - intros Hwt. rewrite (Hw Hwt). reflexivity.
Qed.

Lemma cinv3_dirty_add k ca di po : cinv3 ca di po -> wt c = false -> In k (akeys ca) ->
  cinv3 ca (add_end k di) po.
Proof.
  intros (Hp & Hc & Hk & Hd & Hs & Hw & Hl) Hwb Hi. split; [exact Hp|]. split; [exact Hc|]. split; [exact Hk|].
  split; [apply NoDup_add_end, Hd|]. split; [|split; [congruence|exact Hl]].
  intros x Hx. apply In_add_end in Hx as [->|Hx]; [exact Hi|apply Hs, Hx].
Qed.

Lemma evict_apply_inv s k pol' : cinv s ->
  p_inv P H pol' /\ (forall x, In x (p_keys P pol') <-> In x (p_keys P (pol s)) /\ x <> k) ->
  cinv (evict_apply s k pol').
Proof.
  intros Hs Hp. unfold cinv. cbn [evict_apply cache dirty pol]. rewrite guard_remove1.
  apply (cinv3_del k _ _ (pol s)); assumption.
Qed.

Lemma cache_remove_inv k s : cinv s -> cinv (cache_remove P k s).
Proof. intros Hs. apply (cinv3_del k _ _ (pol s)); [exact Hs|]. apply (ok_remove P H), Hs. Qed.

(** The eviction loop evicts at most once, and leaves room for one entry. *)
Lemma evict_loop_spec f now dr s : cinv s ->
  exists s1 dr1, evict_loop P (S f) c now dr s = (s1, dr1) /\ cinv s1 /\ zlen (cache s1) < cap c /\
    (s1 = s \/ exists k pol', In k (akeys (cache s)) /\ s1 = evict_apply s k pol').
Proof.
  intros Hs. cbn [evict_loop]. destruct (zlen (cache s) >=? cap c) eqn:E.
  2:{ exists s, dr. split; [reflexivity|]. split; [exact Hs|]. split; [lia|left; reflexivity]. }
  pose proof Hs as (Hp & _ & Hk & _ & _ & _ & Hl).
  pose proof (ok_evict P H now dr (pol s) Hp) as He.
  destruct (p_evict P now dr (pol s)) as [[[k|] pol'] dr'].
  - destruct He as (Hin & Hp'). apply Hk in Hin.
    assert (Hlt : zlen (cache (evict_apply s k pol')) < cap c).
    { cbn [evict_apply cache]. rewrite zlen_adel by exact Hin. lia. }
    exists (evict_apply s k pol'), dr'. split; [|split; [apply evict_apply_inv; assumption|split; [exact Hlt|]]].
    + destruct f as [|f]; cbn [evict_loop]; [reflexivity|].
      destruct (zlen (cache (evict_apply s k pol')) >=? cap c) eqn:E2; [lia|reflexivity].
    + right. exists k, pol'. split; [exact Hin|reflexivity].
  - exfalso. destruct He as [He _]. rewrite He in Hk.
    destruct (cache s) as [|[y w] m]; [unfold zlen in E; cbn in E; lia|].
    apply (Hk y). left. reflexivity.
Qed.

Lemma install_hit k v s : cinv s -> In k (akeys (cache s)) ->
  cinv3 (aset k v (cache s)) (dirty s) (p_access P k (pol s)).
Proof.
  intros Hs Hi. pose proof Hs as (Hp & _ & Hk & _). destruct (ok_access P H k (pol s) Hp) as [Hp' Hk'].
  apply (cinv3_install k v _ _ (pol s)); [exact Hs| |left; exact Hi]. split; [exact Hp'|].
  intros x. rewrite Hk'. split; [auto|]. intros [->|Hx]; [apply Hk, Hi|exact Hx].
Qed.

Lemma install_miss now k v s : cinv s -> ~ In k (akeys (cache s)) -> zlen (cache s) < cap c ->
  cinv3 (aset k v (cache s)) (dirty s) (p_insert P now k (pol s)).
Proof.
  intros Hs Hn Hl. pose proof Hs as (Hp & _ & Hk & _).
  apply (cinv3_install k v _ _ (pol s)); [exact Hs| |right; exact Hl].
  apply (ok_insert P H); [exact Hp|]. intros Hx. apply Hn, Hk, Hx.
Qed.

(** Normal form of [_cache_put]: the entry goes into [s1], which is [s] or [s] after one eviction. *)
Lemma cache_put_shape now dr k v s : cinv s ->
  exists s1 po, let s' := fst (cache_put P c now dr k v s) in
    cache s' = aset k v (cache s1) /\ dirty s' = dirty s1 /\ pol s' = po /\ back s' = back s1 /\
    (s1 = s \/ exists ke pol', In ke (akeys (cache s)) /\ ke <> k /\ s1 = evict_apply s ke pol') /\
    cinv3 (aset k v (cache s1)) (dirty s1) po.
Proof.
  intros Hs. unfold cache_put. destruct (amem k (cache s)) eqn:E.
  - apply amem_In in E. exists s, (p_access P k (pol s)). cbn [fst cache dirty pol back].
    repeat (split; [reflexivity|]). split; [left; reflexivity|apply install_hit; assumption].
  - apply amem_false in E.
    destruct (evict_loop_spec (length (p_keys P (pol s))) now dr s Hs) as (s1 & dr1 & -> & Hs1 & Hlt & Hor).
    exists s1, (p_insert P now k (pol s1)). cbn [fst cache dirty pol back]. repeat (split; [reflexivity|]).
    destruct Hor as [->|(ke & pol' & Hin & ->)].
    + split; [left; reflexivity|apply install_miss; assumption].
    + split; [right; exists ke, pol'; split; [exact Hin|split; [congruence|reflexivity]]|].
      apply (install_miss now k v _ Hs1); [|exact Hlt].
      cbn [evict_apply cache]. rewrite akeys_adel. intros Hx. apply E. exact (In_remove1 _ _ _ Hx).
Qed.

Lemma cache_put_inv now dr k v s : cinv s -> cinv (fst (cache_put P c now dr k v s)).
Proof.
  intros Hs. destruct (cache_put_shape now dr k v s Hs) as (s1 & po & Hc & Hd & Hp & _ & _ & Hi).
  unfold cinv. rewrite Hc, Hd, Hp. exact Hi.
Qed.

Lemma start_inv now dr s o : cinv s -> cinv (fst (fst (start P c now dr s o))).
Proof.
  intros Hs. destruct o as [k|k v|k|k| |order]; cbn [start].
  - destruct (aget k (cache s)); [|exact Hs].
    apply (cinv3_pol (cache s) (dirty s) (pol s)); [exact Hs|]. apply (ok_access P H), Hs.
  - rewrite let_pair. pose proof (cache_put_inv now dr k v (bump s 0 1 0 0) Hs) as Hi.
    destruct (wt c) eqn:Ew; [exact Hi|]. apply cinv3_dirty_add; [exact Hi|exact Ew|].
    exact (aget_Some_In _ _ _ (cache_put_get P c now dr k v _)).
  - destruct (amem k (cache s)); [apply cache_remove_inv|]; exact Hs.
  - destruct (amem k (cache s)); [apply cache_remove_inv|]; exact Hs.
  - apply cinv3_empty, (ok_clear P H).
  - exact Hs.
Qed.

Lemma resume_inv now dr s k : cinv s -> cinv (fst (fst (resume P c now dr s k))).
Proof.
  intros Hs. destruct k as [v|key|key v| |key inc|key v rest n]; cbn [resume fst]; try exact Hs.
  - destruct (aget key (back s)); [|exact Hs]. rewrite let_pair. apply cache_put_inv, Hs.
  - apply (cinv3_dirty_del key (cache s) (dirty s) (pol s)), Hs.
Qed.

Lemma sstep_inv y i : cinv (st y) -> cinv (st (fst (sstep P c y i))).
Proof.
  intros Hy. rewrite sstep_st. destruct (i_act i) as [id o|id]; [apply start_inv, Hy|].
  destruct (pfind id (pending y)); [apply resume_inv, Hy|exact Hy].
Qed.

Lemma srun_inv ins : forall y, cinv (st y) -> cinv (st (srun P c y ins)).
Proof.
  induction ins as [|i ins IH]; intros y Hy; cbn [srun]; [exact Hy|]. apply IH, sstep_inv, Hy.
Qed.

(** What the invariant says in terms of the state alone. *)
Lemma cinv_facts s : cinv s ->
  zlen (cache s) <= cap c /\
  NoDup (akeys (cache s)) /\ NoDup (p_keys _ (pol s)) /\
  (forall x, In x (p_keys _ (pol s)) <-> In x (akeys (cache s))) /\
  length (p_keys _ (pol s)) = length (cache s) /\
  (forall x, In x (dirty s) -> In x (akeys (cache s))) /\
  (wt c = true -> dirty s = []).
Proof.
  intros (Hp & Hc & Hk & _ & Hs & Hw & Hl). pose proof (ok_nodup P H _ Hp) as Hnd.
  repeat split; auto; try apply Hk.
  rewrite (nodup_same_length _ _ Hnd Hc Hk). apply map_length.
Qed.

End Store.
