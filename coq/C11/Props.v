(** Property C11 — the theorems the check counts as obligations. *)
From HS Require Import Base.Prelude Base.PyLib C11.Model C11.NodeProofs C11.Election C11.Refute C11.LogProofs C11.LogMatching C11.Progress
  C11.Completeness C11.Steps C11.Progress2 C11.Liveness Gen.RaftLogGen C11.GenTie C11.CommitTie.
Local Open Scope Z_scope.

(** Each node applies indices 1,2,3,... in order without gaps or repeats, for
    EVERY sequence of inputs (any messages, forged ones included, any timer
    firings, any submits); commit_index never runs ahead of last_applied; a
    future only ever resolves with an (index, command) this node applied. *)
Theorem c11_apply_in_order : forall ids i inputs,
  let n := node_run (init_node ids i) inputs in
  map fst (applied n) = zseq 1 (length (applied n)) /\
  last_applied n = zlen (applied n) /\
  commit n <= last_applied n /\
  (forall f idx c, In (f, idx, c) (resolved n) -> In (idx, c) (applied n)).
Proof.
  intros ids i inputs. cbn. destruct (node_run_inv inputs _ (init_node_inv ids i)) as (H0 & Hlen & Hla & (A & B & C)).
  auto.
Qed.
Print Assumptions c11_apply_in_order.

(** Election safety of the cluster model, for EVERY schedule of deliveries in
    any order, drops (loss, partitions, crashes), timeouts at any moment,
    heartbeats and client submits, every cluster (any duplicate-free id list):
    no term ever has two leaders ([led] is the history of all (term, node)
    that were ever leader). *)
Theorem c11_election_safety : forall l acts, NoDup l ->
  let w := net_run (net_init l) acts in
  forall t a b, In (t, a) (led w) -> In (t, b) (led w) -> a = b.
Proof. exact election_safety. Qed.
Print Assumptions c11_election_safety.

(** ... in particular two nodes that are leader at the same moment are in
    different terms. *)
Theorem c11_one_leader_per_term : forall l acts, NoDup l ->
  let w := net_run (net_init l) acts in
  forall a b, In a l -> In b l ->
  role (nodes w a) = Leader -> role (nodes w b) = Leader ->
  term (nodes w a) = term (nodes w b) -> a = b.
Proof.
  intros l acts ND w a b Ia Ib Ra Rb T.
  assert (L : led_complete w).
  { apply led_complete_run. intros i _ R. cbn in R. discriminate. }
  assert (E : ids w = l) by (unfold w; rewrite net_run_ids; reflexivity).
  apply (election_safety l acts ND (term (nodes w a))).
  - apply L; [rewrite E; exact Ia|exact Ra].
  - rewrite T. apply L; [rewrite E; exact Ib|exact Rb].
Qed.
Print Assumptions c11_one_leader_per_term.

(** The invariant behind it: a node's vote in a term is unique ([cast] is the
    history of all (voter, term, candidate) votes); that every handler keeps the
    term monotone and the vote of an unchanged term is
    [c11_term_monotone_vote_stable] below. *)
Theorem c11_vote_once_per_term : forall l acts, NoDup l ->
  let w := net_run (net_init l) acts in
  forall v t c c', In (v, t, c) (cast w) -> In (v, t, c') (cast w) -> c = c'.
Proof. intros l acts ND. exact (I_g3 _ (net_run_inv acts _ (net_init_inv l ND))). Qed.
Print Assumptions c11_vote_once_per_term.

(** The submit-future clause is REFUTED on the faithful model (known finding
    C11-future-keyed-by-index): a future can resolve with another leader's
    command that was committed at the same index.  The part that does hold is
    the last conjunct of [c11_apply_in_order]: a future only resolves with an
    (index, command) pair that this node applied at that index. *)
Theorem c11_submit_future_refuted : ~ submit_future_statement.
Proof.
  intros H. destruct future_witness_resolved as [R S].
  assert (ND : NoDup [0; 1; 2]) by (repeat constructor; cbn; intuition lia).
  specialize (H [0; 1; 2] future_witness 0 0 1 21 ND (or_introl eq_refl)). rewrite R, S in H.
  discriminate (H (or_introl eq_refl)).
Qed.
Print Assumptions c11_submit_future_refuted.

(** LOG MATCHING, cluster level, for EVERY schedule and every cluster (any
    duplicate-free id list): two logs that hold entries of the same term at the
    same index are identical up to that index (C11/LogMatching.v: ghost "leader
    log of term t", prefix-consistency invariant over all logs and all
    AppendEntries messages in flight; uses election safety and leader
    append-only). *)
Theorem c11_log_matching : forall l acts, NoDup l ->
  let w := net_run (net_init l) acts in
  forall a b i e e', In a l -> In b l ->
    log_get (log (nodes w a)) i = Some e -> log_get (log (nodes w b)) i = Some e' -> fst e = fst e' ->
    firstn (Z.to_nat i) (log (nodes w a)) = firstn (Z.to_nat i) (log (nodes w b)).
Proof. exact log_matching. Qed.
Print Assumptions c11_log_matching.

(** LEADER COMPLETENESS, cluster level, for EVERY cluster (any duplicate-free id
    list) and EVERY schedule (deliveries in any order, drops = loss, partitions
    and crashes, timeouts and heartbeats at any moment, submits at any node):
    an entry that some node holds at or below its commit index is, at the same
    index, in the log of every node that is later leader of a greater term.
    (C11/Ghost.v: history variables — leader log per term, log at election,
    "node a accepted the first m entries of the term-t leader while in term t",
    voter's log at the moment of each vote; C11/Step2.v: the 18-clause
    invariant is kept by every action; C11/LC.v: strong induction on the later
    term through the intersection of the accepting and the electing quorum.) *)
Theorem c11_leader_completeness : forall l acts1 acts2, NoDup l ->
  let w1 := net_run (net_init l) acts1 in
  let w2 := net_run w1 acts2 in
  forall a b i e, In a l -> In b l ->
    i <= commit (nodes w1 a) -> log_get (log (nodes w1 a)) i = Some e ->
    role (nodes w2 b) = Leader -> term (nodes w1 a) < term (nodes w2 b) ->
    log_get (log (nodes w2 b)) i = Some e.
Proof. exact leader_completeness. Qed.
Print Assumptions c11_leader_completeness.

(** ... and within one state: a leader whose term is at least a node's term
    holds every entry up to that node's commit index. *)
Theorem c11_leader_has_committed : forall l acts, NoDup l ->
  let w := net_run (net_init l) acts in
  forall a b i e, In a l -> In b l ->
    i <= commit (nodes w a) -> log_get (log (nodes w a)) i = Some e ->
    role (nodes w b) = Leader -> term (nodes w a) <= term (nodes w b) ->
    log_get (log (nodes w b)) i = Some e.
Proof. intros l acts. exact (leader_holds_committed l acts []). Qed.
Print Assumptions c11_leader_has_committed.

(** STATE-MACHINE SAFETY, cluster level, every cluster and schedule: no two
    nodes ever apply different commands at the same log index ([applied] is the
    node's history of (index, command) pairs handed to the state machine);
    two nodes never hold different entries at an index both have committed. *)
Theorem c11_state_machine_safety : forall l acts, NoDup l ->
  let w := net_run (net_init l) acts in
  forall a b i c c', In a l -> In b l ->
    In (i, c) (applied (nodes w a)) -> In (i, c') (applied (nodes w b)) -> c = c'.
Proof. exact state_machine_safety. Qed.
Print Assumptions c11_state_machine_safety.

Theorem c11_committed_entries_agree : forall l acts, NoDup l ->
  let w := net_run (net_init l) acts in
  forall a b i e e', In a l -> In b l ->
    i <= commit (nodes w a) -> i <= commit (nodes w b) ->
    log_get (log (nodes w a)) i = Some e -> log_get (log (nodes w b)) i = Some e' -> e = e'.
Proof. exact committed_agree. Qed.
Print Assumptions c11_committed_entries_agree.

(** Log matching, the per-step fact about replies.
    A successful AppendEntries reply reports prev_log_index + len(entries) —
    never more (the defect fixed in 2aaca38) — and up to that index the
    follower's log then agrees term for term with what the leader sent, while
    the entries up to prev_log_index are untouched. *)
Theorem c11_log_matching_step_partial : forall n src t lead (pli : nat) plt l lc t' f mi,
  let r := handle_append_entries n src t lead (Z.of_nat pli) plt (with_index (Z.of_nat pli) l) lc in
  In (OSend src (AppendResponse t' true f mi)) (snd r) ->
  mi = Z.of_nat pli + zlen l /\
  (pli + length l <= length (log (fst r)))%nat /\
  map fst (firstn (pli + length l) (log (fst r))) = map fst (firstn pli (log n)) ++ map fst l /\
  firstn pli (log (fst r)) = firstn pli (log n).
Proof. exact append_entries_reply_verified. Qed.
Print Assumptions c11_log_matching_step_partial.

(** Leader Append-Only (one of the ingredients of leader completeness, kept as a
    per-node theorem): a node that is and remains leader of a term never removes
    or rewrites an entry of its log, whatever it is handed. *)
Theorem c11_leader_append_only_partial : forall n inp,
  role n = Leader -> role (fst (node_step n inp)) = Leader -> term (fst (node_step n inp)) = term n ->
  exists suffix, log (fst (node_step n inp)) = log n ++ suffix.
Proof.
  intros n inp RL RL' T.
  destruct (nstep_log n inp _ _ (node_step_nstep n inp)) as [E|[(_ & _ & _ & c & E)|A]].
  - exists []. rewrite app_nil_r. exact E.
  - exists [(term n, c)]. exact E.
  - destruct A as (src & t & lead & pli & plt & ents & lc & _ & _ & _ & RF & _). congruence.
Qed.
Print Assumptions c11_leader_append_only_partial.

(** The repaired [_step_down]: for ANY input a node's term never decreases and
    its vote is kept while the term is unchanged. *)
Theorem c11_term_monotone_vote_stable : forall n inp,
  term n <= term (fst (node_step n inp)) /\
  (term (fst (node_step n inp)) = term n -> forall c, voted n = Some c -> voted (fst (node_step n inp)) = Some c).
Proof. intros n inp. destruct (node_step_spec n inp) as ((_ & _ & A & B) & _). split; assumption. Qed.
Print Assumptions c11_term_monotone_vote_stable.

(** Every leader there has ever been held the votes, cast in its term, of a
    duplicate-free set of more than half of the nodes. *)
Theorem c11_leader_has_quorum_of_votes : forall l acts, NoDup l ->
  let w := net_run (net_init l) acts in
  forall t a, In (t, a) (led w) ->
  exists vs, NoDup vs /\ zlen l / 2 + 1 <= zlen vs /\ forall v, In v vs -> In (v, t, a) (cast w).
Proof.
  intros l acts ND w t a H.
  assert (W : net_inv w) by (apply net_run_inv, net_init_inv, ND).
  destruct (I_l1 w W _ _ H) as (vs & A & B & C). exists vs. repeat split; auto.
  unfold nquorum in B. unfold w in B. rewrite net_run_ids in B. exact B.
Qed.
Print Assumptions c11_leader_has_quorum_of_votes.

(** Liveness clause, the part that is proved (PARTIAL): one delivered
    AppendEntries brings a follower that holds the leader's log up to
    next_index-1 completely up to date; it recognises the leader and answers
    success with match_index = the leader's last index. *)
Theorem c11_replication_round_partial : forall n f (p : nat),
  Z.of_nat p = aget (nid f) 1 (next_index n) - 1 ->
  (p <= length (log n))%nat ->
  log f = firstn p (log n) ->
  term f <= term n ->
  zmem (nid n) (peers f) = true ->
  match append_entries_for n (nid f) with
  | OSend d m =>
      d = nid f /\
      let r := node_step f (IMsg (nid n) m) in
      log (fst r) = log n /\
      term (fst r) = term n /\ role (fst r) = Follower /\ leader (fst r) = Some (nid n) /\
      In (OSend (nid n) (AppendResponse (term n) true (nid f) (last_index (log n)))) (snd r)
  | _ => False
  end.
Proof.
  intros n f p Hp Hlen Hlog Hterm Hpeer. rewrite append_entries_for_msg. split; [reflexivity|]. cbv zeta.
  rewrite (insync_accept n f p Hp Hlen Hlog Hterm Hpeer). cbn [fst snd].
  destruct (caught_up_fields f (term n) (nid n) (log n) (commit n)) as (-> & -> & -> & ->).
  repeat split. right. left. reflexivity.
Qed.
Print Assumptions c11_replication_round_partial.

(** Liveness, two more hops (PARTIAL, each for every node state meeting the
    hypotheses): a successful reply that completes a quorum for an entry of the
    leader's own term makes the leader commit at least that far, with everything
    committed applied ... *)
Theorem c11_commit_on_quorum_partial : forall n src f mi hi e,
  role n = Leader -> apply_inv n -> log_get (log n) hi = Some e -> fst e = term n -> commit n < hi ->
  1 + count_ge hi (aset f mi (match_index n)) >= quorum n ->
  let n' := fst (node_step n (IMsg src (AppendResponse (term n) true f mi))) in
  hi <= commit n' /\ commit n' <= last_applied n' /\ role n' = Leader /\ log n' = log n.
Proof.
  intros n src f mi hi e R AI G T _ Q. cbv zeta.
  destruct (leader_reply n src f mi (term n) R eq_refl AI) as (n' & -> & L & _ & R' & _ & _ & _ & _ & AI' & _ & Ge).
  cbn [fst]. split; [exact (Ge hi e G T Q)|]. split; [apply AI'|]. split; [exact R'|exact L].
Qed.
Print Assumptions c11_commit_on_quorum_partial.

(** ... and the next AppendEntries hands an in-sync follower the leader's commit
    index: its log becomes the leader's, its commit index the greater of its own
    and the leader's, it has applied everything it committed, and every applied
    command is the log's entry. *)
Theorem c11_follower_learns_commit_partial : forall n f (p : nat),
  Z.of_nat p = aget (nid f) 1 (next_index n) - 1 -> (p <= length (log n))%nat -> log f = firstn p (log n) ->
  term f <= term n -> zmem (nid n) (peers f) = true ->
  apply_inv f -> ap_ok f -> apply_inv n ->
  match append_entries_for n (nid f) with
  | OSend d m =>
      let r := node_step f (IMsg (nid n) m) in
      log (fst r) = log n /\ commit (fst r) = Z.max (commit f) (commit n) /\ commit (fst r) <= last_applied (fst r) /\ ap_ok (fst r)
  | _ => False
  end.
Proof.
  intros n f p Hp Hlen Hlog Hterm Hpeer AIf APf AIn.
  destruct (follower_catches_up n f p Hp Hlen Hlog Hterm Hpeer AIf APf (proj1 (proj2 AIn))) as (f' & E & L & C & _ & AI' & AP').
  rewrite append_entries_for_msg. cbv zeta. rewrite E. cbn [fst]. split; [exact L|]. split; [exact C|]. split; [apply AI'|exact AP'].
Qed.
Print Assumptions c11_follower_learns_commit_partial.

(** LIVENESS on a fault-free network, cluster level, for every cluster size >= 2
    and the canonical schedule (PARTIAL in the delivery order: messages are
    delivered in the order they were sent): in an in-sync cluster (everybody in
    the leader's term with the leader's log, nothing in flight — [insync]; a
    three-node cluster right after its first election is such a state,
    [insync_reachable]) the cycle "submit at the leader; heartbeat; deliver
    everything; heartbeat; deliver everything" leaves the cluster in sync with
    the command appended to every log and committed at every node ... *)
Theorem c11_liveness_one_command_partial : forall w L T LG c, insync w L T LG ->
  insync (net_run w (cycle L c (length (peers (nodes w L))))) L T (LG ++ [(T, c)]).
Proof. exact one_command. Qed.
Print Assumptions c11_liveness_one_command_partial.

(** ... so every command of ANY list submitted to the established leader is
    committed and applied, in submission order, by every node. *)
Theorem c11_liveness_all_commands_applied_partial : forall cs w L T LG, insync w L T LG ->
  let w' := net_run w (run_commands L (length (peers (nodes w L))) cs) in
  forall i, In i (ids w') -> map snd (applied (nodes w' i)) = map snd LG ++ cs.
Proof.
  intros cs w L T LG I. cbv zeta. intros i Hi.
  rewrite (insync_applied _ L T _ i (all_commands cs w L T LG I) Hi), map_app, map_map. cbn [snd]. rewrite map_id. reflexivity.
Qed.
Print Assumptions c11_liveness_all_commands_applied_partial.

(** The replicated log of the CODE: consensus/log.py as REGENERATED on every run
    (Gen/RaftLogGen.v, py2coq) refines the model's log functions: [log_abs]
    forgets the stored index field, [log_wf] (stored index = position) is kept. *)
Theorem c11_code_log_refines_model : forall L t c i n,
  (let r := Log_append L t c in
   log_abs (fst r) = log_abs L ++ [(t, c)] /\ Log_commit_index (fst r) = Log_commit_index L
   /\ triple (snd r) = (last_index (log_abs L) + 1, t, c) /\ (log_wf L -> log_wf (fst r)))
  /\ (exists r, Log_get L i = Some r /\ option_map strip r = log_get (log_abs L) i)
  /\ (let r := Log_truncate_from L i in
      (log_abs (fst r), Log_commit_index (fst r)) = truncate_from (log_abs L) (Log_commit_index L) i
      /\ (log_wf L -> log_wf (fst r)))
  /\ (log_wf L -> map triple (Log_entries_after L i) = entries_after (log_abs L) i)
  /\ Log_last_index L = last_index (log_abs L)
  /\ Log_last_term L = Some (last_term (log_abs L))
  /\ (log_wf L -> 0 <= Log_commit_index L -> Log_commit_index L <= zlen (Log__entries L) ->
      let r := Log_advance_commit L n in
      (Log_commit_index (fst r), map triple (snd r)) = advance_commit (log_abs L) (Log_commit_index L) n
      /\ log_abs (fst r) = log_abs L).
Proof.
  intros L t c i n.
  exact (conj (tie_log_append L t c) (conj (tie_log_get L i) (conj (tie_log_truncate L i) (conj (tie_log_entries_after L i)
        (conj (tie_log_last_index L) (conj (tie_log_last_term L) (tie_log_advance_commit L n))))))).
Qed.
Print Assumptions c11_code_log_refines_model.

(** The quorum of the CODE: RaftNode.quorum_size, regenerated from consensus/raft.py on every run, is
    the model's [quorum] for a node with as many peers, and a strict majority of the cluster (node +
    peers), so any two quorums intersect — the arithmetic fact election safety, leader completeness and
    state-machine safety above rest on. *)
Theorem c11_code_quorum_is_majority : forall (r : RaftNode) (n : node),
  (length (peers n) = length (RaftNode__peers r) -> RaftNode_quorum_size r = quorum n)
  /\ (let total := Z.of_nat (length (RaftNode__peers r)) + 1 in
      2 * RaftNode_quorum_size r > total /\ RaftNode_quorum_size r <= total).
Proof. intros r n. exact (conj (tie_raft_quorum r n) (raft_quorum_majority r)). Qed.
Print Assumptions c11_code_quorum_is_majority.

(** The leader's COMMIT RULE of the code: RaftNode._try_advance_commit, regenerated from
    consensus/raft.py on every run (a descending range loop with continue / break, an inner loop
    over match_index.values(), Log.get, Log.advance_commit; _apply_committed declared a no-op on
    the translated fields), does not raise, returns no events, and advances the log's commit index
    exactly to the index [commit_target] selects ... *)
Theorem c11_code_commit_rule : forall r : RaftNode,
  RaftNode__try_advance_commit r
  = Some (match commit_target (log_abs (RaftNode__log r)) (RaftNode__match_index r) (RaftNode__current_term r)
                              (RaftNode_quorum_size r) (Log_last_index (RaftNode__log r))
                              (Z.to_nat (Log_last_index (RaftNode__log r) - Log_commit_index (RaftNode__log r))) with
          | Some c => with_commit r c
          | None => r
          end, []).
Proof. exact tie_try_advance_commit. Qed.
Print Assumptions c11_code_commit_rule.

(** ... which is the highest index above the old commit index whose entry is of the CURRENT term
    and is held by a quorum counting the leader (Raft's commit restriction, the premise of leader
    completeness) ... *)
Theorem c11_code_commit_rule_spec : forall lg mi tm q k hi c,
  commit_target lg mi tm q hi k = Some c ->
  hi - Z.of_nat k < c <= hi
  /\ (exists e, log_get lg c = Some e /\ fst e = tm)
  /\ q <= 1 + count_ge c mi
  /\ forall c', c < c' <= hi ->
       ~ ((exists e, log_get lg c' = Some e /\ fst e = tm) /\ q <= 1 + count_ge c' mi).
Proof.
  intros lg mi tm q k hi c H. destruct (commit_target_sound _ _ _ _ _ _ _ H) as (A & B & C).
  split; [exact A|]. split; [exact B|]. split; [exact C|].
  intros c' Hc' [(e & G & T) Q].
  destruct (commit_target_max lg mi tm q k hi c' e ltac:(lia) G T Q) as (c0 & E0 & Hle).
  rewrite H in E0. inversion E0. lia.
Qed.
Print Assumptions c11_code_commit_rule_spec.

(** ... and on the code object of a model node (same log, commit index, term, match indices and
    cluster size) it leaves exactly the log and commit index of the model's [try_advance_commit] —
    the step every cluster-level safety theorem above reasons about — and changes nothing else. *)
Theorem c11_code_commit_rule_refines_model : forall (r : RaftNode) (n : node),
  log n = log_abs (RaftNode__log r) -> commit n = Log_commit_index (RaftNode__log r) ->
  term n = RaftNode__current_term r -> match_index n = RaftNode__match_index r ->
  length (peers n) = length (RaftNode__peers r) ->
  log_wf (RaftNode__log r) -> 0 <= commit n -> commit n <= zlen (log n) ->
  exists r', RaftNode__try_advance_commit r = Some (r', [])
    /\ log_abs (RaftNode__log r') = log (try_advance_commit n)
    /\ Log_commit_index (RaftNode__log r') = commit (try_advance_commit n)
    /\ RaftNode__match_index r' = RaftNode__match_index r /\ RaftNode__current_term r' = RaftNode__current_term r
    /\ RaftNode__peers r' = RaftNode__peers r.
Proof. intros r n El Ec Et Em Ep _. exact (code_try_advance_commit_refines_model r n El Ec Et Em Ep). Qed.
Print Assumptions c11_code_commit_rule_refines_model.
