(** Property C16 — the theorems the check counts as obligations.  The invariants
    are proved in the files of their subject for any policy satisfying
    [policy_ok] and any state satisfying the invariant; here they are taken at
    the nine policies and the initial state. *)
From HS Require Import Base.Prelude C16.Model C16.Lists C16.Policies C16.Store C16.Races C16.Seq C16.ModelTTL C16.SoftTTL C16.ModelMT C16.MT C16.ModelPC C16.PC C16.ModelWP
  Base.PyLib Gen.EvictionGen C16.GenTie.
Local Open Scope Z_scope.

(** Every one of the nine eviction policies keeps a duplicate-free tracked-key
    set that on_access / on_insert / on_remove / evict / clear change exactly as
    the cache relies on; in particular evict returns a tracked key whenever
    there is one (the [break] of _cache_put is taken only for an empty policy). *)
Theorem c16_policies_track_exactly : forall kind, policy_ok (pol_of kind).
Proof. exact all_policies_ok. Qed.
Print Assumptions c16_policies_track_exactly.

(** For any interleaving of the segments of get / put / delete / invalidate /
    invalidate_all / flush (any oracle draws, any clock readings), all nine
    policies, write-through and write-back: at most [capacity] entries, policy
    keys are exactly the cached keys (no duplicates, same number), dirty keys
    are cached, and a write-through cache has no dirty keys. *)
Theorem c16_capacity_and_policy_keys : forall kind c b0 ins, 1 <= cap c ->
  let s := st (srun (pol_of kind) c (sinit (pol_of kind) b0) ins) in
  zlen (cache s) <= cap c /\
  NoDup (akeys (cache s)) /\ NoDup (p_keys _ (pol s)) /\
  (forall x, In x (p_keys _ (pol s)) <-> In x (akeys (cache s))) /\
  length (p_keys _ (pol s)) = length (cache s) /\
  (forall x, In x (dirty s) -> In x (akeys (cache s))) /\
  (wt c = true -> dirty s = []).
Proof.
  intros kind c b0 ins Hcap. apply (cinv_facts _ (all_policies_ok kind) c), srun_inv, cinv_init; exact Hcap.
Qed.
Print Assumptions c16_capacity_and_policy_keys.

(** REFUTED (known finding C16-fill-race): a read issued after a completed
    write can return the older value when a miss-fill overlapped the write. *)
Theorem c16_read_after_write_overlap_refuted : ~ read_after_write_statement.
Proof. exact read_after_write_overlap_refuted. Qed.
Print Assumptions c16_read_after_write_overlap_refuted.

(** REFUTED (known findings C16-flush-race, C16-fill-race): a segment of a
    running operation can discard write-back data. *)
Theorem c16_writeback_flush_race_refuted : ~ dirty_preserved_statement.
Proof. exact flush_race_refuted. Qed.
Print Assumptions c16_writeback_flush_race_refuted.

Theorem c16_writeback_fill_race_refuted : ~ dirty_preserved_statement.
Proof. exact fill_race_loses_writeback. Qed.
Print Assumptions c16_writeback_fill_race_refuted.

(** PARTIAL (write-back clause): every segment of every interleaving keeps each
    dirty value (still dirty with that value, or written to the backing store)
    unless it is an explicit put / delete / invalidate of that key, an
    invalidate_all, the fill of a miss of that key, or a flush write that
    captured another value.  The
    eviction inside _cache_put is covered (fix 16758b8 writes the victim back). *)
Theorem c16_writeback_preserved_partial : forall kind c b0 ins i k v, 1 <= cap c ->
  let P := pol_of kind in
  let y := srun P c (sinit P b0) ins in
  In k (dirty (st y)) -> aget k (cache (st y)) = Some v ->
  (match i_act i with
   | IStart _ o => touches k o = false
   | IResume id => match pfind id (pending y) with
                   | Some kc => cont_touches k v kc = false
                   | None => True
                   end
   end) ->
  let y' := fst (sstep P c y i) in
  (In k (dirty (st y')) /\ aget k (cache (st y')) = Some v) \/ aget k (back (st y')) = Some v.
Proof.
  intros kind c b0 ins i k v Hcap P y. apply (sstep_keeps_dirty P (all_policies_ok kind) c Hcap).
  apply srun_inv, cinv_init; exact Hcap.
Qed.
Print Assumptions c16_writeback_preserved_partial.

(** PARTIAL (read-after-write clause): for non-overlapping operations every get
    returns the last written value (None after delete): all policies, both write
    modes (write-back: without invalidations), any capacity, any oracle inputs. *)
Theorem c16_sequential_read_after_write_partial : forall kind c b0 l, 1 <= cap c -> NoDup (akeys b0) ->
  Forall (fun x => op_safe c (snd x)) l ->
  reads_ok (fun k => aget k b0) l (snd (run_seq (pol_of kind) c (cinit (pol_of kind) b0) l)).
Proof.
  intros kind c b0 l Hcap Hb. apply (sequential_reads _ (all_policies_ok kind) c Hcap), sinv_init; assumption.
Qed.
Print Assumptions c16_sequential_read_after_write_partial.

(** REFUTED (known finding C16-invalidate-dirty). *)
Theorem c16_invalidate_dirty_refuted : ~ wb_sequential_statement.
Proof. exact invalidate_dirty_refuted. Qed.
Print Assumptions c16_invalidate_dirty_refuted.

(** Soft-TTL cache, every interleaving of get / put / invalidate(_all) /
    background refresh / foreign writes to the backing store: at most
    [capacity] entries, the LRU order lists exactly the cached keys, and the
    eviction loop of _store never spins. *)
Theorem c16_soft_ttl_capacity : forall c b0 ins,
  match tcap c with Some n => 1 <= n | None => True end ->
  let s := tstt (trun c (tsinit b0) ins) in
  match tcap c with Some n => zlen (tcache s) <= n | None => True end /\
  NoDup (ekeys (tcache s)) /\ NoDup (order s) /\
  (forall x, In x (order s) <-> In x (ekeys (tcache s))) /\ stuck s = false.
Proof.
  intros c b0 ins Hcap. destruct (trun_inv c Hcap ins (tsinit b0) (tinv_init c Hcap b0)) as [Hi Hc]. exact (conj Hc Hi).
Qed.
Print Assumptions c16_soft_ttl_capacity.

(** Hard TTL (after fix e0d3822 of the coalesced-miss path): in any state, any
    segment that decides to serve a cached entry serves one younger than the
    hard TTL at that instant (fresh, stale and coalesced paths); soft_ttl <=
    hard_ttl is what the constructor checks. *)
Theorem c16_soft_ttl_hard_bound : forall c y i, soft c <= hard c ->
  match snd (tstep c y i) with Some age => age < hard c | None => True end.
Proof. exact sttl_hard_bound. Qed.
Print Assumptions c16_soft_ttl_hard_bound.

(** Soft-TTL read-after-write, every interleaving without foreign writers:
    a cached value always equals the backing-store value. *)
Theorem c16_soft_ttl_coherent : forall c b0 ins,
  match tcap c with Some n => 1 <= n | None => True end ->
  forallb own_input ins = true ->
  let s := tstt (trun c (tsinit b0) ins) in
  forall k v at_, eget k (tcache s) = Some (v, at_) -> aget k (tback s) = Some v.
Proof.
  intros c b0 ins Hcap Hown. apply (trun_coh c Hcap ins (tsinit b0) (tinv_init c Hcap b0)); [|exact Hown].
  intros k v at_ Hg. discriminate Hg.
Qed.
Print Assumptions c16_soft_ttl_coherent.

(** Multi-tier cache: both tiers within capacity, policy keys = cached keys,
    dirty keys cached — every interleaving, any two policies, any promotion. *)
Theorem c16_multitier_capacity_and_policy_keys : forall k1 k2 c b0 ins, 1 <= cap (c1 c) -> 1 <= cap (c2 c) ->
  let s := mstt (mrun (pol_of k1) (pol_of k2) c (msinit (pol_of k1) (pol_of k2) b0) ins) in
  tier_facts (cap (c1 c)) (l1 s) /\ tier_facts (cap (c2 c)) (l2 s).
Proof.
  intros k1 k2 c b0 ins Hc1 Hc2.
  destruct (mrun_inv _ _ (all_policies_ok k1) (all_policies_ok k2) c Hc1 Hc2 ins (msinit _ _ b0)) as [Ha Hb].
  - split; apply cinv_init; assumption.
  - split; eapply cinv_tier_facts; eassumption.
Qed.
Print Assumptions c16_multitier_capacity_and_policy_keys.

(** REFUTED (known finding C16-mt-stale-install): a multi-tier get that was in
    flight across a delete installs the deleted value in tier 1. *)
Theorem c16_multitier_stale_install_refuted : ~ mt_read_after_delete_statement.
Proof. exact mt_stale_install_refuted. Qed.
Print Assumptions c16_multitier_stale_install_refuted.

(** PageCache (modelled; capacity only): within capacity and exception-free for
    every sequence of non-overlapping read_page / write_page / flush. *)
Theorem c16_pagecache_sequential_capacity_partial : forall c l, 1 <= pcap c -> sequential c psinit l ->
  let y := prun c psinit l in
  zlen (pages (pstt y)) <= pcap c /\ perr (pstt y) = false.
Proof.
  intros c l Hcap Hs. destruct (prun_ok c Hcap l psinit (sys_ok_init c Hcap) Hs) as [[He _] Hl]. exact (conj Hl He).
Qed.
Print Assumptions c16_pagecache_sequential_capacity_partial.

(** REFUTED (known finding C16-pagecache-overlap): overlapping loads exceed the
    capacity; a load overwrites a dirty page without write-back. *)
Theorem c16_pagecache_overlap_capacity_refuted : ~ pagecache_capacity_statement.
Proof. exact pagecache_overlap_capacity_refuted. Qed.
Print Assumptions c16_pagecache_overlap_capacity_refuted.

Theorem c16_pagecache_dirty_overwritten_refuted : ~ pagecache_dirty_statement.
Proof. exact pagecache_load_overwrites_dirty_refuted. Qed.
Print Assumptions c16_pagecache_dirty_overwritten_refuted.

(** write_policies.WriteBack tracks exactly the keys written and not flushed since. *)
Theorem c16_writeback_policy_tracks : forall m ops k,
  In k (wdirty (wrun (WBack m) ops)) <-> pending_write k ops false = true.
Proof.
  intros m ops k. apply (wb_tracks_from m k ops {| wdirty := []; winval := [] |} false); cbn; [constructor|].
  split; [tauto|discriminate].
Qed.
Print Assumptions c16_writeback_policy_tracks.

(** LRUEviction (an OrderedDict used as an ordered set) and FIFOEviction (a list) of
    components/datastore/eviction_policies.py, as REGENERATED from the source on every run
    (Gen/EvictionGen.v): every method — on_access, on_insert, on_remove, evict, clear — acts on the
    tracked keys exactly as the model policies [lru] / [fifo] (the policies the capacity / tracked-key
    theorems above quantify over), returns what they return, and never raises.  For any object state
    (the dict's values are never read). *)
Theorem c16_code_lru_fifo_refine_model : forall (q : LRUEviction) (f : FIFOEviction) k now dr,
  (dkeys (LRUEviction__order (fst (LRUEviction_on_access q k))) = C16.Model.p_access C16.Model.lru k (dkeys (LRUEviction__order q))
   /\ dkeys (LRUEviction__order (fst (LRUEviction_on_insert q k))) = C16.Model.p_insert C16.Model.lru now k (dkeys (LRUEviction__order q))
   /\ dkeys (LRUEviction__order (fst (LRUEviction_on_remove q k))) = C16.Model.p_remove C16.Model.lru k (dkeys (LRUEviction__order q))
   /\ (exists q' r, LRUEviction_evict q = Some (q', r)
         /\ (r, dkeys (LRUEviction__order q'), dr) = C16.Model.p_evict C16.Model.lru now dr (dkeys (LRUEviction__order q)))
   /\ dkeys (LRUEviction__order (fst (LRUEviction_clear q))) = C16.Model.p_clear C16.Model.lru (dkeys (LRUEviction__order q)))
  /\ (FIFOEviction__order (fst (FIFOEviction_on_access f k)) = C16.Model.p_access C16.Model.fifo k (FIFOEviction__order f)
      /\ FIFOEviction__order (fst (FIFOEviction_on_insert f k)) = C16.Model.p_insert C16.Model.fifo now k (FIFOEviction__order f)
      /\ FIFOEviction__order (fst (FIFOEviction_on_remove f k)) = C16.Model.p_remove C16.Model.fifo k (FIFOEviction__order f)
      /\ (exists f' r, FIFOEviction_evict f = Some (f', r)
            /\ (r, FIFOEviction__order f', dr) = C16.Model.p_evict C16.Model.fifo now dr (FIFOEviction__order f))
      /\ FIFOEviction__order (fst (FIFOEviction_clear f)) = C16.Model.p_clear C16.Model.fifo (FIFOEviction__order f)).
Proof. intros q f k now dr. exact (conj (tie_lru q k now dr) (tie_fifo f k now dr)). Qed.
Print Assumptions c16_code_lru_fifo_refine_model.

(** LFUEviction AS TRANSLATED (the [_counts] dict, the write-only [_min_count]; evict = [min] over the
    counts, then a loop over the items that deletes and returns the first key with that count — a
    [return] inside a loop over the container it has just modified): every method acts on
    (counts, min_count) exactly as the model policy [lfu], returns what it returns, and never raises. *)
Theorem c16_code_lfu_refines_model : forall (q : LFUEviction) k now dr,
  (exists q', LFUEviction_on_access q k = Some (q', tt) /\ lfu_st q' = C16.Model.p_access C16.Model.lfu k (lfu_st q))
  /\ lfu_st (fst (LFUEviction_on_insert q k)) = C16.Model.p_insert C16.Model.lfu now k (lfu_st q)
  /\ lfu_st (fst (LFUEviction_on_remove q k)) = C16.Model.p_remove C16.Model.lfu k (lfu_st q)
  /\ (exists q' r, LFUEviction_evict q = Some (q', r) /\ (r, lfu_st q', dr) = C16.Model.p_evict C16.Model.lfu now dr (lfu_st q))
  /\ lfu_st (fst (LFUEviction_clear q)) = C16.Model.p_clear C16.Model.lfu (lfu_st q).
Proof. exact tie_lfu. Qed.
Print Assumptions c16_code_lfu_refines_model.
