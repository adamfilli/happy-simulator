(** Property C05 — partitioned parallel execution.  Proved for ALL scripts,
    partitionings, link sets, window sequences whose gaps do not exceed any
    link's minimum latency, and fuel:
    no cross-partition event is ever scheduled into the past of its destination
    (hence none is discarded as "time travel"); partitions stay inside their
    window; delivering an outbox entry at the barrier schedules it exactly once;
    partitions without links are separate simulations.
    The trace-equivalence clause ("same deliveries per entity as the sequential
    run, up to same-timestamp order") is NOT proved: it is checked on the
    implementation by the oracle of harness/props/c05.py. *)
From HS Require Import Base.Prelude Engine.Engine Engine.Script Engine.Parallel Engine.ParallelScript
  Engine.ParallelProofs.
From HS Require Engine.ScriptProofs.
Local Open Scope Z_scope.

(** After any completed coordinated run, in every partition: (1) every event
    received from another partition was scheduled at or after the destination's
    clock (recorded as such), and (2) every event ever discarded as being in the
    past has a record of having been scheduled earlier than the clock of its
    scheduling.  A received event is therefore never discarded as past. *)
Theorem c05_no_cross_event_in_the_past : forall fuel start p pmap links pres w wends ps',
  windows_ok (link_of links) start (w :: wends) ->
  par_loop invoke_script (part_of_script pmap) (link_of links) fuel (w :: wends) (par_init start p pres) = PFinished ps' ->
  forall q, In q ps' ->
    (forall x at_, In (x, at_) (ps_recv q) -> at_ <= ev_time x /\ In (x, at_) (pushed (ps_st q))) /\
    (forall e c, In (e, c, SkippedPast) (log (ps_st q)) -> exists at_, In (e, at_) (pushed (ps_st q)) /\ ev_time e < at_).
Proof.
  intros fuel start p pmap links pres w wends ps' Hok H q Hq.
  assert (Hs : Forall (Safe pay ustate) ps').
  { eapply par_loop_safe; [exact Hok| |exact H]. apply Forall_map, Forall_forall. intros pre _.
    apply start_pinv; [apply inv_winv, ScriptProofs.script_init_inv|apply ScriptProofs.script_init_clock|apply Hok]. }
  rewrite Forall_forall in Hs. destruct (Hs q Hq) as [W Hr]. split; [exact Hr|apply (w_past _ _ _ W)].
Qed.
Print Assumptions c05_no_cross_event_in_the_past.

(** A partition that enters a window inside it leaves it inside it, with every
    waiting event at or after the window end (nothing beyond the boundary was
    delivered). *)
Theorem c05_partition_stays_in_window : forall fuel me wprev wend pmap links (q q' : @pstate pay ustate),
  wprev <= wend -> PInv pay ustate wprev wend q ->
  run_window invoke_script (part_of_script pmap) (link_of links) fuel me wend q = WStopped q' ->
  clock (ps_st q') <= wend /\ (forall x, In x (heap (ps_st q')) -> wend <= ev_time x).
Proof.
  intros fuel me wprev wend pmap links q q' Hw I H.
  destruct (run_window_ready pay ustate invoke_script (part_of_script pmap) (link_of links) fuel me wprev wend q q' I H)
    as [(_ & Hc & Hh) _]. split; assumption.
Qed.
Print Assumptions c05_partition_stays_in_window.

(** One step of the barrier: delivering a validated outbox entry whose
    destination partition exists schedules it exactly once (the number of
    events ever scheduled, summed over the partitions, grows by one) and
    leaves the number of partitions as it is. *)
Theorem c05_exchange_schedules_each_entry_once : forall pmap links src (ps ps' : list (@pstate pay ustate)) x,
  (Z.to_nat (part_of_script pmap (fst x)) < length ps)%nat ->
  deliver_one (part_of_script pmap) (link_of links) src (Some ps) x = Some ps' ->
  total_pushed pay ustate ps' = total_pushed pay ustate ps + 1 /\ length ps' = length ps.
Proof.
  intros pmap links src ps ps' [e sent] Hn H. cbn [fst] in Hn. apply deliver_one_some in H as (_ & _ & _ & ->).
  split; [apply total_pushed_upd; exact Hn|apply upd_nth_length].
Qed.
Print Assumptions c05_exchange_schedules_each_entry_once.

(** Independent partitions (no links) are exactly separate simulations. *)
Theorem c05_unlinked_partitions_are_separate_runs : forall fuel start end_ns p pmap pres wends ps',
  par_run fuel start end_ns p pmap [] pres wends = PFinished ps' ->
  map (fun q => ps_st q) ps' = map (fun pre => out_state (script_run fuel start (Some end_ns) p pre)) pres.
Proof.
  intros fuel start end_ns p pmap pres wends ps'. unfold par_run, par_init. rewrite !map_map.
  destruct (forallb _ _); [|destruct (existsb _ _); discriminate].
  intros H; inversion H; subst. rewrite !map_map. reflexivity.
Qed.
Print Assumptions c05_unlinked_partitions_are_separate_runs.

(** Non-vacuity: two partitions, latency 100 ms, window 100 ms; partition 1 is
    idle with a local event at 350 ms while partition 0 sends it a message for
    150 ms (the case the unrepaired loop dropped as time travel). *)
Example c05_example :
  let p := [[(0, BImm [AEmit (mkEmit (mkEmit0 100000000 1 1 false) (-1) [])])]; [(0, BImm []); (1, BImm [])]] in
  let pres := [[mkPre 50000000 (mkEmit (mkEmit0 0 0 0 false) (-1) []) false];
               [mkPre 350000000 (mkEmit (mkEmit0 0 1 0 false) (-1) []) false]] in
  match par_run 100 0 1000000000 p [0; 1] [(0, 1, 100000000)] pres
                [100000000; 200000000; 300000000; 400000000] with
  | PFinished ps => map (fun q => deliveries_of (ps_st q)) ps
                    = [[(50000000, 0, 0, 0)]; [(150000000, 1, 1, 0); (350000000, 0, 1, 0)]]
  | _ => False
  end.
Proof. vm_compute. reflexivity. Qed.
