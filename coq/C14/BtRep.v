(** C14 — B-tree (btree.py): representation predicate of the heap model, its
    frame and key-bound lemmas, and lookup in a leaf.
    [rep h d id lo hi kvs fp]: node [id] of heap [h] is the root of a
    subtree of height [d] whose keys lie in [lo, hi), whose in-order contents
    are [kvs], and which occupies exactly the heap cells [fp] (each once). *)
From HS Require Import Base.Prelude C14.BtModel C14.LsmProofs.
Local Open Scope Z_scope.

Definition bnd := option Z.
Definition lo_ok (lo : bnd) (k : Z) : Prop := match lo with None => True | Some l => l <= k end.
Definition hi_ok (hi : bnd) (k : Z) : Prop := match hi with None => True | Some x => k < x end.
Definition hi_le (hi : bnd) (k : Z) : Prop := match hi with None => True | Some x => k <= x end.

(** strictly increasing keys within [lo, hi) *)
Fixpoint keys_in (lo hi : bnd) (ks : list Z) : Prop :=
  match ks with
  | [] => True
  | k :: r => lo_ok lo k /\ hi_ok hi k /\ keys_in (Some (k + 1)) hi r
  end.

Definition disj (a b : list Z) : Prop := forall x, In x a -> ~ In x b.

Inductive rep (h : list (Z * bnode)) : nat -> Z -> bnd -> bnd -> list (Z * Z) -> list Z -> Prop :=
| rep_leaf id lo hi :
    b_leaf (hget id h) = true -> length (b_vals (hget id h)) = length (b_keys (hget id h)) ->
    keys_in lo hi (b_keys (hget id h)) ->
    rep h 1 id lo hi (combine (b_keys (hget id h)) (b_vals (hget id h))) [id]
| rep_node d id lo hi kvs fp :
    b_leaf (hget id h) = false ->
    reps h d (b_kids (hget id h)) (b_keys (hget id h)) lo hi kvs fp -> ~ In id fp ->
    rep h (S d) id lo hi kvs (id :: fp)
with reps (h : list (Z * bnode)) : nat -> list Z -> list Z -> bnd -> bnd -> list (Z * Z) -> list Z -> Prop :=
| reps_one d c lo hi kvs fp : rep h d c lo hi kvs fp -> reps h d [c] [] lo hi kvs fp
| reps_cons d c cs k ks lo hi kvs1 fp1 kvs2 fp2 :
    rep h d c lo (Some k) kvs1 fp1 -> reps h d cs ks (Some k) hi kvs2 fp2 ->
    lo_ok lo k -> hi_le hi k -> disj fp1 fp2 ->
    reps h d (c :: cs) (k :: ks) lo hi (kvs1 ++ kvs2) (fp1 ++ fp2).

Scheme rep_ind2 := Induction for rep Sort Prop
  with reps_ind2 := Induction for reps Sort Prop.
Combined Scheme rep_reps_ind from rep_ind2, reps_ind2.

Lemma rep_leaf_at {h id lo hi ks vs kids} :
  hget id h = mkNode true ks vs kids -> length vs = length ks -> keys_in lo hi ks ->
  rep h 1 id lo hi (combine ks vs) [id].
Proof. intros G E K. pose proof (rep_leaf h id lo hi) as X. rewrite G in X. apply X; [reflexivity|exact E|exact K]. Qed.

Lemma rep_node_at {h d id lo hi kvs fp ks vs kids} :
  hget id h = mkNode false ks vs kids -> reps h d kids ks lo hi kvs fp -> ~ In id fp ->
  rep h (S d) id lo hi kvs (id :: fp).
Proof. intros G R N. apply rep_node; [rewrite G; reflexivity|rewrite G; exact R|exact N]. Qed.

Lemma rep_leaf_inv {h d id lo hi kvs fp} : rep h d id lo hi kvs fp -> b_leaf (hget id h) = true ->
  d = 1%nat /\ kvs = combine (b_keys (hget id h)) (b_vals (hget id h)) /\ fp = [id] /\
  length (b_vals (hget id h)) = length (b_keys (hget id h)) /\ keys_in lo hi (b_keys (hget id h)).
Proof. intros R L. destruct R; [auto|congruence]. Qed.

Lemma rep_node_inv {h d id lo hi kvs fp} : rep h d id lo hi kvs fp -> b_leaf (hget id h) = false ->
  exists d' fp', d = S d' /\ fp = id :: fp' /\ ~ In id fp' /\
                 reps h d' (b_kids (hget id h)) (b_keys (hget id h)) lo hi kvs fp'.
Proof. intros R L. destruct R as [|d' ? ? ? ? fp']; [congruence|]. exists d', fp'. auto. Qed.

Lemma rep_root_in {h d id lo hi kvs fp} : rep h d id lo hi kvs fp -> In id fp.
Proof. intros R; destruct R; left; reflexivity. Qed.

Lemma reps_length {h d cs ks lo hi kvs fp} : reps h d cs ks lo hi kvs fp -> length cs = S (length ks).
Proof. induction 1; cbn; auto. Qed.

Lemma lo_ok_weaken lo lo' k : (forall x, lo_ok lo x -> lo_ok lo' x) -> lo_ok lo k -> lo_ok lo' k.
Proof. auto. Qed.

Lemma lo_ok_le lo a b : lo_ok lo a -> a <= b -> lo_ok lo b.
Proof. destruct lo; cbn; lia. Qed.

Lemma hi_ok_lt hi a b : hi_le hi b -> a < b -> hi_ok hi a.
Proof. destruct hi; cbn; lia. Qed.

Lemma hi_le_le hi a b : hi_le hi b -> a <= b -> hi_le hi a.
Proof. destruct hi; cbn; lia. Qed.

Lemma hi_le_of_ok hi k : hi_ok hi k -> hi_le hi k.
Proof. destruct hi; cbn; lia. Qed.

Lemma keys_in_lo lo lo' hi ks : (forall x, lo_ok lo x -> lo_ok lo' x) -> keys_in lo hi ks -> keys_in lo' hi ks.
Proof. destruct ks as [|k r]; cbn; [auto|]. intros H (A & B & C). auto. Qed.

Lemma keys_in_tail lo hi x r : lo_ok lo x -> keys_in (Some (x + 1)) hi r -> keys_in lo hi r.
Proof. intros A. apply keys_in_lo. intros y Hy. apply (lo_ok_le lo x); [exact A|cbn in Hy; lia]. Qed.

Lemma keys_in_all {lo hi ks} : keys_in lo hi ks -> forall k, In k ks -> lo_ok lo k /\ hi_ok hi k.
Proof.
  revert lo; induction ks as [|x r IH]; intros lo H k []; cbn in H; destruct H as (A & B & C).
  - subst. auto.
  - apply (IH lo); [apply (keys_in_tail lo hi x r A C)|assumption].
Qed.

Lemma keys_in_glue lo hi k a b : keys_in lo (Some k) a -> keys_in (Some k) hi b -> lo_ok lo k -> hi_le hi k -> keys_in lo hi (a ++ b).
Proof.
  intros A B L H. revert lo A L; induction a as [|x r IH]; intros lo A L; cbn [app].
  - apply (keys_in_lo (Some k)); [|exact B]. intros y Hy. apply (lo_ok_le lo k); assumption.
  - destruct A as (A1 & A2 & A3). cbn in A2. split; [exact A1|]. split; [apply (hi_ok_lt hi x k); assumption|].
    apply IH; [exact A3|cbn; lia].
Qed.

Lemma disj_sym a b : disj a b -> disj b a.
Proof. intros D x Hb Ha. exact (D x Ha Hb). Qed.

Lemma disj_app_r a b c : disj a (b ++ c) <-> disj a b /\ disj a c.
Proof.
  split.
  - intros D. split; intros x Ha Hx; apply (D x Ha), in_or_app; [left|right]; exact Hx.
  - intros [D1 D2] x Ha Hx. apply in_app_or in Hx as [Hx|Hx]; [exact (D1 x Ha Hx)|exact (D2 x Ha Hx)].
Qed.

Lemma disj_app_l a b c : disj (a ++ b) c <-> disj a c /\ disj b c.
Proof.
  split.
  - intros D. split; intros x Hx; apply D, in_or_app; [left|right]; exact Hx.
  - intros [D1 D2] x Hx. apply in_app_or in Hx as [Hx|Hx]; [exact (D1 x Hx)|exact (D2 x Hx)].
Qed.

Lemma rep_reps_frame h h' :
  (forall d id lo hi kvs fp, rep h d id lo hi kvs fp -> (forall x, In x fp -> hget x h' = hget x h) -> rep h' d id lo hi kvs fp) /\
  (forall d cs ks lo hi kvs fp, reps h d cs ks lo hi kvs fp -> (forall x, In x fp -> hget x h' = hget x h) -> reps h' d cs ks lo hi kvs fp).
Proof.
  apply rep_reps_ind.
  - intros id lo hi L E K F. revert L E K. rewrite <- (F id (or_introl eq_refl)). apply rep_leaf.
  - intros d id lo hi kvs fp L R IH N F. apply rep_node; [rewrite (F id (or_introl eq_refl)); exact L| |exact N].
    rewrite (F id (or_introl eq_refl)). apply IH. intros x Hx. apply F. right. exact Hx.
  - intros d c lo hi kvs fp R IH F. apply reps_one, IH, F.
  - intros d c cs k ks lo hi kvs1 fp1 kvs2 fp2 R1 IH1 R2 IH2 A B D F. apply reps_cons; auto.
    + apply IH1. intros x Hx. apply F, in_or_app. left. exact Hx.
    + apply IH2. intros x Hx. apply F, in_or_app. right. exact Hx.
Qed.

Definition rep_frame h h' := proj1 (rep_reps_frame h h').
Definition reps_frame h h' := proj2 (rep_reps_frame h h').

Lemma hget_hset_same id n h : hget id (hset id n h) = n.
Proof. induction h as [|[i x] r IH]; cbn; [rewrite Z.eqb_refl; reflexivity|]. destruct (i =? id) eqn:E; cbn; rewrite E; auto. Qed.

Lemma hget_hset_other id id' n h : id' <> id -> hget id' (hset id n h) = hget id' h.
Proof.
  intros Hne. induction h as [|[i x] r IH]; cbn.
  - replace (id =? id') with false by lia. reflexivity.
  - destruct (i =? id) eqn:E; cbn.
    + apply Z.eqb_eq in E. subst i. replace (id =? id') with false by lia. reflexivity.
    + destruct (i =? id'); auto.
Qed.

Lemma map_fst_combine (ks vs : list Z) : length vs = length ks -> map fst (combine ks vs) = ks.
Proof. revert vs; induction ks as [|k r IH]; intros [|v vs] H; cbn in *; try lia; [reflexivity|]. f_equal. apply IH. lia. Qed.

Lemma rep_reps_keys h :
  (forall d id lo hi kvs fp, rep h d id lo hi kvs fp -> keys_in lo hi (map fst kvs)) /\
  (forall d cs ks lo hi kvs fp, reps h d cs ks lo hi kvs fp -> keys_in lo hi (map fst kvs)).
Proof.
  apply rep_reps_ind.
  - intros id lo hi L E K. rewrite map_fst_combine by exact E. exact K.
  - auto.
  - auto.
  - intros d c cs k ks lo hi kvs1 fp1 kvs2 fp2 R1 IH1 R2 IH2 A B D. rewrite map_app. apply (keys_in_glue lo hi k); auto.
Qed.

Lemma rep_keys {h d id lo hi kvs fp} : rep h d id lo hi kvs fp -> keys_in lo hi (map fst kvs).
Proof. apply (proj1 (rep_reps_keys h)). Qed.

Lemma rep_key_bounds {h d id lo hi kvs fp y} : rep h d id lo hi kvs fp -> In y (map fst kvs) -> lo_ok lo y /\ hi_ok hi y.
Proof. intros R. apply keys_in_all, (rep_keys R). Qed.

Lemma reps_key_bounds {h d cs ks lo hi kvs fp y} : reps h d cs ks lo hi kvs fp -> In y (map fst kvs) -> lo_ok lo y /\ hi_ok hi y.
Proof. intros R. apply keys_in_all, (proj2 (rep_reps_keys h) _ _ _ _ _ _ _ R). Qed.

Definition kid_for (n : bnode) (k : Z) : Z := nth (bisect_right (b_keys n) k) (b_kids n) (-1).

(** the leaf test of get / put / delete: [idx < len(keys) and keys[idx] == key] *)
Definition found (ks : list Z) (k : Z) : bool :=
  (bisect_left ks k <? length ks)%nat && (nth (bisect_left ks k) ks 0 =? k).

Lemma found_cons_lt x r k : x < k -> found (x :: r) k = found r k.
Proof. intros H. unfold found. cbn [bisect_left]. replace (x <? k) with true by lia. reflexivity. Qed.

Lemma found_cons_ge x r k : k <= x -> found (x :: r) k = (x =? k).
Proof. intros H. unfold found. cbn [bisect_left]. replace (x <? k) with false by lia. reflexivity. Qed.

Lemma alookup_none_above hi x k ks (vs : list Z) : keys_in (Some (x + 1)) hi ks -> length vs = length ks -> k <= x ->
  alookup k (combine ks vs) = None.
Proof.
  intros K E H. apply alookup_none_keys. rewrite map_fst_combine by exact E. intros X.
  destruct (keys_in_all K k X) as [Q _]. cbn in Q. lia.
Qed.

Lemma leaf_lookup_alookup lo hi ks (vs : list Z) k : keys_in lo hi ks -> length vs = length ks ->
  (if found ks k then Some (nth (bisect_left ks k) vs 0) else None) = alookup k (combine ks vs).
Proof.
  revert lo vs; induction ks as [|x r IH]; intros lo vs K E; [reflexivity|].
  destruct vs as [|v vr]; [discriminate|]. injection E as E. destruct K as (A & B & C). cbn [combine alookup].
  destruct (x <? k) eqn:E1.
  - rewrite found_cons_lt by lia. cbn [bisect_left]. rewrite E1. replace (k =? x) with false by lia. apply (IH _ _ C E).
  - rewrite found_cons_ge by lia. cbn [bisect_left]. rewrite E1, (Z.eqb_sym x k). destruct (k =? x); [reflexivity|].
    symmetry. apply (alookup_none_above hi x); [exact C|exact E|lia].
Qed.
