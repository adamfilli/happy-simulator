(** C17 — chain replication: convergence under reordering and CRAQ clean reads
    are refuted on the faithful model (witnesses replayed on the implementation
    by corpus/C17/chain.reorder.json and chain.craq_clean_uncommitted.json). *)
From HS Require Import Base.Prelude C17.Model C17.PBConv C17.Chain.
Local Open Scope Z_scope.

Definition chain_converged (c : ccfg) (s : cstate) : Prop :=
  forall i, In i (cnodes c) -> forall k, dget k (n_store (k_node s i)) = dget k (n_store (k_node s 0)).

Definition chain_convergence_statement : Prop :=
  forall c sched s, (2 <= cc_n c)%nat -> crun c cinit sched = Some s -> cquiescent s -> chain_converged c s.

Definition cquiescent_b (s : cstate) : bool :=
  match k_net s, k_procs s with [], [] => true | _, _ => false end.

Definition cdiverged_b (c : ccfg) (s : cstate) : bool :=
  existsb (fun i => existsb (fun k => negb (oz_eqb (dget k (n_store (k_node s i))) (dget k (n_store (k_node s 0)))))
                            (map fst (n_store (k_node s 0)))) (cnodes c).

Definition cdiverges (c : ccfg) (sched : list cinp) : bool :=
  (2 <=? cc_n c)%nat &&
  match crun c cinit sched with Some s => cquiescent_b s && cdiverged_b c s | None => false end.

Lemma cquiescent_b_spec s : cquiescent_b s = true -> cquiescent s.
Proof.
  unfold cquiescent_b, cquiescent. destruct (k_net s); [|discriminate]. destruct (k_procs s); [auto|discriminate].
Qed.

Lemma cdiverges_refutes c sched : cdiverges c sched = true -> ~ chain_convergence_statement.
Proof.
  unfold cdiverges. intros D H. apply andb_true_iff in D. destruct D as [N D]. apply Nat.leb_le in N.
  destruct (crun c cinit sched) as [s|] eqn:Hr; [|discriminate].
  apply andb_true_iff in D. destruct D as [Q D]. apply existsb_exists in D. destruct D as (i & Hi & D).
  destruct (differ_spec _ _ _ D) as [k Hk]. exact (Hk (H c sched s N Hr (cquiescent_b_spec s Q) i Hi k)).
Qed.

Definition cwit_cfg : ccfg := {| cc_n := 2; cc_craq := false; cc_wlat := [2000; 2000]; cc_rlat := [500; 500] |}.

(** two writes to key 0; the Propagate of the second overtakes the first *)
Definition cwit_sched : list cinp :=
  [ CStart 0 (CWrite 101 0 101 true); CStart 0 (CWrite 102 0 102 true);
    CResume 0; CResume 1; CResume 0; CResume 1;
    CStart 1 (CProp 1 0 102 2); CResume 2;
    CStart 1 (CProp 1 0 101 1); CResume 3;
    CResume 2; CResume 3; CStart 0 (CAck 0 2); CStart 0 (CAck 0 1);
    CResume 0; CResume 1 ].

Lemma cwit_diverges : cdiverges cwit_cfg cwit_sched = true.
Proof. vm_compute. reflexivity. Qed.

(** CRAQ: "a read never returns a value not yet committed at the tail": whenever
    a handler segment resolves a read with value v, v has been applied at the tail. *)
Definition craq_read_statement : Prop :=
  forall c sched s pid s' o y, (2 <= cc_n c)%nat ->
    crun c cinit sched = Some s -> cresume c s pid = Some (s', o, y) ->
    forall rid v, In (COReadReply rid (Some v)) o ->
    exists sq k, In (sq, k, v) (n_log (k_node s' (tail_of c))).

Definition uncommitted_reply (c : ccfg) (s' : cstate) (o : cout) : bool :=
  match o with
  | COReadReply _ (Some v) => negb (existsb (fun e => snd e =? v) (n_log (k_node s' (tail_of c))))
  | _ => false
  end.

Definition craq_violates (c : ccfg) (sched : list cinp) (pid : Z) : bool :=
  (2 <=? cc_n c)%nat &&
  match crun c cinit sched with
  | Some s => match cresume c s pid with
              | Some (s', o, _) => existsb (uncommitted_reply c s') o
              | None => false
              end
  | None => false
  end.

Lemma craq_violates_refutes c sched pid : craq_violates c sched pid = true -> ~ craq_read_statement.
Proof.
  unfold craq_violates. intros D H. apply andb_true_iff in D. destruct D as [N D]. apply Nat.leb_le in N.
  destruct (crun c cinit sched) as [s|] eqn:Hr; [|discriminate].
  destruct (cresume c s pid) as [[[s' o] y]|] eqn:Hs; [|discriminate].
  apply existsb_exists in D. destruct D as (x & Hin & D).
  destruct x as [| | | |rid [v|]]; try discriminate. cbn in D.
  destruct (H c sched s pid s' o y N Hr Hs rid v Hin) as (sq & k & Hl).
  apply negb_true_iff in D. rewrite <- not_true_iff_false in D. apply D.
  apply existsb_exists. exists (sq, k, v). split; [exact Hl|cbn; apply Z.eqb_refl].
Qed.

Definition qwit_cfg : ccfg :=
  {| cc_n := 3; cc_craq := true; cc_wlat := [1000; 1000; 1000]; cc_rlat := [500; 500; 500] |}.

(** write 101 commits; write 102 has reached node 1 only; CommitNotify of 101
    cleans key 0 at node 1; a read at node 1 is served locally *)
Definition qwit_sched : list cinp :=
  [ CStart 0 (CWrite 101 0 101 true); CResume 0; CResume 0;
    CStart 1 (CProp 1 0 101 1); CResume 1; CResume 1;
    CStart 2 (CProp 2 0 101 1); CResume 2; CResume 2; CResume 2;
    CStart 0 (CWrite 102 0 102 true); CResume 3; CResume 3;
    CStart 1 (CProp 1 0 102 2); CResume 4;
    CStart 1 (CCommit 1 0 1);
    CStart 1 (CRead 103 0 true) ].

Lemma qwit_violates : craq_violates qwit_cfg qwit_sched 6 = true.
Proof. vm_compute. reflexivity. Qed.

(** second witness (different mechanism): the dirty mark is tested before
    store.get; a write applied during the read latency is returned uncommitted *)
Definition qwit2_cfg : ccfg := {| cc_n := 2; cc_craq := true; cc_wlat := [3000; 5000]; cc_rlat := [1000; 1500] |}.
Definition qwit2_sched : list cinp :=
  [ CStart 0 (CWrite 100 0 100 true); CStart 0 (CRead 102 0 true); CResume 0 ].

Theorem craq_check_then_read_witness : craq_violates qwit2_cfg qwit2_sched 1 = true.
Proof. vm_compute. reflexivity. Qed.
