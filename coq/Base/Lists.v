(** Facts about lists, folds and strongly sorted lists that are not about any one
    model; each is used by the proofs of at least two of the directories. *)
From HS Require Import Base.Prelude.
From Coq Require Import Sorting.Sorted.
Local Open Scope Z_scope.

Lemma In_firstn {A} k (x : A) l : In x (firstn k l) -> In x l.
Proof. intros H. rewrite <- (firstn_skipn k l). apply in_or_app. left. exact H. Qed.

Lemma In_skipn {A} k (x : A) l : In x (skipn k l) -> In x l.
Proof. intros H. rewrite <- (firstn_skipn k l). apply in_or_app. right. exact H. Qed.

Lemma firstn_S_nth {A} (l : list A) n x : nth_error l n = Some x -> firstn (S n) l = firstn n l ++ [x].
Proof.
  revert l; induction n as [|n IH]; intros [|y l] H; try discriminate; cbn in *.
  - inversion H; reflexivity.
  - f_equal. apply IH, H.
Qed.

Lemma nth_error_app_last {A} (l : list A) x : nth_error (l ++ [x]) (length l) = Some x.
Proof. rewrite nth_error_app2 by lia. rewrite Nat.sub_diag. reflexivity. Qed.

Lemma NoDup_app_iff {A} (a b : list A) :
  NoDup (a ++ b) <-> NoDup a /\ NoDup b /\ (forall x, In x a -> ~ In x b).
Proof.
  induction a as [|x a IH]; cbn.
  - split; [intros H; repeat split; auto; constructor|tauto].
  - split.
    + intros H. inversion H as [|? ? Hn Hd]; subst. apply IH in Hd as (Ha & Hb & Hx).
      repeat split; auto.
      * constructor; auto. intros Hi. apply Hn, in_or_app. auto.
      * intros y [->|Hy]; [intros Hi; apply Hn, in_or_app; auto|auto].
    + intros (Ha & Hb & Hx). inversion Ha as [|? ? Hn Hd]; subst. constructor.
      * intros Hi. apply in_app_or in Hi as [Hi|Hi]; [auto|]. exact (Hx x (or_introl eq_refl) Hi).
      * apply IH. repeat split; auto.
Qed.

Lemma NoDup_snoc {A} (l : list A) x : NoDup l -> ~ In x l -> NoDup (l ++ [x]).
Proof. intros H Hx. apply (NoDup_Add (Add_app x l [])). rewrite app_nil_r. split; assumption. Qed.

Lemma fold_left_inv {S O} (f : S -> O -> S) (P : S -> Prop) :
  (forall s o, P s -> P (f s o)) -> forall l s, P s -> P (fold_left f l s).
Proof. intros Hf l; induction l as [|o l IH]; intros s H; cbn; [exact H|apply IH, Hf, H]. Qed.

Lemma ss_app {A} (R : A -> A -> Prop) l1 l2 :
  StronglySorted R (l1 ++ l2) <->
  StronglySorted R l1 /\ StronglySorted R l2 /\ forall a b, In a l1 -> In b l2 -> R a b.
Proof.
  induction l1 as [|x l1 IH]; cbn.
  - split; [intros H; repeat split; [constructor|exact H|intros a b []]|intros (_ & H & _); exact H].
  - split.
    + intros H. apply StronglySorted_inv in H. destruct H as [H1 H2]. apply IH in H1. destruct H1 as (A1 & B & C).
      rewrite Forall_app in H2. destruct H2 as [F1 F2]. repeat split; [constructor; assumption|exact B|].
      intros a b [<-|Ha] Hb; [rewrite Forall_forall in F2; auto|auto].
    + intros (A1 & B & C). apply StronglySorted_inv in A1. destruct A1 as [A1 A2]. constructor.
      * apply IH. repeat split; [exact A1|exact B|intros a b Ha Hb; apply C; [now right|exact Hb]].
      * apply Forall_app. split; [exact A2|]. apply Forall_forall. intros b Hb. apply C; [now left|exact Hb].
Qed.

Lemma ss_snoc {A} (R : A -> A -> Prop) l x :
  StronglySorted R l -> Forall (fun y => R y x) l -> StronglySorted R (l ++ [x]).
Proof.
  intros S F. apply ss_app. split; [exact S|]. split; [repeat constructor|].
  intros a b Ha [<-|[]]. rewrite Forall_forall in F. apply F, Ha.
Qed.

Lemma ss_NoDup {A} (R : A -> A -> Prop) l : (forall a, ~ R a a) -> StronglySorted R l -> NoDup l.
Proof.
  intros Hirr. induction 1 as [|a l Hs IH Hall]; constructor; [|exact IH].
  intros Hin. rewrite Forall_forall in Hall. exact (Hirr _ (Hall _ Hin)).
Qed.

Lemma filter_all_true {A} (f : A -> bool) l : (forall x, In x l -> f x = true) -> filter f l = l.
Proof.
  induction l as [|y l IH]; intros H; cbn; [reflexivity|].
  rewrite (H y (or_introl eq_refl)), IH; [reflexivity|]. intros x Hx. apply H. right. exact Hx.
Qed.

Lemma filter_length_le {A} (f : A -> bool) l : (length (filter f l) <= length l)%nat.
Proof. induction l as [|x l IH]; cbn; [lia|]. destruct (f x); cbn; lia. Qed.

Lemma existsb_eqb_In (k : Z) l : existsb (Z.eqb k) l = true <-> In k l.
Proof.
  rewrite existsb_exists. split.
  - intros (y & Hy & E). apply Z.eqb_eq in E. congruence.
  - intros H. exists k. split; [exact H|apply Z.eqb_refl].
Qed.

Lemma NoDup_incl_meet (l a b : list Z) :
  NoDup a -> NoDup b -> incl a l -> incl b l -> (length l < length a + length b)%nat ->
  exists v, In v a /\ In v b.
Proof.
  intros Ha Hb Ia Ib Hlen.
  destruct (existsb (fun v => existsb (Z.eqb v) b) a) eqn:E.
  - apply existsb_exists in E. destruct E as (v & Hv & Hm). apply existsb_eqb_In in Hm. eauto.
  - exfalso.
    assert (D : forall x, In x a -> ~ In x b).
    { intros x Hx Hxb. assert (existsb (fun v => existsb (Z.eqb v) b) a = true); [|congruence].
      apply existsb_exists. exists x. split; [exact Hx|apply existsb_eqb_In, Hxb]. }
    assert (ND : NoDup (a ++ b)) by (apply NoDup_app_iff; auto).
    assert (I : incl (a ++ b) l) by (apply incl_app; assumption).
    pose proof (NoDup_incl_length ND I) as L. rewrite app_length in L. lia.
Qed.
