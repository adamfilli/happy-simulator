(** C17 — list facts shared by the replication proofs.  A process table is split at
    the entry with a given id, a network at the first occurrence of a message;
    the per-link and per-store queues of the FIFO theorems are [flat_map]s of a
    projection over such lists, so removing, replacing or deleting one element
    changes them in one place.  The functions below are the model's own
    ([find_proc], [take_msg], [first_link], [run], ... and their chain and
    ReplicatedStore copies) with the record type abstracted: each model function
    is convertible to an instance, so the lemmas here apply to it as they stand
    ([tfind_in F] for [F : find_proc pid l = Some p]). *)
From HS Require Import Base.Prelude.
Local Open Scope Z_scope.

Section First.
Variables (A E R : Type) (proj : Z -> A -> list E) (out : A -> R).

Fixpoint gfirst (k : Z) (l : list A) : option R :=
  match l with
  | [] => None
  | x :: r => match proj k x with [] => gfirst k r | _ => Some (out x) end
  end.

Lemma gfirst_skips {test : R -> bool} {k l1 l2} :
  (match gfirst k (l1 ++ l2) with Some r => test r | None => false end) = true ->
  (forall y, In y l1 -> test (out y) = false) -> flat_map (proj k) l1 = [].
Proof.
  induction l1 as [|y l1 IH]; cbn; intros F N; [reflexivity|].
  destruct (proj k y); [apply IH; auto|]. rewrite (N y (or_introl eq_refl)) in F. discriminate.
Qed.
End First.
Arguments gfirst_skips {A E R proj out test k l1 l2}.

Section Take.
Context {A : Type} {eqb : A -> A -> bool} (eqb_eq : forall a b, eqb a b = true -> a = b).

Fixpoint gtake (m : A) (l : list A) : option (list A) :=
  match l with
  | [] => None
  | x :: r => if eqb m x then Some r
              else match gtake m r with Some r' => Some (x :: r') | None => None end
  end.

Lemma gtake_split {m l l'} : gtake m l = Some l' ->
  exists l1 l2, l = l1 ++ m :: l2 /\ l' = l1 ++ l2 /\ forall x, In x l1 -> eqb m x = false.
Proof.
  revert l'; induction l as [|x r IH]; cbn; intros l' H; [discriminate|].
  destruct (eqb m x) eqn:Q.
  - injection H as <-. apply eqb_eq in Q; subst x. exists [], r. repeat split. intros x [].
  - destruct (gtake m r) as [r'|]; [|discriminate]. injection H as <-.
    destruct (IH _ eq_refl) as (l1 & l2 & -> & -> & N). exists (x :: l1), l2. repeat split.
    intros y [<-|Hy]; auto.
Qed.

Lemma gtake_in {m l l'} : gtake m l = Some l' -> In m l /\ incl l' l.
Proof.
  intros T. destruct (gtake_split T) as (l1 & l2 & -> & -> & _). split.
  - apply in_elt.
  - intros y Hy. apply in_app_or in Hy. apply in_or_app. destruct Hy; [left|right; right]; assumption.
Qed.

Context {E : Type} {proj : Z -> A -> list E}.

Lemma take_proj_nil {k m l l'} :
  gtake m l = Some l' -> proj k m = [] -> flat_map (proj k) l' = flat_map (proj k) l.
Proof.
  intros T E0. destruct (gtake_split T) as (l1 & l2 & -> & -> & _).
  rewrite !flat_map_app. cbn. rewrite E0. reflexivity.
Qed.

Lemma take_proj_first {k m l l'} :
  gtake m l = Some l' ->
  (match gfirst A E A proj (fun x => x) k l with Some x => eqb m x | None => false end) = true ->
  flat_map (proj k) l = proj k m ++ flat_map (proj k) l'.
Proof.
  intros T F. destruct (gtake_split T) as (l1 & l2 & -> & -> & N).
  rewrite !flat_map_app, (gfirst_skips F N). reflexivity.
Qed.
End Take.

Section Table.
Context {A : Type} {key : A -> Z}.

Fixpoint tfind (pid : Z) (l : list A) : option A :=
  match l with
  | [] => None
  | p :: r => if key p =? pid then Some p else tfind pid r
  end.
Fixpoint tdel (pid : Z) (l : list A) : list A :=
  match l with
  | [] => []
  | p :: r => if key p =? pid then r else p :: tdel pid r
  end.

Lemma tfind_split {pid l p} : tfind pid l = Some p ->
  exists l1 l2, l = l1 ++ p :: l2 /\ tdel pid l = l1 ++ l2 /\
    (key p =? pid) = true /\ forall q, In q l1 -> (key q =? pid) = false.
Proof.
  induction l as [|q r IH]; cbn; [discriminate|].
  destruct (key q =? pid) eqn:Q; intros H.
  - injection H as ->. exists [], r. repeat split; [assumption|]. intros x [].
  - destruct (IH H) as (l1 & l2 & -> & Hd & K & N). exists (q :: l1), l2. cbn. rewrite Hd. repeat split.
    + assumption.
    + intros x [<-|Hx]; auto.
Qed.

Lemma tfind_in {pid l p} : tfind pid l = Some p -> In p l.
Proof. intros F. destruct (tfind_split F) as (l1 & l2 & -> & _). apply in_elt. Qed.

Lemma in_tdel {pid l p q} : tfind pid l = Some p -> In q (tdel pid l) -> In q l.
Proof.
  intros F. destruct (tfind_split F) as (l1 & l2 & -> & -> & _).
  intros Hq. apply in_app_or in Hq. apply in_or_app. destruct Hq; [left|right; right]; assumption.
Qed.

Context {C : Type} {rebuild : Z -> A -> C -> A}.

Fixpoint tset (pid : Z) (c : C) (l : list A) : list A :=
  match l with
  | [] => []
  | p :: r => if key p =? pid then rebuild pid p c :: r else p :: tset pid c r
  end.

Lemma tset_at {pid} c {l1 p} l2 :
  (forall q, In q l1 -> (key q =? pid) = false) -> (key p =? pid) = true ->
  tset pid c (l1 ++ p :: l2) = l1 ++ rebuild pid p c :: l2.
Proof.
  intros N K. induction l1 as [|q l1 IH]; cbn; [rewrite K; reflexivity|].
  rewrite (N q (or_introl eq_refl)), IH; [reflexivity|]. intros x Hx. apply N. now right.
Qed.

Lemma in_tset {pid c l p q} : tfind pid l = Some p -> In q (tset pid c l) -> In q l \/ q = rebuild pid p c.
Proof.
  intros F. destruct (tfind_split F) as (l1 & l2 & -> & _ & K & N).
  rewrite (tset_at _ _ N K). intros Hq. apply in_app_or in Hq.
  destruct Hq as [H|[<-|H]]; [left; apply in_or_app; left|right|left; apply in_or_app; right; right]; auto.
Qed.

Context {E : Type} {proj : Z -> A -> list E}.

Lemma tdel_proj_nil {k pid l p} :
  tfind pid l = Some p -> proj k p = [] -> flat_map (proj k) (tdel pid l) = flat_map (proj k) l.
Proof.
  intros F E0. destruct (tfind_split F) as (l1 & l2 & -> & -> & _).
  rewrite !flat_map_app. cbn. rewrite E0. reflexivity.
Qed.

Lemma tset_proj_same {k pid c l p} :
  tfind pid l = Some p -> proj k (rebuild pid p c) = proj k p ->
  flat_map (proj k) (tset pid c l) = flat_map (proj k) l.
Proof.
  intros F E0. destruct (tfind_split F) as (l1 & l2 & -> & _ & K & N).
  rewrite (tset_at _ _ N K), !flat_map_app. cbn. rewrite E0. reflexivity.
Qed.

Lemma tset_proj_first {k pid c l p} :
  tfind pid l = Some p -> proj k (rebuild pid p c) = [] ->
  (match gfirst A E Z proj key k l with Some q => q =? pid | None => false end) = true ->
  flat_map (proj k) l = proj k p ++ flat_map (proj k) (tset pid c l).
Proof.
  intros F E0 G. destruct (tfind_split F) as (l1 & l2 & -> & _ & K & N).
  rewrite (tset_at _ _ N K), !flat_map_app, (gfirst_skips G N). cbn.
  rewrite E0. reflexivity.
Qed.
End Table.

(** [P] holds of the state a handler segment leaves, if the input was enabled *)
Definition after {S O Y : Type} (P : S -> Prop) (r : option (S * O * Y)) : Prop :=
  match r with Some x => P (fst (fst x)) | None => True end.

(** [grun ok] performs the steps of a schedule as long as [ok] permits them: the
    model's [run], [crun], [rrun] when everything is permitted, [run_fifo] and
    [crun_fifo] with their FIFO test. *)
Section Run.
Context {C S I O Y : Type} {step : C -> S -> I -> option (S * O * Y)} (ok : S -> I -> bool).

Fixpoint grun (c : C) (s : S) (sched : list I) : option S :=
  match sched with
  | [] => Some s
  | i :: r => if ok s i then match step c s i with Some (s', _, _) => grun c s' r | None => None end
              else None
  end.

Lemma grun_inv {P : S -> Prop} {c} :
  (forall s i, P s -> ok s i = true -> after P (step c s i)) ->
  forall sched s s', P s -> grun c s sched = Some s' -> P s'.
Proof.
  intros St. induction sched as [|i r IH]; cbn; intros s s' H R; [injection R as <-; exact H|].
  destruct (ok s i) eqn:K; [|discriminate]. specialize (St s i H K).
  destruct (step c s i) as [[[s1 o] y]|]; [|discriminate]. exact (IH s1 s' St R).
Qed.
End Run.

Lemma grun_permitted {C S I O Y} {step : C -> S -> I -> option (S * O * Y)} ok c sched : forall s s',
  grun (step := step) ok c s sched = Some s' -> grun (step := step) (fun _ _ => true) c s sched = Some s'.
Proof.
  induction sched as [|i r IH]; cbn; intros s s' R; [exact R|].
  destruct (ok s i); [|discriminate]. destruct (step c s i) as [[[s1 o] y]|]; [|discriminate]. exact (IH s1 s' R).
Qed.
