(** C18 — CRDTStore (counter keys): every replica object a store holds carries
    the store's own node id, each store's view of a key obeys the counter
    invariant of C18/CRDT.v, and a store that has pulled every node's state
    reports increments minus decrements.  The pre-c92c1df new-key branch of
    [_merge_remote_state] ([learn false]) is refuted. *)
From HS Require Import Base.Prelude Base.Lists C18.Model C18.Causal C18.CRDT C18.StoreModel.
Local Open Scope Z_scope.

Definition own_inv (S : st_sys) : Prop :=
  forall s key r, sstores S s key = Some r -> s_owner r = s.

Lemma own_init : own_inv st_init.
Proof. intros s key r H; discriminate H. Qed.

Lemma write_key_own S (dec : bool) s key n : own_inv S ->
  write_key dec s n (sstores S s key) =
    Some {| s_owner := s; s_st := if dec then pn_dec s n (st_view S key s) else pn_inc s n (st_view S key s) |}.
Proof.
  intros H. unfold write_key, own_or_create, st_view.
  destruct (sstores S s key) as [r0|] eqn:E; cbn; [rewrite (H _ _ _ E)|]; reflexivity.
Qed.

Lemma own_step S o : own_inv S -> own_inv (st_step true S o).
Proof.
  intros H s key r. destruct o as [s0 key0 n|s0 key0 n|m s0|s0 m]; cbn [st_step sstores].
  1,2: destruct ((s =? s0) && (key =? key0)) eqn:E; [|apply H];
       apply andb_true_iff in E as [E _]; apply Z.eqb_eq in E; subst s;
       rewrite (write_key_own S _ s0 key0 n H); intros Hr; injection Hr as <-; reflexivity.
  - apply H.
  - destruct (Z.eqb_spec s s0) as [->|]; [|apply H].
    unfold merge_key, learn.
    destruct (sbox S m key) as [rr|]; [|apply H].
    destruct (sstores S s0 key) as [l|] eqn:E0; intros Hr; injection Hr as <-; cbn; [apply (H _ _ _ E0)|reflexivity].
Qed.

Theorem store_replica_identity ops : own_inv (st_run true ops).
Proof. unfold st_run. apply fold_left_inv; [intros S o; apply own_step|exact own_init]. Qed.

Definition st_inv (S : st_sys) (key : Z) (I D : Z -> Z) : Prop :=
  forall s k,
    (0 <= fst (st_view S key s) k <= I k /\ fst (st_view S key k) k = I k /\ 0 <= fst (st_bview S key s) k <= I k) /\
    (0 <= snd (st_view S key s) k <= D k /\ snd (st_view S key k) k = D k /\ 0 <= snd (st_bview S key s) k <= D k).

Definition st_proj (S : st_sys) (key : Z) : cnt_sys := {| reps := st_view S key; box := st_bview S key |}.

Lemma st_inv_sound S key I D : st_inv S key I D <-> cnt_sound (st_proj S key) I D.
Proof.
  split.
  - intros H; split; intros r k; apply H.
  - intros [HP HN] s k. split; [apply HP|apply HN].
Qed.

(** Seen through one key, the stores are a system of counter replicas: a write to the
    key is an increment or decrement at the store, a write to another key an increment
    by 0 (which [gc_inc] ignores); a message is a state in flight. *)
Definition st_as_cnt (key : Z) (o : st_op) : cnt_op :=
  match o with
  | SInc s key' n => CInc s (if key' =? key then n else 0)
  | SDec s key' n => CDec s (if key' =? key then n else 0)
  | SSend m s => CSnap m s
  | SRecv s m => CMergeSnap s m
  end.

Lemma sincs_as_incs key k ops : sincs key k ops = incs_of k (map (st_as_cnt key) ops).
Proof.
  induction ops as [|[s key' n|s key' n|m s|s m] ops IH]; cbn [map st_as_cnt sincs incs_of]; [reflexivity| |exact IH..].
  rewrite IH. destruct (key' =? key), (s =? k); reflexivity.
Qed.
Lemma sdecs_as_decs key k ops : sdecs key k ops = decs_of k (map (st_as_cnt key) ops).
Proof.
  induction ops as [|[s key' n|s key' n|m s|s m] ops IH]; cbn [map st_as_cnt sdecs decs_of]; [reflexivity|exact IH| |exact IH..].
  rewrite IH. destruct (key' =? key), (s =? k); reflexivity.
Qed.

Lemma view_write S key (dec : bool) s0 key0 n s :
  own_inv S ->
  st_view (st_step true S (if dec then SDec s0 key0 n else SInc s0 key0 n)) key s =
    if (s =? s0) && (key =? key0)
    then (if dec then pn_dec s0 n (st_view S key s0) else pn_inc s0 n (st_view S key s0))
    else st_view S key s.
Proof.
  intros Hown. unfold st_view at 1. destruct dec; cbn [st_step sstores];
    (destruct ((s =? s0) && (key =? key0)) eqn:E; [|reflexivity]);
    apply andb_true_iff in E as [E1 E2]; apply Z.eqb_eq in E1, E2; subst s key;
    rewrite (write_key_own S _ s0 key0 n Hown); reflexivity.
Qed.

Lemma view_recv S key s0 m s :
  st_view (st_step true S (SRecv s0 m)) key s =
    if s =? s0
    then match sbox S m key with
         | Some _ => pn_merge (st_view S key s0) (st_bview S key m)
         | None => st_view S key s0
         end
    else st_view S key s.
Proof.
  unfold st_view, st_bview; cbn [st_step sstores].
  destruct (Z.eqb_spec s s0) as [->|]; [|reflexivity].
  unfold merge_key, learn. destruct (sbox S m key) as [rr|]; [|reflexivity].
  destruct (sstores S s0 key) as [l|]; reflexivity.
Qed.

(** Projecting commutes with a step, pointwise: a received message that lacks the
    key merges nothing, as does the empty counter into non-negative entries. *)
Lemma st_step_cnt S key I D o : own_inv S -> cnt_sound (st_proj S key) I D ->
  cnt_eqv (st_proj (st_step true S o) key) (cnt_step (st_proj S key) (st_as_cnt key o)).
Proof.
  intros Hown [HP HN] r.
  destruct o as [s0 key0 n|s0 key0 n|m s0|s0 m]; cbn [st_as_cnt cnt_step st_proj reps box]; split;
    try apply pn_eq_refl; unfold upd.
  - rewrite (view_write S key false s0 key0 n r Hown).
    destruct (Z.eqb_spec r s0) as [->|]; [cbn [andb]|apply pn_eq_refl].
    rewrite (Z.eqb_sym key0 key). destruct (key =? key0); split; reflexivity.
  - rewrite (view_write S key true s0 key0 n r Hown).
    destruct (Z.eqb_spec r s0) as [->|]; [cbn [andb]|apply pn_eq_refl].
    rewrite (Z.eqb_sym key0 key). destruct (key =? key0); split; reflexivity.
  - unfold st_bview, st_view; cbn [st_step sbox]. destruct (r =? m); apply pn_eq_refl.
  - rewrite view_recv. destruct (r =? s0); [|apply pn_eq_refl].
    unfold st_bview. destruct (sbox S m key); [apply pn_eq_refl|].
    split; intros k; cbn; unfold gc_merge, gc_empty; [destruct (HP s0 k) as [P _]|destruct (HN s0 k) as [P _]];
      cbn in P; lia.
Qed.

Definition st_sound (S : st_sys) (key : Z) (I D : gc) : Prop := own_inv S /\ cnt_sound (st_proj S key) I D.

Lemma st_step_sound S key I D o : st_sound S key I D ->
  st_sound (st_step true S o) key
    (fun k => I k + inc_contrib (st_as_cnt key o) k) (fun k => D k + dec_contrib (st_as_cnt key o) k).
Proof.
  intros [Hown H]. split; [apply own_step, Hown|].
  apply cnt_sound_ext with (4 := cnt_step_sound _ _ _ (st_as_cnt key o) H); [|reflexivity..].
  apply (st_step_cnt S key I D o Hown H).
Qed.

Lemma st_sound_ext S key I D I' D' :
  (forall k, I' k = I k) -> (forall k, D' k = D k) -> st_sound S key I D -> st_sound S key I' D'.
Proof. intros EI ED [Hown H]. split; [exact Hown|]. apply cnt_sound_ext with (4 := H); auto using cnt_eqv_refl. Qed.

Lemma st_gossip_sound S key I D o :
  (forall k, inc_contrib (st_as_cnt key o) k = 0) -> (forall k, dec_contrib (st_as_cnt key o) k = 0) ->
  st_sound S key I D -> st_sound (st_step true S o) key I D.
Proof.
  intros EI ED H. apply st_sound_ext with (3 := st_step_sound _ _ _ _ o H);
    intros k; [rewrite EI|rewrite ED]; symmetry; apply Z.add_0_r.
Qed.

Lemma st_run_sound ops key : st_sound (st_run true ops) key (fun k => sincs key k ops) (fun k => sdecs key k ops).
Proof.
  apply (fold_left_hist (st_step true) (fun h S =>
           st_sound S key (fun k => sincs key k h) (fun k => sdecs key k h))) with (h := []).
  - intros h S o H. apply st_sound_ext with (3 := st_step_sound _ _ _ _ o H); intros k.
    + rewrite !sincs_as_incs, map_app. apply incs_of_snoc.
    + rewrite !sdecs_as_decs, map_app. apply decs_of_snoc.
  - split; [exact own_init|exact cnt_init_sound].
Qed.

Theorem st_run_inv ops key :
  st_inv (st_run true ops) key (fun k => sincs key k ops) (fun k => sdecs key k ops).
Proof. apply st_inv_sound, st_run_sound. Qed.

Definition pull_one (r : Z) (S : st_sys) (x : Z) : st_sys :=
  st_step true (st_step true S (SSend 0 x)) (SRecv r 0).

Lemma pull_all_fold r l S : fold_left (st_step true) (pull_all r l) S = fold_left (pull_one r) l S.
Proof. unfold pull_all. rewrite fold_left_concat_map. reflexivity. Qed.

Lemma pull_one_sound S key I D r x : st_sound S key I D ->
  st_sound (pull_one r S x) key I D /\
  pn_eq (st_view (pull_one r S x) key r) (pn_merge (st_view S key r) (st_view S key x)).
Proof.
  intros H. unfold pull_one. set (S1 := st_step true S (SSend 0 x)).
  assert (H1 : st_sound S1 key I D) by (apply st_gossip_sound; [reflexivity..|exact H]).
  split; [apply st_gossip_sound; [reflexivity..|exact H1]|].
  pose proof (proj1 (st_step_cnt S1 key I D (SRecv r 0) (proj1 H1) (proj2 H1) r)) as E.
  cbn [st_as_cnt cnt_step st_proj reps box] in E. rewrite upd_same in E. exact E.
Qed.

Lemma pull_reaches S key I D r l : st_sound S key I D ->
  forall k, In k l \/ caught (st_view S key r) I D k ->
  caught (st_view (fold_left (st_step true) (pull_all r l) S) key r) I D k.
Proof.
  rewrite pull_all_fold. revert S; induction l as [|x l IH]; intros S H k Hk; cbn [fold_left].
  - destruct Hk as [[]|E]; exact E.
  - destruct (pull_one_sound S key I D r x H) as [H' [E1 E2]]. apply (IH _ H').
    destruct Hk as [[<-|Hin]|E]; [right|left; exact Hin|right];
      (unfold caught; rewrite E1, E2; apply (merge_caught (st_proj S key) I D r x _ (proj2 H))); auto.
Qed.

Lemma pull_value S key I D r nodes : st_sound S key I D ->
  st_value nodes (fold_left (st_step true) (pull_all r nodes) S) key r = zsum (map I nodes) - zsum (map D nodes).
Proof.
  intros H. apply caught_value. intros k Hk. apply (pull_reaches S key I D r nodes H). left; exact Hk.
Qed.

Theorem store_counter_value ops nodes r key :
  st_value nodes (st_run true (ops ++ pull_all r nodes)) key r =
    zsum (map (fun k => sincs key k ops) nodes) - zsum (map (fun k => sdecs key k ops) nodes).
Proof. unfold st_run. rewrite fold_left_app. apply pull_value, st_run_sound. Qed.

Lemma pull_other S key r s l : s <> r ->
  st_view (fold_left (st_step true) (pull_all r l) S) key s = st_view S key s.
Proof.
  intros Hne. rewrite pull_all_fold.
  apply (fold_left_inv (pull_one r) (fun S' => st_view S' key s = st_view S key s)); [|reflexivity].
  intros S' x E. unfold pull_one. rewrite view_recv. destruct (Z.eqb_spec s r); [contradiction|exact E].
Qed.

Definition pull_round (who nodes : list Z) : list st_op := concat (map (fun r => pull_all r nodes) who).

Lemma round_other S key s who nodes : ~ In s who ->
  st_view (fold_left (st_step true) (pull_round who nodes) S) key s = st_view S key s.
Proof.
  revert S; induction who as [|r who IH]; intros S Hn; cbn; [reflexivity|]. fold (pull_round who nodes).
  rewrite fold_left_app, IH by (intros H; apply Hn; right; exact H).
  apply pull_other. intros ->. apply Hn. left; reflexivity.
Qed.

Lemma pull_round_sound S key I D who nodes : st_sound S key I D ->
  st_sound (fold_left (st_step true) (pull_round who nodes) S) key I D.
Proof.
  unfold pull_round. rewrite fold_left_concat_map.
  apply (fold_left_inv _ (fun S => st_sound S key I D)). intros S1 r. rewrite pull_all_fold.
  apply (fold_left_inv _ (fun S => st_sound S key I D)). intros S2 x H. apply (pull_one_sound S2 key I D r x H).
Qed.

(** A round in which the stores of [who] pull one after the other (in any order,
    repetitions allowed): each of them ends with increments minus decrements, since
    no later pull by another store touches the replica its last pull left. *)
Lemma pull_round_value S key I D who nodes r : In r who -> st_sound S key I D ->
  st_value nodes (fold_left (st_step true) (pull_round who nodes) S) key r = zsum (map I nodes) - zsum (map D nodes).
Proof.
  intros Hin H. destruct (in_split_last r who Hin) as (l1 & l2 & -> & Hl2).
  unfold pull_round. rewrite map_app, concat_app. cbn [map concat].
  fold (pull_round l1 nodes) (pull_round l2 nodes).
  unfold st_value. rewrite !fold_left_app, (round_other _ key r l2 nodes Hl2).
  apply pull_value, pull_round_sound, H.
Qed.

Theorem store_all_converge ops nodes key r : NoDup nodes -> In r nodes ->
  st_value nodes (st_run true (ops ++ pull_round nodes nodes)) key r =
    zsum (map (fun k => sincs key k ops) nodes) - zsum (map (fun k => sdecs key k ops) nodes).
Proof.
  intros _ Hin. unfold st_run. rewrite fold_left_app. apply pull_round_value; [exact Hin|apply st_run_sound].
Qed.

Definition store_value_statement (fixed : bool) : Prop :=
  forall ops nodes r key,
    st_value nodes (st_run fixed (ops ++ pull_all r nodes)) key r =
      zsum (map (fun k => sincs key k ops) nodes) - zsum (map (fun k => sdecs key k ops) nodes).

(** node 2 writes, 0 and 1 learn the key from gossip, then both increment. *)
Definition store_witness : list st_op :=
  [SInc 2 0 2; SSend 1 2; SRecv 0 1; SRecv 1 1; SInc 0 0 1; SInc 1 0 3].

Theorem store_unfixed_learn_refuted : ~ store_value_statement false.
Proof.
  intros H. specialize (H store_witness [0; 1; 2] 0 0). vm_compute in H. discriminate H.
Qed.

Example store_witness_fixed_ok :
  st_value [0; 1; 2] (st_run true (store_witness ++ pull_all 0 [0; 1; 2])) 0 0 = 6.
Proof. vm_compute. reflexivity. Qed.

(** The checker's tabulation is the identity on its domain. *)
Lemma alist_get_map {V} (f : Z -> V) d dom k :
  In k dom -> alist_get (map (fun k => (k, f k)) dom) d k = f k.
Proof.
  induction dom as [|x dom IH]; intros H; [destruct H|]. cbn.
  destruct (Z.eqb_spec k x) as [->|Hne]; [reflexivity|].
  apply IH. destruct H as [->|H]; [congruence|exact H].
Qed.
Lemma freeze_fn_in {V} dom (d : V) f k : In k dom -> freeze_fn dom d f k = f k.
Proof. intros H. unfold freeze_fn. apply alist_get_map, H. Qed.
