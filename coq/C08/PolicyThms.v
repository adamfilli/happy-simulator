From HS Require Import Base.Prelude C08.Model C08.Policies.
Local Open Scope Z_scope.

Lemma pol_run_ind (P : pol -> list pop_op -> pol -> list pobs -> Prop) :
  (forall s, P s [] s []) ->
  (forall balk it s ops s' obs,
     let '(s1, ok) := pol_push balk it s in
     P s1 ops s' obs -> P s (OPush balk it :: ops) s' ((ok, None, []) :: obs)) ->
  (forall now s ops s' obs,
     let '(s1, r, ex) := pol_pop now s in
     P s1 ops s' obs -> P s (OPop now :: ops) s' ((true, option_map iid r, map iid ex) :: obs)) ->
  forall ops s s' obs, pol_run s ops = (s', obs) -> P s ops s' obs.
Proof.
  intros H0 Hpush Hpop. induction ops as [|o ops IH]; intros s s' obs; cbn [pol_run].
  - intros [= <- <-]. apply H0.
  - destruct o as [balk it|now]; cbn [pol_step].
    + specialize (Hpush balk it s ops). destruct (pol_push balk it s) as [s1 ok].
      specialize (IH s1). destruct (pol_run s1 ops) as [s2 obs2]. intros [= <- <-]. now apply Hpush, IH.
    + specialize (Hpop now s ops). destruct (pol_pop now s) as [[s1 r] ex].
      specialize (IH s1). destruct (pol_run s1 ops) as [s2 obs2]. intros [= <- <-]. now apply Hpop, IH.
Qed.

Lemma pol_run_inv (P : pol -> Prop) :
  (forall balk it s, P s -> P (fst (pol_push balk it s))) ->
  (forall now s, P s -> P (fst (fst (pol_pop now s)))) ->
  forall ops s s' obs, P s -> pol_run s ops = (s', obs) -> P s'.
Proof.
  intros Hpush Hpop ops s s' obs Hs H. revert Hs.
  apply (pol_run_ind (fun s _ s' _ => P s -> P s')) with (4 := H); clear - Hpush Hpop.
  - auto.
  - intros balk it s _ s' _. specialize (Hpush balk it s). destruct (pol_push balk it s). auto.
  - intros now s _ s' _. specialize (Hpop now s). destruct (pol_pop now s) as [[s1 r] ex]. auto.
Qed.

(** Conservation: enqueued = dequeued + dropped(expired) + held, at all times. *)
Theorem policy_conservation : forall ops s s' obs,
  pol_run s ops = (s', obs) ->
  n_accepted ops obs + pol_len s = n_popped ops obs + n_expired ops obs + pol_len s'.
Proof.
  apply pol_run_ind.
  - intros s. cbn. lia.
  - intros balk it s ops s' obs. pose proof (pol_push_spec balk it s) as S.
    destruct (pol_push balk it s) as [s1 ok]. destruct S as (_ & Hl & _). cbn [n_accepted n_popped n_expired]. lia.
  - intros now s ops s' obs. pose proof (pol_pop_spec now s) as S.
    destruct (pol_pop now s) as [[s1 r] ex]. destruct S as (_ & Hl & _). cbn [n_accepted n_popped n_expired]. rewrite zlen_map.
    destruct r; cbn [option_map]; lia.
Qed.

(** Every push is either accepted or refused (and the refusal is observable). *)
Lemma offered_split : forall ops s s' obs,
  pol_run s ops = (s', obs) ->
  n_accepted ops obs + n_refused ops obs = zlen (filter is_push ops).
Proof.
  apply (pol_run_ind (fun _ ops _ obs => n_accepted ops obs + n_refused ops obs = zlen (filter is_push ops))).
  - reflexivity.
  - intros balk it s ops _ obs. destruct (pol_push balk it s) as [s1 ok].
    cbn [n_accepted n_refused filter is_push]. rewrite zlen_cons. destruct ok; lia.
  - intros now s ops _ obs. destruct (pol_pop now s) as [[s1 r] ex]. auto.
Qed.

(** The policies' own statistics satisfy the conservation equation. *)
Fixpoint stats_ok (s : pol) : Prop :=
  match s with
  | PDead _ ctr h st => ds_enq st = ds_deq st + ds_exp st + zlen h /\ ctr = ds_enq st
  | PFair _ _ fl total st => fs_enq st = fs_deq st + total
  | PWfq _ _ fl total st => ws_enq st = ws_deq st + total
  | PBalk _ _ i => stats_ok i
  | PRed _ l st => rs_enq st = rs_deq st + zlen l
  | PCodel _ l _ st => cs_enq st = cs_deq st + cs_drop st + zlen l
  | PAdapt _ _ l _ st => as_enq st = as_df st + as_dl st + zlen l
  | _ => True
  end.

Definition le_cap (n : Z) (cap : option Z) : Prop :=
  match cap with None => True | Some c => n <= Z.max 0 c end.

Fixpoint within_cap (s : pol) : Prop :=
  match s with
  | PFifo cap l | PLifo cap l => le_cap (zlen l) cap
  | PPrio cap _ h | PDead cap _ h _ => le_cap (zlen h) cap
  | PFair maxf pfc fl _ _ => le_cap (zlen fl) maxf /\ Forall (fun p => le_cap (zlen (snd p)) pfc) fl
  | PWfq cap pfc fl total _ => le_cap total cap /\ Forall (fun w => le_cap (zlen (wf_q w)) pfc) fl
  | PBalk _ _ i => within_cap i
  | PRed cap l _ => zlen l <= Z.max 0 cap
  | PCodel cap l _ _ | PAdapt _ cap l _ _ => le_cap (zlen l) cap
  end.

Lemma cap_not_full cap n m : cap_full cap n = false -> m <= n + 1 -> le_cap m cap.
Proof. destruct cap as [c|]; cbn; [|auto]. intros H. apply Z.leb_gt in H. lia. Qed.

Lemma le_cap_mono n m cap : n <= m -> le_cap m cap -> le_cap n cap.
Proof. destruct cap; cbn; [lia|auto]. Qed.

Lemma le_cap_0 cap : le_cap 0 cap.
Proof. destruct cap; cbn; [lia|auto]. Qed.

Lemma fl_append_cap f it pfc fl l :
  fl_find f fl = Some l -> cap_full pfc (zlen l) = false ->
  Forall (fun p : Z * list item => le_cap (zlen (snd p)) pfc) fl ->
  Forall (fun p : Z * list item => le_cap (zlen (snd p)) pfc) (fl_append f it fl)
  /\ zlen (fl_append f it fl) = zlen fl.
Proof.
  intros Hf E. destruct (fl_find_split f it fl l Hf) as (a & b & -> & ->). rewrite !zlen_app, !zlen_cons.
  intros Hall. split; [|reflexivity]. revert Hall. apply Forall_mid. cbn [snd]. intros _.
  apply (cap_not_full _ _ _ E). rewrite zlen_snoc. lia.
Qed.

Lemma fl_new_cap f l maxf pfc fl :
  cap_full maxf (zlen fl) = false -> le_cap (zlen l) pfc ->
  Forall (fun p : Z * list item => le_cap (zlen (snd p)) pfc) fl ->
  le_cap (zlen (fl ++ [(f, l)])) maxf /\
  Forall (fun p : Z * list item => le_cap (zlen (snd p)) pfc) (fl ++ [(f, l)]).
Proof.
  intros Em Hl Hall. split; [apply (cap_not_full _ _ _ Em); rewrite zlen_snoc; lia|].
  apply Forall_app. split; [exact Hall|]. now constructor.
Qed.

Lemma wf_append_cap f it pfc fl :
  wf_find f fl = true -> cap_full pfc (wf_qlen f fl) = false ->
  Forall (fun w => le_cap (zlen (wf_q w)) pfc) fl ->
  Forall (fun w => le_cap (zlen (wf_q w)) pfc) (wf_append f it fl).
Proof.
  intros Hf Ec. destruct (wf_find_split f it fl Hf) as (a & w & b & -> & Hq & ->). apply Forall_mid.
  cbn [wf_q]. intros _. apply (cap_not_full _ _ _ Ec). rewrite Hq, zlen_snoc. lia.
Qed.

Lemma fair_pop_cap pfc fl rm :
  Forall (fun p : Z * list item => le_cap (zlen (snd p)) pfc) fl ->
  let '(fl', _, _) := fair_pop fl rm in
  Forall (fun p : Z * list item => le_cap (zlen (snd p)) pfc) fl' /\ zlen fl' <= zlen fl.
Proof.
  pose proof (fair_pop_split fl rm) as S. destruct (fair_pop fl rm) as [[fl' res] rm'].
  destruct S as (pre & _ & S). pose proof (zlen_nonneg pre). destruct res as [it|].
  - destruct S as (g & l & post & -> & ->). rewrite (zlen_app pre), zlen_cons. intros Hall.
    apply Forall_app in Hall as [_ Hall]. apply Forall_cons_iff in Hall as [Hl Hpost]. cbn [snd] in Hl.
    destruct l as [|it2 l].
    + rewrite app_nil_r. split; [exact Hpost|lia].
    + rewrite zlen_snoc. split; [|lia]. apply Forall_app. split; [exact Hpost|]. constructor; [|constructor].
      cbn [snd]. apply le_cap_mono with (2 := Hl). rewrite (zlen_cons it). lia.
  - destruct S as [-> ->]. split; [constructor|exact H].
Qed.

Lemma wfq_pop_cap pfc fuel fl rm :
  Forall (fun w => le_cap (zlen (wf_q w)) pfc) fl ->
  let '(fl', _, _) := wfq_pop fuel fl rm in Forall (fun w => le_cap (zlen (wf_q w)) pfc) fl'.
Proof.
  apply wfq_pop_Forall; cbn [wf_q]; [auto|]. intros w it l ->. apply le_cap_mono. rewrite zlen_cons. lia.
Qed.

Definition ekey (e : entry) : Z := fst (fst e).
Definition eord (e : entry) : Z := snd (fst e).

(** (key, order) of [a] strictly below (key, order) of [b]. *)
Definition elt (a b : entry) : Prop :=
  ekey a < ekey b \/ (ekey a = ekey b /\ eord a < eord b).

Fixpoint sorted (h : list entry) : Prop :=
  match h with [] => True | e :: r => Forall (elt e) r /\ sorted r end.

Lemma entry_ltb_spec k o it e : entry_ltb k o e = true <-> elt (k, o, it) e.
Proof.
  destruct e as [[k' o'] it']. unfold entry_ltb, elt, ekey, eord. cbn. lia.
Qed.

(** [entry_ltb] in the shape py2coq gives the order of a dataclass whose
    compared fields are (key, insert order). *)
Lemma entry_ltb_lex k o e :
  (k <? ekey e) || ((k =? ekey e) && ((o <? eord e) || ((o =? eord e) && false))) = entry_ltb k o e.
Proof. destruct e as [[k' o'] it']. cbn. now rewrite andb_false_r, orb_false_r. Qed.

Lemma elt_trans a b c : elt a b -> elt b c -> elt a c.
Proof. unfold elt. lia. Qed.

Lemma Forall_ins (P : entry -> Prop) k o it h : P (k, o, it) -> Forall P h -> Forall P (ins k o it h).
Proof.
  destruct (ins_split k o it h) as (a & b & -> & ->). intros Hn H. apply Forall_app in H as [Ha Hb].
  apply Forall_app. split; [exact Ha|]. constructor; assumption.
Qed.

Lemma ins_sorted k o it : forall h,
  sorted h -> Forall (fun e => eord e < o) h -> sorted (ins k o it h).
Proof.
  induction h as [|e h IH]; cbn [ins sorted]; intros Hs Hf; [split; [constructor|exact I]|].
  destruct Hs as [He Hs]. inversion Hf as [|? ? Ho Hf']; subst.
  destruct (entry_ltb k o e) eqn:E.
  - apply (entry_ltb_spec k o it) in E. cbn [sorted]. split; [|split; assumption].
    constructor; [exact E|]. eapply Forall_impl; [|exact He]. intros x Hx. eapply elt_trans; eauto.
  - cbn [sorted]. split; [|apply IH; assumption].
    apply Forall_ins; [|exact He].
    assert (Hn : ~ elt (k, o, it) e) by (rewrite <- entry_ltb_spec; congruence).
    unfold elt, ekey, eord in *. cbn [fst snd] in *. lia.
Qed.

(** Invariant of the heap policies: sorted by (key, insertion number), every
    insertion number below the counter (so a later push sorts after every held
    entry of the same key: stable), keys are the items' keys. *)
Definition heap_inv (keyf : item -> Z) (ctr : Z) (h : list entry) : Prop :=
  sorted h /\ Forall (fun e => eord e < ctr /\ ekey e = keyf (snd e)) h.

Lemma heap_inv_nil keyf : heap_inv keyf 0 [].
Proof. split; [exact I|constructor]. Qed.

Lemma heap_inv_ins keyf ctr h it :
  heap_inv keyf ctr h -> heap_inv keyf (ctr + 1) (ins (keyf it) ctr it h).
Proof.
  intros [Hs Hf]. split.
  - apply ins_sorted; [exact Hs|]. eapply Forall_impl; [|exact Hf]. cbn. tauto.
  - apply Forall_ins; [cbn; lia|]. eapply Forall_impl; [|exact Hf]. cbn. intros e [? ?]. split; [lia|auto].
Qed.

Lemma heap_inv_tl keyf ctr e h : heap_inv keyf ctr (e :: h) -> heap_inv keyf ctr h.
Proof. intros [[_ Hs] Hf]. inversion Hf; subst. split; assumption. Qed.

Lemma heap_inv_app_r keyf ctr a b : heap_inv keyf ctr (a ++ b) -> heap_inv keyf ctr b.
Proof. induction a as [|e a IH]; [auto|]. intros H. exact (IH (heap_inv_tl _ _ _ _ H)). Qed.

Lemma heap_inv_head keyf ctr k o it h :
  heap_inv keyf ctr ((k, o, it) :: h) ->
  k = keyf it /\ Forall (fun e => keyf it < keyf (snd e) \/ (keyf it = keyf (snd e) /\ o < eord e)) h.
Proof.
  intros [[Hlt _] Hf]. apply Forall_cons_iff in Hf as [[_ Hk] Hf]. split; [exact Hk|].
  apply (Forall_impl _ (P := fun e => elt (k, o, it) e /\ (eord e < ctr /\ ekey e = keyf (snd e))));
    [|exact (Forall_and Hlt Hf)].
  intros e [He [_ Hke]]. unfold elt, ekey, eord in *. cbn [fst snd] in *. lia.
Qed.

Lemma heap_inv_expired keyf ctr now pre rest :
  heap_inv keyf ctr (pre ++ rest) -> Forall (fun e : entry => fst (fst e) < now) pre ->
  Forall (fun it => keyf it < now) (map snd pre).
Proof.
  intros [_ Hf] Hp. apply Forall_app in Hf as [Hf _]. apply Forall_map.
  apply (Forall_impl _ (P := fun e => (eord e < ctr /\ ekey e = keyf (snd e)) /\ fst (fst e) < now));
    [|exact (Forall_and Hf Hp)].
  intros e [[_ <-] He]. exact He.
Qed.

Definition prio_inv (s : pol) : Prop :=
  match s with PPrio _ ctr h => heap_inv iprio ctr h | PDead _ ctr h _ => heap_inv idl ctr h | _ => True end.

(** Reduces the three invariants on a computed next state to their clauses and
    leaves those that do not hold outright. *)
Ltac inv_clauses :=
  cbn [fst stats_ok within_cap prio_inv ds_enq ds_deq ds_exp fs_enq fs_deq ws_enq ws_deq rs_enq rs_deq
       cs_enq cs_deq cs_drop as_enq as_df as_dl];
  (split; [|split]); auto.

Lemma pol_push_inv balk it s :
  let s' := fst (pol_push balk it s) in
  (stats_ok s -> stats_ok s') /\ (within_cap s -> within_cap s') /\ (prio_inv s -> prio_inv s').
Proof.
  induction s as [cap l|cap l|cap ctr h|cap ctr h st|maxf pfc fl total st|cap pfc fl total st|thr b i IH|rcap l st|cap l sched st|athr cap l wasc st];
    cbn [pol_push].
  - destruct (cap_full cap (zlen l)) eqn:E; inv_clauses.
    intros _. apply (cap_not_full _ _ _ E). rewrite zlen_snoc. lia.
  - destruct (cap_full cap (zlen l)) eqn:E; inv_clauses.
    intros _. apply (cap_not_full _ _ _ E). rewrite zlen_cons. lia.
  - destruct (cap_full cap (zlen h)) eqn:E; inv_clauses.
    + intros _. apply (cap_not_full _ _ _ E). rewrite zlen_ins. lia.
    + apply heap_inv_ins.
  - destruct (cap_full cap (zlen h)) eqn:E; inv_clauses.
    + rewrite zlen_ins. lia.
    + intros _. apply (cap_not_full _ _ _ E). rewrite zlen_ins. lia.
    + apply (heap_inv_ins idl).
  - destruct (fl_find (iflow it) fl) as [l|] eqn:Ef.
    + destruct (cap_full pfc (zlen l)) eqn:E; inv_clauses; [lia|].
      intros [Hm Hall]. destruct (fl_append_cap _ it _ _ _ Ef E Hall) as [Hall' ->]. now split.
    + destruct (cap_full maxf (zlen fl)) eqn:Em; [inv_clauses|].
      destruct (cap_full pfc 0) eqn:Ec; inv_clauses; try lia; intros [_ Hall]; apply (fl_new_cap _ _ _ _ _ Em); auto.
      * apply le_cap_0.
      * now apply (cap_not_full _ _ _ Ec).
  - destruct (cap_full cap total) eqn:E; [inv_clauses|]. cbv zeta.
    destruct (wf_create (iflow it) (if iw it <? 1 then 1 else iw it) fl) as (Hf & _ & Hall).
    set (fl1 := if negb (wf_find (iflow it) fl) then _ else fl) in *.
    set (st1 := if negb (wf_find (iflow it) fl) then _ else st).
    assert (Hs : ws_enq st1 = ws_enq st /\ ws_deq st1 = ws_deq st) by (subst st1; now destruct (negb _)).
    destruct Hs as [Hs1 Hs2].
    destruct (cap_full pfc (wf_qlen (iflow it) fl1)) eqn:Ec; inv_clauses; rewrite ?Hs1, ?Hs2; try lia;
      intros [Hm Hall0]; specialize (Hall _ (le_cap_0 _) Hall0).
    + now split.
    + split; [apply (cap_not_full _ _ _ E); lia|now apply wf_append_cap].
  - destruct ((thr <=? pol_len i) && balk); [inv_clauses|].
    destruct (pol_push balk it i) as [i' ok]. destruct IH as (H1 & H2 & _). inv_clauses.
  - destruct (rcap <=? zlen l) eqn:E; [inv_clauses|]. destruct balk; inv_clauses; rewrite zlen_snoc; lia.
  - destruct (cap_full cap (zlen l)) eqn:E; inv_clauses.
    + rewrite zlen_snoc. lia.
    + intros _. apply (cap_not_full _ _ _ E). rewrite zlen_snoc. lia.
  - destruct (cap_full cap (zlen l)) eqn:E; inv_clauses.
    + rewrite zlen_snoc. lia.
    + intros _. apply (cap_not_full _ _ _ E). rewrite zlen_snoc. lia.
Qed.

Lemma pol_pop_inv now s :
  let s' := fst (fst (pol_pop now s)) in
  (stats_ok s -> stats_ok s') /\ (within_cap s -> within_cap s') /\ (prio_inv s -> prio_inv s').
Proof.
  (* the length a pop leaves, for the cases where it is not plain to see *)
  assert (Hlen : forall s, let '(s', res, ex) := pol_pop now s in
                 pol_len s = pol_len s' + zlen ex + match res with Some _ => 1 | None => 0 end).
  { intros s0. pose proof (pol_pop_spec now s0) as S. destruct (pol_pop now s0) as [[s' res] ex]. apply S. }
  induction s as [cap l|cap l|cap ctr h|cap ctr h st|maxf pfc fl total st|cap pfc fl total st|thr b i IH|rcap l st|cap l sched st|athr cap l wasc st];
    cbn [pol_pop].
  - destruct l as [|it r]; inv_clauses. apply le_cap_mono. rewrite zlen_cons. lia.
  - destruct l as [|it r]; inv_clauses. apply le_cap_mono. rewrite zlen_cons. lia.
  - destruct h as [|[[k o] it] r]; inv_clauses.
    + apply le_cap_mono. rewrite zlen_cons. lia.
    + apply heap_inv_tl.
  - specialize (Hlen (PDead cap ctr h st)). cbn [pol_pop] in Hlen. pose proof (dl_pop_split now h) as S.
    destruct (dl_pop now h) as [[h' res] ex]. cbn [pol_len] in Hlen. pose proof (zlen_nonneg ex).
    inv_clauses; [lia|apply le_cap_mono; destruct res; lia|].
    destruct S as (pre & _ & _ & S). destruct res as [it|].
    + destruct S as (k & o & _ & ->). intros Hi. exact (heap_inv_tl _ _ _ _ (heap_inv_app_r _ _ _ _ Hi)).
    + destruct S as [_ ->]. intros [_ _]. split; [exact I|constructor].
  - pose proof (fair_pop_cap pfc fl 0) as Hc. destruct (fair_pop fl 0) as [[fl' res] rm].
    destruct res; inv_clauses; try lia;
      intros [Hm Hall]; destruct (Hc Hall) as [Hall' Hl]; (split; [exact (le_cap_mono _ _ _ Hl Hm)|exact Hall']).
  - destruct fl as [|w0 fl0]; [inv_clauses|]. set (fl := w0 :: fl0).
    pose proof (wfq_pop_cap pfc (2 * length fl) fl 0) as Hc. destruct (wfq_pop (2 * length fl) fl 0) as [[fl' res] rm].
    destruct res; inv_clauses; try lia;
      intros [Hm Hall]; (split; [|exact (Hc Hall)]); [apply le_cap_mono with (2 := Hm); lia|exact Hm].
  - destruct (pol_pop now i) as [[i' res] ex]. destruct IH as (H1 & H2 & _). inv_clauses.
  - destruct l as [|it r]; inv_clauses; rewrite zlen_cons; lia.
  - specialize (Hlen (PCodel cap l sched st)). cbn [pol_pop] in Hlen.
    destruct l as [|it r]; inv_clauses; cbn [pol_len] in Hlen; [lia|].
    apply le_cap_mono. pose proof (zlen_nonneg (skipn (Z.to_nat (hd 0 sched)) r)).
    pose proof (zlen_nonneg (firstn (Z.to_nat (hd 0 sched)) r)). lia.
  - specialize (Hlen (PAdapt athr cap l wasc st)). cbn [pol_pop] in Hlen.
    destruct l as [|it0 l0]; [inv_clauses|].
    destruct (athr <=? zlen (it0 :: l0)); inv_clauses; cbn [pol_len tl] in *; rewrite (@zlen_nil item) in Hlen;
      try lia; apply le_cap_mono; lia.
Qed.

Theorem policy_capacity : forall ops s s' obs,
  within_cap s -> pol_run s ops = (s', obs) -> within_cap s'.
Proof. apply pol_run_inv; intros; [now apply pol_push_inv|now apply pol_pop_inv]. Qed.

Theorem heap_order_inv : forall ops s s' obs,
  prio_inv s -> pol_run s ops = (s', obs) -> prio_inv s'.
Proof. apply pol_run_inv; intros; [now apply pol_push_inv|now apply pol_pop_inv]. Qed.

(** Numeric reading of [within_cap] for the single-capacity policies. *)
Lemma within_cap_len : forall s, within_cap s ->
  match s with
  | PFifo cap _ | PLifo cap _ | PPrio cap _ _ | PDead cap _ _ _ | PWfq cap _ _ _ _ => le_cap (pol_len s) cap
  | _ => True
  end.
Proof. destruct s; cbn; tauto. Qed.

Lemma fids_bound c : forall fl, 0 <= c ->
  Forall (fun p : Z * list item => zlen (snd p) <= c) fl -> zlen (fids fl) <= zlen fl * c.
Proof.
  induction fl as [|[g l] fl IH]; intros Hc Hall; [cbn; lia|].
  inversion Hall as [|? ? Hh Ht]; subst. rewrite fids_cons, zlen_app, zlen_map, zlen_cons. cbn [snd] in Hh.
  specialize (IH Hc Ht). nia.
Qed.

Theorem fifo_order : forall ops cap l s' obs,
  pol_run (PFifo cap l) ops = (s', obs) ->
  map iid l ++ accepted_ids ops obs = popped_ids ops obs ++ pol_ids s'.
Proof.
  intros ops cap l s' obs H.
  refine (pol_run_ind (fun s ops s' obs => forall cap l, s = PFifo cap l ->
            map iid l ++ accepted_ids ops obs = popped_ids ops obs ++ pol_ids s') _ _ _ _ _ _ _ H cap l eq_refl);
    clear.
  - intros s cap l ->. cbn. now rewrite app_nil_r.
  - intros balk it s ops s' obs. destruct (pol_push balk it s) as [s1 ok] eqn:E. intros IH cap l ->.
    cbn [pol_push] in E. cbn [accepted_ids popped_ids].
    destruct (cap_full cap (zlen l)); injection E as <- <-; [exact (IH _ _ eq_refl)|].
    rewrite <- (IH _ _ eq_refl), map_app, <- app_assoc. reflexivity.
  - intros now s ops s' obs. destruct (pol_pop now s) as [[s1 r] ex] eqn:E. intros IH cap l ->.
    cbn [pol_pop] in E. cbn [accepted_ids popped_ids].
    destruct l as [|it l]; injection E as <- <- <-; cbn [option_map]; [exact (IH _ _ eq_refl)|].
    cbn [map app]. f_equal. exact (IH _ _ eq_refl).
Qed.

(** LIFO: every pop returns the most recently accepted item not yet popped
    ([stack]: the ids held, newest first). *)
Fixpoint lifo_ok (ops : list pop_op) (obs : list pobs) (stack : list Z) : Prop :=
  match ops, obs with
  | [], [] => True
  | OPush _ it :: r, (ok, _, _) :: r' => lifo_ok r r' (if ok then iid it :: stack else stack)
  | OPop _ :: r, (_, res, _) :: r' => res = hd_error stack /\ lifo_ok r r' (tl stack)
  | _, _ => False
  end.

Theorem lifo_order : forall ops cap l s' obs,
  pol_run (PLifo cap l) ops = (s', obs) -> lifo_ok ops obs (map iid l).
Proof.
  intros ops cap l s' obs H.
  refine (pol_run_ind (fun s ops _ obs => forall cap l, s = PLifo cap l -> lifo_ok ops obs (map iid l))
            _ _ _ _ _ _ _ H cap l eq_refl); clear.
  - intros s cap l _. exact I.
  - intros balk it s ops _ obs. destruct (pol_push balk it s) as [s1 ok] eqn:E. intros IH cap l ->.
    cbn [pol_push] in E. cbn [lifo_ok].
    destruct (cap_full cap (zlen l)); injection E as <- <-; [exact (IH _ _ eq_refl)|]. exact (IH cap (it :: l) eq_refl).
  - intros now s ops _ obs. destruct (pol_pop now s) as [[s1 r] ex] eqn:E. intros IH cap l ->.
    cbn [pol_pop] in E. cbn [lifo_ok].
    destruct l as [|it l]; injection E as <- <- <-; (split; [reflexivity|]).
    + exact (IH cap [] eq_refl).
    + exact (IH cap l eq_refl).
Qed.

(** In a state that satisfies the heap invariant (every state a run reaches
    from the empty queue does: [heap_order_inv]) a pop returns the held item
    with the least (priority, insertion number); equal priorities leave in
    insertion order. *)
Lemma prio_pop_least cap ctr h now it s2 ex :
  heap_inv iprio ctr h -> pol_pop now (PPrio cap ctr h) = (s2, Some it, ex) ->
  exists o h', h = (iprio it, o, it) :: h' /\ s2 = PPrio cap ctr h' /\ ex = [] /\
    Forall (fun e => iprio it < iprio (snd e) \/ (iprio it = iprio (snd e) /\ o < eord e)) h'.
Proof.
  intros Hi Hp. cbn [pol_pop] in Hp.
  destruct h as [|[[k o] it'] h']; [discriminate|]. injection Hp as <- <- <-.
  destruct (heap_inv_head _ _ _ _ _ _ Hi) as [-> Hlt]. exists o, h'. repeat split. exact Hlt.
Qed.

(** DeadlineQueue, likewise: every item a pop at clock [now] drops has its
    deadline before [now]; the item it returns has not, and has the least
    (deadline, insertion number) of those still held; when it returns none the
    queue is left empty.  (Which entries are dropped: [dl_pop_split].) *)
Lemma dead_pop_least cap ctr h st now s2 r ex :
  heap_inv idl ctr h -> pol_pop now (PDead cap ctr h st) = (s2, r, ex) ->
  Forall (fun it => idl it < now) ex /\
  match r with
  | Some it => now <= idl it /\
      exists o h' st', s2 = PDead cap ctr h' st' /\
        Forall (fun e => idl it < idl (snd e) \/ (idl it = idl (snd e) /\ o < eord e)) h'
  | None => pol_len s2 = 0
  end.
Proof.
  intros Hi Hp. cbn [pol_pop] in Hp. pose proof (dl_pop_split now h) as S.
  destruct (dl_pop now h) as [[h' r'] ex']. injection Hp as <- <- <-.
  destruct S as (pre & -> & Hpre & S). destruct r' as [it|].
  - destruct S as (k & o & Hk & ->). split; [exact (heap_inv_expired _ _ _ _ _ Hi Hpre)|].
    destruct (heap_inv_head _ _ _ _ _ _ (heap_inv_app_r _ _ _ _ Hi)) as [-> Hlt].
    split; [exact Hk|]. eexists o, h', _. split; [reflexivity|exact Hlt].
  - destruct S as [-> ->]. rewrite <- (app_nil_r pre) in Hi. split; [exact (heap_inv_expired _ _ _ _ _ Hi Hpre)|reflexivity].
Qed.

(** An accepted push appends at the end of its flow (each flow is a FIFO deque). *)
Lemma fl_append_tail f it : forall fl l, fl_find f fl = Some l -> fl_find f (fl_append f it fl) = Some (l ++ [it]).
Proof.
  induction fl as [|[g l'] fl IH]; cbn [fl_find fl_append]; intros l H; [discriminate|].
  destruct (f =? g) eqn:E; cbn [fl_find]; rewrite E; [inversion H; subst; reflexivity|eauto].
Qed.

(** The hypotheses of the conditional theorems are satisfiable. *)
Definition ex_item (i p d f : Z) : item := MkItem i p d f 1.

Example priority_order_hyps :
  let ops := [OPush false (ex_item 0 2 0 0); OPush false (ex_item 1 1 0 0); OPush false (ex_item 2 1 0 0)] in
  exists ctr h obs s2, pol_run (PPrio None 0 []) ops = (PPrio None ctr h, obs) /\
    pol_pop 0 (PPrio None ctr h) = (s2, Some (ex_item 1 1 0 0), []).
Proof. cbv zeta. do 4 eexists. split; vm_compute; reflexivity. Qed.

Example deadline_order_hyps :
  let ops := [OPush false (ex_item 0 0 5 0); OPush false (ex_item 1 0 20 0); OPush false (ex_item 2 0 9 0)] in
  exists ctr h st obs s2, pol_run (PDead None 0 [] ds0) ops = (PDead None ctr h st, obs) /\
    pol_pop 7 (PDead None ctr h st) = (s2, Some (ex_item 2 0 9 0), [ex_item 0 0 5 0]).
Proof. cbv zeta. do 5 eexists. split; vm_compute; reflexivity. Qed.

Example capacity_hyps : within_cap (PFair (Some 2) (Some 1) [] 0 fs0) /\ within_cap (PWfq (Some 3) None [] 0 ws0)
  /\ within_cap (PBalk 1 0 (PFifo (Some 2) [])) /\ stats_ok (PDead None 0 [] ds0) /\ stats_ok (PCodel None [] [1; 0] cs0).
Proof. cbn. repeat split; try constructor; try (unfold zlen; cbn; lia). Qed.

Example fair_round_robin_hyps :
  fair_pop [(0, []); (1, [ex_item 5 0 0 1; ex_item 6 0 0 1]); (2, [ex_item 7 0 0 2])] 0
  = ([(2, [ex_item 7 0 0 2]); (1, [ex_item 6 0 0 1])], Some (ex_item 5 0 0 1), 1).
Proof. reflexivity. Qed.
