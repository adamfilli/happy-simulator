(** ParallelProofs — the windowed coordinator never lets a cross-partition event
    fall into the past of its destination: partitions stay inside their window,
    everything exchanged at a barrier is stamped at or after the window end, so
    it is scheduled at or after the destination's clock; and only events that
    were scheduled into the past are ever discarded as "time travel".
    Generic in the handler semantics. *)
From HS Require Import Base.Prelude Engine.Engine Engine.EngineProofs Engine.Parallel.
From Coq Require Import Sorting.Sorted.
Local Open Scope Z_scope.

Lemma upd_nth_Forall {A} (Q : A -> Prop) f n (l : list A) :
  Forall Q l -> (forall x, Q x -> Q (f x)) -> Forall Q (upd_nth n f l).
Proof.
  intros Hl Hf. revert n; induction Hl as [|x l Hx Hl' IH]; intros n; destruct n; cbn; constructor; auto.
Qed.

Lemma upd_nth_length {A} n f (l : list A) : length (upd_nth n f l) = length l.
Proof. revert n; induction l as [|x l IH]; intros [|n]; cbn; auto. Qed.

Section Weak.
  Variables P U : Type.
  Notation ev := (@ev P).
  Notation st := (@st P U).
  Notation pstate := (@pstate P U).

  Definition tle (a b : ev) : Prop := ev_time a <= ev_time b.

  (** The weak engine invariant (sort indices may collide across partitions, so
      events are not identified): the heap is ordered by time; an event that is
      in the past while it waits has a record of having been scheduled into the
      past; likewise every event discarded as past. *)
  Record WInv (s : st) : Prop := {
    w_sorted : StronglySorted tle (heap s);
    w_pastheap : forall x, In x (heap s) -> ev_time x < clock s ->
                 exists at_, In (x, at_) (pushed s) /\ ev_time x < at_;
    w_past : forall e c, In (e, c, SkippedPast) (log s) -> exists at_, In (e, at_) (pushed s) /\ ev_time e < at_;
  }.

  (** It is what remains of the engine invariant when events cannot be told apart. *)
  Lemma inv_winv s : Inv P U s -> WInv s.
  Proof.
    intros I. constructor; [|intros x Hx Hlt|exact (i_past _ _ _ I)].
    - eapply sorted_impl; [|exact (i_sorted _ _ _ I)]. intros a b. apply ev_lt_time.
    - pose proof (heap_in_pushed _ _ _ _ I Hx) as Hp. apply in_map_iff in Hp as [[y a] [E Hp]]. cbn in E; subst y.
      exists a. split; [exact Hp|]. destruct (Z_lt_le_dec (ev_time x) a) as [L|L]; [exact L|].
      pose proof (i_live _ _ _ I x a Hp Hx L). lia.
  Qed.

  Lemma winv_frame s s' : WInv s ->
    clock s' = clock s -> heap s' = heap s -> log s' = log s -> pushed s' = pushed s -> WInv s'.
  Proof. intros [W1 W2 W3] Ec Eh El Ep. constructor; rewrite ?Ec, ?Eh, ?El, ?Ep; assumption. Qed.

  Lemma insert_all_tsorted (es : list ev) h : StronglySorted tle h -> StronglySorted tle (insert_all es h).
  Proof.
    unfold insert_all. revert h; induction es as [|e r IH]; intros h Hs; cbn; [exact Hs|].
    apply IH, insert_sorted_by; [unfold tle; lia| |exact Hs].
    intros y _. destruct (ev_ltb e y) eqn:E; [apply ev_lt_time|apply ev_ltb_false_time]; exact E.
  Qed.

  Lemma push_all_winv (s : st) es : WInv s -> WInv (push_all s es).
  Proof.
    intros W. constructor.
    - apply insert_all_tsorted, (w_sorted _ W).
    - intros x Hx Hlt. apply insert_all_In in Hx as [Hx|Hx].
      + exists (clock s). split; [apply in_pushed_push_all; left; auto|exact Hlt].
      + destruct (w_pastheap _ W x Hx Hlt) as [a [Ha Hl]]. exists a. split; [apply in_pushed_push_all; right; exact Ha|exact Hl].
    - intros e c Hin.
      destruct (w_past _ W e c Hin) as [a [Ha Hl]]. exists a. split; [apply in_pushed_push_all; right; exact Ha|exact Hl].
  Qed.

  Lemma pop_winv s e h now d c canc u np nc :
    WInv s -> heap s = e :: h -> truthful P U s e now d ->
    WInv (mkSt now h (if ev_daemon e then primary s else primary s - 1) c canc u np nc
               ((e, now, d) :: log s) (pushed s)).
  Proof.
    intros W Hh Ht. pose proof (w_sorted _ W) as Hs. rewrite Hh in Hs.
    apply StronglySorted_inv in Hs as [Hs Hmin]. rewrite Forall_forall in Hmin.
    constructor; cbn [clock heap log pushed].
    - exact Hs.
    - (* the clock stood still, or moved to the head's time, which no waiting event precedes *)
      intros x Hx Hlt. apply (w_pastheap _ W); [rewrite Hh; right; exact Hx|].
      specialize (Hmin x Hx). unfold tle in Hmin. destruct d; cbn in Ht; lia.
    - intros e0 c0 [E|Hin]; [|exact (w_past _ W _ _ Hin)]. inversion E; subst.
      apply (w_pastheap _ W); [rewrite Hh; left; reflexivity|apply Ht].
  Qed.

  Definition total_pushed (ps : list pstate) : Z :=
    fold_right (fun p n => Z.of_nat (length (pushed (ps_st p))) + n) 0 ps.

  (** What [deliver_one] does to the destination partition. *)
  Definition receive (e : ev) (d : pstate) : pstate :=
    mkPS (push_all (ps_st d) [e]) (ps_out d) ((e, clock (ps_st d)) :: ps_recv d).

  Lemma total_pushed_upd n (ps : list pstate) e : (n < length ps)%nat ->
    total_pushed (upd_nth n (receive e) ps) = total_pushed ps + 1.
  Proof.
    revert n; induction ps as [|p ps IH]; intros n Hn; cbn in Hn; [lia|].
    unfold total_pushed in *. destruct n as [|n]; cbn [upd_nth fold_right ps_st receive].
    - unfold push_all; cbn [pushed]. rewrite app_length, rev_length, map_length. cbn [length]. lia.
    - rewrite IH; [lia|lia].
  Qed.
End Weak.

Section PP.
  Variables P U : Type.
  Variable invoke : U -> Z -> @ev P -> Z -> option (@inv_result P U).
  Variable part_of : @ev P -> Z.
  Variable link : Z -> Z -> option Z.
  Notation ev := (@ev P).
  Notation st := (@st P U).
  Notation pstate := (@pstate P U).
  Notation wstep := (wstep invoke part_of link).
  Notation witerate := (witerate invoke part_of link).
  Notation WInv := (WInv P U).
  Notation total_pushed := (total_pushed P U).

  (** The per-partition window invariant, between two consecutive window ends
      [wprev <= wend]: the clock stays inside the window; every waiting event is
      stamped at or after the previous window end, or is a past event; every
      outbox entry was sent at or after the previous window end. *)
  Record PInv (wprev wend : Z) (p : pstate) : Prop := {
    p_winv : WInv (ps_st p);
    p_clock : clock (ps_st p) <= wend;
    p_heap : forall x, In x (heap (ps_st p)) -> wprev <= ev_time x \/ ev_time x < clock (ps_st p);
    p_out : forall x sent, In (x, sent) (ps_out p) -> wprev <= sent;
    p_recv : forall x at_, In (x, at_) (ps_recv p) -> at_ <= ev_time x /\ In (x, at_) (pushed (ps_st p));
  }.

  (** Before the first window nothing is sent or received, and the start clock
      serves as previous window end. *)
  Lemma start_pinv start wend (s : st) : WInv s -> clock s = start -> start <= wend -> PInv start wend (mkPS s [] []).
  Proof. intros W <- Hc. constructor; cbn [ps_st ps_out ps_recv]; [exact W|exact Hc|lia|intros x a []..]. Qed.

  Lemma pop_pinv wprev wend p e h now d c canc u np nc :
    PInv wprev wend p -> heap (ps_st p) = e :: h -> truthful P U (ps_st p) e now d -> now <= wend ->
    PInv wprev wend
         (mkPS (mkSt now h (if ev_daemon e then primary (ps_st p) else primary (ps_st p) - 1) c canc u np nc
                     ((e, now, d) :: log (ps_st p)) (pushed (ps_st p))) (ps_out p) (ps_recv p)).
  Proof.
    intros I Hh Ht Hw. constructor; cbn [ps_st ps_out ps_recv clock heap pushed].
    - apply pop_winv; [apply (p_winv _ _ _ I)|exact Hh|exact Ht].
    - exact Hw.
    - intros x Hx. destruct (p_heap _ _ _ I x) as [L|L]; [rewrite Hh; right; exact Hx|left; exact L|right].
      destruct d; cbn in Ht; lia.
    - apply (p_out _ _ _ I).
    - apply (p_recv _ _ _ I).
  Qed.

  Lemma push_pinv wprev wend (s : st) out recv loc (crs : list ev) :
    PInv wprev wend (mkPS s out recv) -> wprev <= clock s ->
    PInv wprev wend (mkPS (push_all s loc) (out ++ map (fun x => (x, clock s)) crs) recv).
  Proof.
    intros I Hnow. constructor; cbn [ps_st ps_out ps_recv].
    - apply push_all_winv, (p_winv _ _ _ I).
    - apply (p_clock _ _ _ I).
    - intros x Hx. apply insert_all_In in Hx as [Hx|Hx]; [|exact (p_heap _ _ _ I x Hx)]. cbn [push_all clock]. lia.
    - intros x sent Hin. apply in_app_or in Hin as [Hin|Hin]; [exact (p_out _ _ _ I x sent Hin)|].
      apply in_map_iff in Hin as [y [E _]]. inversion E; subst. exact Hnow.
    - intros x a Hin. destruct (p_recv _ _ _ I x a Hin) as [H1 H2]. split; [exact H1|].
      apply in_pushed_push_all. right. exact H2.
  Qed.

  (** One iteration of a window stops in place, with every waiting event at or
      after the window end, or else keeps the invariant. *)
  Lemma wstep_spec me wprev wend p : PInv wprev wend p ->
    match wstep me wend p with
    | WStopped p' => p' = p /\ forall x, In x (heap (ps_st p)) -> wend <= ev_time x
    | WRunning p' | WRaised p' => PInv wprev wend p'
    end.
  Proof.
    intros I. unfold Parallel.wstep. pose proof (p_clock _ _ _ I) as Hc.
    destruct (heap (ps_st p)) as [|e h] eqn:Hh; [split; [reflexivity|intros x []]|].
    set (body := if is_cancelled _ _ then _ else _).
    destruct (Z.leb_spec (clock (ps_st p)) wend) as [_|L]; [cbn [negb]|lia].
    destruct (Z.ltb_spec wend (ev_time e)) as [He|He].
    - (* the head lies beyond the window end, and nothing waits before the head *)
      split; [reflexivity|].
      pose proof (w_sorted _ _ _ (p_winv _ _ _ I)) as Hs. rewrite Hh in Hs.
      apply StronglySorted_inv in Hs as [_ Hall]. rewrite Forall_forall in Hall.
      intros x [<-|Hx]; [lia|]. specialize (Hall x Hx). unfold tle in Hall. lia.
    - subst body.
      destruct (is_cancelled (ps_st p) e) eqn:Ec; [apply pop_pinv; cbn; auto|].
      destruct (ev_time e <? clock (ps_st p)) eqn:Ep; [apply pop_pinv; cbn; auto; lia|].
      assert (Ht : truthful P U (ps_st p) e (ev_time e) Delivered) by (cbn; lia).
      destruct (invoke _ _ _ _) as [r|]; [|apply pop_pinv; assumption].
      destruct (forallb _ _); [|apply pop_pinv; assumption].
      apply push_pinv; [apply pop_pinv; assumption|]. cbn [clock].
      (* the delivered event was not a past event, so it is stamped after the previous window end *)
      destruct (p_heap _ _ _ I e) as [L|L]; [rewrite Hh; left; reflexivity|exact L|lia].
  Qed.

  Lemma witerate_spec fuel me wprev wend : forall p, PInv wprev wend p ->
    match witerate fuel me wend p with
    | WStopped p' => PInv wprev wend p' /\ forall x, In x (heap (ps_st p')) -> wend <= ev_time x
    | WRunning p' | WRaised p' => PInv wprev wend p'
    end.
  Proof.
    induction fuel as [|f IH]; intros p I; cbn; [exact I|].
    pose proof (wstep_spec me wprev wend p I) as Hs.
    destruct (wstep me wend p) as [p1|p1|p1]; [apply IH, Hs| |exact Hs].
    destruct Hs as [-> Hx]. split; [exact I|exact Hx].
  Qed.

  Lemma reseed_pinv wprev wend p : PInv wprev wend p ->
    PInv wprev wend (mkPS (reseed (ps_st p)) (ps_out p) (ps_recv p)).
  Proof.
    intros I. unfold reseed. destruct (ctr (ps_st p) <=? _); [|destruct p; exact I].
    destruct I as [W Hc Hh Ho Hr]. constructor; auto. apply (winv_frame _ _ _ _ W); reflexivity.
  Qed.

  Definition Safe (p : pstate) : Prop :=
    WInv (ps_st p) /\ (forall x at_, In (x, at_) (ps_recv p) -> at_ <= ev_time x /\ In (x, at_) (pushed (ps_st p))).

  (** After its window, a partition is ready for the barrier: clock within the
      window, every waiting event at or after the window end. *)
  Definition Ready (wend : Z) (p : pstate) : Prop :=
    Safe p /\ clock (ps_st p) <= wend /\ (forall x, In x (heap (ps_st p)) -> wend <= ev_time x).

  Lemma run_window_ready fuel me wprev wend p p' : PInv wprev wend p ->
    run_window invoke part_of link fuel me wend p = WStopped p' ->
    Ready wend p' /\ (forall x sent, In (x, sent) (ps_out p') -> wprev <= sent).
  Proof.
    intros I Hrun. unfold run_window in Hrun.
    pose proof (witerate_spec fuel me wprev wend _ (reseed_pinv _ _ _ I)) as H.
    rewrite Hrun in H. destruct H as [[W Hc Hh Ho Hr] Hx].
    split; [|exact Ho]. split; [split; assumption|]. split; [exact Hc|exact Hx].
  Qed.

  Lemma ready_receive wend d e : Ready wend d -> wend <= ev_time e -> Ready wend (receive P U e d).
  Proof.
    intros ((W & Hr) & Hc & Hh) He. split; [split|split]; cbn [ps_st ps_recv receive].
    - apply push_all_winv; exact W.
    - intros x a [E|Hin].
      + inversion E; subst. split; [lia|]. apply in_pushed_push_all. left. split; [left; reflexivity|reflexivity].
      + destruct (Hr x a Hin) as [H1 H2]. split; [exact H1|]. apply in_pushed_push_all. right. exact H2.
    - exact Hc.
    - intros x Hx. apply (insert_In P e) in Hx as [<-|Hx]; auto.
  Qed.

  (** The hypothesis on the window sequence: the window is no longer than the
      minimum latency of any link ([window_size <= min_latency], in ns). *)
  Definition links_cover (gap : Z) : Prop := forall a b l, link a b = Some l -> gap <= l.

  Lemma fold_deliver_none src out : fold_left (@deliver_one P U part_of link src) out None = None.
  Proof. induction out as [|x out IH]; [reflexivity|exact IH]. Qed.

  Lemma exchange_from_none : forall todo i, @exchange_from P U part_of link i todo None = None.
  Proof. induction todo as [|p todo IH]; intros i; cbn; [reflexivity|]. rewrite fold_deliver_none. apply IH. Qed.

  (** A delivery that succeeds went over a declared link, respected its minimum
      latency, and changed the destination partition only. *)
  Lemma deliver_one_some src ps ps' e sent : deliver_one part_of link src (Some ps) (e, sent) = Some ps' ->
    exists lmin, link src (part_of e) = Some lmin /\ lmin <= ev_time e - sent /\
                 ps' = upd_nth (Z.to_nat (part_of e)) (receive P U e) ps.
  Proof.
    cbn. destruct (link src (part_of e)) as [lmin|]; [|discriminate].
    destruct (Z.ltb_spec (ev_time e - sent) lmin); [discriminate|]. intros [= <-]. eauto.
  Qed.

  Lemma deliver_one_ready wprev wend src ps ps' x :
    links_cover (wend - wprev) -> Forall (Ready wend) ps -> wprev <= snd x ->
    deliver_one part_of link src (Some ps) x = Some ps' -> Forall (Ready wend) ps'.
  Proof.
    intros Hl Hps Hsent H. destruct x as [e sent]. apply deliver_one_some in H as (lmin & El & Hmin & ->).
    specialize (Hl _ _ _ El). cbn in Hsent.
    apply upd_nth_Forall; [exact Hps|]. intros d Hd. apply ready_receive; [exact Hd|lia].
  Qed.

  Lemma fold_deliver_ready wprev wend src : forall out ps ps',
    links_cover (wend - wprev) -> Forall (Ready wend) ps ->
    (forall x sent, In (x, sent) out -> wprev <= sent) ->
    fold_left (deliver_one part_of link src) out (Some ps) = Some ps' -> Forall (Ready wend) ps'.
  Proof.
    induction out as [|x out IH]; intros ps ps' Hl Hps Hout H; cbn [fold_left] in H; [inversion H; subst; exact Hps|].
    destruct (deliver_one part_of link src (Some ps) x) as [ps1|] eqn:E; [|rewrite fold_deliver_none in H; discriminate].
    eapply IH; [exact Hl| |intros y s Hy; apply (Hout y s); right; exact Hy|exact H].
    eapply deliver_one_ready; [exact Hl|exact Hps| |exact E]. destruct x as [y s]. apply (Hout y s). left; reflexivity.
  Qed.

  Lemma exchange_from_ready wprev wend : forall todo i ps ps',
    links_cover (wend - wprev) -> Forall (Ready wend) ps ->
    Forall (fun p => forall x sent, In (x, sent) (ps_out p) -> wprev <= sent) todo ->
    exchange_from part_of link i todo (Some ps) = Some ps' -> Forall (Ready wend) ps'.
  Proof.
    induction todo as [|p todo IH]; intros i ps ps' Hl Hps Htodo H; cbn [exchange_from] in H; [inversion H; subst; exact Hps|].
    inversion Htodo as [|? ? Hp Hrest]; subst.
    destruct (fold_left (deliver_one part_of link i) (ps_out p) (Some ps)) as [ps1|] eqn:E;
      [|rewrite exchange_from_none in H; discriminate].
    eapply IH; [exact Hl| |exact Hrest|exact H]. eapply fold_deliver_ready; eauto.
  Qed.

  Lemma ready_next wend wnext p : wend <= wnext -> Ready wend p -> PInv wend wnext (clear_out p).
  Proof.
    intros Hw ((W & Hr) & Hc & Hh). constructor; cbn; auto; [lia|intros x s []].
  Qed.

  Lemma run_windows_ready fuel wprev wend : forall ps i ps',
    Forall (PInv wprev wend) ps -> run_windows invoke part_of link fuel wend i ps = Some ps' ->
    Forall (Ready wend) ps' /\ Forall (fun p => forall x sent, In (x, sent) (ps_out p) -> wprev <= sent) ps'.
  Proof.
    induction ps as [|p ps IH]; intros i ps' Hall H; cbn in H; [inversion H; subst; split; constructor|].
    inversion Hall as [|? ? Hp Hrest]; subst.
    destruct (run_window invoke part_of link fuel i wend p) as [p1|p1|p1] eqn:E; try discriminate.
    destruct (run_windows invoke part_of link fuel wend (i + 1) ps) as [r|] eqn:E2; [|discriminate].
    inversion H; subst. destruct (IH _ _ Hrest E2) as [I1 I2].
    destruct (run_window_ready _ _ _ _ _ _ Hp E) as [R1 R2]. split; constructor; auto.
  Qed.

  (** The window sequence is acceptable from [wprev]: non-decreasing, every gap
      covered by every link's minimum latency. *)
  Fixpoint windows_ok (wprev : Z) (wends : list Z) : Prop :=
    match wends with
    | [] => True
    | w :: r => wprev <= w /\ links_cover (w - wprev) /\ windows_ok w r
    end.

  Theorem par_loop_safe fuel : forall wends wprev ps ps',
    windows_ok wprev wends -> Forall (PInv wprev (match wends with [] => wprev | w :: _ => w end)) ps ->
    par_loop invoke part_of link fuel wends ps = PFinished ps' -> Forall Safe ps'.
  Proof.
    induction wends as [|w r IH]; intros wprev ps ps' Hok Hall H; cbn in H.
    - inversion H; subst. eapply Forall_impl; [|exact Hall]. intros p I. split; [apply (p_winv _ _ _ I)|apply (p_recv _ _ _ I)].
    - destruct Hok as (Hw & Hl & Hok).
      destruct (run_windows invoke part_of link fuel w 0 ps) as [ps1|] eqn:E1; [|discriminate].
      destruct (run_windows_ready _ _ _ _ _ _ Hall E1) as [R1 R2].
      unfold exchange in H.
      destruct (exchange_from part_of link 0 ps1 (Some ps1)) as [ps2|] eqn:E2; [|discriminate].
      pose proof (exchange_from_ready _ _ _ _ _ _ Hl R1 R2 E2) as R3.
      destruct (forallb _ (map clear_out ps2)).
      + inversion H; subst. apply Forall_map. eapply Forall_impl; [|exact R3]. intros q [Hq _]. exact Hq.
      + eapply IH; [exact Hok| |exact H]. apply Forall_map. eapply Forall_impl; [|exact R3].
        intros q Hq. apply ready_next; [|exact Hq]. destruct r; [lia|apply Hok].
  Qed.
End PP.
