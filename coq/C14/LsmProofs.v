(** C14 — proofs about the sequential LSM model: reads refine a map for every
    operation sequence, every configuration and every compaction strategy. *)
From HS Require Import Base.Prelude Base.Lists C14.Model.
Local Open Scope Z_scope.

(** The memtable and the SSTables here, the key-value store and the write sets
    of C14/KvTxnModel.v, and the contents a B-tree represents (C14/Bt*.v) are
    sorted association lists at three value types: the laws are proved once,
    over the value type. *)

Section SortedAssoc.
Context {V : Type}.

Fixpoint alookup (k : Z) (t : list (Z * V)) : option V :=
  match t with
  | [] => None
  | (k', v) :: r => if k =? k' then Some v else alookup k r
  end.

Fixpoint ainsert (k : Z) (v : V) (t : list (Z * V)) : list (Z * V) :=
  match t with
  | [] => [(k, v)]
  | (k', v') :: r =>
      if k <? k' then (k, v) :: t
      else if k =? k' then (k, v) :: r
      else (k', v') :: ainsert k v r
  end.

Fixpoint asorted (t : list (Z * V)) : Prop :=
  match t with
  | [] => True
  | (k, _) :: r => (forall k', In k' (map fst r) -> k < k') /\ asorted r
  end.

Lemma ainsert_lt k v k' v' r : k' < k -> ainsert k v ((k', v') :: r) = (k', v') :: ainsert k v r.
Proof.
  intros H. cbn [ainsert]. rewrite (proj2 (Z.ltb_ge k k') (Z.lt_le_incl _ _ H)).
  destruct (Z.eqb_spec k k') as [E|_]; [|reflexivity]. rewrite E in H. destruct (Z.lt_irrefl _ H).
Qed.

Lemma ainsert_gt k v k' v' r : k < k' -> ainsert k v ((k', v') :: r) = (k, v) :: (k', v') :: r.
Proof. intros H. cbn [ainsert]. rewrite (proj2 (Z.ltb_lt k k') H). reflexivity. Qed.

Lemma ainsert_eq k v v' r : ainsert k v ((k, v') :: r) = (k, v) :: r.
Proof. cbn [ainsert]. rewrite Z.ltb_irrefl, Z.eqb_refl. reflexivity. Qed.

Lemma alookup_ainsert k v t k' :
  alookup k' (ainsert k v t) = if k' =? k then Some v else alookup k' t.
Proof.
  induction t as [|[a b] r IH]; cbn; [reflexivity|].
  destruct (k <? a); cbn; [reflexivity|].
  destruct (Z.eqb_spec k a) as [->|Hka]; cbn; [now destruct (k' =? a)|].
  destruct (Z.eqb_spec k' a) as [->|Hk'a]; [|apply IH].
  destruct (Z.eqb_spec a k); [congruence|reflexivity].
Qed.

Lemma keys_ainsert k v t k' : In k' (map fst (ainsert k v t)) <-> In k' (k :: map fst t).
Proof.
  induction t as [|[a b] r [IH1 IH2]]; cbn [ainsert]; [reflexivity|].
  destruct (k <? a); [reflexivity|]. destruct (Z.eqb_spec k a) as [->|_]; cbn [map fst In] in *.
  - split.
    + intros [H|H]; [left|right; right]; exact H.
    + intros [H|[H|H]]; [left|left|right]; exact H.
  - split.
    + intros [H|H]; [right; left; exact H|]. destruct (IH1 H) as [H'|H']; [left|right; right]; exact H'.
    + intros [H|[H|H]]; [right; apply IH2; left|left|right; apply IH2; right]; exact H.
Qed.

Lemma asorted_ainsert k v t : asorted t -> asorted (ainsert k v t).
Proof.
  induction t as [|[a b] r IH]; cbn.
  - intros _. split; [intros ? []|exact I].
  - intros [H1 H2]. destruct (k <? a) eqn:E1.
    + cbn. split; [|split; assumption].
      intros k' [<-|Hin]; [lia|]. specialize (H1 _ Hin). lia.
    + destruct (Z.eqb_spec k a) as [->|E2].
      * cbn. split; assumption.
      * cbn. split; [|apply IH; assumption].
        intros k' Hin. apply keys_ainsert in Hin. destruct Hin as [<-|Hin]; [lia|auto].
Qed.

Lemma alookup_none_keys k t : alookup k t = None <-> ~ In k (map fst t).
Proof.
  induction t as [|[a b] r IH]; cbn; [tauto|].
  destruct (Z.eqb_spec k a) as [->|Hka].
  - split; [discriminate|]. intros H. exfalso. apply H. left. reflexivity.
  - rewrite IH. split; [intros H [H'|H']; [congruence|auto]|tauto].
Qed.

Lemma alookup_some_keys k t v : alookup k t = Some v -> In k (map fst t).
Proof.
  induction t as [|[a b] r IH]; cbn; [discriminate|].
  destruct (Z.eqb_spec k a) as [E|_]; [intros _; left; symmetry; exact E|intros H; right; exact (IH H)].
Qed.

Lemma alookup_app k a b :
  alookup k (a ++ b) = match alookup k a with Some v => Some v | None => alookup k b end.
Proof. induction a as [|[k' v] r IH]; cbn; [reflexivity|]. destruct (k =? k'); [reflexivity|exact IH]. Qed.

Lemma alookup_in t : asorted t -> forall k v, In (k, v) t <-> alookup k t = Some v.
Proof.
  induction t as [|[a b] r IH]; cbn; intros Hs k v.
  - split; [tauto|discriminate].
  - destruct Hs as [H1 H2]. destruct (Z.eqb_spec k a) as [->|Hka].
    + split; [|intros H; left; congruence]. intros [H|H]; [congruence|].
      exfalso. apply (Z.lt_irrefl a), H1, in_map_iff. exists (a, v). auto.
    + rewrite <- IH by assumption. split; [intros [H|H]; [congruence|assumption]|auto].
Qed.

Lemma asorted_filter f t : asorted t -> asorted (filter f t).
Proof.
  induction t as [|[a b] r IH]; cbn; intros Hs; [exact I|].
  destruct Hs as [H1 H2]. destruct (f (a, b)); cbn; [|auto].
  split; [|auto]. intros k' Hin. eapply H1, (incl_map fst (incl_filter f r)), Hin.
Qed.

Lemma alookup_head k v t : alookup k ((k, v) :: t) = Some v.
Proof. cbn [alookup]. rewrite Z.eqb_refl. reflexivity. Qed.

Lemma asorted_head_le k v t k' v' : asorted ((k, v) :: t) -> alookup k' ((k, v) :: t) = Some v' -> k <= k'.
Proof.
  intros [Hlt _]. cbn [alookup]. destruct (Z.eqb_spec k' k) as [->|_]; [intros _; apply Z.le_refl|].
  intros H. apply Z.lt_le_incl, Hlt, (alookup_some_keys _ _ _ H).
Qed.

Lemma asorted_head_once k v t : asorted ((k, v) :: t) -> alookup k t = None.
Proof. intros [Hlt _]. apply alookup_none_keys. intros H. exact (Z.lt_irrefl k (Hlt k H)). Qed.

(** a sorted association list is determined by its lookups *)
Lemma asorted_ext a : forall b, asorted a -> asorted b -> (forall k, alookup k a = alookup k b) -> a = b.
Proof.
  induction a as [|[ka va] ra IH]; intros [|[kb vb] rb] Ha Hb H.
  - reflexivity.
  - specialize (H kb). rewrite alookup_head in H. discriminate.
  - specialize (H ka). rewrite alookup_head in H. discriminate.
  - assert (ka = kb) as ->.
    { apply Z.le_antisymm.
      - apply (asorted_head_le ka va ra kb vb Ha). rewrite H. apply alookup_head.
      - apply (asorted_head_le kb vb rb ka va Hb). rewrite <- H. apply alookup_head. }
    pose proof (H kb) as Hv. rewrite !alookup_head in Hv. injection Hv as ->.
    f_equal. apply IH; [apply Ha|apply Hb|]. intros k. specialize (H k). cbn [alookup] in H.
    destruct (Z.eqb_spec k kb) as [E|_]; [|exact H].
    rewrite E, (asorted_head_once _ _ _ Ha), (asorted_head_once _ _ _ Hb). reflexivity.
Qed.

End SortedAssoc.

Fixpoint ssorted (t : table) : Prop :=
  match t with
  | [] => True
  | (k, _) :: r => (forall k', In k' (keys r) -> k < k') /\ ssorted r
  end.

Lemma assoc_sset k v t k' :
  assoc k' (sset k v t) = if k' =? k then Some v else assoc k' t.
Proof. exact (alookup_ainsert k v t k'). Qed.

Lemma ssorted_sset k v t : ssorted t -> ssorted (sset k v t).
Proof. exact (asorted_ainsert k v t). Qed.

Lemma assoc_none_keys k t : assoc k t = None <-> ~ In k (keys t).
Proof. exact (alookup_none_keys k t). Qed.

Lemma assoc_some_keys k t v : assoc k t = Some v -> In k (keys t).
Proof. exact (alookup_some_keys k t v). Qed.

Lemma assoc_sadd k v t k' :
  assoc k' (sadd k v t) =
    match assoc k' t with Some x => Some x | None => if k' =? k then Some v else None end.
Proof.
  unfold sadd. destruct (assoc k t) eqn:E.
  - destruct (assoc k' t) eqn:E'; [reflexivity|].
    destruct (Z.eqb_spec k' k) as [->|Hk]; [congruence|reflexivity].
  - rewrite assoc_sset. destruct (Z.eqb_spec k' k) as [->|Hk].
    + now rewrite E.
    + now destruct (assoc k' t).
Qed.

Lemma ssorted_sadd k v t : ssorted t -> ssorted (sadd k v t).
Proof. unfold sadd. destruct (assoc k t); [auto|apply ssorted_sset]. Qed.


Lemma assoc_set_all t : ssorted t -> forall m k,
  assoc k (set_all m t) = match assoc k t with Some v => Some v | None => assoc k m end.
Proof.
  unfold set_all. induction t as [|[a b] r IH]; cbn; intros Hs m k; [reflexivity|].
  destruct Hs as [H1 H2]. rewrite IH by assumption. rewrite assoc_sset.
  destruct (Z.eqb_spec k a) as [->|Hka]; [|reflexivity].
  destruct (assoc a r) eqn:Er; [|reflexivity].
  apply assoc_some_keys in Er. specialize (H1 _ Er). lia.
Qed.

Lemma ssorted_set_all t m : ssorted m -> ssorted (set_all m t).
Proof. apply (fold_left_inv _ ssorted). intros a x. apply ssorted_sset. Qed.

Lemma assoc_add_absent t : forall m k,
  assoc k (add_absent m t) = match assoc k m with Some v => Some v | None => assoc k t end.
Proof.
  unfold add_absent. induction t as [|[a b] r IH]; cbn; intros m k.
  - now destruct (assoc k m).
  - rewrite IH. rewrite assoc_sadd. destruct (assoc k m); [reflexivity|].
    destruct (k =? a); reflexivity.
Qed.

Lemma ssorted_add_absent t m : ssorted m -> ssorted (add_absent m t).
Proof. apply (fold_left_inv _ ssorted). intros a x. apply ssorted_sadd. Qed.

Lemma has_filter f (t : table) k : In k (keys (filter f t)) -> In k (keys t).
Proof. apply (incl_map fst (incl_filter f t)). Qed.

Lemma ssorted_filter f t : ssorted t -> ssorted (filter f t).
Proof. exact (asorted_filter f t). Qed.

Lemma assoc_filter f t : ssorted t -> forall k,
  assoc k (filter f t) =
    match assoc k t with Some v => if f (k, v) then Some v else None | None => None end.
Proof.
  induction t as [|[a b] r IH]; cbn; intros Hs k; [reflexivity|].
  destruct Hs as [H1 H2]. destruct (k =? a) eqn:E.
  - apply Z.eqb_eq in E. subst k. destruct (f (a, b)) eqn:Ef; cbn.
    + now rewrite Z.eqb_refl.
    + rewrite IH by assumption. destruct (assoc a r) eqn:Er; [|reflexivity].
      apply assoc_some_keys in Er. specialize (H1 _ Er). lia.
  - destruct (f (a, b)); cbn; [rewrite E|]; apply IH; assumption.
Qed.

Lemma ssorted_first_le t : ssorted t -> forall k d, In k (keys t) -> first_key t d <= k.
Proof.
  destruct t as [|[a b] r]; cbn; intros Hs k d Hin; [tauto|].
  destruct Hs as [H1 _]. destruct Hin as [<-|Hin]; [lia|]. specialize (H1 _ Hin). lia.
Qed.

Lemma ssorted_le_last t : ssorted t -> forall k d, In k (keys t) -> k <= last_key t d.
Proof.
  unfold last_key. induction t as [|[a b] r IH]; intros Hs k d Hin; [destruct Hin|].
  destruct Hs as [H1 H2]. destruct r as [|p r'].
  - cbn in *. destruct Hin as [<-|[]]. lia.
  - change (last ((a, b) :: p :: r') (d, Tomb)) with (last (p :: r') (d, Tomb)).
    destruct Hin as [<-|Hin].
    + assert (In (fst p) (keys (p :: r'))) by (left; reflexivity).
      specialize (IH H2 _ d H). specialize (H1 _ H). cbn [fst]. lia.
    + apply IH; assumption.
Qed.

Lemma overlaps_common a b k :
  ssorted a -> ssorted b -> In k (keys a) -> In k (keys b) -> overlaps a b = true.
Proof.
  intros Ha Hb Ia Ib. unfold overlaps.
  destruct a as [|pa ra]; [destruct Ia|]. destruct b as [|pb rb]; [destruct Ib|].
  pose proof (ssorted_first_le _ Ha k 0 Ia). pose proof (ssorted_le_last _ Ha k 0 Ia).
  pose proof (ssorted_first_le _ Hb k 0 Ib). pose proof (ssorted_le_last _ Hb k 0 Ib).
  lia.
Qed.

Section Bloom.
Variable bl : list Z -> Z -> bool.
Hypothesis bl_no_false_negative : forall ks k, In k ks -> bl ks k = true.

Lemma tbl_get_assoc k t : tbl_get bl k t = assoc k t.
Proof.
  unfold tbl_get. destruct (bl (keys t) k) eqn:E; [reflexivity|].
  destruct (assoc k t) eqn:Ea; [|reflexivity].
  apply assoc_some_keys in Ea. rewrite bl_no_false_negative in E by assumption. discriminate.
Qed.

(** newest-first lookup in a level, by plain [assoc] *)
Fixpoint lget (k : Z) (l : level) : option sval :=
  match l with
  | [] => None
  | t :: r => match lget k r with Some v => Some v | None => assoc k t end
  end.

Lemma level_get_lget k l : level_get bl k l = lget k l.
Proof. induction l as [|t r IH]; cbn; [reflexivity|]. now rewrite IH, tbl_get_assoc. Qed.

Fixpoint lsget (k : Z) (ls : list level) : option sval :=
  match ls with
  | [] => None
  | l :: r => match lget k l with Some v => Some v | None => lsget k r end
  end.

Lemma levels_get_lsget k ls : levels_get bl k ls = lsget k ls.
Proof. induction ls as [|l r IH]; cbn; [reflexivity|]. now rewrite IH, level_get_lget. Qed.

End Bloom.

Lemma lget_app k a b : lget k (a ++ b) = match lget k b with Some v => Some v | None => lget k a end.
Proof.
  induction a as [|t r IH]; cbn.
  - now destruct (lget k b).
  - rewrite IH. now destruct (lget k b).
Qed.

Lemma lsget_app k a b : lsget k (a ++ b) = match lsget k a with Some v => Some v | None => lsget k b end.
Proof. induction a as [|l r IH]; cbn; [reflexivity|]. rewrite IH. now destruct (lget k l). Qed.

(** oldest-first lookup (the order in which overlapping target tables are merged) *)
Fixpoint oget (k : Z) (l : level) : option sval :=
  match l with
  | [] => None
  | t :: r => match assoc k t with Some v => Some v | None => oget k r end
  end.

Lemma oget_rev k l : oget k l = lget k (rev l).
Proof. induction l as [|t r IH]; cbn; [reflexivity|]. rewrite lget_app. cbn. now rewrite IH. Qed.

Definition all_sorted (l : level) : Prop := forall t, In t l -> ssorted t.

Lemma assoc_merge_src_gen srcs : all_sorted srcs -> forall m k,
  assoc k (fold_left set_all srcs m) = match lget k srcs with Some v => Some v | None => assoc k m end.
Proof.
  induction srcs as [|t r IH]; cbn; intros Hs m k; [reflexivity|].
  rewrite IH by (intros u Hu; apply Hs; right; assumption).
  rewrite assoc_set_all by (apply Hs; left; reflexivity).
  now destruct (lget k r).
Qed.

Lemma assoc_merge_src srcs k : all_sorted srcs -> assoc k (merge_src srcs) = lget k srcs.
Proof. intros H. unfold merge_src. rewrite assoc_merge_src_gen by assumption. now destruct (lget k srcs). Qed.

Lemma ssorted_merge_src srcs : ssorted (merge_src srcs).
Proof. apply (fold_left_inv _ ssorted); [|exact I]. intros a x. apply ssorted_set_all. Qed.

Lemma assoc_fold_add_absent ov : forall m k,
  assoc k (fold_left add_absent ov m) = match assoc k m with Some v => Some v | None => oget k ov end.
Proof.
  induction ov as [|t r IH]; cbn; intros m k.
  - now destruct (assoc k m).
  - rewrite IH, assoc_add_absent. now destruct (assoc k m).
Qed.

Lemma assoc_merge_all srcs ov k : all_sorted srcs ->
  assoc k (fold_left add_absent ov (merge_src srcs)) =
    match lget k srcs with Some v => Some v | None => oget k ov end.
Proof. intros H. now rewrite assoc_fold_add_absent, assoc_merge_src. Qed.

Lemma ssorted_merge_all srcs ov : ssorted (fold_left add_absent ov (merge_src srcs)).
Proof. apply (fold_left_inv _ ssorted); [|apply ssorted_merge_src]. intros a x. apply ssorted_add_absent. Qed.

Lemma ssorted_merged_into src tgt d : ssorted (merged_into src tgt d).
Proof. unfold merged_into. destruct d; [apply ssorted_filter|]; apply ssorted_merge_all. Qed.

Definition has (k : Z) (t : table) : Prop := In k (keys t).

Fixpoint kdisj (l : level) : Prop :=
  match l with
  | [] => True
  | t :: r => (forall u k, In u r -> has k t -> has k u -> False) /\ kdisj r
  end.

Lemma kdisj_in l : kdisj l -> forall t u k, In t l -> In u l -> has k t -> has k u -> t = u.
Proof.
  induction l as [|x r IH]; cbn; [intros _ ? ? ? []|].
  intros [H1 H2] t u k [->|Ht] [->|Hu] Hkt Hku.
  - reflexivity.
  - exfalso. exact (H1 u k Hu Hkt Hku).
  - exfalso. exact (H1 t k Ht Hku Hkt).
  - exact (IH H2 t u k Ht Hu Hkt Hku).
Qed.

Lemma lget_none k l : lget k l = None <-> forall t, In t l -> ~ has k t.
Proof.
  induction l as [|t r IH]; cbn; [tauto|].
  destruct (lget k r) eqn:E.
  - split; [discriminate|]. intros H. exfalso.
    assert (Some s = None) by (apply IH; intros u Hu; apply H; auto). congruence.
  - rewrite assoc_none_keys. split.
    + intros H u [<-|Hu]; [assumption|]. apply IH; auto.
    + intros H. apply H. auto.
Qed.

Lemma oget_none k l : oget k l = None <-> forall t, In t l -> ~ has k t.
Proof.
  rewrite oget_rev, lget_none.
  split; intros H t Ht; apply H; [rewrite <- in_rev|rewrite in_rev]; exact Ht.
Qed.

Lemma lget_some_has k l : lget k l <> None -> exists t, In t l /\ has k t.
Proof.
  induction l as [|t r IH]; cbn; [congruence|]. intros H.
  destruct (lget k r).
  - destruct IH as [u [Hu Hk]]; [discriminate|]. exists u. auto.
  - exists t. split; [left; reflexivity|].
    destruct (assoc k t) eqn:Ea; [|congruence]. eapply assoc_some_keys, Ea.
Qed.

Lemma oget_some_has k l : oget k l <> None -> exists t, In t l /\ has k t.
Proof.
  rewrite oget_rev. intros H. destruct (lget_some_has _ _ H) as [t [Ht Hk]].
  exists t. rewrite in_rev. auto.
Qed.

(** With at most one holder per key, splitting a level by any predicate and
    reading the selected part oldest-first, then the rest newest-first, gives
    the same answer as reading the whole level newest-first. *)
Lemma kdisj_partition k p l : kdisj l ->
  match oget k (filter p l) with Some v => Some v | None => lget k (filter (fun t => negb (p t)) l) end
  = lget k l.
Proof.
  induction l as [|t r IH]; cbn; intros Hd; [reflexivity|].
  destruct Hd as [H1 H2]. specialize (IH H2).
  destruct (assoc k t) eqn:Et.
  - (* t holds k: nobody in r does *)
    assert (Hr : forall u, In u r -> ~ has k u).
    { intros u Hu Hk. apply assoc_some_keys in Et. exact (H1 u k Hu Et Hk). }
    assert (lget k r = None) as Hl by (apply lget_none; assumption).
    assert (oget k (filter p r) = None) as Ho.
    { apply oget_none. intros u Hu. apply filter_In in Hu. apply Hr. tauto. }
    assert (lget k (filter (fun t => negb (p t)) r) = None) as Hl'.
    { apply lget_none. intros u Hu. apply filter_In in Hu. apply Hr. tauto. }
    rewrite Hl. destruct (p t); cbn.
    + now rewrite Et.
    + now rewrite Ho, Hl', Et.
  - destruct (p t); cbn.
    + rewrite Et. rewrite IH. now destruct (lget k r).
    + rewrite <- IH. destruct (oget k (filter p r)); [reflexivity|].
      now destruct (lget k (filter (fun t0 => negb (p t0)) r)).
Qed.

Lemma kdisj_filter p l : kdisj l -> kdisj (filter p l).
Proof.
  induction l as [|t r IH]; cbn; intros Hd; [exact I|].
  destruct Hd as [H1 H2]. destruct (p t); cbn; [|auto].
  split; [|auto]. intros u k Hu. apply filter_In in Hu. apply H1. tauto.
Qed.

Lemma kdisj_app_one l m : kdisj l -> (forall u k, In u l -> has k u -> has k m -> False) -> kdisj (l ++ [m]).
Proof.
  induction l as [|t r IH]; cbn; intros Hd Hm.
  - split; [intros ? ? []|exact I].
  - destruct Hd as [H1 H2]. split.
    + intros u k Hu Ht Hku. apply in_app_iff in Hu. destruct Hu as [Hu|[<-|[]]].
      * exact (H1 u k Hu Ht Hku).
      * exact (Hm t k (or_introl eq_refl) Ht Hku).
    + apply IH; [assumption|]. intros u k Hu. apply Hm. auto.
Qed.

(** invariant of the list of levels: every table strictly sorted; every level
    has at most one holder per key (used as [lv_disj (tl ls)]: level 0 is exempt) *)
Definition lv_sorted (ls : list level) : Prop := forall l, In l ls -> all_sorted l.
Fixpoint lv_disj (ls : list level) : Prop :=
  match ls with [] => True | l :: r => kdisj l /\ lv_disj r end.

Lemma lv_sorted_cons l r : lv_sorted (l :: r) <-> all_sorted l /\ lv_sorted r.
Proof.
  split.
  - intros H. split; [|intros x Hx]; apply H; [left; reflexivity|right; exact Hx].
  - intros [H1 H2] x [<-|Hx]; auto.
Qed.

Lemma lv_sorted_app a b : lv_sorted (a ++ b) <-> lv_sorted a /\ lv_sorted b.
Proof.
  split.
  - intros H. split; intros l Hl; apply H, in_app_iff; auto.
  - intros [H1 H2] l Hl. apply in_app_iff in Hl. destruct Hl; auto.
Qed.

Lemma lv_disj_app a b : lv_disj (a ++ b) <-> lv_disj a /\ lv_disj b.
Proof. induction a as [|l r IH]; cbn; tauto. Qed.

Lemma lv_disj_tl ls : lv_disj ls -> lv_disj (tl ls).
Proof. destruct ls; cbn; tauto. Qed.

Lemma lv_disj_below pre src rest : lv_disj (tl (pre ++ src :: rest)) -> lv_disj rest.
Proof. destruct pre; cbn [app tl]; [auto|]. rewrite lv_disj_app. cbn. tauto. Qed.

Lemma has_overlapping srcs t k : all_sorted srcs -> ssorted t ->
  (exists s, In s srcs /\ has k s) -> has k t -> is_overlapping srcs t = true.
Proof.
  intros Hs Ht [s [Hin Hk]] Hkt. unfold is_overlapping. apply existsb_exists.
  exists s. split; [assumption|]. eapply overlaps_common; eauto.
Qed.

Lemma keepers_miss src tgt k : all_sorted src -> all_sorted tgt -> kdisj tgt ->
  lget k src <> None \/ oget k (overlapping src tgt) <> None ->
  lget k (keepers src tgt) = None.
Proof.
  intros Hs Ht Hd H. apply lget_none. intros u Hu Hku.
  unfold keepers in Hu. apply filter_In in Hu. destruct Hu as [Hu Hno].
  assert (is_overlapping src u = true) as Ho; [|rewrite Ho in Hno; discriminate].
  destruct H as [H|H].
  - (* a source table holds k: its key range meets that of u *)
    apply (has_overlapping src u k); auto using lget_some_has.
  - (* an overlapping table holds k: it is u *)
    apply oget_some_has in H. destruct H as [t [Hto Hkt]].
    unfold overlapping in Hto. apply filter_In in Hto. destruct Hto as [Hto Hyes].
    now rewrite <- (kdisj_in tgt Hd t u k Hto Hu Hkt Hku).
Qed.

Lemma has_merged_into src tgt d k : all_sorted src ->
  has k (merged_into src tgt d) -> lget k src <> None \/ oget k (overlapping src tgt) <> None.
Proof.
  intros Hs Hk.
  assert (has k (fold_left add_absent (overlapping src tgt) (merge_src src))) as H
    by (unfold merged_into in Hk; destruct d; [eapply has_filter|]; exact Hk).
  assert (assoc k (fold_left add_absent (overlapping src tgt) (merge_src src)) <> None) as N
    by (intros N; apply assoc_none_keys in N; exact (N H)).
  rewrite assoc_merge_all in N by assumption.
  destruct (lget k src); [left; discriminate|right; exact N].
Qed.

Definition same_or_dropped (before after : option sval) : Prop :=
  after = before \/ (before = Some Tomb /\ after = None).

Lemma lookup_merged_into src tgt deepest k :
  all_sorted src -> all_sorted tgt -> kdisj tgt ->
  let before := match lget k src with Some v => Some v | None => lget k tgt end in
  let after := match assoc k (merged_into src tgt deepest) with
               | Some v => Some v
               | None => lget k (keepers src tgt)
               end in
  if deepest then same_or_dropped before after else after = before.
Proof.
  intros Hs Ht Hd. cbv zeta.
  pose proof (kdisj_partition k (is_overlapping src) tgt Hd) as Hp.
  fold (overlapping src tgt) in Hp. fold (keepers src tgt) in Hp. rewrite <- Hp.
  pose proof (keepers_miss src tgt k Hs Ht Hd) as Hk.
  unfold merged_into. destruct deepest.
  - unfold drop_tombs. rewrite assoc_filter by apply ssorted_merge_all.
    rewrite assoc_merge_all by assumption.
    destruct (lget k src) as [[v|]|]; cbn.
    + left. reflexivity.
    + right. split; [reflexivity|]. apply Hk. left. discriminate.
    + destruct (oget k (overlapping src tgt)) as [[v|]|]; cbn.
      * left. reflexivity.
      * right. split; [reflexivity|]. apply Hk. right. discriminate.
      * left. reflexivity.
  - rewrite assoc_merge_all by assumption. now destruct (lget k src).
Qed.

(** A compaction of level [src] above the levels [rest] writes the table
    [merged src rest] and leaves the levels [install src rest m]. *)
Definition merged (src : level) (rest : list level) : table :=
  match rest with
  | [] => drop_tombs (merge_src src)
  | tgt :: rest' => merged_into src tgt (match rest' with [] => true | _ :: _ => false end)
  end.

Definition install (src : level) (rest : list level) (m : table) : list level :=
  match rest with
  | [] => [[m]]
  | tgt :: rest' => [] :: (keepers src tgt ++ [m]) :: rest'
  end.

Lemma compact_levels_0 src rest :
  compact_levels 0 (src :: rest) =
    match src, merged src rest with
    | _ :: _, _ :: _ => install src rest (merged src rest)
    | _, _ => src :: rest
    end.
Proof.
  destruct src as [|t src']; [reflexivity|].
  destruct rest as [|tgt rest']; cbn [compact_levels merged install].
  - now destruct (drop_tombs _).
  - now destruct (merged_into _ _ _).
Qed.

Lemma compact_levels_app pre ls :
  compact_levels (length pre) (pre ++ ls) = pre ++ compact_levels 0 ls.
Proof. induction pre as [|l pre IH]; cbn [length app compact_levels]; [reflexivity|]. now rewrite IH. Qed.

Lemma compact_levels_cases s : forall ls,
  compact_levels s ls = ls \/
  exists pre src rest, ls = pre ++ src :: rest /\
    compact_levels s ls = pre ++ install src rest (merged src rest).
Proof.
  induction s as [|s IH]; intros [|src rest]; try (left; reflexivity).
  - rewrite compact_levels_0. destruct src as [|t src']; [left; reflexivity|].
    destruct (merged (t :: src') rest) eqn:E; [left; reflexivity|]. rewrite <- E.
    right. exists [], (t :: src'), rest. split; reflexivity.
  - cbn [compact_levels].
    destruct (IH rest) as [->|(pre & src' & rest' & -> & ->)]; [left; reflexivity|].
    right. exists (src :: pre), src', rest'. split; reflexivity.
Qed.

Lemma first_some_none {A} (x : option A) : match x with Some v => Some v | None => None end = x.
Proof. now destruct x. Qed.

Lemma lsget_install src rest k : lv_sorted (src :: rest) -> lv_disj rest ->
  let after := lsget k (install src rest (merged src rest)) in
  match rest with
  | _ :: _ :: _ => after = lsget k (src :: rest)
  | _ => same_or_dropped (lsget k (src :: rest)) after
  end.
Proof.
  intros Hs Hd. apply lv_sorted_cons in Hs. destruct Hs as [Hsrc Hr].
  destruct rest as [|tgt rest']; cbn [install merged lsget lget].
  - (* the source is the last level: a merge into an empty target *)
    exact (lookup_merged_into src [] true k Hsrc (fun _ F => match F with end) I).
  - apply lv_sorted_cons in Hr. destruct Hr as [Htgt _]. destruct Hd as [Hdt _].
    pose proof (lookup_merged_into src tgt (match rest' with [] => true | _ :: _ => false end)
                  k Hsrc Htgt Hdt) as M.
    cbv zeta in M |- *. rewrite lget_app. cbn [lget].
    destruct rest' as [|l rest'']; cbn [lsget].
    + rewrite !first_some_none. exact M.
    + rewrite M. now destruct (lget k src).
Qed.

Lemma lv_sorted_install src rest : lv_sorted rest -> lv_sorted (install src rest (merged src rest)).
Proof.
  intros Hr. destruct rest as [|tgt rest']; cbn [install merged].
  - intros l [<-|[]] t [<-|[]]. apply ssorted_filter, ssorted_merge_src.
  - apply lv_sorted_cons in Hr. destruct Hr as [Htgt Hr].
    apply lv_sorted_cons. split; [intros ? []|]. apply lv_sorted_cons. split; [|assumption].
    intros t Ht. apply in_app_iff in Ht. destruct Ht as [Ht|[<-|[]]]; [|apply ssorted_merged_into].
    unfold keepers in Ht. apply filter_In in Ht. apply Htgt, Ht.
Qed.

Lemma lv_disj_install src rest : lv_sorted (src :: rest) -> lv_disj rest ->
  lv_disj (install src rest (merged src rest)).
Proof.
  intros Hs Hd. destruct rest as [|tgt rest']; cbn [install merged lv_disj].
  - repeat split. intros ? ? [].
  - apply lv_sorted_cons in Hs. destruct Hs as [Hsrc Hr].
    apply lv_sorted_cons in Hr. destruct Hr as [Htgt _]. destruct Hd as [Hdt Hdr].
    split; [exact I|]. split; [|assumption].
    apply kdisj_app_one; [apply kdisj_filter; assumption|].
    intros u k Hu Hku Hkm. apply has_merged_into in Hkm; [|assumption].
    pose proof (keepers_miss src tgt k Hsrc Htgt Hdt Hkm) as N.
    rewrite lget_none in N. exact (N u Hu Hku).
Qed.

Lemma same_or_dropped_under (p x y : option sval) : same_or_dropped x y ->
  same_or_dropped (match p with Some v => Some v | None => x end)
                  (match p with Some v => Some v | None => y end).
Proof. destruct p; [left; reflexivity|auto]. Qed.

Lemma compact_lookup s : forall ls k, lv_sorted ls -> lv_disj (tl ls) ->
  same_or_dropped (lsget k ls) (lsget k (compact_levels s ls)).
Proof.
  intros ls k Hs Hd.
  destruct (compact_levels_cases s ls) as [->|(pre & src & rest & -> & ->)]; [left; reflexivity|].
  rewrite !lsget_app. apply same_or_dropped_under. apply lv_sorted_app in Hs.
  pose proof (lsget_install src rest k (proj2 Hs) (lv_disj_below pre src rest Hd)) as M.
  destruct rest as [|tgt [|l rest']]; [exact M|exact M|left; exact M].
Qed.

Lemma compact_sorted s ls : lv_sorted ls -> lv_sorted (compact_levels s ls).
Proof.
  intros Hs.
  destruct (compact_levels_cases s ls) as [->|(pre & src & rest & -> & ->)]; [assumption|].
  apply lv_sorted_app in Hs. destruct Hs as [Hp Hs]. apply lv_sorted_cons in Hs.
  apply lv_sorted_app. split; [assumption|]. apply lv_sorted_install, Hs.
Qed.

Lemma compact_disj s ls : lv_sorted ls -> lv_disj (tl ls) -> lv_disj (tl (compact_levels s ls)).
Proof.
  intros Hs Hd.
  destruct (compact_levels_cases s ls) as [->|(pre & src & rest & -> & ->)]; [assumption|].
  apply lv_sorted_app in Hs. destruct Hs as [_ Hs].
  pose proof (lv_disj_install src rest Hs (lv_disj_below pre src rest Hd)) as D.
  destruct pre as [|p pre]; cbn [app tl] in *.
  - apply lv_disj_tl, D.
  - apply lv_disj_app in Hd. apply lv_disj_app. tauto.
Qed.

Lemma compact_nonempty s ls : ls <> [] -> compact_levels s ls <> [].
Proof.
  intros H.
  destruct (compact_levels_cases s ls) as [->|(pre & src & rest & -> & ->)]; [assumption|].
  destruct pre; [destruct rest|]; discriminate.
Qed.

Definition lv_ok (ls : list level) : Prop := lv_sorted ls /\ lv_disj (tl ls) /\ ls <> [].

Definition inv (st : lsm) : Prop := ssorted (mem st) /\ lv_ok (levels st).

Definition raw (st : lsm) (k : Z) : option sval :=
  match assoc k (mem st) with Some v => Some v | None => lsget k (levels st) end.

Lemma compact_ok s ls : lv_ok ls -> lv_ok (compact_levels s ls).
Proof.
  intros (Hs & Hd & Hn).
  split; [apply compact_sorted|split; [apply compact_disj|apply compact_nonempty]]; assumption.
Qed.

Lemma push_l0_ok t ls : ssorted t -> lv_ok ls -> lv_ok (push_l0 t ls).
Proof.
  intros Ht (Hs & Hd & Hn). destruct ls as [|l0 r]; [congruence|]. cbn [push_l0].
  apply lv_sorted_cons in Hs. destruct Hs as [H0 Hr].
  split; [|split; [exact Hd|discriminate]]. apply lv_sorted_cons. split; [|exact Hr].
  intros u Hu. apply in_app_iff in Hu. destruct Hu as [Hu|[<-|[]]]; auto.
Qed.

Lemma lsget_push_l0 k t ls : ls <> [] ->
  lsget k (push_l0 t ls) = match assoc k t with Some v => Some v | None => lsget k ls end.
Proof.
  destruct ls as [|l0 r]; [congruence|]. intros _. cbn [push_l0 lsget]. rewrite lget_app. cbn [lget].
  now destruct (assoc k t).
Qed.

Lemma ext_same_or_dropped a b : same_or_dropped a b -> ext b = ext a.
Proof. intros [->|[-> ->]]; reflexivity. Qed.

Lemma maybe_compact_ok c st : inv st ->
  inv (maybe_compact c st) /\ forall k, ext (raw (maybe_compact c st) k) = ext (raw st k).
Proof.
  intros [Hm Hl]. unfold maybe_compact.
  destruct (pick (strat c) (levels st)) as [s|]; [|split; [split; assumption|reflexivity]].
  destruct (selection_nonempty s (levels st)); [|split; [split; assumption|reflexivity]].
  split; [split; [exact Hm|apply compact_ok, Hl]|].
  intros k. unfold raw. cbn [mem levels]. destruct (assoc k (mem st)); [reflexivity|].
  apply ext_same_or_dropped, compact_lookup; apply Hl.
Qed.

Lemma flush_ok c st : inv st ->
  inv (flush c st) /\ forall k, ext (raw (flush c st) k) = ext (raw st k).
Proof.
  intros [Hm Hl]. unfold flush. pose proof (conj Hm Hl : inv st) as I0.
  destruct (mem st) as [|p m'] eqn:Em; [split; [exact I0|reflexivity]|]. rewrite <- Em.
  destruct (maybe_compact_ok c {| mem := []; levels := push_l0 (mem st) (levels st);
                                  ncomp := ncomp st; nflush := nflush st + 1 |}) as [I2 R2].
  { split; [exact I|apply push_l0_ok; [apply I0|exact Hl]]. }
  split; [exact I2|]. intros k. rewrite R2. unfold raw. cbn [mem levels assoc].
  apply f_equal, lsget_push_l0, Hl.
Qed.

Lemma write_ok c st k v : inv st ->
  inv (write c st k v) /\
  forall k', ext (raw (write c st k v) k') = if k' =? k then ext (Some v) else ext (raw st k').
Proof.
  intros [Hm Hl]. unfold write.
  set (st1 := {| mem := sset k v (mem st); levels := levels st; ncomp := ncomp st; nflush := nflush st |}).
  assert (inv st1) as I1 by (split; [apply ssorted_sset, Hm|exact Hl]).
  assert (forall k', ext (raw st1 k') = if k' =? k then ext (Some v) else ext (raw st k')) as R1.
  { intros k'. unfold raw. cbn. rewrite assoc_sset. destruct (k' =? k); reflexivity. }
  destruct (zlen (mem st1) >=? thr c); [|split; assumption].
  destruct (flush_ok c st1 I1) as [I2 R2]. split; [assumption|].
  intros k'. rewrite R2. apply R1.
Qed.

Lemma apply_ok c st o m : inv st -> (forall k, ext (raw st k) = m k) ->
  inv (apply c st o) /\ forall k, ext (raw (apply c st o) k) = spec_apply m o k.
Proof.
  intros I R. destruct o as [k v|k|k|lo hi]; cbn [apply spec_apply]; try (split; assumption).
  - destruct (write_ok c st k (Val v) I) as [I' R']. split; [assumption|].
    intros k'. rewrite R'. destruct (k' =? k); [reflexivity|apply R].
  - destruct (write_ok c st k Tomb I) as [I' R']. split; [assumption|].
    intros k'. rewrite R'. destruct (k' =? k); [reflexivity|apply R].
Qed.

Lemma run_ok_gen c ops : forall st m, inv st -> (forall k, ext (raw st k) = m k) ->
  inv (fold_left (apply c) ops st) /\
  forall k, ext (raw (fold_left (apply c) ops st) k) = fold_left spec_apply ops m k.
Proof.
  induction ops as [|o r IH]; intros st m I R; cbn; [split; assumption|].
  destruct (apply_ok c st o m I R) as [I' R']. apply IH; assumption.
Qed.

Lemma init_inv c : (nlev c >= 1)%nat -> inv (lsm_init c).
Proof.
  intros H. unfold lsm_init, inv, lv_ok. cbn [mem levels]. destruct (nlev c) as [|n]; [lia|]. cbn [repeat tl].
  split; [exact I|]. split; [|split; [|discriminate]].
  - intros l Hl. apply (repeat_spec (S n)) in Hl. subst. intros ? [].
  - clear. induction n; cbn; [exact I|]. split; [exact I|assumption].
Qed.

Lemma init_raw c k : raw (lsm_init c) k = None.
Proof. unfold raw, lsm_init. cbn. induction (nlev c); cbn; [reflexivity|assumption]. Qed.

Lemma run_ok c ops : (nlev c >= 1)%nat ->
  inv (run c ops) /\ forall k, ext (raw (run c ops) k) = spec_of ops k.
Proof. intros H. apply run_ok_gen; [apply init_inv, H|]. intros k. now rewrite init_raw. Qed.

Section Reads.
Variable bl : list Z -> Z -> bool.
Hypothesis bl_no_false_negative : forall ks k, In k ks -> bl ks k = true.

Lemma raw_get_raw st k : raw_get bl st k = raw st k.
Proof. unfold raw_get, raw. now rewrite (levels_get_lsget bl bl_no_false_negative). Qed.

(** Every read of every reachable state equals the read on the reference map. *)
Theorem lsm_get_refines_map c ops k : (nlev c >= 1)%nat ->
  lsm_get bl (run c ops) k = spec_of ops k.
Proof.
  intros H. unfold lsm_get. rewrite raw_get_raw. apply run_ok, H.
Qed.
End Reads.

Fixpoint strictly_increasing (l : list Z) : Prop :=
  match l with [] => True | x :: r => (forall y, In y r -> x < y) /\ strictly_increasing r end.

Lemma asorted_increasing {V} (t : list (Z * V)) : asorted t <-> strictly_increasing (map fst t).
Proof. induction t as [|[k v] r IH]; cbn; [reflexivity|]. rewrite IH. reflexivity. Qed.

Definition rng (lo hi k : Z) : bool := (lo <=? k) && (k <? hi).

Lemma rng_spec lo hi k : rng lo hi k = true <-> lo <= k < hi.
Proof. unfold rng. lia. Qed.

Lemma assoc_filter_range lo hi t k : ssorted t ->
  assoc k (filter (in_range lo hi) t) = if rng lo hi k then assoc k t else None.
Proof.
  intros Hs. rewrite assoc_filter by assumption. unfold in_range, rng. cbn [fst].
  destruct (assoc k t); destruct ((lo <=? k) && (k <? hi)); reflexivity.
Qed.

Lemma assoc_scan_level lo hi l : all_sorted l -> forall m k,
  assoc k (scan_level lo hi m l) =
    match assoc k m with Some v => Some v | None => if rng lo hi k then lget k l else None end.
Proof.
  unfold scan_level. induction l as [|t r IH]; intros Hs m k; cbn.
  - destruct (assoc k m); [reflexivity|]. now destruct (rng lo hi k).
  - rewrite fold_left_app. cbn. rewrite assoc_add_absent.
    rewrite IH by (intros u Hu; apply Hs; right; assumption).
    destruct (assoc k m); [reflexivity|].
    rewrite assoc_filter_range by (apply Hs; left; reflexivity).
    destruct (rng lo hi k); [|reflexivity]. now destruct (lget k r).
Qed.

Lemma ssorted_scan_level lo hi l m : ssorted m -> ssorted (scan_level lo hi m l).
Proof. apply (fold_left_inv _ ssorted). intros a x. apply ssorted_add_absent. Qed.

Lemma assoc_scan_levels lo hi ls : lv_sorted ls -> forall m k,
  assoc k (fold_left (scan_level lo hi) ls m) =
    match assoc k m with Some v => Some v | None => if rng lo hi k then lsget k ls else None end.
Proof.
  induction ls as [|l r IH]; intros Hs m k; cbn.
  - destruct (assoc k m); [reflexivity|]. now destruct (rng lo hi k).
  - rewrite IH by (intros u Hu; apply Hs; right; assumption).
    rewrite assoc_scan_level by (apply Hs; left; reflexivity).
    destruct (assoc k m); [reflexivity|]. destruct (rng lo hi k); [|reflexivity].
    now destruct (lget k l).
Qed.

Lemma ssorted_scan_levels lo hi ls m : ssorted m -> ssorted (fold_left (scan_level lo hi) ls m).
Proof. apply (fold_left_inv _ ssorted). intros a x. apply ssorted_scan_level. Qed.

Lemma scan_merged_spec lo hi st : inv st ->
  ssorted (scan_merged lo hi st) /\
  forall k, assoc k (scan_merged lo hi st) = if rng lo hi k then raw st k else None.
Proof.
  intros (Hm & Hs & _). unfold scan_merged. split.
  - apply ssorted_scan_levels, ssorted_set_all. exact I.
  - intros k. rewrite assoc_scan_levels by assumption.
    rewrite assoc_set_all by (apply ssorted_filter; assumption).
    rewrite assoc_filter_range by assumption. cbn [assoc]. unfold raw.
    destruct (rng lo hi k); [|reflexivity]. now destruct (assoc k (mem st)).
Qed.

Lemma live_in m k v : In (k, v) (live m) <-> In (k, Val v) m.
Proof.
  unfold live. rewrite in_flat_map. split.
  - intros [[a [b|]] [Hin H]]; cbn in H; [|destruct H].
    destruct H as [H|[]]. injection H as <- <-. assumption.
  - intros H. exists (k, Val v). split; [assumption|left; reflexivity].
Qed.

Lemma live_sorted m : ssorted m -> strictly_increasing (map fst (live m)).
Proof.
  induction m as [|[a b] r IH]; cbn; intros Hs; [exact I|].
  destruct Hs as [H1 H2]. destruct b as [v|]; cbn; [|auto].
  split; [|auto]. intros y Hy. apply in_map_iff in Hy. destruct Hy as [[k' v'] [<- Hin]].
  apply live_in in Hin. apply H1. apply in_map_iff. exists (k', Val v'). auto.
Qed.

(** Scans return exactly the live keys of the range, in strictly increasing key order. *)
Theorem lsm_scan_exact c ops lo hi : (nlev c >= 1)%nat ->
  let r := lsm_scan lo hi (run c ops) in
  strictly_increasing (map fst r) /\
  forall k v, In (k, v) r <-> (lo <= k < hi /\ spec_of ops k = Some v).
Proof.
  intros H r. destruct (run_ok c ops H) as [I R].
  destruct (scan_merged_spec lo hi (run c ops) I) as [Hs Ha]. subst r. unfold lsm_scan. split.
  - apply live_sorted. assumption.
  - intros k v. rewrite live_in, (alookup_in _ Hs), Ha.
    specialize (R k). destruct (rng lo hi k) eqn:E.
    + apply rng_spec in E. rewrite <- R. split.
      * intros ->. split; [exact E|reflexivity].
      * intros [_ Hx]. destruct (raw (run c ops) k) as [[x|]|]; cbn in Hx; congruence.
    + split; [discriminate|]. intros [Hr _]. apply rng_spec in Hr. congruence.
Qed.

(** The hypotheses are satisfiable: the exact filter has no false negatives. *)
Definition bl_exact (ks : list Z) (k : Z) : bool := existsb (Z.eqb k) ks.
Example bl_exact_no_false_negative : forall ks k, In k ks -> bl_exact ks k = true.
Proof. intros ks k H. unfold bl_exact. apply existsb_exists. exists k. split; [assumption|lia]. Qed.
Example lsm_get_example :
  lsm_get bl_exact (run (mkCfg 1 2 (SizeTiered 2)) [Put 1 10; Put 2 20; Del 1; Put 3 30]) 1 = None /\
  lsm_get bl_exact (run (mkCfg 1 2 (SizeTiered 2)) [Put 1 10; Put 2 20; Del 1; Put 3 30]) 2 = Some 20.
Proof. vm_compute. split; reflexivity. Qed.
