(** Leaky bucket (exact-rational instance).  The state is the time of the last grant; the
    time_until_available theorems follow from [need l t], the seconds still missing at [t]. *)
From HS Require Import Base.Prelude C10.Model C10.QFacts.
From Coq Require Import QArith Lqa.
Local Open Scope Q_scope.

(** Adjacent elements of [l :: ts] are at least [iv] seconds apart. *)
Fixpoint spaced (iv : Q) (l : Z) (ts : list Z) : Prop :=
  match ts with [] => True | t :: r => iv <= qsecs (t - l) /\ spaced iv t r end.
Definition spaced_from (iv : Q) (s : option Z) (ts : list Z) : Prop :=
  match s with Some l => spaced iv l ts | None => match ts with [] => True | t :: r => spaced iv t r end end.

Section LK.
  Variable iv : Q.                     (* 1 / leak_rate *)
  Notation step := (lk_step Qops iv).
  Notation tua := (lk_tua Qops iv).
  Notation acquire := (lk_acquire Qops iv).

  Theorem lk_spacing ops : forall s, spaced_from iv s (run_times step s ops).
  Proof.
    induction ops as [|o r IH]; intros s; cbn [run_times]; [destruct s; exact I|].
    destruct o as [t|t]; cbn [lk_step granted time_of].
    - unfold lk_acquire. destruct s as [l|]; qsimp.
      + qcase iv (qsecs (t - l)); cbn [b2z Z.eqb Pos.eqb app].
        * specialize (IH (Some t)). cbn in IH |- *. auto.
        * apply (IH (Some l)).
      + cbn [b2z Z.eqb Pos.eqb app]. specialize (IH (Some t)). cbn in IH |- *. exact IH.
    - cbn [Z.eqb app]. apply IH.
  Qed.

  (** Seconds still needed at time [t] for a bucket that last leaked at [l]. *)
  Definition need (l t : Z) : Q := iv - qsecs (t - l).

  Lemma need_shift l t d : need l (t + d) == need l t - qsecs d.
  Proof. unfold need. replace (t + d - l)%Z with ((t - l) + d)%Z by lia. pose proof (qsecs_plus (t - l) d). lra. Qed.

  Lemma tua_done l t : need l t <= 0 -> tua (Some l) t = 0%Z.
  Proof. intros H. unfold lk_tua. qsimp. apply Qle_bool_iff in H. unfold need in H. rewrite H. reflexivity. Qed.

  Lemma tua_wait l t : 0 < need l t -> tua (Some l) t = guard (qnanos (need l t)).
  Proof. intros H. unfold lk_tua. qsimp. apply Qle_bool_false in H. unfold need in H. rewrite H. reflexivity. Qed.

  Lemma acquire_done l t : need l t <= 0 -> snd (acquire (Some l) t) = true.
  Proof.
    intros H. unfold lk_acquire, need in *. qsimp.
    assert (E : iv <= qsecs (t - l)) by lra. apply Qle_bool_iff in E. rewrite E. reflexivity.
  Qed.

  Lemma acquire_need l t : 0 < need l t -> acquire (Some l) t = (Some l, false).
  Proof.
    intros H. unfold lk_acquire, need in *. qsimp. qcase iv (qsecs (t - l)); [lra|reflexivity].
  Qed.

  Lemma tua_cases l t :
    (need l t <= 0 /\ tua (Some l) t = 0%Z) \/ (0 < need l t /\ tua (Some l) t = guard (qnanos (need l t))).
  Proof.
    destruct (Qlt_le_dec 0 (need l t)) as [P|P]; [right; exact (conj P (tua_wait l t P))|left; exact (conj P (tua_done l t P))].
  Qed.

  Lemma tua_nonneg s t : (0 <= tua s t)%Z.
  Proof.
    destruct s as [l|]; [|cbn; lia].
    destruct (tua_cases l t) as [[_ ->]|[P ->]]; [lia|pose proof (wait_pos _ P); lia].
  Qed.

  Theorem lk_tua_zero_acquires s now : tua s now = 0%Z -> snd (acquire s now) = true.
  Proof.
    destruct s as [l|]; [|reflexivity].
    destruct (tua_cases l now) as [[P _]|[P ->]]; [intros _; exact (acquire_done l now P)|pose proof (wait_pos _ P); lia].
  Qed.

  Lemma wait_blocks l now t : 0 < need l now -> (t < now + guard (qnanos (need l now)))%Z -> 0 < need l t.
  Proof.
    intros Hn Ht. pose proof (wait_floor _ (t - now) Hn ltac:(lia)).
    pose proof (need_shift l now (t - now)) as SH. replace (now + (t - now))%Z with t in SH by lia. lra.
  Qed.

  Theorem lk_tua_positive_blocks s now ops :
    (0 < tua s now)%Z -> Forall (fun o => (time_of o < now + tua s now)%Z) ops ->
    snd (run_count granted step s ops) = 0%Z.
  Proof.
    destruct s as [l|]; [|cbn; lia]. destruct (tua_cases l now) as [[_ ->]|[Hn ->]]; [lia|]. intros _.
    apply (run_count_zero granted step time_of (fun s => s = Some l)); [|reflexivity].
    intros s o -> Ho. pose proof (wait_blocks l now _ Hn Ho) as N.
    destruct o as [t|t]; cbn [lk_step time_of granted fst snd] in *; [rewrite (acquire_need l t N)|]; auto.
  Qed.

  Theorem lk_tua_progress s now :
    let w1 := tua s now in let w2 := tua s (now + w1) in let w3 := tua s (now + w1 + w2) in
    w3 = 0%Z /\ (0 <= w1)%Z /\ (0 <= w2)%Z.
  Proof.
    cbv zeta. split; [|split; apply tua_nonneg]. destruct s as [l|]; [|reflexivity].
    destruct (tua_cases l now) as [[NP E]|[P ->]]; [rewrite E, Z.add_0_r, E, Z.add_0_r; exact E|].
    set (w := guard (qnanos (need l now))).
    pose proof (wait_rest _ P) as RS. fold w in RS. pose proof (need_shift l now w) as SH.
    destruct (tua_cases l (now + w)) as [[NP2 E2]|[P2 ->]]; [rewrite E2, Z.add_0_r; exact E2|].
    (* the first wait was the floor of the need: less than 1 ns is missing, the second wait is 1 ns *)
    assert (S2 : need l (now + w) * G < 1) by (unfold G in *; lra).
    rewrite (wait_last _ P2 S2).
    apply tua_done. pose proof (need_shift l (now + w) 1). pose proof (below_ns _ S2). lra.
  Qed.
End LK.

Example lk_example :
  0 < lk_interval Qops 4 /\
  run_times (lk_step Qops (lk_interval Qops 4)) None [Acq 0; Acq 100; Acq 250000000; Acq 250000001] = [0; 250000000]%Z /\
  lk_tua Qops (lk_interval Qops 4) (Some 0%Z) 100 = 249999900%Z.
Proof. vm_compute. repeat split; congruence. Qed.
