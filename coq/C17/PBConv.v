(** C17 — primary-backup convergence: refuted under reordering (faithful model),
    witness replayed on the implementation by corpus/C17/pb.reorder.json. *)
From HS Require Import Base.Prelude C17.Model.
Local Open Scope Z_scope.

Definition pb_converged (c : cfg) (s : state) : Prop :=
  forall b, In b (bids c) -> forall k, dget k (bs_store (s_bak s b)) = dget k (ps_store (s_prim s)).

(** "once writes stop and all in-flight messages are delivered, all replicas hold
    the same value for every key, under any message reordering" *)
Definition pb_convergence_statement : Prop :=
  forall c sched s, run c init sched = Some s -> quiescent s -> pb_converged c s.

Definition wit_cfg : cfg :=
  {| c_mode := SYNC; c_nb := 1; c_wlat := [2000; 2000]; c_rlat := [500; 500]; c_serve := [true; true] |}.

(** two writes to key 0; the Replicate of the second overtakes the first *)
Definition wit_sched : list inp :=
  [ IStart 0 (MWrite 101 0 101 true); IStart 0 (MWrite 102 0 102 true);
    IResume 0; IResume 1; IResume 0; IResume 1;
    IStart 1 (MReplicate 1 0 102 2 true); IResume 2;
    IStart 1 (MReplicate 1 0 101 1 true); IResume 3;
    IResume 2; IResume 3; IStart 0 (MAck 1 2); IStart 0 (MAck 1 1);
    IResume 0; IResume 1 ].

Definition quiescent_b (s : state) : bool :=
  match s_net s, s_procs s with [], [] => true | _, _ => false end.

Definition diverged_b (c : cfg) (s : state) : bool :=
  existsb (fun b => existsb (fun k => negb (oz_eqb (dget k (bs_store (s_bak s b))) (dget k (ps_store (s_prim s)))))
                            (map fst (ps_store (s_prim s)))) (bids c).

Definition diverges (c : cfg) (sched : list inp) : bool :=
  match run c init sched with Some s => quiescent_b s && diverged_b c s | None => false end.

Lemma oz_eqb_refl o : oz_eqb o o = true.
Proof. destruct o; cbn; [apply Z.eqb_refl|reflexivity]. Qed.

Lemma quiescent_b_spec s : quiescent_b s = true -> quiescent s.
Proof.
  unfold quiescent_b, quiescent. destruct (s_net s); [|discriminate]. destruct (s_procs s); [auto|discriminate].
Qed.

Lemma differ_spec (a b : dict) ks :
  existsb (fun k => negb (oz_eqb (dget k a) (dget k b))) ks = true -> exists k, dget k a <> dget k b.
Proof.
  intros D. apply existsb_exists in D. destruct D as (k & _ & D). exists k.
  intros E. rewrite E, oz_eqb_refl in D. discriminate.
Qed.

Lemma diverges_refutes c sched : diverges c sched = true -> ~ pb_convergence_statement.
Proof.
  unfold diverges. intros D H. destruct (run c init sched) as [s|] eqn:Hr; [|discriminate].
  apply andb_true_iff in D. destruct D as [Q D]. apply existsb_exists in D. destruct D as (b & Hb & D).
  destruct (differ_spec _ _ _ D) as [k Hk]. exact (Hk (H c sched s Hr (quiescent_b_spec s Q) b Hb k)).
Qed.

Lemma wit_diverges : diverges wit_cfg wit_sched = true.
Proof. vm_compute. reflexivity. Qed.
