(** C14 — overlapping operations on the LSM tree (generator API step machine):
    the overlap clause is refuted on the faithful model by two concrete
    schedules (known findings C14-lsm-compaction-not-isolated and
    C14-lsm-read-overlaps-compaction). *)
From HS Require Import Base.Prelude C14.Model C14.LsmProofs.
Local Open Scope Z_scope.

(** The overlap clause: for every configuration and every schedule, every read
    of the resulting history is admissible. *)
Definition lsm_overlap_statement : Prop :=
  forall c sch, (nlev c >= 1)%nat -> reads_ok (history c bl_exact sch) = true.

(** Witness 1: a flush installs a tombstone while a compaction is suspended in
    its write delay; the flush's own compaction drops the tombstone (deepest
    level) and the first compaction then installs the older value as the
    newest table.  The final read overlaps nothing. *)
Definition w1_cfg := mkCfg 1 1 (SizeTiered 2).
Definition w1_sched : list sched_step :=
  [SStart 1 (Put 1 10); SResume 1; SResume 1;
   SStart 2 (Put 2 20); SResume 2; SResume 2;          (* flush installed, compaction A suspended *)
   SStart 3 (Del 1); SResume 3; SResume 3;             (* tombstone flushed into L0, compaction B suspended *)
   SResume 2;                                          (* A installs {1:10, 2:20} *)
   SResume 3;                                          (* B installs {2:20}; delete completed *)
   SStart 4 (Get 1); SResume 4].

Lemma w1_history_tail :
  last (history w1_cfg bl_exact w1_sched) (HBad 0) = HDone 4 (OGet (Some 10)).
Proof. vm_compute. reflexivity. Qed.

Lemma w1_not_ok : reads_ok (history w1_cfg bl_exact w1_sched) = false.
Proof. vm_compute. reflexivity. Qed.

Theorem lsm_overlap_refuted : ~ lsm_overlap_statement.
Proof.
  intros H. specialize (H w1_cfg w1_sched). rewrite w1_not_ok in H.
  assert (nlev w1_cfg >= 1)%nat as N by (cbn; lia). specialize (H N). discriminate.
Qed.

(** Witness 2: a scan is suspended holding the newest L0 table when a
    compaction replaces the whole level; its reversed-list iterator is then out
    of range and the scan ends without the keys of the older tables.  No two
    compactions overlap; the put of key 3, whose compaction this is, is still
    open during the scan, but the keys lost (1 and 2) were written by puts
    that had returned before the scan started. *)
Definition w2_cfg := mkCfg 1 1 (SizeTiered 3).
Definition w2_sched : list sched_step :=
  [SStart 1 (Put 1 10); SResume 1; SResume 1;
   SStart 2 (Put 2 20); SResume 2; SResume 2;
   SStart 3 (Put 3 30); SResume 3; SResume 3;          (* compaction of [S1;S2;S3] suspended *)
   SStart 4 (Scan 1 4);                                (* holds S3, next index 1 *)
   SResume 3;                                          (* L0 := [merged] *)
   SResume 4].

Lemma w2_history_tail :
  last (history w2_cfg bl_exact w2_sched) (HBad 0) = HDone 4 (OScan [(3, 30)]).
Proof. vm_compute. reflexivity. Qed.

Theorem lsm_scan_overlap_refuted : reads_ok (history w2_cfg bl_exact w2_sched) = false.
Proof. vm_compute. reflexivity. Qed.
