(** C11 — the history invariant [cinv] is kept by a step of one node ([c_apply]), field by field. *)
From HS Require Import Base.Prelude C11.Model C11.NodeProofs C11.Election C11.LogProofs C11.LogMatching C11.Steps
  C11.Ghost C11.LC C11.Stab C11.Step.
Local Open Scope Z_scope.

Lemma entry_eq_dec (x y : entry) : {x = y} + {x <> y}.
Proof. decide equality; apply Z.eq_dec. Qed.

Section Apply.
Variables (w : net) (G : ghost) (i : Z) (inp : input) (n' : node) (o : list output).
Let n := nodes w i.
Let g := gg G.
Let g' := gupd g n'.
Let w' := anet w i n' o.
Let G' := aghost G i n n'.

(** For [n'], [o] the result of [node_step]: [M'] is [lm_apply], [GX] is [la_g], [RS] is [step_cases], the others the [node_step_*] theorems. *)
Hypothesis K : cinv w G.
Hypothesis Z0 : In i (ids w).
Hypothesis IO : input_ok w i inp.
Hypothesis HM : forall s m, inp = IMsg s m -> msg_inv w G i s m.
Hypothesis M' : lm_inv w' g'.
Hypothesis GX : gchange w g g' n'.
Hypothesis LS : lspec n inp n' o.
Hypothesis VS : vspec n inp n' o.
Hypothesis SS : step_spec n inp n' o.
Hypothesis AI' : apply_inv n'.
Hypothesis RS : (exists src t lc k, accepted w G i n' o src t lc k) \/ rspec n inp n' o.

Lemma lm_old : lm_inv w g.
Proof. exact (K_lm w G K). Qed.

Lemma inv_old : net_inv w.
Proof. exact (M_net w g lm_old). Qed.

Lemma nodes_i : nodes w' i = n'.
Proof. apply upd_same. Qed.

Lemma nodes_other j : j <> i -> nodes w' j = nodes w j.
Proof. apply upd_other. Qed.

Lemma nid_n : nid n = i.
Proof. apply (I_id w inv_old i). Qed.

Lemma term_le : term n <= term n'.
Proof. apply SS. Qed.

Lemma peers_step : peers n' = peers n.
Proof. apply SS. Qed.

Lemma term_mono j : term (nodes w j) <= term (nodes w' j).
Proof. destruct (Z.eq_dec j i) as [->|Hj]; [rewrite nodes_i; exact term_le|rewrite (nodes_other j Hj); lia]. Qed.

Lemma acc_len a t k : gacc G a t k -> (k <= length (g t))%nat.
Proof. intros H. apply (K_acc w G K a t k H). Qed.

Lemma led_old x : In x (led w) -> In x (led w').
Proof. apply led_step_old. Qed.

Lemma V_old r : In r (gV G) -> In r (gV G').
Proof. intros H. cbn [gV G' aghost]. destruct (vchg n n'); [right|]; exact H. Qed.

Lemma V_head c : vchg n n' = Some c -> In (i, term n', c, log n') (gV G').
Proof. intros E. cbn [gV G' aghost]. rewrite E. left. reflexivity. Qed.

Lemma V_new r : In r (gV G') -> In r (gV G) \/ exists c, vchg n n' = Some c /\ r = (i, term n', c, log n').
Proof. cbn [gV G' aghost]. destruct (vchg n n') as [c|]; [intros [<-|H]; [right; exists c|]|]; auto. Qed.

Lemma step_mono : gmono w w' G G'.
Proof.
  constructor; [reflexivity|exact led_old|intros a t m H; left; exact H| | |exact V_old].
  - intros t. destruct (gchange_app w g g' n' GX t) as (s & E & _). exists s. exact E.
  - intros t x H. destruct (gchange_app w g g' n' GX t) as (s & E & Hs). exists s. split; [exact E|]. intros e. apply (Hs x e H).
Qed.

Lemma led_new t x : In (t, x) (led w') ->
  In (t, x) (led w) \/ (t = term n' /\ x = i /\ role n' = Leader /\ role n <> Leader).
Proof.
  intros H. cbn [led w' anet] in H. unfold led_step in H. destruct (role n') eqn:R'; auto. destruct H as [H|H]; [|auto].
  inversion H; subst t x. destruct (L_lead _ _ _ _ LS R') as [[R T]|[R _]]; [left|right; auto].
  rewrite T. apply (M_ledc w g lm_old i Z0 R).
Qed.

Lemma fresh_leader : role n' = Leader -> role n <> Leader ->
  log n' = log n /\ gel G' (term n') = log n' /\ (forall x, ~ In (term n', x) (led w)) /\
  ((role n = Candidate /\ term n' = term n) \/ term n' = term n + 1).
Proof.
  intros R' R. destruct (V_lead _ _ _ _ VS R' R) as [E D]. split; [exact E|]. split; [|split; [|exact D]].
  - cbn [gel G' aghost]. rewrite R'. destruct (role n); [apply upd_same|apply upd_same|contradiction].
  - exact (la_fresh w g i n' o lm_old term_le (M_net w' g' M') R' R).
Qed.

Lemma gel_old t x : In (t, x) (led w) -> gel G' t = gel G t.
Proof.
  intros H. cbn [gel G' aghost]. destruct (role n') eqn:R'; try reflexivity. destruct (role n) eqn:R; try reflexivity.
  all: destruct (fresh_leader R' ltac:(congruence)) as (_ & _ & NoL & _).
  all: destruct (Z.eq_dec t (term n')) as [->|Ne]; [destruct (NoL x H)|apply upd_other, Ne].
Qed.

(** Candidates do not touch their log. *)
Lemma cand_led_step (P : list entry -> Prop) c t :
  t <= term (nodes w c) ->
  (term (nodes w c) = t -> role (nodes w c) = Candidate -> P (log (nodes w c))) ->
  (In (t, c) (led w) -> P (gel G t)) ->
  (term (nodes w' c) = t -> role (nodes w' c) = Candidate -> P (log (nodes w' c))) /\
  (In (t, c) (led w') -> P (gel G' t)).
Proof.
  intros Ht Hc Hl. split.
  - destruct (Z.eq_dec c i) as [->|Hn]; [rewrite nodes_i|rewrite (nodes_other c Hn); exact Hc].
    intros Et Rc. fold n in Ht, Hc. destruct (V_cand _ _ _ _ VS Rc) as (El & [[R0 T0]|T0]); [|lia].
    rewrite El. apply Hc; congruence.
  - intros H. destruct (led_new _ _ H) as [Ho|(-> & -> & R' & R)]; [rewrite (gel_old _ _ Ho); apply Hl, Ho|].
    fold n in Ht, Hc. destruct (fresh_leader R' R) as (El & Ee & _ & [[Rc Tc]|Tc]); [|lia].
    rewrite Ee, El. apply Hc; congruence.
Qed.

Lemma new_term_led (P : list entry -> Prop) :
  term n' = term n + 1 -> P (log n') -> In (term n', i) (led w') -> P (gel G' (term n')).
Proof.
  intros T HP H. destruct (led_new _ _ H) as [Ho|(_ & _ & R' & R)].
  - destruct (M_led w g lm_old _ _ Ho) as (_ & Hle & _). fold n in Hle. lia.
  - destruct (fresh_leader R' R) as (_ & -> & _). exact HP.
Qed.

Lemma new_vote c : vchg n n' = Some c ->
  log n' = log n /\
  ((c = i /\ term n' = term n + 1) \/
   exists lli llt, inp = IMsg c (RequestVote (term n') c lli llt) /\ uptodate_z lli llt (log n) /\ c <> i).
Proof.
  intros Hc. destruct (vchg_some _ _ _ Hc) as [Vc NV].
  destruct (V_vote _ _ _ _ VS c Vc) as [Old|(El & [(A & B & _)|(src & lli & llt & Ei & U)])]; [contradiction|split; [exact El|]..].
  - left. rewrite nid_n in A. auto.
  - right. pose proof IO as Q. rewrite Ei in Q. cbn in Q. subst src. exists lli, llt. split; [exact Ei|]. split; [exact U|].
    destruct (HM _ _ Ei) as (Hne & _). congruence.
Qed.

Lemma votes_step v : role n' <> Follower -> In v (votes n') ->
  (exists L, In (v, term n', i, L) (gV G)) \/ (v = i /\ vchg n n' = Some i /\ term n' = term n + 1 /\ log n' = log n).
Proof.
  intros Rf Hv. destruct SS as (_ & _ & _ & VSrc). destruct (VSrc Rf v Hv) as [(R0 & T0 & I0)|[(-> & Vs)|(src & Ei)]].
  - left. rewrite T0. apply (K_votes w G K i Z0 R0 v I0).
  - rewrite nid_n in *. destruct (vchg n n') as [c0|] eqn:Ec.
    + destruct (vchg_some _ _ _ Ec) as [Vc _]. assert (c0 = i) by congruence. subst c0.
      destruct (new_vote i Ec) as (El & [(_ & Tc)|(lli & llt & _ & _ & Hne)]); [|contradiction].
      right. auto.
    + destruct (vchg_none _ _ i Ec Vs) as [V0 T0]. left. rewrite T0. apply (K_voted w G K i i Z0 V0).
  - left. pose proof IO as Q. rewrite Ei in Q. cbn in Q. destruct Q as [-> _]. apply (HM _ _ Ei).
Qed.

Lemma Vgood_step v t L hi hi' : Vgood w G v t L hi -> t <= term (nodes w v) -> hi <= hi' -> Vgood w' G' v t L hi'.
Proof.
  intros VG Ht Hh T m HT Hacc Hm. destruct Hacc as [Hacc|(-> & -> & _)]; [|pose proof term_le; fold n in Ht; lia].
  apply (point_fwd w w' G G' step_mono (K_g1 w G K) L T m hi hi' Hm (acc_len v T m Hacc) Hh (VG T m HT Hacc Hm)).
Qed.

Lemma cur_step T m : gacc G i T m -> (1 <= m)%nat -> ownT g' T m -> log n' = log n ->
  hasP g' (log n') T m \/ bad w' g' T m (term n).
Proof.
  intros Hacc Hm Ho El. rewrite El.
  apply (point_fwd w w' G G' step_mono (K_g1 w G K) _ T m _ _ Hm (acc_len i T m Hacc) (Z.le_refl _) (K_cur w G K i T m Hacc Hm) Ho).
Qed.

Lemma Vgood_new hi : log n' = log n -> term n <= hi -> Vgood w' G' i (term n') (log n') hi.
Proof.
  intros El Hh T m HT Hacc Hm Ho. destruct Hacc as [Hacc|(_ & B & _)]; [|lia].
  destruct (cur_step T m Hacc Hm Ho El) as [H|(t' & x & A & B & C & D)]; [left; exact H|right].
  exists t', x. split; [exact A|]. split; [lia|]. split; [exact C|exact D].
Qed.

Lemma step_term j : 0 <= term (nodes w' j) /\ (role (nodes w' j) <> Follower -> 0 < term (nodes w' j)).
Proof.
  destruct (Z.eq_dec j i) as [->|Hj]; [rewrite nodes_i|rewrite (nodes_other j Hj); apply (K_term w G K)].
  destruct (K_term w G K i) as [T0 T1]. fold n in T0, T1. pose proof term_le as Tn. split; [lia|]. intros R.
  destruct (role n') eqn:R'; [contradiction| |].
  - destruct (V_cand _ _ _ _ VS R') as (_ & [[Rc Tc]|Tc]); [rewrite Tc; apply T1; congruence|lia].
  - destruct (L_lead _ _ _ _ LS R') as [[R0 T]|[R0 E]]; [rewrite T; apply T1; congruence|].
    destruct (V_lead _ _ _ _ VS R' R0) as (_ & [[Rc Tc]|Tc]); [rewrite Tc; apply T1; congruence|lia].
Qed.

Lemma step_logterm j e : In e (log (nodes w' j)) -> 0 < fst e /\ fst e <= term (nodes w' j).
Proof.
  destruct (Z.eq_dec j i) as [->|Hj]; [rewrite nodes_i|rewrite (nodes_other j Hj); apply (K_logterm w G K)].
  intros He. pose proof term_le as Tn.
  assert (Old : In e (log n) -> 0 < fst e /\ fst e <= term n') by (intros H; destruct (K_logterm w G K i e H) as [A B]; fold n in B; lia).
  destruct RS as [(src & t & lc & k & A)|R].
  - destruct (A_in A e He) as [H|H]; [apply Old, H|].
    rewrite (A_term A). apply (K_g1 w G K t e H).
  - destruct (rspec_log _ _ _ _ R) as [E|(Rn & _ & T & c & E)]; rewrite E in He; [apply Old, He|].
    apply in_app_or in He as [He|[<-|[]]]; [apply Old, He|]. cbn [fst].
    destruct (K_term w G K i) as [_ T1]. fold n in T1. split; [apply T1; congruence|lia].
Qed.

Lemma step_g1 t e : In e (g' t) -> 0 < fst e /\ fst e <= t.
Proof.
  intros He. destruct GX as [[_ E]|(R' & Eg & Ho & _)]; [rewrite E in He; apply (K_g1 w G K t e He)|].
  destruct (Z.eq_dec t (term n')) as [->|Ne]; [|rewrite (Ho t Ne) in He; apply (K_g1 w G K t e He)].
  rewrite Eg in He. pose proof (step_logterm i e) as Q. rewrite nodes_i in Q. apply Q, He.
Qed.

Lemma step_el t : exists sfx, g' t = gel G' t ++ sfx /\ (forall e, In e (gel G' t) -> fst e < t) /\ (forall e, In e sfx -> fst e = t).
Proof.
  destruct (K_el w G K t) as (sfx & Eo & E1 & E2). fold g in Eo. cbn [gel G' aghost].
  destruct GX as [[NR E]|(R' & Eg & Ho & s & Es & Hs)].
  - replace (match role n' with Leader => _ | _ => _ end) with (gel G) by (destruct (role n'); [reflexivity|reflexivity|contradiction]).
    rewrite E. exists sfx. auto.
  - rewrite R'. destruct (L_lead _ _ _ _ LS R') as [[R T]|[R El]].
    + rewrite R. destruct (Z.eq_dec t (term n')) as [->|Ne]; [|rewrite (Ho t Ne); exists sfx; auto].
      exists (sfx ++ s). rewrite Es, Eo, app_assoc. split; [reflexivity|]. split; [exact E1|].
      intros e He. apply in_app_or in He as [He|He]; [apply E2, He|apply (Hs i e); [|exact He]].
      rewrite T. apply (M_ledc w g lm_old i Z0 R).
    + (* a fresh leader's log holds no entry of the new term *)
      destruct (fresh_leader R' R) as (_ & _ & NoL & _).
      replace (match role n with Leader => gel G | _ => _ end) with (upd (gel G) (term n') (log n'))
        by (destruct (role n); [reflexivity|reflexivity|contradiction]).
      destruct (Z.eq_dec t (term n')) as [->|Ne]; [|rewrite upd_other by exact Ne; rewrite (Ho t Ne); exists sfx; auto].
      rewrite upd_same, Eg. exists []. rewrite app_nil_r. split; [reflexivity|]. split; [|intros e []].
      intros e He. rewrite El in He. destruct (K_logterm w G K i e He) as [_ Hle]. fold n in Hle.
      destruct (V_lead _ _ _ _ VS R' R) as (_ & [[Rc Tc]|Tc]); [|lia].
      destruct (Z.eq_dec (fst e) (term n')) as [Eq|Ne]; [|lia]. exfalso.
      apply In_nth_error in He as (j & Hj).
      destruct (pok_entry_led w g _ _ _ lm_old (M_logs w g lm_old i) Hj) as (x & Hx).
      rewrite Eq in Hx. apply (NoL x Hx).
Qed.

Lemma step_down_closed a t m m' : gacc G' a t m -> (m' <= m)%nat -> gacc G' a t m'.
Proof.
  intros [H|(A & B & C & D)] Hm; [left; apply (K_down w G K a t m m' H Hm)|right].
  split; [exact A|]. split; [exact B|]. split; [lia|]. apply (firstn_le_eq _ _ m); auto.
Qed.

Lemma step_acc a t m : gacc G' a t m -> In a (ids w') /\ t <= term (nodes w' a) /\ (m <= length (g' t))%nat.
Proof.
  intros [H|(-> & -> & C & D)].
  - destruct (K_acc w G K a t m H) as (A1 & A2 & A3). fold g in A3. split; [exact A1|]. split; [pose proof (term_mono a); lia|].
    destruct (gchange_app w g g' n' GX t) as (s0 & -> & _). rewrite app_length. lia.
  - split; [exact Z0|]. rewrite nodes_i. split; [lia|]. apply (hasP_len g' (log n') (term n') m). split; assumption.
Qed.

Lemma step_cur a T m : gacc G' a T m -> (1 <= m)%nat -> ownT g' T m ->
  hasP g' (log (nodes w' a)) T m \/ bad w' g' T m (term (nodes w' a)).
Proof.
  intros [H|(-> & -> & C & D)] Hm Ho; [|left; rewrite nodes_i; split; assumption].
  pose proof (acc_len a T m H) as Hl. destruct (K_acc w G K a T m H) as (_ & HT & _).
  apply (ownT_fwd w w' G G' step_mono T m Hm Hl) in Ho.
  destruct (K_cur w G K a T m H Hm Ho) as [Has|Bad];
    [|right; apply (bad_fwd w w' G G' step_mono (K_g1 w G K) T m _ _ Hl (term_mono a) Bad)].
  destruct (Z.eq_dec a i) as [->|Ha]; [rewrite nodes_i|rewrite (nodes_other a Ha); left; apply (hasP_fwd w w' G G' step_mono), Has].
  fold n in Has, HT. fold g in Has.
  destruct RS as [(src & t & lc & k & A)|R].
  - (* the point stays if the sender's log has it; else the sender is the witness *)
    assert (Eg : g' = g) by (apply (gchange_same w g g' n' GX); rewrite (A_role A); discriminate).
    pose proof (A_le A) as Ft. fold n in Ft.
    destruct (list_eq_dec entry_eq_dec (firstn m (g t)) (firstn m (g T))) as [Eq|Ne].
    + left. rewrite Eg. destruct Has as [H1 H2].
      assert (Kp : firstn m (log n') = firstn m (log n)) by (apply (A_keep A H1); fold n g; congruence).
      split; [|rewrite Kp; exact H2].
      assert (length (firstn m (log n')) = m) by (rewrite Kp, firstn_length; lia). rewrite firstn_length in H0. lia.
    + right. exists t, src. split; [|split; [rewrite (A_term A); lia|split; [apply led_old, (A_led A)|rewrite Eg; exact Ne]]].
      destruct (Z.eq_dec T t) as [->|]; [contradiction|lia].
  - left. apply (hasP_fwd w w' G G' step_mono).
    destruct (rspec_log _ _ _ _ R) as [E|(_ & _ & _ & c & E)]; rewrite E; [exact Has|].
    destruct Has as [H1 H2]. split; [rewrite app_length; lia|]. rewrite firstn_app_le by exact H1. exact H2.
Qed.

Lemma step_V v t c L : In (v, t, c, L) (gV G') ->
  In v (ids w') /\ t <= term (nodes w' v) /\ t <= term (nodes w' c) /\ pok g' L /\ Vgood w' G' v t L t /\
  (term (nodes w' c) = t -> role (nodes w' c) = Candidate -> uptodate (log (nodes w' c)) L) /\
  (In (t, c) (led w') -> uptodate (gel G' t) L).
Proof.
  intros HV. destruct (V_new _ HV) as [H|(c0 & Ec & E)].
  { destruct (K_V w G K _ _ _ _ H) as (A1 & A2 & A3 & A4 & A5 & A6 & A7).
    split; [exact A1|]. split; [pose proof (term_mono v); lia|]. split; [pose proof (term_mono c); lia|].
    split; [apply (gchange_pok w g g' n' L GX A4)|]. split; [apply (Vgood_step v t L t t A5 A2 (Z.le_refl _))|].
    apply (cand_led_step (fun C => uptodate C L) c t A3 A6 A7). }
  inversion E; subst v t c0 L. clear E HV.
  destruct (new_vote c Ec) as (El & Hc). pose proof term_le as Tn.
  split; [exact Z0|]. rewrite nodes_i. split; [lia|].
  assert (Pn' : pok g' (log n')) by (pose proof (M_logs _ _ M' i) as Q; rewrite nodes_i in Q; exact Q).
  destruct Hc as [(-> & Tc)|(lli & llt & Ei & U & Hne)].
  - rewrite nodes_i. split; [lia|]. split; [exact Pn'|]. split; [apply (Vgood_new (term n') El Tn)|].
    split; [intros; apply uptodate_refl|]. apply (new_term_led (fun C => uptodate C (log n')) Tc (uptodate_refl _)).
  - destruct (HM _ _ Ei) as (_ & Hle & H3 & H4).
    destruct (cand_led_step (fun C => lli = zlen C /\ llt = last_term C) c (term n') Hle H3 H4) as [Q1 Q2].
    split; [pose proof (term_mono c); lia|]. split; [exact Pn'|]. split; [apply (Vgood_new (term n') El Tn)|].
    rewrite El. split; [intros Et Rc; destruct (Q1 Et Rc) as [-> ->]|intros Hl; destruct (Q2 Hl) as [-> ->]]; apply uptodate_of_z, U.
Qed.

Lemma step_voted j c : In j (ids w') -> voted (nodes w' j) = Some c -> exists L, In (j, term (nodes w' j), c, L) (gV G').
Proof.
  intros Hj. destruct (Z.eq_dec j i) as [->|Hn]; [rewrite nodes_i|rewrite (nodes_other j Hn)].
  2:{ intros Hv. destruct (K_voted w G K j c Hj Hv) as (L & HL). exists L. apply V_old, HL. }
  intros Hv. destruct (vchg n n') as [c0|] eqn:Ec.
  - destruct (vchg_some _ _ _ Ec) as [Vc _]. assert (c0 = c) by congruence. subst c0.
    exists (log n'). apply V_head, Ec.
  - destruct (vchg_none _ _ c Ec Hv) as [V0 T0]. destruct (K_voted w G K i c Z0 V0) as (L & HL). fold n in HL.
    exists L. rewrite T0. apply V_old, HL.
Qed.

Lemma step_votes j : In j (ids w') -> role (nodes w' j) <> Follower ->
  forall v, In v (votes (nodes w' j)) -> exists L, In (v, term (nodes w' j), j, L) (gV G').
Proof.
  intros Hj. destruct (Z.eq_dec j i) as [->|Hn]; [rewrite nodes_i|rewrite (nodes_other j Hn)].
  2:{ intros R v Hv. destruct (K_votes w G K j Hj R v Hv) as (L & HL). exists L. apply V_old, HL. }
  intros Rf v Hv. destruct (votes_step v Rf Hv) as [(L & HL)|(-> & Ec & _)]; [exists L; apply V_old, HL|].
  exists (log n'). apply V_head, Ec.
Qed.

Lemma step_led t a : In (t, a) (led w') ->
  exists vs, NoDup vs /\ nquorum (ids w') <= zlen vs /\
    forall v, In v vs -> exists L, In (v, t, a, L) (gV G') /\ Vgood w' G' v t L (t - 1).
Proof.
  intros Hl. destruct (led_new _ _ Hl) as [Ho|(-> & -> & R' & R)].
  { destruct (K_led w G K t a Ho) as (vs & A & B & C). exists vs. split; [exact A|]. split; [exact B|].
    intros v Hv. destruct (C v Hv) as (L & HL & VG). exists L. split; [apply V_old, HL|].
    destruct (K_V w G K _ _ _ _ HL) as (_ & A2 & _). apply (Vgood_step v t L (t - 1) (t - 1) VG A2 (Z.le_refl _)). }
  (* a fresh leader: nobody has led its term, so its voters' records are good up to the term before *)
  destruct (fresh_leader R' R) as (El & Ee & NoL & Tc).
  pose proof (M_net _ _ M') as W'. pose proof (I_votes w' W' i) as [ND Q]. rewrite nodes_i in ND, Q.
  exists (votes n'). split; [exact ND|]. split.
  { specialize (Q R'). pose proof (quorum_nquorum w' i W' Z0) as QQ. rewrite nodes_i in QQ. lia. }
  intros v Hv. destruct (votes_step v ltac:(congruence) Hv) as [(L & HL)|(-> & Ec & Tc' & El')].
  - exists L. split; [apply V_old, HL|]. destruct (K_V w G K _ _ _ _ HL) as (_ & A2 & _ & _ & A5 & _).
    apply (Vgood_step v (term n') L (term n' - 1) (term n' - 1)); [|exact A2|lia].
    intros T m HT Hacc Hm Ho. destruct (A5 T m HT Hacc Hm Ho) as [H|(t' & x & B1 & B2 & B3 & B4)]; [left; exact H|right].
    exists t', x. split; [exact B1|]. split; [|split; [exact B3|exact B4]].
    destruct (Z.eq_dec t' (term n')) as [->|]; [destruct (NoL x B3)|lia].
  - exists (log n'). split; [apply V_head, Ec|]. apply (Vgood_new _ El'). lia.
Qed.

Lemma ar_in src t f mi : inp = IMsg src (AppendResponse t true f mi) ->
  f = src /\ 0 <= mi /\ (0 < mi -> gacc G src t (Z.to_nat mi)) /\ In f (peers n).
Proof.
  intros Ei. destruct (HM _ _ Ei) as (A & B & C & D & E). repeat split; auto.
  subst f. apply (peers_in w i src inv_old). auto.
Qed.

Lemma match_step :
  (match_index n' = match_index n /\ (role n' = Leader -> role n = Leader)) \/
  (role n <> Leader /\ led_reset n n') \/
  (exists src f mi, inp = IMsg src (AppendResponse (term n) true f mi) /\ role n = Leader /\ term n' = term n /\
                    match_index n' = aset f mi (match_index n)).
Proof.
  destruct RS as [(src & t & lc & k & A)|R]; [left|apply (rspec_match n inp n' o R)].
  split; [apply (A_mi A)|]. rewrite (A_role A). discriminate.
Qed.

Lemma step_mi0 j : NoDup (map fst (match_index (nodes w' j))) /\
  forall k, In k (map fst (match_index (nodes w' j))) -> In k (peers (nodes w' j)).
Proof.
  destruct (Z.eq_dec j i) as [->|Hj]; [rewrite nodes_i|rewrite (nodes_other j Hj); apply (K_mi0 w G K j)].
  destruct (K_mi0 w G K i) as [MI0a MI0b]. fold n in MI0a, MI0b.
  rewrite peers_step.
  destruct match_step as [[-> _]|[(_ & Reset)|(src & f & mi & Ei & _ & _ & ->)]].
  - auto.
  - destruct Reset as (_ & _ & _ & _ & _ & B6 & B7). split; [apply B6, MI0a|]. intros k Hk. destruct (B7 k Hk); auto.
  - split; [apply aset_nodup, MI0a|]. intros k Hk. apply aset_keys in Hk as [->|Hk]; [apply (ar_in _ _ _ _ Ei)|auto].
Qed.

Lemma step_mi j : In j (ids w') -> role (nodes w' j) = Leader ->
  forall p m, afind p (match_index (nodes w' j)) = Some m -> 0 <= m /\ (0 < m -> gacc G' p (term (nodes w' j)) (Z.to_nat m)).
Proof.
  intros Hj. destruct (Z.eq_dec j i) as [->|Hn]; [rewrite nodes_i|rewrite (nodes_other j Hn)].
  2:{ intros R p m Hf. destruct (K_mi w G K j Hj R p m Hf) as [A B]. split; [exact A|]. intros Hm. left. apply B, Hm. }
  intros R' p m Hf.
  assert (Keep : role n = Leader -> afind p (match_index n) = Some m -> 0 <= m /\ (0 < m -> gacc G' p (term n') (Z.to_nat m))).
  { intros R Hf0. destruct (L_lead _ _ _ _ LS R') as [[_ T]|[NR _]]; [|contradiction].
    destruct (K_mi w G K i Z0 R p m Hf0) as [A B]. fold n in B. split; [exact A|]. intros Hm. rewrite T. left. apply B, Hm. }
  destruct match_step as [[Em RL]|[(NR & Reset)|(src & f & mi & Ei & R & T & Em)]].
  - rewrite Em in Hf. apply Keep; auto.
  - destruct Reset as (_ & _ & _ & B4 & B5 & _). destruct (in_dec Z.eq_dec p (peers n)) as [Hp|Hp].
    + destruct (B4 p Hp) as [_ E0]. rewrite E0 in Hf. inversion Hf. split; lia.
    + rewrite (B5 p Hp) in Hf. destruct Hp. apply (K_mi0 w G K i), afind_in. fold n. congruence.
  - rewrite Em, afind_aset in Hf. destruct (Z.eqb p f) eqn:Ep; [|apply Keep; auto].
    apply Z.eqb_eq in Ep. subst p. inversion Hf; subst m. destruct (ar_in _ _ _ _ Ei) as (-> & A & B & _).
    split; [exact A|]. intros Hm. rewrite T. left. apply B, Hm.
Qed.

Lemma step_ni j : In j (ids w') -> role (nodes w' j) = Leader ->
  forall p, In p (peers (nodes w' j)) ->
    1 <= aget p 1 (next_index (nodes w' j)) /\ aget p 1 (next_index (nodes w' j)) <= zlen (log (nodes w' j)) + 1.
Proof.
  intros Hj. destruct (Z.eq_dec j i) as [->|Hn]; [rewrite nodes_i|rewrite (nodes_other j Hn); apply (K_ni w G K j Hj)].
  rewrite peers_step. intros R' p Hp.
  pose proof (K_ni w G K i Z0) as Keep. fold n in Keep.
  destruct RS as [(src & t & lc & k & A)|R]; [rewrite (A_role A) in R'; discriminate|].
  destruct (rspec_next n inp n' o p R R' Hp) as [(R0 & Hlen & [E|E])|[E|(src & mi & Ei & R0 & El & E)]]; rewrite E.
  - destruct (Keep R0 p Hp). lia.
  - destruct (Keep R0 p Hp). lia.
  - unfold zlen. lia.
  - destruct (ar_in _ _ _ _ Ei) as (_ & A & B & _). split; [lia|].
    destruct (Z_lt_le_dec 0 mi) as [Hm|Hm]; [|unfold zlen; lia].
    pose proof (acc_len _ _ _ (B Hm)) as Q. pose proof (M_lead w g lm_old i Z0 R0) as Q2. fold n in Q2.
    rewrite <- Q2, <- El in Q. unfold zlen. lia.
Qed.

Lemma step_ap j : apply_inv (nodes w' j) /\ ap_ok (nodes w' j).
Proof.
  destruct (Z.eq_dec j i) as [->|Hn]; [rewrite nodes_i|rewrite (nodes_other j Hn); apply (K_ap w G K j)].
  split; [exact AI'|]. destruct (K_ap w G K i) as [AIn APn]. fold n in AIn, APn.
  destruct RS as [(src & t & lc & k & A)|R]; [apply (A_ap A)|].
  destruct (rspec_commit n inp n' o R AIn APn) as [(Ec & Ea & El)|(_ & _ & _ & _ & AP & _)]; [|exact AP].
  apply (ap_ok_same n n' APn Ea); [lia|exact El].
Qed.

Lemma cprefix_step tt tt' L c : tt <= tt' -> cprefix w G tt L c -> cprefix w' G' tt' L c.
Proof. intros Ht H. apply (cprefix_fwd w w' G G' step_mono (K_g1 w G K) tt tt' L c acc_len Ht H). Qed.

Lemma quorum_commits hi e :
  role n = Leader -> role n' = Leader -> term n' = term n -> log n' = log n ->
  log_get (log n) hi = Some e -> fst e = term n -> 1 + count_ge hi (match_index n') >= quorum n ->
  dcommitted w' G' (term n') (Z.to_nat hi) /\ 1 <= hi <= zlen (log n') /\ g' (term n') = log n'.
Proof.
  intros R R' T El Hg He Hq.
  destruct (log_get_nth _ _ _ Hg) as (H1 & Hn & Hs).
  pose proof (log_get_le _ _ _ Hg) as Hhi.
  pose proof (gchange_lead w g g' n' GX R') as Eg'.
  split; [|split; [rewrite El; lia|exact Eg']].
  split; [lia|]. split.
  { exists e. change (gg G') with g'. rewrite Eg', El. replace (Z.to_nat hi - 1)%nat with (Z.to_nat (hi - 1)) by lia. split; [exact Hn|congruence]. }
  pose proof (step_mi0 i) as [ND Keys]. rewrite nodes_i in ND, Keys.
  destruct (count_ge_keys hi (match_index n') ND) as (ps & P1 & P2 & P3).
  exists (i :: ps). split; [|split].
  - constructor; [|exact P1]. intros Hin. destruct (P3 _ Hin) as (v & Hv & _).
    assert (Hp : In i (peers n')) by (apply Keys, afind_in; congruence).
    rewrite peers_step in Hp.
    apply (peers_in w i i inv_old) in Hp. destruct Hp; congruence.
  - pose proof (quorum_nquorum w i inv_old Z0) as QQ. fold n in QQ.
    change (ids w') with (ids w). unfold zlen in *. cbn [length]. lia.
  - assert (Acc : forall q, gacc G' q (term n') (Z.to_nat hi) -> In q (ids w') /\ gacc G' q (term n') (Z.to_nat hi))
      by (intros q A1; split; [apply (step_acc _ _ _ A1)|exact A1]).
    intros q [<-|Hq']; apply Acc.
    + right. split; [reflexivity|]. split; [reflexivity|]. split; [rewrite El; unfold zlen in Hhi; lia|].
      fold g g'. rewrite Eg'. reflexivity.
    + destruct (P3 _ Hq') as (v & Hv & Hle).
      pose proof (step_mi i Z0) as CM. rewrite nodes_i in CM. destruct (CM R' q v Hv) as [_ CM2].
      apply (step_down_closed q (term n') (Z.to_nat v)); [apply CM2; lia|lia].
Qed.

Lemma step_ci j : In j (ids w') -> cprefix w' G' (term (nodes w' j)) (log (nodes w' j)) (commit (nodes w' j)).
Proof.
  intros Hj. destruct (Z.eq_dec j i) as [->|Hn];
    [rewrite nodes_i|rewrite (nodes_other j Hn); apply (cprefix_step _ _ _ _ (Z.le_refl _)), (K_ci w G K j Hj)].
  pose proof (cprefix_step _ _ _ _ term_le (K_ci w G K i Z0)) as CP. fold n in CP.
  destruct (K_ap w G K i) as [AIn APn]. fold n in AIn, APn. pose proof AIn as (I0 & I1 & _). pose proof AI' as (_ & J1 & _).
  assert (SameC : commit n' = commit n -> firstn (Z.to_nat (commit n)) (log n') = firstn (Z.to_nat (commit n)) (log n) ->
                  cprefix w' G' (term n') (log n') (commit n')).
  { intros Ec Ef. rewrite Ec. apply (cprefix_log w' G' _ (log n)); [exact CP|lia|exact Ef]. }
  destruct RS as [(src & t & lc & k & A)|R].
  - pose proof (A_commit A) as Fc. fold n in Fc.
    destruct (Z_le_gt_dec lc (commit n)) as [Hle|Hgt].
    { apply SameC; [lia|]. apply (A_keep A); fold n; [unfold zlen in I1; lia|].
      apply (commit_prefix_in_leader w G i t src K Z0 (A_le A) (A_led A)). }
    destruct (A_lc A) as [B1 B2]. pose proof (A_len A) as Fb.
    replace (commit n') with lc by lia. rewrite (A_term A).
    apply (cprefix_log w' G' _ (g t)); [apply (cprefix_step t t _ _ (Z.le_refl _) (A_cp A))|unfold zlen; lia|].
    apply (firstn_le_eq _ _ k); [lia|apply (A_match A)].
  - destruct (rspec_commit n inp n' o R AIn APn) as [(Ec & _ & El)|(Rn & R' & T & El & _ & hi & e & Hg & He & Hq & Ec)]; [apply SameC; assumption|].
    destruct (Z_le_gt_dec hi (commit n)) as [Hle|Hgt]; [apply SameC; [lia|rewrite El; reflexivity]|].
    destruct (quorum_commits hi e Rn R' T El Hg He Hq) as (DC & Hhi & Eg').
    replace (commit n') with hi by lia.
    right. exists (term n'), (Z.to_nat hi). split; [lia|]. split; [exact DC|].
    split; [lia|]. split; [lia|]. split; [lia|]. change (gg G') with g'. rewrite Eg'. reflexivity.
Qed.

Lemma msg_fwd d s m : msg_inv w G d s m -> msg_inv w' G' d s m.
Proof.
  destruct m as [t c lli llt|t gr f|t lead pli plt ents lc|t su f mi]; cbn [msg_inv].
  - intros (A & B & C & D). split; [exact A|]. split; [pose proof (term_mono s); lia|].
    apply (cand_led_step (fun C => lli = zlen C /\ llt = last_term C) s t B C D).
  - destruct gr; [|auto]. intros (L & HL). exists L. apply V_old, HL.
  - intros (A & B & C & D). split; [apply (ae_ok2_fwd w w' G G' step_mono), A|]. split; [exact B|]. split; [exact C|].
    pose proof (cprefix_step t t _ _ (Z.le_refl _) D) as D'. destruct D as [D|(T & m & _ & _ & D1 & _ & D2 & _)]; [left; exact D|].
    fold g in D2, D'. change (gg G') with g'. destruct (gchange_app w g g' n' GX t) as (s0 & Es & _).
    apply (cprefix_log w' G' _ (g t) _ _ D'); [rewrite Es; unfold zlen in *; rewrite app_length; lia|].
    rewrite Es. apply firstn_app_le. unfold zlen in D2. lia.
  - destruct su; [|auto]. intros (A & B & C & D & E). split; [exact A|]. split; [exact B|]. split; [exact C|]. split; [exact D|].
    intros Hm. left. apply E, Hm.
Qed.

Lemma step_msgs d s m : In (d, s, m) (bag w') -> msg_inv w' G' d s m.
Proof.
  intros H. cbn [bag w' anet] in H. apply in_app_or in H as [H|H]; [apply msg_fwd, (K_msgs w G K _ _ _ H)|].
  apply sends_of_in in H as [-> H].
  destruct m as [t c lli llt|t gr f|t lead pli plt ents lc|t su f mi]; cbn [msg_inv].
  - destruct (V_rv _ _ _ _ VS _ _ _ _ _ H) as (A & B & C & D & E & F & Hd).
    split; [apply (peers_in w i d inv_old) in Hd; destruct Hd; auto|]. rewrite nodes_i. split; [lia|]. split; [auto|].
    rewrite A. apply (new_term_led (fun C => lli = zlen C /\ llt = last_term C) B (conj D E)).
  - destruct gr; [|auto]. destruct SS as (_ & _ & MO & _). pose proof (MO _ _ H) as Q. cbn in Q.
    destruct Q as (_ & Et & src & t0 & cand & a & b & Ei & Ed & Vc).
    pose proof IO as Q. rewrite Ei in Q. cbn in Q. subst cand d.
    pose proof (step_voted i src Z0) as CV. rewrite nodes_i in CV. rewrite Et. apply CV, Vc.
  - assert (AF : ae_from n' o).
    { destruct RS as [(src & t0 & lc0 & k & A)|[AF _]]; [|exact AF].
      rewrite (A_out A) in H. destruct H as [H|[H|[]]]; discriminate. }
    destruct (AF _ _ _ _ _ _ _ H) as (R' & Hd & Ea).
    pose proof (step_ni i Z0) as CN. rewrite nodes_i in CN. destruct (CN R' d Hd) as [N1 N2].
    destruct (aef_ok2 n' d N1 N2) as (pli' & plt' & ents' & Ea' & Ok & Hsum).
    rewrite Ea' in Ea. inversion Ea; subst t lead pli plt ents lc. clear Ea.
    destruct AI' as (J0 & J1 & _). change (gg G') with g'.
    rewrite (gchange_lead w g g' n' GX R'). split; [exact Ok|]. split; [exact J0|]. split; [lia|].
    pose proof (step_ci i Z0) as CC. rewrite nodes_i in CC. exact CC.
  - destruct su; [|auto].
    destruct RS as [(src & t0 & lc0 & k & A)|R]; [|destruct (rspec_no_ars _ _ _ _ R _ _ H)].
    rewrite (A_out A) in H. destruct H as [H|[H|[]]]; [discriminate|]. inversion H; subst d t f mi. clear H.
    split; [exact nid_n|]. split; [exact Z0|]. split; [apply (A_src A)|]. split; [lia|]. intros _.
    right. split; [reflexivity|]. split; [symmetry; apply (A_term A)|]. rewrite Nat2Z.id.
    split; [apply (A_len A)|]. fold g g'.
    rewrite (gchange_same w g g' n' GX) by (rewrite (A_role A); discriminate).
    apply (A_match A).
Qed.

Lemma cinv_step : cinv w' G'.
Proof.
  constructor.
  - exact M'.
  - exact step_ap.
  - exact step_term.
  - exact step_logterm.
  - exact step_g1.
  - exact step_el.
  - exact step_down_closed.
  - exact step_acc.
  - exact step_cur.
  - exact step_V.
  - exact step_voted.
  - exact step_votes.
  - exact step_led.
  - exact step_mi0.
  - exact step_mi.
  - exact step_ni.
  - exact step_msgs.
  - exact step_ci.
Qed.
End Apply.

(** What [msg_inv] says of an AppendEntries implies what log matching asks of it. *)
Lemma ae_ok2_ok L pli plt ents : ae_ok2 L pli plt ents -> ae_ok L pli plt ents.
Proof. intros (A & _ & C & D). right. rewrite Z2Nat.id by exact A. auto. Qed.

Lemma c_apply_msgs w G i inp :
  cinv w G -> input_ok w i inp ->
  (forall s t lead pli plt ents lc, inp = IMsg s (AppendEntries t lead pli plt ents lc) -> In (t, s) (led w) /\ i <> s) ->
  (forall s m, inp = IMsg s m -> msg_inv w G i s m) ->
  cinv (net_apply w i inp) (capply w G i inp) /\ gmono w (net_apply w i inp) G (capply w G i inp).
Proof.
  intros K IO HAE HM.
  destruct (in_dec Z.eq_dec i (ids w)) as [Z0|NZ].
  2:{ rewrite net_apply_out by exact NZ. unfold capply. rewrite (zmem_notin _ _ NZ). split; [exact K|apply gmono_refl]. }
  pose proof (K_lm w G K) as M.
  assert (M' : lm_inv (net_apply w i inp) (gapply w (gg G) i inp)).
  { apply (lm_apply w (gg G) i inp M IO). intros s t lead pli plt ents lc E.
    destruct (HAE _ _ _ _ _ _ _ E) as [A B]. split; [exact A|]. split; [exact B|apply ae_ok2_ok, (HM _ _ E)]. }
  rewrite (gapply_in _ _ _ _ Z0) in M'. rewrite (net_apply_eq w i inp Z0) in *. rewrite (capply_in w G i inp Z0).
  pose proof (node_step_spec (nodes w i) inp) as SS.
  pose proof (la_g w (gg G) i inp _ _ M Z0 (node_step_lspec _ _) (proj1 (proj2 (proj2 (proj1 SS)))) (M_net _ _ M')) as GX.
  pose proof (step_cases w G i inp K Z0 HAE HM) as RS.
  split; [apply (cinv_step w G i inp)|apply (step_mono w G i)]; auto.
  - apply node_step_lspec.
  - apply node_step_vspec.
  - apply node_step_inv, (K_ap w G K i).
Qed.

Lemma c_apply w G i inp :
  cinv w G -> input_ok w i inp ->
  (forall s t lead pli plt ents lc, inp = IMsg s (AppendEntries t lead pli plt ents lc) ->
     In (t, s) (led w) /\ i <> s /\ ae_ok (gg G t) pli plt ents) ->
  (forall s m, inp = IMsg s m -> msg_inv w G i s m) ->
  cinv (net_apply w i inp) (capply w G i inp) /\ gmono w (net_apply w i inp) G (capply w G i inp).
Proof.
  intros K IO HAE. apply (c_apply_msgs w G i inp K IO).
  intros s t lead pli plt ents lc E. destruct (HAE _ _ _ _ _ _ _ E) as (A & B & _). auto.
Qed.
