(** C14 — B-tree: the overlap clause is refuted on the faithful model (a get
    suspended on a node that a concurrent insert splits), known finding
    C14-btree-get-overlaps-split. *)
From HS Require Import Base.Prelude C14.Model C14.BtModel.
Local Open Scope Z_scope.

Definition conv_op (o : bop) : op :=
  match o with BPut k v => Put k v | BDel k => Del k | BGet k => Get k | BScan lo hi => Scan lo hi end.
Definition conv_out (o : bout) : out :=
  match o with BONone | BODel _ => ONone | BOGet r => OGet r | BOScan r => OScan r end.

Definition bt_events (s : bstep) (r : option bres) : list hevent :=
  match s, r with
  | BStart oid o, Some (BYield ns _) => [HStart oid (conv_op o); HYield oid ns]
  | BStart oid o, Some (BDone x) => [HStart oid (conv_op o); HDone oid (conv_out x)]
  | BResume oid, Some (BYield ns _) => [HYield oid ns]
  | BResume oid, Some (BDone x) => [HDone oid (conv_out x)]
  | BStart oid _, None | BResume oid, None => [HBad oid]
  end.

Fixpoint bt_hist (w : bworld) (sch : list bstep) : list hevent :=
  match sch with
  | [] => []
  | s :: r => let '(w1, res) := bw_step w s in bt_events s res ++ bt_hist w1 r
  end.

(** every read of every history is admissible (same predicate as for the LSM tree) *)
Definition bt_overlap_statement : Prop :=
  forall ord sch, ord >= 3 -> reads_ok (bt_hist (bt_init ord, []) sch) = true.

(** order 3: the root leaf [1;2] is full; a get of key 2 is suspended on it
    while put(3) splits it ([1] stays, [2;3] goes to the new sibling). *)
Definition bt_witness : list bstep :=
  [BStart 1 (BPut 1 10); BResume 1; BResume 1;
   BStart 2 (BPut 2 20); BResume 2; BResume 2;
   BStart 3 (BGet 2);
   BStart 4 (BPut 3 30); BResume 4;
   BResume 3].

Lemma bt_witness_result :
  last (bt_hist (bt_init 3, []) bt_witness) (HBad 0) = HDone 3 (OGet None).
Proof. vm_compute. reflexivity. Qed.

Theorem bt_overlap_refuted : ~ bt_overlap_statement.
Proof.
  intros H. specialize (H 3 bt_witness). assert (3 >= 3) as G by lia. specialize (H G).
  vm_compute in H. discriminate.
Qed.

(** sanity: the sequential API on the same operations does find the key *)
Example bt_sequential_example :
  bt_get_sync (bt_insert (bt_insert (bt_insert (bt_init 3) 1 10) 2 20) 3 30) 2 = Some 20.
Proof. vm_compute. reflexivity. Qed.
