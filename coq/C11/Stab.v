(** C11 — monotonicity of the history variables and stability of the
    predicates of C11/Ghost.v under it. *)
From HS Require Import Base.Prelude C11.Model C11.NodeProofs C11.Election C11.LogProofs C11.LogMatching C11.Steps C11.Ghost.
Local Open Scope Z_scope.

Record gmono (w w' : net) (G G' : ghost) : Prop := {
  X_ids : ids w' = ids w;
  X_led : forall x, In x (led w) -> In x (led w');
  X_acc : forall a t m, gacc G a t m -> gacc G' a t m;
  X_g : forall t, exists s, gg G' t = gg G t ++ s;
  X_gled : forall t x, In (t, x) (led w) -> exists s, gg G' t = gg G t ++ s /\ forall e, In e s -> fst e = t;
  X_V : forall r, In r (gV G) -> In r (gV G');
}.

Lemma gmono_same w w' G : ids w' = ids w -> (forall x, In x (led w) -> In x (led w')) -> gmono w w' G G.
Proof.
  intros I L. constructor; auto.
  - intros t. exists []. rewrite app_nil_r. reflexivity.
  - intros t x _. exists []. rewrite app_nil_r. split; [reflexivity|intros e []].
Qed.

Lemma gmono_refl w G : gmono w w G G.
Proof. apply gmono_same; auto. Qed.

Lemma gmono_trans w1 w2 w3 G1 G2 G3 : gmono w1 w2 G1 G2 -> gmono w2 w3 G2 G3 -> gmono w1 w3 G1 G3.
Proof.
  intros [A1 A2 A3 A4 A5 A6] [B1 B2 B3 B4 B5 B6]. constructor; auto.
  - congruence.
  - intros t. destruct (A4 t) as (s1 & E1). destruct (B4 t) as (s2 & E2). exists (s1 ++ s2). rewrite E2, E1, app_assoc. reflexivity.
  - intros t x H. destruct (A5 t x H) as (s1 & E1 & H1). destruct (B5 t x (A2 _ H)) as (s2 & E2 & H2).
    exists (s1 ++ s2). rewrite E2, E1, app_assoc. split; [reflexivity|]. intros e He. apply in_app_or in He as [He|He]; auto.
Qed.

Section Stab.
Variables (w w' : net) (G G' : ghost).
Hypothesis X : gmono w w' G G'.

Lemma firstn_fwd T m : (m <= length (gg G T))%nat -> firstn m (gg G' T) = firstn m (gg G T).
Proof. intros H. destruct (X_g _ _ _ _ X T) as (s & ->). apply firstn_app_le, H. Qed.

Lemma ownT_fwd T m : (1 <= m)%nat -> (m <= length (gg G T))%nat -> ownT (gg G) T m <-> ownT (gg G') T m.
Proof.
  intros H1 H2. unfold ownT. destruct (X_g _ _ _ _ X T) as (s & ->).
  rewrite nth_error_app1 by lia. reflexivity.
Qed.

Lemma hasP_fwd L T m : hasP (gg G) L T m -> hasP (gg G') L T m.
Proof.
  intros H. pose proof (hasP_len _ _ _ _ H) as Hl. destruct H as [A B]. split; [exact A|].
  rewrite firstn_fwd by exact Hl. exact B.
Qed.

Lemma cprefix_log tt L L' c : cprefix w G tt L c -> c <= zlen L' ->
  firstn (Z.to_nat c) L' = firstn (Z.to_nat c) L -> cprefix w G tt L' c.
Proof.
  intros [H|(T & m & A & B & C & D & E & F)] Hc Hf; [left; exact H|right].
  exists T, m. split; [exact A|]. split; [exact B|]. split; [exact C|]. split; [exact D|]. split; [exact Hc|]. rewrite Hf. exact F.
Qed.

Lemma ae_ok2_fwd t pli plt ents : ae_ok2 (gg G t) pli plt ents -> ae_ok2 (gg G' t) pli plt ents.
Proof.
  intros (A & B & C & D). destruct (X_g _ _ _ _ X t) as (s & ->). unfold ae_ok2, zlen in *.
  split; [exact A|]. split; [rewrite app_length; lia|]. split.
  - assert (Hk : (length ents <= length (skipn (Z.to_nat pli) (gg G t)))%nat).
    { rewrite C at 1. rewrite with_index_length, firstn_length. lia. }
    rewrite skipn_app. replace (Z.to_nat pli - length (gg G t))%nat with 0%nat by lia. cbn [skipn].
    rewrite firstn_app_le by exact Hk. exact C.
  - intros Hp. destruct (D Hp) as (e & He & Hf). exists e. split; [|exact Hf].
    rewrite nth_error_app1; [exact He|]. apply nth_error_Some. congruence.
Qed.

Hypothesis G1 : forall t e, In e (gg G t) -> 0 < fst e /\ fst e <= t.

Lemma bad_fwd T m hi hi' : (m <= length (gg G T))%nat -> hi <= hi' -> bad w (gg G) T m hi -> bad w' (gg G') T m hi'.
Proof.
  intros Hl Hh (t' & x & A & B & C & D). exists t', x. split; [exact A|]. split; [lia|]. split; [apply (X_led _ _ _ _ X), C|].
  rewrite (firstn_fwd T m Hl).
  destruct (X_gled _ _ _ _ X t' x C) as (s & -> & Hs).
  apply (neq_stable _ _ _ _ T D).
  - exact Hl.
  - intros e He. apply (G1 T e He).
  - intros e He. rewrite (Hs e He). exact A.
Qed.

Lemma point_fwd L T m hi hi' : (1 <= m)%nat -> (m <= length (gg G T))%nat -> hi <= hi' ->
  (ownT (gg G) T m -> hasP (gg G) L T m \/ bad w (gg G) T m hi) ->
  ownT (gg G') T m -> hasP (gg G') L T m \/ bad w' (gg G') T m hi'.
Proof.
  intros Hm Hl Hh H Ho. apply (ownT_fwd T m Hm Hl) in Ho.
  destruct (H Ho) as [Has|Bad]; [left; apply hasP_fwd, Has|right; apply (bad_fwd T m hi hi' Hl Hh Bad)].
Qed.

Lemma dcommitted_fwd T m : (forall a t k, gacc G a t k -> (k <= length (gg G t))%nat) ->
  dcommitted w G T m -> dcommitted w' G' T m /\ firstn m (gg G' T) = firstn m (gg G T).
Proof.
  intros KA (A & B & Q & Q1 & Q2 & Q3).
  assert (Hl : (m <= length (gg G T))%nat).
  { destruct Q as [|q Q]; [unfold nquorum, zlen in Q2; cbn in Q2; dlia|]. apply (KA q T m), (Q3 q), or_introl, eq_refl. }
  split; [|apply firstn_fwd, Hl].
  split; [exact A|]. split; [apply ownT_fwd; assumption|].
  exists Q. rewrite (X_ids _ _ _ _ X). split; [exact Q1|]. split; [exact Q2|].
  intros q Hq. destruct (Q3 q Hq). split; [assumption|apply (X_acc _ _ _ _ X); assumption].
Qed.

Lemma cprefix_fwd tt tt' L c : (forall a t k, gacc G a t k -> (k <= length (gg G t))%nat) ->
  tt <= tt' -> cprefix w G tt L c -> cprefix w' G' tt' L c.
Proof.
  intros KA Ht [H|(T & m & A & B & C & D & E & F)]; [left; exact H|right].
  destruct (dcommitted_fwd T m KA B) as [B' Eg]. exists T, m.
  split; [lia|]. split; [exact B'|]. split; [exact C|]. split; [exact D|]. split; [exact E|].
  rewrite F. symmetry. apply (firstn_le_eq _ _ m); [lia|exact Eg].
Qed.

End Stab.
