(** C16 — SoftTTLCache: capacity / LRU bookkeeping invariant, coherence with
    the backing store, and the hard-TTL bound, over every interleaving. *)
From HS Require Import Base.Prelude C16.Model C16.Lists C16.ModelTTL.
Local Open Scope Z_scope.

(** [emap] is the association list of Lists.v at [V := Z * Z]. *)
Lemma ekeys_eset k e m : ekeys (eset k e m) = add_end k (ekeys m).
Proof. exact (gkeys_gset k e m). Qed.
Lemma ekeys_edel k m : ekeys (edel k m) = remove1 k (ekeys m).
Proof. exact (gkeys_gdel k m). Qed.
Lemma eget_eset_same k e m : eget k (eset k e m) = Some e.
Proof. exact (gget_gset_same k e m). Qed.
Lemma eget_eset_other k k' e m : k' <> k -> eget k' (eset k e m) = eget k' m.
Proof. exact (gget_gset_other k k' e m). Qed.
Lemma eget_edel_other k k' m : k' <> k -> eget k' (edel k m) = eget k' m.
Proof. exact (gget_gdel_other k k' m). Qed.
Lemma eget_edel_same k m : NoDup (ekeys m) -> eget k (edel k m) = None.
Proof. exact (gget_gdel_same k m). Qed.
Lemma emem_In k m : emem k m = true <-> In k (ekeys m).
Proof. exact (gmem_In k m). Qed.
Lemma zlen_edel k m : In k (ekeys m) -> zlen (edel k m) = zlen m - 1.
Proof. exact (zlen_gdel k m). Qed.
Lemma zlen_edel_le k m : zlen (edel k m) <= zlen m.
Proof. exact (zlen_gdel_le k m). Qed.
Lemma zlen_eset_in k e m : In k (ekeys m) -> zlen (eset k e m) = zlen m.
Proof. exact (zlen_gset_in k e m). Qed.
Lemma zlen_eset_le k e m : zlen (eset k e m) <= zlen m + 1.
Proof. exact (zlen_gset_le k e m). Qed.

Lemma tsettle_st id pend x : tstt (fst (fst (tsettle id pend x))) = fst (fst x).
Proof. destruct x as [[s r] a]. destruct r; reflexivity. Qed.

Lemma tsettle_age id pend x : snd (tsettle id pend x) = snd x.
Proof. destruct x as [[s r] a]. destruct r; reflexivity. Qed.

Lemma tevict_loop_room f cp s : zlen (tcache s) < cp -> tevict_loop f cp s = s.
Proof.
  intros Hl. destruct f as [|f]; cbn [tevict_loop]; [reflexivity|].
  destruct (zlen (tcache s) >=? cp) eqn:E; [lia|reflexivity].
Qed.

Section STTL.
Variable c : tcfg.
Hypothesis Hcap : match tcap c with Some n => 1 <= n | None => True end.

(** Stated on the three fields it reads: the rest of the state changes without a proof. *)
Definition tinv3 (ca : emap) (ord : list Z) (stk : bool) : Prop :=
  NoDup (ekeys ca) /\ NoDup ord /\ (forall x, In x ord <-> In x (ekeys ca)) /\ stk = false.

Definition cap_ok (ca : emap) : Prop :=
  match tcap c with Some n => zlen ca <= n | None => True end.

Definition tinv (s : tst) : Prop := tinv3 (tcache s) (order s) (stuck s) /\ cap_ok (tcache s).

Lemma cap_ok_nil : cap_ok [].
Proof. unfold cap_ok. destruct (tcap c); [unfold zlen; cbn; lia|exact I]. Qed.

Lemma tinv3_empty stk : stk = false -> tinv3 [] [] stk.
Proof. intros Hs. split; [constructor|]. split; [constructor|]. split; [tauto|exact Hs]. Qed.

Lemma tinv3_touch k ca ord stk : tinv3 ca ord stk -> tinv3 ca (touch k ord) stk.
Proof.
  intros (Hc & Ho & Hk & Hs). destruct (move_end_spec k ord Ho) as [Hd Hi].
  split; [exact Hc|]. split; [exact Hd|]. split; [|exact Hs]. intros x. rewrite <- Hk. apply Hi.
Qed.

Lemma tinv3_del k ca ord stk : tinv3 ca ord stk -> tinv3 (edel k ca) (remove1 k ord) stk.
Proof.
  intros (Hc & Ho & Hk & Hs). unfold tinv3. rewrite ekeys_edel.
  split; [apply NoDup_remove1, Hc|]. split; [apply NoDup_remove1, Ho|]. split; [|exact Hs].
  intros x. rewrite !In_remove1_iff, Hk by assumption. tauto.
Qed.

Lemma tinv3_store k e ca ord stk : tinv3 ca ord stk -> tinv3 (eset k e ca) (remove1 k ord ++ [k]) stk.
Proof.
  intros (Hc & Ho & Hk & Hs). unfold tinv3. rewrite ekeys_eset.
  split; [apply NoDup_add_end, Hc|]. split; [apply NoDup_push_end, Ho|]. split; [|exact Hs].
  intros x. rewrite In_push_end, In_add_end, Hk. tauto.
Qed.

(** A full cache tracks a key to evict, so one round of the loop of [_store] makes room. *)
Lemma tevict_loop_spec f cp s : tinv3 (tcache s) (order s) (stuck s) -> zlen (tcache s) <= cp -> 1 <= cp ->
  let s1 := tevict_loop (S f) cp s in
  tinv3 (tcache s1) (order s1) (stuck s1) /\ zlen (tcache s1) < cp /\ tback s1 = tback s /\
  (forall k, eget k (tcache s1) = eget k (tcache s) \/ eget k (tcache s1) = None).
Proof.
  intros Hi Hl Hcp. cbn [tevict_loop]. destruct (zlen (tcache s) >=? cp) eqn:E.
  2:{ cbn zeta. split; [exact Hi|]. split; [lia|]. split; [reflexivity|]. intros k. left. reflexivity. }
  destruct (order s) as [|k r] eqn:Eo.
  - exfalso. destruct Hi as (_ & _ & Hk & _).
    destruct (tcache s) as [|[y e] m]; [unfold zlen in E; cbn in E; lia|].
    apply (Hk y). left. reflexivity.
  - set (s' := Build_tst _ _ _ _ _ _ _ _ _ _ _ _ _).
    pose proof Hi as (Hc & _ & Hk & _).
    assert (Hl' : zlen (tcache s') = zlen (tcache s) - 1) by (apply zlen_edel, Hk; left; reflexivity).
    cbn zeta. rewrite tevict_loop_room by lia.
    apply (tinv3_del k) in Hi. rewrite remove1_head in Hi.
    split; [exact Hi|]. split; [lia|]. split; [reflexivity|]. intros k'. cbn [s' tcache].
    destruct (Z.eq_dec k' k) as [->|Hn]; [right; apply eget_edel_same, Hc|left; apply eget_edel_other, Hn].
Qed.

Lemma tstore_spec now k v s : tinv s ->
  let s' := tstore c now k v s in
  tinv s' /\ eget k (tcache s') = Some (v, now) /\ tback s' = tback s /\
  (forall k', k' <> k -> eget k' (tcache s') = eget k' (tcache s) \/ eget k' (tcache s') = None).
Proof.
  intros [Hi Hc]. unfold tstore.
  (* the state the entry is installed into: [s], or [s] after one eviction *)
  set (s1 := match tcap c with Some _ => _ | None => _ end).
  assert (H1 : tinv3 (tcache s1) (order s1) (stuck s1) /\ cap_ok (eset k (v, now) (tcache s1)) /\
               tback s1 = tback s /\
               forall k', eget k' (tcache s1) = eget k' (tcache s) \/ eget k' (tcache s1) = None).
  { subst s1. unfold cap_ok in *. destruct (tcap c) as [cp|]; [|auto].
    destruct (emem k (tcache s)) eqn:E.
    - apply emem_In in E. rewrite zlen_eset_in by exact E. auto.
    - destruct (tevict_loop_spec (length (order s)) cp s Hi Hc Hcap) as (Hi1 & Hl1 & Hb1 & Hg1).
      split; [exact Hi1|]. split; [|auto].
      pose proof (zlen_eset_le k (v, now) (tcache (tevict_loop (S (length (order s))) cp s))). lia. }
  destruct H1 as (Hi1 & Hc1 & Hb1 & Hg1). cbn zeta. unfold tinv. cbn [tcache order stuck tback].
  rewrite guard_remove1. split; [split; [apply tinv3_store, Hi1|exact Hc1]|].
  split; [apply eget_eset_same|]. split; [exact Hb1|].
  intros k' Hn. rewrite eget_eset_other by exact Hn. apply Hg1.
Qed.

(** The first segment of [get], whichever way it goes (fresh, stale, expired,
    coalesced), leaves cache and backing store alone, at most touches the access
    order, and serves only below the hard TTL. *)
Definition tget_post (s : tst) (k : Z) (x : tst * tres * option Z) : Prop :=
  tcache (fst (fst x)) = tcache s /\ tback (fst (fst x)) = tback s /\ stuck (fst (fst x)) = stuck s /\
  (order (fst (fst x)) = order s \/ order (fst (fst x)) = touch k (order s)) /\
  (soft c <= hard c -> match snd x with Some age => age < hard c | None => True end).

Lemma tstart_get_spec now s k : tget_post s k (tstart c now s (TGet k)).
Proof.
  unfold tstart. cbv zeta.
  (* naming the intermediate states keeps the term small *)
  set (s0 := tupd s _ _ _ _ [1]). set (s1 := tupd s0 _ _ (touch k _) _ []).
  change (refreshing s1) with (refreshing s). change (refreshing s0) with (refreshing s).
  destruct (eget k (tcache s)) as [[v at_]|].
  - destruct (now - at_ <? soft c) eqn:E1; [|destruct (now - at_ <? hard c) eqn:E2];
      try destruct (zmem k (refreshing s)); unfold tget_post; cbn [fst snd]; repeat split; auto; lia.
  - destruct (zmem k (refreshing s)); unfold tget_post; cbn [fst snd]; repeat split; auto.
Qed.

Lemma tstart_inv now s o : tinv s -> tinv (fst (fst (tstart c now s o))).
Proof.
  intros Hs. destruct o as [k|k v|k| |k|k v|k]; try exact Hs.
  - unfold tinv. destruct (tstart_get_spec now s k) as (-> & _ & -> & [-> | ->] & _); [exact Hs|].
    split; [apply tinv3_touch|]; apply Hs.
  - cbn [tstart fst]. destruct (emem k (tcache s)); [|exact Hs]. destruct Hs as [Hi Hc].
    unfold tinv. cbn [tupd tcache order stuck]. rewrite guard_remove1. split; [apply tinv3_del, Hi|].
    unfold cap_ok in *. destruct (tcap c); [|exact I]. pose proof (zlen_edel_le k (tcache s)). lia.
  - split; [apply tinv3_empty, Hs|apply cap_ok_nil].
Qed.

Lemma tresume_inv now s k : tinv s -> tinv (fst (fst (tresume c now s k))).
Proof.
  intros Hs. destruct k as [v|key|key|key v|key]; cbn [tresume].
  - exact Hs.
  - destruct (eget key (tcache s)) as [[v at_]|]; [destruct (now - at_ <? hard c)|]; exact Hs.
  - destruct (aget key (tback s)); cbn [fst]; [apply tstore_spec|]; exact Hs.
  - cbn [fst]. apply tstore_spec. exact Hs.
  - cbn [fst]. destruct (aget key (tback s)); [exact (proj1 (tstore_spec now key z s Hs))|exact Hs].
Qed.

Lemma tstep_inv y i : tinv (tstt y) -> tinv (tstt (fst (fst (tstep c y i)))).
Proof.
  intros Hy. unfold tstep. destruct (ti_act i) as [id o|id].
  - rewrite tsettle_st. apply tstart_inv, Hy.
  - destruct (tpfind id (tpending y)) as [k|]; [|exact Hy]. rewrite tsettle_st. apply tresume_inv, Hy.
Qed.

Lemma trun_inv ins : forall y, tinv (tstt y) -> tinv (tstt (trun c y ins)).
Proof. induction ins as [|i ins IH]; intros y Hy; cbn [trun]; [exact Hy|]. apply IH, tstep_inv, Hy. Qed.

Lemma tinv_init b0 : tinv (tinit b0).
Proof.
  split; [apply tinv3_empty; reflexivity|apply cap_ok_nil].
Qed.

(** ** Coherence: without other writers of the backing store, every cached
    value equals the backing value, at every instant of every interleaving
    (put writes the store and the cache in one segment; so do fills). *)
Definition tcoh (s : tst) : Prop :=
  forall k v at_, eget k (tcache s) = Some (v, at_) -> aget k (tback s) = Some v.

Definition own_op (o : top) : bool :=
  match o with TBackPut _ _ | TBackDel _ => false | _ => true end.

Lemma tstore_coh now k v s : tinv s ->
  (forall k' v' at_, k' <> k -> eget k' (tcache s) = Some (v', at_) -> aget k' (tback s) = Some v') ->
  aget k (tback s) = Some v -> tcoh (tstore c now k v s).
Proof.
  intros Hs Hco Hb. destruct (tstore_spec now k v s Hs) as (_ & Hg & Hbk & Hoth).
  intros k' v' at_ Hg'. rewrite Hbk. destruct (Z.eq_dec k' k) as [->|Hne].
  - rewrite Hg in Hg'. injection Hg' as <- <-. exact Hb.
  - destruct (Hoth k' Hne) as [He|He]; rewrite He in Hg'; [eapply Hco; eauto|discriminate].
Qed.

Lemma tstart_coh now s o : tinv s -> tcoh s -> own_op o = true -> tcoh (fst (fst (tstart c now s o))).
Proof.
  intros Hs Hco Ho. destruct o as [k|k v|k| |k|k v|k]; try discriminate Ho; try exact Hco.
  - unfold tcoh. destruct (tstart_get_spec now s k) as (-> & -> & _). exact Hco.
  - cbn [tstart fst]. destruct (emem k (tcache s)); [|exact Hco].
    intros k' v' at_ Hg. cbn [tupd tcache tback] in *. destruct (Z.eq_dec k' k) as [->|Hne].
    + rewrite eget_edel_same in Hg by apply Hs. discriminate.
    + rewrite eget_edel_other in Hg by exact Hne. exact (Hco _ _ _ Hg).
  - intros k' v' at_ Hg. discriminate Hg.
Qed.

Lemma tresume_coh now s k : tinv s -> tcoh s -> tcoh (fst (fst (tresume c now s k))).
Proof.
  intros Hs Hco. destruct k as [v|key|key|key v|key]; cbn [tresume].
  - exact Hco.
  - destruct (eget key (tcache s)) as [[v at_]|]; [destruct (now - at_ <? hard c)|]; exact Hco.
  - destruct (aget key (tback s)) eqn:E; cbn [fst]; [|exact Hco].
    apply tstore_coh; [exact Hs| |exact E]. intros k' v' at_ _. apply Hco.
  - cbn [fst]. apply tstore_coh; cbn [tupd tcache tback].
    + exact Hs.
    + intros k' v' at_ Hne Hg. rewrite aget_aset_other by exact Hne. exact (Hco _ _ _ Hg).
    + apply aget_aset_same.
  - cbn [fst]. destruct (aget key (tback s)) eqn:E; [|exact Hco].
    apply (tstore_coh now key z s Hs); [|exact E]. intros k' v' at_ _. apply Hco.
Qed.

Definition own_input (i : tinput) : bool :=
  match ti_act i with TStart _ o => own_op o | TResume _ => true end.

Lemma tstep_coh y i : tinv (tstt y) -> tcoh (tstt y) -> own_input i = true ->
  tcoh (tstt (fst (fst (tstep c y i)))).
Proof.
  intros Hy Hco Hi. unfold tstep, own_input in *. destruct (ti_act i) as [id o|id].
  - rewrite tsettle_st. apply tstart_coh; assumption.
  - destruct (tpfind id (tpending y)) as [k|]; [|exact Hco]. rewrite tsettle_st. apply tresume_coh; assumption.
Qed.

Lemma trun_coh ins : forall y, tinv (tstt y) -> tcoh (tstt y) -> forallb own_input ins = true ->
  tcoh (tstt (trun c y ins)).
Proof.
  induction ins as [|i ins IH]; intros y Hy Hco Hown; cbn [trun]; [exact Hco|].
  cbn [forallb] in Hown. apply andb_true_iff in Hown as [Hi Hown].
  apply IH; [apply tstep_inv|apply tstep_coh|]; assumption.
Qed.

End STTL.

Theorem sttl_hard_bound : forall c y i, soft c <= hard c ->
  match snd (tstep c y i) with Some age => age < hard c | None => True end.
Proof.
  intros c y i Hsh. unfold tstep. destruct (ti_act i) as [id o|id].
  - rewrite tsettle_age. destruct o as [k|k v|k| |k|k v|k]; try exact I.
    apply (tstart_get_spec c (ti_now i) (tstt y) k), Hsh.
  - destruct (tpfind id (tpending y)) as [k|]; [|exact I].
    rewrite tsettle_age. destruct k as [v|key|key|key v|key]; cbn [tresume snd]; auto.
    + destruct (eget key (tcache (tstt y))) as [[v at_]|]; [|exact I].
      destruct (ti_now i - at_ <? hard c) eqn:E; cbn [snd]; [lia|exact I].
    + destruct (aget key (tback (tstt y))); exact I.
Qed.
