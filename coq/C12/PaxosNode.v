(** C12 — node-level facts about [step] of PaxosNode: they hold for EVERY
    input a handler can be given (any message, well-formed or not), hence for
    every schedule.

    [step] is unfolded in one place, [step_graph]: a handler call has one of
    eleven outcomes ([hstep]), each with its guard, its post-state written so
    that every field projects by computation, and its list of outputs.  All
    later facts about one handler call are read off that description. *)
From HS Require Import Base.Prelude C12.Model.
From Coq Require Import Sorted.
Local Open Scope Z_scope.

Lemma remove_nth_incl {A} k : forall l : list A, incl (remove_nth k l) l.
Proof.
  induction k; intros [|x r]; cbn; try apply incl_refl; [apply incl_tl, incl_refl|].
  apply incl_cons; [left; reflexivity|apply incl_tl, IHk].
Qed.

Lemma Forall_map_all {A B} (P : B -> Prop) (f : A -> B) l : (forall x, P (f x)) -> Forall P (map f l).
Proof. intros H. apply Forall_map, Forall_forall. intros x _. apply H. Qed.

Lemma fold_left_inv_Forall {A B} (f : A -> B -> A) (P : A -> Prop) (Q : B -> Prop) :
  (forall a x, P a -> Q x -> P (f a x)) -> forall l a, Forall Q l -> P a -> P (fold_left f l a).
Proof.
  intros H l. induction l as [|x l IH]; cbn; intros a F Pa; [exact Pa|].
  inversion F; subst. apply IH; auto.
Qed.




(* the ballot order is lexicographic on pairs of integers: unfold it and leave
   the arithmetic to [lia]; used for the order lemmas below only *)
Ltac bal := unfold obal_leb, bal_leb, bal_ltb, bal_eqb in *; cbn [fst snd] in *; lia.

Lemma bal_leb_refl b : bal_leb b b = true.
Proof. destruct b; bal. Qed.
Lemma bal_leb_trans a b c : bal_leb a b = true -> bal_leb b c = true -> bal_leb a c = true.
Proof. destruct a, b, c; bal. Qed.
Lemma bal_leb_antisym a b : bal_leb a b = true -> bal_leb b a = true -> a = b.
Proof. destruct a, b; intros; f_equal; bal. Qed.
Lemma bal_leb_total a b : bal_leb a b = true \/ bal_leb b a = true.
Proof. destruct a, b; bal. Qed.
Lemma bal_ltb_leb a b : bal_ltb a b = true -> bal_leb a b = true.
Proof. destruct a, b; bal. Qed.
Lemma bal_ltb_leb_trans a b c : bal_ltb a b = true -> bal_leb b c = true -> bal_ltb a c = true.
Proof. destruct a, b, c; bal. Qed.
Lemma bal_leb_ltb_trans a b c : bal_leb a b = true -> bal_ltb b c = true -> bal_ltb a c = true.
Proof. destruct a, b, c; bal. Qed.
Lemma bal_ltb_trans a b c : bal_ltb a b = true -> bal_ltb b c = true -> bal_ltb a c = true.
Proof. intros H1 H2. exact (bal_ltb_leb_trans _ _ _ H1 (bal_ltb_leb _ _ H2)). Qed.
Lemma bal_ltb_not_leb a b : bal_ltb a b = true -> bal_leb b a = false.
Proof. unfold bal_leb. intros ->. reflexivity. Qed.
Lemma bal_not_ltb_leb a b : bal_ltb a b = false -> bal_leb b a = true.
Proof. unfold bal_leb. intros ->. reflexivity. Qed.

Lemma obal_leb_refl b : obal_leb b b = true.
Proof. destruct b as [b|]; cbn; [apply bal_leb_refl|reflexivity]. Qed.
Lemma obal_leb_trans a b c : obal_leb a b = true -> obal_leb b c = true -> obal_leb a c = true.
Proof.
  destruct a as [a|], b as [b|], c as [c|]; cbn; try congruence; apply bal_leb_trans.
Qed.

Lemma may_promise_eq s b : may_promise s b = obal_leb (promised s) (Some b).
Proof. unfold may_promise. destruct (promised s); reflexivity. Qed.

Section AssocFacts.
  Context {V : Type}.
  Lemma afind_aset k k' (v : V) l : afind k (aset k' v l) = if k =? k' then Some v else afind k l.
  Proof.
    induction l as [|[k2 v2] r IH]; cbn; [reflexivity|].
    destruct (k' =? k2) eqn:E; cbn; [|rewrite IH; destruct (k =? k') eqn:E1; destruct (k =? k2) eqn:E2; auto; lia].
    destruct (k =? k') eqn:E1; destruct (k =? k2) eqn:E2; auto; lia.
  Qed.
  Lemma afind_aset_same k (v : V) l : afind k (aset k v l) = Some v.
  Proof. rewrite afind_aset, Z.eqb_refl. reflexivity. Qed.
  Lemma afind_aset_other k k' (v : V) l : k <> k' -> afind k (aset k' v l) = afind k l.
  Proof. intros N. rewrite afind_aset. destruct (k =? k') eqn:E; [lia|reflexivity]. Qed.
  Lemma aset_aset k (v v' : V) l : aset k v (aset k v' l) = aset k v l.
  Proof.
    induction l as [|[k2 v2] r IH]; cbn; [rewrite Z.eqb_refl; reflexivity|].
    destruct (k =? k2) eqn:E; cbn; [rewrite Z.eqb_refl|rewrite E, IH]; reflexivity.
  Qed.
  Lemma afind_adel_other k k' (l : list (Z * V)) : k <> k' -> afind k (adel k' l) = afind k l.
  Proof. intros N; induction l as [|[k2 v2] r IH]; cbn; auto.
    destruct (k' =? k2) eqn:E; cbn.
    - assert (k' = k2) by lia; subst. destruct (k =? k2) eqn:E2; [lia|reflexivity].
    - destruct (k =? k2); auto. Qed.
  Lemma afind_In k (l : list (Z * V)) v : afind k l = Some v -> In (k, v) l.
  Proof. induction l as [|[a b] r IH]; cbn; [discriminate|].
    destruct (k =? a) eqn:E; [intros H; left; inversion H; f_equal; lia|right; auto]. Qed.
  Lemma In_aset k (v : V) l x : In x (aset k v l) -> x = (k, v) \/ In x l.
  Proof. induction l as [|[a b] r IH]; cbn; [intros [H|[]]; auto|].
    destruct (k =? a); cbn; intros [H|H]; auto. destruct (IH H); auto. Qed.
  Lemma In_adel k (l : list (Z * V)) x : In x (adel k l) -> In x l.
  Proof. induction l as [|[a b] r IH]; cbn; auto.
    destruct (k =? a); cbn; auto. intros [H|H]; auto. Qed.
  Lemma afind_amem k (l : list (Z * V)) v : afind k l = Some v -> amem k l = true.
  Proof. unfold amem. intros ->. reflexivity. Qed.
  Lemma amem_afind k (l : list (Z * V)) : amem k l = true -> exists v, afind k l = Some v.
  Proof. unfold amem. destruct (afind k l); [eauto|discriminate]. Qed.
  Lemma amem_aset k k' (v : V) l : amem k (aset k' v l) = (k =? k') || amem k l.
  Proof. unfold amem. rewrite afind_aset. destruct (k =? k'); reflexivity. Qed.
  Lemma amem_aset_present k k' (v : V) l : amem k' l = true -> amem k (aset k' v l) = amem k l.
  Proof. intros H. rewrite amem_aset. destruct (k =? k') eqn:E; [|reflexivity]. assert (k = k') by lia. subst. auto. Qed.
  Lemma amem_aset_inv k k' (v : V) l : amem k (aset k' v l) = true -> k = k' \/ amem k l = true.
  Proof. rewrite amem_aset. destruct (k =? k') eqn:E; [left; lia|right; assumption]. Qed.
End AssocFacts.
Lemma oget_afind {V} k (l : list (Z * option V)) v : afind k l = Some v -> oget k l = v.
Proof. unfold oget. intros ->. reflexivity. Qed.

(** [choose] keeps a running bound [hi]; a response replaces the running
    choice when it reports an accepted ballot that [hi] does not reach *)
Definition takes (hi : option ballot) (a : ballot) : bool :=
  match hi with Some h => bal_ltb h a | None => true end.

Lemma choose_spec rs : forall hi v,
  let r := choose rs hi v in
  ((forall f b x, In (f, Some b, x) rs -> takes hi b = false) /\ r = v)
  \/ (exists f h, In (f, Some h, r) rs /\ (forall f' b' x', In (f', Some b', x') rs -> bal_leb b' h = true)
        /\ takes hi h = true).
Proof.
  induction rs as [|[[f ab] av] r IH]; intros hi v; cbn.
  { left. split; auto. intros f b x []. }
  destruct ab as [a|].
  2: { destruct (IH hi v) as [[A B]|[f0 [h0 [A [B C]]]]]; [left|right].
       - split; auto. intros f' b' x' [H|H]; [inversion H|eauto].
       - exists f0, h0. split; [right; auto|]. split; auto. intros f' b' x' [H|H]; [inversion H|eauto]. }
  replace (match hi with
           | Some h => if bal_ltb h a then choose r (Some a) av else choose r hi v
           | None => choose r (Some a) av
           end) with (if takes hi a then choose r (Some a) av else choose r hi v) by (destruct hi; reflexivity).
  destruct (takes hi a) eqn:T.
  - (* the head replaces the choice: it is the result unless a later response exceeds it *)
    right. destruct (IH (Some a) av) as [[A B]|[f0 [h0 [A [B C]]]]].
    + exists f, a. split; [left; rewrite B; auto|]. split; [|exact T].
      intros f' b' x' [H|H]; [inversion H; subst; apply bal_leb_refl|]. exact (bal_not_ltb_leb _ _ (A _ _ _ H)).
    + exists f0, h0. cbn in C. split; [right; auto|]. split.
      * intros f' b' x' [H|H]; [inversion H; subst; exact (bal_ltb_leb _ _ C)|eauto].
      * destruct hi as [h|]; [|reflexivity]. exact (bal_ltb_trans _ _ _ T C).
  - (* the head is at or below the bound, hence below any later replacement *)
    destruct (IH hi v) as [[A B]|[f0 [h0 [A [B C]]]]]; [left|right].
    + split; auto. intros f' b' x' [H|H]; [inversion H; subst; exact T|eauto].
    + exists f0, h0. split; [right; auto|]. split; [|exact C].
      intros f' b' x' [H|H]; [inversion H; subst|eauto].
      destruct hi as [h|]; [|discriminate]. cbn in T, C.
      exact (bal_ltb_leb _ _ (bal_leb_ltb_trans _ _ _ (bal_not_ltb_leb _ _ T) C)).
Qed.

(** with no initial bound: the chosen value is the proposer's own when no
    response reports an accepted ballot, else the value of a response with the
    greatest accepted ballot. *)
Lemma choose_top rs v :
  ((forall f b x, ~ In (f, Some b, x) rs) /\ choose rs None v = v)
  \/ (exists f h, In (f, Some h, choose rs None v) rs /\ forall f' b' x', In (f', Some b', x') rs -> bal_leb b' h = true).
Proof.
  destruct (choose_spec rs None v) as [[A B]|[f [h [A [B _]]]]].
  - left. split; auto. intros f b x H. discriminate (A _ _ _ H).
  - right. eauto.
Qed.

(** [s] after [_decide] has acted, if [dec], else [s]: the test is pushed into
    the three fields [_decide] writes, so that the others project at once *)
Definition decided_if (dec : bool) (s : pstate) (bn : Z) (v : option Z) : pstate :=
  mkP (promised s) (acc_b s) (acc_v s) (cur s) (futs s) (p1 s) (p2 s) (pvals s)
      (if dec then true else decided s) (if dec then v else dec_v s) (nfid s)
      (if dec then resolved s ++ match afind bn (futs s) with Some f => [(f, v)] | None => [] end else resolved s).

Lemma decide_eq c s bn v :
  decide c s bn v = (decided_if (negb (decided s)) s bn v, if decided s then [] else map (fun p => ODecided p v) (peers c)).
Proof.
  unfold decide, decided_if. destruct s as [pr ab av cu fu r1 r2 pv de dv nf re]; cbn. destruct de; [reflexivity|]. cbn.
  destruct (afind bn fu); [reflexivity|]. rewrite app_nil_r. reflexivity.
Qed.

(** [_handle_prepare_internal] on the node's own ballot [(cur s, me c)] *)
Definition self_promised (c : pcfg) (s : pstate) : pstate :=
  let mp := may_promise s (cur s, me c) in
  mkP (if mp then Some (cur s, me c) else promised s) (acc_b s) (acc_v s) (cur s) (futs s)
      (if mp then match afind (cur s) (p1 s) with
                  | Some rs => aset (cur s) (rs ++ [(me c, acc_b s, acc_v s)]) (p1 s)
                  | None => p1 s
                  end
       else p1 s)
      (p2 s) (pvals s) (decided s) (dec_v s) (nfid s) (resolved s).

Lemma start_phase1_eq c s :
  start_phase1 c s = (self_promised c s, map (fun p => OPrepare p (cur s) (me c)) (peers c)).
Proof.
  unfold start_phase1, self_promised. destruct s as [pr ab av cu fu r1 r2 pv de dv nf re]; cbn.
  destruct (may_promise _ _); [destruct (afind cu r1)|]; reflexivity.
Qed.

Definition p2v (s : pstate) (k : Z) : Z := match afind k (p2 s) with Some n => n | None => 0 end.

(** [_start_phase2] with chosen value [v], up to the self-accept *)
Definition phase2_acc (c : pcfg) (s : pstate) (bn : Z) (v : option Z) : pstate :=
  let mp := may_promise s (bn, me c) in
  mkP (promised s) (if mp then Some (bn, me c) else acc_b s) (if mp then v else acc_v s) (cur s) (futs s) (p1 s)
      (if mp then aset bn 1 (p2 s) else p2 s) (aset bn v (pvals s)) (decided s) (dec_v s) (nfid s) (resolved s).

Lemma start_phase2_eq c s bn v s2 dec :
  v = choose (match afind bn (p1 s) with Some rs => rs | None => [] end) None (oget bn (pvals s)) ->
  s2 = phase2_acc c s bn v -> dec = (quorum c <=? p2v s2 bn) && negb (decided s) ->
  start_phase2 c s bn =
  (decided_if dec s2 bn v,
   map (fun p => OAccept p bn (me c) v) (peers c) ++ if dec then map (fun p => ODecided p v) (peers c) else []).
Proof.
  intros Ev E2 Ed. unfold start_phase2. rewrite <- Ev.
  assert (E : (if may_promise (set_pvals s (aset bn v (pvals s))) (bn, me c)
               then set_p2 (set_acc (set_pvals s (aset bn v (pvals s))) (Some (bn, me c)) v) (aset bn 1 (p2 (set_pvals s (aset bn v (pvals s)))))
               else set_pvals s (aset bn v (pvals s))) = s2).
  { rewrite E2. unfold phase2_acc. change (may_promise (set_pvals s _) ?b) with (may_promise s b).
    destruct (may_promise s (bn, me c)); reflexivity. }
  rewrite E. fold (p2v s2 bn). rewrite decide_eq.
  replace (decided s2) with (decided s) by (rewrite E2; reflexivity). subst dec.
  destruct (quorum c <=? p2v s2 bn); cbn [andb]; [|rewrite app_nil_r, E2; reflexivity]. destruct (decided s); reflexivity.
Qed.

Lemma start_phase1_dec c s : decided (fst (start_phase1 c s)) = decided s /\ dec_v (fst (start_phase1 c s)) = dec_v s.
Proof. rewrite start_phase1_eq. split; reflexivity. Qed.

Definition next_num (s : pstate) : Z :=
  match promised s with Some p => Z.max (cur s) (fst p) | None => cur s end + 1.

Lemma next_num_gt s : cur s < next_num s.
Proof. unfold next_num. destruct (promised s); lia. Qed.

(** ballot number [n] installed by [propose] or the retry handler (futures [fs],
    proposed values [pv], future counter [fid]) and [start_phase1] run on it *)
Definition opened (c : pcfg) (s : pstate) (n : Z) (fs : list (Z * Z)) (pv : list (Z * option Z)) (fid : Z) : pstate :=
  let mp := may_promise s (n, me c) in
  mkP (if mp then Some (n, me c) else promised s) (acc_b s) (acc_v s) n fs
      (aset n (if mp then [(me c, acc_b s, acc_v s)] else []) (p1 s)) (aset n 0 (p2 s)) pv
      (decided s) (dec_v s) fid (resolved s).

Lemma self_promised_opened c s n fs pv fid :
  self_promised c (mkP (promised s) (acc_b s) (acc_v s) n fs (aset n [] (p1 s)) (aset n 0 (p2 s)) pv
                       (decided s) (dec_v s) fid (resolved s)) = opened c s n fs pv fid.
Proof.
  unfold self_promised, opened, may_promise. cbn. rewrite afind_aset_same, aset_aset.
  destruct (match promised s with Some p => bal_leb p (n, me c) | None => true end); reflexivity.
Qed.

Inductive opens (s : pstate) : pin -> Z -> list (Z * Z) -> list (Z * option Z) -> Z -> Prop :=
| op_propose v :
    opens s (IPropose v) (next_num s) (aset (next_num s) (nfid s) (futs s))
          (aset (next_num s) (Some v) (pvals s)) (nfid s + 1)
| op_retry orig v : afind orig (pvals s) = Some v ->
    opens s (IRetry orig) (cur s + 1)
          (match afind orig (futs s) with Some f => adel orig (aset (cur s + 1) f (futs s)) | None => futs s end)
          (adel orig (aset (cur s + 1) v (pvals s))) (nfid s).

Definition ignored (c : pcfg) (s : pstate) (i : pin) : Prop :=
  match i with
  | IPrepare src _ _ | IAccept src _ _ _ => is_peer c src = false
  | IPromise bn _ _ _ => afind bn (p1 s) = None
  | IDecided _ => decided s = true
  | IRetry orig => decided s = true \/ afind orig (pvals s) = None
  | _ => False
  end.

Inductive acceptor_req : pin -> Z -> Z -> Z -> Prop :=
| ar_prepare src bn bnode : acceptor_req (IPrepare src bn bnode) src bn bnode
| ar_accept src bn bnode v : acceptor_req (IAccept src bn bnode v) src bn bnode.

Inductive hstep (c : pcfg) (s : pstate) : pin -> pstate -> list pout -> Prop :=
| hs_ignored i : ignored c s i -> hstep c s i s []
| hs_proposed_late v : decided s = true ->
    hstep c s (IPropose v) (bump_fid (add_resolved s (nfid s) (dec_v s))) []
| hs_open i n fs pv fid : decided s = false -> opens s i n fs pv fid -> cur s < n ->
    hstep c s i (opened c s n fs pv fid) (map (fun p => OPrepare p n (me c)) (peers c))
| hs_promise src bn bnode : is_peer c src = true -> may_promise s (bn, bnode) = true ->
    hstep c s (IPrepare src bn bnode) (set_promised s (Some (bn, bnode)))
          [OPromise src bn bnode (me c) (acc_b s) (acc_v s)]
| hs_accept src bn bnode v : is_peer c src = true -> may_promise s (bn, bnode) = true ->
    hstep c s (IAccept src bn bnode v) (set_acc (set_promised s (Some (bn, bnode))) (Some (bn, bnode)) v)
          [OAccepted src bn bnode (me c)]
| hs_refuse i src bn bnode p : acceptor_req i src bn bnode -> is_peer c src = true ->
    promised s = Some p -> bal_leb p (bn, bnode) = false ->
    hstep c s i s [ONack src bn bnode (fst p) (snd p)]
| hs_response bn from ab av rs : afind bn (p1 s) = Some rs ->
    (Z.of_nat (length (rs ++ [(from, ab, av)])) =? quorum c) && amem bn (pvals s) = false ->
    hstep c s (IPromise bn from ab av) (set_p1 s (aset bn (rs ++ [(from, ab, av)]) (p1 s))) []
| hs_phase2 bn from ab av rs v s2 dec : afind bn (p1 s) = Some rs ->
    Z.of_nat (length rs) + 1 = quorum c -> amem bn (pvals s) = true ->
    v = choose (rs ++ [(from, ab, av)]) None (oget bn (pvals s)) ->
    s2 = phase2_acc c (set_p1 s (aset bn (rs ++ [(from, ab, av)]) (p1 s))) bn v ->
    dec = (quorum c <=? p2v s2 bn) && negb (decided s) ->
    hstep c s (IPromise bn from ab av) (decided_if dec s2 bn v)
          (map (fun p => OAccept p bn (me c) v) (peers c) ++ if dec then map (fun p => ODecided p v) (peers c) else [])
| hs_nack bn hn :
    hstep c s (INack bn hn) (set_cur s (Z.max (cur s) hn)) (if amem bn (pvals s) then [ORetry bn] else [])
| hs_accepted bn dec :
    dec = amem bn (pvals s) && ((quorum c <=? p2v s bn + 1) && negb (decided s)) ->
    hstep c s (IAccepted bn) (decided_if dec (set_p2 s (aset bn (p2v s bn + 1) (p2 s))) bn (oget bn (pvals s)))
          (if dec then map (fun p => ODecided p (oget bn (pvals s))) (peers c) else [])
| hs_decided v : decided s = false -> hstep c s (IDecided v) (set_dec s v) [].

Lemma guard_graph c s i src bn bnode (act : pstate * list pout) :
  acceptor_req i src bn bnode ->
  (is_peer c src = true -> may_promise s (bn, bnode) = true -> hstep c s i (fst act) (snd act)) ->
  let r := if negb (is_peer c src) then (s, [])
           else if may_promise s (bn, bnode) then act
           else match promised s with Some p => (s, [ONack src bn bnode (fst p) (snd p)]) | None => (s, []) end in
  hstep c s i (fst r) (snd r).
Proof.
  intros R A. destruct (is_peer c src) eqn:P; cbn.
  - (* with nothing promised the request is granted, so [step]'s [None] branch after a refusal is dead *)
    unfold may_promise in *. destruct (promised s) as [p|] eqn:Q; [|auto].
    destruct (bal_leb p (bn, bnode)) eqn:L; [auto|]. eapply hs_refuse; eauto.
  - apply hs_ignored. destruct R; exact P.
Qed.

Lemma step_graph c s i : hstep c s i (fst (step c s i)) (snd (step c s i)).
Proof.
  destruct i; cbn [step].
  - destruct (decided s) eqn:D; [apply hs_proposed_late, D|].
    rewrite start_phase1_eq.
    pose proof (hs_open c s _ _ _ _ _ D (op_propose s v) (next_num_gt s)) as G.
    rewrite <- self_promised_opened in G. exact G.
  - apply (guard_graph c s _ src bn bnode (_, _)); [constructor|]. apply hs_promise.
  - destruct (afind bn (p1 s)) as [rs|] eqn:F; [|apply hs_ignored, F].
    cbn [pvals set_p1].
    destruct (Z.of_nat (length (rs ++ [(from, ab, av)])) =? quorum c) eqn:Q;
      [destruct (amem bn (pvals s)) eqn:M|]; cbn [andb]; try (apply hs_response with (1 := F); rewrite Q, ?M; reflexivity).
    rewrite app_length, Nat2Z.inj_add in Q. cbn [length] in Q.
    erewrite start_phase2_eq; [|cbn [p1 set_p1 pvals]; rewrite afind_aset_same; reflexivity|reflexivity..].
    eapply hs_phase2 with (1 := F); auto. lia.
  - assert (E : (if cur s <? hn then set_cur s hn else s) = set_cur s (Z.max (cur s) hn)).
    { destruct (Z.ltb_spec (cur s) hn); [rewrite Z.max_r by lia; reflexivity|].
      rewrite Z.max_l by lia. destruct s; reflexivity. }
    rewrite E. cbn [pvals set_cur]. pose proof (hs_nack c s bn hn) as G. destruct (amem bn (pvals s)); exact G.
  - apply (guard_graph c s _ src bn bnode (_, _)); [constructor|]. apply hs_accept.
  - fold (p2v s bn). cbn [pvals set_p2 decided]. rewrite decide_eq. cbn [decided set_p2].
    pose proof (hs_accepted c s bn _ eq_refl) as G.
    destruct (amem bn (pvals s)); cbn [negb andb] in *; [|exact G].
    destruct (quorum c <=? p2v s bn + 1); cbn [andb] in *; [|exact G]. destruct (decided s); exact G.
  - destruct (decided s) eqn:D; [apply hs_ignored, D|apply hs_decided, D].
  - destruct (decided s) eqn:D; [apply hs_ignored; left; exact D|].
    destruct (afind orig (pvals s)) as [v|] eqn:F; [|apply hs_ignored; right; exact F].
    rewrite start_phase1_eq.
    assert (G := hs_open c s _ _ _ _ _ D (op_retry s orig v F) ltac:(lia)).
    rewrite <- self_promised_opened in G. cbn [futs set_cur]. destruct (afind orig (futs s)); exact G.
Qed.

Lemma is_peer_In c src : is_peer c src = true -> In src (peers c).
Proof.
  unfold is_peer. intros H. apply existsb_exists in H as [y [I E]]. assert (src = y) by lia. subst. exact I.
Qed.

(** used as [apply step_graph_eq in ST. destruct ST]: the equation becomes its
    outcome, so that none of the eleven cases carries it along *)
Lemma step_graph_eq {c s i s' outs} : step c s i = (s', outs) -> hstep c s i s' outs.
Proof. intros ST. pose proof (step_graph c s i) as G. rewrite ST in G. exact G. Qed.

(** The description read by output: what one output of a handler call says
    about the input, the state before and the state after. *)
Lemma step_emits {c s i s' outs o} : step c s i = (s', outs) -> In o outs ->
  match o with
  | OPrepare d k b =>
      In d (peers c) /\ b = me c /\ decided s = false /\ cur s < k /\
      exists fs pv fid, opens s i k fs pv fid /\ s' = opened c s k fs pv fid
  | OPromise d k b f ab av =>
      i = IPrepare d k b /\ is_peer c d = true /\ may_promise s (k, b) = true /\
      f = me c /\ ab = acc_b s /\ av = acc_v s /\ s' = set_promised s (Some (k, b))
  | ONack d k b h hn =>
      acceptor_req i d k b /\ is_peer c d = true /\ promised s = Some (h, hn) /\ s' = s
  | OAccept d k b x =>
      In d (peers c) /\ b = me c /\
      exists from ab av rs, i = IPromise k from ab av /\ afind k (p1 s) = Some rs /\
        Z.of_nat (length rs) + 1 = quorum c /\ amem k (pvals s) = true /\
        x = choose (rs ++ [(from, ab, av)]) None (oget k (pvals s)) /\
        p1 s' = aset k (rs ++ [(from, ab, av)]) (p1 s) /\ oget k (pvals s') = x
  | OAccepted d k b f =>
      exists v, i = IAccept d k b v /\ is_peer c d = true /\ may_promise s (k, b) = true /\
        f = me c /\ s' = set_acc (set_promised s (Some (k, b))) (Some (k, b)) v
  | ODecided d v =>
      In d (peers c) /\ decided s = false /\ decided s' = true /\ dec_v s' = v
  | ORetry b => exists hn, i = INack b hn /\ amem b (pvals s) = true
  end.
Proof.
  intros ST Ho.
  apply step_graph_eq in ST. destruct ST as [| | | | | | |bn from ab av rs v s2 dec F Hq M Ev E2 Ed| |bn dec Ed|];
    cbn [In] in Ho; try contradiction.
  - apply in_map_iff in Ho as [p [<- Hp]]. repeat split; auto. exists fs, pv, fid. auto.
  - destruct Ho as [<-|[]]. repeat split; auto.
  - destruct Ho as [<-|[]]. exists v. repeat split; auto.
  - destruct Ho as [<-|[]]. destruct p. auto.
  - apply in_app_or in Ho as [Ho|Ho].
    + apply in_map_iff in Ho as [p [<- Hp]]. subst s2. split; [exact Hp|]. split; [reflexivity|].
      exists from, ab, av, rs. repeat split; auto. apply oget_afind, afind_aset_same.
    + destruct dec; [|contradiction]. apply in_map_iff in Ho as [p [<- Hp]].
      symmetry in Ed. apply andb_prop in Ed as [_ Ed]. apply negb_true_iff in Ed. auto.
  - destruct (amem bn (pvals s)) eqn:M; [|contradiction]. destruct Ho as [<-|[]]. eauto.
  - destruct dec; [|contradiction]. apply in_map_iff in Ho as [p [<- Hp]].
    symmetry in Ed. apply andb_prop in Ed as [_ Ed]. apply andb_prop in Ed as [_ Ed]. apply negb_true_iff in Ed. auto.
Qed.

Definition pm (s s' : pstate) : Prop := obal_leb (promised s) (promised s') = true.

Lemma pm_refl s : pm s s. Proof. apply obal_leb_refl. Qed.

Lemma step_promise_monotone c s i : pm s (fst (step c s i)).
Proof.
  unfold pm. destruct (step_graph c s i); subst; cbn; try apply obal_leb_refl.
  - destruct (may_promise s (n, me c)) eqn:E; [rewrite <- may_promise_eq; exact E|apply obal_leb_refl].
  - rewrite <- may_promise_eq. assumption.
  - rewrite <- may_promise_eq. assumption.
Qed.

Definition stable (s s' : pstate) : Prop :=
  decided s = true -> decided s' = true /\ dec_v s' = dec_v s.

Lemma step_decision_stable c s i : stable s (fst (step c s i)).
Proof.
  (* a decided node's [_decide] does not act: the flag of the two deciding outcomes is false *)
  intros D. destruct (step_graph c s i); subst; cbn; rewrite ?D; cbn [negb]; rewrite ?andb_false_r; auto; congruence.
Qed.

Record ninv (c : pcfg) (s : pstate) : Prop := {
  ni_acc : obal_leb (acc_b s) (promised s) = true;
  ni_p1 : forall k, amem k (p1 s) = true -> exists p, promised s = Some p /\ bal_leb (k, me c) p = true;
  ni_keys : forall k, amem k (p1 s) = true -> k <= cur s;
}.

Lemma ninv_init c : ninv c pinit.
Proof. split; cbn; auto; intros k H; discriminate. Qed.

Lemma ninv_mono c s s' : ninv c s ->
  obal_leb (acc_b s') (promised s') = true -> pm s s' ->
  (forall k, amem k (p1 s') = amem k (p1 s)) -> cur s <= cur s' -> ninv c s'.
Proof.
  intros [A B C] A' P K L. split; [exact A'| |].
  - intros k H. rewrite K in H. destruct (B k H) as [p [E Lp]]. unfold pm in P. rewrite E in P.
    destruct (promised s') as [p'|]; [|discriminate]. exists p'. split; [reflexivity|].
    exact (bal_leb_trans _ _ _ Lp P).
  - intros k H. rewrite K in H. apply C in H. lia.
Qed.

Lemma ninv_decided_if c dec s bn v : ninv c s -> ninv c (decided_if dec s bn v).
Proof. intros [A B C]. split; assumption. Qed.

Lemma ninv_response c s bn rs rs' :
  ninv c s -> afind bn (p1 s) = Some rs -> ninv c (set_p1 s (aset bn rs' (p1 s))).
Proof.
  intros I F. apply (ninv_mono c s _ I); [apply (ni_acc c s I)|exact (obal_leb_refl _)| |apply Z.le_refl].
  intros k. apply amem_aset_present. exact (afind_amem _ _ _ F).
Qed.

(** phase 2: the own ballot, when accepted, is a key of [p1], hence promised *)
Lemma ninv_phase2_acc c s bn v : ninv c s -> amem bn (p1 s) = true -> ninv c (phase2_acc c s bn v).
Proof.
  intros I M. apply (ninv_mono c s _ I); [|exact (obal_leb_refl _)|reflexivity|apply Z.le_refl].
  cbn. destruct (may_promise s (bn, me c)); [|apply (ni_acc c s I)].
  destruct (ni_p1 c s I bn M) as [p [Ep Lp]]. rewrite Ep. exact Lp.
Qed.

(** a fresh ballot number: afterwards the node has promised at least [(n, me c)]
    and at least what it had promised, which covers the new key and the old ones *)
Lemma ninv_opened c s n fs pv fid : ninv c s -> cur s < n -> ninv c (opened c s n fs pv fid).
Proof.
  intros [A B C] L.
  assert (PN : obal_leb (promised s) (promised (opened c s n fs pv fid)) = true /\
               exists p, promised (opened c s n fs pv fid) = Some p /\ bal_leb (n, me c) p = true).
  { cbn. destruct (may_promise s (n, me c)) eqn:E; rewrite may_promise_eq in E.
    - split; [exact E|]. exists (n, me c). split; [reflexivity|apply bal_leb_refl].
    - split; [apply obal_leb_refl|]. destruct (promised s) as [p|]; [|discriminate].
      exists p. split; [reflexivity|]. apply bal_ltb_leb, negb_false_iff, E. }
  destruct PN as [P [p [Ep Lp]]]. split.
  - exact (obal_leb_trans _ _ _ A P).
  - intros k Hk. apply amem_aset_inv in Hk as [->|Hk]; [eauto|].
    destruct (B k Hk) as [p0 [E0 L0]]. rewrite E0, Ep in P. exists p. split; [exact Ep|exact (bal_leb_trans _ _ _ L0 P)].
  - intros k Hk. apply amem_aset_inv in Hk as [->|Hk]; [apply Z.le_refl|]. apply C in Hk. cbn. lia.
Qed.

Lemma step_ninv c s i : ninv c s -> ninv c (fst (step c s i)).
Proof.
  intros I. pose proof I as [A B C]. pose proof (step_promise_monotone c s i) as P.
  destruct (step_graph c s i); subst; try exact I;
    try (apply (ninv_mono c s _ I); [exact A|exact P|reflexivity|cbn; lia]).
  - apply ninv_opened; assumption.
  - apply (ninv_mono c s _ I); [|exact P|reflexivity|apply Z.le_refl].
    rewrite may_promise_eq in *. exact (obal_leb_trans _ _ (Some (bn, bnode)) A ltac:(assumption)).
  - apply (ninv_mono c s _ I); [|exact P|reflexivity|apply Z.le_refl]. exact (obal_leb_refl (Some (bn, bnode))).
  - eapply ninv_response; eauto.
  - apply ninv_decided_if, ninv_phase2_acc; [eapply ninv_response; eauto|]. cbn. rewrite amem_aset, Z.eqb_refl. reflexivity.
Qed.

Fixpoint nrun (c : pcfg) (s : pstate) (l : list pin) : pstate :=
  match l with [] => s | i :: r => nrun c (fst (step c s i)) r end.

Lemma nrun_inv c (P : pstate -> Prop) :
  (forall s i, P s -> P (fst (step c s i))) -> forall l s, P s -> P (nrun c s l).
Proof. intros H l; induction l; cbn; auto. Qed.

Lemma nrun_app c l l' : forall s, nrun c s (l ++ l') = nrun c (nrun c s l) l'.
Proof. induction l; cbn; auto. Qed.

Theorem promise_monotone_run c l i :
  obal_leb (promised (nrun c pinit l)) (promised (fst (step c (nrun c pinit l) i))) = true.
Proof. apply step_promise_monotone. Qed.

Definition finv (s : pstate) : Prop :=
  forall f v, In (f, v) (resolved s) -> decided s = true /\ v = dec_v s.

Lemma finv_init : finv pinit. Proof. intros f v []. Qed.

Lemma finv_frame s s' :
  resolved s' = resolved s -> decided s' = decided s -> dec_v s' = dec_v s -> finv s -> finv s'.
Proof. unfold finv. intros -> -> ->. auto. Qed.

(** [_decide] acts on an undecided node only, and that has resolved no future *)
Lemma finv_decided_if dec s bn v : finv s -> (dec = true -> decided s = false) -> finv (decided_if dec s bn v).
Proof.
  intros H D. destruct dec; [specialize (D eq_refl)|exact H].
  intros f w I. cbn in *. apply in_app_or in I as [I|I]; [apply H in I; destruct I; congruence|].
  destruct (afind bn (futs s)); [|contradiction]. destruct I as [I|[]]. inversion I. auto.
Qed.

Lemma step_finv c s i : finv s -> finv (fst (step c s i)).
Proof.
  intros H. destruct (step_graph c s i); subst; try exact H; try (apply (finv_frame s); [reflexivity..|exact H]).
  - intros f w I. cbn in *. apply in_app_or in I as [I|[I|[]]]; [apply H in I; tauto|inversion I; auto].
  - apply finv_decided_if; [apply (finv_frame s); [reflexivity..|exact H]|].
    intros E. apply andb_prop in E as [_ E]. apply negb_true_iff, E.
  - apply finv_decided_if; [apply (finv_frame s); [reflexivity..|exact H]|].
    intros E. apply andb_prop in E as [_ E]. apply andb_prop in E as [_ E]. apply negb_true_iff, E.
  - intros f w I. apply H in I. destruct I; congruence.
Qed.

Lemma decision_stable_from c s l : stable s (nrun c s l).
Proof.
  intros D. apply (nrun_inv c (fun s' => decided s' = true /\ dec_v s' = dec_v s)); [|auto].
  intros s0 i [D1 V1]. destruct (step_decision_stable c s0 i D1). split; congruence.
Qed.
