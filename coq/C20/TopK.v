(** C20 — TopK (space-saving): count - error <= true <= count for tracked
    items, sum of counts = N, every item with true > N/k is tracked. *)
From HS Require Import Base.Prelude Base.Lists C20.Model C20.Counting.
Local Open Scope Z_scope.

Definition keys (l : list tk_entry) : list Z := map fst l.
Fixpoint sumc (l : list tk_entry) : Z :=
  match l with [] => 0 | e :: r => e_count e + sumc r end.

Lemma tk_find_some x l ce : tk_find x l = Some ce -> In (x, ce) l.
Proof.
  induction l as [|[y v] l IH]; cbn; [discriminate|].
  destruct (y =? x) eqn:E; intros H.
  - injection H as <-. left. f_equal. lia.
  - right. auto.
Qed.

Lemma tk_find_none x l : tk_find x l = None -> ~ In x (keys l).
Proof.
  induction l as [|[y v] l IH]; cbn; [intros _ []|].
  destruct (y =? x) eqn:E; [discriminate|]. intros H [H1|H1]; [lia|]. now apply IH.
Qed.

Lemma tk_find_notin x l : ~ In x (keys l) -> tk_find x l = None.
Proof.
  induction l as [|[y v] l IH]; cbn; [reflexivity|]. intros H.
  destruct (y =? x) eqn:E; [exfalso; apply H; left; lia|]. apply IH. intros I. apply H. now right.
Qed.

Lemma in_keys e l : In e l -> In (fst e) (keys l).
Proof. intros H. unfold keys. now apply in_map. Qed.

Lemma tk_min_none l : tk_min l = None -> l = [].
Proof. destruct l as [|e r]; [reflexivity|]. cbn. destruct (tk_min r) as [e'|]; [destruct (_ <? _)|]; discriminate. Qed.

Lemma tk_min_spec l m : tk_min l = Some m ->
  In m l /\ forall e, In e l -> e_count m <= e_count e.
Proof.
  revert m. induction l as [|a r IH]; intros m; cbn; [discriminate|].
  destruct (tk_min r) as [e'|] eqn:E.
  - destruct (IH e' eq_refl) as [Hin Hle].
    destruct (e_count e' <? e_count a) eqn:C; intros H; inversion H; subst; split.
    + now right.
    + intros e [<-|He]; [lia|auto].
    + now left.
    + intros e [<-|He]; [lia|]. specialize (Hle e He). lia.
  - apply tk_min_none in E. subst r. intros H; inversion H; subst. split; [now left|].
    intros e [<-|[]]. lia.
Qed.

Lemma keys_incr x c l : keys (tk_incr x c l) = keys l.
Proof.
  unfold keys. induction l as [|[y [n e]] l IH]; cbn [tk_incr map]; [reflexivity|].
  destruct (y =? x); cbn [map fst]; [reflexivity|]. now rewrite IH.
Qed.

Lemma length_incr x c l : length (tk_incr x c l) = length l.
Proof. pose proof (keys_incr x c l) as H. apply (f_equal (@length Z)) in H. unfold keys in H. now rewrite !map_length in H. Qed.

Lemma sumc_app a b : sumc (a ++ b) = sumc a + sumc b.
Proof. induction a as [|e a IH]; cbn; [lia|]. rewrite IH. lia. Qed.

(** With distinct keys, an entry is the first of its key: the list splits around it. *)
Lemma first_split y ce l : In (y, ce) l -> NoDup (keys l) ->
  exists l1 l2, l = l1 ++ (y, ce) :: l2 /\ ~ In y (keys l1) /\ ~ In y (keys l2).
Proof.
  intros I N. destruct (in_split _ _ I) as (l1 & l2 & ->). exists l1, l2. split; [reflexivity|].
  unfold keys in *. rewrite map_app in N. apply NoDup_remove_2 in N.
  split; intros H; apply N, in_or_app; [left|right]; exact H.
Qed.

Lemma incr_app x c l1 n e l2 : ~ In x (keys l1) ->
  tk_incr x c (l1 ++ (x, (n, e)) :: l2) = l1 ++ (x, (n + c, e)) :: l2.
Proof.
  induction l1 as [|[y [n' e']] l1 IH]; cbn; intros N; [now rewrite Z.eqb_refl|].
  destruct (Z.eqb_spec y x) as [E|_]; [destruct (N (or_introl E))|]. rewrite IH; [reflexivity|tauto].
Qed.

Lemma del_app y l1 ce l2 : ~ In y (keys l1) -> tk_del y (l1 ++ (y, ce) :: l2) = l1 ++ l2.
Proof.
  induction l1 as [|[z v] l1 IH]; cbn; intros N; [now rewrite Z.eqb_refl|].
  destruct (Z.eqb_spec z y) as [E|_]; [destruct (N (or_introl E))|]. rewrite IH; [reflexivity|tauto].
Qed.

Lemma sumc_incr x c l ce : In (x, ce) l -> NoDup (keys l) -> sumc (tk_incr x c l) = sumc l + c.
Proof.
  destruct ce as [n e]. intros I N. destruct (first_split _ _ _ I N) as (l1 & l2 & -> & N1 & _).
  rewrite incr_app, !sumc_app by exact N1. unfold e_count. cbn. lia.
Qed.

(** Each entry of the incremented list is an entry of the old list, or that of [x] with [c] more. *)
Lemma in_incr x c l ce e' : In (x, ce) l -> NoDup (keys l) -> In e' (tk_incr x c l) ->
  (fst e' <> x /\ In e' l) \/
  (fst e' = x /\ In (x, (e_count e' - c, e_error e')) l).
Proof.
  destruct ce as [n e]. intros I N. destruct (first_split _ _ _ I N) as (l1 & l2 & -> & N1 & N2).
  rewrite incr_app by exact N1. intros H. apply in_app_or in H. destruct H as [H|[<-|H]].
  - left. split; [intros <-; apply N1, in_keys, H|apply in_or_app; left; exact H].
  - right. unfold e_count, e_error. cbn. split; [reflexivity|]. replace (n + c - c) with n by lia. apply in_elt.
  - left. split; [intros <-; apply N2, in_keys, H|apply in_or_app; right; right; exact H].
Qed.

Lemma del_in y l e : In e (tk_del y l) -> In e l.
Proof.
  induction l as [|[z v] l IH]; cbn; [intros []|]. destruct (z =? y); [now right|].
  intros [<-|H]; [now left|right; auto].
Qed.

Lemma del_keys_in y ce l z : In (y, ce) l -> NoDup (keys l) -> In z (keys l) -> z <> y -> In z (keys (tk_del y l)).
Proof.
  intros I N. destruct (first_split _ _ _ I N) as (l1 & l2 & -> & N1 & _). rewrite del_app by exact N1.
  unfold keys. rewrite !map_app. intros H Hz. apply in_app_or in H. apply in_or_app.
  destruct H as [H|[H|H]]; [left; exact H|cbn in H; congruence|right; exact H].
Qed.

Lemma del_nodup y ce l : In (y, ce) l -> NoDup (keys l) -> NoDup (keys (tk_del y l)).
Proof.
  intros I N. destruct (first_split _ _ _ I N) as (l1 & l2 & -> & N1 & _). rewrite del_app by exact N1.
  unfold keys in *. rewrite map_app in *. exact (NoDup_remove_1 _ _ _ N).
Qed.

Lemma del_length_sum y ce l : In (y, ce) l -> NoDup (keys l) ->
  S (length (tk_del y l)) = length l /\ sumc (tk_del y l) = sumc l - fst ce.
Proof.
  intros I N. destruct (first_split _ _ _ I N) as (l1 & l2 & -> & N1 & _). rewrite del_app by exact N1.
  rewrite !app_length, !sumc_app. cbn. unfold e_count, tk_entry. cbn. split; lia.
Qed.

Lemma sumc_ge l b : (forall e, In e l -> b <= e_count e) -> Z.of_nat (length l) * b <= sumc l.
Proof.
  induction l as [|e l IH]; intros H; cbn [length sumc]; [lia|].
  pose proof (H e (or_introl eq_refl)). assert (Z.of_nat (length l) * b <= sumc l) by (apply IH; intros; apply H; now right).
  lia.
Qed.

Section TopK.
Variable k : Z.
Hypothesis Hk : 0 < k.

(** Upper bound known for the true count of untracked items: 0 while there is
    room, then the smallest tracked count. *)
Definition floor (l : list tk_entry) : Z :=
  if Z.of_nat (length l) <? k then 0
  else match tk_min l with Some m => e_count m | None => 0 end.

Lemma le_floor_iff b l : b <= floor l <->
  (Z.of_nat (length l) < k -> b <= 0) /\ (k <= Z.of_nat (length l) -> forall e, In e l -> b <= e_count e).
Proof using Hk.
  unfold floor. destruct (Z.ltb_spec (Z.of_nat (length l)) k) as [L|L].
  - split; [intros H; split; [auto|lia]|intros [H _]; auto].
  - destruct (tk_min l) as [m|] eqn:M.
    + apply tk_min_spec in M. destruct M as [Min Mle]. split.
      * intros H. split; [lia|]. intros _ e He. specialize (Mle e He). lia.
      * intros [_ H]. auto.
    + apply tk_min_none in M. subst l. cbn in L. lia.
Qed.

Definition good (s : list (Z * Z)) (e : tk_entry) : Prop :=
  0 <= e_error e /\ e_count e - e_error e <= true_count (fst e) s <= e_count e.

Record inv (st : topk) (s : list (Z * Z)) : Prop := {
  i_nodup : NoDup (keys (t_cnt st));
  i_len : Z.of_nat (length (t_cnt st)) <= k;
  i_good : forall e, In e (t_cnt st) -> good s e;
  i_sum : sumc (t_cnt st) = stream_total s;
  i_untracked : forall y, ~ In y (keys (t_cnt st)) -> true_count y s <= floor (t_cnt st)
}.

Lemma good_count_nonneg s e : good s e -> 0 <= e_count e.
Proof. intros [_ [_ H]]. pose proof (true_count_nonneg (fst e) s). lia. Qed.

Lemma good_snoc_other s x c e : fst e <> x -> good s e -> good (s ++ [(x, c)]) e.
Proof. intros H G. unfold good. rewrite true_count_snoc_other by exact H. exact G. Qed.

Definition tk_put (st : topk) (x c : Z) : topk :=
  let l := t_cnt st in
  {| t_cnt := match tk_find x l with
              | Some _ => tk_incr x c l
              | None => if Z.of_nat (length l) <? k then l ++ [(x, (c, 0))]
                        else match tk_min l with
                             | None => [(x, (c, 0))]
                             | Some (y, (mn, _)) => tk_del y l ++ [(x, (mn + c, mn))]
                             end
              end;
     t_total := t_total st + c |}.

Lemma tk_add_fst st x c : fst (tk_add k st x c) = if 0 <? c then tk_put st x c else st.
Proof.
  transitivity (fst (if c <? 0 then (st, true) else if c =? 0 then (st, false) else (tk_put st x c, false)));
    [|apply guard_fst].
  unfold tk_add, tk_put. destruct (c <? 0); [reflexivity|]. destruct (c =? 0); [reflexivity|]. cbv zeta.
  destruct (tk_find x (t_cnt st)); [reflexivity|]. destruct (_ <? k); [reflexivity|].
  destruct (tk_min (t_cnt st)) as [[y [mn ?]]|]; reflexivity.
Qed.

Lemma tk_add_total st x c : t_total (fst (tk_add k st x c)) = t_total st + (if 0 <? c then c else 0).
Proof. rewrite tk_add_fst. destruct (0 <? c); cbn; lia. Qed.

Lemma tk_sketch_total s st : t_total (tk_sketch k s st) = t_total st + stream_total s.
Proof. apply (fold_total (fun st x c => fst (tk_add k st x c)) t_total tk_add_total). Qed.

Lemma incr_inv st s x c ce : 0 < c -> inv st s -> tk_find x (t_cnt st) = Some ce ->
  inv {| t_cnt := tk_incr x c (t_cnt st); t_total := t_total st + c |} (s ++ [(x, c)]).
Proof using Hk.
  intros Hc [Hnd Hlen Hgood Hsum Hun] F. apply tk_find_some in F. pose proof (in_keys _ _ F) as Fk. cbn [fst] in Fk.
  split; cbn [t_cnt t_total]; rewrite ?keys_incr, ?length_incr, ?stream_total_snoc by exact Hc; try assumption.
  - intros e' He'. destruct (in_incr x c _ ce e' F Hnd He') as [[A B]|[A B]].
    + apply good_snoc_other; auto.
    + destruct (Hgood _ B) as [G1 G2]. unfold good, e_count, e_error in *. cbn [fst snd] in *.
      rewrite A, true_count_snoc_same by exact Hc. lia.
  - rewrite (sumc_incr x c _ ce F Hnd). lia.
  - intros y Hy. rewrite true_count_snoc_other by (intros ->; exact (Hy Fk)).
    specialize (Hun y Hy). apply le_floor_iff in Hun. destruct Hun as [U1 U2].
    apply le_floor_iff. rewrite length_incr. split; [exact U1|]. intros L e' He'.
    destruct (in_incr x c _ ce e' F Hnd He') as [[_ B]|[_ B]]; specialize (U2 L _ B);
      unfold e_count in *; cbn [fst snd] in *; lia.
Qed.

(** [l'] is the tracked list, or what eviction leaves of it; [b] bounds the untracked counts. *)
Lemma snoc_inv st s x c l' n e b : 0 < c -> inv st s ->
  (forall e', In e' l' -> In e' (t_cnt st)) -> NoDup (keys l') -> ~ In x (keys (t_cnt st)) ->
  Z.of_nat (length l') < k -> sumc l' + n = stream_total s + c ->
  0 <= e -> n - e <= true_count x s + c <= n ->
  (forall z, ~ In z (keys l') -> true_count z s <= b) -> b <= floor (l' ++ [(x, (n, e))]) ->
  inv {| t_cnt := l' ++ [(x, (n, e))]; t_total := t_total st + c |} (s ++ [(x, c)]).
Proof.
  intros Hc [Hnd Hlen Hgood Hsum Hun] Hsub Hnd' Hx Hlen' Hsum' He Hn Hb Hfl.
  assert (Hx' : ~ In x (keys l')).
  { intros H. apply Hx. unfold keys in *. apply in_map_iff in H. destruct H as (e' & <- & H). apply in_map, Hsub, H. }
  split; cbn [t_cnt t_total]; rewrite ?stream_total_snoc by exact Hc.
  - unfold keys. rewrite map_app. apply NoDup_snoc; assumption.
  - rewrite app_length. cbn [length]. lia.
  - intros e' He'. apply in_app_iff in He'. destruct He' as [He'|[<-|[]]].
    + apply good_snoc_other; [|apply Hgood, Hsub, He']. intros <-. apply Hx', in_keys, He'.
    + unfold good, e_count, e_error. cbn [fst snd]. rewrite true_count_snoc_same by exact Hc. lia.
  - rewrite sumc_app. cbn. unfold e_count. cbn. lia.
  - intros z Hz. assert (Hz' : z <> x /\ ~ In z (keys l')).
    { unfold keys in *. rewrite map_app, in_app_iff in Hz. cbn in Hz. split; [intros ->|intros H]; apply Hz; auto. }
    destruct Hz' as [Hzx Hz']. rewrite true_count_snoc_other by exact Hzx. specialize (Hb z Hz'). lia.
Qed.

Lemma step_inv st s x c : 0 < c -> inv st s -> inv (fst (tk_add k st x c)) (s ++ [(x, c)]).
Proof using Hk.
  intros Hc H. rewrite tk_add_fst. replace (0 <? c) with true by lia. unfold tk_put. cbv zeta.
  destruct (tk_find x (t_cnt st)) as [ce|] eqn:F; [exact (incr_inv st s x c ce Hc H F)|].
  apply tk_find_none in F. pose proof (i_untracked _ _ H x F) as Tx. apply le_floor_iff in Tx.
  pose proof (true_count_nonneg x s) as Tx0.
  destruct (Z.ltb_spec (Z.of_nat (length (t_cnt st))) k) as [L|L].
  - (* room left: nothing untracked has been seen yet *)
    destruct Tx as [Tx _]. specialize (Tx L).
    apply (snoc_inv st s x c (t_cnt st) c 0 0 Hc H); [auto|apply H|exact F|exact L|rewrite (i_sum _ _ H); lia|lia|lia| |].
    + intros z Hz. apply (i_untracked _ _ H) in Hz. apply le_floor_iff in Hz. apply Hz, L.
    + apply le_floor_iff. split; [lia|]. intros _ e He. apply in_app_iff in He.
      destruct He as [He|[<-|[]]]; [apply (good_count_nonneg s), H, He|unfold e_count; cbn; lia].
  - (* full: the first minimum is evicted; its count bounds every untracked count, its own included *)
    destruct (tk_min (t_cnt st)) as [[y [mn ey]]|] eqn:M.
    2:{ apply tk_min_none in M. rewrite M in L. cbn in L. lia. }
    destruct (tk_min_spec _ _ M) as [Min Mle]. unfold e_count in Mle. cbn [fst snd] in Mle.
    destruct (del_length_sum y (mn, ey) _ Min (i_nodup _ _ H)) as [Dlen Dsum]. cbn [fst] in Dsum.
    destruct Tx as [_ Tx]. specialize (Tx L _ Min). unfold e_count in Tx. cbn [fst snd] in Tx.
    pose proof (i_len _ _ H) as Hlen. pose proof (i_sum _ _ H) as Hsum.
    apply (snoc_inv st s x c (tk_del y (t_cnt st)) (mn + c) mn mn Hc H);
      [|apply (del_nodup y _ _ Min), H|exact F|unfold tk_entry in *; lia|lia|apply (good_count_nonneg s _ (i_good _ _ H _ Min))|lia| |].
    + intros e' He'. apply (del_in y _ e' He').
    + intros z Hz. destruct (Z.eq_dec z y) as [->|Hzy].
      * destruct (i_good _ _ H _ Min) as [_ G]. unfold e_count in G. cbn [fst snd] in G. lia.
      * assert (Hz' : ~ In z (keys (t_cnt st))) by (intros I; apply Hz, (del_keys_in y _ _ z Min (i_nodup _ _ H)); assumption).
        apply (i_untracked _ _ H) in Hz'. apply le_floor_iff in Hz'. destruct Hz' as [_ Hz'].
        apply (Hz' L _ Min).
    + apply le_floor_iff. split; [rewrite app_length; cbn [length]; unfold tk_entry in *; lia|].
      intros _ e He. apply in_app_iff in He.
      destruct He as [He|[<-|[]]]; [apply Mle, (del_in y _ e He)|unfold e_count; cbn; lia].
Qed.

Lemma inv_same st s s' : (forall y, true_count y s' = true_count y s) -> stream_total s' = stream_total s ->
  inv st s -> inv st s'.
Proof.
  intros E1 E2 [A B C D G]. split; auto; try congruence.
  - intros e He. unfold good. rewrite E1. apply C, He.
  - intros y Hy. rewrite E1. auto.
Qed.

Lemma add_inv st s x c : inv st s -> inv (fst (tk_add k st x c)) (s ++ [(x, c)]).
Proof using Hk.
  intros H. destruct (Z.ltb_spec 0 c) as [Hc|Hc]; [apply step_inv; assumption|].
  rewrite tk_add_fst. replace (0 <? c) with false by lia. apply (inv_same _ s); [| |exact H].
  - intros y. rewrite true_count_app. cbn. replace (0 <? c) with false by lia. rewrite andb_false_r. lia.
  - rewrite stream_total_app. cbn. replace (0 <? c) with false by lia. lia.
Qed.

(** A sketch that accounts for the history [s0] accounts for [s0 ++ s] after the stream [s]. *)
Lemma sketch_inv s : forall st s0, inv st s0 -> inv (tk_sketch k s st) (s0 ++ s).
Proof using Hk.
  induction s as [|[x c] s IH]; intros st s0 H; [now rewrite app_nil_r|].
  change ((x, c) :: s) with ([(x, c)] ++ s). rewrite app_assoc. apply IH, add_inv, H.
Qed.

Lemma inv_empty : inv topk_empty [].
Proof using Hk.
  split; cbn; [constructor|lia|intros e []|reflexivity|].
  intros y _. apply le_floor_iff. cbn. split; [lia|intros _ e []].
Qed.

Lemma sketch_inv0 s : inv (tk_sketch k s topk_empty) s.
Proof using Hk. exact (sketch_inv s topk_empty [] inv_empty). Qed.

(** With [k] counters that sum to N, the smallest is at most [guaranteed_threshold()] = N // k. *)
Lemma floor_le_threshold s : floor (t_cnt (tk_sketch k s topk_empty)) <= tk_threshold k (tk_sketch k s topk_empty).
Proof using Hk.
  unfold tk_threshold. rewrite (tk_sketch_total s topk_empty). cbn [t_total topk_empty]. rewrite Z.add_0_l.
  pose proof (sketch_inv0 s) as H. set (st := tk_sketch k s topk_empty) in *.
  pose proof (Z.div_pos _ k (stream_total_nonneg s) Hk) as P.
  unfold floor. destruct (Z.ltb_spec (Z.of_nat (length (t_cnt st))) k) as [L|L]; [exact P|].
  destruct (tk_min (t_cnt st)) as [m|] eqn:M; [|exact P].
  destruct (tk_min_spec _ _ M) as [_ Mle]. apply Z.div_le_lower_bound; [lia|].
  pose proof (sumc_ge (t_cnt st) (e_count m) Mle) as S. rewrite (i_sum _ _ H) in S.
  replace k with (Z.of_nat (length (t_cnt st))) at 1 by (pose proof (i_len _ _ H); lia). exact S.
Qed.

Lemma floor_le_max_error st s : inv st s -> floor (t_cnt st) <= tk_max_error st.
Proof.
  intros H. unfold tk_max_error, floor. destruct (tk_min (t_cnt st)) as [m|] eqn:M; [|destruct (_ <? k); lia].
  destruct (tk_min_spec _ _ M) as [Min _]. pose proof (good_count_nonneg s m (i_good _ _ H _ Min)).
  destruct (_ <? k); lia.
Qed.

End TopK.

(** Hypotheses satisfiable: a heavy hitter above N // k, and an eviction. *)
Example topk_hypotheses_satisfiable :
  let s := [(1, 3); (2, 1); (3, 1)] in
  0 < 2 /\ tk_threshold 2 (tk_sketch 2 s topk_empty) = 2 /\ true_count 1 s = 3 /\
  tk_find 1 (t_cnt (tk_sketch 2 s topk_empty)) = Some (3, 0) /\
  tk_find 3 (t_cnt (tk_sketch 2 s topk_empty)) = Some (2, 1) /\
  tk_find 2 (t_cnt (tk_sketch 2 s topk_empty)) = None.
Proof. cbv zeta. repeat split; try lia; vm_compute; reflexivity. Qed.
