(** Property C03 — the same model and seeds give the same run.

    (1) Every model in this development is a Gallina function of the script /
        operation sequence alone: no hash salt, wall clock, object address or
        process-global counter is a parameter, and the correspondence checks
        show the implementation agrees with these functions.  What remains is
        the question WHICH inputs a faithful model needs; that is settled per
        site by the classification below.
    (2) [c03_env_sites_classified]: every site of the CURRENT source tree where
        a run can come to depend on the environment (regenerated on every run
        into Gen/EnvSites.v by harness/translate/sites.py) has a settled row in
        the hand-maintained table C03/SiteClass.v: benign for a stated reason,
        or a recorded finding.  A proof by computation over a finite domain.
    (3) The findings named by the table are exactly the recorded ones. *)
From HS Require Import Base.Sites C03.SiteClass Gen.EnvSites.
From Coq Require Import String List ZArith Bool.
Import ListNotations.
Local Open Scope string_scope.

Theorem c03_env_sites_classified : all_classified known_env_sites env_sites = true.
Proof. rewrite <- all_classified_fast_eq. vm_compute. reflexivity. Qed.
Print Assumptions c03_env_sites_classified.

Theorem c03_every_env_site_has_a_settled_row :
  forall s, In s env_sites -> exists c, In (s, c) known_env_sites /\ is_settled c = true.
Proof. exact (all_classified_spec known_env_sites env_sites c03_env_sites_classified). Qed.
Print Assumptions c03_every_env_site_has_a_settled_row.

(** The table names these findings and no others (each has an entry in
    known_findings/C03.json with a replayable witness). *)
Theorem c03_findings_of_the_table :
  nodup string_dec (finding_ids known_env_sites) =
  ["C03-ttl-eviction-wallclock-default"].
Proof. vm_compute. reflexivity. Qed.
Print Assumptions c03_findings_of_the_table.

(** (4) Engine level, ALL scripts: the observable run does not depend on the
    value of the process-global sort-index counter when the model is built,
    i.e. on which simulations were built or run earlier in the interpreter.
    Numbering the events from any [k] instead of 0 yields the same delivery
    sequence (time, type, target, kind), the same entity-side log (clocks seen,
    values received, hooks, finishes) and the same final clock and counters. *)
From HS Require Import Base.Prelude Engine.Engine Engine.Script Engine.Shift Engine.ShiftRun.
Local Open Scope Z_scope.

Theorem c03_run_independent_of_counter_offset : forall k fuel start end_ns p pre,
  let o0 := script_run fuel start end_ns p pre in
  let ok := run invoke_script fuel end_ns (script_init_from k start p pre) in
  deliveries_of (out_state ok) = deliveries_of (out_state o0) /\
  ulog (user (out_state ok)) = ulog (user (out_state o0)) /\
  clock (out_state ok) = clock (out_state o0) /\
  processed (out_state ok) = processed (out_state o0) /\
  ncancelled (out_state ok) = ncancelled (out_state o0) /\
  length (heap (out_state ok)) = length (heap (out_state o0)).
Proof.
  intros k fuel start end_ns p pre o0 ok. unfold ok, o0, script_run. rewrite script_init_from_sh, run_sh, out_state_sh.
  set (s := out_state _). repeat split; [apply deliveries_of_sh|cbn; apply map_length].
Qed.
Print Assumptions c03_run_independent_of_counter_offset.

(** Non-vacuity: numbering from 1000 really produces different identities. *)
Example c03_offset_example :
  map (fun e => ev_sort e) (heap (script_init_from 1000 0 [[]] [mkPre 5 (mkEmit (mkEmit0 0 0 0 false) (-1) []) false]))
  = [1000].
Proof. reflexivity. Qed.
