(** C18 — the methods of [Gen/ClocksGen.v] (py2coq, from core/logical_clocks.py,
    crdt/g_counter.py, crdt/pn_counter.py, crdt/lww_register.py), read through the
    abstraction functions of the model (Python dict -> total function with default 0,
    HLCTimestamp -> triple, optional timestamp -> option pair), are the model
    functions the C18 theorems are about. *)
From HS Require Import Base.Prelude Base.Lists Base.PyLib C18.Model C18.Causal Gen.ClocksGen.
Local Open Scope Z_scope.

Lemma tie_lamport_tick n pt s :
  LamportClock__time (fst (LamportClock_tick s)) = c_local lamport n pt (LamportClock__time s).
Proof. reflexivity. Qed.

Lemma tie_lamport_send n pt s :
  LamportClock__time (fst (LamportClock_send s)) = c_send lamport n pt (LamportClock__time s)
  /\ snd (LamportClock_send s) = c_stamp lamport n (LamportClock__time (fst (LamportClock_send s))).
Proof. split; reflexivity. Qed.

Lemma tie_lamport_receive n pt s t :
  LamportClock__time (fst (LamportClock_receive s t)) = c_recv lamport n pt (LamportClock__time s) t.
Proof. reflexivity. Qed.

Definition ts_abs (t : HLCTimestamp) : hlc_ts :=
  (HLCTimestamp_physical_ns t, HLCTimestamp_logical t, HLCTimestamp_node_id t).

Lemma tie_hlcts_lt a b : HLCTimestamp___lt__ a b = hlc_ltb (ts_abs a) (ts_abs b).
Proof.
  unfold HLCTimestamp___lt__, hlc_ltb, ts_abs. destruct a as [ap al an], b as [bp bl bn]; cbn.
  rewrite andb_false_r, orb_false_r. reflexivity.
Qed.

Lemma tie_hlcts_eq a b : HLCTimestamp___eq__ a b = hlc_eqb (ts_abs a) (ts_abs b).
Proof. unfold HLCTimestamp___eq__, hlc_eqb, ts_abs. destruct a, b; reflexivity. Qed.

(** [a > b] as functools.total_ordering derives it from [__lt__] and [__eq__]
    is the model's [hlc_ltb b a]. *)
Lemma tie_hlcts_gt a b :
  negb (HLCTimestamp___lt__ a b) && negb (HLCTimestamp___eq__ a b) = hlc_ltb (ts_abs b) (ts_abs a).
Proof. rewrite tie_hlcts_lt, tie_hlcts_eq. apply hlc_gtb_ltb. Qed.

Definition hlc_abs (s : HybridLogicalClock) : hlc_st :=
  (HLCTimestamp_physical_ns (HybridLogicalClock__last s), HLCTimestamp_logical (HybridLogicalClock__last s)).
(** The constructor sets [_last.node_id = _node_id]; every method keeps it. *)
Definition hlc_wf (s : HybridLogicalClock) : Prop :=
  HLCTimestamp_node_id (HybridLogicalClock__last s) = HybridLogicalClock__node_id s.

Lemma tie_hlc_now s pt :
  let r := HybridLogicalClock_now s pt in
  hlc_abs (fst r) = c_local hlc (HybridLogicalClock__node_id s) pt (hlc_abs s)
  /\ ts_abs (snd r) = c_stamp hlc (HybridLogicalClock__node_id s) (hlc_abs (fst r))
  /\ hlc_wf (fst r) /\ HybridLogicalClock__node_id (fst r) = HybridLogicalClock__node_id s.
Proof.
  destruct s as [n [p l nn]]. unfold HybridLogicalClock_now, hlc_abs, hlc_wf, ts_abs, hlc_now.
  cbn; tie_split; cbn; repeat split; first [reflexivity|lia].
Qed.

Lemma tie_hlc_send s pt : HybridLogicalClock_send s pt = HybridLogicalClock_now s pt.
Proof. unfold HybridLogicalClock_send. destruct (HybridLogicalClock_now s pt); reflexivity. Qed.

Lemma tie_hlc_receive s r pt :
  let s' := fst (HybridLogicalClock_receive s r pt) in
  hlc_abs s' = c_recv hlc (HybridLogicalClock__node_id s) pt (hlc_abs s) (ts_abs r)
  /\ hlc_wf s' /\ HybridLogicalClock__node_id s' = HybridLogicalClock__node_id s.
Proof.
  destruct s as [n [p l nn]], r as [rp rl rn].
  unfold HybridLogicalClock_receive, hlc_abs, hlc_wf, ts_abs, hlc_recv.
  cbn; tie_split; cbn; repeat split; first [reflexivity|lia].
Qed.

Definition lww_abs (r : LWWRegister) : lww :=
  match LWWRegister__timestamp r with
  | None => None
  | Some t => Some (ts_abs t, LWWRegister__value r)
  end.

Lemma tie_lww_set r v t :
  lww_abs (fst (LWWRegister_set r v t)) = lww_set v (ts_abs t) (lww_abs r).
Proof.
  unfold LWWRegister_set, lww_abs, lww_set. destruct r as [n v0 [t0|]]; cbn -[hlc_ltb]; [|reflexivity].
  rewrite tie_hlcts_gt. destruct (hlc_ltb (ts_abs t0) (ts_abs t)); reflexivity.
Qed.

Lemma tie_lww_merge a b :
  lww_abs (fst (LWWRegister_merge a b)) = lww_merge (lww_abs a) (lww_abs b).
Proof.
  unfold LWWRegister_merge, lww_abs, lww_merge.
  destruct a as [na va [ta|]], b as [nb vb [tb|]]; cbn -[hlc_ltb]; try reflexivity.
  rewrite tie_hlcts_gt. destruct (hlc_ltb (ts_abs ta) (ts_abs tb)); reflexivity.
Qed.

(** Neither operation changes the replica's identity. *)
Lemma tie_lww_node r v t a b :
  LWWRegister__node_id (fst (LWWRegister_set r v t)) = LWWRegister__node_id r
  /\ LWWRegister__node_id (fst (LWWRegister_merge a b)) = LWWRegister__node_id a.
Proof.
  unfold LWWRegister_set, LWWRegister_merge. split.
  - destruct r as [n v0 [t0|]]; cbn; [|reflexivity].
    repeat match goal with |- context [if ?c then _ else _] => destruct c end; reflexivity.
  - destruct a as [na va [ta|]], b as [nb vb [tb|]]; cbn; try reflexivity.
    repeat match goal with |- context [if ?c then _ else _] => destruct c end; reflexivity.
Qed.

(** [d] is a dict (unique keys) with non-negative values that reads as [v]. *)
Definition dpw (d : pydict) (v : vec) : Prop := dwf d = true /\ dnonneg d /\ forall k, dfun d k = v k.

Lemma dfun_notin d k : ~ In k (map fst d) -> dfun d k = 0.
Proof.
  intros H. unfold dfun. apply dget_not_mem. destruct (dmem d k) eqn:E; [|reflexivity].
  exfalso. apply H. clear H. induction d as [|[k' v'] r IH]; cbn in *; [discriminate|].
  apply orb_true_iff in E as [E|E]; [left; lia|right; exact (IH E)].
Qed.

Lemma dnonneg_dset_dfun d k x : dnonneg d -> 0 <= x -> dnonneg (dset d k (dfun d k + x)).
Proof. intros H Hx. apply dnonneg_dset; [exact H|]. pose proof (dnonneg_dfun _ H k). lia. Qed.

Lemma dpw_bump d v k : dpw d v -> dpw (dset d k (dfun d k + 1)) (upd v k (v k + 1)).
Proof.
  intros (Hw & Hn & Hv). split; [apply dwf_dset, Hw|]. split; [apply dnonneg_dset_dfun; [exact Hn|lia]|].
  intros k2. rewrite dfun_dset. unfold upd. rewrite !Hv. reflexivity.
Qed.

(** The loops [for k, v in other.items(): d[k] = max(d.get(k, 0), v)]. *)
Lemma dmerge_fold_nonneg b : forall a, dnonneg a -> dnonneg (fold_left dmerge_step b a).
Proof.
  apply fold_left_inv. intros a kv H. unfold dmerge_step. apply dnonneg_dset; [exact H|].
  pose proof (dnonneg_dfun _ H (fst kv)). unfold dfun in *. lia.
Qed.

Lemma dmerge_fold_max a b : dwf b = true -> dnonneg a ->
  forall k, dfun (fold_left dmerge_step b a) k = Z.max (dfun a k) (dfun b k).
Proof.
  intros Hb Ha k. rewrite (dmerge_fold b a Hb k). destruct (dmem b k) eqn:E; [reflexivity|].
  unfold dfun at 3. rewrite (dget_not_mem _ _ _ E). pose proof (dnonneg_dfun _ Ha k). lia.
Qed.

Lemma dpw_merge a v b : dpw a v -> dwf b = true ->
  dpw (fold_left dmerge_step b a) (fun k => Z.max (v k) (dfun b k)).
Proof.
  intros (Hw & Hn & Hv) Hb. split; [apply dmerge_fold_wf, Hw|]. split; [apply dmerge_fold_nonneg, Hn|].
  intros k. rewrite (dmerge_fold_max a b Hb Hn), Hv. reflexivity.
Qed.

Definition gc_abs (s : GCounter) : gc := dfun (GCounter__counts s).

Lemma tie_gc_increment s n :
  match GCounter_increment s n with
  | None => n < 1 /\ gc_inc (GCounter__node_id s) n (gc_abs s) = gc_abs s      (* ValueError, state unchanged *)
  | Some (s', _) =>
      1 <= n /\ GCounter__node_id s' = GCounter__node_id s
      /\ forall k, gc_abs s' k = gc_inc (GCounter__node_id s) n (gc_abs s) k
  end.
Proof.
  unfold GCounter_increment, gc_inc, gc_abs. destruct (n <? 1) eqn:E.
  - split; [lia|reflexivity].
  - split; [lia|]. split; [reflexivity|]. intros k. cbn. unfold dfun. rewrite dget_dset. unfold upd. reflexivity.
Qed.

Lemma tie_gc_node_value s k : GCounter_node_value s k = gc_abs s k.
Proof. reflexivity. Qed.

Lemma gc_merge_counts a b :
  GCounter__counts (fst (GCounter_merge a b)) = fold_left dmerge_step (GCounter__counts b) (GCounter__counts a).
Proof. unfold GCounter_merge; cbn [fst]. apply fold_left_morph. reflexivity. Qed.

(** [merge] is the model's [gc_merge] when counts are non-negative (they are:
    increments are positive, [tie_gc_increment], and [tie_gc_inv_increment] keeps them so). *)
Lemma tie_gc_merge a b :
  dwf (GCounter__counts b) = true -> dnonneg (GCounter__counts a) ->
  forall k, gc_abs (fst (GCounter_merge a b)) k = gc_merge (gc_abs a) (gc_abs b) k.
Proof. intros Hwf Ha k. unfold gc_abs. rewrite gc_merge_counts. apply dmerge_fold_max; assumption. Qed.

Lemma tie_gc_value s : dwf (GCounter__counts s) = true ->
  GCounter_value s = gc_value (map fst (GCounter__counts s)) (gc_abs s).
Proof.
  intros Hwf. unfold GCounter_value, gc_value, gc_abs. rewrite (dsum_keys _ Hwf).
  generalize (map fst (GCounter__counts s)) as ks. induction ks as [|k ks IH]; cbn; [reflexivity|]. rewrite IH. reflexivity.
Qed.

(** The dict invariants are kept by both mutators. *)
Lemma tie_gc_inv_increment s n s' u :
  GCounter_increment s n = Some (s', u) ->
  (dwf (GCounter__counts s) = true -> dwf (GCounter__counts s') = true)
  /\ (dnonneg (GCounter__counts s) -> dnonneg (GCounter__counts s')).
Proof.
  unfold GCounter_increment. destruct (n <? 1) eqn:E; [discriminate|]. intros H; inversion H; subst; cbn.
  split; intros Hs; [apply dwf_dset, Hs|apply dnonneg_dset_dfun; [exact Hs|lia]].
Qed.

Lemma tie_gc_inv_merge a b :
  (dwf (GCounter__counts a) = true -> dwf (GCounter__counts (fst (GCounter_merge a b))) = true)
  /\ (dnonneg (GCounter__counts a) -> dnonneg (GCounter__counts (fst (GCounter_merge a b)))).
Proof.
  rewrite gc_merge_counts. split; intros H; [apply dmerge_fold_wf|apply dmerge_fold_nonneg]; exact H.
Qed.

Definition vc_abs (s : VectorClock) : vec := dfun (VectorClock__vector s).
(** The constructor puts the own id into the vector; no method removes keys. *)
Definition vc_wf (s : VectorClock) : Prop := dmem (VectorClock__vector s) (VectorClock__node_id s) = true.

(** What all three mutators end with: [s'] is [s] with the dict [D] in which the own
    entry has been incremented. *)
Definition vc_bumped (s s' : VectorClock) (D : pydict) : Prop :=
  VectorClock__node_id s' = VectorClock__node_id s /\
  VectorClock__vector s' = dset D (VectorClock__node_id s) (dfun D (VectorClock__node_id s) + 1).

Lemma vc_bumped_wf s s' D : vc_bumped s s' D -> vc_wf s'.
Proof. intros [Hn Hv]. unfold vc_wf. rewrite Hv, Hn, dmem_dset, Z.eqb_refl. reflexivity. Qed.

(** Of the node's own dict this is the model's [vc_tick]. *)
Lemma vc_bumped_tick s s' : vc_bumped s s' (VectorClock__vector s) ->
  VectorClock__node_id s' = VectorClock__node_id s /\ vc_wf s'
  /\ forall k, vc_abs s' k = vc_tick (VectorClock__node_id s) (vc_abs s) k.
Proof.
  intros Hb. split; [apply Hb|]. split; [apply (vc_bumped_wf _ _ _ Hb)|].
  intros k. unfold vc_abs. rewrite (proj2 Hb). apply dfun_dset.
Qed.

Lemma vc_tick_bumped s : vc_wf s ->
  exists s', VectorClock_tick s = Some (s', tt) /\ vc_bumped s s' (VectorClock__vector s).
Proof. intros Hwf. unfold VectorClock_tick. rewrite (dfind_mem _ _ Hwf). eexists; repeat split. Qed.

Lemma vc_send_bumped s : vc_wf s ->
  exists s', VectorClock_send s = Some (s', VectorClock__vector s') /\ vc_bumped s s' (VectorClock__vector s).
Proof. intros Hwf. unfold VectorClock_send. rewrite (dfind_mem _ _ Hwf). eexists; repeat split. Qed.

Lemma tie_vc_tick s : vc_wf s ->
  exists s', VectorClock_tick s = Some (s', tt)
  /\ VectorClock__node_id s' = VectorClock__node_id s /\ vc_wf s'
  /\ forall k, vc_abs s' k = c_local vector (VectorClock__node_id s) 0 (vc_abs s) k.
Proof.
  intros Hwf. destruct (vc_tick_bumped s Hwf) as (s' & E & Hb). exists s'. split; [exact E|apply vc_bumped_tick, Hb].
Qed.

Lemma tie_vc_send s : vc_wf s ->
  exists s', VectorClock_send s = Some (s', VectorClock__vector s')
  /\ VectorClock__node_id s' = VectorClock__node_id s /\ vc_wf s'
  /\ forall k, vc_abs s' k = c_send vector (VectorClock__node_id s) 0 (vc_abs s) k.
Proof.
  intros Hwf. destruct (vc_send_bumped s Hwf) as (s' & E & Hb). exists s'. split; [exact E|apply vc_bumped_tick, Hb].
Qed.

(** [receive]: the max-merge loop over the remote dict (whose body reads a missing
    key as the remote value: the same for non-negative values), then the increment. *)
Lemma vc_receive_bumped s r : vc_wf s -> dnonneg r ->
  exists s', VectorClock_receive s r = Some (s', tt) /\
    vc_bumped s s' (fold_left dmerge_step r (VectorClock__vector s)).
Proof.
  intros Hwf Hnr. unfold VectorClock_receive.
  match goal with |- context [fold_left ?F0 r s] => set (F := F0) end.
  assert (H1 : VectorClock__vector (fold_left F r s) = fold_left dmerge_step r (VectorClock__vector s)).
  { apply fold_left_morph. intros s0 [k0 v0] Hin. specialize (Hnr k0 v0 Hin).
    subst F. unfold dmerge_step; cbn [fst snd]. destruct (dmem (VectorClock__vector s0) k0) eqn:E; cbn; [reflexivity|].
    rewrite (dget_not_mem _ _ _ E), Z.max_r by lia. reflexivity. }
  assert (H2 : VectorClock__node_id (fold_left F r s) = VectorClock__node_id s).
  { apply (fold_left_inv F (fun s0 => VectorClock__node_id s0 = VectorClock__node_id s)); [|reflexivity].
    intros s0 kv E. subst F. cbn. destruct (dmem (VectorClock__vector s0) (fst kv)); exact E. }
  rewrite H1, H2, (dfind_mem (fold_left dmerge_step r (VectorClock__vector s))).
  - eexists; split; [reflexivity|]. split; [exact H2|reflexivity].
  - rewrite dmerge_fold_mem, Hwf. reflexivity.
Qed.

Lemma tie_vc_snapshot s : VectorClock_snapshot s = VectorClock__vector s.
Proof. reflexivity. Qed.

(** PNCounter (pn_counter.py): two translated G-counters; every method is the
    model's [pn_*] function on the abstraction ([_p], [_n] read through [gc_abs]). *)
Definition pn_abs (c : PNCounter) : pn := (gc_abs (PNCounter__p c), gc_abs (PNCounter__n c)).

Lemma tie_pn_increment c n :
  match PNCounter_increment c n with
  | None => n < 1
  | Some (c', _) =>
      1 <= n /\ PNCounter__n c' = PNCounter__n c /\ PNCounter__node_id c' = PNCounter__node_id c
      /\ GCounter__node_id (PNCounter__p c') = GCounter__node_id (PNCounter__p c)
      /\ forall k, fst (pn_abs c') k = fst (pn_inc (GCounter__node_id (PNCounter__p c)) n (pn_abs c)) k
  end.
Proof.
  unfold PNCounter_increment. pose proof (tie_gc_increment (PNCounter__p c) n) as H.
  destruct (GCounter_increment (PNCounter__p c) n) as [[p' u]|].
  - destruct H as (H1 & H2 & H3). cbn. repeat split; try assumption.
  - destruct H as [H _]. exact H.
Qed.

Lemma tie_pn_decrement c n :
  match PNCounter_decrement c n with
  | None => n < 1
  | Some (c', _) =>
      1 <= n /\ PNCounter__p c' = PNCounter__p c /\ PNCounter__node_id c' = PNCounter__node_id c
      /\ GCounter__node_id (PNCounter__n c') = GCounter__node_id (PNCounter__n c)
      /\ forall k, snd (pn_abs c') k = snd (pn_dec (GCounter__node_id (PNCounter__n c)) n (pn_abs c)) k
  end.
Proof.
  unfold PNCounter_decrement. pose proof (tie_gc_increment (PNCounter__n c) n) as H.
  destruct (GCounter_increment (PNCounter__n c) n) as [[p' u]|].
  - destruct H as (H1 & H2 & H3). cbn. repeat split; try assumption.
  - destruct H as [H _]. exact H.
Qed.

Lemma tie_pn_merge a b :
  dwf (GCounter__counts (PNCounter__p b)) = true -> dwf (GCounter__counts (PNCounter__n b)) = true ->
  dnonneg (GCounter__counts (PNCounter__p a)) -> dnonneg (GCounter__counts (PNCounter__n a)) ->
  forall k, fst (pn_abs (fst (PNCounter_merge a b))) k = fst (pn_merge (pn_abs a) (pn_abs b)) k
         /\ snd (pn_abs (fst (PNCounter_merge a b))) k = snd (pn_merge (pn_abs a) (pn_abs b)) k.
Proof.
  intros Wp Wn Np Nn k. unfold PNCounter_merge, pn_abs, pn_merge.
  destruct (GCounter_merge (PNCounter__p a) (PNCounter__p b)) as [p' u1] eqn:Ep.
  cbn [set_PNCounter__p PNCounter__n PNCounter__p].
  destruct (GCounter_merge (PNCounter__n a) (PNCounter__n b)) as [n' u2] eqn:En.
  cbn [fst snd set_PNCounter__n PNCounter__n PNCounter__p].
  pose proof (tie_gc_merge (PNCounter__p a) (PNCounter__p b) Wp Np k) as H1. rewrite Ep in H1.
  pose proof (tie_gc_merge (PNCounter__n a) (PNCounter__n b) Wn Nn k) as H2. rewrite En in H2.
  split; assumption.
Qed.

Lemma tie_pn_value c :
  dwf (GCounter__counts (PNCounter__p c)) = true -> dwf (GCounter__counts (PNCounter__n c)) = true ->
  PNCounter_value c = gc_value (map fst (GCounter__counts (PNCounter__p c))) (fst (pn_abs c))
                    - gc_value (map fst (GCounter__counts (PNCounter__n c))) (snd (pn_abs c))
  /\ PNCounter_increments c = gc_value (map fst (GCounter__counts (PNCounter__p c))) (fst (pn_abs c))
  /\ PNCounter_decrements c = gc_value (map fst (GCounter__counts (PNCounter__n c))) (snd (pn_abs c)).
Proof.
  intros Wp Wn. unfold PNCounter_value, PNCounter_increments, PNCounter_decrements, pn_abs; cbn [fst snd].
  rewrite (tie_gc_value _ Wp), (tie_gc_value _ Wn). repeat split.
Qed.

(** VectorClock.happened_before (logical_clocks.py): a loop with [break] over the
      union of the two key sets.  Python iterates a set in an arbitrary order: the
      translation takes the iteration order as a parameter, and the tie holds for
      EVERY order that enumerates the generated element list. *)
Definition hb_body (f g : Z -> Z) (st : bool * bool * bool) (x : Z) : bool * bool * bool :=
  let '(leq, lt, brk) := st in
  if brk then st
  else if f x >? g x then (false, lt, true) else if f x <? g x then (leq, true, false) else (leq, lt, false).

Lemma hb_loop_broken f g l leq lt : fold_left (hb_body f g) l (leq, lt, true) = (leq, lt, true).
Proof. induction l as [|x l IH]; [reflexivity|exact IH]. Qed.

(** Without a break the flags are the model's two tests; after a break [all_leq] is off. *)
Lemma hb_loop f g l lt0 :
  let '(leq', lt', _) := fold_left (hb_body f g) l (true, lt0, false) in
  leq' = forallb (fun x => f x <=? g x) l /\
  (leq' = true -> lt' = lt0 || existsb (fun x => f x <? g x) l).
Proof.
  revert lt0; induction l as [|x l IH]; intros lt0; cbn [fold_left forallb existsb hb_body].
  - rewrite orb_false_r. auto.
  - destruct (f x >? g x) eqn:E1; [|destruct (f x <? g x) eqn:E2].
    + rewrite hb_loop_broken. replace (f x <=? g x) with false by lia. split; [reflexivity|discriminate].
    + specialize (IH true). destruct (fold_left (hb_body f g) l (true, true, false)) as [[leq' lt'] b'].
      replace (f x <=? g x) with true by lia. split; [apply IH|]. intros H. rewrite (proj2 IH H), orb_true_r. reflexivity.
    + specialize (IH lt0). destruct (fold_left (hb_body f g) l (true, lt0, false)) as [[leq' lt'] b'].
      replace (f x <=? g x) with true by lia. exact IH.
Qed.

Lemma tie_vc_happened_before_hbb a b order :
  VectorClock_happened_before a b order = vc_hbb order (dfun (VectorClock__vector a)) (dfun (VectorClock__vector b)).
Proof.
  unfold VectorClock_happened_before. cbn zeta.
  rewrite (fold_left_morph (fun st => st) _ (hb_body (dfun (VectorClock__vector a)) (dfun (VectorClock__vector b)))).
  - pose proof (hb_loop (dfun (VectorClock__vector a)) (dfun (VectorClock__vector b)) order false) as H.
    destruct (fold_left _ order (true, false, false)) as [[leq' lt'] b']. destruct H as [-> H].
    unfold vc_hbb, vc_leb. destruct (forallb _ order); [rewrite (H eq_refl)|]; reflexivity.
  - intros [[leq lt] brk] x _. unfold hb_body, dfun. destruct brk; [reflexivity|]. tie_split; try reflexivity; lia.
Qed.

(** Keys outside both dicts read 0 on both sides, so an order that enumerates the two key sets decides [vc_lt]. *)
Lemma tie_vc_happened_before a b order :
  (forall k, In k order <-> In k (VectorClock_happened_before_setiter_elems a b)) ->
  (VectorClock_happened_before a b order = true <-> vc_lt (dfun (VectorClock__vector a)) (dfun (VectorClock__vector b))).
Proof.
  intros Hord. rewrite tie_vc_happened_before_hbb. apply vc_hbb_spec. intros k Hk.
  rewrite Hord in Hk. unfold VectorClock_happened_before_setiter_elems in Hk. rewrite in_app_iff in Hk.
  rewrite !dfun_notin by tauto. reflexivity.
Qed.
