(** C11 — leader completeness as a consequence of the history invariant [cinv]
    at a single state (no step induction here): by strong induction on the
    later term, following the vote of a node in the intersection of the quorum
    that accepted the entry and the quorum that elected the later leader. *)
From HS Require Import Base.Prelude Base.Lists C11.Model C11.NodeProofs C11.Election C11.LogProofs C11.LogMatching C11.Steps C11.Ghost.
Local Open Scope Z_scope.

Lemma pok_entry_led w g L j e : lm_inv w g -> pok g L -> nth_error L j = Some e -> exists x, In (fst e, x) (led w).
Proof.
  intros M P H. apply (M_gled w g M). pose proof (pok_len g L j e P H). destruct (g (fst e)); [cbn in *; lia|discriminate].
Qed.

Theorem LC w G : cinv w G ->
  forall T m, dcommitted w G T m -> forall t x, T < t -> In (t, x) (led w) -> firstn m (gg G t) = firstn m (gg G T).
Proof.
  intros K T m (Hm & Ho & Q & QN & QQ & QA).
  set (g := gg G) in *.
  assert (Main : forall k t x, T < t -> t - T <= Z.of_nat k -> In (t, x) (led w) -> firstn m (g t) = firstn m (g T)).
  { induction k as [|k IH]; intros t x Ht Hk Hl; [lia|].
    assert (IH' : forall t' x', T < t' -> t' < t -> In (t', x') (led w) -> firstn m (g t') = firstn m (g T))
      by (intros t' x' A B C; apply (IH t' x' A); [lia|exact C]).
    clear IH.
    destruct (K_led w G K t x Hl) as (vs & VN & VQ & VV).
    pose proof (K_lm w G K) as M.
    destruct (NoDup_incl_meet (ids w) vs Q VN QN) as (r & Hr1 & Hr2).
    { intros v Hv. destruct (VV v Hv) as (L & HL & _). apply (K_V w G K _ _ _ _ HL). }
    { intros q Hq. apply (QA q Hq). }
    { unfold nquorum, zlen in *. dlia. }
    destruct (VV r Hr1) as (L & HL & VG). destruct (QA r Hr2) as [_ Acc].
    destruct (K_V w G K _ _ _ _ HL) as (_ & _ & _ & PL & _ & _ & UP). specialize (UP Hl).
    destruct (VG T m Ht Acc Hm Ho) as [Has|(t' & x' & A & B & C & D)]; [|exfalso; apply D, (IH' t' x'); auto; lia].
    destruct (K_el w G K t) as (sfx & Eg & El1 & El2). fold g in Eg.
    assert (Pel : pok g (gel G t)).
    { replace (gel G t) with (firstn (length (gel G t)) (g t)) by (rewrite Eg, firstn_app_le, firstn_all by lia; reflexivity).
      apply pok_firstn, (M_g w g M). }
    assert (HasC : hasP g (gel G t) T m).
    { apply (uptodate_has g (gel G t) L T m (K_g1 w G K) Pel PL Has Hm Ho UP).
      intros e He Hlt. apply In_nth_error in He as (j & Hj).
      destruct (pok_entry_led w g _ _ _ M Pel Hj) as (x' & Hx').
      apply (IH' (fst e) x' Hlt); [|exact Hx']. apply El1. apply (nth_error_In _ _ Hj). }
    destruct HasC as [C1 C2]. fold g. rewrite Eg, firstn_app_le by exact C1. exact C2. }
  intros t x Ht Hl. apply (Main (Z.to_nat (t - T)) t x Ht); [lia|exact Hl].
Qed.

Corollary LC_le w G : cinv w G ->
  forall T m, dcommitted w G T m -> forall t x, T <= t -> In (t, x) (led w) -> firstn m (gg G t) = firstn m (gg G T).
Proof.
  intros K T m D t x Ht Hl. destruct (Z.eq_dec T t) as [->|Ne]; [reflexivity|]. apply (LC w G K T m D t x); [lia|exact Hl].
Qed.
