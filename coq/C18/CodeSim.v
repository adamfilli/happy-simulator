(** C18 — the REGENERATED code, run over any history, simulates the models:
    so the causality theorems hold for the clock algebras assembled from the
    translated methods themselves ([Gen/ClocksGen.v]), not only for the
    hand-written ones.  Constructors ([__init__]) are not translated; the
    initial states below are written by hand from them. *)
From HS Require Import Base.Prelude Base.PyLib C18.Model C18.Causal Gen.ClocksGen C18.GenTie.
Local Open Scope Z_scope.

(** Whenever [A] runs a history, so does [B], with stamps related one by one. *)
Definition stamps_rel (A B : clock_alg) (RT : T A -> T B -> Prop) (tr : list act) : Prop :=
  forall ta, stamps A tr = Some ta ->
  exists tb, stamps B tr = Some tb /\
    forall i a, nth_error ta i = Some a -> exists b, nth_error tb i = Some b /\ RT a b.

Section Sim.
  Variables A B : clock_alg.
  Variable RC : Z -> C A -> C B -> Prop.
  Variable RT : T A -> T B -> Prop.
  Hypothesis init_ok : forall n, RC n (c_init A n) (c_init B n).
  Hypothesis local_ok : forall n pt a b, RC n a b -> RC n (c_local A n pt a) (c_local B n pt b).
  Hypothesis send_ok : forall n pt a b, RC n a b -> RC n (c_send A n pt a) (c_send B n pt b).
  Hypothesis recv_ok : forall n pt a b ta tb, RC n a b -> RT ta tb ->
    RC n (c_recv A n pt a ta) (c_recv B n pt b tb).
  Hypothesis stamp_ok : forall n a b, RC n a b -> RT (c_stamp A n a) (c_stamp B n b).

  Definition srel (sa : cstate A) (sb : cstate B) : Prop :=
    (forall n, RC n (clk sa n) (clk sb n)) /\
    (forall m, match msgs sa m, msgs sb m with
               | Some ta, Some tb => RT ta tb
               | None, None => True
               | _, _ => False
               end).

  Lemma RC_upd (fa : Z -> C A) (fb : Z -> C B) n ca cb :
    (forall n, RC n (fa n) (fb n)) -> RC n ca cb -> forall n', RC n' (upd fa n ca n') (upd fb n cb n').
  Proof. intros H Hc n'. unfold upd. destruct (Z.eqb_spec n' n) as [->|]; [exact Hc|apply H]. Qed.

  Lemma cstep_sim sa sb a : srel sa sb ->
    match cstep A sa a, cstep B sb a with
    | Some (sa', ta), Some (sb', tb) => srel sa' sb' /\ RT ta tb
    | None, None => True
    | _, _ => False
    end.
  Proof.
    intros [Hc Hm]. destruct a as [n pt|n m pt|n m pt]; cbn.
    - split; [split|]; [apply RC_upd; auto|exact Hm|apply stamp_ok, local_ok, Hc].
    - pose proof (Hm m) as Hmm. destruct (msgs sa m), (msgs sb m); try exact I; try contradiction.
      split; [split|]; [apply RC_upd; auto|..|apply stamp_ok, send_ok, Hc].
      intros m'; cbn. unfold upd. destruct (m' =? m); [apply stamp_ok, send_ok, Hc|apply Hm].
    - pose proof (Hm m) as Hmm. destruct (msgs sa m) as [ta|], (msgs sb m) as [tb|]; try exact I; try contradiction.
      split; [split|]; [apply RC_upd; auto|exact Hm|apply stamp_ok, recv_ok; auto].
  Qed.

  Lemma crun_sim tr : forall sa sb, srel sa sb ->
    match crun A sa tr, crun B sb tr with
    | Some (_, ta), Some (_, tb) => Forall2 RT ta tb
    | None, None => True
    | _, _ => False
    end.
  Proof.
    induction tr as [|a r IH]; intros sa sb H; cbn; [constructor|].
    pose proof (cstep_sim sa sb a H) as Hs.
    destruct (cstep A sa a) as [[sa' ta]|], (cstep B sb a) as [[sb' tb]|]; try exact I; try contradiction.
    destruct Hs as [Hrel Ht]. specialize (IH sa' sb' Hrel).
    destruct (crun A sa' r) as [[? tas]|], (crun B sb' r) as [[? tbs]|]; try exact I; try contradiction.
    constructor; assumption.
  Qed.

  Theorem stamps_sim tr :
    match stamps A tr, stamps B tr with
    | Some ta, Some tb => Forall2 RT ta tb
    | None, None => True
    | _, _ => False
    end.
  Proof.
    unfold stamps. assert (H0 : srel (cinit A) (cinit B)) by (split; [exact init_ok|intros m; exact I]).
    pose proof (crun_sim tr _ _ H0) as H.
    destruct (crun A (cinit A) tr) as [[? ta]|], (crun B (cinit B) tr) as [[? tb]|]; exact H.
  Qed.

  Lemma stamps_sim_nth tr : stamps_rel A B RT tr.
  Proof.
    intros ta Ha. pose proof (stamps_sim tr) as H. rewrite Ha in H.
    destruct (stamps B tr) as [tb|]; [|contradiction]. exists tb. split; [reflexivity|]. apply Forall2_nth, H.
  Qed.
End Sim.

Definition lamport_code : clock_alg := {|
  C := LamportClock; T := Z;
  c_init := fun _ => mkLamportClock 0;                       (* LamportClock() *)
  c_local := fun _ _ s => fst (LamportClock_tick s);
  c_send := fun _ _ s => fst (LamportClock_send s);          (* the message carries the value send() returns *)
  c_recv := fun _ _ s t => fst (LamportClock_receive s t);
  c_stamp := fun _ s => LamportClock__time s;
|}.

Lemma lamport_code_send_stamp n pt s :
  snd (LamportClock_send s) = c_stamp lamport_code n (c_send lamport_code n pt s).
Proof. reflexivity. Qed.
Lemma lamport_code_send_returns_stamp s :
  snd (LamportClock_send s) = c_stamp lamport_code 0 (c_send lamport_code 0 0 s).
Proof. apply lamport_code_send_stamp. Qed.

Lemma lamport_code_sim tr : stamps_rel lamport_code lamport eq tr.
Proof.
  apply (stamps_sim_nth lamport_code lamport (fun _ s c => LamportClock__time s = c) eq).
  - reflexivity.
  - intros n pt a b H. cbn [c_local lamport_code]. rewrite (tie_lamport_tick n pt), H. reflexivity.
  - intros n pt a b H. cbn [c_send lamport_code]. rewrite (proj1 (tie_lamport_send n pt a)), H. reflexivity.
  - intros n pt a b ta0 tb H Ht. cbn [c_recv lamport_code]. rewrite (tie_lamport_receive n pt), H, Ht. reflexivity.
  - intros n a b H; exact H.
Qed.

Definition hlc_code : clock_alg := {|
  C := HybridLogicalClock; T := HLCTimestamp;
  c_init := fun n => mkHybridLogicalClock n (mkHLCTimestamp 0 0 n);   (* __init__ *)
  c_local := fun _ pt s => fst (HybridLogicalClock_now s pt);
  c_send := fun _ pt s => fst (HybridLogicalClock_send s pt);
  c_recv := fun _ pt s t => fst (HybridLogicalClock_receive s t pt);
  c_stamp := fun _ s => HybridLogicalClock__last s;          (* what now()/send() return: [tie_hlc_now] *)
|}.

Definition hlc_rel (n : Z) (s : HybridLogicalClock) (c : hlc_st) : Prop :=
  hlc_abs s = c /\ hlc_wf s /\ HybridLogicalClock__node_id s = n.

Lemma hlc_rel_now n pt a b : hlc_rel n a b -> hlc_rel n (fst (HybridLogicalClock_now a pt)) (hlc_now pt b).
Proof.
  intros (Ha & Hw & Hn). destruct (tie_hlc_now a pt) as (H1 & _ & H3 & H4).
  repeat split; [rewrite H1, Hn, Ha; reflexivity|exact H3|rewrite H4; exact Hn].
Qed.

Lemma hlc_code_sim tr : stamps_rel hlc_code hlc (fun a b => ts_abs a = b) tr.
Proof.
  apply (stamps_sim_nth hlc_code hlc hlc_rel (fun a b => ts_abs a = b)).
  - intros n. repeat split.
  - intros n pt a b. apply hlc_rel_now.
  - intros n pt a b. cbn [c_send hlc_code]. rewrite tie_hlc_send. apply hlc_rel_now.
  - intros n pt a b ta0 tb (Ha & Hw & Hn) Ht. destruct (tie_hlc_receive a ta0 pt) as (H1 & H2 & H3).
    cbn [c_recv hlc_code]. repeat split; [rewrite H1, Hn, Ha, Ht; reflexivity|exact H2|rewrite H3; exact Hn].
  - intros n a b (Ha & Hw & Hn). cbn. unfold ts_abs. unfold hlc_abs in Ha. unfold hlc_wf in Hw.
    rewrite <- Ha, Hw, Hn. reflexivity.
Qed.

(** A KeyError — impossible by [vc_wf] — would leave the state unchanged. *)
Definition vc_or (s : VectorClock) {X} (r : option (VectorClock * X)) : VectorClock :=
  match r with Some (s', _) => s' | None => s end.

Definition vector_code : clock_alg := {|
  C := VectorClock; T := pydict;
  c_init := fun n => mkVectorClock n [(n, 0)];               (* __init__ with node_ids = [n]; other ids read 0 *)
  c_local := fun _ _ s => vc_or s (VectorClock_tick s);
  c_send := fun _ _ s => vc_or s (VectorClock_send s);
  c_recv := fun _ _ s t => vc_or s (VectorClock_receive s t);
  c_stamp := fun _ s => VectorClock_snapshot s;
|}.

Definition vc_rel (n : Z) (s : VectorClock) (v : vec) : Prop :=
  VectorClock__node_id s = n /\ vc_wf s /\ dpw (VectorClock__vector s) v.

Lemma vc_bumped_rel n s s' D w :
  VectorClock__node_id s = n -> vc_bumped s s' D -> dpw D w -> vc_rel n s' (upd w n (w n + 1)).
Proof.
  intros Hn Hb HD. split; [rewrite <- Hn; apply Hb|]. split; [apply (vc_bumped_wf _ _ _ Hb)|].
  rewrite (proj2 Hb), Hn. apply dpw_bump, HD.
Qed.

Lemma vector_code_sim tr : stamps_rel vector_code vector dpw tr.
Proof.
  apply (stamps_sim_nth vector_code vector vc_rel dpw).
  - intros n. unfold vc_rel, vc_wf, dpw; cbn. rewrite Z.eqb_refl. repeat split.
    + intros k v [E|[]]; inversion E; lia.
    + intros k. unfold dfun; cbn. destruct (n =? k); reflexivity.
  - intros n pt s v (Hn & Hw & Hd). destruct (vc_tick_bumped s Hw) as (s' & E & Hb).
    cbn [c_local vector_code vector]. rewrite E. exact (vc_bumped_rel n s s' _ v Hn Hb Hd).
  - intros n pt s v (Hn & Hw & Hd). destruct (vc_send_bumped s Hw) as (s' & E & Hb).
    cbn [c_send vector_code vector]. rewrite E. exact (vc_bumped_rel n s s' _ v Hn Hb Hd).
  - intros n pt s v ta0 tb (Hn & Hw & Hd) (Hta & Htn & Htp).
    destruct (vc_receive_bumped s ta0 Hw Htn) as (s' & E & Hb).
    cbn [c_recv vector_code vector]. rewrite E.
    apply (vc_bumped_rel n s s' _ (fun k => Z.max (v k) (tb k)) Hn Hb).
    destruct (dpw_merge _ v ta0 Hd Hta) as (D1 & D2 & D3).
    split; [exact D1|]. split; [exact D2|]. intros k. rewrite D3, Htp. reflexivity.
  - intros n s v (Hn & Hw & Hd). exact Hd.
Qed.

(** Strict pointwise order on the snapshots the code exchanges (missing key = 0). *)
Definition dict_lt (a b : pydict) : Prop := vc_lt (dfun a) (dfun b).
