(** Facts about the exact-rational instance [Qops] of C10/Model.v, and about runs of a step function. *)
From HS Require Import Base.Prelude C10.Model.
From Coq Require Import QArith Qround Lqa.
Local Open Scope Q_scope.

Ltac qsimp := cbn [num nadd nsub nmul ndiv nle nlt neqb n0 n1 secs nanos Qops] in *.

Lemma Qle_bool_false x y : Qle_bool x y = false <-> y < x.
Proof.
  split; intros H.
  - apply Qnot_le_lt. intros C. apply Qle_bool_iff in C. congruence.
  - destruct (Qle_bool x y) eqn:E; auto. apply Qle_bool_iff in E. lra.
Qed.

(** Decide a [Qle_bool] test and put the fact in the context. *)
Ltac qcase a b :=
  let E := fresh "E" in
  destruct (Qle_bool a b) eqn:E;
  [apply Qle_bool_iff in E | apply Qle_bool_false in E].

Lemma nmin_q a b : (b < a /\ nmin Qops a b = b) \/ (a <= b /\ nmin Qops a b = a).
Proof.
  unfold nmin; cbn. qcase a b; cbn; [right|left]; auto.
Qed.
Lemma nmax_q a b : (a < b /\ nmax Qops a b = b) \/ (b <= a /\ nmax Qops a b = a).
Proof.
  unfold nmax; cbn. qcase b a; cbn; [right|left]; auto.
Qed.

Lemma qsecs_inj d : qsecs d == inject_Z d * (1 # 1000000000).
Proof. unfold qsecs, inject_Z, Qeq, Qmult; cbn. lia. Qed.

Lemma inject_Z_minus a b : inject_Z (a - b) = inject_Z a - inject_Z b.
Proof. unfold Z.sub. rewrite inject_Z_plus, inject_Z_opp. reflexivity. Qed.

Lemma inject_b2z b : inject_Z (b2z b) = if b then 1%Q else 0%Q.
Proof. destruct b; reflexivity. Qed.

Lemma qsecs_plus a b : qsecs (a + b) == qsecs a + qsecs b.
Proof.
  pose proof (qsecs_inj (a + b)) as H. rewrite inject_Z_plus in H.
  pose proof (qsecs_inj a). pose proof (qsecs_inj b). lra.
Qed.
Lemma qsecs_split a b c : qsecs (c - a) == qsecs (b - a) + qsecs (c - b).
Proof. replace (c - a)%Z with ((b - a) + (c - b))%Z by lia. apply qsecs_plus. Qed.

Lemma qsecs_0 : qsecs 0 == 0.
Proof. reflexivity. Qed.

Lemma qsecs_split_mul r a b c : r * qsecs (c - a) == r * qsecs (b - a) + r * qsecs (c - b).
Proof.
  apply Qeq_trans with (r * (qsecs (b - a) + qsecs (c - b))); [|apply Qmult_plus_distr_r].
  apply Qmult_comp; [apply Qeq_refl|apply qsecs_split].
Qed.
Lemma qsecs_diag_mul r t : r * qsecs (t - t) == 0.
Proof. rewrite Z.sub_diag. apply Qmult_0_r. Qed.

Lemma qsecs_le0 d : qsecs d <= 0 <-> (d <= 0)%Z.
Proof. unfold qsecs, Qle; cbn. lia. Qed.
Lemma qsecs_nonneg d : (0 <= d)%Z -> 0 <= qsecs d.
Proof. unfold qsecs, Qle; cbn. lia. Qed.
Lemma qsecs_pos d : (0 < d)%Z -> 0 < qsecs d.
Proof. unfold qsecs, Qlt; cbn. lia. Qed.
Lemma rate_secs_nonneg r d : 0 <= r -> (0 <= d)%Z -> 0 <= r * qsecs d.
Proof. intros Hr Hd. exact (Qmult_le_0_compat _ _ Hr (qsecs_nonneg d Hd)). Qed.
Lemma qsecs_mono a b : (a <= b)%Z -> qsecs a <= qsecs b.
Proof. unfold qsecs, Qle; cbn. lia. Qed.

Lemma mulG_nonneg x : 0 <= x -> 0 <= x * G.
Proof. intros H. unfold G. apply Qmult_le_0_compat; [exact H|lra]. Qed.

Lemma qnanos_nonneg x : 0 <= x -> qnanos x = Qfloor (x * G).
Proof.
  intros H. unfold qnanos. pose proof (mulG_nonneg x H) as P.
  apply Qle_bool_iff in P. rewrite P. reflexivity.
Qed.
Lemma qnanos_le x : 0 <= x -> inject_Z (qnanos x) <= x * G.
Proof. intros H. rewrite qnanos_nonneg by auto. apply Qfloor_le. Qed.
Lemma qnanos_gt x : 0 <= x -> x * G < inject_Z (qnanos x) + 1.
Proof.
  intros H. rewrite qnanos_nonneg by auto.
  pose proof (Qlt_floor (x * G)) as U. rewrite inject_Z_plus in U. exact U.
Qed.
Lemma qnanos_ge0 x : 0 <= x -> (0 <= qnanos x)%Z.
Proof.
  intros H. rewrite qnanos_nonneg by auto.
  change 0%Z with (Qfloor 0). apply Qfloor_resp_le, mulG_nonneg, H.
Qed.

(** The ns -> seconds -> ns round trip is exact in the rational instance. *)
Lemma qnanos_qsecs d : qnanos (qsecs d) = d.
Proof.
  assert (E : qsecs d * G == inject_Z d) by (pose proof (qsecs_inj d); unfold G; lra).
  unfold qnanos. cbv zeta.
  destruct (Qle_bool 0 (qsecs d * G)).
  - rewrite (Qfloor_comp _ _ E). apply Qfloor_Z.
  - rewrite (Qceiling_comp _ _ E). apply Qceiling_Z.
Qed.

Lemma guard_pos w : (0 <= w)%Z -> (0 < guard w)%Z.
Proof. unfold guard. destruct (Z.eqb_spec w 0); lia. Qed.
Lemma guard_cases w : (w = 0%Z /\ guard w = 1%Z) \/ (w <> 0%Z /\ guard w = w).
Proof. unfold guard. destruct (Z.eqb_spec w 0); auto. Qed.

(** The wait returned for a need of [q] seconds is [guard (qnanos q)] ns: the floor of the need, or 1 ns. *)
Lemma wait_pos q : 0 < q -> (0 < guard (qnanos q))%Z.
Proof. intros Hq. apply guard_pos, qnanos_ge0. lra. Qed.

Lemma wait_floor q t : 0 < q -> (t < guard (qnanos q))%Z -> qsecs t < q.
Proof.
  intros Hq Ht. pose proof (qnanos_le q ltac:(lra)) as L. unfold G in L.
  destruct (guard_cases (qnanos q)) as [[_ E]|[_ E]]; rewrite E in Ht.
  - pose proof (qsecs_mono t 0 ltac:(lia)). pose proof qsecs_0. lra.
  - pose proof (qsecs_mono t (qnanos q - 1) ltac:(lia)).
    pose proof (qsecs_inj (qnanos q - 1)) as J. rewrite inject_Z_minus in J. change (inject_Z 1) with 1 in J. lra.
Qed.

Lemma wait_rest q : 0 < q -> (q - qsecs (guard (qnanos q))) * G < 1.
Proof.
  intros Hq. pose proof (qnanos_gt q ltac:(lra)) as U. unfold G in *.
  destruct (guard_cases (qnanos q)) as [[Z0 ->]|[_ ->]].
  - pose proof (qsecs_inj 1) as J. rewrite Z0 in U. change (inject_Z 0) with 0 in U. change (inject_Z 1) with 1 in J. lra.
  - pose proof (qsecs_inj (qnanos q)). lra.
Qed.

Lemma wait_last q : 0 < q -> q * G < 1 -> guard (qnanos q) = 1%Z.
Proof.
  intros H0 H1. pose proof (qnanos_le q ltac:(lra)). pose proof (qnanos_ge0 q ltac:(lra)).
  assert (L : inject_Z (qnanos q) < inject_Z 1) by (change (inject_Z 1) with 1; lra).
  rewrite <- Zlt_Qlt in L. replace (qnanos q) with 0%Z by lia. reflexivity.
Qed.

Lemma below_ns q : q * G < 1 -> q < qsecs 1.
Proof. intros H. pose proof (qsecs_inj 1) as J. change (inject_Z 1) with 1 in J. unfold G in H. lra. Qed.

Local Open Scope Z_scope.

(** Call sequences whose times never go back.  [nondecr]/[last_time]/[sorted] below and their counterparts
    over [aop] are these fixpoints at [time_of] / [atime_of] (convertible): the lemmas apply to them as they stand. *)
Section Chain.
  Context {Op : Type} (time : Op -> Z).

  Fixpoint chain (l : Z) (ops : list Op) : Prop :=
    match ops with [] => True | o :: r => l <= time o /\ chain (time o) r end.
  Fixpoint chain_last (l : Z) (ops : list Op) : Z :=
    match ops with [] => l | o :: r => chain_last (time o) r end.
  Definition chain_sorted (ops : list Op) : Prop :=
    match ops with [] => True | o :: r => chain (time o) r end.

  Lemma chain_app l a b : chain l (a ++ b) <-> chain l a /\ chain (chain_last l a) b.
  Proof. revert l; induction a as [|o a IH]; intros l; cbn; [tauto|]. rewrite IH. tauto. Qed.
  Lemma chain_ge l ops : chain l ops -> l <= chain_last l ops.
  Proof.
    revert l; induction ops as [|o r IH]; intros l; cbn; [lia|]. intros [H1 H2]. specialize (IH _ H2). lia.
  Qed.
  Lemma chain_weaken l l' ops : l' <= l -> chain l ops -> chain l' ops.
  Proof. destruct ops; cbn; [auto|]. intros ? [? ?]; split; [lia|auto]. Qed.
  Lemma chain_below l ops D : chain l ops -> chain_last l ops < D -> Forall (fun o => time o < D) ops.
  Proof.
    revert l; induction ops as [|o r IH]; intros l; cbn; [constructor|]. intros [_ H] HD.
    pose proof (chain_ge _ _ H). constructor; [lia|exact (IH _ H HD)].
  Qed.
  Lemma chain_sorted_app pre o r : chain_sorted (pre ++ o :: r) ->
    exists lo, chain lo pre /\ chain_last lo pre <= time o /\ chain (time o) r.
  Proof.
    destruct pre as [|o' pre]; cbn [app chain_sorted]; intros H.
    - exists (time o). cbn. split; [exact I|]. split; [lia|exact H].
    - exists (time o'). apply chain_app in H. cbn [chain chain_last] in *. split; [split; [lia|tauto]|tauto].
  Qed.
End Chain.

Fixpoint nondecr (l : Z) (ops : list pop) : Prop :=
  match ops with [] => True | o :: r => l <= time_of o /\ nondecr (time_of o) r end.
Fixpoint last_time (l : Z) (ops : list pop) : Z :=
  match ops with [] => l | o :: r => last_time (time_of o) r end.
Definition sorted (ops : list pop) : Prop :=
  match ops with [] => True | o :: r => nondecr (time_of o) r end.

Lemma nondecr_weaken l l' ops : l' <= l -> nondecr l ops -> nondecr l' ops.
Proof. exact (chain_weaken time_of l l' ops). Qed.

Section Run.
  Context {S Op : Type} (adm : Op -> Z -> Z) (step : S -> Op -> S * Z).
  Notation run := (run_count adm step).

  Lemma run_count_fst s o r : fst (run s (o :: r)) = fst (run (fst (step s o)) r).
  Proof. cbn [run_count]. destruct (step s o) as [s1 x]; cbn [fst snd]. destruct (run s1 r). reflexivity. Qed.
  Lemma run_count_snd s o r : snd (run s (o :: r)) = adm o (snd (step s o)) + snd (run (fst (step s o)) r).
  Proof. cbn [run_count]. destruct (step s o) as [s1 x]; cbn [fst snd]. destruct (run s1 r). reflexivity. Qed.

  Lemma run_count_inv (I : S -> Prop) : (forall s o, I s -> I (fst (step s o))) ->
    forall ops s, I s -> I (fst (run s ops)).
  Proof.
    intros Hstep. induction ops as [|o r IH]; intros s H; [exact H|].
    rewrite run_count_fst. apply IH, Hstep, H.
  Qed.

  (** [I s lo] speaks of calls at times [>= lo]. *)
  Lemma run_count_inv_clock (time : Op -> Z) (I : S -> Z -> Prop) :
    (forall s lo o, I s lo -> lo <= time o -> I (fst (step s o)) (time o)) ->
    forall ops s lo, I s lo -> chain time lo ops -> I (fst (run s ops)) (chain_last time lo ops).
  Proof.
    intros Hstep. induction ops as [|o r IH]; intros s lo H Hc; [exact H|]. destruct Hc as [Hlo Hc].
    rewrite run_count_fst. cbn [chain_last]. apply IH; [apply (Hstep s lo); assumption|exact Hc].
  Qed.

  Lemma run_count_zero (time : Op -> Z) (P : S -> Prop) D :
    (forall s o, P s -> time o < D -> P (fst (step s o)) /\ adm o (snd (step s o)) = 0) ->
    forall ops s, P s -> Forall (fun o => time o < D) ops -> snd (run s ops) = 0.
  Proof.
    intros Hstep. induction ops as [|o r IH]; intros s H HF; [reflexivity|].
    inversion HF as [|? ? Ho Hr]; subst. destruct (Hstep s o H Ho) as [H1 A].
    rewrite run_count_snd, A, (IH _ H1 Hr). reflexivity.
  Qed.
End Run.

Lemma run_times_cons {S} (step : S -> pop -> S * Z) s o r :
  run_times step s (o :: r) =
    (if granted o (snd (step s o)) =? 1 then [time_of o] else []) ++ run_times step (fst (step s o)) r.
Proof. cbn [run_times]. destruct (step s o). reflexivity. Qed.
