(** C11 — cluster-level LOG MATCHING, proved for every schedule of the cluster
    model (any cluster, any interleaving of deliveries, drops, timeouts,
    heartbeats, submits).

    Ghost variable: [g t] = the log of the leader of term [t] as of its latest
    step as leader of [t] (one leader per term: Election.v; a leader's log only
    grows: LogProofs.nstep_log).  Invariant: every log, every [g t]
    and every AppendEntries message in flight is "prefix-consistent" with [g]:
    an entry of term t' at position j comes with exactly the first j entries of
    [g t'].  Two logs that share (index, term) then share the whole prefix. *)
From HS Require Import Base.Prelude Base.Lists C11.Model C11.NodeProofs C11.Election C11.LogProofs.
Local Open Scope Z_scope.

Definition glog := Z -> list entry.

Definition pok (g : glog) (L : list entry) : Prop :=
  forall j e, nth_error L j = Some e -> firstn (S j) L = firstn (S j) (g (fst e)).

Lemma pok_nil g : pok g [].
Proof. intros j e H. destruct j; discriminate. Qed.

Lemma pok_firstn g L c : pok g L -> pok g (firstn c L).
Proof.
  intros H j e Hj. apply nth_error_firstn_some in Hj as [Hlt Hj].
  rewrite firstn_firstn. replace (Nat.min (S j) c) with (S j) by lia. apply (H j e Hj).
Qed.

(** Entries of term [t] only ever sit at positions below [length (g t)]. *)
Lemma pok_len g L j e : pok g L -> nth_error L j = Some e -> (S j <= length (g (fst e)))%nat.
Proof.
  intros H Hj. pose proof (H j e Hj) as E.
  assert (length (firstn (S j) L) = S j).
  { rewrite firstn_length. assert (j < length L)%nat by (apply nth_error_Some; congruence). lia. }
  rewrite E, firstn_length in H0. lia.
Qed.

(** Changing [g] at [t] by appending (or from []) keeps every consistent list consistent. *)
Definition gext (g g' : glog) (t : Z) : Prop :=
  (forall t', t' <> t -> g' t' = g t') /\ exists suffix, g' t = g t ++ suffix.

Lemma pok_gext g g' t L : gext g g' t -> pok g L -> pok g' L.
Proof.
  intros [Ho [sfx Ht]] H j e Hj. rewrite (H j e Hj).
  destruct (Z.eq_dec (fst e) t) as [E|E].
  - rewrite E, Ht. pose proof (pok_len g L j e H Hj) as Hl. rewrite E in Hl.
    rewrite firstn_app. replace (S j - length (g t))%nat with 0%nat by lia. cbn. rewrite app_nil_r. reflexivity.
  - rewrite (Ho _ E). reflexivity.
Qed.

(** How [g] changes when a node of the cluster [w] ends a step in state [n']:
    not at all, or at [term n'] only, where it becomes [log n'] by appending
    entries, of that very term if the term already had a leader. *)
Definition gchange (w : net) (g g' : glog) (n' : node) : Prop :=
  (role n' <> Leader /\ g' = g) \/
  (role n' = Leader /\ g' (term n') = log n' /\ (forall t', t' <> term n' -> g' t' = g t') /\
   exists s, g' (term n') = g (term n') ++ s /\ forall x e, In (term n', x) (led w) -> In e s -> fst e = term n').

Lemma gchange_same w g g' n' : gchange w g g' n' -> role n' <> Leader -> g' = g.
Proof. intros [[_ E]|(R' & _)] R; [exact E|contradiction]. Qed.

Lemma gchange_lead w g g' n' : gchange w g g' n' -> role n' = Leader -> g' (term n') = log n'.
Proof. intros [[NR _]|(_ & E & _)] R; [contradiction|exact E]. Qed.

Lemma gchange_app w g g' n' : gchange w g g' n' ->
  forall t, exists s, g' t = g t ++ s /\ forall x e, In (t, x) (led w) -> In e s -> fst e = t.
Proof.
  intros GX t.
  assert (Same : g' t = g t -> exists s, g' t = g t ++ s /\ forall x e, In (t, x) (led w) -> In e s -> fst e = t).
  { intros E. exists []. rewrite E, app_nil_r. split; [reflexivity|intros x e _ []]. }
  destruct GX as [[_ E]|(_ & _ & Ho & S)]; [apply Same; rewrite E; reflexivity|].
  destruct (Z.eq_dec t (term n')) as [->|Ne]; [exact S|apply Same, Ho, Ne].
Qed.

Lemma gchange_pok w g g' n' L : gchange w g g' n' -> pok g L -> pok g' L.
Proof.
  intros [[_ E]|(_ & _ & Ho & s & Es & _)] P; [rewrite E; exact P|].
  apply (pok_gext g g' (term n')); [|exact P]. split; [exact Ho|exists s; exact Es].
Qed.

(** One step of the follower's append loop against a consistent source [G]. *)
Lemma alog_pok g G L c t cmd :
  pok g L -> pok g G -> firstn c L = firstn c G -> nth_error G c = Some (t, cmd) -> (c <= length L)%nat ->
  pok g (alog L c t cmd) /\ firstn (S c) (alog L c t cmd) = firstn (S c) G.
Proof.
  intros HL HG Hpre HGc Hc.
  destruct (alog_cases L c t cmd Hc) as [(ex & E & Et & ->)| ->].
  - split; [exact HL|]. rewrite (HL c ex E), Et, (HG c (t, cmd) HGc). reflexivity.
  - assert (EG : firstn (S c) G = firstn c G ++ [(t, cmd)]) by (apply firstn_S_nth, HGc).
    rewrite Hpre, <- EG. split; [apply pok_firstn, HG|].
    rewrite firstn_firstn. f_equal. lia.
Qed.

(** The whole loop: the result is consistent and agrees with the source up to
    the last entry sent. *)
Lemma alogs_char g G l : forall L c,
  pok g L -> pok g G -> firstn c L = firstn c G -> (c <= length L)%nat ->
  l = firstn (length l) (skipn c G) ->
  pok g (alogs L c l) /\
  firstn (c + length l) (alogs L c l) = firstn (c + length l) G /\ (c + length l <= length (alogs L c l))%nat.
Proof.
  induction l as [|[t cmd] l IH]; intros L c HL HG Hpre Hc Hl; cbn [alogs length].
  - rewrite Nat.add_0_r. auto.
  - destruct (sent_cons G c _ _ Hl) as [HGc Hl'].
    destruct (alog_pok g G L c t cmd HL HG Hpre HGc Hc) as [P1 P2].
    replace (c + S (length l))%nat with (S c + length l)%nat by lia.
    apply IH; auto. apply alog_length, Hc.
Qed.

Definition ae_ok (G : list entry) (pli plt : Z) (ents : list (Z * Z * Z)) : Prop :=
  ents = [] \/
  (ents = with_index (Z.of_nat (Z.to_nat pli)) (firstn (length ents) (skipn (Z.to_nat pli) G)) /\
   (0 < pli -> exists e, nth_error G (Z.to_nat pli - 1) = Some e /\ fst e = plt)).

Lemma with_index_nil i l : with_index i l = [] -> l = [].
Proof. destruct l as [|[t c] l]; [reflexivity|discriminate]. Qed.

Lemma append_entries_for_ok n p :
  match append_entries_for n p with
  | OSend d (AppendEntries t lead pli plt ents lc) => d = p /\ t = term n /\ lead = nid n /\ ae_ok (log n) pli plt ents
  | _ => False
  end.
Proof.
  unfold append_entries_for. set (prev := aget p 1 (next_index n) - 1).
  repeat split. unfold ae_ok, entries_after, prev_term_of.
  destruct (prev <? 0) eqn:Eneg.
  - (* negative prev behaves as 0 *)
    right. replace (Z.to_nat prev) with 0%nat by lia. cbn [Z.to_nat skipn Z.of_nat].
    rewrite with_index_length, firstn_all. split; [reflexivity|lia].
  - destruct (prev >? 0) eqn:Epos.
    + unfold log_get. destruct ((prev <? 1) || (prev >? zlen (log n))) eqn:Er.
      * (* beyond the end of the log: no entries *)
        left. replace (prev <? 1) with false in Er by lia. cbn in Er. unfold zlen in Er.
        rewrite skipn_all2 by lia. reflexivity.
      * right. rewrite Z2Nat.id by lia. rewrite with_index_length, firstn_all. split; [reflexivity|].
        intros _. replace (Z.to_nat (prev - 1)) with (Z.to_nat prev - 1)%nat by lia.
        destruct (nth_error (log n) (Z.to_nat prev - 1)) as [e|] eqn:E.
        -- exists e. split; reflexivity.
        -- exfalso. apply nth_error_None in E. unfold zlen in Er. lia.
    + right. assert (prev = 0) by lia. rewrite H. cbn [Z.to_nat skipn Z.of_nat].
      rewrite with_index_length, firstn_all. split; [reflexivity|lia].
Qed.

(** All AppendEntries messages among the outputs come from [append_entries_for m p]
    for a node state [m] with the given log / term / id and a peer [p]. *)
Definition ae_out (L : list entry) (tm nd : Z) (ps : list Z) (o : list output) : Prop :=
  forall d t lead pli plt ents lc, In (OSend d (AppendEntries t lead pli plt ents lc)) o ->
    t = tm /\ lead = nd /\ In d ps /\ ae_ok L pli plt ents.

Lemma ae_out_nil L tm nd ps : ae_out L tm nd ps [].
Proof. intros d t lead pli plt ents lc []. Qed.

Lemma ae_out_app L tm nd ps a b : ae_out L tm nd ps a -> ae_out L tm nd ps b -> ae_out L tm nd ps (a ++ b).
Proof. intros A B d t lead pli plt ents lc H. apply in_app_or in H as [H|H]; [eapply A|eapply B]; eauto. Qed.

Lemma ae_out_timer L tm nd ps x : (x = OElectionTimer \/ x = OHeartbeatTimer) -> ae_out L tm nd ps [x].
Proof. intros [-> | ->] d t lead pli plt ents lc [H|[]]; discriminate. Qed.

Lemma ae_out_cons_other L tm nd ps x o :
  (forall d t lead pli plt ents lc, x <> OSend d (AppendEntries t lead pli plt ents lc)) ->
  ae_out L tm nd ps o -> ae_out L tm nd ps (x :: o).
Proof. intros Hx Ho d t lead pli plt ents lc [H|H]; [exfalso; eapply Hx; eauto|eapply Ho; eauto]. Qed.

Lemma send_append_entries_out n : ae_out (log n) (term n) (nid n) (peers n) (send_append_entries n).
Proof.
  unfold send_append_entries. intros d t lead pli plt ents lc H.
  apply in_map_iff in H as (p & E & Hp). pose proof (append_entries_for_ok n p) as K. rewrite E in K.
  destruct K as (-> & -> & -> & K). repeat split; auto.
Qed.

Lemma lead_out_out n : ae_out (log n) (term n) (nid n) (peers n) (lead_out n).
Proof. apply ae_out_app; [apply send_append_entries_out|apply ae_out_timer; auto]. Qed.

Definition no_ae : list output -> Prop := sends not_ae.

Record lspec (n : node) (inp : input) (n' : node) (o : list output) : Prop := {
  L_out : (role n' = Leader /\ ae_out (log n') (term n') (nid n') (peers n') o) \/ no_ae o;
  L_log : log n' = log n
          \/ (role n = Leader /\ role n' = Leader /\ term n' = term n /\ exists c, log n' = log n ++ [(term n, c)])
          \/ accepts n inp n';
  L_lead : role n' = Leader -> (role n = Leader /\ term n' = term n) \/ (role n <> Leader /\ log n' = log n);
  L_stay : role n = Leader -> term n' = term n ->
           role n' = Leader \/ exists src lead pli plt ents lc,
             inp = IMsg src (AppendEntries (term n) lead pli plt ents lc) /\ zmem src (peers n) = true;
}.

Lemma silent_no_ae o : silent o -> no_ae o.
Proof. apply sends_impl. intros m (? & ? & ->). exact I. Qed.
Lemma rv_out_no_ae n : no_ae (rv_out n).
Proof. intros d m H. destruct (rv_out_in _ _ _ H) as [_ ->]. exact I. Qed.

(** Handlers that leave log and role alone and send no AppendEntries. *)
Lemma lspec_quiet n inp n' o :
  log n' = log n -> role n' = role n -> term n <= term n' -> (role n = Leader -> term n' = term n) -> no_ae o -> lspec n inp n' o.
Proof.
  intros HL HR HT HT' HO. constructor.
  - right. exact HO.
  - left. exact HL.
  - intros R. rewrite HR in R. left. split; [exact R|apply HT', R].
  - intros R _. left. congruence.
Qed.

(** A handler that ends as Follower of a later term with the log untouched. *)
Lemma lspec_follower n inp n' o :
  log n' = log n -> role n' = Follower -> term n < term n' -> no_ae o -> lspec n inp n' o.
Proof.
  intros HL HR HT HO. constructor.
  - right. exact HO.
  - left. exact HL.
  - intros R. congruence.
  - intros _ E. lia.
Qed.

(** A node that was not leader and whose log is untouched; if it ends as leader, it announces itself. *)
Lemma lspec_rise n inp n' o :
  log n' = log n -> role n <> Leader ->
  (role n' = Leader -> ae_out (log n') (term n') (nid n') (peers n') o) -> (role n' <> Leader -> no_ae o) ->
  lspec n inp n' o.
Proof.
  intros HL NL HA HN. constructor.
  - destruct (role n') eqn:R; [right; apply HN; discriminate..|left; auto].
  - left. exact HL.
  - intros _. right. auto.
  - intros R. contradiction.
Qed.

Theorem nstep_lspec n inp n' o : nstep n inp n' o -> lspec n inp n' o.
Proof.
  intros S. pose proof (nstep_log n inp n' o S) as LOG. destruct S.
  - apply lspec_quiet; auto; [lia|apply silent_no_ae; assumption].
  - constructor; [left; split; [assumption|apply lead_out_out]|exact LOG|auto|auto].
  - rewrite step_down_eq. apply lspec_follower; [reflexivity|reflexivity|exact H|sends_list].
  - apply lspec_rise; [reflexivity|assumption|discriminate|intros _; apply sends_app; [apply rv_out_no_ae|sends_list]].
  - apply lspec_rise; [rewrite elect_frame; reflexivity|assumption| |rewrite elect_frame; intros R; contradiction R; reflexivity].
    intros _ d t lead pli plt ents lc Hin. apply in_app_or in Hin as [Hin|Hin]; [destruct (rv_out_no_ae _ _ _ Hin)|].
    exact (lead_out_out _ _ _ _ _ _ _ _ Hin).
  - (* a vote is granted in the present term or after stepping down *)
    destruct (grant_cases n t cand lli llt H0) as [[Lt E]|[-> E]]; rewrite E.
    + rewrite step_down_eq. apply lspec_follower; [reflexivity|reflexivity|exact Lt|sends_list].
    + apply lspec_quiet; [reflexivity|reflexivity|apply Z.le_refl|reflexivity|sends_list].
  - destruct (catch_up_cases n t) as [[Lt ->]|[Le ->]].
    + rewrite step_down_eq. apply lspec_follower; [reflexivity|reflexivity|exact Lt|sends_list].
    + apply lspec_quiet; [reflexivity|reflexivity|apply Z.le_refl|reflexivity|sends_list].
  - apply lspec_rise; [destruct g; reflexivity|congruence| |intros _; sends_list].
    replace (role (tally n g v)) with (role n) by (destruct g; reflexivity). congruence.
  - apply lspec_rise; [rewrite elect_frame; destruct g; reflexivity|congruence|intros _; apply lead_out_out|].
    rewrite elect_frame. intros R. contradiction R. reflexivity.
  - assert (F : role (demote n t lead) = Follower /\ term (demote n t lead) = t) by (rewrite demote_eq; split; reflexivity).
    destruct F as [RF T]. constructor; [right; sends_list|exact LOG|congruence|].
    intros R E. right. exists src, lead, pli, plt, ents, lc. split; [|assumption]. do 2 f_equal. congruence.
  - destruct (accepted_fields n t lead ents lc) as (_ & _ & T & _ & _ & RF & _).
    constructor; [right; sends_list|exact LOG|congruence|].
    intros R E. right. exists src, lead, pli, plt, ents, lc. split; [|assumption]. do 2 f_equal. congruence.
  - unfold try_advance_commit. rewrite try_commit_frame. apply lspec_quiet; [reflexivity|reflexivity|apply Z.le_refl|reflexivity|sends_list].
  - destruct (zmem f (peers n)) eqn:Em; [|apply lspec_quiet; auto; [apply Z.le_refl|sends_list]].
    constructor; [left; split; [assumption|]|exact LOG|auto|auto].
    intros d t0 lead pli plt ents lc [Hin|[]].
    pose proof (append_entries_for_ok (back_off n f) f) as K. rewrite Hin in K. destruct K as (-> & -> & -> & K).
    repeat split; [apply zmem_in, Em|exact K].
  - destruct (role_eqb (role n) Leader) eqn:R.
    + apply role_eqb_true in R. constructor; [right; sends_list|exact LOG| |]; rewrite (submit_leader n cmd R); auto.
    + apply role_eqb_false in R. rewrite (submit_other n cmd R). apply lspec_quiet; auto; [apply Z.le_refl|sends_list].
Qed.

Theorem node_step_lspec n inp : lspec n inp (fst (node_step n inp)) (snd (node_step n inp)).
Proof. apply nstep_lspec, node_step_nstep. Qed.

Definition gupd (g : glog) (n' : node) : glog :=
  match role n' with Leader => upd g (term n') (log n') | _ => g end.

Definition gapply (w : net) (g : glog) (i : Z) (inp : input) : glog :=
  if negb (zmem i (ids w)) then g else gupd g (fst (node_step (nodes w i) inp)).

Definition gstep (w : net) (g : glog) (a : action) : glog :=
  match a with
  | ADeliver k =>
      match nth_error (bag w) k with
      | None => g
      | Some (d, s, m) => gapply (mkNet (ids w) (nodes w) (remove_nth k (bag w)) (cast w) (led w)) g d (IMsg s m)
      end
  | ADrop _ => g
  | ATimeout i => gapply w g i (ITimeout false)
  | AHeartbeat i => gapply w g i (IHeartbeat false)
  | ASubmit i c => gapply w g i (ISubmit c)
  end.

Fixpoint grun (w : net) (g : glog) (acts : list action) : net * glog :=
  match acts with
  | [] => (w, g)
  | a :: r => grun (net_step w a) (gstep w g a) r
  end.

Lemma grun_fst acts : forall w g, fst (grun w g acts) = net_run w acts.
Proof. unfold net_run. induction acts as [|a r IH]; intros w g; cbn; [reflexivity|apply IH]. Qed.

Lemma gapply_in w g i inp : In i (ids w) -> gapply w g i inp = gupd g (fst (node_step (nodes w i) inp)).
Proof. intros H. unfold gapply. rewrite (proj2 (zmem_in i (ids w)) H). reflexivity. Qed.

Record lm_inv (w : net) (g : glog) : Prop := {
  M_net : net_inv w;
  M_ledc : led_complete w;
  M_g : forall t, pok g (g t);
  M_logs : forall i, pok g (log (nodes w i));
  M_msgs : forall d s t lead pli plt ents lc, In (d, s, AppendEntries t lead pli plt ents lc) (bag w) ->
             In (t, s) (led w) /\ d <> s /\ ae_ok (g t) pli plt ents;
  M_lead : forall i, In i (ids w) -> role (nodes w i) = Leader -> log (nodes w i) = g (term (nodes w i));
  M_gled : forall t, g t <> [] -> exists i, In (t, i) (led w);
  M_led : forall t i, In (t, i) (led w) ->
            In i (ids w) /\ t <= term (nodes w i) /\ (term (nodes w i) = t -> role (nodes w i) = Leader);
}.

Lemma ae_ok_ext G sfx pli plt ents : ae_ok G pli plt ents -> ae_ok (G ++ sfx) pli plt ents.
Proof.
  intros [H|[H1 H2]]; [left; exact H|].
  remember (Z.to_nat pli) as p eqn:Ep.
  destruct (Nat.le_gt_cases p (length G)) as [Hp|Hp].
  - right. rewrite <- Ep. split.
    + assert (Hk : (length ents <= length (skipn p G))%nat).
      { rewrite H1 at 1. rewrite with_index_length, firstn_length. lia. }
      assert (E : firstn (length ents) (skipn p (G ++ sfx)) = firstn (length ents) (skipn p G)).
      { rewrite skipn_app. replace (p - length G)%nat with 0%nat by lia. cbn [skipn].
        rewrite firstn_app. replace (length ents - length (skipn p G))%nat with 0%nat by lia.
        cbn [firstn]. apply app_nil_r. }
      rewrite E. exact H1.
    + intros Hpos. destruct (H2 Hpos) as (e & He & Hf). exists e. split; [|exact Hf].
      rewrite nth_error_app1; [exact He|]. apply nth_error_Some. congruence.
  - left. rewrite H1. rewrite skipn_all2 by lia. destruct (length ents); reflexivity.
Qed.

(** Appending to a consistent list the entry that [g] holds at that position. *)
Lemma pok_snoc g (L : list entry) t c : pok g L -> g t = L ++ [(t, c)] -> pok g (L ++ [(t, c)]).
Proof.
  intros HL Eg j e Hj. destruct (Nat.lt_ge_cases j (length L)) as [Hlt|Hge].
  - rewrite nth_error_app1 in Hj by exact Hlt.
    rewrite firstn_app. replace (S j - length L)%nat with 0%nat by lia. cbn [firstn]. rewrite app_nil_r.
    exact (HL j e Hj).
  - assert (j = length L).
    { assert (j < length (L ++ [(t, c)]))%nat by (apply nth_error_Some; congruence).
      rewrite app_length in H. cbn [length] in H. lia. }
    subst j. rewrite nth_error_app_last in Hj. inversion Hj; subst e. cbn [fst]. rewrite Eg. reflexivity.
Qed.

(** Two consistent lists whose entries just before position [p] have the same term agree on the first [p] entries. *)
Lemma pok_agree g L G p e e' : pok g L -> pok g G -> (1 <= p)%nat ->
  nth_error L (p - 1) = Some e -> nth_error G (p - 1) = Some e' -> fst e = fst e' -> firstn p L = firstn p G.
Proof.
  intros HL HG Hp E E' F. pose proof (HL _ _ E) as A1. pose proof (HG _ _ E') as A2.
  replace (S (p - 1)) with p in A1, A2 by lia. rewrite A1, A2, F. reflexivity.
Qed.

(** One step of the acting node [i], from [nodes w i] to [n'] with outputs [o]:
    how [g] changes, and each clause of the invariant for the new state. *)
Section LmApply.
  Variables (w : net) (g : glog) (i : Z) (inp : input) (n' : node) (o : list output).
  Hypothesis M : lm_inv w g.
  Hypothesis Hi : In i (ids w).
  Hypothesis LS : lspec (nodes w i) inp n' o.
  Hypothesis Vp : peers n' = peers (nodes w i).
  Hypothesis Vt : term (nodes w i) <= term n'.
  Hypothesis W' : net_inv (anet w i n' o).

  Lemma la_new : role n' = Leader -> In (term n', i) (led_step w i n').
  Proof. intros R. unfold led_step. rewrite R. left. reflexivity. Qed.

  (** any other leader of the term [n'] leads would contradict [led_unique] in the new state *)
  Lemma la_only j : role n' = Leader -> In (term n', j) (led w) -> j = i.
  Proof.
    intros R Hj. apply (led_unique _ (term n') j i W'); cbn [led]; [apply led_step_old, Hj|apply la_new, R].
  Qed.

  Lemma la_fresh : role n' = Leader -> role (nodes w i) <> Leader -> forall x, ~ In (term n', x) (led w).
  Proof.
    intros R' R x Hx. rewrite (la_only x R' Hx) in Hx. destruct (M_led w g M _ _ Hx) as (_ & Hle & Hr). apply R, Hr. lia.
  Qed.

  Lemma la_g : gchange w g (gupd g n') n'.
  Proof.
    unfold gchange, gupd. destruct (role n') eqn:R'; [left; split; [discriminate|reflexivity]..|].
    right. split; [reflexivity|]. split; [apply upd_same|]. split; [intros t' Ht; apply upd_other; exact Ht|].
    rewrite upd_same. destruct (L_lead _ _ _ _ LS R') as [[R T]|[R E]].
    - (* still leader: nothing, or one entry of its term, is appended *)
      rewrite T, <- (M_lead w g M i Hi R).
      destruct (L_log _ _ _ _ LS) as [E|[(_ & _ & _ & c & E)|A]].
      + exists []. rewrite app_nil_r. split; [exact E|intros x e _ []].
      + exists [(term (nodes w i), c)]. split; [exact E|intros x e _ [<-|[]]; reflexivity].
      + destruct A as (src & t & lead & pli & plt & ents & lc & _ & _ & _ & RF & _). congruence.
    - (* a new leader: nobody has led this term before *)
      pose proof (la_fresh R' R) as NoLed.
      assert (G0 : g (term n') = []).
      { destruct (g (term n')) as [|x r] eqn:Eg; [reflexivity|exfalso].
        destruct (M_gled w g M (term n')) as (j & Hj); [rewrite Eg; discriminate|]. exact (NoLed j Hj). }
      rewrite G0. exists (log n'). split; [reflexivity|]. intros x e Hx. destruct (NoLed x Hx).
  Qed.

  Lemma la_pok X : pok g X -> pok (gupd g n') X.
  Proof. apply gchange_pok with (1 := la_g). Qed.

  Hypothesis HAE : forall s t lead pli plt ents lc, inp = IMsg s (AppendEntries t lead pli plt ents lc) ->
    In (t, s) (led w) /\ i <> s /\ ae_ok (g t) pli plt ents.

  (** an AppendEntries of the node's own term cannot reach a leader *)
  Lemma la_noself : role (nodes w i) = Leader -> forall src lead pli plt ents lc,
    inp <> IMsg src (AppendEntries (term (nodes w i)) lead pli plt ents lc).
  Proof.
    intros R src lead pli plt ents lc E. destruct (HAE _ _ _ _ _ _ _ E) as (Hl & Hne & _).
    apply Hne. symmetry. exact (led_unique w _ _ _ (M_net w g M) Hl (M_ledc w g M i Hi R)).
  Qed.

  Lemma la_log : pok (gupd g n') (log n').
  Proof.
    destruct (L_log _ _ _ _ LS) as [E|[(R & R' & T & c & E)|A]].
    - rewrite E. apply la_pok, (M_logs w g M).
    - destruct la_g as [[NR _]|(_ & Eg & _)]; [contradiction|].
      rewrite E. apply pok_snoc; [apply la_pok, (M_logs w g M)|]. rewrite <- E, <- Eg, T. reflexivity.
    - destruct A as (src & t & lead & pli & plt & ents & lc & Ei & Hz & Ht & RF & T' & Hprev & Hlog).
      destruct la_g as [[_ Eg]|(R' & _)]; [|congruence]. rewrite Eg.
      destruct (HAE _ _ _ _ _ _ _ Ei) as (_ & _ & [Hnil|[He Hp]]).
      + rewrite (Hlog [] (eq_trans Hnil eq_refl)). apply (M_logs w g M).
      + set (l := firstn (length ents) (skipn (Z.to_nat pli) (g t))) in *. rewrite (Hlog l He).
        assert (Hlen : length l = length ents) by (symmetry; rewrite He; apply with_index_length).
        assert (Hpl : (Z.to_nat pli <= length (log (nodes w i)))%nat /\
                      firstn (Z.to_nat pli) (log (nodes w i)) = firstn (Z.to_nat pli) (g t)).
        { destruct (Z_lt_le_dec 0 pli) as [Hpos|Hnp].
          - destruct (Hprev Hpos) as (e & He1 & Hf1). destruct (Hp Hpos) as (e' & He2 & Hf2).
            split; [assert (Z.to_nat pli - 1 < length (log (nodes w i)))%nat by (apply nth_error_Some; congruence); lia|].
            apply (pok_agree g _ _ _ e e' (M_logs w g M i) (M_g w g M t)); [lia|assumption..|congruence].
          - replace (Z.to_nat pli) with 0%nat by lia. split; [lia|reflexivity]. }
        destruct Hpl as [Hp1 Hp2].
        apply (alogs_char g (g t) _ (log (nodes w i)) (Z.to_nat pli) (M_logs w g M i) (M_g w g M t) Hp2 Hp1).
        unfold l at 1. rewrite Hlen. reflexivity.
  Qed.

  Lemma la_M_g t : pok (gupd g n') (gupd g n' t).
  Proof.
    destruct la_g as [[_ E]|(R' & Eg & Ho & _)]; [rewrite E; apply (M_g w g M)|].
    destruct (Z.eq_dec t (term n')) as [->|Hne]; [rewrite Eg; exact la_log|rewrite (Ho t Hne); apply la_pok, (M_g w g M)].
  Qed.

  Lemma la_M_logs j : pok (gupd g n') (log (upd (nodes w) i n' j)).
  Proof. apply upd_case; intros _; [exact la_log|apply la_pok, (M_logs w g M)]. Qed.

  Lemma la_M_msgs d s t lead pli plt ents lc : In (d, s, AppendEntries t lead pli plt ents lc) (bag w ++ sends_of i o) ->
    In (t, s) (led_step w i n') /\ d <> s /\ ae_ok (gupd g n' t) pli plt ents.
  Proof.
    intros H. apply in_app_or in H as [H|H].
    - destruct (M_msgs w g M _ _ _ _ _ _ _ _ H) as (A & B & C). split; [apply led_step_old, A|]. split; [exact B|].
      destruct la_g as [[_ E]|(R' & Eg & Ho & sfx & Hs & _)]; [rewrite E; exact C|].
      destruct (Z.eq_dec t (term n')) as [->|Hne]; [rewrite Hs; apply ae_ok_ext, C|rewrite (Ho t Hne); exact C].
    - apply sends_of_in in H as [-> H].
      destruct (L_out _ _ _ _ LS) as [[R' AO]|NA]; [|destruct (NA _ _ H)].
      destruct (AO _ _ _ _ _ _ _ H) as (-> & -> & Hd & Hok).
      split; [apply la_new, R'|]. split.
      + rewrite Vp, (proj2 (I_id w (M_net w g M) i)) in Hd. apply filter_In in Hd as [_ Hd]. apply negb_true_iff in Hd. lia.
      + destruct la_g as [[NR _]|(_ & Eg & _)]; [contradiction|]. rewrite Eg. exact Hok.
  Qed.

  Lemma la_M_lead j : In j (ids w) -> role (upd (nodes w) i n' j) = Leader ->
    log (upd (nodes w) i n' j) = gupd g n' (term (upd (nodes w) i n' j)).
  Proof.
    intros Hj. apply upd_case.
    - intros _ R'. destruct la_g as [[NR _]|(_ & Eg & _)]; [contradiction|]. rewrite Eg. reflexivity.
    - intros Hne R. rewrite (M_lead w g M j Hj R).
      destruct la_g as [[_ E]|(R' & _ & Ho & _)]; [rewrite E; reflexivity|].
      symmetry. apply Ho. intros Et. apply Hne. apply (la_only j R'). rewrite <- Et. apply (M_ledc w g M); assumption.
  Qed.

  Lemma la_M_gled t : gupd g n' t <> [] -> exists j, In (t, j) (led_step w i n').
  Proof.
    intros Hg. destruct la_g as [[_ E]|(R' & _ & Ho & _)].
    - rewrite E in Hg. destruct (M_gled w g M t Hg) as (j & Hj). exists j. apply led_step_old, Hj.
    - destruct (Z.eq_dec t (term n')) as [->|Hne]; [exists i; apply la_new, R'|].
      rewrite (Ho t Hne) in Hg. destruct (M_gled w g M t Hg) as (j & Hj). exists j. apply led_step_old, Hj.
  Qed.

  Lemma la_M_led t j : In (t, j) (led_step w i n') ->
    In j (ids w) /\ t <= term (upd (nodes w) i n' j) /\ (term (upd (nodes w) i n' j) = t -> role (upd (nodes w) i n' j) = Leader).
  Proof.
    assert (Old : In (t, j) (led w) ->
              In j (ids w) /\ t <= term (upd (nodes w) i n' j) /\ (term (upd (nodes w) i n' j) = t -> role (upd (nodes w) i n' j) = Leader)).
    { intros H0. destruct (M_led w g M _ _ H0) as (A & B & C). split; [exact A|].
      apply upd_case; [intros ->|intros _; split; assumption]. split; [lia|]. intros Et.
      assert (Tn : term (nodes w i) = t) by lia. pose proof (C Tn) as R.
      destruct (L_stay _ _ _ _ LS R) as [R'|(src & lead & pli & plt & ents & lc & Ei & _)]; [lia|exact R'|].
      destruct (la_noself R _ _ _ _ _ _ Ei). }
    unfold led_step. destruct (role n') eqn:R'; try exact Old.
    intros [E|H]; [|exact (Old H)]. inversion E; subst t j.
    rewrite upd_same. split; [exact Hi|]. split; [lia|]. intros _. exact R'.
  Qed.
End LmApply.

Lemma lm_apply w g i inp :
  lm_inv w g -> input_ok w i inp ->
  (forall s t lead pli plt ents lc, inp = IMsg s (AppendEntries t lead pli plt ents lc) ->
     In (t, s) (led w) /\ i <> s /\ ae_ok (g t) pli plt ents) ->
  lm_inv (net_apply w i inp) (gapply w g i inp).
Proof.
  intros M IO HAE.
  pose proof (net_apply_inv w i inp (M_net w g M) IO) as W'.
  pose proof (led_complete_apply w i inp (M_ledc w g M)) as LC'.
  destruct (in_dec Z.eq_dec i (ids w)) as [Hi|Hi].
  2:{ rewrite net_apply_out by exact Hi. unfold gapply. rewrite (zmem_notin _ _ Hi). exact M. }
  rewrite net_apply_eq in * by exact Hi. rewrite gapply_in by exact Hi.
  pose proof (node_step_lspec (nodes w i) inp) as LS.
  pose proof (node_step_spec (nodes w i) inp) as ((_ & Vp & Vt & _) & _).
  constructor; cbn [ids nodes bag cast led anet].
  - exact W'.
  - exact LC'.
  - eapply la_M_g; eassumption.
  - eapply la_M_logs; eassumption.
  - eapply la_M_msgs; eassumption.
  - eapply la_M_lead; eassumption.
  - eapply la_M_gled; eassumption.
  - eapply la_M_led; eassumption.
Qed.

Lemma lm_sub w g b : lm_inv w g -> incl b (bag w) -> lm_inv (sub_bag w b) g.
Proof.
  intros [Wn Lc Mg Ml Mm Mld Mgl Mled] Hb. constructor; cbn [ids nodes bag cast led]; auto.
  - apply net_sub_inv; assumption.
  - intros d s t lead pli plt ents lc H. apply (Mm d s t lead pli plt ents lc). apply Hb, H.
Qed.

Lemma lm_step w g a : lm_inv w g -> lm_inv (net_step w a) (gstep w g a).
Proof.
  intros M. change (gstep w g a) with (ghost_step gapply w g a).
  destruct (ghost_step_cases gapply w g a) as [(b & Hb & -> & ->)|(b & i & inp & Hb & A & -> & ->)].
  - apply lm_sub; assumption.
  - apply lm_apply; [apply lm_sub; assumption|apply arrives_ok; [apply M|exact A]|].
    intros s t lead pli plt ents lc ->. exact (M_msgs w g M _ _ _ _ _ _ _ _ A).
Qed.

Definition g0 : glog := fun _ => [].

Lemma lm_init l : NoDup l -> lm_inv (net_init l) g0.
Proof.
  intros ND. constructor; cbn.
  - apply net_init_inv, ND.
  - intros i _ R. cbn in R. discriminate.
  - intros t. apply pok_nil.
  - intros i. apply pok_nil.
  - intros; contradiction.
  - intros i _ R. discriminate.
  - intros t H. exfalso. apply H. reflexivity.
  - intros; contradiction.
Qed.

Lemma lm_run acts : forall w g, lm_inv w g -> lm_inv (fst (grun w g acts)) (snd (grun w g acts)).
Proof. induction acts as [|a r IH]; intros w g M; cbn [grun]; [exact M|]. apply IH, lm_step, M. Qed.

Lemma log_get_nth L i e : log_get L i = Some e ->
  1 <= i /\ nth_error L (Z.to_nat (i - 1)) = Some e /\ Z.to_nat i = S (Z.to_nat (i - 1)).
Proof.
  intros H. apply log_get_iff in H as [Hi H]. repeat split; [exact Hi|exact H|lia].
Qed.

(** Two logs of a reachable cluster state that hold entries of the same term at
    the same index are identical up to that index.  Every cluster (any
    duplicate-free id list), every schedule. *)
Theorem log_matching : log_matching_statement.
Proof.
  intros l acts ND w a b i e e' Ha Hb Ga Gb Et.
  pose proof (lm_run acts (net_init l) g0 (lm_init l ND)) as M.
  rewrite grun_fst in M. fold w in M. set (g := snd (grun (net_init l) g0 acts)) in *.
  destruct (log_get_nth _ _ _ Ga) as (_ & Na & Ea). destruct (log_get_nth _ _ _ Gb) as (_ & Nb & _).
  rewrite Ea. rewrite (M_logs w g M a _ _ Na), (M_logs w g M b _ _ Nb), Et. reflexivity.
Qed.

(** Corollary: the entries themselves (term AND command) agree. *)
Corollary log_matching_entries : forall l acts, NoDup l ->
  let w := net_run (net_init l) acts in
  forall a b i j e e' x, In a l -> In b l ->
    log_get (log (nodes w a)) i = Some e -> log_get (log (nodes w b)) i = Some e' -> fst e = fst e' ->
    1 <= j -> j <= i -> log_get (log (nodes w a)) j = Some x -> log_get (log (nodes w b)) j = Some x.
Proof.
  intros l acts ND w a b i j e e' x Ha Hb Ga Gb Et Hj1 Hj2 Gx.
  pose proof (log_matching l acts ND a b i e e' Ha Hb Ga Gb Et) as P. fold w in P.
  apply log_get_iff in Gx as [_ Nx]. apply log_get_iff. split; [exact Hj1|].
  rewrite <- Nx. symmetry. apply (firstn_nth_eq _ _ (Z.to_nat i)); [lia|exact P].
Qed.

(** The invariant is not vacuous: a run in which a leader is elected and appends an entry. *)
Example log_matching_nontrivial :
  let w := net_run (net_init [0; 1; 2])
             [ATimeout 0; ADeliver 0%nat; ADeliver 1%nat; ASubmit 0 7; AHeartbeat 0] in
  role (nodes w 0) = Leader /\ log (nodes w 0) = [(1, 7)] /\ led w <> [].
Proof. vm_compute. repeat split; discriminate. Qed.
