(** C20 — reservoir sampler: size = min(k, n), holdings are stream items,
    distinct stream positions stay distinct under add; merge keeps the size but
    samples with replacement (refuted: distinctness). *)
From HS Require Import Base.Prelude Base.Lists C20.Model C20.Counting.
Local Open Scope Z_scope.

Lemma set_nth_length n x l : length (set_nth n x l) = length l.
Proof. revert n. induction l as [|a l IH]; intros [|n]; cbn; auto. Qed.

Lemma set_nth_in n x l y : In y (set_nth n x l) -> y = x \/ In y l.
Proof.
  revert n. induction l as [|a l IH]; intros [|n]; cbn; try tauto.
  - intros [H|H]; auto.
  - intros [H|H]; auto. destruct (IH _ H); auto.
Qed.

Lemma set_nth_nodup n x l : NoDup l -> ~ In x l -> NoDup (set_nth n x l).
Proof.
  revert n. induction l as [|a l IH]; intros n Hnd Hx.
  - destruct n; cbn; constructor.
  - inversion Hnd; subst. destruct n as [|n]; cbn.
    + constructor; [cbn in Hx; tauto|assumption].
    + constructor.
      * intros H. apply set_nth_in in H. cbn in Hx. destruct H; [subst; tauto|tauto].
      * apply IH; [assumption|cbn in Hx; tauto].
Qed.


(** The occurrences a stream adds, one list element each. *)
Definition occs (s : list (Z * Z)) : list Z := flat_map (fun xc => repeat (fst xc) (Z.to_nat (snd xc))) s.

Lemma occs_length s : Z.of_nat (length (occs s)) = stream_total s.
Proof.
  induction s as [|[x c] s IH]; cbn [occs flat_map stream_total fst snd]; [reflexivity|].
  rewrite app_length, repeat_length. fold (occs s). destruct (Z.ltb_spec 0 c); lia.
Qed.

Lemma occs_in y s : In y (occs s) -> exists c, In (y, c) s /\ 0 < c.
Proof.
  intros H. apply in_flat_map in H. destruct H as ([x c] & Hin & Hy). cbn [fst snd] in Hy.
  pose proof (repeat_spec _ _ _ Hy). subst y. exists c. split; [exact Hin|].
  destruct (Z.to_nat c) eqn:E; [destruct Hy|lia].
Qed.

Definition singles (xs : list Z) : list (Z * Z) := map (fun x => (x, 1)) xs.

Lemma occs_singles xs : occs (singles xs) = xs.
Proof.
  induction xs as [|x xs IH]; [reflexivity|]. change (occs (singles (x :: xs))) with (x :: occs (singles xs)).
  now rewrite IH.
Qed.

Section Reservoir.
Variable k : Z.
Hypothesis Hk : 0 < k.

Definition rinv (s : resv) : Prop :=
  Z.of_nat (length (r_items s)) = Z.min k (r_total s) /\ 0 <= r_total s.

Lemma r_add_occs st x c : fst (r_add k st x c) = fold_left (r_add_one k) (repeat x (Z.to_nat c)) st.
Proof using.
  unfold r_add. destruct (Z.ltb_spec c 0); cbn [fst]; [replace (Z.to_nat c) with 0%nat by lia; reflexivity|].
  generalize (Z.to_nat c) as n. intros n. revert st.
  induction n as [|n IH]; intros st; cbn [repeat fold_left]; [reflexivity|apply IH].
Qed.

Lemma r_stream_occs s : forall st, r_stream k s st = fold_left (r_add_one k) (occs s) st.
Proof using.
  unfold r_stream. induction s as [|[x c] s IH]; intros st; cbn [fold_left occs flat_map fst snd]; [reflexivity|].
  rewrite fold_left_app, <- r_add_occs. apply IH.
Qed.

Lemma add_one_shape s ds x : let s' := fst (r_add_one k (s, ds) x) in
  r_total s' = r_total s + 1 /\
  (Z.of_nat (length (r_items s)) < k /\ r_items s' = r_items s ++ [x] \/
   k <= Z.of_nat (length (r_items s)) /\ (r_items s' = r_items s \/ exists n, r_items s' = set_nth n x (r_items s))).
Proof using.
  unfold r_add_one. destruct (Z.ltb_spec (Z.of_nat (length (r_items s))) k); cbn; [auto|].
  destruct (draw ds) as [j ds']. cbn. split; [reflexivity|]. right. split; [assumption|].
  destruct (j <? k); eauto.
Qed.

(** What holds of a reservoir that has been fed the occurrences [seen]
    (whatever [k]: a capacity [k <= 0] holds nothing). *)
Definition fed (s : resv) (seen : list Z) : Prop :=
  Z.of_nat (length (r_items s)) = Z.min (Z.max 0 k) (Z.of_nat (length seen)) /\ r_total s = Z.of_nat (length seen) /\
  incl (r_items s) seen /\ (NoDup seen -> NoDup (r_items s)).

Lemma add_one_fed s ds x seen : fed s seen -> fed (fst (r_add_one k (s, ds) x)) (seen ++ [x]).
Proof using.
  clear Hk. intros (L & T & IN). destruct (add_one_shape s ds x) as [T' Sh]. cbv zeta in *.
  unfold fed. rewrite T', app_length. cbn [length]. split; [|split; [lia|]].
  - destruct Sh as [[Lt ->]|[Ge [->|[n ->]]]]; rewrite ?app_length, ?set_nth_length; cbn [length]; lia.
  - clear L T T'. destruct IN as [I N].
    assert (Nx : NoDup (seen ++ [x]) -> NoDup (r_items s) /\ ~ In x (r_items s)).
    { intros H. apply NoDup_remove in H. rewrite app_nil_r in H. destruct H as [H Hx]. split; [auto|]. intros Hi. apply Hx, I, Hi. }
    destruct Sh as [[_ ->]|[_ [->|[n ->]]]]; split.
    + apply incl_app; [apply incl_appl, I|apply incl_appr, incl_refl].
    + intros H. apply Nx in H. apply NoDup_snoc; apply H.
    + apply incl_appl, I.
    + intros H. apply Nx, H.
    + intros y Hy. apply in_app_iff. apply set_nth_in in Hy. destruct Hy as [->|Hy]; [right; now left|left; apply I, Hy].
    + intros H. apply Nx in H. apply set_nth_nodup; apply H.
Qed.

Lemma feed_fed xs : forall st seen, fed (fst st) seen -> fed (fst (fold_left (r_add_one k) xs st)) (seen ++ xs).
Proof using.
  induction xs as [|x xs IH]; intros [s ds] seen H; cbn [fold_left]; [now rewrite app_nil_r|].
  change (seen ++ x :: xs) with (seen ++ [x] ++ xs). rewrite app_assoc. apply IH, add_one_fed, H.
Qed.

Lemma stream_fed s ds : fed (fst (r_stream k s (resv_empty, ds))) (occs s).
Proof using.
  clear Hk. rewrite r_stream_occs. apply (feed_fed (occs s) (resv_empty, ds) []).
  repeat split; cbn; try lia; [apply incl_refl|constructor].
Qed.

Definition valid_draws (ds : list Z) : Prop := Forall (fun d => 0 <= d < two53) ds.

Lemma draw_valid ds : valid_draws ds -> 0 <= fst (draw ds) < two53 /\ valid_draws (snd (draw ds)).
Proof using.
  intros H. destruct ds as [|d r]; cbn; [split; [unfold two53; lia|constructor]|].
  inversion H; subst. split; assumption.
Qed.

(** What both branches of [r_pick] do with the list they chose. *)
Definition pick_from (l : list Z) (acc : list Z * list Z) : list Z * list Z :=
  match l with
  | [] => acc
  | h :: _ => let '(i, ds2) := draw (snd acc) in (fst acc ++ [nth (Z.to_nat i) l h], ds2)
  end.

Lemma r_pick_eq a b new ds : r_pick a b (new, ds) =
  pick_from (if fst (draw ds) * (r_total a + r_total b) <? r_total a * two53 then r_items a else r_items b)
            (new, snd (draw ds)).
Proof using.
  unfold r_pick, pick_from. destruct (draw ds) as [u ds1]. cbn [fst snd].
  destruct (_ <? _); [destruct (r_items a)|destruct (r_items b)]; reflexivity.
Qed.

Lemma pick_from_spec l new ds : l <> [] -> valid_draws ds ->
  length (fst (pick_from l (new, ds))) = S (length new) /\ valid_draws (snd (pick_from l (new, ds))) /\
  (forall y, In y (fst (pick_from l (new, ds))) -> In y new \/ In y l).
Proof using.
  intros Hl Hv. destruct l as [|h t]; [congruence|]. unfold pick_from. cbn [fst snd].
  destruct (draw_valid ds Hv) as [_ Hv2]. destruct (draw ds) as [i ds2]. cbn [fst snd] in *.
  rewrite app_length. cbn [length]. split; [lia|]. split; [exact Hv2|].
  intros y Hy. apply in_app_iff in Hy. destruct Hy as [Hy|[<-|[]]]; [auto|]. right.
  destruct (nth_in_or_default (Z.to_nat i) (h :: t) h) as [Hn|Hn]; [exact Hn|rewrite Hn; now left].
Qed.

Lemma rinv_nonempty s : rinv s -> 0 < r_total s -> r_items s <> [].
Proof using Hk. intros [L _] T E. rewrite E in L. cbn in L. lia. Qed.

Lemma side_positive u ta tb : 0 <= u < two53 -> 0 <= ta -> 0 <= tb -> 0 < ta + tb ->
  if u * (ta + tb) <? ta * two53 then 0 < ta else 0 < tb.
Proof using. intros Hu Ha Hb Hab. destruct (Z.ltb_spec (u * (ta + tb)) (ta * two53)); nia. Qed.

Lemma pick_one a b new ds : rinv a -> rinv b -> 0 < r_total a + r_total b -> valid_draws ds ->
  length (fst (r_pick a b (new, ds))) = S (length new) /\ valid_draws (snd (r_pick a b (new, ds))) /\
  (forall y, In y (fst (r_pick a b (new, ds))) -> In y new \/ In y (r_items a) \/ In y (r_items b)).
Proof using Hk.
  intros Ha Hb Hc Hv. rewrite r_pick_eq. destruct (draw_valid ds Hv) as [Hu Hv1].
  pose proof (side_positive _ _ _ Hu (proj2 Ha) (proj2 Hb) Hc) as P.
  set (l := if _ <? _ then r_items a else r_items b).
  assert (Hl : l <> [] /\ forall y, In y l -> In y (r_items a) \/ In y (r_items b)).
  { unfold l. destruct (_ <? _); (split; [apply rinv_nonempty; assumption|auto]). }
  destruct (pick_from_spec l new _ (proj1 Hl) Hv1) as (L & V & I).
  split; [exact L|]. split; [exact V|]. intros y Hy. destruct (I y Hy) as [Hn|Hn]; [auto|right; apply Hl, Hn].
Qed.

Lemma picks a b n : forall new ds, rinv a -> rinv b -> 0 < r_total a + r_total b -> valid_draws ds ->
  let r := fold_left (fun acc _ => r_pick a b acc) (repeat tt n) (new, ds) in
  length (fst r) = (n + length new)%nat /\
  (forall y, In y (fst r) -> In y new \/ In y (r_items a) \/ In y (r_items b)).
Proof.
  induction n as [|n IH]; intros new ds Ha Hb Hc Hv; cbn [repeat fold_left]; cbn zeta.
  - cbn [fst]. split; [reflexivity|auto].
  - destruct (pick_one a b new ds Ha Hb Hc Hv) as (L & V & I).
    destruct (r_pick a b (new, ds)) as [new1 ds1]. cbn [fst snd] in *.
    destruct (IH new1 ds1 Ha Hb Hc V) as [L2 I2]. cbn in L2, I2. split; [rewrite L2, L; lia|].
    intros y Hy. destruct (I2 y Hy) as [H|H]; [apply I; exact H|auto].
Qed.

(** Merging two reservoirs (RNG draws in their ranges) gives min(k, n1 + n2)
    entries, every one of them an entry of one of the inputs. *)
Theorem reservoir_merge_size : forall a b ds, rinv a -> rinv b -> valid_draws ds ->
  let m := fst (r_merge k a b ds) in
  rinv m /\ r_total m = r_total a + r_total b /\
  (forall y, In y (r_items m) -> In y (r_items a) \/ In y (r_items b)).
Proof.
  intros a b ds Ha Hb Hv. unfold r_merge. destruct (_ =? 0) eqn:E; cbn zeta.
  - cbn [fst]. destruct Ha as [A1 A2], Hb as [B1 B2]. repeat split; auto; lia.
  - assert (Hc : 0 < r_total a + r_total b) by (destruct Ha, Hb; lia).
    destruct (picks a b (Z.to_nat (Z.min k (r_total a + r_total b))) [] ds Ha Hb Hc Hv) as [L I].
    destruct (fold_left _ _ _) as [new ds']. cbn [fst snd] in *. cbn in L.
    unfold rinv. cbn [r_items r_total]. rewrite firstn_length. repeat split; try lia.
    intros y Hy. apply In_firstn in Hy. destruct (I y Hy) as [[]|H]; exact H.
Qed.

End Reservoir.

Definition reservoir_merge_distinct_statement : Prop :=
  forall k a b ds, 0 < k -> rinv k a -> rinv k b -> valid_draws ds ->
  NoDup (r_items a ++ r_items b) -> NoDup (r_items (fst (r_merge k a b ds))).

(** The merged reservoir can hold ONE stream occurrence twice (sampling with
    replacement): streams [1] and [2], k = 2, draws 0. *)
Theorem reservoir_merge_distinct_refuted : ~ reservoir_merge_distinct_statement.
Proof.
  intros H.
  specialize (H 2 {| r_items := [1]; r_total := 1 |} {| r_items := [2]; r_total := 1 |} [0; 0; 0; 0]).
  assert (N : NoDup (r_items (fst (r_merge 2 {| r_items := [1]; r_total := 1 |} {| r_items := [2]; r_total := 1 |} [0; 0; 0; 0])))).
  { apply H; try (unfold rinv; cbn; lia).
    - repeat constructor; unfold two53; lia.
    - cbn. repeat constructor; cbn; intuition lia. }
  vm_compute in N. inversion N as [|? ? Hin _]; subst. apply Hin. now left.
Qed.

(** Hypotheses satisfiable: reservoirs satisfying the invariant and in-range draws. *)
Example reservoir_hypotheses_satisfiable :
  rinv 2 {| r_items := [1]; r_total := 1 |} /\ rinv 2 {| r_items := [2; 3]; r_total := 7 |} /\
  valid_draws [0; 5; 1] /\
  r_items (fst (r_stream 2 (singles [5; 6; 7]) (resv_empty, [1]))) = [5; 7].
Proof.
  split; [unfold rinv; cbn; lia|]. split; [unfold rinv; cbn; lia|]. split.
  - unfold valid_draws, two53. repeat constructor; lia.
  - vm_compute. reflexivity.
Qed.
