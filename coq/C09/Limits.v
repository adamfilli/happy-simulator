From HS Require Import Base.Prelude C09.Model.
Local Open Scope Z_scope.
Definition is_setlimit (o : cop) : bool :=
  match o with CSetLimit _ | CScaleUp _ | CScaleDown _ => true | _ => false end.

(** While the limit is not moved (fixed and weighted limiters cannot move it;
    for a dynamic one: no set_limit, scale_up, scale_down), it stays and 0 <= active <= limit. *)
Lemma c_step_bound s o : (c_kind s = KDynamic -> is_setlimit o = false) -> 0 <= c_active s <= c_limit s ->
  let s' := fst (c_step s o) in
  c_kind s' = c_kind s /\ c_limit s' = c_limit s /\ 0 <= c_active s' <= c_limit s.
Proof.
  intros Hs I. unfold c_step. destruct (c_kind s) eqn:K, o; cbn; try discriminate (Hs eq_refl);
  repeat match goal with |- context [if ?c then _ else _] => destruct c eqn:? end; cbn; (split; [exact K|lia]).
Qed.

Lemma c_bound_run ops : forall s, (c_kind s = KDynamic -> existsb is_setlimit ops = false) ->
  0 <= c_active s <= c_limit s ->
  c_limit (c_run s ops) = c_limit s /\ 0 <= c_active (c_run s ops) <= c_limit s.
Proof.
  induction ops as [|o r IH]; cbn; intros s Hs I; [lia|].
  destruct (c_step_bound s o) as (K & Hl & Ha); [intros D; apply orb_false_iff in Hs; tauto|exact I|]. cbn in *.
  destruct (IH (fst (c_step s o))) as [H1 H2]; [rewrite K; intros D; apply orb_false_iff in Hs; tauto|lia|]. lia.
Qed.

(** Dynamic limiter: the limit stays within [min, max] (the clamp); active never
    goes negative. *)
Definition dyn_inv (mn : Z) (mx : option Z) (s : cstate) : Prop :=
  c_kind s = KDynamic /\ c_min s = mn /\ c_max s = mx /\
  mn <= c_limit s /\ match mx with None => True | Some m => c_limit s <= m end /\ 0 <= c_active s.

Lemma c_dyn_step mn mx s o : match mx with None => True | Some m => mn <= m end ->
  dyn_inv mn mx s -> dyn_inv mn mx (fst (c_step s o)).
Proof.
  intros Hx (K & Emn & Emx & Hl & Hm & Ha). unfold c_step. rewrite K.
  assert (B : forall n, mn <= c_clamp s n /\ match mx with None => True | Some m => c_clamp s n <= m end).
  { intros n. unfold c_clamp. rewrite Emn, Emx. destruct mx; lia. }
  destruct o; cbn; try (destruct (c_active s >=? c_limit s); cbn); repeat split; cbn; auto; try apply B; lia.
Qed.

Lemma c_dyn_run mn mx ops : match mx with None => True | Some m => mn <= m end ->
  forall s, dyn_inv mn mx s -> dyn_inv mn mx (c_run s ops).
Proof. intros Hx. induction ops; cbn; intros; auto. apply IHops, c_dyn_step; assumption. Qed.

Lemma dyn_inv_reach limit mn mx ops : mn <= limit ->
  match mx with None => True | Some m => mn <= m /\ limit <= m end ->
  dyn_inv mn mx (c_run (c_init KDynamic limit mn mx) ops).
Proof.
  intros Hl Hx. apply c_dyn_run; [destruct mx; tauto|]. repeat split; cbn; auto; try lia. destruct mx; tauto.
Qed.

(** A successful acquire, of any of the three limiters, never exceeds the limit
    in force at that moment (scale-down below active is not an over-admission). *)
Lemma c_acquire_le_limit s w :
  snd (c_step s (CAcquire w)) = CTrue -> c_active (fst (c_step s (CAcquire w))) <= c_limit s.
Proof.
  unfold c_step. destruct (c_kind s).
  1, 2: destruct (c_active s >=? c_limit s) eqn:E; cbn; [discriminate|lia].
  destruct (w <? 1); [discriminate|]. destruct (c_active s + w >? c_limit s) eqn:E; cbn; [discriminate|lia].
Qed.
