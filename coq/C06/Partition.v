(** C06 — proofs about NetworkPartition faults (Network.partition / Partition.heal). *)
From HS Require Import Base.Prelude C06.Model C06.Registers.
From Coq Require Import Sorting.Sorted.
Local Open Scope Z_scope.
Arguments pmem : simpl never.
Arguments zmem : simpl never.

Lemma pair_eqb_refl p : pair_eqb p p = true.
Proof. unfold pair_eqb. lia. Qed.

Lemma pair_eqb_eq p q : pair_eqb p q = true -> p = q.
Proof. destruct p, q. unfold pair_eqb. cbn. intros H. f_equal; lia. Qed.

Lemma pmem_app p l1 l2 : pmem p (l1 ++ l2) = pmem p l1 || pmem p l2.
Proof. unfold pmem. apply existsb_app. Qed.

Lemma pmem_padd p q l : pmem p (padd q l) = pair_eqb p q || pmem p l.
Proof.
  unfold padd. destruct (pmem q l) eqn:M.
  - destruct (pair_eqb p q) eqn:E; [|reflexivity]. apply pair_eqb_eq in E. subst. now rewrite M.
  - rewrite pmem_app. change (pmem p [q]) with (pair_eqb p q || false). rewrite orb_false_r. apply orb_comm.
Qed.

Lemma pmem_adds p qs : forall l, pmem p (fold_left (fun l q => padd q l) qs l) = pmem p qs || pmem p l.
Proof.
  induction qs as [|q r IH]; intros l; cbn [fold_left]; [reflexivity|].
  rewrite IH, pmem_padd. change (pmem p (q :: r)) with (pair_eqb p q || pmem p r). destruct (pair_eqb p q), (pmem p r), (pmem p l); reflexivity.
Qed.

Lemma pmem_cons p a l : pmem p (a :: l) = pair_eqb p a || pmem p l.
Proof. reflexivity. Qed.

Lemma pmem_pminus p l rm : pmem p (pminus l rm) = pmem p l && negb (pmem p rm).
Proof.
  unfold pminus. induction l as [|a l IH]; [reflexivity|].
  cbn [filter]. rewrite pmem_cons.
  destruct (pmem a rm) eqn:M; cbn [negb].
  - rewrite IH. destruct (pair_eqb p a) eqn:E; [|reflexivity].
    apply pair_eqb_eq in E. subst. rewrite M. cbn. now rewrite andb_false_r.
  - rewrite pmem_cons, IH. destruct (pair_eqb p a) eqn:E; [|reflexivity].
    apply pair_eqb_eq in E. subst. now rewrite M.
Qed.

(** What activation (add every pair) and heal (remove every pair) do to the
    membership of one pair. *)
Lemma pmem_write q (on : bool) a l :
  pmem q (if on then fold_left (fun l p => padd p l) a l else pminus l a) = if pmem q a then on else pmem q l.
Proof. destruct on; [rewrite pmem_adds|rewrite pmem_pminus]; destruct (pmem q a), (pmem q l); reflexivity. Qed.

(** Seen through one pair, the fold is a last-writer register, provided every
    deactivation finds its handle set.  [handles_ok hs l]: when the events of
    [l] run in order starting with the handle set [hs], every deactivation
    closure finds [partition_handle] set. *)
Fixpoint handles_ok (hs : list Z) (l : list fev) : Prop :=
  match l with
  | [] => True
  | e :: r => (fe_on e = false -> zmem (fe_fid e) hs = true) /\
              handles_ok (if fe_on e then fe_fid e :: hs else hs) r
  end.

Definition rel_bi (q : Z * Z) (e : fev) : bool := pmem q (fe_pairs e).
Definition rel_di (q : Z * Z) (e : fev) : bool := pmem q (fe_dpairs e).

Lemma part_step_ok s e r : handles_ok (ps_h s) (e :: r) ->
  handles_ok (ps_h (part_step s e)) r /\
  ps_bi (part_step s e) = (if fe_on e then fold_left (fun l p => padd p l) (fe_pairs e) (ps_bi s)
                           else pminus (ps_bi s) (fe_pairs e)) /\
  ps_di (part_step s e) = (if fe_on e then fold_left (fun l p => padd p l) (fe_dpairs e) (ps_di s)
                           else pminus (ps_di s) (fe_dpairs e)).
Proof.
  intros (Hoff & Hr). unfold part_step. destruct (fe_on e); [|rewrite (Hoff eq_refl)]; repeat split; exact Hr.
Qed.

Lemma part_fold (get : pstate -> list (Z * Z)) (fp : fev -> list (Z * Z)) q :
  (forall s e r, handles_ok (ps_h s) (e :: r) ->
     get (part_step s e) = if fe_on e then fold_left (fun l p => padd p l) (fp e) (get s) else pminus (get s) (fp e)) ->
  forall l s, handles_ok (ps_h s) l ->
  pmem q (get (fold_left part_step l s)) =
  match last_rel (fun e => pmem q (fp e)) l with Some e => fe_on e | None => pmem q (get s) end.
Proof.
  intros Hget.
  apply (fold_last_writer (fun e => if pmem q (fp e) then Some e else None) part_step
           (fun s => pmem q (get s)) fe_on (fun s l => handles_ok (ps_h s) l)); intros s e r H.
  - apply (part_step_ok _ _ _ H).
  - rewrite (Hget _ _ _ H), pmem_write. destruct (pmem q (fp e)); reflexivity.
Qed.

Lemma zmem_cons k a hs : zmem k (a :: hs) = (k =? a) || zmem k hs.
Proof. reflexivity. Qed.

(** In a sorted list it is enough that every deactivation's own activation is
    in the list and not after it. *)
Lemma handles_ok_sorted l : StronglySorted kle l -> forall hs,
  (forall e, In e l -> fe_on e = false -> zmem (fe_fid e) hs = true \/
     exists e', In e' l /\ fe_on e' = true /\ fe_fid e' = fe_fid e /\ ~ kle e e') ->
  handles_ok hs l.
Proof.
  induction 1 as [|a r Hs IH Hf]; intros hs H; cbn [handles_ok]; [exact I|]. rewrite Forall_forall in Hf. split.
  - intros Off. destruct (H a (or_introl eq_refl) Off) as [Hz|(e' & [<-|Hi] & On & _ & Hn)];
      [exact Hz|congruence|destruct (Hn (Hf _ Hi))].
  - apply IH. intros e Hi Off.
    destruct (H e (or_intror Hi) Off) as [Hz|(e' & [<-|Hi'] & On & Hfid & Hn)].
    + left. destruct (fe_on a); [rewrite zmem_cons, Hz; apply orb_true_r|exact Hz].
    + left. rewrite On, zmem_cons, Hfid, Z.eqb_refl. reflexivity.
    + right. exists e'. auto.
Qed.

Lemma stream_handles_ok sched t : wf sched -> handles_ok [] (upto t (delivered sched)).
Proof.
  intros Hwf. apply handles_ok_sorted; [apply stream_sorted|]. intros e Hin Off. right.
  destruct (stream_event _ _ _ Hwf Hin) as (k & w & Hn & A & (Hs & Ht) & _ & [->|(te & _ & _ & ->)]); [discriminate|].
  cbn in Hs, Ht. exists (ev_on (Z.of_nat k) w). split; [apply (on_in_stream _ _ _ _ Hn A); lia|].
  repeat split. rewrite kle_iff. cbn. lia.
Qed.

Definition relw_bi (q : Z * Z) (w : win) : bool := pmem q (w_pairs w).
Definition relw_di (q : Z * Z) (w : win) : bool := pmem q (w_dpairs w).

Lemma relw_bi_separates a b w : relw_bi (norm_pair a b) w = true -> separates w a b = true.
Proof. unfold relw_bi, separates. now intros ->. Qed.

Lemma relw_di_separates a b w : relw_di (a, b) w = true -> separates w a b = true.
Proof. unfold relw_di, separates. intros ->. apply orb_true_r. Qed.

Lemma is_partitioned_last sched t a b : wf sched ->
  is_partitioned (part_at sched t) a b =
  last_on (rel_bi (norm_pair a b)) (upto t (delivered sched)) || last_on (rel_di (a, b)) (upto t (delivered sched)).
Proof.
  intros Hwf. pose proof (stream_handles_ok sched t Hwf) as Hh. unfold is_partitioned, part_at.
  rewrite (part_fold ps_bi fe_pairs _ (fun s e r H => proj1 (proj2 (part_step_ok s e r H))) _ ps0 Hh).
  rewrite (part_fold ps_di fe_dpairs _ (fun s e r H => proj2 (proj2 (part_step_ok s e r H))) _ ps0 Hh).
  reflexivity.
Qed.

(** The full clause is false — two partitions that share a pair. *)
Definition partition_while_active_statement : Prop :=
  forall sched, wf sched -> forall a b t,
  part_active sched a b t = true -> is_partitioned (part_at sched t) a b = true.

Definition part_overlap_witness : list win :=
  [PW [0] [1] false 1 5 None; PW [0] [1; 2] false 3 4 None].

Example partition_separated_example :
  wf [PW [0] [1] false 1 3 None; PW [0] [1; 2] false 4 6 None] /\
  separatedG (fun w => separates w 0 1) [PW [0] [1] false 1 3 None; PW [0] [1; 2] false 4 6 None].
Proof.
  split; [apply wfb_wf; reflexivity|].
  apply separatedG_cons.
  - intros b [<-|[]] _ _. left. exists 3. cbn. repeat split; lia.
  - apply separatedG_cons; [intros b []|apply separatedG_nil].
Qed.
