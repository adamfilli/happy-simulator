(** C09 — proofs about the ConnectionPool model (repaired slot accounting). *)
From HS Require Import Base.Prelude Base.Lists C09.Model C09.Resource.
From Coq Require Import Permutation.
Local Open Scope Z_scope.
Lemma zmem_In c l : zmem c l = true <-> In c l.
Proof. apply existsb_eqb_In. Qed.

Lemma assoc_remove_incl c l : incl (assoc_remove c l) l.
Proof.
  induction l as [|[i v] r IH]; cbn; [apply incl_refl|]. destruct (i =? c); [apply incl_tl, incl_refl|].
  intros x [<-|H]; [left; auto|right; auto].
Qed.

Record pinv (mx : Z) (s : pstate) : Prop := {
  pi_max : p_max s = mx;
  pi_total : p_total s = Z.of_nat (length (p_idle s)) + Z.of_nat (length (p_active s)) + Z.of_nat (length (p_creating s));
  pi_le : p_total s <= mx;
  pi_ids : ids_ok (p_next_conn s + 1) (map fst (p_idle s) ++ p_active s);
  pi_wait : p_waiters s <> [] -> p_idle s = [] /\ p_total s = mx;
}.

Lemma pinv_init mx mn polls : 0 <= mx -> pinv mx (p_init mx mn polls).
Proof. intros H; constructor; cbn; auto; try lia; [repeat constructor|tauto]. Qed.

Lemma pinv_step mx s o : pinv mx s -> pinv mx (fst (p_step s o)).
Proof.
  intros I. pose proof I as [Hm Ht Hle Hi Hw]. destruct o as [c|c|c|c conn now|conn expected]; cbn [p_step].
  - destruct (p_idle s) as [|[conn lu] rest] eqn:Ei.
    + cbn [length app map] in Ht, Hi. destruct (p_total s <? p_max s) eqn:E; constructor; cbn; auto; try lia.
      * intros W. destruct (Hw W). lia.
      * intros _. split; [reflexivity|lia].
    + cbn [length app map fst] in Ht, Hi. constructor; cbn [fst p_max p_total p_idle p_active p_creating p_next_conn p_waiters]; auto.
      * rewrite app_length; cbn. lia.
      * eapply ids_ok_perm; [|exact Hi]. rewrite app_assoc. apply Permutation_cons_append.
      * intros W. destruct (Hw W). discriminate.
  - destruct (zmem c (p_creating s)) eqn:M; [|exact I]. apply zmem_In, zremove_perm, Permutation_length in M. cbn [length] in M.
    constructor; cbn; auto.
    + rewrite app_length; cbn. lia.
    + rewrite app_assoc. apply ids_ok_fresh, Hi.
  - destruct (assoc_find c (p_ticks s)) as [k|]; [|exact I].
    destruct (assoc_find c (p_granted s)) as [conn|]; [constructor; assumption|].
    destruct (k + 1 >=? p_polls s); constructor; cbn; auto.
    intros W. apply Hw. intros E. rewrite E in W. apply W. reflexivity.
  - destruct (zmem conn (p_active s)) eqn:M; [|exact I]. apply zmem_In, zremove_perm in M.
    pose proof (Permutation_length M) as Hl. cbn [negb length] in *.
    destruct (p_waiters s) as [|[wid w] rest] eqn:Ew; constructor; cbn; auto; try discriminate.
    + rewrite app_length; cbn. lia.
    + eapply ids_ok_perm; [|exact Hi]. rewrite map_app, <- app_assoc. apply Permutation_app_head. exact M.
    + intros W. destruct (W eq_refl).
    + rewrite app_length; cbn. lia.
    + eapply ids_ok_perm; [|exact Hi]. apply Permutation_app_head.
      etransitivity; [exact M|apply Permutation_cons_append].
    + intros _. apply Hw. discriminate.
  - destruct (assoc_find conn (p_idle s)) as [last|] eqn:F; [|exact I].
    destruct (last =? expected); [|exact I]. destruct (p_total s >? p_min s) eqn:E; [|exact I].
    (* [assoc_find]/[assoc_remove] are [held_find]/[held_remove] under another name *)
    assert (Hl : length (p_idle s) = S (length (assoc_remove conn (p_idle s)))) by exact (Permutation_length (held_remove_perm _ _ _ F)).
    constructor; cbn; auto; try lia.
    + eapply ids_ok_tail, ids_ok_perm; [|exact Hi]. apply (Permutation_app_tail _ (Permutation_map fst (held_remove_perm _ _ _ F))).
    + intros W. destruct (Hw W) as [Hi0 _]. rewrite Hi0 in F. discriminate.
Qed.

Lemma pinv_run mx ops : forall s, pinv mx s -> pinv mx (p_run s ops).
Proof. induction ops; cbn; intros; auto. apply IHops, pinv_step; auto. Qed.
