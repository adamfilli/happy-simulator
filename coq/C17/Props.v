(** Property C17 — the theorems the check counts as obligations, each with the
    last step of its proof. *)
From HS Require Import Base.Prelude C17.Model C17.PBProofs C17.PBConv C17.Chain C17.ChainProofs C17.ChainConv C17.ML C17.MLProofs C17.PBFifo C17.RS C17.ChainFifo.
From Coq Require Import Permutation.
Local Open Scope Z_scope.

(** Primary-backup, every schedule (any message reordering, any interleaving of
    handlers, any number of backups): an acknowledged write (reply future
    resolved with seq [sq]) is the accepted write (w, sq, k, v); it has been
    applied on the primary; in SYNC mode on every backup; in SEMI_SYNC mode on
    at least one backup (when one is configured). *)
Theorem c17_pb_ack_applied : forall c sched s,
  run c init sched = Some s ->
  forall w sq, In (w, sq) (s_replies s) ->
  exists k v, In (w, sq, k, v) (s_accepted s) /\ In (sq, k, v) (ps_log (s_prim s)) /\
    (c_mode c = SYNC -> forall b, In b (bids c) -> In (sq, k, v) (bs_log (s_bak s b))) /\
    (c_mode c = SEMI -> c_nb c <> O -> exists b, In b (bids c) /\ In (sq, k, v) (bs_log (s_bak s b))).
Proof. intros c sched s H. exact (i_rep c s (inv_run c sched init s (inv_init c) H)). Qed.
Print Assumptions c17_pb_ack_applied.

(** Convergence of primary-backup under arbitrary reordering: REFUTED on the
    faithful model (known finding C17-pb-reorder-diverge). *)
Theorem c17_pb_convergence_refuted : ~ pb_convergence_statement.
Proof. exact (diverges_refutes _ _ wit_diverges). Qed.
Print Assumptions c17_pb_convergence_refuted.

(** Chain replication (build_chain, >= 2 nodes, with or without CRAQ), every
    schedule: an acknowledged write has been applied at every node of the chain. *)
Theorem c17_chain_ack_applied : forall c, (2 <= cc_n c)%nat -> forall sched s,
  crun c cinit sched = Some s ->
  forall w sq, In (w, sq) (k_replies s) ->
  exists k v, In (w, sq, k, v) (k_accepted s) /\
    forall i, 0 <= i < cn c -> In (sq, k, v) (n_log (k_node s i)).
Proof.
  intros c _ sched s H w sq Hin. pose proof (cinv_run c sched _ _ (cinv_init c) H) as I.
  exact (ci_rep c s I w sq Hin).
Qed.
Print Assumptions c17_chain_ack_applied.

(** A read served by the tail (directly, or forwarded by a CRAQ node) returns a
    value that has been applied at the tail and at every other node. *)
Theorem c17_chain_tail_read_committed : forall c, (2 <= cc_n c)%nat -> forall sched s,
  crun c cinit sched = Some s ->
  forall rid k v, In (rid, tail_of c, k, Some v) (k_reads s) ->
  exists sq, forall i, 0 <= i < cn c -> In (sq, k, v) (n_log (k_node s i)).
Proof.
  intros c _ sched s H rid k v Hin. pose proof (cinv_run c sched _ _ (cinv_init c) H) as I.
  destruct (ci_reads c s I _ _ _ _ Hin) as (sq & Hl). exists sq. exact (ci_tail c s I _ _ _ Hl).
Qed.
Print Assumptions c17_chain_tail_read_committed.

(** Chain convergence under reordering: REFUTED (known finding C17-chain-reorder-diverge). *)
Theorem c17_chain_convergence_refuted : ~ chain_convergence_statement.
Proof. exact (cdiverges_refutes _ _ cwit_diverges). Qed.
Print Assumptions c17_chain_convergence_refuted.

(** CRAQ reads at clean non-tail nodes: REFUTED (known finding C17-craq-dirty-set). *)
Theorem c17_craq_clean_read_refuted : ~ craq_read_statement.
Proof. exact (craq_violates_refutes _ _ _ qwit_violates). Qed.
Print Assumptions c17_craq_clean_read_refuted.

(** second, independent witness of the same refuted statement (known finding
    C17-craq-check-then-read): dirty check before store.get. *)
Theorem c17_craq_check_then_read_witness :
  craq_violates qwit2_cfg qwit2_sched 1 = true /\ ~ craq_read_statement.
Proof. exact (conj craq_check_then_read_witness (craq_violates_refutes _ _ _ craq_check_then_read_witness)). Qed.
Print Assumptions c17_craq_check_then_read_witness.

(** Multi-leader.  The version merge every replica applies ("dominating vector
    clock wins, otherwise LastWriterWins") is idempotent; on versions whose
    timestamps respect causality and whose (timestamp, writer) keys are distinct
    it is commutative and associative. *)
Theorem c17_ml_merge_laws : forall a b c,
  merge a a = a /\
  (consistent a b -> merge a b = merge b a) /\
  (consistent a b -> consistent b c -> consistent a c -> merge (merge a b) c = merge a (merge b c)).
Proof. intros a b c. exact (conj (merge_idem a) (conj (merge_comm a b) (merge_assoc a b c))). Qed.
Print Assumptions c17_ml_merge_laws.

(** Merging the same versions of a key in two different orders gives the same
    version: to [merge], the order in which Replicate / anti-entropy data arrive
    does not matter (the steps of ML.v are not mentioned). *)
Theorem c17_ml_order_independent : forall init l1 l2,
  Permutation l1 l2 -> pairwise (init :: l1) ->
  fold_left merge l1 init = fold_left merge l2 init.
Proof. exact merge_order_independent. Qed.
Print Assumptions c17_ml_order_independent.

(** The side condition is needed: causally ordered writes stamped with the same
    instant (zero store latency and zero link delay) break associativity. *)
Theorem c17_ml_merge_not_assoc_witness : merge (merge na nb) nc <> merge na (merge nb nc).
Proof. vm_compute. discriminate. Qed.
Print Assumptions c17_ml_merge_not_assoc_witness.

(** Primary-backup convergence, PARTIAL (what does hold of the clause refuted by
    c17_pb_convergence_refuted): when every link delivers Replicate messages in
    send order and every backup store completes its puts in arrival order, then at
    quiescence every backup's log and store are exactly the primary's — all write
    sequences (repeated keys), all modes, any number of backups, any interleaving
    otherwise. *)
Theorem c17_pb_convergence_fifo_partial : forall c sched s,
  run_fifo c init sched = Some s -> quiescent s ->
  forall b, In b (bids c) ->
    bs_log (s_bak s b) = ps_log (s_prim s) /\ bs_store (s_bak s b) = ps_store (s_prim s).
Proof. exact pb_convergence_fifo. Qed.
Print Assumptions c17_pb_convergence_fifo_partial.

(** ReplicatedStore: a put that returned True has been applied on every replica,
    for every interleaving of concurrent puts and gets and every consistency level. *)
Theorem c17_rs_acked_everywhere : forall c sched s,
  rrun c rinit sched = Some s ->
  forall w k v, In (w, k, v) (r_acked s) -> forall i, (i < rc_n c)%nat -> In (k, v) (r_log s i).
Proof.
  intros c sched s H. apply (ri_acked c s), (rinv_run c sched rinit); [|exact H]. split; cbn; intros; contradiction.
Qed.
Print Assumptions c17_rs_acked_everywhere.

(** Chain convergence, PARTIAL (what does hold of the clause refuted by
    c17_chain_convergence_refuted): under per-link FIFO delivery and per-store FIFO
    completion every node's log and store equal the head's at quiescence. *)
Theorem c17_chain_convergence_fifo_partial : forall c, (2 <= cc_n c)%nat -> forall sched s,
  crun_fifo c cinit sched = Some s -> cquiescent s ->
  forall i, 0 <= i < cn c ->
    n_log (k_node s i) = n_log (k_node s 0) /\ n_store (k_node s i) = n_store (k_node s 0).
Proof. exact (fun c _ => chain_convergence_fifo c). Qed.
Print Assumptions c17_chain_convergence_fifo_partial.
