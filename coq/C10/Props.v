(** Property C10 — the theorems the check counts as obligations, each closed by the lemma of the
    proof files that carries it or by a few lines, and followed by [Print Assumptions].  The policy
    bounds are about the exact-rational instance [Qops] of the generic policy code of C10/Model.v
    (the binary64 instance [Fops] of the same code is what the correspondence compares with /repo
    off the dyadic grid); the entity and inductor theorems hold for any policy, the refinement
    theorems for any arithmetic.  Times are ns. *)
From HS Require Import Base.Prelude Base.PyLib C10.Model C10.QFacts C10.TokenBucket C10.Leaky C10.Sliding C10.Fixed C10.Adaptive C10.Entity C10.Dist
  Gen.PolicyGen C10.GenTie C10.CodeRun.
From Coq Require Import QArith Permutation.
Local Open Scope Q_scope.

(** Never over-admits: in any stretch [mid] of any run with non-decreasing times,
    granted <= B + rate * (last - first) for every B >= capacity and >= initial
    tokens (B = capacity for the default bucket). *)
Theorem c10_token_bucket_bound : forall p : tbp Qops, 0 < tb_rate p -> 0 <= tb_cap p ->
  forall init pre mid B, 0 <= init -> init <= B -> tb_cap p <= B -> sorted (pre ++ mid) ->
  let s0 := Build_tbs Qops init None in
  let s1 := fst (run_count granted (tb_step Qops p) s0 pre) in
  inject_Z (snd (run_count granted (tb_step Qops p) s1 mid)) <=
    B + tb_rate p * qsecs (match mid with [] => 0 | o :: r => last_time (time_of o) r - time_of o end).
Proof. exact tb_never_over_admits. Qed.
Print Assumptions c10_token_bucket_bound.

(** time_until_available = 0  ==>  an immediate try_acquire succeeds. *)
Theorem c10_token_bucket_tua_zero : forall p : tbp Qops, 0 < tb_rate p -> forall s now s1,
  tb_tua Qops p s now = (s1, 0%Z) ->
  snd (tb_acquire Qops p s now) = true /\ snd (tb_acquire Qops p s1 now) = true.
Proof. exact tb_tua_zero_acquires. Qed.
Print Assumptions c10_token_bucket_tua_zero.

(** time_until_available = w > 0  ==>  no call sequence at times in [now, now+w) is granted anything. *)
Theorem c10_token_bucket_tua_blocks : forall p : tbp Qops, 0 < tb_rate p -> 0 <= tb_cap p ->
  forall s now s1 w ops, tb_ready s now -> tb_tua Qops p s now = (s1, w) -> (0 < w)%Z ->
  nondecr now ops -> (last_time now ops < now + w)%Z ->
  snd (run_count granted (tb_step Qops p) s1 ops) = 0%Z.
Proof. exact tb_tua_positive_blocks. Qed.
Print Assumptions c10_token_bucket_tua_blocks.

(** Following the returned waits reaches an instant with tua = 0 after at most two waits. *)
Theorem c10_token_bucket_progress : forall p : tbp Qops, 0 < tb_rate p -> 0 <= tb_cap p -> 1 <= tb_cap p ->
  forall s now, tb_ready s now ->
  let '(s1, w1) := tb_tua Qops p s now in
  let '(s2, w2) := tb_tua Qops p s1 (now + w1) in
  let '(s3, w3) := tb_tua Qops p s2 (now + w1 + w2) in
  w3 = 0%Z /\ (0 <= w1)%Z /\ (0 <= w2)%Z.
Proof. exact tb_tua_progress. Qed.
Print Assumptions c10_token_bucket_progress.

(** Consecutive granted acquires are at least 1/rate seconds apart, in every run from every state. *)
Theorem c10_leaky_spacing : forall rate ops s,
  spaced_from (lk_interval Qops rate) s (run_times (lk_step Qops (lk_interval Qops rate)) s ops).
Proof. exact (fun rate => lk_spacing (lk_interval Qops rate)). Qed.
Print Assumptions c10_leaky_spacing.

Theorem c10_leaky_tua_zero : forall rate s now,
  lk_tua Qops (lk_interval Qops rate) s now = 0%Z -> snd (lk_acquire Qops (lk_interval Qops rate) s now) = true.
Proof. exact (fun rate => lk_tua_zero_acquires (lk_interval Qops rate)). Qed.
Print Assumptions c10_leaky_tua_zero.

Theorem c10_leaky_tua_blocks : forall rate s now ops,
  (0 < lk_tua Qops (lk_interval Qops rate) s now)%Z ->
  Forall (fun o => (time_of o < now + lk_tua Qops (lk_interval Qops rate) s now)%Z) ops ->
  snd (run_count granted (lk_step Qops (lk_interval Qops rate)) s ops) = 0%Z.
Proof. exact (fun rate => lk_tua_positive_blocks (lk_interval Qops rate)). Qed.
Print Assumptions c10_leaky_tua_blocks.

Theorem c10_leaky_progress : forall rate s now,
  let iv := lk_interval Qops rate in
  let w1 := lk_tua Qops iv s now in
  let w2 := lk_tua Qops iv s (now + w1) in
  let w3 := lk_tua Qops iv s (now + w1 + w2) in
  w3 = 0%Z /\ (0 <= w1)%Z /\ (0 <= w2)%Z.
Proof. exact (fun rate => lk_tua_progress (lk_interval Qops rate)). Qed.
Print Assumptions c10_leaky_progress.

(** Every grant at time t sees fewer than N earlier grants in [t - w, t]: at most N in any window. *)
Theorem c10_sliding_window_bound : forall wn n ops, sorted ops ->
  windows_ok wn n [] (run_times (sw_step Qops wn n) [] ops).
Proof. exact sw_never_over_admits. Qed.
Print Assumptions c10_sliding_window_bound.

(** ... in the usual form: at most N grants in any closed window [a, a + w]. *)
Theorem c10_sliding_any_window : forall wn n ops a, (0 <= n)%Z -> sorted ops ->
  (length (filter (in_range wn a) (run_times (sw_step Qops wn n) [] ops)) <= Z.to_nat n)%nat.
Proof. intros wn n ops a _ Hs. exact (windows_any wn n _ a (sw_never_over_admits wn n ops Hs)). Qed.
Print Assumptions c10_sliding_any_window.

Theorem c10_sliding_tua_zero : forall wn n log now log1,
  sw_tua Qops wn n log now = (log1, 0%Z) ->
  snd (sw_acquire wn n log now) = true /\ snd (sw_acquire wn n log1 now) = true.
Proof. exact sw_tua_zero_acquires. Qed.
Print Assumptions c10_sliding_tua_zero.

Theorem c10_sliding_tua_blocks : forall wn n log now log1 w ops,
  sw_tua Qops wn n log now = (log1, w) -> (0 < w)%Z ->
  Forall (fun o => (time_of o < now + w)%Z) ops ->
  snd (run_count granted (sw_step Qops wn n) log1 ops) = 0%Z.
Proof. exact sw_tua_positive_blocks. Qed.
Print Assumptions c10_sliding_tua_blocks.

Theorem c10_sliding_progress : forall wn n, (1 <= n)%Z -> forall log now, (Z.of_nat (length log) <= n)%Z ->
  let '(l1, w1) := sw_tua Qops wn n log now in
  let '(l2, w2) := sw_tua Qops wn n l1 (now + w1) in
  let '(l3, w3) := sw_tua Qops wn n l2 (now + w1 + w2) in
  w3 = 0%Z /\ (0 <= w1)%Z /\ (0 <= w2)%Z.
Proof. exact sw_tua_progress. Qed.
Print Assumptions c10_sliding_progress.

(** Fixed window, for the repaired code (window start kept in integer ns): at most N grants in an aligned window. *)
Theorem c10_fixed_window_aligned_bound : forall wn n, (1 <= wn)%Z -> (0 <= n)%Z -> forall ops k, sorted ops ->
  (Z.of_nat (length (filter (inw wn k) (run_times (fw_step Qops wn n) {| fw_start := None; fw_count := 0 |} ops))) <= n)%Z.
Proof. exact fw_aligned_bound. Qed.
Print Assumptions c10_fixed_window_aligned_bound.

Theorem c10_fixed_window_2n_bound : forall wn n, (1 <= wn)%Z -> (0 <= n)%Z -> forall ops a, sorted ops ->
  (Z.of_nat (length (filter (fun t => (a <=? t)%Z && (t <=? a + wn)%Z)
     (run_times (fw_step Qops wn n) {| fw_start := None; fw_count := 0 |} ops))) <= 2 * n)%Z.
Proof. exact fw_any_interval_bound. Qed.
Print Assumptions c10_fixed_window_2n_bound.

Theorem c10_fixed_tua_zero : forall wn n, (1 <= wn)%Z -> (0 <= n)%Z -> forall s lo now s1,
  fw_wf wn n s lo -> (lo <= now)%Z -> fw_tua Qops wn n s now = (s1, 0%Z) ->
  snd (fw_acquire wn n s now) = true /\ snd (fw_acquire wn n s1 now) = true.
Proof. exact fw_tua_zero_acquires. Qed.
Print Assumptions c10_fixed_tua_zero.

Theorem c10_fixed_tua_blocks : forall wn n, (1 <= wn)%Z -> (0 <= n)%Z -> forall s lo now s1 w ops,
  fw_wf wn n s lo -> (lo <= now)%Z -> fw_tua Qops wn n s now = (s1, w) -> (0 < w)%Z ->
  Forall (fun o => (time_of o < now + w)%Z) ops ->
  snd (run_count granted (fw_step Qops wn n) s1 ops) = 0%Z.
Proof. exact fw_tua_positive_blocks. Qed.
Print Assumptions c10_fixed_tua_blocks.

Theorem c10_fixed_progress : forall wn n, (1 <= wn)%Z -> (0 <= n)%Z -> (1 <= n)%Z -> forall s lo now,
  fw_wf wn n s lo -> (lo <= now)%Z ->
  let '(s1, w1) := fw_tua Qops wn n s now in
  let '(s2, w2) := fw_tua Qops wn n s1 (now + w1) in
  w2 = 0%Z /\ (0 <= w1)%Z.
Proof. exact fw_tua_progress. Qed.
Print Assumptions c10_fixed_progress.

(** The rate stays within [min, max] under every call/feedback sequence. *)
Theorem c10_adaptive_rate_bounds : forall p : adp Qops,
  0 < ad_min p -> ad_min p <= ad_max p -> 0 <= ad_inc p -> 0 < ad_dec p /\ ad_dec p <= 1 ->
  forall ops s, rate_ok p s -> rate_ok p (fst (run_count agranted (ad_step Qops p) s ops)).
Proof. intros p H1 H2 H3 H4. exact (run_count_inv agranted (ad_step Qops p) (rate_ok p) (step_rate p H1 H2 H3 H4)). Qed.
Print Assumptions c10_adaptive_rate_bounds.

(** Bucket bound for the largest admissible rate: granted in any stretch <= max*window + max*(last - first). *)
Theorem c10_adaptive_bound : forall p : adp Qops,
  0 < ad_min p -> ad_min p <= ad_max p -> 0 <= ad_inc p -> 0 < ad_dec p /\ ad_dec p <= 1 -> 0 <= ad_win p ->
  forall s0 pre mid, rate_ok p s0 -> ad_tokens s0 == ad_rate s0 * ad_win p -> ad_last s0 = None ->
  asorted (pre ++ mid) ->
  let s1 := fst (run_count agranted (ad_step Qops p) s0 pre) in
  inject_Z (snd (run_count agranted (ad_step Qops p) s1 mid)) <=
    ad_max p * ad_win p +
    ad_max p * qsecs (match mid with [] => 0 | o :: r => alast_time (atime_of o) r - atime_of o end).
Proof. exact ad_never_over_admits. Qed.
Print Assumptions c10_adaptive_bound.

Theorem c10_adaptive_tua_zero : forall (p : adp Qops) (s : ads Qops) now s1, 0 < ad_rate s ->
  ad_tua Qops p s now = (s1, 0%Z) ->
  snd (ad_acquire Qops p s now) = true /\ snd (ad_acquire Qops p s1 now) = true.
Proof. exact ad_tua_zero_acquires. Qed.
Print Assumptions c10_adaptive_tua_zero.

(** (no feedback between the calls: [map ACall ops]) *)
Theorem c10_adaptive_tua_blocks : forall (p : adp Qops) (s : ads Qops) now s1 w ops,
  0 < ad_rate s -> 0 <= ad_win p -> tb_ready (tbs_of s) now -> ad_tua Qops p s now = (s1, w) -> (0 < w)%Z ->
  nondecr now ops -> (last_time now ops < now + w)%Z ->
  snd (run_count agranted (ad_step Qops p) s1 (map ACall ops)) = 0%Z.
Proof. exact ad_tua_positive_blocks. Qed.
Print Assumptions c10_adaptive_tua_blocks.

Theorem c10_adaptive_progress : forall (p : adp Qops) (s : ads Qops) now,
  0 < ad_rate s -> 1 <= ad_rate s * ad_win p -> tb_ready (tbs_of s) now ->
  let '(s1, w1) := ad_tua Qops p s now in
  let '(s2, w2) := ad_tua Qops p s1 (now + w1) in
  let '(s3, w3) := ad_tua Qops p s2 (now + w1 + w2) in
  w3 = 0%Z /\ (0 <= w1)%Z /\ (0 <= w2)%Z.
Proof. exact ad_tua_progress. Qed.
Print Assumptions c10_adaptive_progress.

(** Every request is forwarded, still queued, or dropped exactly once; received = forwarded + queued + dropped;
    no request is forwarded twice.  For arbitrary policy functions, any capacity, any input sequence. *)
Theorem c10_entity_exactly_once : forall PS pacq ptua cap ps ins,
  let '(e', outs, dr) := ent_run PS pacq ptua cap (ent_init PS ps) ins in
  Permutation (req_ids ins) (fwd_ids outs ++ e_queue e' ++ dr) /\
  (e_recv e' = e_fwd e' + Z.of_nat (length (e_queue e')) + e_drop e')%Z /\
  (NoDup (req_ids ins) -> NoDup (fwd_ids outs)).
Proof. exact ent_exactly_once. Qed.
Print Assumptions c10_entity_exactly_once.

Theorem c10_entity_conservation : forall PS pacq ptua cap ins (e : ent PS),
  let '(e', outs, dr) := ent_run PS pacq ptua cap e ins in
  Permutation (e_queue e ++ req_ids ins) (fwd_ids outs ++ e_queue e' ++ dr) /\
  (e_recv e' = e_recv e + Z.of_nat (length (req_ids ins)))%Z /\
  (e_fwd e' = e_fwd e + Z.of_nat (length (fwd_ids outs)))%Z /\
  (e_drop e' = e_drop e + Z.of_nat (length dr))%Z.
Proof. exact ent_conservation. Qed.
Print Assumptions c10_entity_conservation.

(** "forwards requests in arrival order": REFUTED on the faithful model (known finding
    C10-entity-arrival-overtakes-queue), for schedules the engine can produce. *)
Theorem c10_entity_fifo_refuted : ~ fifo_statement.
Proof. exact ent_fifo_refuted. Qed.
Print Assumptions c10_entity_fifo_refuted.

(** ... and what does hold: arrival order is kept by every run in which no request is admitted
    on arrival while earlier requests are still queued (in particular the buffer itself is FIFO). *)
Theorem c10_entity_fifo_partial : forall PS pacq ptua cap ps ins,
  incr (-1) (req_ids ins) -> no_overtake PS pacq ptua cap (ent_init PS ps) ins ->
  incr (-1) (fwd_ids (snd (fst (ent_run PS pacq ptua cap (ent_init PS ps) ins)))).
Proof.
  intros PS pacq ptua cap ps ins HA HN. exact (fifo_inv PS pacq ptua cap ins (ent_init PS ps) (-1) [] I HA HN).
Qed.
Print Assumptions c10_entity_fifo_partial.

(** Inductor (EWMA burst smoother): every request forwarded, queued or dropped exactly once —
    for any weights alpha (the exp() results are inputs), any time constant, any capacity. *)
Theorem c10_inductor_conservation : forall (O : numops) (dflt : Model.num O) cap ins (e : ent (ips O)),
  let '(e', outs, dr) := ind_run O dflt cap e ins in
  Permutation (e_queue e ++ ireq_ids O ins) (fwd_ids outs ++ e_queue e' ++ dr) /\
  (e_recv e' = e_recv e + Z.of_nat (length (ireq_ids O ins)))%Z /\
  (e_fwd e' = e_fwd e + Z.of_nat (length (fwd_ids outs)))%Z /\
  (e_drop e' = e_drop e + Z.of_nat (length dr))%Z.
Proof.
  intros O dflt cap ins.
  (* [ind_run] recurses with the capacity as an argument: [grun] only up to an induction *)
  assert (E : forall e, ind_run O dflt cap e ins = grun (ind_step O dflt cap) e ins).
  { induction ins as [|i r IH]; intros e; cbn [ind_run grun]; [reflexivity|].
    destruct (ind_step O dflt cap e i) as [[e1 o1] d1]. rewrite IH. reflexivity. }
  intros e. rewrite E. exact (grun_conserves (ind_step O dflt cap) (iids_of O) (ind_step_conserves O dflt cap) ins e).
Qed.
Print Assumptions c10_inductor_conservation.

Theorem c10_null_forwards_all : forall reqs : list (Z * Z),
  fwd_ids (flat_map (fun r => null_step (fst r) (snd r)) reqs) = map fst reqs.
Proof.
  induction reqs as [|[i t] r IH]; [reflexivity|].
  cbn [flat_map map fst snd null_step app]. change (fwd_ids (OFwd i t :: ?x)) with (i :: fwd_ids x).
  unfold fwd_ids in *. cbn [flat_map app]. rewrite IH. reflexivity.
Qed.
Print Assumptions c10_null_forwards_all.

(** received = forwarded + dropped + suspended-at-a-store-access, per limiter instance, after any
    interleaving of handler starts and resumptions (generator handler: one step per resumption). *)
Theorem c10_distributed_conservation : forall limit es,
  let w := fst (dist_run limit dworld_init es) in
  forall l, (d_recv (w_lims w l) = d_fwd (w_lims w l) + d_drop (w_lims w l) + inflight w l)%Z.
Proof. exact (fun limit es => dist_conservation limit es dworld_init dinv_init). Qed.
Print Assumptions c10_distributed_conservation.

(** The well-formedness side conditions of the time_until_available theorems are invariants of every
    run from a well-formed state (token bucket: [tb_ready] at every later instant, from [tb_wf]; fixed
    window: [fw_wf]; sliding window: the log never exceeds N).  Runs of the adaptive policy are not covered. *)
Theorem c10_side_conditions_reachable :
  (forall (p : tbp Qops), 0 < tb_rate p -> 0 <= tb_cap p -> forall ops B s lo, tb_cap p <= B -> tb_wf B s lo -> nondecr lo ops ->
     forall now, (last_time lo ops <= now)%Z -> tb_ready (fst (run_count granted (tb_step Qops p) s ops)) now) /\
  (forall wn n, (1 <= wn)%Z -> (0 <= n)%Z -> forall ops s lo, fw_wf wn n s lo -> nondecr lo ops ->
     fw_wf wn n (fst (run_count granted (fw_step Qops wn n) s ops)) (last_time lo ops)) /\
  (forall wn n ops, (0 <= n)%Z -> forall log, (Z.of_nat (length log) <= n)%Z ->
     (Z.of_nat (length (fst (run_count granted (sw_step Qops wn n) log ops))) <= n)%Z).
Proof. exact (conj tb_ready_reachable (conj fw_wf_reachable sw_len_reachable)). Qed.
Print Assumptions c10_side_conditions_reachable.

(** * The policy bounds for the code as REGENERATED from policy.py on every run
    (Gen/PolicyGen.v, py2coq): the translated try_acquire / time_until_available,
    driven through any call sequence, never over-admit. *)
Theorem c10_code_token_bucket_bound : forall cap rate : Q, 0 < rate -> 0 <= cap ->
  forall init pre mid B, 0 <= init -> init <= B -> cap <= B -> sorted (pre ++ mid) ->
  let s0 := mkTokenBucketPolicy Qops cap rate init None in
  let s1 := fst (run_count granted (tb_code_step Qops) s0 pre) in
  inject_Z (snd (run_count granted (tb_code_step Qops) s1 mid)) <=
    B + rate * qsecs (match mid with [] => 0 | o :: r => last_time (time_of o) r - time_of o end)%Z.
Proof.
  intros cap rate Hr Hc init pre mid B Hi HB HcB Hs s0 s1. set (p := Build_tbp Qops cap rate).
  destruct (run_count_sim (tb_code_step_ok Qops p) pre s0 (Build_tbs Qops init None) (conj eq_refl eq_refl)) as [H1 _].
  destruct (run_count_sim (tb_code_step_ok Qops p) mid _ _ H1) as [_ H2]. subst s1. rewrite H2.
  exact (tb_never_over_admits p Hr Hc init pre mid B Hi HB HcB Hs).
Qed.
Print Assumptions c10_code_token_bucket_bound.

Theorem c10_code_leaky_spacing : forall rate iv ops last,
  spaced_from iv last (run_times (lk_code_step Qops) (mkLeakyBucketPolicy Qops rate iv last) ops).
Proof.
  intros rate iv ops last. rewrite (run_times_sim (lk_code_step_ok Qops iv) ops _ last) by (split; reflexivity).
  apply lk_spacing.
Qed.
Print Assumptions c10_code_leaky_spacing.

Theorem c10_code_sliding_window_bound : forall (ws : Q) n ops, (0 < n)%Z -> sorted ops ->
  windows_ok (nanos Qops ws) n [] (run_times (sw_code_step Qops) (mkSlidingWindowPolicy Qops ws n []) ops).
Proof.
  intros ws n ops Hn Hs.
  rewrite (run_times_sim (fun a b o => sw_code_step_ok Qops (nanos Qops ws) n a b o Hn) ops _ []) by (repeat split).
  exact (sw_never_over_admits _ n ops Hs).
Qed.
Print Assumptions c10_code_sliding_window_bound.

Theorem c10_code_fixed_window_bound : forall (ws : Q) n, (1 <= nanos Qops ws)%Z -> (0 <= n)%Z -> forall ops k, sorted ops ->
  (Z.of_nat (length (filter (inw (nanos Qops ws) k)
     (run_times (fw_code_step Qops) (mkFixedWindowPolicy Qops n ws None 0) ops))) <= n)%Z.
Proof.
  intros ws n Hw Hn ops k Hs.
  rewrite (run_times_sim (fw_code_step_ok Qops (nanos Qops ws) n) ops _ {| fw_start := None; fw_count := 0 |}) by (split; reflexivity).
  exact (fw_aligned_bound _ n Hw Hn ops k Hs).
Qed.
Print Assumptions c10_code_fixed_window_bound.

(** try_acquire and time_until_available of TokenBucketPolicy, LeakyBucketPolicy and FixedWindowPolicy
    AS TRANSLATED are the model functions (any arithmetic [O], so also the binary64 instance).
    SlidingWindowPolicy enters only through
    [c10_code_sliding_window_bound] (its time_until_available agrees with the model for max_requests > 0);
    AdaptivePolicy has the next theorem. *)
Theorem c10_code_policies_refine_models : forall (O : numops),
  (forall s now, let r := TokenBucketPolicy_try_acquire O s now in
     (tb_abs O (fst r), snd r) = tb_acquire O (tb_par O s) (tb_abs O s) now /\ tb_par O (fst r) = tb_par O s) /\
  (forall s now, let r := TokenBucketPolicy_time_until_available O s now in
     (tb_abs O (fst r), snd r) = tb_tua O (tb_par O s) (tb_abs O s) now /\ tb_par O (fst r) = tb_par O s) /\
  (forall s now, let r := LeakyBucketPolicy_try_acquire O s now in
     (LeakyBucketPolicy__last_leak_time O (fst r), snd r)
       = lk_acquire O (LeakyBucketPolicy__leak_interval O s) (LeakyBucketPolicy__last_leak_time O s) now
     /\ LeakyBucketPolicy__leak_interval O (fst r) = LeakyBucketPolicy__leak_interval O s) /\
  (forall s now, LeakyBucketPolicy_time_until_available O s now
       = lk_tua O (LeakyBucketPolicy__leak_interval O s) (LeakyBucketPolicy__last_leak_time O s) now) /\
  (forall s now, let r := FixedWindowPolicy_try_acquire O s now in
     (fw_abs O (fst r), snd r) = fw_acquire (fw_wn O s) (FixedWindowPolicy__requests_per_window O s) (fw_abs O s) now
     /\ fw_cfg O (fst r) = fw_cfg O s) /\
  (forall s now, let r := FixedWindowPolicy_time_until_available O s now in
     (fw_abs O (fst r), snd r) = fw_tua O (fw_wn O s) (FixedWindowPolicy__requests_per_window O s) (fw_abs O s) now
     /\ fw_cfg O (fst r) = fw_cfg O s).
Proof.
  intros O. exact (conj (tie_tb_acquire O) (conj (tie_tb_tua O) (conj (tie_lk_acquire O) (conj (tie_lk_tua O)
          (conj (tie_fw_acquire O) (tie_fw_tua O)))))).
Qed.
Print Assumptions c10_code_policies_refine_models.

(** AdaptivePolicy's token part AS TRANSLATED (_refill / try_acquire / time_until_available, any
    arithmetic [O], so also the binary64 instance): each is the model function on the abstraction
    (rate, tokens, last refill) when the model's window parameter is the object's; for
    time_until_available under a positive rate — which the constructor (min_rate > 0) and the AIMD
    updates (never below min_rate) guarantee — and then for ANY value standing for float("inf"). *)
Theorem c10_code_adaptive_refines_model : forall (O : numops) (p : adp O) (s : AdaptivePolicy O) now inf,
  ad_win p = AdaptivePolicy__window_size O s ->
  (let s' := fst (AdaptivePolicy__refill O s now) in
   ad_abs O s' = ad_refill O p (ad_abs O s) now /\ AdaptivePolicy__window_size O s' = AdaptivePolicy__window_size O s)
  /\ (let r := AdaptivePolicy_try_acquire O s now in
      (ad_abs O (fst r), snd r) = ad_acquire O p (ad_abs O s) now
      /\ AdaptivePolicy__window_size O (fst r) = AdaptivePolicy__window_size O s)
  /\ (nlt O (n0 O) (AdaptivePolicy__current_rate O s) = true ->
      let r := AdaptivePolicy_time_until_available O s now inf in
      (ad_abs O (fst r), snd r) = ad_tua O p (ad_abs O s) now
      /\ AdaptivePolicy__window_size O (fst r) = AdaptivePolicy__window_size O s).
Proof.
  intros O p s now inf Hw.
  exact (conj (tie_ad_refill O p s now Hw) (conj (tie_ad_acquire O p s now Hw) (fun Hr => tie_ad_tua O p s now inf Hw Hr))).
Qed.
Print Assumptions c10_code_adaptive_refines_model.
