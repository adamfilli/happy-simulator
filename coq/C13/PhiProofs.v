(** C13 — the phi-accrual suspicion level never decreases while no heartbeat arrives. *)
From HS Require Import Base.Prelude C13.PhiModel.
From Coq Require Import QArith Lqa.
Local Open Scope Q_scope.

Section PhiMonotone.
  Variable erfc log10 sqrt : Q -> Q.
  Variable sqrt2 : Q.
  Hypothesis erfc_antitone : forall x y, x <= y -> erfc y <= erfc x.
  Hypothesis log10_monotone : forall x y, 0 < x -> x <= y -> log10 x <= log10 y.
  Hypothesis sqrt2_pos : 0 < sqrt2.

  Notation phi := (phi erfc log10 sqrt sqrt2).
  Notation std_eff := (std_eff sqrt).

  Lemma std_eff_pos d : 0 < d_min_std d -> 0 < std_eff d.
  Proof.
    intros H. unfold PhiModel.std_eff. destruct (Qlt_le_dec _ _) as [L|L]; [assumption|].
    eapply Qlt_le_trans; eassumption.
  Qed.

  Lemma div_le_compat a b s : 0 < s -> a <= b -> a / s <= b / s.
  Proof.
    intros Hs Hab. unfold Qdiv. apply Qmult_le_compat_r; [assumption|].
    apply Qlt_le_weak, Qinv_lt_0_compat, Hs.
  Qed.

  (** The detector state [d] is the same at both instants (no heartbeat in between) and
      both instants are at or after the last heartbeat. *)
  Lemma phi_monotone d t1 t2 :
    0 < d_min_std d ->
    (forall l, d_last d = Some l -> l <= t1) ->
    t1 <= t2 ->
    ext_le (phi d t1) (phi d t2).
  Proof.
    intros Hms Hl Ht. unfold PhiModel.phi.
    destruct (d_last d) as [l|] eqn:EL; [|cbn; lra].
    specialize (Hl l eq_refl).
    destruct (d_ivs d) as [|iv ivs] eqn:EI; [cbn; lra|].
    destruct (Qlt_le_dec (t1 - l) 0) as [N1|N1]; [lra|].
    destruct (Qlt_le_dec (t2 - l) 0) as [N2|N2]; [lra|].
    set (s := std_eff d). assert (Hs : 0 < s) by (apply std_eff_pos; assumption).
    set (y1 := (t1 - l - mean d) / s). set (y2 := (t2 - l - mean d) / s).
    assert (Hy : y1 / sqrt2 <= y2 / sqrt2).
    { apply div_le_compat; [assumption|]. apply div_le_compat; [assumption|lra]. }
    pose proof (erfc_antitone _ _ Hy) as He.
    destruct (Qlt_le_dec 0 ((1 # 2) * erfc (y2 / sqrt2))) as [P2|P2]; [|destruct (Qlt_le_dec _ _); exact I].
    destruct (Qlt_le_dec 0 ((1 # 2) * erfc (y1 / sqrt2))) as [P1|P1]; [|lra].
    cbn. apply Qopp_le_compat. apply log10_monotone; [assumption|lra].
  Qed.

  (** before the last heartbeat the code returns 0.0 *)
  Lemma phi_before d l t : d_last d = Some l -> t - l < 0 -> phi d t = Fin 0.
  Proof.
    intros EL N. unfold PhiModel.phi. rewrite EL. destruct (d_ivs d); [reflexivity|].
    destruct (Qlt_le_dec (t - l) 0); [reflexivity|lra].
  Qed.

  (** phi is never negative: [erfc <= 2] makes the tail probability at most 1 *)
  Lemma phi_nonneg d t : (forall x, erfc x <= 2) -> log10 1 <= 0 -> ext_le (Fin 0) (phi d t).
  Proof.
    intros He2 Hl1. unfold PhiModel.phi.
    destruct (d_last d) as [l|]; [|cbn; lra]. destruct (d_ivs d); [cbn; lra|].
    destruct (Qlt_le_dec (t - l) 0); [cbn; lra|].
    pose proof (He2 ((t - l - mean d) / std_eff d / sqrt2)) as H2.
    destruct (Qlt_le_dec 0 _) as [P|P]; [|exact I].
    cbn. pose proof (log10_monotone _ 1 P). lra.
  Qed.

  (** A detector that never saw a heartbeat reports phi = 0: the member is available
      whenever the threshold is positive (this is what [c_thr_pos] stands for in Model.v). *)
  Lemma never_heard_available thr d now :
    d_last d = None -> is_available erfc log10 sqrt sqrt2 thr d now = if Qlt_le_dec 0 thr then true else false.
  Proof. intros H. unfold is_available, PhiModel.phi. rewrite H. reflexivity. Qed.
End PhiMonotone.

(** the hypotheses are satisfiable (a decreasing "erfc", an increasing "log10") *)
Example phi_hypotheses_satisfiable :
  exists (erfc log10 : Q -> Q) (sqrt2 : Q),
    (forall x y, x <= y -> erfc y <= erfc x) /\
    (forall x y, 0 < x -> x <= y -> log10 x <= log10 y) /\ 0 < sqrt2.
Proof.
  exists (fun x => 1 - x), (fun x => x), (7 # 5). repeat split; intros; lra.
Qed.
