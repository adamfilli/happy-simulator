(** Property C14 — the theorems the check counts as obligations, each a few
    lines from the lemmas of the proof files, and [Print Assumptions]. *)
From HS Require Import Base.Prelude C14.Model C14.LsmProofs C14.SeqProofs C14.ConcProofs C14.KvTxnModel C14.KvTxnProofs C14.BtModel C14.BtProofs C14.BtRep C14.BtIns C14.BtOps
  Gen.MemtableGen C14.MemTie.
Local Open Scope Z_scope.

(** LSM tree, sequential operations: after ANY sequence of put/delete (any
    memtable size, any number of levels >= 1, any of the three compaction
    strategies with any parameters, any Bloom filter without false negatives)
    every read equals the read on a map fed the same writes; deleted keys stay
    deleted across every flush and compaction. *)
Theorem c14_lsm_get_refines_map : forall bl,
  (forall ks k, In k ks -> bl ks k = true) ->
  forall c ops k, (nlev c >= 1)%nat -> lsm_get bl (run c ops) k = spec_of ops k.
Proof. exact lsm_get_refines_map. Qed.
Print Assumptions c14_lsm_get_refines_map.

(** Scans return exactly the live keys of the range in sorted order. *)
Theorem c14_lsm_scan_exact : forall c ops lo hi, (nlev c >= 1)%nat ->
  let r := lsm_scan lo hi (run c ops) in
  strictly_increasing (map fst r) /\
  forall k v, In (k, v) r <-> (lo <= k < hi /\ spec_of ops k = Some v).
Proof. exact lsm_scan_exact. Qed.
Print Assumptions c14_lsm_scan_exact.

(** One compaction step (any source level) changes no lookup, except that a
    tombstone may disappear from the deepest level. *)
Theorem c14_lsm_compaction_preserves_lookups : forall s ls k,
  lv_sorted ls -> lv_disj (tl ls) ->
  same_or_dropped (lsget k ls) (lsget k (compact_levels s ls)).
Proof. exact compact_lookup. Qed.
Print Assumptions c14_lsm_compaction_preserves_lookups.

(** Generator API (step machine, one state per yield): operations that run
    alone — segments not interleaved with another operation's — return exactly
    the reference map's values.  PARTIAL counterpart of the refuted overlap
    clause below. *)
Theorem c14_lsm_alone_partial : forall bl, (forall ks k, In k ks -> bl ks k = true) ->
  forall c fuel ops st' outs, (nlev c >= 1)%nat ->
  seq_exec fuel c bl (c_init c) ops = Some (st', outs) ->
  forall i k, nth_error ops i = Some (Get k) ->
  nth_error outs i = Some (OGet (spec_of (firstn i ops) k)).
Proof.
  intros bl Hb c fuel ops st' outs Hn H i k Hi.
  rewrite (seq_exec_out bl Hb c fuel ops st' outs H i (Get k) Hi). cbn [op_out].
  rewrite (lsm_get_refines_map bl Hb c (firstn i ops) k Hn). reflexivity.
Qed.
Print Assumptions c14_lsm_alone_partial.

Theorem c14_lsm_alone_scan_partial : forall bl, (forall ks k, In k ks -> bl ks k = true) ->
  forall c fuel ops st' outs, (nlev c >= 1)%nat ->
  seq_exec fuel c bl (c_init c) ops = Some (st', outs) ->
  forall i lo hi, nth_error ops i = Some (Scan lo hi) ->
  exists r, nth_error outs i = Some (OScan r) /\ strictly_increasing (map fst r) /\
    forall k v, In (k, v) r <-> (lo <= k < hi /\ spec_of (firstn i ops) k = Some v).
Proof.
  intros bl Hb c fuel ops st' outs Hn H i lo hi Hi. exists (lsm_scan lo hi (run c (firstn i ops))).
  split; [exact (seq_exec_out bl Hb c fuel ops st' outs H i (Scan lo hi) Hi)|].
  exact (lsm_scan_exact c (firstn i ops) lo hi Hn).
Qed.
Print Assumptions c14_lsm_alone_scan_partial.

(** Overlapping operations (generator API as a step machine, any schedule):
    the full overlap clause is REFUTED on the faithful model — known finding
    C14-lsm-compaction-not-isolated (a deleted key is readable again; the read
    overlaps nothing). *)
Theorem c14_lsm_overlap_refuted : ~ lsm_overlap_statement.
Proof. exact lsm_overlap_refuted. Qed.
Print Assumptions c14_lsm_overlap_refuted.

(** Second, independent mechanism: a scan suspended while a compaction swaps
    the level it iterates over loses keys — known finding
    C14-lsm-read-overlaps-compaction. *)
Theorem c14_lsm_scan_overlap_refuted : reads_ok (history w2_cfg bl_exact w2_sched) = false.
Proof. exact lsm_scan_overlap_refuted. Qed.
Print Assumptions c14_lsm_scan_overlap_refuted.

(** KVStore (no capacity limit), ANY overlap: results and final contents are
    those of executing the operations one at a time in completion order ... *)
Theorem c14_kv_linearizable : forall sch d ps,
  let '(w', es) := kv_run (d, ps) sch in
  kv_seq d (map ev_op es) = (fst w', map ev_out es).
Proof. exact kv_linearizable. Qed.
Print Assumptions c14_kv_linearizable.

(** ... and that sequential execution is a map: a read returns the latest
    preceding write to its key (a completion-point linearization lies inside
    every operation's interval, so this is the overlap clause for the KVStore). *)
Theorem c14_kv_seq_is_map : forall ops d m, dsorted d -> (forall k, dget k d = m k) ->
  forall i k, nth_error ops i = Some (KGet k) ->
  nth_error (snd (kv_seq d ops)) i = Some (KOGet (fold_left kspec_apply (firstn i ops) m k)).
Proof. exact kv_seq_is_map. Qed.
Print Assumptions c14_kv_seq_is_map.

(** Transactions, ANY interleaving, any mix of isolation levels: every value a
    committed SERIALIZABLE transaction read from the store is the value current
    at its commit instant, where its writes are applied atomically.  (This is
    the read validation on which equivalence to the serial execution in commit
    order rests; that equivalence itself is not stated.) *)
Theorem c14_occ_serializable : forall sch id t,
  tx_get id (m_txs (fst (t_run sch))) = Some t ->
  t_status t = Committed -> t_iso t = SER ->
  forall k v, In (k, v) (t_reads t) -> dget k (t_cstore t) = v.
Proof.
  intros sch id t Hg Hc Hs. destruct (run_inv sch) as (H1 & _).
  destruct (H1 id t Hg) as (_ & _ & D). rewrite Hc in D. exact (D Hs).
Qed.
Print Assumptions c14_occ_serializable.

(** Snapshot isolation reads from one snapshot: REFUTED (known finding
    C14-si-reads-live). *)
Theorem c14_si_snapshot_refuted : ~ si_statement.
Proof. exact si_snapshot_refuted. Qed.
Print Assumptions c14_si_snapshot_refuted.

(** B-tree (btree.py: B+-tree over a heap of mutable node objects, preemptive
    split of full children on the way down, deletion without rebalancing),
    sequential API: after ANY sequence of put_sync / delete / get_sync / scan,
    for every order >= 2, get_sync returns the reference map's value. *)
Theorem c14_btree_get_refines_map : forall ord ops k, 2 <= ord ->
  bt_get_sync (bt_run ord ops) k = spec_of (map conv_op ops) k.
Proof.
  intros ord ops k Ho. destruct (bt_run_inv ord ops Ho) as (kvs & I & E). rewrite (bt_get_ok _ kvs k I). apply E.
Qed.
Print Assumptions c14_btree_get_refines_map.

(** B-tree scans return exactly the live keys of the range in increasing order. *)
Theorem c14_btree_scan_exact : forall ord ops lo hi, 2 <= ord ->
  let r := bt_scan (bt_run ord ops) lo hi in
  strictly_increasing (map fst r) /\
  forall k v, In (k, v) r <-> (lo <= k < hi /\ spec_of (map conv_op ops) k = Some v).
Proof.
  intros ord ops lo hi Ho. cbv zeta. destruct (bt_run_inv ord ops Ho) as (kvs & I & E).
  rewrite (bt_scan_ok _ kvs lo hi I). pose proof (bt_inv_sorted _ _ I) as K.
  split; [apply asorted_increasing, asorted_filter, K|].
  intros k v. unfold range. rewrite filter_In. cbn [fst]. fold (rng lo hi k). rewrite (alookup_in kvs K k v), E.
  split; intros [A B]; split; auto; apply rng_spec; assumption.
Qed.
Print Assumptions c14_btree_scan_exact.

(** B-tree delete reports whether the key was live (deleted keys stay deleted:
    [c14_btree_get_refines_map] with the reference map's delete). *)
Theorem c14_btree_delete_reports : forall ord ops k, 2 <= ord ->
  snd (bt_delete (bt_run ord ops) k) = (if spec_of (map conv_op ops) k then true else false).
Proof.
  intros ord ops k Ho. destruct (bt_run_inv ord ops Ho) as (kvs & I & E).
  rewrite (proj2 (bt_delete_ok _ kvs k I)), E. reflexivity.
Qed.
Print Assumptions c14_btree_delete_reports.

(** B-tree, overlapping operations: REFUTED (known finding
    C14-btree-get-overlaps-split). *)
Theorem c14_btree_overlap_refuted : ~ bt_overlap_statement.
Proof. exact bt_overlap_refuted. Qed.
Print Assumptions c14_btree_overlap_refuted.

(** Memtable.put_sync / get_sync / contains / size / is_full, regenerated from
    components/storage/memtable.py on every run (Gen/MemtableGen.v), against the key-sorted table the
    LSM model keeps as its memtable: under the representation relation [mem_rep] (same lookups through
    any value encoding [venc], same size; the code's dict is insertion ordered, the model's table key
    sorted) put_sync is the model's [sset] and reports "full" exactly when the model's size reaches the
    threshold, and the reads return what the model table holds.  The empty memtable represents []. *)
Theorem c14_code_memtable_refines_model : forall (venc : sval -> Z) (m : Memtable) t k v,
  mem_rep venc (Memtable__data m) t ->
  (let '(m', full) := Memtable_put_sync m k (venc v) in
   mem_rep venc (Memtable__data m') (C14.Model.sset k v t)
   /\ full = (C14.Model.zlen (C14.Model.sset k v t) >=? Memtable__size_threshold m)
   /\ Memtable__size_threshold m' = Memtable__size_threshold m)
  /\ (snd (Memtable_get_sync m k) = option_map venc (C14.Model.assoc k t)
      /\ Memtable__data (fst (Memtable_get_sync m k)) = Memtable__data m
      /\ Memtable_contains m k = match C14.Model.assoc k t with Some _ => true | None => false end
      /\ Memtable_size m = C14.Model.zlen t
      /\ Memtable_is_full m = (C14.Model.zlen t >=? Memtable__size_threshold m))
  /\ mem_rep venc [] [].
Proof.
  intros venc m t k v H.
  exact (conj (tie_put_sync venc m t k v H) (conj (tie_mem_reads venc m t k H) (mem_rep_empty venc))).
Qed.
Print Assumptions c14_code_memtable_refines_model.

(** The translated Memtable alone: after ANY sequence of put_sync calls on an empty memtable, get_sync
    returns the value of the LAST put under that key (None for a key never written) and contains agrees. *)
Theorem c14_code_memtable_read_latest : forall thr l k,
  let m := puts (mkMemtable thr [] 0 0 0 0 0) l in
  snd (Memtable_get_sync m k) = last_put k l None
  /\ Memtable_contains m k = match last_put k l None with Some _ => true | None => false end.
Proof.
  intros thr l k m. unfold Memtable_get_sync, Memtable_contains. cbn.
  rewrite dmem_dfind. unfold m. rewrite puts_find. cbn. destruct (last_put k l None); split; reflexivity.
Qed.
Print Assumptions c14_code_memtable_read_latest.
