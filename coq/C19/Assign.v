(** C19 — the three partition-assignment strategies give every partition to
    exactly one member (proofs over C19/StreamModel.v). *)
From HS Require Import Base.Prelude C19.Model C19.Lists C19.StreamModel.
Local Open Scope Z_scope.

Definition keys (m : assignment) : list Z := map fst m.
(** Number of occurrences of partition [x] over all members' lists. *)
Definition tot (x : Z) (m : assignment) : Z := cnt x (concat (map snd m)).

Definition covers (parts names : list Z) (a : assignment) : Prop :=
  (forall x, tot x a = cnt x parts) /\ keys a = names.

Lemma tot_cons x k l m : tot x ((k, l) :: m) = cnt x l + tot x m.
Proof. unfold tot. cbn. apply cnt_app. Qed.

Lemma keys_tabulate (g : Z -> list Z) names : keys (map (fun nm => (nm, g nm)) names) = names.
Proof. unfold keys. rewrite map_map. apply map_id. Qed.

Lemma tot_tabulate_0 x (g : Z -> list Z) names :
  (forall nm, cnt x (g nm) = 0) -> tot x (map (fun nm => (nm, g nm)) names) = 0.
Proof. intros H. induction names as [|nm r IH]; [reflexivity|]. cbn [map]. rewrite tot_cons, IH, H. reflexivity. Qed.

Lemma keys_map_snd (g : list Z -> list Z) m : keys (map (fun e => (fst e, g (snd e))) m) = keys m.
Proof. unfold keys. rewrite map_map. reflexivity. Qed.

Lemma tot_map_snd x (g : list Z -> list Z) m :
  (forall l, cnt x (g l) = cnt x l) -> tot x (map (fun e => (fst e, g (snd e))) m) = tot x m.
Proof. intros H. induction m as [|[k l] r IH]; [reflexivity|]. cbn [map fst snd]. rewrite !tot_cons, IH, H. reflexivity. Qed.

Lemma cnt_zinsert x y l : cnt x (zinsert y l) = (if x =? y then 1 else 0) + cnt x l.
Proof.
  induction l as [|z r IH]; [reflexivity|]. cbn [zinsert]. destruct (y <=? z); cbn [cnt]; [reflexivity|]. rewrite IH. lia.
Qed.

Lemma cnt_zsort x l : cnt x (zsort l) = cnt x l.
Proof. unfold zsort. induction l as [|y r IH]; [reflexivity|]. cbn [fold_right cnt]. rewrite cnt_zinsert, IH. reflexivity. Qed.

Lemma In_zsort x l : In x (zsort l) <-> In x l.
Proof. rewrite <- !cnt_In, cnt_zsort. tauto. Qed.

Lemma NoDup_zsort l : NoDup l -> NoDup (zsort l).
Proof. rewrite !NoDup_cnt. intros H x. rewrite cnt_zsort. apply H. Qed.

Lemma zsort_nil l : zsort l = [] -> l = [].
Proof.
  destruct l as [|y r]; [reflexivity|]. intros H. exfalso.
  assert (HI : In y (zsort (y :: r))) by (apply In_zsort; left; reflexivity). rewrite H in HI. exact HI.
Qed.

Lemma cnt_zrange x n : 0 <= n -> cnt x (zrange n) = if (0 <=? x) && (x <? n) then 1 else 0.
Proof. intros H. unfold zrange. rewrite cnt_zseq, Z2Nat.id by lia. reflexivity. Qed.

Lemma NoDup_zrange n : NoDup (zrange n).
Proof. apply NoDup_cnt. intros x. unfold zrange. rewrite cnt_zseq. destruct (_ && _); lia. Qed.

(** RangeAssignment hands out consecutive blocks of [base] or [base + 1] partitions. *)
Lemma range_go_concat names : forall parts base rem i,
  0 <= base -> zlen parts = zlen names * base + Z.max 0 (rem - i) -> rem - i <= zlen names ->
  concat (map snd (range_go parts base rem i names)) = parts /\ keys (range_go parts base rem i names) = names.
Proof.
  induction names as [|nm r IH]; intros parts base rem i HB HL HR; cbn [range_go map concat keys].
  - split; [|reflexivity]. destruct parts; [reflexivity|]. rewrite zlen_cons in HL. change (zlen []) with 0 in *.
    pose proof (zlen_nonneg parts). lia.
  - rewrite zlen_cons in HL, HR. rewrite Z.mul_add_distr_r, Z.mul_1_l in HL.
    pose proof (Z.mul_nonneg_nonneg _ _ (zlen_nonneg r) HB) as NN.
    (* this member gets [count] partitions: [base], and one more while [i < rem] *)
    set (count := Z.to_nat (base + (if i <? rem then 1 else 0))).
    assert (HC : Z.of_nat count = base + Z.min 1 (Z.max 0 (rem - i))) by (unfold count; destruct (Z.ltb_spec i rem); lia).
    clearbody count. destruct (IH (skipn count parts) base rem (i + 1) HB) as [E1 E2].
    + rewrite zlen_skipn; lia.
    + lia.
    + cbn [fst snd]. unfold keys in E2. rewrite E1, E2, firstn_skipn. split; reflexivity.
Qed.

Lemma assign_range_covers parts names : names <> [] -> covers parts names (assign_range parts names).
Proof.
  intros NE. unfold assign_range. destruct names as [|nm r] eqn:E; [contradiction|]. rewrite <- E in *.
  assert (H : 0 < zlen names) by (subst names; rewrite zlen_cons; pose proof (zlen_nonneg r); lia).
  pose proof (zlen_nonneg parts) as HP. pose proof (Z.mod_pos_bound (zlen parts) (zlen names) H) as HM.
  pose proof (Z.div_mod (zlen parts) (zlen names) ltac:(lia)) as DM.
  pose proof (Z.div_pos (zlen parts) (zlen names) HP H) as DP.
  (* quotient and remainder are just numbers from here on *)
  set (q := zlen parts / zlen names) in *. set (m := zlen parts mod zlen names) in *. clearbody q m.
  destruct (range_go_concat names parts q m 0) as [E1 E2]; [exact DP|lia|lia|].
  split; [|exact E2]. intros x. unfold tot. rewrite E1. reflexivity.
Qed.

Lemma keys_add_to k p m : keys (add_to k p m) = keys m.
Proof.
  induction m as [|[k' l] r IH]; [reflexivity|]. cbn [add_to]. destruct (k =? k'); [reflexivity|].
  unfold keys in *. cbn [map fst]. rewrite IH. reflexivity.
Qed.

Lemma tot_add_to x k p m : In k (keys m) -> tot x (add_to k p m) = tot x m + (if x =? p then 1 else 0).
Proof.
  induction m as [|[k' l] r IH]; [intros []|]. cbn [keys map fst add_to]. intros HI.
  destruct (Z.eqb_spec k k').
  - rewrite !tot_cons, cnt_app. cbn [cnt]. lia.
  - rewrite !tot_cons. rewrite IH; [lia|]. destruct HI as [E|HI]; [congruence|exact HI].
Qed.

Lemma rr_go_spec parts : forall i names m,
  names <> [] -> keys m = names ->
  (forall x, tot x (rr_go parts i names m) = tot x m + cnt x parts) /\ keys (rr_go parts i names m) = names.
Proof.
  induction parts as [|p r IH]; intros i names m NE HK; cbn [rr_go cnt].
  - split; [intros x; lia|exact HK].
  - destruct (IH (i + 1) names (add_to (nth_mod names i) p m) NE) as [E1 E2]; [rewrite keys_add_to; exact HK|].
    split; [|exact E2]. intros x. rewrite E1, tot_add_to; [lia|]. rewrite HK. apply nth_mod_In. exact NE.
Qed.

Lemma assign_rr_covers parts names : names <> [] -> covers parts names (assign_rr parts names).
Proof.
  intros NE. unfold assign_rr. destruct names as [|nm r] eqn:E; [contradiction|]. rewrite <- E in *.
  destruct (rr_go_spec parts 0 names (map (fun nm => (nm, [])) names) NE (keys_tabulate _ names)) as [E1 E2].
  split; [|exact E2]. intros x. rewrite E1, tot_tabulate_0; reflexivity.
Qed.

Lemma least_loaded_In m : forall best bl, In (least_loaded m best bl) (best :: keys m).
Proof.
  induction m as [|[k l] r IH]; intros best bl; cbn [least_loaded keys map fst]; [left; reflexivity|].
  destruct (zlen l <? bl).
  - destruct (IH k (zlen l)) as [E|HI]; [right; left; exact E|right; right; exact HI].
  - destruct (IH best bl) as [E|HI]; [left; exact E|right; right; exact HI].
Qed.

Lemma pick_target_In m : m <> [] -> In (pick_target m) (keys m).
Proof. destruct m as [|[k l] r]; [contradiction|]. intros _. cbn [pick_target]. apply least_loaded_In. Qed.

Lemma sticky_fill_spec un : forall m, m <> [] ->
  (forall x, tot x (sticky_fill un m) = tot x m + cnt x un) /\ keys (sticky_fill un m) = keys m.
Proof.
  induction un as [|p r IH]; intros m NE; cbn [sticky_fill cnt]; [split; [intros x; lia|reflexivity]|].
  assert (NE' : add_to (pick_target m) p m <> []).
  { intros E. apply (f_equal keys) in E. rewrite keys_add_to in E. destruct m; [contradiction|discriminate]. }
  destruct (IH _ NE') as [E1 E2]. rewrite E2, keys_add_to. split; [|reflexivity].
  intros x. rewrite E1, tot_add_to by (apply pick_target_In; exact NE). lia.
Qed.

Definition kept_of (prev : assignment) (parts names : list Z) : assignment :=
  map (fun nm => (nm, match lookup nm prev with
                      | Some l => filter (fun p => mem p parts) l
                      | None => [] end)) names.

Lemma tot_remkey x k (m : assignment) : cnt x (aget k m) + tot x (remkey k m) <= tot x m.
Proof.
  unfold aget. induction m as [|[k' l] r IH]; [cbn; lia|]. cbn [lookup remkey]. destruct (k =? k').
  - rewrite tot_cons. pose proof (cnt_nonneg x (match lookup k r with Some l0 => l0 | None => [] end)). lia.
  - rewrite !tot_cons. lia.
Qed.

(** Distinct names select distinct entries of [prev]: the kept lists together
    contain a partition at most as often as [prev] does.  Each name uses up its
    entry, so the induction removes it from [prev]. *)
Lemma tot_kept_le x parts names : forall prev, NoDup names -> tot x (kept_of prev parts names) <= tot x prev.
Proof.
  induction names as [|nm q IH]; intros prev ND; [apply cnt_nonneg|].
  inversion ND as [|? ? NI ND']; subst. unfold kept_of. cbn [map]. rewrite tot_cons.
  replace (map _ q) with (kept_of (remkey nm prev) parts q).
  - specialize (IH (remkey nm prev) ND'). pose proof (tot_remkey x nm prev). unfold aget in *.
    destruct (lookup nm prev) as [l|]; [pose proof (cnt_filter_le x (fun p => mem p parts) l)|cbn [cnt] in *]; lia.
  - apply map_ext_in. intros k Hk. rewrite lookup_remkey_other; [reflexivity|]. intros ->. contradiction.
Qed.

Lemma tot_kept_outside x prev parts names : mem x parts = false -> tot x (kept_of prev parts names) = 0.
Proof.
  intros H. apply tot_tabulate_0. intros nm. destruct (lookup nm prev); [|reflexivity]. rewrite cnt_filter, H. reflexivity.
Qed.

(** Kept partitions stay, the others are dealt out: a partition of [parts] is
    either kept (once, as [prev] holds it at most once) or unassigned (once, as
    [parts] has no duplicates), never both. *)
Lemma assign_sticky_covers prev parts names :
  names <> [] -> NoDup names -> NoDup parts -> (forall x, tot x prev <= 1) ->
  covers parts names (assign_sticky prev parts names).
Proof.
  intros NE NDn NDp HP. unfold assign_sticky. destruct names as [|nm0 r0] eqn:E; [contradiction|]. rewrite <- E in *.
  fold (kept_of prev parts names). set (kept := kept_of prev parts names).
  assert (KNE : kept <> []) by (unfold kept; rewrite E; discriminate).
  destruct (sticky_fill_spec (filter (fun p => negb (mem p (concat (map snd kept)))) parts) kept KNE) as [E1 E2].
  split; [|rewrite keys_map_snd, E2; apply keys_tabulate].
  intros x. rewrite (tot_map_snd x zsort) by (intros l; apply cnt_zsort). rewrite E1, cnt_filter.
  pose proof (tot_kept_le x parts names prev NDn) as LE. specialize (HP x). fold kept in LE.
  pose proof (proj1 (NoDup_cnt parts) NDp x) as P1. pose proof (cnt_nonneg x parts) as P0.
  pose proof (cnt_nonneg x (concat (map snd kept))) as K0. rewrite mem_cnt. fold (tot x kept) in *.
  destruct (Z.ltb_spec 0 (tot x kept)); cbn [negb]; [|lia]. destruct (mem x parts) eqn:EP.
  - rewrite mem_cnt in EP. lia.
  - pose proof (tot_kept_outside x prev parts names EP) as Z0. fold kept in Z0. lia.
Qed.
